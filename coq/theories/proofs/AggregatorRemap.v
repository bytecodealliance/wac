(** [remap_value_type] / [remap_defined_type] / [remap_func_type] copy a resource-free type of a contributor's
    collection into the aggregator's collection without changing its tree; the aggregator's arenas only grow.
    [leaf_sound]: the same for [remap_item_kind] on leaf kinds. *)
From WacV Require Import Str Ord Semver Names Types Checker Aggregator.
From WacV Require Import SemverProofs CheckerEq CheckerValue CheckerProofs AggregatorFrame ListFacts.

Definition prefix {A} (l l' : list A) : Prop := exists r, l' = l ++ r.
Lemma prefix_refl {A} (l : list A) : prefix l l. Proof. exists []. now rewrite app_nil_r. Qed.
Lemma prefix_trans {A} (a b c : list A) : prefix a b -> prefix b c -> prefix a c.
Proof. intros [r ->] [s ->]. exists (r ++ s). now rewrite app_assoc. Qed.
Lemma prefix_app {A} (l r : list A) : prefix l (l ++ r). Proof. now exists r. Qed.
Lemma lookup_prefix {A} tag (l l' : list A) i x : prefix l l' -> lookup tag l i = Some x -> lookup tag l' i = Some x.
Proof.
  intros [r ->]. unfold lookup. destruct (id_tag i =? tag); [|discriminate]. intros H.
  rewrite nth_error_app1; auto. apply nth_error_Some. congruence.
Qed.

(** [t'] has the value-level arenas of [t] as prefixes *)
Record ext (t t' : types) : Prop := {
  ext_tag : t_tag t' = t_tag t;
  ext_def : prefix (t_defined t) (t_defined t');
  ext_res : prefix (t_resources t) (t_resources t');
  ext_func : prefix (t_funcs t) (t_funcs t') }.
Lemma ext_refl t : ext t t. Proof. split; auto using prefix_refl. Qed.
Lemma ext_trans a b c : ext a b -> ext b c -> ext a c.
Proof. intros [A1 A2 A3 A4] [B1 B2 B3 B4]. split; eauto using prefix_trans. congruence. Qed.

Lemma get_def_ext t t' d x : ext t t' -> get_def t d = Some x -> get_def t' d = Some x.
Proof. intros E. unfold get_def. rewrite (ext_tag _ _ E). apply lookup_prefix, E. Qed.
Lemma get_res_ext t t' d x : ext t t' -> get_res t d = Some x -> get_res t' d = Some x.
Proof. intros E. unfold get_res. rewrite (ext_tag _ _ E). apply lookup_prefix, E. Qed.
Lemma get_func_ext t t' d x : ext t t' -> get_func t d = Some x -> get_func t' d = Some x.
Proof. intros E. unfold get_func. rewrite (ext_tag _ _ E). apply lookup_prefix, E. Qed.

Lemma res_name_of_ext t t' : ext t t' -> forall g r n, res_name_of g t r = Some n -> res_name_of g t' r = Some n.
Proof.
  intros E. induction g as [|g IH]; intros r n; [discriminate|]. cbn [res_name_of].
  destruct (get_res t r) as [x|] eqn:Er; [|discriminate]. rewrite (get_res_ext _ _ _ _ E Er).
  destruct (res_source x); auto.
Qed.

Lemma unfold_vt_body_change_t U rn t t' v tr :
  (forall d x, get_def t d = Some x -> get_def t' d = Some x) ->
  unfold_vt_body U rn t v = Some tr -> unfold_vt_body U rn t' v = Some tr.
Proof.
  intros H. destruct v as [p|r|r|d]; cbn [unfold_vt_body]; auto.
  destruct (get_def t d) as [x|] eqn:E; [|discriminate]. now rewrite (H _ _ E).
Qed.

Lemma unfold_vt_ext t t' : ext t t' -> forall g v tr, unfold_vt g t v = Some tr -> unfold_vt g t' v = Some tr.
Proof.
  intros E. induction g as [|g IH]; intros v tr; [discriminate|].
  rewrite !unfold_vt_eq. intros H. apply (unfold_vt_body_change_t _ _ t t') in H; [|intros; eapply get_def_ext; eauto].
  eapply unfold_vt_body_ext; [| |exact H]; [exact IH|]. intros r n. now apply res_name_of_ext.
Qed.

Lemma unfold_func_ext t t' : ext t t' -> forall g i ft, unfold_func g t i = Some ft -> unfold_func g t' i = Some ft.
Proof.
  intros E g i ft. unfold unfold_func. destruct (get_func t i) as [x|] eqn:Ef; [|discriminate].
  rewrite (get_func_ext _ _ _ _ E Ef).
  destruct (map_snd (unfold_vt g t) (f_params x)) as [ps|] eqn:E1; [|discriminate].
  destruct (omap (unfold_vt g t) (f_result x)) as [r|] eqn:E2; [|discriminate].
  rewrite (map_snd_ext _ (unfold_vt g t') _ _ (unfold_vt_ext _ _ E g) E1).
  now rewrite (omap_ext _ (unfold_vt g t') _ _ (unfold_vt_ext _ _ E g) E2).
Qed.

(** * Denotations without the fuel *)
Definition Unf (t : types) (v : valtype) (tr : vtree) : Prop := exists g, unfold_vt g t v = Some tr.
Definition UnfF (t : types) (i : id) (ft : ftree) : Prop := exists g, unfold_func g t i = Some ft.
Definition UnfK (agg : types) (k : kind) (tr : tree) : Prop := exists g, unfold g agg k = Some tr.

Lemma Unf_ext t t' v tr : ext t t' -> Unf t v tr -> Unf t' v tr.
Proof. intros E [g H]. exists g. eapply unfold_vt_ext; eauto. Qed.
Lemma UnfF_ext t t' i ft : ext t t' -> UnfF t i ft -> UnfF t' i ft.
Proof. intros E [g H]. exists g. eapply unfold_func_ext; eauto. Qed.
Lemma Unf_det t v a b : Unf t v a -> Unf t v b -> a = b.
Proof.
  intros [g1 H1] [g2 H2]. apply (unfold_vt_mono g1 (Nat.max g1 g2)) in H1; [|apply Nat.le_max_l].
  apply (unfold_vt_mono g2 (Nat.max g1 g2)) in H2; [|apply Nat.le_max_r]. congruence.
Qed.

Lemma Unf_def_tag t d tr : Unf t (VDefined d) tr -> id_tag d = t_tag t.
Proof.
  intros [[|g] H]; [discriminate|]. rewrite unfold_vt_eq in H. cbn [unfold_vt_body] in H.
  destruct (get_def t d) eqn:E; [|discriminate]. unfold get_def in E. now apply lookup_tag in E.
Qed.
Lemma UnfF_tag t i ft : UnfF t i ft -> id_tag i = t_tag t.
Proof.
  intros [g H]. unfold unfold_func in H. destruct (get_func t i) eqn:E; [|discriminate]. unfold get_func in E. now apply lookup_tag in E.
Qed.
Lemma UnfF_det t i a b : UnfF t i a -> UnfF t i b -> a = b.
Proof.
  intros [g1 H1] [g2 H2]. apply (unfold_func_mono g1 (Nat.max g1 g2)) in H1; [|apply Nat.le_max_l].
  apply (unfold_func_mono g2 (Nat.max g1 g2)) in H2; [|apply Nat.le_max_r]. congruence.
Qed.
Lemma UnfK_det T k a b : UnfK T k a -> UnfK T k b -> a = b.
Proof.
  intros [g1 H1] [g2 H2]. apply (unfold_mono g1 (Nat.max g1 g2)) in H1; [|apply Nat.le_max_l].
  apply (unfold_mono g2 (Nat.max g1 g2)) in H2; [|apply Nat.le_max_r]. congruence.
Qed.

(** common fuel for the children *)
Lemma Unf_all t vs trs : Forall2 (Unf t) vs trs -> exists g, all_some (map (unfold_vt g t) vs) = Some trs.
Proof.
  induction 1 as [|v tr vs trs [g1 H1] _ [g2 H2]]; [exists O; reflexivity|].
  exists (Nat.max g1 g2). cbn [map all_some]. rewrite (unfold_vt_mono g1 _ t v tr (Nat.le_max_l g1 g2) H1).
  now rewrite (all_some_map_ext _ (unfold_vt (Nat.max g1 g2) t) _ _ (fun x y => unfold_vt_mono g2 _ t x y (Nat.le_max_r g1 g2)) H2).
Qed.
Definition UnfO (t : types) (o : option valtype) (otr : option vtree) : Prop :=
  match o, otr with Some v, Some tr => Unf t v tr | None, None => True | _, _ => False end.
Lemma UnfO_omap t o otr : UnfO t o otr -> exists g, omap (unfold_vt g t) o = Some otr.
Proof.
  destruct o as [v|], otr as [tr|]; cbn [UnfO]; try contradiction.
  - intros [g H]. exists g. cbn [omap]. now rewrite H.
  - intros _. exists O. reflexivity.
Qed.
Lemma omap_mono g g' t o otr : (g <= g')%nat -> omap (unfold_vt g t) o = Some otr -> omap (unfold_vt g' t) o = Some otr.
Proof. intros L. apply omap_ext. intros x y. now apply unfold_vt_mono. Qed.
Lemma named_common {A B} (U : nat -> A -> option B) :
  (forall g g' x y, (g <= g')%nat -> U g x = Some y -> U g' x = Some y) ->
  forall (l : list (str * A)) (l' : list (str * B)),
    Forall2 (fun a b => fst a = fst b /\ exists g, U g (snd a) = Some (snd b)) l l' -> exists g, map_snd (U g) l = Some l'.
Proof.
  intros mono l l'. unfold map_snd. induction 1 as [|[n v] [n' tr] l l' [En [g1 H1]] _ [g2 H2]]; [exists O; reflexivity|].
  cbn [fst snd] in *. subst n'. exists (Nat.max g1 g2). cbn [map all_some fst snd].
  rewrite (mono g1 _ v tr (Nat.le_max_l g1 g2) H1).
  assert (X : all_some (map (fun kv : str * A => match U (Nat.max g1 g2) (snd kv) with
                                                 | Some y => Some (fst kv, y) | None => None end) l) = Some l').
  { apply (map_snd_ext (U g2) (U (Nat.max g1 g2)) l l'); [|exact H2]. intros x y. apply mono. apply Nat.le_max_r. }
  now rewrite X.
Qed.
Lemma Unf_named t (l : list (str * valtype)) (l' : list (str * vtree)) :
  Forall2 (fun a b => fst a = fst b /\ Unf t (snd a) (snd b)) l l' -> exists g, map_snd (unfold_vt g t) l = Some l'.
Proof. apply (named_common (fun g => unfold_vt g t)). intros g g' x y. apply unfold_vt_mono. Qed.
Lemma Unf_named_opt t (l : list (str * option valtype)) (l' : list (str * option vtree)) :
  Forall2 (fun a b => fst a = fst b /\ UnfO t (snd a) (snd b)) l l' -> exists g, map_snd (omap (unfold_vt g t)) l = Some l'.
Proof.
  intros H. apply (named_common (fun g => omap (unfold_vt g t))); [intros g g' x y; apply omap_mono|].
  eapply Forall2_impl; [|exact H]. intros a b [E Hu]. split; auto. now apply UnfO_omap.
Qed.

Lemma omap_inv {A B} (U : A -> option B) o o' :
  omap U o = Some o' -> match o, o' with Some x, Some y => U x = Some y | None, None => True | _, _ => False end.
Proof. destruct o as [x|]; cbn [omap]; [destruct (U x); [|discriminate]|]; intros H; injection H as <-; auto. Qed.

Lemma vt_resfree_opt (o : option vtree) :
  match o with Some y => vt_resfree y | None => true end = true -> forall y, o = Some y -> vt_resfree y = true.
Proof. intros H y ->. exact H. Qed.

Lemma mapM_inv {A B} (Inv : core -> Prop) (Q : A -> B -> core -> Prop) (R : core -> core -> Prop)
      (f : A -> M B) (l : list A) :
  (forall c, R c c) -> (forall a b c, R a b -> R b c -> R a c) ->
  (forall x y (c' c'' : core), Q x y c' -> R c' c'' -> Q x y c'') ->
  (forall x, In x l -> forall c y c', Inv c -> f x c = AOk (y, c') -> Inv c' /\ R c c' /\ Q x y c') ->
  forall c ys c', Inv c -> mapM f l c = AOk (ys, c') ->
                  Inv c' /\ R c c' /\ Forall2 (fun x y => Q x y c') l ys.
Proof.
  intros Rrefl Rtrans Qmono. induction l as [|x l IH]; intros Hf c ys c' I H; cbn [mapM] in H.
  - apply ret_ok in H as [-> ->]. auto.
  - apply bindM_ok in H as [y [c1 [H1 H]]]. apply bindM_ok in H as [ys' [c2 [H2 H]]]. apply ret_ok in H as [-> ->].
    destruct (Hf x (or_introl eq_refl) _ _ _ I H1) as [I1 [R1 Q1]].
    destruct (IH (fun z Hz => Hf z (or_intror Hz)) _ _ _ I1 H2) as [I2 [R2 Q2]].
    split; [exact I2|]. split; [eapply Rtrans; eauto|]. constructor; eauto.
Qed.
Lemma optM_inv {A B} (Inv : core -> Prop) (Q : A -> B -> core -> Prop) (R : core -> core -> Prop)
      (f : A -> M B) (o : option A) :
  (forall c, R c c) ->
  (forall x, o = Some x -> forall c y c', Inv c -> f x c = AOk (y, c') -> Inv c' /\ R c c' /\ Q x y c') ->
  forall c oy c', Inv c -> optM f o c = AOk (oy, c') ->
                  Inv c' /\ R c c' /\ match o, oy with Some x, Some y => Q x y c' | None, None => True | _, _ => False end.
Proof.
  intros Rrefl Hf c oy c' I H. destruct o as [x|]; cbn [optM] in H.
  - apply bindM_ok in H as [y [c1 [H1 H]]]. apply ret_ok in H as [-> ->]. now apply (Hf x eq_refl).
  - apply ret_ok in H as [-> ->]. auto.
Qed.

(** * What a remap leaves unchanged *)
Record Ext (c c' : core) : Prop := {
  x_types : ext (c_types c) (c_types c');
  x_imports : c_imports c' = c_imports c;
  x_ifaces : c_ifaces c' = c_ifaces c;
  x_chk : c_chk c' = c_chk c;
  x_if : t_interfaces (c_types c') = t_interfaces (c_types c);
  x_world : t_worlds (c_types c') = t_worlds (c_types c);
  x_mod : t_modules (c_types c') = t_modules (c_types c);
  x_remapped : forall k v, rm_get k (c_remapped c) = Some v -> rm_get k (c_remapped c') = Some v;
  x_noif : forall i, rm_get (TInterface i) (c_remapped c') = rm_get (TInterface i) (c_remapped c) }.
Lemma Ext_refl c : Ext c c. Proof. split; auto using ext_refl. Qed.
Lemma Ext_trans a b c : Ext a b -> Ext b c -> Ext a c.
Proof. intros [A1 A2 A3 A4 A5 A6 A7 A8 A9] [B1 B2 B3 B4 B5 B6 B7 B8 B9]. split; eauto using ext_trans; congruence. Qed.

Lemma rm_get_ins_same k v l : rm_get k (rm_ins k v l) = Some v.
Proof.
  induction l as [|[k' v'] l IH]; cbn [rm_ins rm_get].
  - assert (ty_eqb k k = true) as -> by now apply tyeqb_eq. reflexivity.
  - destruct (ty_eqb k k') eqn:E; cbn [rm_get]; rewrite E; auto.
Qed.
Lemma rm_get_ins_other k k' v l : k <> k' -> rm_get k' (rm_ins k v l) = rm_get k' l.
Proof.
  intros N. induction l as [|[k2 v2] l IH]; cbn [rm_ins rm_get].
  - destruct (ty_eqb k' k) eqn:E; auto. apply tyeqb_eq in E. congruence.
  - destruct (ty_eqb k k2) eqn:E; cbn [rm_get].
    + apply tyeqb_eq in E. subst k2. destruct (ty_eqb k' k) eqn:E2; auto. apply tyeqb_eq in E2. congruence.
    + now rewrite IH.
Qed.

Section Copy.
  Variable ord : list (str * id) -> list (str * id).
  Variable cf : nat.
  (** the contributor collections *)
  Variable Col : types -> Prop.
  Hypothesis Col_same : forall t1 t2, Col t1 -> Col t2 -> t_tag t1 = t_tag t2 -> t1 = t2.

  Definition entry_ok (agg : types) (k k' : ty) : Prop :=
    match k with
    | TValue (VDefined d) =>
      forall v', k' = TValue v' -> forall t g tr, Col t -> unfold_vt g t (VDefined d) = Some tr -> Unf agg v' tr
    | TFunc f =>
      forall f', k' = TFunc f' -> forall t g ft, Col t -> unfold_func g t f = Some ft -> UnfF agg f' ft
    | _ => True
    end.
  Definition RInv (c : core) : Prop := forall k k', rm_get k (c_remapped c) = Some k' -> entry_ok (c_types c) k k'.

  Lemma entry_ok_ext agg agg' k k' : ext agg agg' -> entry_ok agg k k' -> entry_ok agg' k k'.
  Proof.
    intros E. destruct k as [r|f|[p|r|r|d]|i|w|m]; cbn [entry_ok]; auto.
    - intros H f' -> t g ft Ct Hu. eapply UnfF_ext; eauto.
    - intros H v' -> t g tr Ct Hu. eapply Unf_ext; eauto.
  Qed.

  Lemma RInv_ins c c' k k' :
    RInv c -> ext (c_types c) (c_types c') -> c_remapped c' = rm_ins k k' (c_remapped c) -> entry_ok (c_types c') k k' -> RInv c'.
  Proof.
    intros I E Er He x y Hx. rewrite Er in Hx. destruct (ty_eqb k x) eqn:Ek.
    - apply tyeqb_eq in Ek. subst x. rewrite rm_get_ins_same in Hx. injection Hx as <-. exact He.
    - rewrite rm_get_ins_other in Hx by (intro X; apply tyeqb_eq in X; congruence). eapply entry_ok_ext; eauto.
  Qed.

  Variable t : types.
  Hypothesis Ct : Col t.

  Lemma entry_ok_def agg d v' tr :
    Unf t (VDefined d) tr -> Unf agg v' tr -> entry_ok agg (TValue (VDefined d)) (TValue v').
  Proof.
    intros Hd Hy v2 Ev t2 g tr2 Ct2 Hu0. injection Ev as <-. assert (Hu : Unf t2 (VDefined d) tr2) by now exists g.
    assert (t2 = t) as -> by (apply Col_same; auto; rewrite <- (Unf_def_tag _ _ _ Hd); symmetry; exact (Unf_def_tag _ _ _ Hu)).
    now rewrite (Unf_det _ _ _ _ Hu Hd).
  Qed.

  Definition vt_stmt (F : nat) : Prop :=
    forall g v tr c v' c', RInv c -> unfold_vt g t v = Some tr -> vt_resfree tr = true ->
      remap_value_type ord cf F t v c = AOk (v', c') -> Unf (c_types c') v' tr /\ Ext c c' /\ RInv c'.
  Definition def_stmt (F : nat) : Prop :=
    forall g d tr c y c', RInv c -> unfold_vt g t (VDefined d) = Some tr -> vt_resfree tr = true ->
      remap_defined_type ord cf F t d c = AOk (y, c') -> Unf (c_types c') (VDefined y) tr /\ Ext c c' /\ RInv c'.

  Lemma Unf_mono_c c c' v tr : Ext c c' -> Unf (c_types c) v tr -> Unf (c_types c') v tr.
  Proof. intros E. apply Unf_ext, E. Qed.
  Lemma UnfO_mono_c c c' o otr : Ext c c' -> UnfO (c_types c) o otr -> UnfO (c_types c') o otr.
  Proof. intros E. destruct o, otr; cbn [UnfO]; auto. now apply Unf_mono_c. Qed.

  (** the four child shapes, given soundness on the children *)
  Section Shapes.
    Variable F : nat.
    Hypothesis HV : vt_stmt F.
    Notation V := (remap_value_type ord cf F t).

    Lemma shape_list g l trs c l' c' :
      RInv c -> all_some (map (unfold_vt g t) l) = Some trs -> forallb vt_resfree trs = true ->
      mapM V l c = AOk (l', c') -> Forall2 (Unf (c_types c')) l' trs /\ Ext c c' /\ RInv c'.
    Proof.
      intros I Hu Hr H. apply all_some_forall2 in Hu. revert trs Hu Hr c l' c' I H.
      induction l as [|v l IH]; intros trs Hu Hr c l' c' I H; inversion Hu as [|? tr ? trs' Hv Hl]; subst; cbn [mapM] in H.
      - apply ret_ok in H as [-> ->]. auto using Ext_refl.
      - cbn [forallb] in Hr. apply andb_true_iff in Hr as [Hr1 Hr2].
        apply bindM_ok in H as [y [c1 [H1 H]]]. apply bindM_ok in H as [ys [c2 [H2 H]]]. apply ret_ok in H as [-> ->].
        destruct (HV _ _ _ _ _ _ I Hv Hr1 H1) as [U1 [E1 I1]].
        destruct (IH _ Hl Hr2 _ _ _ I1 H2) as [U2 [E2 I2]].
        split; [|split; [eapply Ext_trans; eauto | exact I2]]. constructor; auto. eapply Unf_mono_c; eauto.
    Qed.

    Lemma shape_opt g o otr c o' c' :
      RInv c -> omap (unfold_vt g t) o = Some otr -> match otr with Some y => vt_resfree y | None => true end = true ->
      optM V o c = AOk (o', c') -> UnfO (c_types c') o' otr /\ Ext c c' /\ RInv c'.
    Proof.
      intros I Hu Hr H. apply omap_inv in Hu. destruct o as [v|], otr as [tr|]; try contradiction; cbn [optM] in H.
      - apply bindM_ok in H as [y [c1 [H1 H]]]. apply ret_ok in H as [-> ->].
        destruct (HV _ _ _ _ _ _ I Hu Hr H1) as [U1 [E1 I1]]. cbn [UnfO]. auto.
      - apply ret_ok in H as [-> ->]. cbn [UnfO]. auto using Ext_refl.
    Qed.

    Lemma shape_named_gen {A B} (W : A -> M A) (U : A -> option B) (R : types -> A -> B -> Prop) (ok : B -> bool) :
      (forall c c' a b, Ext c c' -> R (c_types c) a b -> R (c_types c') a b) ->
      (forall a b c a' c', RInv c -> U a = Some b -> ok b = true -> W a c = AOk (a', c') -> R (c_types c') a' b /\ Ext c c' /\ RInv c') ->
      forall (l : list (str * A)) trs c l' c',
        RInv c -> map_snd U l = Some trs -> forallb (fun kv => ok (snd kv)) trs = true ->
        mapM (fun nv : str * A => v' <-- W (snd nv) ;;; ret (fst nv, v')) l c = AOk (l', c') ->
        Forall2 (fun a b => fst a = fst b /\ R (c_types c') (snd a) (snd b)) l' trs /\ Ext c c' /\ RInv c'.
    Proof.
      intros Rmono HW l trs c l' c' I Hu Hr H. apply map_snd_forall2 in Hu. revert trs Hu Hr c l' c' I H.
      induction l as [|[n v] l IH]; intros trs Hu Hr c l' c' I H; inversion Hu as [|? [n' tr] ? trs' [En Hv] Hl]; subst; cbn [mapM] in H.
      - apply ret_ok in H as [-> ->]. auto using Ext_refl.
      - cbn [forallb fst snd] in *. apply andb_true_iff in Hr as [Hr1 Hr2].
        apply bindM_ok in H as [y [c1 [H1 H]]]. apply bindM_ok in H as [ys [c2 [H2 H]]]. apply ret_ok in H as [-> ->].
        apply bindM_ok in H1 as [v1 [c0 [H0 H1]]]. apply ret_ok in H1 as [-> ->].
        destruct (HW _ _ _ _ _ I Hv Hr1 H0) as [U1 [E1 I1]].
        destruct (IH _ Hl Hr2 _ _ _ I1 H2) as [U2 [E2 I2]].
        split; [|split; [eapply Ext_trans; eauto | exact I2]]. constructor; auto. cbn [fst snd]. split; auto.
        eapply Rmono; eauto.
    Qed.

    Lemma shape_named g (l : list (str * valtype)) trs c l' c' :
      RInv c -> map_snd (unfold_vt g t) l = Some trs -> forallb (fun kv => vt_resfree (snd kv)) trs = true ->
      mapM (fun nv : str * valtype => v' <-- V (snd nv) ;;; ret (fst nv, v')) l c = AOk (l', c') ->
      Forall2 (fun a b => fst a = fst b /\ Unf (c_types c') (snd a) (snd b)) l' trs /\ Ext c c' /\ RInv c'.
    Proof. apply (shape_named_gen V (unfold_vt g t) Unf vt_resfree); [apply Unf_mono_c | apply (HV g)]. Qed.

    Lemma shape_named_opt g (l : list (str * option valtype)) trs c l' c' :
      RInv c -> map_snd (omap (unfold_vt g t)) l = Some trs ->
      forallb (fun kv : str * option vtree => match snd kv with Some y => vt_resfree y | None => true end) trs = true ->
      mapM (fun nv : str * option valtype => v' <-- optM V (snd nv) ;;; ret (fst nv, v')) l c = AOk (l', c') ->
      Forall2 (fun a b => fst a = fst b /\ UnfO (c_types c') (snd a) (snd b)) l' trs /\ Ext c c' /\ RInv c'.
    Proof.
      apply (shape_named_gen (optM V) (omap (unfold_vt g t)) UnfO (fun o => match o with Some y => vt_resfree y | None => true end));
        [apply UnfO_mono_c | apply (shape_opt g)].
    Qed.
  End Shapes.

  Lemma UnfO2 agg o e a b : UnfO agg o a -> UnfO agg e b ->
    exists g, omap (unfold_vt g agg) o = Some a /\ omap (unfold_vt g agg) e = Some b.
  Proof.
    intros H1 H2. destruct (UnfO_omap _ _ _ H1) as [g1 E1]. destruct (UnfO_omap _ _ _ H2) as [g2 E2].
    exists (Nat.max g1 g2). split; [eapply omap_mono; [apply Nat.le_max_l|eauto] | eapply omap_mono; [apply Nat.le_max_r|eauto]].
  Qed.

  Lemma Unf_body agg y tr :
    (exists g, unfold_vt_body (unfold_vt g agg) (res_name_of (S g) agg) agg (VDefined y) = Some tr) -> Unf agg (VDefined y) tr.
  Proof. intros [g H]. exists (S g). now rewrite unfold_vt_eq. Qed.

  (** after the children: allocate the node, record the mapping *)
  Lemma finish_def c c1 x' d tr y c' :
    Ext c c1 -> RInv c1 -> Unf t (VDefined d) tr ->
    (forall agg' y0, ext (c_types c1) agg' -> get_def agg' y0 = Some x' -> Unf agg' (VDefined y0) tr) ->
    (y <-- add_def x' ;;; remapped_new (TValue (VDefined d)) (TValue (VDefined y)) ;;; ret y) c1 = AOk (y, c') ->
    Unf (c_types c') (VDefined y) tr /\ Ext c c' /\ RInv c'.
  Proof.
    intros E0 I Hd Hnode H. apply bindM_ok in H as [y0 [c2 [H1 H]]]. apply bindM_ok in H as [u [c3 [H2 H]]].
    apply ret_ok in H as [<- ->]. unfold add_def in H1. injection H1 as <- <-.
    unfold remapped_new in H2. cbn [c_remapped with_types] in H2.
    destruct (rm_get (TValue (VDefined d)) (c_remapped c1)) eqn:Eg; [discriminate|]. injection H2 as H2. subst c3.
    set (agg' := t_with_defined (c_types c1) (t_defined (c_types c1) ++ [x'])) in *.
    assert (E : ext (c_types c1) agg') by (split; cbn; auto using prefix_refl, prefix_app).
    assert (Hy : Unf agg' (VDefined (mkid (t_tag (c_types c1)) (length (t_defined (c_types c1))))) tr).
    { apply Hnode; auto. unfold get_def, agg'. cbn [t_tag t_defined t_with_defined]. apply lookup_new. }
    split; [exact Hy|]. split.
    - apply (Ext_trans _ _ _ E0). split; cbn [c_types c_imports c_ifaces c_chk c_remapped with_remapped with_types]; auto.
      + intros k v Hk. rewrite rm_get_ins_other; auto. intros <-. congruence.
      + intros i. apply rm_get_ins_other. discriminate.
    - eapply RInv_ins; [exact I | exact E | reflexivity | exact (entry_ok_def _ _ _ _ Hd Hy)].
  Qed.

  Ltac mk_node H :=
    match type of H with
    | bindM (add_def ?x') _ ?c1 = _ =>
      match goal with
      | |- Unf _ _ ?tr /\ _ =>
        assert (Hn : forall agg' y0, ext (c_types c1) agg' -> get_def agg' y0 = Some x' -> Unf agg' (VDefined y0) tr)
      end
    end.

  Lemma copy_sound : forall F, vt_stmt F /\ def_stmt F.
  Proof.
    induction F as [|F [IHv IHd]].
    - split; intros g v tr c v' c' I Hu Hr H; discriminate.
    - assert (HV : vt_stmt (S F)).
      { intros g v tr c v' c' I Hu Hr H. cbn [remap_value_type] in H. destruct v as [p|r|r|d].
        - apply ret_ok in H as [-> ->]. destruct g as [|g]; [discriminate|]. cbn in Hu. injection Hu as <-.
          split; [exists 1%nat; reflexivity | auto using Ext_refl].
        - exfalso. destruct g as [|g]; [discriminate|]. rewrite unfold_vt_eq in Hu. cbn [unfold_vt_body] in Hu.
          destruct (res_name_of (S g) t r); [|discriminate]. injection Hu as <-. discriminate.
        - exfalso. destruct g as [|g]; [discriminate|]. rewrite unfold_vt_eq in Hu. cbn [unfold_vt_body] in Hu.
          destruct (res_name_of (S g) t r); [|discriminate]. injection Hu as <-. discriminate.
        - apply bindM_ok in H as [y [c1 [H1 H]]]. apply ret_ok in H as [-> ->]. exact (IHd _ _ _ _ _ _ I Hu Hr H1). }
      split; [exact HV|].
      intros g d tr c y c' I Hu Hr H. cbn [remap_defined_type] in H.
      apply bindM_ok in H as [hit [c0 [H0 H]]]. unfold remapped_get in H0. injection H0 as <- <-.
      destruct (rm_get (TValue (VDefined d)) (c_remapped c)) as [k'|] eqn:Eg.
      { (* already copied *)
        destruct k' as [| |[| | |y0]| | |]; try discriminate H. apply ret_ok in H as [-> ->].
        split; [|auto using Ext_refl]. exact (I _ _ Eg _ eq_refl t g tr Ct Hu). }
      apply bindM_ok in H as [x [c0 [H0 H]]].
      destruct (get_def t d) as [x0|] eqn:Ed; cbn [idxM] in H0; [|discriminate]. apply ret_ok in H0 as [-> ->].
      apply bindM_ok in H as [x' [c1 [H1 H]]].
      assert (Hd : exists g, unfold_vt g t (VDefined d) = Some tr) by eauto.
      destruct g as [|g]; [discriminate|]. rewrite unfold_vt_eq in Hu. cbn [unfold_vt_body] in Hu. rewrite Ed in Hu.
      destruct x0 as [l|v|v n|v|o e|cs|fs|fl|el|v|o|o].
      + (* tuple *)
        destruct (all_some (map (unfold_vt g t) l)) as [trs|] eqn:El; [|discriminate]. injection Hu as <-.
        apply bindM_ok in H1 as [l' [c2 [H1 H2]]]. apply ret_ok in H2 as [-> ->].
        destruct (shape_list F IHv _ _ _ _ _ _ I El Hr H1) as [U1 [E1 I1]].
        mk_node H.
        { intros agg' y0 Ea Hg. apply Unf_body.
          destruct (Unf_all agg' l' trs) as [g1 Hg1]; [eapply Forall2_impl; [|exact U1]; intros; eapply Unf_ext; eauto|].
          exists g1. cbn [unfold_vt_body]. rewrite Hg, Hg1. reflexivity. }
        exact (finish_def _ _ _ _ _ _ _ E1 I1 Hd Hn H).
      + (* list *)
        destruct (unfold_vt g t v) as [trc|] eqn:Ev; [|discriminate]. injection Hu as <-.
        apply bindM_ok in H1 as [v' [c2 [H1 H2]]]. apply ret_ok in H2 as [-> ->].
        destruct (IHv _ _ _ _ _ _ I Ev Hr H1) as [U1 [E1 I1]].
        mk_node H.
        { intros agg' y0 Ea Hg. apply Unf_body. destruct (Unf_ext _ _ _ _ Ea U1) as [g1 Hg1].
          exists g1. cbn [unfold_vt_body]. rewrite Hg, Hg1. reflexivity. }
        exact (finish_def _ _ _ _ _ _ _ E1 I1 Hd Hn H).
      + (* fixed size list *)
        destruct (unfold_vt g t v) as [trc|] eqn:Ev; [|discriminate]. injection Hu as <-.
        apply bindM_ok in H1 as [v' [c2 [H1 H2]]]. apply ret_ok in H2 as [-> ->].
        destruct (IHv _ _ _ _ _ _ I Ev Hr H1) as [U1 [E1 I1]].
        mk_node H.
        { intros agg' y0 Ea Hg. apply Unf_body. destruct (Unf_ext _ _ _ _ Ea U1) as [g1 Hg1].
          exists g1. cbn [unfold_vt_body]. rewrite Hg, Hg1. reflexivity. }
        exact (finish_def _ _ _ _ _ _ _ E1 I1 Hd Hn H).
      + (* option *)
        destruct (unfold_vt g t v) as [trc|] eqn:Ev; [|discriminate]. injection Hu as <-.
        apply bindM_ok in H1 as [v' [c2 [H1 H2]]]. apply ret_ok in H2 as [-> ->].
        destruct (IHv _ _ _ _ _ _ I Ev Hr H1) as [U1 [E1 I1]].
        mk_node H.
        { intros agg' y0 Ea Hg. apply Unf_body. destruct (Unf_ext _ _ _ _ Ea U1) as [g1 Hg1].
          exists g1. cbn [unfold_vt_body]. rewrite Hg, Hg1. reflexivity. }
        exact (finish_def _ _ _ _ _ _ _ E1 I1 Hd Hn H).
      + (* result *)
        destruct (omap (unfold_vt g t) o) as [tro|] eqn:Eo; [|discriminate].
        destruct (omap (unfold_vt g t) e) as [tre|] eqn:Ee; [|discriminate]. injection Hu as <-.
        cbn [vt_resfree] in Hr. apply andb_true_iff in Hr as [Hr1 Hr2].
        apply bindM_ok in H1 as [o' [c2 [H1 H2]]]. apply bindM_ok in H2 as [e' [c3 [H2 H3]]]. apply ret_ok in H3 as [-> ->].
        destruct (shape_opt F IHv _ _ _ _ _ _ I Eo Hr1 H1) as [U1 [E1 I1]].
        destruct (shape_opt F IHv _ _ _ _ _ _ I1 Ee Hr2 H2) as [U2 [E2 I2]].
        mk_node H.
        { intros agg' y0 Ea Hg. apply Unf_body.
          destruct (UnfO2 agg' o' e' tro tre) as [g1 [G1 G2]].
          { destruct o', tro; cbn [UnfO] in *; auto. eapply Unf_ext; [exact Ea|]. eapply Unf_ext; [apply E2|]. exact U1. }
          { destruct e', tre; cbn [UnfO] in *; auto. eapply Unf_ext; eauto. }
          exists g1. cbn [unfold_vt_body]. rewrite Hg, G1, G2. reflexivity. }
        exact (finish_def _ _ _ _ _ _ _ (Ext_trans _ _ _ E1 E2) I2 Hd Hn H).
      + (* variant *)
        destruct (map_snd (omap (unfold_vt g t)) cs) as [trs|] eqn:El; [|discriminate]. injection Hu as <-.
        apply bindM_ok in H1 as [l' [c2 [H1 H2]]]. apply ret_ok in H2 as [-> ->].
        destruct (shape_named_opt F IHv _ _ _ _ _ _ I El Hr H1) as [U1 [E1 I1]].
        mk_node H.
        { intros agg' y0 Ea Hg. apply Unf_body.
          destruct (Unf_named_opt agg' l' trs) as [g1 Hg1].
          { eapply Forall2_impl; [|exact U1]. intros a b [Hn Hab]. split; auto.
            destruct (snd a), (snd b); cbn [UnfO] in *; auto. eapply Unf_ext; eauto. }
          exists g1. cbn [unfold_vt_body]. rewrite Hg, Hg1. reflexivity. }
        exact (finish_def _ _ _ _ _ _ _ E1 I1 Hd Hn H).
      + (* record *)
        destruct (map_snd (unfold_vt g t) fs) as [trs|] eqn:El; [|discriminate]. injection Hu as <-.
        apply bindM_ok in H1 as [l' [c2 [H1 H2]]]. apply ret_ok in H2 as [-> ->].
        destruct (shape_named F IHv _ _ _ _ _ _ I El Hr H1) as [U1 [E1 I1]].
        mk_node H.
        { intros agg' y0 Ea Hg. apply Unf_body.
          destruct (Unf_named agg' l' trs) as [g1 Hg1].
          { eapply Forall2_impl; [|exact U1]. intros a b [Hn Hab]. split; auto. eapply Unf_ext; eauto. }
          exists g1. cbn [unfold_vt_body]. rewrite Hg, Hg1. reflexivity. }
        exact (finish_def _ _ _ _ _ _ _ E1 I1 Hd Hn H).
      + (* flags *)
        injection Hu as <-. apply ret_ok in H1 as [-> ->].
        mk_node H.
        { intros agg' y0 Ea Hg. apply Unf_body. exists O. cbn [unfold_vt_body]. now rewrite Hg. }
        exact (finish_def _ _ _ _ _ _ _ (Ext_refl _) I Hd Hn H).
      + (* enum *)
        injection Hu as <-. apply ret_ok in H1 as [-> ->].
        mk_node H.
        { intros agg' y0 Ea Hg. apply Unf_body. exists O. cbn [unfold_vt_body]. now rewrite Hg. }
        exact (finish_def _ _ _ _ _ _ _ (Ext_refl _) I Hd Hn H).
      + (* alias *)
        apply bindM_ok in H1 as [v' [c2 [H1 H2]]]. apply ret_ok in H2 as [-> ->].
        destruct (IHv _ _ _ _ _ _ I Hu Hr H1) as [U1 [E1 I1]].
        mk_node H.
        { intros agg' y0 Ea Hg. apply Unf_body. destruct (Unf_ext _ _ _ _ Ea U1) as [g1 Hg1].
          exists g1. cbn [unfold_vt_body]. rewrite Hg. exact Hg1. }
        exact (finish_def _ _ _ _ _ _ _ E1 I1 Hd Hn H).
      + (* stream *)
        destruct (omap (unfold_vt g t) o) as [tro|] eqn:Eo; [|discriminate]. injection Hu as <-.
        apply bindM_ok in H1 as [o' [c2 [H1 H2]]]. apply ret_ok in H2 as [-> ->].
        destruct (shape_opt F IHv _ _ _ _ _ _ I Eo Hr H1) as [U1 [E1 I1]].
        mk_node H.
        { intros agg' y0 Ea Hg. apply Unf_body.
          destruct (UnfO_omap agg' o' tro) as [g1 G1].
          { destruct o', tro; cbn [UnfO] in *; auto. eapply Unf_ext; eauto. }
          exists g1. cbn [unfold_vt_body]. rewrite Hg, G1. reflexivity. }
        exact (finish_def _ _ _ _ _ _ _ E1 I1 Hd Hn H).
      + (* future *)
        destruct (omap (unfold_vt g t) o) as [tro|] eqn:Eo; [|discriminate]. injection Hu as <-.
        apply bindM_ok in H1 as [o' [c2 [H1 H2]]]. apply ret_ok in H2 as [-> ->].
        destruct (shape_opt F IHv _ _ _ _ _ _ I Eo Hr H1) as [U1 [E1 I1]].
        mk_node H.
        { intros agg' y0 Ea Hg. apply Unf_body.
          destruct (UnfO_omap agg' o' tro) as [g1 G1].
          { destruct o', tro; cbn [UnfO] in *; auto. eapply Unf_ext; eauto. }
          exists g1. cbn [unfold_vt_body]. rewrite Hg, G1. reflexivity. }
        exact (finish_def _ _ _ _ _ _ _ E1 I1 Hd Hn H).
  Qed.

  Lemma entry_ok_func agg i f' ft : UnfF t i ft -> UnfF agg f' ft -> entry_ok agg (TFunc i) (TFunc f').
  Proof.
    intros Hd Hy f2 Ev t2 g ft2 Ct2 Hu0. injection Ev as <-. assert (Hu : UnfF t2 i ft2) by now exists g.
    assert (t2 = t) as -> by (apply Col_same; auto; rewrite <- (UnfF_tag _ _ _ Hd); symmetry; exact (UnfF_tag _ _ _ Hu)).
    now rewrite (UnfF_det _ _ _ _ Hu Hd).
  Qed.

  Lemma func_sound F : forall g i ft c y c', RInv c -> unfold_func g t i = Some ft -> ft_resfree ft = true ->
    remap_func_type ord cf F t i c = AOk (y, c') -> UnfF (c_types c') y ft /\ Ext c c' /\ RInv c'.
  Proof.
    destruct F as [|F]; intros g i ft c y c' I Hu Hr H; [discriminate|]. destruct (copy_sound F) as [HV _].
    cbn [remap_func_type] in H.
    apply bindM_ok in H as [hit [c0 [H0 H]]]. unfold remapped_get in H0. injection H0 as <- <-.
    destruct (rm_get (TFunc i) (c_remapped c)) as [k'|] eqn:Eg.
    { destruct k' as [|y0| | | |]; try discriminate H. apply ret_ok in H as [-> ->].
      split; [|auto using Ext_refl]. exact (I _ _ Eg _ eq_refl t g ft Ct Hu). }
    assert (Hd : exists g, unfold_func g t i = Some ft) by eauto.
    unfold unfold_func in Hu. destruct (get_func t i) as [x0|] eqn:Ef; [|discriminate].
    destruct (map_snd (unfold_vt g t) (f_params x0)) as [ps|] eqn:Ep; [|discriminate].
    destruct (omap (unfold_vt g t) (f_result x0)) as [r|] eqn:Er; [|discriminate]. injection Hu as <-.
    unfold ft_resfree in Hr. cbn [ft_params ft_result] in Hr. apply andb_true_iff in Hr as [Hr1 Hr2].
    apply bindM_ok in H as [x [c0 [H0 H]]]. cbn [idxM] in H0. apply ret_ok in H0 as [-> ->].
    apply bindM_ok in H as [ps' [c1 [H1 H]]]. apply bindM_ok in H as [r' [c2 [H2 H]]].
    destruct (shape_named F HV _ _ _ _ _ _ I Ep Hr1 H1) as [U1 [E1 I1]].
    destruct (shape_opt F HV _ _ _ _ _ _ I1 Er Hr2 H2) as [U2 [E2 I2]].
    apply bindM_ok in H as [y0 [c3 [H3 H]]]. apply bindM_ok in H as [u [c4 [H4 H]]]. apply ret_ok in H as [<- ->].
    unfold add_func in H3. injection H3 as <- <-. unfold remapped_new in H4. cbn [c_remapped with_types] in H4.
    destruct (rm_get (TFunc i) (c_remapped c2)) eqn:Eg2; [discriminate|]. injection H4 as H4. subst c4.
    set (x' := {| f_params := ps'; f_result := r'; f_async := f_async x0 |}) in *.
    set (agg' := t_with_funcs (c_types c2) (t_funcs (c_types c2) ++ [x'])) in *.
    assert (E : ext (c_types c2) agg') by (split; cbn; auto using prefix_refl, prefix_app).
    assert (Hy : UnfF agg' (mkid (t_tag (c_types c2)) (length (t_funcs (c_types c2)))) (mkft ps r (f_async x0))).
    { destruct (Unf_named agg' ps' ps) as [g1 G1].
      { eapply Forall2_impl; [|exact U1]. intros a b [Hn Hab]. split; auto. eapply Unf_ext; [exact E|]. eapply Unf_ext; [apply E2|]. exact Hab. }
      destruct (UnfO_omap agg' r' r) as [g2 G2].
      { destruct r', r; cbn [UnfO] in *; auto. eapply Unf_ext; eauto. }
      exists (Nat.max g1 g2). unfold unfold_func.
      assert (Hg : get_func agg' (mkid (t_tag (c_types c2)) (length (t_funcs (c_types c2)))) = Some x').
      { unfold get_func, agg'. cbn [t_tag t_funcs t_with_funcs]. apply lookup_new. }
      rewrite Hg. cbn [f_params f_result f_async x'].
      rewrite (map_snd_ext _ (unfold_vt (Nat.max g1 g2) agg') _ _ (fun a b => unfold_vt_mono g1 _ agg' a b (Nat.le_max_l g1 g2)) G1).
      rewrite (omap_mono g2 _ agg' _ _ (Nat.le_max_r g1 g2) G2). reflexivity. }
    split; [exact Hy|]. split.
    - eapply Ext_trans; [exact E1|]. eapply Ext_trans; [exact E2|].
      split; cbn [c_types c_imports c_ifaces c_chk c_remapped with_remapped with_types]; auto.
      + intros k v Hk. rewrite rm_get_ins_other; auto. intros <-. congruence.
      + intros i0. apply rm_get_ins_other. discriminate.
    - eapply RInv_ins; [exact I2 | exact E | reflexivity | exact (entry_ok_func _ _ _ _ Hd Hy)].
  Qed.

  (** ** Leaf kinds: functions, values, value types *)
  Definition leafk (k : kind) : bool :=
    match k with KFunc _ | KValue _ | KType (TValue _) => true | _ => false end.

  Lemma leaf_sound F k tr c k' c' :
    leafk k = true -> RInv c -> UnfK t k tr -> resfree tr = true ->
    remap_item_kind ord cf F t k c = AOk (k', c') ->
    UnfK (c_types c') k' tr /\ Ext c c' /\ RInv c' /\ leafk k' = true.
  Proof.
    intros Hl I [g Hu] Hr H. destruct F as [|F]; [discriminate|]. cbn [remap_item_kind] in H.
    destruct g as [|g]; [discriminate|]. cbn [unfold] in Hu.
    destruct k as [[| |v| | |]|i| | | |v]; try discriminate Hl.
    - (* type (value) *)
      apply bindM_ok in H as [y [c1 [H1 H]]]. apply ret_ok in H as [-> ->].
      destruct F as [|F]; [discriminate|]. cbn [remap_type] in H1.
      apply bindM_ok in H1 as [v' [c2 [H1 H2]]]. apply ret_ok in H2 as [-> ->].
      destruct (unfold_vt (S g) t v) as [vt|] eqn:Ev; [|discriminate]. injection Hu as <-. cbn [resfree] in Hr.
      destruct (copy_sound F) as [HV _]. destruct (HV _ _ _ _ _ _ I Ev Hr H1) as [[g1 U1] [E1 I1]].
      split; [|auto]. exists (S g1). cbn [unfold]. now rewrite (unfold_vt_S _ _ _ _ U1).
    - (* function *)
      apply bindM_ok in H as [y [c1 [H1 H]]]. apply ret_ok in H as [-> ->].
      destruct (unfold_func (S g) t i) as [ft|] eqn:Ef; [|discriminate]. injection Hu as <-. cbn [resfree] in Hr.
      destruct (func_sound _ _ _ _ _ _ _ I Ef Hr H1) as [[g1 U1] [E1 I1]].
      split; [|auto]. exists (S g1). cbn [unfold]. now rewrite (unfold_func_S _ _ _ _ U1).
    - (* value *)
      apply bindM_ok in H as [y [c1 [H1 H]]]. apply ret_ok in H as [-> ->].
      destruct (unfold_vt (S g) t v) as [vt|] eqn:Ev; [|discriminate]. injection Hu as <-. cbn [resfree] in Hr.
      destruct (copy_sound F) as [HV _]. destruct (HV _ _ _ _ _ _ I Ev Hr H1) as [[g1 U1] [E1 I1]].
      split; [|auto]. exists (S g1). cbn [unfold]. now rewrite (unfold_vt_S _ _ _ _ U1).
  Qed.
End Copy.
