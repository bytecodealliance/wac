(** Lexer classes, part C: the documented tables, how the members of the package classes are put
    together, and [scan_token] on an input that starts with an id: the shape the scanners read and the
    result on that shape. *)
From WacV Require Import Str Ord Token Lexer LexTables LexImpl LexSpec LexTablesProofs Semver Ast Parser LexClasses.
From WacV Require Import StrFacts ListFacts LexerSound LexerClassA LexerClassB.
From WacV Require Export TokenFacts.
From Coq Require Import Lia.
Local Open Scope nat_scope.

(** The tables of a configuration are the documented ones, as sets of rows. *)
Definition tables_ok (base : lexcfg) : Prop :=
  (forall x, In x (keywords base) <-> In x doc_keywords) /\ (forall x, In x (symbols base) <-> In x doc_symbols).

Lemma insert_row_In kv x l : In x (insert_row kv l) <-> kv = x \/ In x l.
Proof.
  induction l as [|y l IH]; cbn [insert_row In]; [tauto|].
  destruct (str_cmp (fst kv) (fst y)); cbn [In]; rewrite ?IH; tauto.
Qed.

Lemma sort_rows_In x l : In x (sort_rows l) <-> In x l.
Proof. induction l as [|y l IH]; cbn [sort_rows fold_right In]; [tauto|]. fold (sort_rows l). rewrite insert_row_In, IH. tauto. Qed.

Lemma tables_ok_doc : tables_ok doc_cfg.
Proof. split; intros x; reflexivity. Qed.

Lemma tables_ok_impl : tables_ok impl_cfg.
Proof.
  split; intros x; cbn [impl_cfg keywords symbols].
  - rewrite <- (sort_rows_In x gen_keywords), keywords_table_eq. apply sort_rows_In.
  - rewrite <- (sort_rows_In x gen_symbols), symbols_table_eq. apply sort_rows_In.
Qed.

Lemma tables_ok_with d base : tables_ok base -> tables_ok (cfg_with d base).
Proof. intros H. exact H. Qed.

Lemma lookup_str_some w tbl k : lookup_str w tbl = Some k -> In (w, k) tbl.
Proof.
  induction tbl as [|[x t] tbl IH]; cbn [lookup_str]; [discriminate|]. destruct (str_eqb x w) eqn:E.
  - intros H; inversion H; subst. apply str_eqb_eq in E. subst. now left.
  - intros H. right. auto.
Qed.

Lemma lookup_str_none w tbl : lookup_str w tbl = None -> forall k, ~ In (w, k) tbl.
Proof.
  induction tbl as [|[x t] tbl IH]; cbn [lookup_str]; [intros _ k []|]. destruct (str_eqb x w) eqn:E; [discriminate|].
  intros H k [Hk|Hk]; [|exact (IH H k Hk)]. inversion Hk; subst. rewrite str_eqb_refl in E. discriminate.
Qed.

(** Kinds with a class of their own; every other kind has exactly one text ([fixed_text]). *)
Definition special (k : token) : bool :=
  match k with TIdent | TString | TPackageName | TPackagePath | TComment | TBlockComment => true | _ => false end.

(** What the proofs use of the two documented tables, checked row by row. A keyword row: the text is
    one lower-case word, looked up it gives the row's kind, and it is the class of that kind. *)
Definition kw_row_ok (d : deviations) (kv : str * token) : bool :=
  lower_word (fst kv) &&
  match lookup_str (fst kv) doc_keywords with Some k => token_eqb k (snd kv) | None => false end &&
  token_class d (snd kv) (fst kv) && negb (is_symbol_kind (snd kv)) && negb (special (snd kv)).

(** A punctuation row: the text starts with a character that starts neither an id nor a string. *)
Definition sym_row_ok (d : deviations) (kv : str * token) : bool :=
  match fst kv with c :: _ => negb (is_alpha c) && negb (c =? c_percent)%N && negb (c =? c_quote)%N | [] => false end &&
  token_class d (snd kv) (fst kv) && is_symbol_kind (snd kv) && negb (special (snd kv)).

Lemma kw_row d w k : In (w, k) doc_keywords ->
  token_class d k w = true /\ special k = false /\ is_symbol_kind k = false /\ lower_word w = true /\
  lookup_str w doc_keywords = Some k.
Proof.
  (* computes with [d] abstract: no row has kind [TIdent], and for every other kind [token_class d] is
     [rule_class], which for keyword and punctuation kinds compares with [fixed_text] and does not
     look at the flags *)
  assert (Hr : forallb (kw_row_ok d) doc_keywords = true) by (vm_compute; reflexivity).
  rewrite forallb_forall in Hr. intros H. specialize (Hr _ H). unfold kw_row_ok in Hr. cbn [fst snd] in Hr.
  rewrite !andb_true_iff, !negb_true_iff in Hr. destruct Hr as ((((Hl & Hk) & Hc) & Hs) & Hsp).
  destruct (lookup_str w doc_keywords) as [k'|]; [|discriminate]. apply token_eqb_eq in Hk. subst k'. auto.
Qed.

Lemma sym_row d w k : In (w, k) doc_symbols ->
  token_class d k w = true /\ special k = false /\ is_symbol_kind k = true /\
  exists c r, w = c :: r /\ is_alpha c = false /\ (c =? c_percent)%N = false /\ (c =? c_quote)%N = false.
Proof.
  (* as in [kw_row] *)
  assert (Hr : forallb (sym_row_ok d) doc_symbols = true) by (vm_compute; reflexivity).
  rewrite forallb_forall in Hr. intros H. specialize (Hr _ H). unfold sym_row_ok in Hr. cbn [fst snd] in Hr.
  destruct w as [|c r]; [discriminate|]. rewrite !andb_true_iff, !negb_true_iff in Hr.
  destruct Hr as (((((Ha & Hp) & Hq) & Hc) & Hs) & Hsp). repeat split; auto. exists c, r. auto.
Qed.

Lemma lookup_keywords base w : tables_ok base -> lookup_str w (keywords base) = lookup_str w doc_keywords.
Proof.
  intros [Hk _]. destruct (lookup_str w (keywords base)) as [k|] eqn:E.
  - apply lookup_str_some in E. apply Hk in E. symmetry. apply (kw_row doc_flags _ _ E).
  - destruct (lookup_str w doc_keywords) as [k|] eqn:E2; [|reflexivity]. apply lookup_str_some in E2. apply Hk in E2.
    exfalso. exact (lookup_str_none _ _ E k E2).
Qed.

Lemma is_kw_prefix_spec w tbl : is_kw_prefix w tbl = existsb (fun kv => starts_with w (fst kv)) tbl.
Proof. induction tbl as [|[x t] tbl IH]; cbn [is_kw_prefix existsb fst]; [reflexivity|]. now rewrite IH. Qed.

Lemma kw_prefix_tables base w : tables_ok base -> is_kw_prefix w (keywords base) = is_keyword_prefix w.
Proof.
  intros [Hk _]. rewrite is_kw_prefix_spec. unfold is_keyword_prefix. apply eq_true_iff_eq. rewrite !existsb_exists.
  split; intros (x & Hx & Hs); exists x; (split; [now apply Hk|exact Hs]).
Qed.

Lemma find_char_complete c body rest : nosep c body = true -> find_char c (body ++ c :: rest) = Some (length body).
Proof.
  induction body as [|x body IH]; cbn [app find_char nosep forallb length].
  - intros _. now rewrite N.eqb_refl.
  - intros H. apply andb_true_iff in H. destruct H as [Hx H]. apply negb_true_iff in Hx. rewrite Hx, (IH H). reflexivity.
Qed.

Lemma string_b_intro body : nosep c_quote body = true -> string_b (c_quote :: body ++ [c_quote]) = true.
Proof.
  intros H. cbn [string_b]. rewrite N.eqb_refl, rev_unit, N.eqb_refl. cbn [andb].
  unfold nosep in H. rewrite forallb_forall in *. intros x Hx. apply H. now apply in_rev.
Qed.

Lemma string_b_inv w : string_b w = true -> exists body, w = c_quote :: body ++ [c_quote] /\ nosep c_quote body = true.
Proof.
  destruct w as [|c r]; [discriminate|]. cbn [string_b]. intros H. apply andb_true_iff in H. destruct H as [Hc H].
  apply N.eqb_eq in Hc. subst c. destruct (rev r) as [|q body] eqn:Er; [discriminate|]. apply andb_true_iff in H.
  destruct H as [Hq H]. apply N.eqb_eq in Hq. subst q. exists (rev body). split.
  - f_equal. rewrite <- (rev_involutive r), Er. reflexivity.
  - unfold nosep. rewrite forallb_forall in *. intros x Hx. apply H. now apply in_rev in Hx.
Qed.

Lemma is_sep_colon : is_sep c_colon = true. Proof. reflexivity. Qed.
Lemma is_sep_slash : is_sep c_slash = true. Proof. reflexivity. Qed.
Lemma is_sep_at : is_sep c_atsign = true. Proof. reflexivity. Qed.

Section Compose.
Variable d : deviations.
Notation au := (uppercase_words d).

Lemma pkg_core_intro i segs :
  id_b d i = true -> segs <> [] -> forallb (id_b d) segs = true -> pkg_core_b d (i ++ chain_text c_colon segs) = true.
Proof.
  intros Hi Hne Hs. unfold pkg_core_b. rewrite split_on_chain.
  - destruct segs as [|j segs]; [congruence|]. cbn [forallb] in *. now rewrite Hi, Hs.
  - now apply (id_nosep d c_colon).
  - now apply (ids_nosep d c_colon).
Qed.

Lemma pkg_core_inv p :
  pkg_core_b d p = true ->
  exists i segs, p = i ++ chain_text c_colon segs /\ id_b d i = true /\ segs <> [] /\ forallb (id_b d) segs = true.
Proof.
  unfold pkg_core_b. destruct (split_on_join c_colon p) as (i & segs & Hsp & Hp & _ & _). rewrite Hsp.
  destruct segs as [|j segs]; [discriminate|]. cbn [forallb]. intros H. apply andb_true_iff in H. destruct H as [Hi H].
  exists i, (j :: segs). repeat split; auto. discriminate.
Qed.

Definition ver_of (ver : str) : option str := match ver with [] => None | _ :: v => Some v end.

Lemma split_version_intro a ver :
  nosep c_atsign a = true -> vtail_b ver = true -> split_version (a ++ ver) = (a, ver_of ver) /\ version_ok (ver_of ver) = true.
Proof.
  intros Ha Hv. unfold split_version. destruct ver as [|c v].
  - rewrite app_nil_r, split_first_nosep by exact Ha. split; reflexivity.
  - cbn [vtail_b] in Hv. apply andb_true_iff in Hv. destruct Hv as [Hc Hv]. apply N.eqb_eq in Hc. subst c.
    rewrite split_first_app_sep by exact Ha. split; [reflexivity|exact Hv].
Qed.

Lemma split_version_inv w a v :
  split_version w = (a, v) -> version_ok v = true ->
  exists ver, w = a ++ ver /\ vtail_b ver = true /\ v = ver_of ver /\ nosep c_atsign a = true.
Proof.
  unfold split_version. destruct (split_first c_atsign w) as [[a' v']|] eqn:E.
  - intros H Hv. inversion H; subst. apply split_first_inv in E. destruct E as [-> Hn].
    exists (c_atsign :: v'). repeat split; auto.
  - intros H _. inversion H; subst. exists []. rewrite app_nil_r. repeat split. now apply split_first_none_nosep.
Qed.

Lemma core_nosep c i segs :
  is_sep c = true -> (c =? c_colon)%N = false -> id_b d i = true -> forallb (id_b d) segs = true ->
  nosep c (i ++ chain_text c_colon segs) = true.
Proof. intros Hc Hne Hi Hs. rewrite nosep_app, (id_nosep d c i Hc Hi), (chain_nosep d c_colon c segs Hc Hne Hs). reflexivity. Qed.

Lemma pkg_name_intro i segs ver :
  id_b d i = true -> segs <> [] -> forallb (id_b d) segs = true -> vtail_b ver = true ->
  pkg_name_b d (i ++ chain_text c_colon segs ++ ver) = true.
Proof.
  intros Hi Hne Hs Hv. unfold pkg_name_b. rewrite app_assoc.
  destruct (split_version_intro (i ++ chain_text c_colon segs) ver) as [-> Hok]; auto.
  - now apply core_nosep.
  - now rewrite pkg_core_intro.
Qed.

Lemma pkg_path_intro i segs path ver :
  id_b d i = true -> segs <> [] -> forallb (id_b d) segs = true -> path <> [] -> forallb (id_b d) path = true ->
  vtail_b ver = true -> pkg_path_b d (i ++ chain_text c_colon segs ++ chain_text c_slash path ++ ver) = true.
Proof.
  intros Hi Hne Hs Hpne Hp Hv. unfold pkg_path_b.
  replace (i ++ chain_text c_colon segs ++ chain_text c_slash path ++ ver)
    with (((i ++ chain_text c_colon segs) ++ chain_text c_slash path) ++ ver) by now rewrite <- !app_assoc.
  destruct (split_version_intro ((i ++ chain_text c_colon segs) ++ chain_text c_slash path) ver) as [-> Hok]; auto.
  - rewrite nosep_app, core_nosep; auto. apply (chain_nosep d c_slash c_atsign); auto.
  - rewrite Hok, andb_true_r. rewrite split_on_chain.
    + destruct path as [|p1 path]; [congruence|]. rewrite pkg_core_intro by auto. exact Hp.
    + now apply core_nosep.
    + now apply (ids_nosep d c_slash).
Qed.

Lemma pkg_name_inv w :
  pkg_name_b d w = true ->
  exists i segs ver, w = i ++ chain_text c_colon segs ++ ver /\ id_b d i = true /\ segs <> [] /\
                     forallb (id_b d) segs = true /\ vtail_b ver = true.
Proof.
  unfold pkg_name_b. destruct (split_version w) as [a v] eqn:E. intros H. apply andb_true_iff in H. destruct H as [Hc Hv].
  destruct (split_version_inv _ _ _ E Hv) as (ver & -> & Hver & _ & _).
  destruct (pkg_core_inv _ Hc) as (i & segs & -> & Hi & Hne & Hs). exists i, segs, ver. rewrite <- app_assoc. auto.
Qed.

Lemma pkg_path_inv w :
  pkg_path_b d w = true ->
  exists i segs path ver, w = i ++ chain_text c_colon segs ++ chain_text c_slash path ++ ver /\ id_b d i = true /\
     segs <> [] /\ forallb (id_b d) segs = true /\ path <> [] /\ forallb (id_b d) path = true /\ vtail_b ver = true.
Proof.
  unfold pkg_path_b. destruct (split_version w) as [a v] eqn:E. intros H. apply andb_true_iff in H. destruct H as [Hc Hv].
  destruct (split_version_inv _ _ _ E Hv) as (ver & -> & Hver & _ & _).
  destruct (split_on_join c_slash a) as (core & path & Hsp & -> & _ & _). rewrite Hsp in Hc.
  destruct path as [|p1 path]; [discriminate|]. apply andb_true_iff in Hc. destruct Hc as [Hcore Hp].
  destruct (pkg_core_inv _ Hcore) as (i & segs & -> & Hi & Hne & Hs). exists i, segs, (p1 :: path), ver.
  rewrite <- !app_assoc. repeat split; auto. discriminate.
Qed.

End Compose.

(** [scan_token] after an id of length [n1] has been found at the head of [s]. *)
Definition scan_id (cfg : lexcfg) (fuel : nat) (s : str) (n1 : nat) : scanres :=
  let au := allow_upper cfg in
  let rest1 := skipn n1 s in
  let kw_or_ident := match lookup_str (firstn n1 s) (keywords cfg) with Some k => k | None => TIdent end in
  if head_is c_minus rest1 then
    if q_pkgzone cfg && is_kw_prefix (firstn n1 s) (keywords cfg) then ScanUnmodelled
    else if q_dash cfg then ScanTok TIdent (S n1) else ScanTok kw_or_ident n1
  else
    let n2 := seg_loop fuel au c_colon rest1 in
    match n2 with
    | O => if head_is c_colon rest1 && q_kwcolon cfg then ScanTok TIdent n1 else ScanTok kw_or_ident n1
    | S _ =>
        let pkg := (n1 + n2)%nat in
        let after := skipn pkg s in
        if q_pkgzone cfg && (head_is c_minus after || head_is c_colon after) then ScanUnmodelled
        else
          match seg_loop fuel au c_slash after with
          | O => ScanTok TPackageName (pkg + version_tail_len after)
          | S m => let path := (pkg + S m)%nat in
                   ScanTok TPackagePath (path + version_tail_len (skipn path s))
          end
    end.

Lemma scan_token_unfold cfg fuel s :
  scan_token cfg fuel s =
  match s with
  | [] => ScanErr UnexpectedToken 0
  | c :: r =>
      if (c =? c_quote)%N then
        match find_char c_quote r with Some n => ScanTok TString (S (S n)) | None => ScanErr UnterminatedString 1 end
      else match id_len (allow_upper cfg) s with
           | S n0 => scan_id cfg fuel s (S n0)
           | O => match best_symbol (symbols cfg) s with
                  | Some (k, n) => ScanTok k n
                  | None => ScanErr UnexpectedToken (utf8_len c)
                  end
           end
  end.
Proof. destruct s as [|c r]; reflexivity. Qed.

Section Shape.
Variable d : deviations.
Notation au := (uppercase_words d).

(** The text at the head of [s], as the scanner reads it: an id, a chain of [: id], a chain of
    [/ id], a version tail -- each as long as possible -- and what is left. *)
Record shape : Set := {
  sh_id : str; sh_colon : list str; sh_slash : list str; sh_ver : str; sh_rest : str }.

Definition after_colon (x : shape) : str := chain_text c_slash (sh_slash x) ++ sh_ver x ++ sh_rest x.
Definition after_id (x : shape) : str := chain_text c_colon (sh_colon x) ++ after_colon x.
Definition after_slash (x : shape) : str := sh_ver x ++ sh_rest x.

Definition shape_ok (fuel : nat) (s : str) (x : shape) : Prop :=
  s = sh_id x ++ after_id x /\
  id_b d (sh_id x) = true /\ id_len au s = length (sh_id x) /\ id_follow d (sh_id x) (after_id x) = true /\
  forallb (id_b d) (sh_colon x) = true /\
  seg_loop fuel au c_colon (after_id x) = length (chain_text c_colon (sh_colon x)) /\
  no_seg d c_colon (after_colon x) = true /\
  (sh_colon x <> [] -> id_follow d (chain_text c_colon (sh_colon x)) (after_colon x) = true) /\
  forallb (id_b d) (sh_slash x) = true /\
  seg_loop fuel au c_slash (after_colon x) = length (chain_text c_slash (sh_slash x)) /\
  no_seg d c_slash (after_slash x) = true /\
  (sh_slash x <> [] -> id_follow d (chain_text c_slash (sh_slash x)) (after_slash x) = true) /\
  vtail_b (sh_ver x) = true /\ version_tail_len (after_slash x) = length (sh_ver x).

Lemma scan_shape fuel s : length s < fuel -> id_len au s <> 0 -> exists x, shape_ok fuel s x.
Proof.
  intros Hf Hn. destruct (id_len_scan d s Hn) as [Hi Hst]. pose proof (id_len_le au s) as Hle.
  pose proof (firstn_skipn (id_len au s) s) as E1.
  destruct (seg_loop_sound d c_colon fuel (skipn (id_len au s) s)) as (segsC & after & E2 & LC & HidsC & HnoC & HfolC).
  { rewrite skipn_length. lia. }
  destruct (seg_loop_sound d c_slash fuel after) as (segsP & after2 & E3 & LP & HidsP & HnoP & HfolP).
  { apply (f_equal (@length N)) in E2. rewrite skipn_length, app_length in E2. lia. }
  exists {| sh_id := firstn (id_len au s) s; sh_colon := segsC; sh_slash := segsP;
            sh_ver := firstn (version_tail_len after2) after2; sh_rest := skipn (version_tail_len after2) after2 |}.
  unfold shape_ok, after_id, after_colon, after_slash. cbn [sh_id sh_colon sh_slash sh_ver sh_rest].
  rewrite (firstn_skipn (version_tail_len after2) after2), <- E3, <- E2, (firstn_length_le s Hle),
    (firstn_length_le after2 (version_tail_len_le after2)).
  repeat split; auto. apply version_tail_sound.
Qed.

End Shape.

Definition kw_or_ident_of (w : str) : token :=
  match lookup_str w doc_keywords with Some k => k | None => TIdent end.

Definition lens (a b : nat) := (a + b)%nat.

Section Eval.
Variable d : deviations.
Variable base : lexcfg.
Hypothesis Htab : tables_ok base.
Notation cfg := (cfg_with d base).
Notation au := (uppercase_words d).

(** [scan_token] on [w1 ++ Y] once the id scanner has stopped after [w1]. *)
Definition scan_after (fuel : nat) (w1 Y : str) : scanres :=
  if head_is c_minus Y then
    if pkg_separator_zone d && is_keyword_prefix w1 then ScanUnmodelled
    else if dangling_dash d then ScanTok TIdent (S (length w1)) else ScanTok (kw_or_ident_of w1) (length w1)
  else
    let n2 := seg_loop fuel au c_colon Y in
    match n2 with
    | O => if head_is c_colon Y && keyword_colon d then ScanTok TIdent (length w1) else ScanTok (kw_or_ident_of w1) (length w1)
    | S _ =>
        let after := skipn n2 Y in
        if pkg_separator_zone d && (head_is c_minus after || head_is c_colon after) then ScanUnmodelled
        else match seg_loop fuel au c_slash after with
             | O => ScanTok TPackageName (length w1 + n2 + version_tail_len after)
             | S m => ScanTok TPackagePath (length w1 + n2 + S m + version_tail_len (skipn (S m) after))
             end
    end.

Lemma scan_id_app fuel w1 Y : scan_id cfg fuel (w1 ++ Y) (length w1) = scan_after fuel w1 Y.
Proof.
  unfold scan_id, scan_after. cbn [allow_upper keywords q_pkgzone q_dash q_kwcolon cfg_with]. cbv zeta.
  rewrite firstn_app_exact, skipn_app_exact, (lookup_keywords base _ Htab), (kw_prefix_tables base _ Htab).
  fold (kw_or_ident_of w1). destruct (head_is c_minus Y); [reflexivity|].
  destruct (seg_loop fuel au c_colon Y) as [|m2] eqn:E2; [reflexivity|].
  rewrite skipn_plus, skipn_app_exact.
  destruct (pkg_separator_zone d && _); [reflexivity|].
  destruct (seg_loop fuel au c_slash (skipn (S m2) Y)) as [|m3] eqn:E3; [reflexivity|].
  rewrite skipn_plus, skipn_plus, skipn_app_exact. reflexivity.
Qed.

Lemma scan_token_app fuel w1 Y :
  id_b d w1 = true -> id_follow d w1 Y = true -> scan_token cfg fuel (w1 ++ Y) = scan_after fuel w1 Y.
Proof.
  intros Hi Hfol. destruct (id_len_exact d w1 Y Hi) as [_ Hn]. specialize (Hn Hfol).
  rewrite scan_token_unfold. pose proof (id_b_not_nil d _ Hi) as Hne.
  destruct (w1 ++ Y) as [|c r] eqn:Es; [destruct w1; [congruence|discriminate]|].
  assert (Hl : 0 < length w1) by (destruct w1; [congruence|cbn; lia]).
  assert (Hq : (c =? c_quote)%N = false).
  { destruct (c =? c_quote)%N eqn:E; [|reflexivity]. apply N.eqb_eq in E. subst c. exfalso.
    assert (id_len au (c_quote :: r) = 0); [|lia].
    unfold id_len, words_len. change (c_quote =? c_percent)%N with false. change (is_lower c_quote) with false.
    change (is_upper c_quote) with false. cbn iota. now rewrite andb_false_r. }
  rewrite Hq. cbn [allow_upper cfg_with]. rewrite Hn. destruct (length w1) as [|n0] eqn:El; [lia|].
  rewrite <- El, <- Es. apply scan_id_app.
Qed.

(** The ways [scan_token] produces a token from a text starting with an id ([x] its shape). *)
Inductive produced (x : shape) (k : token) (n : nat) : Prop :=
| pr_dash : dangling_dash d = true -> (pkg_separator_zone d && is_keyword_prefix (sh_id x)) = false ->
            k = TIdent -> n = S (length (sh_id x)) -> head_is c_minus (after_id x) = true -> produced x k n
| pr_word : n = length (sh_id x) -> sh_colon x = [] \/ head_is c_minus (after_id x) = true ->
            k = kw_or_ident_of (sh_id x) \/ (k = TIdent /\ keyword_colon d = true) -> produced x k n
| pr_name : sh_colon x <> [] -> sh_slash x = [] -> k = TPackageName ->
            n = length (sh_id x ++ chain_text c_colon (sh_colon x) ++ sh_ver x) -> produced x k n
| pr_path : sh_colon x <> [] -> sh_slash x <> [] -> k = TPackagePath ->
            n = length (sh_id x ++ chain_text c_colon (sh_colon x) ++ chain_text c_slash (sh_slash x) ++ sh_ver x) ->
            produced x k n.

(** ... and the two ways it answers "unmodelled". *)
Definition in_zone (x : shape) : Prop :=
  pkg_separator_zone d = true /\
  (head_is c_minus (after_id x) = true /\ is_keyword_prefix (sh_id x) = true \/
   sh_colon x <> [] /\ head_is c_minus (after_colon x) || head_is c_colon (after_colon x) = true).

Definition outcome (x : shape) (r : scanres) : Prop :=
  match r with ScanTok k n => produced x k n | ScanUnmodelled => in_zone x | ScanErr _ _ => False end.

Lemma scan_after_outcome fuel s x : shape_ok d fuel s x -> outcome x (scan_after fuel (sh_id x) (after_id x)).
Proof.
  intros (Hs & Hi & Hn1 & Hst & HidsC & HsC & HnoC & HfolC & HidsP & HsP & HnoP & HfolP & Hv & Hvl).
  unfold scan_after. cbv zeta. destruct (head_is c_minus (after_id x)) eqn:Ehd.
  - destruct (pkg_separator_zone d && is_keyword_prefix (sh_id x)) eqn:Ez.
    + apply andb_true_iff in Ez. destruct Ez. split; auto.
    + destruct (dangling_dash d) eqn:Edd; [now apply pr_dash|apply pr_word; auto].
  - rewrite HsC. destruct (sh_colon x) as [|j segsC] eqn:EC.
    + cbn [chain_text map concat length]. destruct (head_is c_colon (after_id x) && keyword_colon d) eqn:Ekc; apply pr_word; auto.
      apply andb_true_iff in Ekc. destruct Ekc as [_ Ekc]. auto.
    + rewrite <- EC in *. assert (HneC : sh_colon x <> []) by (rewrite EC; discriminate).
      pose proof (chain_len_pos c_colon (sh_colon x) HneC) as Hpos.
      destruct (length (chain_text c_colon (sh_colon x))) as [|m] eqn:Em; [lia|]. rewrite <- Em.
      replace (skipn (length (chain_text c_colon (sh_colon x))) (after_id x)) with (after_colon x)
        by (unfold after_id; now rewrite skipn_app_exact).
      destruct (pkg_separator_zone d && (head_is c_minus (after_colon x) || head_is c_colon (after_colon x))) eqn:Ez.
      { apply andb_true_iff in Ez. destruct Ez. split; auto. }
      rewrite HsP. unfold after_slash in Hvl. destruct (sh_slash x) as [|p1 segsP] eqn:EP.
      * unfold after_colon. rewrite EP. cbn [chain_text map concat length app]. rewrite Hvl.
        apply pr_name; auto. rewrite !app_length. lia.
      * rewrite <- EP in *. assert (HneP : sh_slash x <> []) by (rewrite EP; discriminate).
        pose proof (chain_len_pos c_slash (sh_slash x) HneP) as Hpos'.
        destruct (length (chain_text c_slash (sh_slash x))) as [|m'] eqn:Em'; [lia|]. rewrite <- Em'.
        replace (skipn (length (chain_text c_slash (sh_slash x))) (after_colon x)) with (sh_ver x ++ sh_rest x)
          by (unfold after_colon; now rewrite skipn_app_exact).
        rewrite Hvl. apply pr_path; auto. rewrite !app_length. lia.
Qed.

Lemma scan_token_outcome fuel s :
  length s < fuel -> id_len au s <> 0 -> exists x, shape_ok d fuel s x /\ outcome x (scan_token cfg fuel s).
Proof.
  intros Hf Hn. destruct (scan_shape d fuel s Hf Hn) as (x & Hx). exists x. split; [exact Hx|].
  pose proof (scan_after_outcome fuel s x Hx) as Ho. destruct Hx as (-> & Hi & _ & Hst & _). now rewrite scan_token_app.
Qed.

End Eval.
