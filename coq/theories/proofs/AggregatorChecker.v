(** The checker on leaf kinds (functions, values, value types), as the aggregator uses it:
    an accepting verdict is stable under more fuel, hence (by C07's [value_type_spec]/[func_spec]) an accepting
    verdict means equal trees whatever the fuel was. *)
From WacV Require Import Str Types Checker SubSpec CheckerEq CheckerValue CheckerProofs.
From WacV Require Import Aggregator AggregatorFrame AggregatorRemap.

Lemma bind_ok {A B} (r : R A) (k : A -> R B) y : bind r k = Ok y -> exists x, r = Ok x /\ k x = Ok y.
Proof. destruct r; cbn [bind]; try discriminate. eauto. Qed.

Lemma resolve_vt_mono t : forall F F' v v', (F <= F')%nat -> resolve_vt F t v = Ok v' -> resolve_vt F' t v = Ok v'.
Proof.
  induction F as [|F IH]; intros F' v v' L H; [discriminate|]. destruct F' as [|F']; [inversion L|]. pose proof (le_S_n _ _ L) as L'.
  cbn [resolve_vt] in *. destruct v as [p|r|r|d]; auto.
  apply bind_ok in H as [x [H1 H2]]. rewrite H1. cbn [bind]. destruct x; auto.
Qed.
Lemma resolve_res_mono t : forall F F' r r', (F <= F')%nat -> resolve_res F t r = Ok r' -> resolve_res F' t r = Ok r'.
Proof.
  induction F as [|F IH]; intros F' r r' L H; [discriminate|]. destruct F' as [|F']; [inversion L|]. pose proof (le_S_n _ _ L) as L'.
  cbn [resolve_res] in *. apply bind_ok in H as [x [H1 H2]]. rewrite H1. cbn [bind].
  destruct (res_source x); auto.
Qed.
Lemma resource_ok_mono F F' k at_ a bt b : (F <= F')%nat -> resource F k at_ a bt b = Ok tt -> resource F' k at_ a bt b = Ok tt.
Proof.
  intros L. unfold resource. destruct (id_eqb a b); auto. intros H.
  apply bind_ok in H as [ra [H1 H]]. apply bind_ok in H as [xa [H2 H]].
  apply bind_ok in H as [rb [H3 H]]. apply bind_ok in H as [xb [H4 H]].
  rewrite (resolve_res_mono _ _ _ _ _ L H1). cbn [bind]. rewrite H2. cbn [bind].
  rewrite (resolve_res_mono _ _ _ _ _ L H3). cbn [bind]. rewrite H4. cbn [bind]. exact H.
Qed.

Section RecMono.
  Variables rec rec' : valtype -> valtype -> R unit.
  Hypothesis Hrec : forall u v, rec u v = Ok tt -> rec' u v = Ok tt.
  Variable k : variance.

  Lemma unit_ok (r : R unit) x : r = Ok x -> r = Ok tt. Proof. destruct x. auto. Qed.

  Lemma tuple_items_ok : forall a b, tuple_items rec a b = Ok tt -> tuple_items rec' a b = Ok tt.
  Proof.
    induction a as [|x a IH]; intros [|y b]; cbn [tuple_items]; auto. intros H.
    apply bind_ok in H as [u [H1 H2]]. destruct u. rewrite (Hrec _ _ H1). cbn [bind]. auto.
  Qed.
  Lemma tuple_ok a b : tuple rec a b = Ok tt -> tuple rec' a b = Ok tt.
  Proof. unfold tuple. destruct (negb _); [discriminate|]. apply tuple_items_ok. Qed.
  Lemma record_fields_ok : forall a b, record_fields rec a b = Ok tt -> record_fields rec' a b = Ok tt.
  Proof.
    induction a as [|[an x] a IH]; intros [|[bn y] b]; cbn [record_fields]; auto.
    destruct (negb (str_eqb an bn)); [discriminate|]. intros H.
    apply bind_ok in H as [u [H1 H2]]. destruct u. rewrite (Hrec _ _ H1). cbn [bind]. auto.
  Qed.
  Lemma record_ok a b : record rec a b = Ok tt -> record rec' a b = Ok tt.
  Proof. unfold record. destruct (negb _); [discriminate|]. apply record_fields_ok. Qed.
  Lemma variant_payload_ok x y : variant_payload rec k x y = Ok tt -> variant_payload rec' k x y = Ok tt.
  Proof. destruct x, y; cbn [variant_payload]; auto. Qed.
  Lemma variant_cases_ok : forall a b, variant_cases rec k a b = Ok tt -> variant_cases rec' k a b = Ok tt.
  Proof.
    induction a as [|[an x] a IH]; intros [|[bn y] b]; cbn [variant_cases]; auto.
    destruct (negb (str_eqb an bn)); [discriminate|]. intros H.
    apply bind_ok in H as [u [H1 H2]]. destruct u. rewrite (variant_payload_ok _ _ H1). cbn [bind]. auto.
  Qed.
  Lemma variant_ok a b : variant rec k a b = Ok tt -> variant rec' k a b = Ok tt.
  Proof. unfold variant. destruct (negb _); [discriminate|]. apply variant_cases_ok. Qed.
  Lemma result_arm_ok o x y : result_arm rec k o x y = Ok tt -> result_arm rec' k o x y = Ok tt.
  Proof. destruct x, y; cbn [result_arm]; auto. Qed.
  Lemma payload_ok x y : payload rec x y = Ok tt -> payload rec' x y = Ok tt.
  Proof. destruct x, y; cbn [payload]; auto. Qed.

  Lemma mismatch_not_ok {X} (d : types -> X -> R desc) a at_ b bt : @mismatch unit X k d a at_ b bt <> Ok tt.
  Proof.
    unfold mismatch. destruct (ef2 k a at_ b bt) as [[e et] [f ft]]. intros H.
    apply bind_ok in H as [de [_ H]]. apply bind_ok in H as [df [_ H]]. discriminate.
  Qed.

  Lemma defined_type_ok df df' at_ a bt b :
    defined_type rec k df at_ a bt b = Ok tt -> defined_type rec' k df' at_ a bt b = Ok tt.
  Proof.
    unfold defined_type. destruct (id_eqb a b); auto. intros H.
    apply bind_ok in H as [da [H1 H]]. apply bind_ok in H as [db [H2 H]]. rewrite H1, H2. cbn [bind].
    destruct da, db; try discriminate H; try (exfalso; eapply mismatch_not_ok; exact H);
      auto using tuple_ok, record_ok, variant_ok, payload_ok.
    - destruct (negb (n =? n0)); [discriminate|]. auto.
    - apply bind_ok in H as [u [H3 H4]]. destruct u. rewrite (result_arm_ok _ _ _ H3). cbn [bind]. now apply result_arm_ok.
  Qed.
End RecMono.

Lemma value_type_ok_mono at_ bt : forall F F' k a b, (F <= F')%nat ->
  value_type F k at_ a bt b = Ok tt -> value_type F' k at_ a bt b = Ok tt.
Proof.
  induction F as [|F IH]; intros F' k a b L H; [discriminate|]. destruct F' as [|F']; [inversion L|]. pose proof (le_S_n _ _ L) as L'.
  cbn [value_type] in *. apply bind_ok in H as [a' [H1 H]]. apply bind_ok in H as [b' [H2 H]].
  rewrite (resolve_vt_mono _ _ _ _ _ L H1), (resolve_vt_mono _ _ _ _ _ L H2). cbn [bind].
  destruct a', b'; try (exfalso; eapply mismatch_not_ok; exact H).
  - exact H.
  - now apply (resource_ok_mono (S F)).
  - now apply (resource_ok_mono (S F)).
  - eapply defined_type_ok; [|exact H]. intros u v Huv. apply IH; auto.
Qed.

Lemma func_params_ok_mono at_ bt F F' k : (F <= F')%nat -> forall a b,
  func_params F k at_ a bt b = Ok tt -> func_params F' k at_ a bt b = Ok tt.
Proof.
  intros L. induction a as [|[an x] a IH]; intros [|[bn y] b]; cbn [func_params]; auto.
  destruct (negb (str_eqb an bn)); [discriminate|]. intros H.
  apply bind_ok in H as [u [H1 H2]]. destruct u. rewrite (value_type_ok_mono _ _ _ _ _ _ _ L H1). cbn [bind]. auto.
Qed.
Lemma func_ok_mono at_ bt F F' k a b : (F <= F')%nat -> func F k at_ a bt b = Ok tt -> func F' k at_ a bt b = Ok tt.
Proof.
  intros L. unfold func. destruct (id_eqb a b); auto. intros H.
  apply bind_ok in H as [fa [H1 H]]. apply bind_ok in H as [fb [H2 H]]. rewrite H1, H2. cbn [bind].
  destruct (ef k fa fb) as [e f]. destruct (negb (Bool.eqb (f_async fa) (f_async fb))); [discriminate|].
  destruct (negb (Nat.eqb (length (f_params fa)) (length (f_params fb)))); [discriminate|].
  apply bind_ok in H as [u [H3 H]]. destruct u. rewrite (func_params_ok_mono _ _ _ _ _ L _ _ H3). cbn [bind].
  destruct (f_result fa), (f_result fb); auto. now apply (value_type_ok_mono _ _ F).
Qed.

Lemma max_le_r (a b c : nat) : (c <= b -> c <= Nat.max a b)%nat.
Proof. intros H. exact (Nat.le_trans _ _ _ H (Nat.le_max_r a b)). Qed.

Lemma UnfK_leaf_inv t k tr : leafk k = true -> UnfK t k tr ->
  match k with
  | KFunc i => exists ft, tr = XFunc ft /\ UnfF t i ft
  | KValue v => exists vt, tr = XValue vt /\ Unf t v vt
  | KType (TValue v) => exists vt, tr = XTValue vt /\ Unf t v vt
  | _ => False
  end.
Proof.
  intros Hl [g H]. destruct g as [|g]; [discriminate|]. cbn [unfold] in H.
  destruct k as [[| |v| | |]|i| | | |v]; try discriminate Hl.
  - destruct (unfold_vt (S g) t v) eqn:E; [|discriminate]. injection H as <-. eexists; split; eauto. now exists (S g).
  - destruct (unfold_func (S g) t i) eqn:E; [|discriminate]. injection H as <-. eexists; split; eauto. now exists (S g).
  - destruct (unfold_vt (S g) t v) eqn:E; [|discriminate]. injection H as <-. eexists; split; eauto. now exists (S g).
Qed.

Section Leaf.
  Variables at_ bt : types.
  Hypothesis same : t_tag at_ = t_tag bt -> at_ = bt.

  Lemma value_type_ok_sound F k a b ta tb :
    value_type F k at_ a bt b = Ok tt -> Unf at_ a ta -> Unf bt b tb -> ta = tb.
  Proof.
    intros H [g1 H1] [g2 H2]. set (G := Nat.max F (Nat.max g1 g2)).
    apply (value_type_ok_mono _ _ F G) in H; [|apply Nat.le_max_l].
    apply (unfold_vt_mono g1 G) in H1; [|apply (max_le_r F), Nat.le_max_l]. apply (unfold_vt_mono g2 G) in H2; [|apply (max_le_r F), Nat.le_max_r].
    destruct (value_type_spec at_ bt same G G k a b ta tb (le_n _) H1 H2) as [[_ E]|[[e E] _]]; auto. congruence.
  Qed.
  Lemma func_ok_sound F k a b fa fb :
    func F k at_ a bt b = Ok tt -> UnfF at_ a fa -> UnfF bt b fb -> fa = fb.
  Proof.
    intros H [g1 H1] [g2 H2]. set (G := Nat.max F (Nat.max g1 g2)).
    apply (func_ok_mono _ _ F G) in H; [|apply Nat.le_max_l].
    apply (unfold_func_mono g1 G) in H1; [|apply (max_le_r F), Nat.le_max_l]. apply (unfold_func_mono g2 G) in H2; [|apply (max_le_r F), Nat.le_max_r].
    destruct (func_spec at_ bt same G G k a b fa fb (le_n _) H1 H2) as [[_ E]|[[e E] _]]; auto. congruence.
  Qed.

  (** one step of the checker's dispatch on leaf kinds, without the memo *)
  Lemma leaf_step_sound rec vf s a b ta tb s' :
    leafk a = true -> leafk b = true ->
    is_subtype_ rec vf s at_ a bt b = (Ok tt, s') -> UnfK at_ a ta -> UnfK bt b tb -> ta = tb /\ s' = s.
  Proof.
    intros La Lb H Ha Hb. apply (UnfK_leaf_inv _ _ _ La) in Ha. apply (UnfK_leaf_inv _ _ _ Lb) in Hb.
    unfold is_subtype_ in H.
    destruct a as [[| |va| | |]|ia| | | |va]; try discriminate La; destruct b as [[| |vb| | |]|ib| | | |vb]; try discriminate Lb;
      cbn [ty_ lift] in H; try (injection H as H _; exfalso; eapply mismatch_not_ok; exact H).
    - injection H as H <-. destruct Ha as [x [-> Ha]], Hb as [y [-> Hb]]. split; auto. f_equal. eapply value_type_ok_sound; eauto.
    - injection H as H <-. destruct Ha as [x [-> Ha]], Hb as [y [-> Hb]]. split; auto. f_equal. eapply func_ok_sound; eauto.
    - injection H as H <-. destruct Ha as [x [-> Ha]], Hb as [y [-> Hb]]. split; auto. f_equal. eapply value_type_ok_sound; eauto.
  Qed.
End Leaf.
