(** Proofs for property C20 (model/Registry.v against spec/RegistrySpec.v). *)
From Coq Require Import Permutation.
From WacV Require Import Str Ord Semver Registry RegistrySpec SemverProofs.

Lemma ver_eqb_eq a b : ver_eqb a b = true <-> a = b.
Proof.
  unfold ver_eqb. split.
  - destruct (cmp_version a b) eqn:E; try discriminate. intros _.
    exact (tc_eq _ cmp_version_total a b E).
  - intros ->. now rewrite (tc_refl _ cmp_version_total).
Qed.

Lemma over_eqb_eq a b : over_eqb a b = true <-> a = b.
Proof.
  destruct a as [x|], b as [y|]; cbn; try (split; congruence).
  rewrite ver_eqb_eq. split; congruence.
Qed.

Lemma pkey_eqb_eq a b : pkey_eqb a b = true <-> a = b.
Proof.
  destruct a as [n v], b as [n' v']. unfold pkey_eqb; cbn.
  rewrite andb_true_iff, str_eqb_eq, over_eqb_eq. split; [intros [-> ->]; reflexivity | intros [= -> ->]; auto].
Qed.

Lemma is_nil_true {A} (l : list A) : is_nil l = true <-> l = [].
Proof. destruct l; cbn; split; congruence. Qed.

Lemma cmp_le_trans {A} (cmp : A -> A -> comparison) (T : total_cmp cmp) a b c :
  cmp a b <> Gt -> cmp b c <> Gt -> cmp a c <> Gt.
Proof.
  intros H1 H2. destruct (cmp a b) eqn:E1; [apply (tc_eq _ T) in E1; subst; exact H2 | | congruence].
  destruct (cmp b c) eqn:E2; [apply (tc_eq _ T) in E2; subst; rewrite E1; discriminate | | congruence].
  rewrite (tc_trans _ T _ _ _ E1 E2). discriminate.
Qed.

(** [Registry.im_get]/[im_insert] take the key equality as a parameter; the lemmas of NameMapProofs are about
    [Names.im_get] on [str] keys and do not apply. *)
Section IMLemmas.
  Context {K V : Type} (eqb : K -> K -> bool).
  Hypothesis eqb_eq : forall a b, eqb a b = true <-> a = b.

  Lemma im_eqb_refl a : eqb a a = true.
  Proof. now apply eqb_eq. Qed.

  Lemma im_eqb_neq a b : eqb a b = false <-> a <> b.
  Proof.
    destruct (eqb a b) eqn:E; split; try congruence.
    - apply eqb_eq in E. congruence.
    - intros _ H. apply eqb_eq in H. congruence.
  Qed.

  Lemma im_get_In (m : list (K * V)) k v : im_get eqb m k = Some v -> In (k, v) m.
  Proof.
    induction m as [|[k' v'] r IH]; cbn; [discriminate|]. destruct (eqb k' k) eqn:E.
    - intros [= ->]. apply eqb_eq in E. subst. now left.
    - intros H. right. auto.
  Qed.

  Lemma im_get_None (m : list (K * V)) k : im_get eqb m k = None <-> ~ In k (map fst m).
  Proof.
    induction m as [|[k' v'] r IH]; cbn.
    - tauto.
    - destruct (eqb k' k) eqn:E.
      + apply eqb_eq in E. split; [discriminate | intros H; exfalso; apply H; now left].
      + apply im_eqb_neq in E. rewrite IH. tauto.
  Qed.

  Lemma In_im_get (m : list (K * V)) k v : NoDup (map fst m) -> In (k, v) m -> im_get eqb m k = Some v.
  Proof.
    induction m as [|[k' v'] r IH]; cbn; [tauto|]. intros ND [H|H].
    - injection H as -> ->. now rewrite im_eqb_refl.
    - inversion ND as [|? ? Hn ND']; subst. destruct (eqb k' k) eqn:E.
      + apply eqb_eq in E. subst. exfalso. apply Hn. apply (in_map fst) in H. exact H.
      + auto.
  Qed.

  Lemma im_insert_fresh (m : list (K * V)) k v : ~ In k (map fst m) -> im_insert eqb m k v = m ++ [(k, v)].
  Proof.
    induction m as [|[k' v'] r IH]; cbn; [reflexivity|]. intros H.
    destruct (eqb k' k) eqn:E.
    - apply eqb_eq in E. exfalso. apply H. now left.
    - f_equal. apply IH. tauto.
  Qed.

  Lemma im_insert_In (m : list (K * V)) k v k0 v0 :
    In (k0, v0) (im_insert eqb m k v) -> In (k0, v0) m \/ (k0 = k /\ v0 = v).
  Proof.
    induction m as [|[k' v'] r IH]; cbn.
    - intros [[= <- <-]|[]]. now right.
    - destruct (eqb k' k) eqn:E; cbn.
      + apply eqb_eq in E. subst k'. intros [[= <- <-]|H]; [now right | left; now right].
      + intros [H|H]; [left; now left|]. destruct (IH H) as [H'|H']; [left; now right | now right].
  Qed.

  Lemma im_insert_new (m : list (K * V)) k v : In (k, v) (im_insert eqb m k v).
  Proof.
    induction m as [|[k' v'] r IH]; cbn; [now left|].
    destruct (eqb k' k) eqn:E; cbn.
    - apply eqb_eq in E. subst. now left.
    - now right.
  Qed.

  Lemma im_insert_other (m : list (K * V)) k v k0 v0 :
    In (k0, v0) m -> k0 <> k -> In (k0, v0) (im_insert eqb m k v).
  Proof.
    induction m as [|[k' v'] r IH]; cbn; [tauto|]. intros [H|H] Hn.
    - injection H as -> ->. destruct (eqb k0 k) eqn:E; cbn; [|now left].
      apply eqb_eq in E. congruence.
    - destruct (eqb k' k); cbn; right; auto.
  Qed.

  Lemma im_insert_NoDup (m : list (K * V)) k v : NoDup (map fst m) -> NoDup (map fst (im_insert eqb m k v)).
  Proof.
    induction m as [|[k' v'] r IH]; cbn; intros ND.
    - constructor; [tauto | constructor].
    - inversion ND as [|? ? Hn ND']; subst. destruct (eqb k' k) eqn:E; cbn.
      + constructor; assumption.
      + constructor; [|auto]. intros HI. apply in_map_iff in HI. destruct HI as [[k1 v1] [E1 HI]]. cbn in E1. subst k1.
        destruct (im_insert_In _ _ _ _ _ HI) as [H|[H _]].
        * apply Hn. apply (in_map fst) in H. exact H.
        * apply im_eqb_neq in E. congruence.
  Qed.

  Lemma im_insert_length (m : list (K * V)) k v : (length (im_insert eqb m k v) <= S (length m))%nat.
  Proof. induction m as [|[k' v'] r IH]; cbn; [lia|]. destruct (eqb k' k); cbn; lia. Qed.

  Lemma im_insert_keys_incl (m : list (K * V)) k v x : In x (map fst m) -> In x (map fst (im_insert eqb m k v)).
  Proof.
    induction m as [|[k' v'] r IH]; cbn; [tauto|]. destruct (eqb k' k); cbn; tauto.
  Qed.
End IMLemmas.

(** [r] is a highest element of [cands].  The model's [find_latest_release] ([max_by]) and the
    specification's [latest_b] (plain scan) both pick one among the candidates [filter eligible rels]. *)
Definition highest (cands : releases) (r : version * rstate) : Prop :=
  In r cands /\ forall x, In x cands -> cmp_version (fst x) (fst r) <> Gt.

Lemma fold_max_highest l :
  match fold_left max_step l None with Some r => highest l r | None => l = [] end.
Proof.
  induction l as [|a l IH] using rev_ind; [reflexivity|].
  rewrite fold_left_app. cbn [fold_left]. unfold highest in *.
  assert (Ra : cmp_version (fst a) (fst a) <> Gt) by (rewrite (tc_refl _ cmp_version_total); discriminate).
  destruct (fold_left max_step l None) as [r0|]; cbn [max_step].
  - destruct IH as [I M].
    (* [a] replaces [r0] unless [r0] is strictly higher *)
    assert (Le : cmp_version (fst r0) (fst a) <> Gt ->
                 forall x, In x (l ++ [a]) -> cmp_version (fst x) (fst a) <> Gt).
    { intros E x Hx. apply in_app_or in Hx. destruct Hx as [Hx|[<-|[]]]; [|exact Ra].
      exact (cmp_le_trans _ cmp_version_total _ (fst r0) _ (M x Hx) E). }
    destruct (cmp_version (fst r0) (fst a)) eqn:E.
    + split; [apply in_or_app; right; now left | apply Le; discriminate].
    + split; [apply in_or_app; right; now left | apply Le; discriminate].
    + split; [apply in_or_app; now left|]. intros x Hx. apply in_app_or in Hx.
      destruct Hx as [Hx|[<-|[]]]; [now apply M|]. rewrite (tc_anti _ cmp_version_total), E. discriminate.
  - subst l. split; [now left|]. intros x [<-|[]]. exact Ra.
Qed.

Lemma find_latest_some rels r : find_latest_release rels = Some r -> highest (filter eligible rels) r.
Proof.
  unfold find_latest_release. intros H. pose proof (fold_max_highest (filter eligible rels)) as X.
  now rewrite H in X.
Qed.

Lemma find_latest_none rels : find_latest_release rels = None -> filter eligible rels = [].
Proof.
  unfold find_latest_release. intros H. pose proof (fold_max_highest (filter eligible rels)) as X.
  now rewrite H in X.
Qed.

Lemma eligible_iff r : eligible r = true <-> exists c, snd r = Released c /\ pre (fst r) = [].
Proof.
  unfold eligible, star_matches. destruct (snd r) as [c|].
  - rewrite is_nil_true. split; [eauto | intros (c' & _ & H); exact H].
  - split; [discriminate | intros (c' & H & _); discriminate].
Qed.

Definition is_max (cands : releases) (r : version * rstate) : bool :=
  forallb (fun r' => match cmp_version (fst r') (fst r) with Gt => false | _ => true end) cands.

Lemma is_max_highest cands r : In r (filter (is_max cands) cands) <-> highest cands r.
Proof.
  unfold highest, is_max. rewrite filter_In, forallb_forall.
  split; intros [A B]; (split; [exact A|]); intros x Hx; specialize (B x Hx);
    destruct (cmp_version (fst x) (fst r)); congruence.
Qed.

Lemma latest_b_eq rels :
  latest_b rels = match filter (is_max (filter eligible rels)) (filter eligible rels) with
                  | (_, Released c) :: _ => Some c
                  | _ => None
                  end.
Proof. reflexivity. Qed.

Lemma latest_b_some rels c : latest_b rels = Some c -> exists v, highest (filter eligible rels) (v, Released c).
Proof.
  rewrite latest_b_eq. set (cands := filter eligible rels).
  destruct (filter (is_max cands) cands) as [|[v [c0|]] rest] eqn:F; try discriminate. intros [= ->].
  exists v. apply is_max_highest. rewrite F. now left.
Qed.

Lemma latest_b_none rels : latest_b rels = None -> filter eligible rels = [].
Proof.
  rewrite latest_b_eq. set (cands := filter eligible rels). intros H.
  pose proof (fold_max_highest cands) as F. destruct (fold_left max_step cands None) as [r|]; [|exact F].
  (* there is a highest candidate, so the scan is not empty; its head is a candidate, hence not yanked *)
  apply is_max_highest in F.
  destruct (filter (is_max cands) cands) as [|[v [c|]] rest] eqn:F2; try discriminate; [destruct F|].
  assert (Y : highest cands (v, Yanked)) by (apply is_max_highest; rewrite F2; now left).
  destruct Y as [Y _]. apply filter_In in Y. destruct Y as [_ Y]. discriminate.
Qed.

Lemma release_In rels v st : release rels v = Some st -> In (v, st) rels.
Proof. apply im_get_In. exact ver_eqb_eq. Qed.

Lemma In_release rels v st : NoDup (map fst rels) -> In (v, st) rels -> release rels v = Some st.
Proof. apply In_im_get. exact ver_eqb_eq. Qed.

Lemma wf_rels reg n rels : wf_reg reg -> reg_find reg n = Some rels -> NoDup (map fst rels).
Proof.
  intros [_ W] H. apply (W n). eapply im_get_In; [exact str_eqb_eq | exact H].
Qed.

Lemma published_iff reg n rels v c : reg_find reg n = Some rels ->
  (Published reg n v c <-> release rels v = Some (Released c)).
Proof.
  intros H. unfold Published. split.
  - intros (rels' & H1 & H2). congruence.
  - intros H2. eauto.
Qed.

Lemma latest_unique reg n v c v' c' : Latest reg n v c -> Latest reg n v' c' -> v = v' /\ c = c'.
Proof.
  intros [[P1 Q1] M1] [[P2 Q2] M2].
  assert (E : v = v').
  { specialize (M1 v' c' (conj P2 Q2)). specialize (M2 v c (conj P1 Q1)).
    destruct (cmp_version v' v) eqn:E; try congruence.
    - symmetry. exact (tc_eq _ cmp_version_total _ _ E).
    - exfalso. apply M2. rewrite (tc_anti _ cmp_version_total), E. reflexivity. }
  subst v'. split; [reflexivity|].
  destruct P1 as (r1 & A1 & B1), P2 as (r2 & A2 & B2). congruence.
Qed.

Section Outcomes.
  Variable valid_name : str -> bool.
  Variable reg : registry.
  Hypothesis wf : wf_reg reg.

  Lemma candidate_In n rels v c : reg_find reg n = Some rels ->
    Candidate reg n v c -> In (v, Released c) (filter eligible rels).
  Proof.
    intros F [Pb Pr]. apply (published_iff _ _ _ _ _ F), release_In in Pb.
    apply filter_In. split; [exact Pb|]. apply eligible_iff. exists c. auto.
  Qed.

  Lemma In_candidate n rels v c : reg_find reg n = Some rels ->
    In (v, Released c) (filter eligible rels) -> Candidate reg n v c.
  Proof.
    intros F I. apply filter_In in I. destruct I as [I E]. apply eligible_iff in E. destruct E as (c' & _ & P).
    split; [|exact P]. apply (published_iff _ _ _ _ _ F), In_release; [exact (wf_rels _ _ _ wf F) | exact I].
  Qed.

  Lemma latest_of_scan n rels v c : reg_find reg n = Some rels ->
    highest (filter eligible rels) (v, Released c) -> Latest reg n v c.
  Proof.
    intros F [I M]. split; [exact (In_candidate _ _ _ _ F I)|].
    intros v' c' Cd. exact (M _ (candidate_In _ _ _ _ F Cd)).
  Qed.

  Lemma no_candidate_of_scan n rels : reg_find reg n = Some rels ->
    filter eligible rels = [] -> forall v c, ~ Candidate reg n v c.
  Proof. intros F E v c Cd. apply (candidate_In _ _ _ _ F) in Cd. rewrite E in Cd. exact Cd. Qed.

  Lemma key_outcome_sound ks : KeyOutcome valid_name reg ks (key_outcome_b valid_name reg ks).
  Proof.
    destruct ks as [[n ov] s]. unfold key_outcome_b.
    destruct (valid_name n) eqn:Vn; cbn [negb]; [|now constructor].
    destruct (reg_find reg n) as [rels|] eqn:F.
    2:{ apply KO_nopkg; [exact Vn|]. intros [rels F']. congruence. }
    assert (Ex : Exists_pkg reg n) by (exists rels; exact F).
    destruct ov as [v|].
    - destruct (release rels v) as [[c|]|] eqn:R.
      2,3: apply KO_nover; auto; intros c P; apply (published_iff _ _ _ _ _ F) in P; congruence.
      apply KO_exact; [exact Vn|]. apply (published_iff _ _ _ _ _ F). exact R.
    - destruct (latest_b rels) as [c|] eqn:L.
      + destruct (latest_b_some _ _ L) as [v H]. apply (KO_latest _ _ _ _ v); [exact Vn|].
        exact (latest_of_scan _ _ _ _ F H).
      + apply KO_norel; auto. exact (no_candidate_of_scan _ _ F (latest_b_none _ L)).
  Qed.

  Lemma key_outcome_complete ks o : KeyOutcome valid_name reg ks o -> o = key_outcome_b valid_name reg ks.
  Proof.
    (* each rule fixes the branch [key_outcome_b] takes *)
    intros H.
    destruct H as [n ov s Vn | n ov s Vn Nx | n v s c Vn (rels & F & R) | n v s Vn [rels F] Np
                  | n s v c Vn L | n s Vn [rels F] Nc];
      unfold key_outcome_b; rewrite Vn; cbn [negb].
    - reflexivity.
    - destruct (reg_find reg n) as [rels|] eqn:F; [|reflexivity]. destruct Nx. exists rels. exact F.
    - rewrite F, R. reflexivity.
    - rewrite F. destruct (release rels v) as [[c|]|] eqn:R; [|reflexivity..].
      destruct (Np c). exists rels. auto.
    - pose proof L as [[(rels & F & _) _] _]. rewrite F.
      destruct (latest_b rels) as [c'|] eqn:Lb.
      + destruct (latest_b_some _ _ Lb) as [v' H].
        destruct (latest_unique _ _ _ _ _ _ L (latest_of_scan _ _ _ _ F H)) as [_ ->]. reflexivity.
      + destruct (no_candidate_of_scan _ _ F (latest_b_none _ Lb) v c (proj1 L)).
    - rewrite F. destruct (latest_b rels) as [c|] eqn:Lb; [|reflexivity].
      destruct (latest_b_some _ _ Lb) as [v H].
      destruct (Nc v c (proj1 (latest_of_scan _ _ _ _ F H))).
  Qed.

  Lemma key_outcome_det ks o o' : KeyOutcome valid_name reg ks o -> KeyOutcome valid_name reg ks o' -> o = o'.
  Proof. intros H H'. rewrite (key_outcome_complete _ _ H), (key_outcome_complete _ _ H'). reflexivity. Qed.

  Lemma rerror_eqb_eq a b : rerror_eqb a b = true <-> a = b.
  Proof.
    destruct a, b; cbn; try (split; congruence);
      rewrite ?andb_true_iff, ?str_eqb_eq, ?ver_eqb_eq, ?N.eqb_eq.
    - split; [intros [-> ->]; reflexivity | intros [= -> ->]; auto].
    - split; [intros [-> ->]; reflexivity | intros [= -> ->]; auto].
    - split; [intros [[-> ->] ->]; reflexivity | intros [= -> -> ->]; auto].
    - split; [intros [-> ->]; reflexivity | intros [= -> ->]; auto].
  Qed.

  Lemma existsb_key {V} (l : list (pkey * V)) k :
    existsb (fun x => pkey_eqb (fst x) k) l = true <-> In k (map fst l).
  Proof.
    rewrite existsb_exists, in_map_iff. split; intros [x [A B]]; exists x.
    - apply pkey_eqb_eq in B. auto.
    - apply pkey_eqb_eq in A. auto.
  Qed.

  Lemma nodup_keys_b_iff (m : list (pkey * content)) : nodup_keys_b m = true <-> NoDup (map fst m).
  Proof.
    induction m as [|[k c] r IH]; cbn.
    - split; [constructor | reflexivity].
    - rewrite andb_true_iff, negb_true_iff, <- not_true_iff_false, existsb_key, IH, NoDup_cons_iff. reflexivity.
  Qed.

  Theorem spec_check_iff keys r : spec_check valid_name reg keys r = true <-> Resolve_spec valid_name reg keys r.
  Proof.
    split.
    - destruct r as [m|e|]; cbn [spec_check]; [| |discriminate].
      + rewrite !andb_true_iff, nodup_keys_b_iff, !forallb_forall. intros [[ND A] B].
        assert (A' : forall k s, In (k, s) keys -> exists c, key_outcome_b valid_name reg (k, s) = KOk c /\ In (k, c) m).
        { intros k s I. specialize (A _ I). cbn [fst] in A. destruct (key_outcome_b valid_name reg (k, s)) as [c|]; [|discriminate].
          destruct (im_get pkey_eqb m k) as [c'|] eqn:G; [|discriminate]. apply N.eqb_eq in A. subst c'.
          exists c. split; [reflexivity|]. eapply im_get_In; [exact pkey_eqb_eq | exact G]. }
        apply RS_ok; [exact ND | |].
        * intros k c. split.
          -- intros I. specialize (B _ I). apply existsb_key, in_map_iff in B. destruct B as [[k' s] [E I']]. cbn in E.
             subst k'. exists s. split; [exact I'|].
             destruct (A' _ _ I') as (c0 & O & I0).
             assert (c0 = c).
             { pose proof (In_im_get _ pkey_eqb_eq _ _ _ ND I0). pose proof (In_im_get _ pkey_eqb_eq _ _ _ ND I). congruence. }
             subst c0. rewrite <- O. apply key_outcome_sound.
          -- intros (s & I & O). destruct (A' _ _ I) as (c0 & O' & I0).
             apply key_outcome_complete in O. rewrite O' in O. injection O as <-. exact I0.
        * intros k s I. destruct (A' _ _ I) as (c & O & _). exists c. rewrite <- O. apply key_outcome_sound.
      + intros H. apply existsb_exists in H. destruct H as [[k s] [I E]].
        destruct (key_outcome_b valid_name reg (k, s)) as [|e'] eqn:O; [discriminate|]. apply rerror_eqb_eq in E. subst e'.
        apply (RS_err _ _ _ _ k s I). rewrite <- O. apply key_outcome_sound.
    - intros H. destruct H as [m ND A B | e k s I O]; cbn [spec_check].
      + rewrite !andb_true_iff, nodup_keys_b_iff, !forallb_forall. repeat split; [exact ND | |].
        * intros [k s] I. cbn [fst]. destruct (B _ _ I) as [c O].
          assert (Im : In (k, c) m) by (apply A; eauto).
          rewrite <- (key_outcome_complete _ _ O), (In_im_get _ pkey_eqb_eq _ _ _ ND Im). apply N.eqb_refl.
        * intros [k c] I. apply A in I. destruct I as (s & I & _). apply existsb_key.
          exact (in_map fst _ _ I).
      + apply existsb_exists. exists (k, s). split; [exact I|].
        apply key_outcome_complete in O. rewrite <- O. now apply rerror_eqb_eq.
  Qed.
End Outcomes.

(** [task_key_ok]: the task's tag is the position of its own key in [keys] --
    what [keys.get_index(tag)] needs, and what fails in the as-found code once two keys share a name *)
Definition entry_of (ks : pkey * span) : str * (option version * span) :=
  (kname (fst ks), (kver (fst ks), snd ks)).

Definition tkey (t : task) : pkey := (t_name t, t_version t).
Definition task_key_ok (keys : keys_t) (t : task) : Prop :=
  nth_error keys (t_index t) = Some (tkey t, t_span t).

Lemma In_entry_of keys n v s : In (n, (v, s)) (map entry_of keys) -> In ((n, v), s) keys.
Proof. intros I. apply in_map_iff in I. destruct I as [[[n' v'] s'] [[= -> -> ->] I]]. exact I. Qed.

Lemma spawn_In tbl : forall i t, In t (spawn tbl i) -> In (t_name t, (t_version t, t_span t)) tbl.
Proof.
  induction tbl as [|[n [v s]] r IH]; cbn; intros i t; [tauto|].
  intros [<-|H]; [now left | right; eauto].
Qed.

Lemma spawn_names tbl : forall i, map t_name (spawn tbl i) = map fst tbl.
Proof. induction tbl as [|[n [v s]] r IH]; cbn; intros i; [reflexivity|]. now rewrite IH. Qed.

Lemma spawn_length tbl : forall i, length (spawn tbl i) = length tbl.
Proof. induction tbl as [|[n [v s]] r IH]; cbn; intros i; [reflexivity|]. now rewrite IH. Qed.

Lemma spawn_index tbl : forall i t, In t (spawn tbl i) -> (i <= t_index t < i + length tbl)%nat.
Proof.
  induction tbl as [|[n [v s]] r IH]; cbn; intros i t; [tauto|].
  intros [<-|H]; cbn; [lia|]. specialize (IH _ _ H). lia.
Qed.

Lemma spawn_key_ok keys : forall front t,
  In t (spawn (map entry_of keys) (length front)) -> task_key_ok (front ++ keys) t.
Proof.
  induction keys as [|[[n v] s] r IH]; cbn; intros front t; [tauto|].
  intros [<-|H].
  - unfold task_key_ok; cbn. rewrite nth_error_app2 by lia. now rewrite Nat.sub_diag.
  - specialize (IH (front ++ [((n, v), s)]) t). rewrite app_length, Nat.add_1_r in IH.
    rewrite <- app_assoc in IH. apply IH. exact H.
Qed.

Lemma spawn_has keys : forall i ks, In ks keys ->
  exists t, In t (spawn (map entry_of keys) i) /\ (tkey t, t_span t) = ks.
Proof.
  induction keys as [|[[n v] s] r IH]; cbn; intros i ks; [tauto|].
  intros [<-|H].
  - eexists. split; [now left | reflexivity].
  - destruct (IH (S i) _ H) as (t & I & E). exists t. split; [now right | exact E].
Qed.

Lemma spawn_tkeys keys : forall i, map tkey (spawn (map entry_of keys) i) = map fst keys.
Proof.
  induction keys as [|[[n v] s] r IH]; cbn; intros i; [reflexivity|]. now rewrite IH.
Qed.

Lemma wf_keys_perm keys keys' : Permutation keys keys' -> wf_keys keys -> wf_keys keys'.
Proof. intros P. apply Permutation_NoDup, Permutation_map, P. Qed.

Lemma no_shared_name_perm keys keys' : Permutation keys keys' -> no_shared_name keys -> no_shared_name keys'.
Proof. intros P. apply Permutation_NoDup, Permutation_map, P. Qed.

Section Resolver.
  Variable valid_name : str -> bool.
  Variable reg : registry.
  Hypothesis wf : wf_reg reg.

  Lemma collect_err keys : forall tbl e, collect valid_name keys tbl = inr e ->
    exists k s, In (k, s) keys /\ KeyOutcome valid_name reg (k, s) (KErr e).
  Proof.
    induction keys as [|[[n ov] s] r IH]; cbn; intros tbl e; [discriminate|].
    destruct (valid_name n) eqn:E.
    - intros H. destruct (IH _ _ H) as (k0 & s0 & I & O). exists k0, s0. auto.
    - intros [= <-]. exists (n, ov), s. split; [now left | now constructor].
  Qed.

  Lemma collect_ok keys : forall tbl tbl', collect valid_name keys tbl = inl tbl' ->
    (forall k s, In (k, s) keys -> valid_name (kname k) = true) /\
    (forall n v s, In (n, (v, s)) tbl' -> In (n, (v, s)) tbl \/ In ((n, v), s) keys) /\
    (length tbl' <= length tbl + length keys)%nat.
  Proof.
    induction keys as [|[k s] r IH]; cbn; intros tbl tbl'.
    - intros [= ->]. repeat split; [tauto | auto | lia].
    - destruct (valid_name (kname k)) eqn:E; [|discriminate]. intros H.
      destruct (IH _ _ H) as (A & B & C). repeat split.
      + intros k0 s0 [[= <- <-]|I]; eauto.
      + intros n v s0 I. destruct (B _ _ _ I) as [I'|I']; [|right; now right].
        destruct (im_insert_In _ str_eqb_eq _ _ _ _ _ I') as [I''|[-> [= -> ->]]]; [now left|].
        right; left. destruct k; reflexivity.
      + pose proof (im_insert_length str_eqb tbl (kname k) (kver k, s)). lia.
  Qed.

  Lemma collect_distinct keys : forall tbl,
    (forall k s, In (k, s) keys -> valid_name (kname k) = true) ->
    NoDup (map fst tbl ++ map (fun ks => kname (fst ks)) keys) ->
    collect valid_name keys tbl = inl (tbl ++ map entry_of keys).
  Proof.
    induction keys as [|[k s] r IH]; cbn; intros tbl Hv ND.
    - now rewrite app_nil_r.
    - rewrite (Hv k s (or_introl eq_refl)).
      rewrite (im_insert_fresh _ str_eqb_eq).
      + rewrite IH.
        * now rewrite <- app_assoc.
        * intros; eapply Hv; right; eauto.
        * rewrite map_app; cbn. now rewrite <- app_assoc.
      + apply NoDup_remove_2 in ND. intros I. apply ND. apply in_or_app. now left.
  Qed.

  Lemma first_missing_some names n : first_missing reg names = Some n -> In n names /\ reg_find reg n = None.
  Proof.
    induction names as [|x r IH]; cbn; [discriminate|]. destruct (reg_find reg x) eqn:F.
    - intros H. destruct (IH H). auto.
    - intros [= <-]. auto.
  Qed.

  Lemma first_missing_none names : first_missing reg names = None ->
    forall n, In n names -> exists rels, reg_find reg n = Some rels.
  Proof.
    induction names as [|x r IH]; cbn; [intros _ n []|]. destruct (reg_find reg x) as [r0|] eqn:F; [|discriminate].
    intros H n [<-|I]; [exists r0; exact F | exact (IH H n I)].
  Qed.

  Lemma run_task_err t e rels : reg_find reg (t_name t) = Some rels -> valid_name (t_name t) = true ->
    run_task reg t = inr e -> KeyOutcome valid_name reg (tkey t, t_span t) (KErr e).
  Proof.
    intros F Vn. unfold run_task, tkey. rewrite F.
    assert (Ex : Exists_pkg reg (t_name t)) by (exists rels; exact F).
    destruct (t_version t) as [v|].
    - destruct (release rels v) as [[c|]|] eqn:R; [discriminate| |]; intros [= <-];
        (apply KO_nover; auto; intros c P; apply (published_iff _ _ _ _ _ F) in P; congruence).
    - destruct (find_latest_release rels) as [[v [c|]]|] eqn:L; [discriminate| |].
      + apply find_latest_some in L. destruct L as [L _]. apply filter_In in L. destruct L as [_ L]. discriminate.
      + intros [= <-]. apply KO_norel; auto. exact (no_candidate_of_scan _ _ _ F (find_latest_none _ L)).
  Qed.

  Lemma run_task_ok t c rels : reg_find reg (t_name t) = Some rels -> valid_name (t_name t) = true ->
    run_task reg t = inl c -> KeyOutcome valid_name reg (tkey t, t_span t) (KOk c).
  Proof.
    intros F Vn. unfold run_task, tkey. rewrite F.
    destruct (t_version t) as [v|].
    - destruct (release rels v) as [[c'|]|] eqn:R; try discriminate. intros [= <-].
      apply KO_exact; [exact Vn|]. apply (published_iff _ _ _ _ _ F). exact R.
    - destruct (find_latest_release rels) as [[v [c'|]]|] eqn:L; try discriminate. intros [= <-].
      apply (KO_latest _ _ _ _ v); [exact Vn|]. exact (latest_of_scan _ wf _ _ _ _ F (find_latest_some _ _ L)).
  Qed.

  Lemma complete_inl keys sched : forall pk f m f',
    complete reg keys sched pk f = inl (m, f') ->
    f' = (f + length sched)%nat /\
    (NoDup (map fst pk) -> NoDup (map fst m)) /\
    forall t, In t sched -> exists c, run_task reg t = inl c.
  Proof.
    induction sched as [|t0 rest IH]; cbn; intros pk f m f'.
    - intros [= <- <-]. repeat split; [lia | auto | tauto].
    - destruct (run_task reg t0) as [c0|] eqn:R; [|discriminate].
      destruct (nth_error keys (t_index t0)) as [[k s]|]; [|discriminate].
      intros H. destruct (IH _ _ _ _ H) as (L & ND & Ok). repeat split.
      + lia.
      + intros N. apply ND, im_insert_NoDup; [exact pkey_eqb_eq | exact N].
      + intros t [<-|I]; [exists c0; exact R | exact (Ok t I)].
  Qed.

  Lemma complete_err keys sched : forall pk f r,
    complete reg keys sched pk f = inr r ->
    (r = RPanic /\ exists t, In t sched /\ nth_error keys (t_index t) = None) \/
    (exists t e, In t sched /\ run_task reg t = inr e /\ r = RErr e).
  Proof.
    induction sched as [|t rest IH]; cbn; intros pk f r; [discriminate|].
    destruct (run_task reg t) as [c|e] eqn:R.
    - destruct (nth_error keys (t_index t)) as [[k s]|] eqn:Nt.
      + intros H. destruct (IH _ _ _ H) as [[-> (t' & I & N')]|(t' & e & I & R' & ->)].
        * left. split; [reflexivity|]. exists t'. auto.
        * right. exists t', e. auto.
      + intros [= <-]. left. split; [reflexivity|]. exists t. auto.
    - intros [= <-]. right. exists t, e. auto.
  Qed.

  Lemma complete_stores keys sched : forall pk f m f',
    complete reg keys sched pk f = inl (m, f') ->
    (forall t, In t sched -> task_key_ok keys t) ->
    NoDup (map fst pk ++ map tkey sched) ->
    forall k c, In (k, c) m <->
      In (k, c) pk \/ exists t, In t sched /\ run_task reg t = inl c /\ k = tkey t.
  Proof.
    induction sched as [|t rest IH]; cbn; intros pk f m f'.
    - intros [= <- _] _ _ k c. split; [auto | intros [I|(t & [] & _)]; exact I].
    - destruct (run_task reg t) as [c0|] eqn:R; [|discriminate]. intros H Hk ND.
      rewrite (Hk t (or_introl eq_refl)) in H. cbv beta iota in H.
      rewrite (im_insert_fresh _ pkey_eqb_eq) in H.
      2:{ apply NoDup_remove_2 in ND. intros I. apply ND, in_or_app. now left. }
      intros k c. rewrite (IH _ _ _ _ H); [| intros; apply Hk; now right | rewrite map_app, <- app_assoc; exact ND].
      rewrite in_app_iff. cbn. split.
      + intros [[I|[[= <- <-]|[]]]|(t' & I & R' & E)]; [now left | right; exists t; auto | right; exists t'; auto].
      + intros [I|(t' & [<-|I] & R' & ->)]; [left; now left | left; right; left; congruence | right; exists t'; auto].
  Qed.

  (** A completed loop meets the specification as soon as every requested key has exactly one task,
      tagged with that key's position. *)
  Lemma complete_meets_spec keys sched m f :
    complete reg keys sched [] 0 = inl (m, f) ->
    (forall t, In t sched -> task_key_ok keys t) ->
    NoDup (map tkey sched) ->
    (forall t, In t sched -> exists rels, reg_find reg (t_name t) = Some rels) ->
    (forall t, In t sched -> valid_name (t_name t) = true) ->
    (forall k s, In (k, s) keys -> exists t, In t sched /\ (tkey t, t_span t) = (k, s)) ->
    Resolve_spec valid_name reg keys (ROk m).
  Proof.
    intros Cm Hk NDn Hreg Hval Htask.
    pose proof (complete_stores _ _ _ _ _ _ Cm Hk NDn) as St.
    destruct (complete_inl _ _ _ _ _ _ Cm) as (_ & NDm & Hall).
    assert (Hrun : forall t c, In t sched -> run_task reg t = inl c ->
                   KeyOutcome valid_name reg (tkey t, t_span t) (KOk c)).
    { intros t c It. destruct (Hreg _ It) as [rels F]. exact (run_task_ok _ _ _ F (Hval _ It)). }
    assert (Hok : forall k s, In (k, s) keys -> exists c, KeyOutcome valid_name reg (k, s) (KOk c) /\ In (k, c) m).
    { intros k s I. destruct (Htask _ _ I) as (t & It & [= <- <-]).
      destruct (Hall t It) as [c Rt]. exists c.
      split; [exact (Hrun _ _ It Rt) | apply St; right; exists t; auto]. }
    apply RS_ok.
    - apply NDm. constructor.
    - intros k c. split.
      + intros Im. apply St in Im. destruct Im as [[]|(t & It & Rt & ->)].
        exists (t_span t). split; [exact (nth_error_In _ _ (Hk _ It)) | exact (Hrun _ _ It Rt)].
      + intros (s & I & O). destruct (Hok _ _ I) as (c' & O' & Im).
        pose proof (key_outcome_det _ _ wf _ _ _ O O') as E. injection E as ->. exact Im.
    - intros k s I. destruct (Hok _ _ I) as (c & O & _). eauto.
  Qed.

  Lemma collect_list_err keys : forall e, collect_list valid_name keys = inr e ->
    exists k s, In (k, s) keys /\ KeyOutcome valid_name reg (k, s) (KErr e).
  Proof.
    induction keys as [|[[n ov] s] r IH]; cbn; intros e; [discriminate|].
    destruct (valid_name n) eqn:E.
    - destruct (collect_list valid_name r) as [l|e0]; [discriminate|]. intros [= <-].
      destruct (IH _ eq_refl) as (k0 & s0 & I & O). exists k0, s0. auto.
    - intros [= <-]. exists (n, ov), s. split; [now left | now constructor].
  Qed.

  Lemma collect_list_ok keys : forall lst, collect_list valid_name keys = inl lst ->
    lst = map entry_of keys /\ forall k s, In (k, s) keys -> valid_name (kname k) = true.
  Proof.
    induction keys as [|[k s] r IH]; cbn; intros lst.
    - intros [= <-]. split; [reflexivity | tauto].
    - destruct (valid_name (kname k)) eqn:E; [|discriminate].
      destruct (collect_list valid_name r) as [l|e0]; [|discriminate]. intros [= <-].
      destruct (IH _ eq_refl) as [-> Hv]. split; [reflexivity|].
      intros k0 s0 [[= <- <-]|I]; eauto.
  Qed.

  Lemma or_insert_In m n s n0 s0 : In (n0, s0) (or_insert m n s) -> In (n0, s0) m \/ (n0 = n /\ s0 = s).
  Proof.
    unfold or_insert. destruct (im_get str_eqb m n); [auto|]. intros I. apply in_app_or in I.
    destruct I as [I|[[= <- <-]|[]]]; auto.
  Qed.

  Lemma or_insert_has m n s : In n (map fst (or_insert m n s)).
  Proof.
    unfold or_insert. destruct (im_get str_eqb m n) eqn:G.
    - apply (im_get_In _ str_eqb_eq) in G. apply (in_map fst) in G. exact G.
    - rewrite map_app. apply in_or_app. right. now left.
  Qed.

  Lemma or_insert_incl m n s x : In x (map fst m) -> In x (map fst (or_insert m n s)).
  Proof.
    unfold or_insert. destruct (im_get str_eqb m n); [auto|]. intros I. rewrite map_app. apply in_or_app. now left.
  Qed.

  (** [resolve] and [resolve_fixed] differ in the table [tbl] they build from the keys and in the
      map [names] whose keys they fetch the logs of ([span_of] reads the span off one of its
      values).  The log fetch, the completion loop and the final [assert_eq!] are the same code. *)
  Definition finish {V} (names : list (str * V)) (span_of : V -> span) (tbl : table_t)
      (keys : keys_t) (sched : list task) : result :=
    match first_missing reg (map fst names) with
    | Some name =>
        match im_get str_eqb names name with
        | Some x => RErr (EPackageDoesNotExist name (span_of x))
        | None => RPanic
        end
    | None =>
        match complete reg keys sched [] 0 with
        | inr r => r
        | inl (packages, finished) =>
            if Nat.eqb finished (length (spawn tbl 0)) then ROk packages else RPanic
        end
    end.

  Lemma resolve_eq keys sched :
    resolve valid_name reg keys sched =
    match collect valid_name keys [] with
    | inr e => RErr e
    | inl tbl => finish tbl snd tbl keys sched
    end.
  Proof.
    unfold resolve, finish. destruct (collect valid_name keys []) as [tbl|e]; [|reflexivity].
    destruct (first_missing reg (map fst tbl)) as [name|]; [|reflexivity].
    destruct (im_get str_eqb tbl name) as [[v s]|]; reflexivity.
  Qed.

  Lemma resolve_fixed_eq keys sched :
    resolve_fixed valid_name reg keys sched =
    match collect_list valid_name keys with
    | inr e => RErr e
    | inl lst => finish (names_of lst) (fun s => s) lst keys sched
    end.
  Proof. reflexivity. Qed.

  Definition covers {V} (names : list (str * V)) (span_of : V -> span) (tbl : table_t) : Prop :=
    incl (map fst tbl) (map fst names) /\
    forall n x, In (n, x) names -> exists v, In (n, (v, span_of x)) tbl.

  Lemma covers_self tbl : covers tbl snd tbl.
  Proof. split; [apply incl_refl|]. intros n [v s] I. exists v. exact I. Qed.

  Lemma names_of_covers lst : covers (names_of lst) (fun s => s) lst.
  Proof.
    unfold names_of. induction lst as [|[n0 [v0 s0]] l [A B]] using rev_ind.
    { split; [apply incl_refl | intros n x []]. }
    rewrite fold_left_app. cbn [fold_left fst snd]. split.
    - intros n I. rewrite map_app in I. apply in_app_or in I.
      destruct I as [I|[<-|[]]]; [apply or_insert_incl, A, I | apply or_insert_has].
    - intros n s I. destruct (or_insert_In _ _ _ _ _ I) as [I'|[-> ->]].
      + destruct (B _ _ I') as [v Iv]. exists v. apply in_or_app. now left.
      + exists v0. apply in_or_app. right. now left.
  Qed.

  (** None of the [unwrap]/[assert_eq!] can fail: a missing name was taken from [names]; every tag
      is a position of [tbl], which has no more entries than there are keys; all tasks complete. *)
  Lemma finish_never_panics {V} (names : list (str * V)) span_of tbl keys sched :
    (length tbl <= length keys)%nat -> Permutation sched (spawn tbl 0) ->
    finish names span_of tbl keys sched <> RPanic.
  Proof.
    intros Len P. unfold finish.
    destruct (first_missing reg (map fst names)) as [name|] eqn:FM.
    - destruct (first_missing_some _ _ FM) as [I _].
      destruct (im_get str_eqb names name) as [x|] eqn:G; [discriminate|].
      apply (im_get_None _ str_eqb_eq) in G. contradiction.
    - destruct (complete reg keys sched [] 0) as [[m f]|r] eqn:Cm.
      + rewrite (proj1 (complete_inl _ _ _ _ _ _ Cm)). cbn [Nat.add].
        rewrite (Permutation_length P), Nat.eqb_refl. discriminate.
      + destruct (complete_err _ _ _ _ _ Cm) as [[_ (t & It & Nt)]|(t & e & _ & _ & ->)]; [|discriminate].
        exfalso. apply (Permutation_in _ P), spawn_index in It. apply nth_error_None in Nt. lia.
  Qed.

  Lemma finish_error_attributed {V} (names : list (str * V)) span_of tbl keys sched e :
    (forall k s, In (k, s) keys -> valid_name (kname k) = true) ->
    (forall n v s, In (n, (v, s)) tbl -> In ((n, v), s) keys) ->
    covers names span_of tbl ->
    incl sched (spawn tbl 0) ->
    finish names span_of tbl keys sched = RErr e ->
    exists k s, In (k, s) keys /\ KeyOutcome valid_name reg (k, s) (KErr e).
  Proof.
    intros Hv Htbl [Hcover Hnames] Hs. unfold finish.
    destruct (first_missing reg (map fst names)) as [name|] eqn:FM.
    - destruct (first_missing_some _ _ FM) as [_ Fn].
      destruct (im_get str_eqb names name) as [x|] eqn:G; [|discriminate]. intros [= <-].
      apply (im_get_In _ str_eqb_eq) in G. destruct (Hnames _ _ G) as [v I]. apply Htbl in I.
      exists (name, v), (span_of x). split; [exact I|].
      apply KO_nopkg; [exact (Hv _ _ I)|]. intros [rels F]. congruence.
    - destruct (complete reg keys sched [] 0) as [[m f]|r] eqn:Cm.
      + destruct (Nat.eqb f _); discriminate.
      + intros ->. destruct (complete_err _ _ _ _ _ Cm) as [[X _]|(t & e' & It & R & [= <-])]; [discriminate|].
        apply Hs in It.
        destruct (first_missing_none _ FM (t_name t)) as [rels F].
        { apply Hcover. rewrite <- (spawn_names tbl 0). apply in_map. exact It. }
        apply spawn_In, Htbl in It.
        exists (tkey t), (t_span t). split; [exact It|].
        exact (run_task_err _ _ _ F (Hv _ _ It) R).
  Qed.

  Lemma spec_err keys e :
    (exists k s, In (k, s) keys /\ KeyOutcome valid_name reg (k, s) (KErr e)) ->
    Resolve_spec valid_name reg keys (RErr e).
  Proof. intros (k & s & I & O). exact (RS_err _ _ _ _ k s I O). Qed.

  Lemma finish_meets_spec {V} (names : list (str * V)) span_of keys sched :
    wf_keys keys ->
    (forall k s, In (k, s) keys -> valid_name (kname k) = true) ->
    covers names span_of (map entry_of keys) ->
    Permutation sched (spawn (map entry_of keys) 0) ->
    Resolve_spec valid_name reg keys (finish names span_of (map entry_of keys) keys sched).
  Proof.
    intros WK Hv Hn P.
    destruct (finish names span_of (map entry_of keys) keys sched) as [m|e|] eqn:R.
    - revert R. unfold finish.
      destruct (first_missing reg (map fst names)) as [name|] eqn:FM.
      { destruct (im_get str_eqb names name); discriminate. }
      destruct (complete reg keys sched [] 0) as [[m' f]|r] eqn:Cm.
      2:{ intros ->. destruct (complete_err _ _ _ _ _ Cm) as [[X _]|(? & ? & _ & _ & X)]; discriminate. }
      destruct (Nat.eqb f _); [|discriminate]. intros [= ->].
      apply (complete_meets_spec keys sched m f Cm).
      + intros t It. exact (spawn_key_ok keys [] t (Permutation_in _ P It)).
      + apply (Permutation_NoDup (Permutation_map tkey (Permutation_sym P))).
        rewrite spawn_tkeys. exact WK.
      + intros t It. apply (first_missing_none _ FM), (proj1 Hn). rewrite <- (spawn_names _ 0).
        apply in_map. exact (Permutation_in _ P It).
      + intros t It. apply (Permutation_in _ P), spawn_In, In_entry_of in It. exact (Hv _ _ It).
      + intros k s I. destruct (spawn_has keys 0 _ I) as (t & It & E). exists t. split; [|exact E].
        exact (Permutation_in _ (Permutation_sym P) It).
    - apply spec_err. revert R. apply finish_error_attributed; [exact Hv | apply In_entry_of | exact Hn|].
      intros t. apply Permutation_in. exact P.
    - exfalso. revert R. apply finish_never_panics; [rewrite map_length; apply le_n | exact P].
  Qed.

  (** Errors are always attributed to a requesting key that is owed exactly that error — also when
      keys share a name (the table then holds the LAST key of each name, and that key is in [keys]). *)
  Theorem error_attributed_full keys sched e :
    incl sched (tasks_of valid_name keys) ->
    resolve valid_name reg keys sched = RErr e ->
    exists k s, In (k, s) keys /\ KeyOutcome valid_name reg (k, s) (KErr e).
  Proof.
    rewrite resolve_eq. unfold tasks_of.
    destruct (collect valid_name keys []) as [tbl|e0] eqn:C.
    - destruct (collect_ok _ _ _ C) as (Hv & Hin & _).
      apply finish_error_attributed; [exact Hv | | apply covers_self].
      intros n v s I. destruct (Hin _ _ _ I) as [[]|I']. exact I'.
    - intros _ [= <-]. exact (collect_err _ _ _ C).
  Qed.

  (** [resolve] never reaches one of its [unwrap]/[assert_eq!] failures, shared names or not. *)
  Theorem resolve_never_panics keys sched :
    Permutation sched (tasks_of valid_name keys) -> resolve valid_name reg keys sched <> RPanic.
  Proof.
    rewrite resolve_eq. unfold tasks_of.
    destruct (collect valid_name keys []) as [tbl|e0] eqn:C; [|discriminate].
    apply finish_never_panics. exact (proj2 (proj2 (collect_ok _ _ _ C))).
  Qed.

  (** The property for the code as found, for key sets in which no two keys share a package name:
      the table then is the key list. *)
  Theorem resolve_distinct_names keys sched :
    wf_keys keys -> no_shared_name keys ->
    Permutation sched (tasks_of valid_name keys) ->
    Resolve_spec valid_name reg keys (resolve valid_name reg keys sched).
  Proof.
    intros WK NS. rewrite resolve_eq. unfold tasks_of.
    destruct (collect valid_name keys []) as [tbl|e0] eqn:C.
    - destruct (collect_ok _ _ _ C) as (Hv & _ & _).
      rewrite (collect_distinct keys [] Hv NS) in C. injection C as <-.
      apply (finish_meets_spec _ _ _ _ WK Hv), covers_self.
    - intros _. exact (spec_err _ _ (collect_err _ _ _ C)).
  Qed.

  (** ** The repaired algorithm: the same two facts, and the property at full strength (any number
      of keys may share a name) *)
  Theorem fixed_error_attributed keys sched e :
    incl sched (tasks_of_fixed valid_name keys) ->
    resolve_fixed valid_name reg keys sched = RErr e ->
    exists k s, In (k, s) keys /\ KeyOutcome valid_name reg (k, s) (KErr e).
  Proof.
    rewrite resolve_fixed_eq. unfold tasks_of_fixed.
    destruct (collect_list valid_name keys) as [lst|e0] eqn:C.
    - destruct (collect_list_ok _ _ C) as [-> Hv].
      apply finish_error_attributed; [exact Hv | apply In_entry_of | apply names_of_covers].
    - intros _ [= <-]. exact (collect_list_err _ _ C).
  Qed.

  Theorem fixed_never_panics keys sched :
    Permutation sched (tasks_of_fixed valid_name keys) -> resolve_fixed valid_name reg keys sched <> RPanic.
  Proof.
    rewrite resolve_fixed_eq. unfold tasks_of_fixed.
    destruct (collect_list valid_name keys) as [lst|e0] eqn:C; [|discriminate].
    destruct (collect_list_ok _ _ C) as [-> _].
    apply finish_never_panics. rewrite map_length. apply le_n.
  Qed.

  Theorem fixed_meets_spec keys sched :
    wf_keys keys ->
    Permutation sched (tasks_of_fixed valid_name keys) ->
    Resolve_spec valid_name reg keys (resolve_fixed valid_name reg keys sched).
  Proof.
    intros WK. rewrite resolve_fixed_eq. unfold tasks_of_fixed.
    destruct (collect_list valid_name keys) as [lst|e0] eqn:C.
    - destruct (collect_list_ok _ _ C) as [-> Hv].
      apply (finish_meets_spec _ _ _ _ WK Hv), names_of_covers.
    - intros _. exact (spec_err _ _ (collect_list_err _ _ C)).
  Qed.

  Lemma spec_no_key_dropped keys m :
    Resolve_spec valid_name reg keys (ROk m) ->
    forall k s, In (k, s) keys -> exists c, In (k, c) m /\ KeyOutcome valid_name reg (k, s) (KOk c).
  Proof.
    intros S k s I. inversion S as [m' ND A B|]; subst. destruct (B _ _ I) as [c O]. exists c. split; [|exact O].
    apply A. eauto.
  Qed.

  Lemma spec_error_reported keys r k s e :
    Resolve_spec valid_name reg keys r -> In (k, s) keys -> KeyOutcome valid_name reg (k, s) (KErr e) ->
    exists e', r = RErr e'.
  Proof.
    intros S I O. inversion S as [m ND A B HR | e' k' s' I' O' HR]; [|eauto].
    destruct (B _ _ I) as [c O']. pose proof (key_outcome_det _ _ wf _ _ _ O O'). discriminate.
  Qed.

  Definition same_answer (r r' : result) : Prop :=
    match r, r' with
    | ROk m, ROk m' => forall k c, In (k, c) m <-> In (k, c) m'
    | RErr _, RErr _ => True
    | _, _ => False
    end.

  Lemma spec_same_answer keys keys' r r' :
    (forall ks, In ks keys <-> In ks keys') ->
    Resolve_spec valid_name reg keys r -> Resolve_spec valid_name reg keys' r' -> same_answer r r'.
  Proof.
    intros E S S'. destruct S as [m ND A B|e k s I O]; destruct S' as [m' ND' A' B'|e' k' s' I' O']; cbn; auto.
    - intros k c. rewrite A, A'. split; intros (s & I & O); exists s; (split; [apply E; exact I | exact O]).
    - apply E in I'. destruct (B _ _ I') as [c O]. pose proof (key_outcome_det _ _ wf _ _ _ O O'). discriminate.
    - apply E in I. destruct (B' _ _ I) as [c O']. pose proof (key_outcome_det _ _ wf _ _ _ O O'). discriminate.
  Qed.

  Lemma perm_same_answer keys keys' r r' :
    Permutation keys keys' ->
    Resolve_spec valid_name reg keys r -> Resolve_spec valid_name reg keys' r' -> same_answer r r'.
  Proof.
    intros PK. apply spec_same_answer. intros ks. split; apply Permutation_in; [|symmetry]; exact PK.
  Qed.
End Resolver.
