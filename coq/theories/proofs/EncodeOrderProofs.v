(** C16, encoder part: the encoder with iteration / representation oracles ([model/EncodeOrder.v]) observes
    exactly what [EncodeModel.encode_model] observes, whatever the oracles do. *)
From Coq Require Import List Arith Bool NArith Permutation Lia.
From WacV Require Import Str StrLit Ord Semver Names Graph Wiring WiringSpec EncodeModel EncodeBasics WiringOrder ListFacts.
From WacV Require Import Determinism DeterminismProofs EncodeOrder.
Import ListNotations.
Local Open Scope nat_scope.

Definition res_rel {A B} (R : A -> B -> Prop) (r : res A) (r' : res B) : Prop :=
  match r, r' with
  | ROk a, ROk b => R a b
  | RErr x, RErr y => x = y
  | _, _ => False
  end.

Lemma bind_rel {A A' B B'} (R : A -> A' -> Prop) (S : B -> B' -> Prop) r r' (f : A -> res B) (f' : A' -> res B') :
  res_rel R r r' -> (forall a a', R a a' -> res_rel S (f a) (f' a')) -> res_rel S (bind r f) (bind r' f').
Proof. destruct r, r'; cbn; intros H K; try contradiction; auto. Qed.

Lemma res_rel_eq {A} (r r' : res A) : res_rel eq r r' -> r = r'.
Proof. destruct r, r'; cbn; intros H; try contradiction; congruence. Qed.

Lemma est_equiv_refl st : est_equiv st st.
Proof. repeat split. Qed.

Lemma est_equiv_sym a b : est_equiv a b -> est_equiv b a.
Proof. intros (A1 & A2 & A3 & A4 & A5 & A6). repeat split; auto. Qed.

Lemma est_equiv_trans a b c : est_equiv a b -> est_equiv b c -> est_equiv a c.
Proof.
  intros (A1 & A2 & A3 & A4 & A5 & A6) (B1 & B2 & B3 & B4 & B5 & B6).
  split; [congruence|]. split; [congruence|]. split; [congruence|].
  split; [intros k; rewrite A4; apply B4|]. split; [intros k; rewrite A5; apply B5|intros n; rewrite A6; apply B6].
Qed.

Lemma oracle_equiv o (Hv : forall k st, est_equiv st (eo_state o k st)) k st st' :
  est_equiv st st' -> est_equiv (eo_state o k st) st'.
Proof. intros H. exact (est_equiv_trans _ _ _ (est_equiv_sym _ _ (Hv k st)) H). Qed.

Definition pair_equiv (p q : est * nat) : Prop := est_equiv (fst p) (fst q) /\ snd p = snd q.

Lemma emit_equiv st st' it : est_equiv st st' -> est_equiv (emit st it) (emit st' it).
Proof. intros (A1 & A2 & A3 & A4 & A5 & A6). unfold emit, with_log. repeat split; cbn; auto. congruence. Qed.

Lemma run_ty_equiv tau st st' rq : est_equiv st st' -> res_rel pair_equiv (run_ty tau st rq) (run_ty tau st' rq).
Proof.
  intros (A1 & A2 & A3 & A4 & A5 & A6). unfold run_ty. rewrite <- A1.
  destruct (tau (e_log st) rq) as [its idx]. destruct (ty_items_ok (cnt SInstance (e_log st)) its); cbn; [|exact eq_refl].
  split; [|exact eq_refl]. repeat split; cbn; auto; congruence.
Qed.

Lemma set_nidx_equiv st st' n idx : est_equiv st st' -> res_rel est_equiv (set_nidx st n idx) (set_nidx st' n idx).
Proof.
  intros (A1 & A2 & A3 & A4 & A5 & A6). unfold set_nidx. rewrite <- (A4 n).
  destruct (nat_assoc n (e_nidx st)); cbn; [exact eq_refl|].
  repeat split; cbn; auto. intros k. rewrite A4. reflexivity.
Qed.

Lemma enc_definition_equiv e tau st st' n nd :
  est_equiv st st' -> res_rel est_equiv (enc_definition e tau st n nd) (enc_definition e tau st' n nd).
Proof.
  intros H. unfold enc_definition. destruct (nexport nd) as [nm|]; [|exact eq_refl].
  eapply bind_rel; [apply run_ty_equiv; exact H|].
  intros [s1 t1] [s2 t2] [H1 H2]; cbn in *; subst t2.
  rewrite <- (proj1 H1).
  match goal with |- context [if ?c then _ else _] => destruct c; [exact eq_refl|] end.
  apply set_nidx_equiv, emit_equiv, H1.
Qed.

Lemma enc_alias_equiv e u g st st' n :
  est_equiv st st' -> res_rel est_equiv (enc_alias e u g st n) (enc_alias e u g st' n).
Proof.
  intros H. unfold enc_alias. destruct (get_alias_source u g n) as [[src en]|]; [|exact eq_refl].
  destruct (get_node g src) as [sn|]; [|exact eq_refl]. destruct (u_inst_exports u (nitem sn)) as [ex|]; [|exact eq_refl].
  destruct (alist_get N.eqb ex en) as [k|]; [|exact eq_refl].
  pose proof H as (A1 & A2 & A3 & A4 & A5 & A6). rewrite <- (A4 src).
  destruct (nat_assoc src (e_nidx st)) as [inst|]; [|exact eq_refl]. rewrite <- A1.
  apply set_nidx_equiv. apply emit_equiv. exact H.
Qed.

Lemma enc_instantiation_equiv e u g dc tau st st' n nd :
  est_equiv st st' -> res_rel est_equiv (enc_instantiation e u g dc tau st n nd) (enc_instantiation e u g dc tau st' n nd).
Proof.
  intros H. unfold enc_instantiation. destruct (npkg nd) as [pid|]; [|exact eq_refl].
  destruct (get_pkg g pid) as [p|]; [|exact eq_refl]. destruct (inst_imports u g nd) as [imps|]; [|exact eq_refl].
  eapply (bind_rel pair_equiv).
  - pose proof H as (A1 & A2 & A3 & A4 & A5 & A6). rewrite <- (A5 pid).
    destruct (pkg_assoc pid (e_pkgs st)) as [ci|]; cbn; [split; [exact H|reflexivity]|].
    eapply (bind_rel pair_equiv).
    + destruct dc; cbn.
      * split; [apply emit_equiv; exact H|cbn; congruence].
      * eapply (bind_rel pair_equiv); [apply run_ty_equiv; exact H|].
        intros [s1 t1] [s2 t2] [H1 H2]; cbn in *. split; cbn; [apply emit_equiv; exact H1|].
        destruct H1 as (B1 & _). congruence.
    + intros [s1 c1] [s2 c2] [H1 H2]; cbn in *; subst c2. split; [|exact eq_refl]. cbn.
      destruct H1 as (B1 & B2 & B3 & B4 & B5 & B6). repeat split; cbn; auto. intros k. rewrite B5. reflexivity.
  - intros [s1 c1] [s2 c2] [H1 H2]; cbn in *; subst c2.
    pose proof H1 as (B1 & _ & _ & B4 & _ & B6).
    match goal with |- res_rel _ (bind (fold_left ?F _ _) _) (bind (fold_left ?F' _ _) _) =>
      assert (EF : fold_left F (incoming g n) (ROk []) = fold_left F' (incoming g n) (ROk [])) end.
    { apply fold_left_ext. intros acc ed. destruct acc as [l|x]; cbn; [|exact eq_refl]. rewrite B4. reflexivity. }
    rewrite EF. match goal with |- res_rel _ (bind ?r _) (bind ?r _) => destruct r as [args|x] end; cbn; [|exact eq_refl].
    fold (impl_of n (e_impl s1)). fold (impl_of n (e_impl s2)). rewrite <- B6, <- B1.
    apply set_nidx_equiv, emit_equiv, H1.
Qed.

Lemma enc_node_equiv e u g dc tau st st' n :
  est_equiv st st' -> res_rel est_equiv (enc_node e u g dc tau st n) (enc_node e u g dc tau st' n).
Proof.
  intros H. unfold enc_node. destruct (get_node g n) as [nd|]; [|exact eq_refl].
  destruct (nk nd); [apply enc_definition_equiv|exact eq_refl|apply enc_instantiation_equiv|apply enc_alias_equiv]; exact H.
Qed.

Lemma enc_exports_equiv e g st st' : est_equiv st st' -> res_rel est_equiv (enc_exports e g st) (enc_exports e g st').
Proof.
  unfold enc_exports. generalize (exports g). intros l. revert st st'.
  induction l as [|p r IH]; cbn; intros st st' H; [exact H|].
  destruct (is_def g (snd p)); [apply IH; exact H|].
  pose proof H as (A1 & A2 & A3 & A4 & A5 & A6). rewrite <- (A4 (snd p)).
  destruct (nat_assoc (snd p) (e_nidx st)) as [idx|].
  - apply IH. apply emit_equiv. exact H.
  - rewrite !fold_res_err. reflexivity.
Qed.

Lemma enc_names_equiv e g st st' : est_equiv st st' -> enc_names e g st = enc_names e g st'.
Proof.
  intros (A1 & A2 & A3 & A4 & A5 & A6). unfold enc_names. apply fold_left_ext. intros acc [s n].
  destruct acc as [l|x]; cbn; [|exact eq_refl]. destruct (get_node g n) as [nd|]; [|exact eq_refl].
  destruct (nname nd); [|exact eq_refl]. destruct (sort_eqb (we_sort e (nitem nd)) s); [|exact eq_refl].
  rewrite A4. reflexivity.
Qed.

Lemma enc_nodes_o_equiv e u g dc tau o (Hv : forall k st, est_equiv st (eo_state o k st)) :
  forall l k st st', est_equiv st st' ->
    res_rel est_equiv (enc_nodes_o e u g dc tau o k st l)
                      (fold_left (fun (acc : res est) n => do s <- acc ;; enc_node e u g dc tau s n) l (ROk st')).
Proof.
  induction l as [|n r IH]; cbn; intros k st st' H; [exact H|].
  pose proof (enc_node_equiv e u g dc tau (eo_state o k st) st' n (oracle_equiv o Hv k st st' H)) as Hn.
  destruct (enc_node e u g dc tau (eo_state o k st) n) as [s1|x], (enc_node e u g dc tau st' n) as [s2|y];
    cbn in *; try contradiction.
  - apply IH. exact Hn.
  - subst. rewrite fold_res_err. reflexivity.
Qed.

Lemma nat_assoc_alist {A} k (l : list (nat * A)) : nat_assoc k l = alist_get Nat.eqb l k.
Proof. induction l as [|[k' v] r IH]; cbn; [exact eq_refl|]. rewrite IH. reflexivity. Qed.

Section LastLoop.
  Variable lookup : str -> option (sort * nat).

  Definition last_step (acc : res est) (p : str * nat) : res est :=
    do st <- acc ;;
    match lookup (fst p) with
    | Some (_, idx) =>
        ROk {| e_log := e_log st; e_nidx := (snd p, idx) :: e_nidx st; e_pkgs := e_pkgs st; e_reg := e_reg st;
               e_impl := e_impl st; e_dedup := e_dedup st |}
    | None => RErr (EPanic XEncodedMissing)
    end.

  Definition entry_of (p : str * nat) : option (nat * nat) :=
    match lookup (fst p) with Some (_, idx) => Some (snd p, idx) | None => None end.

  Lemma entry_of_key p x : entry_of p = Some x -> fst x = snd p.
  Proof. unfold entry_of. destruct (lookup (fst p)) as [[s idx]|]; [|discriminate]. now intros [= <-]. Qed.

  Lemma last_loop_char : forall l st,
      fold_left last_step l (ROk st) =
      match collect entry_of l with
      | Some xs => ROk {| e_log := e_log st; e_nidx := rev xs ++ e_nidx st; e_pkgs := e_pkgs st; e_reg := e_reg st;
                          e_impl := e_impl st; e_dedup := e_dedup st |}
      | None => RErr (EPanic XEncodedMissing)
      end.
  Proof.
    induction l as [|p r IH]; cbn; intros st.
    - destruct st; reflexivity.
    - unfold entry_of at 1. destruct (lookup (fst p)) as [[s idx]|]; cbn.
      + rewrite IH. cbn. destruct (collect entry_of r) as [xs|]; [|exact eq_refl]. cbn. rewrite <- app_assoc. reflexivity.
      + clear IH. induction r as [|q r IHr]; cbn; [exact eq_refl|exact IHr].
  Qed.

  (** the order in which the explicit imports are visited does not matter *)
  Lemma last_loop_perm l l' st :
    Permutation l l' -> NoDup (map snd l) ->
    res_rel est_equiv (fold_left last_step l (ROk st)) (fold_left last_step l' (ROk st)).
  Proof.
    intros P Hnd. rewrite !last_loop_char. pose proof (collect_perm entry_of l l' P) as E.
    destruct (collect entry_of l) as [xs|] eqn:E1, (collect entry_of l') as [ys|]; cbn; try contradiction; [|exact eq_refl].
    repeat split; cbn; auto. intros k. rewrite !nat_assoc_alist.
    apply (alist_get_pushed_perm Nat.eqb nat_eqb_spec); [|exact E].
    now rewrite (collect_map entry_of fst snd entry_of_key l xs E1).
  Qed.
End LastLoop.

Lemma resolve_explicit_nodes e g a0 nodes a expl :
  resolve_explicit e g a0 nodes = ROk (a, expl) -> map snd expl = filter (is_import g) nodes.
Proof.
  unfold resolve_explicit. intros H.
  refine (fold_res_ind _ (fun pre s => map snd (snd s) = filter (is_import g) pre) nodes (a0, []) (a, expl) H _ _).
  - reflexivity.
  - intros pre x post [a1 ex1] [a2 ex2] _ HP Hf. cbn in HP.
    rewrite filter_app. cbn [filter]. unfold is_import at 2.
    destruct (get_node g x) as [nd|]; [|discriminate].
    destruct (nk nd) eqn:Hk; try (inversion Hf; subst; cbn; rewrite app_nil_r; exact HP).
    destruct (agg_add a1 (nstr e n) (we_sort e (nitem nd)) (we_iid e (nitem nd))); [|discriminate].
    inversion Hf; subst. cbn. rewrite map_app, HP. reflexivity.
Qed.

Lemma encode_imports_o_equiv e u g tau o st nodes :
  valid_eoracle o -> NoDup nodes ->
  res_rel est_equiv (encode_imports_o e u g tau o st nodes) (encode_imports e u g tau st nodes).
Proof.
  intros (V1 & V2 & V3 & V4 & V5) Hnd. unfold encode_imports_o, encode_imports.
  destruct (resolve_implicit e u g) as [[a0 impl]|x]; cbn; [|exact eq_refl].
  destruct (resolve_explicit e g a0 nodes) as [[a expl]|x] eqn:Ex; cbn; [|exact eq_refl].
  match goal with |- res_rel _ (bind ?r _) (bind ?r _) => destruct r as [[st1 encoded]|x] end; cbn; [|exact eq_refl].
  match goal with |- res_rel _ (bind (fold_left ?F _ _) _) (bind (fold_left ?F' _ _) _) =>
    assert (EF : fold_left F impl (ROk st1) = fold_left F' impl (ROk st1)) end.
  { apply fold_left_ext. intros acc [[nm k] node]. destruct acc as [s|x]; cbn; [|exact eq_refl]. rewrite V4. reflexivity. }
  rewrite EF. match goal with |- res_rel _ (bind ?r _) (bind ?r _) => destruct r as [st2|x] end; cbn; [|exact eq_refl].
  match goal with |- res_rel _ (fold_left ?F _ _) _ =>
    rewrite (fold_left_ext F (last_step (fun k => str_assoc (canonical_name a k) encoded))) end.
  2:{ intros acc p. destruct acc as [s|x]; cbn; [|exact eq_refl]. rewrite V4. reflexivity. }
  change (res_rel est_equiv (fold_left (last_step (fun k => str_assoc (canonical_name a k) encoded)) (eo_expl o expl) (ROk st2))
                            (fold_left (last_step (fun k => str_assoc (canonical_name a k) encoded)) expl (ROk st2))).
  apply last_loop_perm.
  - apply V1.
  - eapply Permutation_NoDup; [apply Permutation_map, Permutation_sym, V1|].
    rewrite (resolve_explicit_nodes _ _ _ _ _ _ Ex). apply NoDup_filter. exact Hnd.
Qed.

Lemma toposort_phase1 g ord : toposort g = Some ord -> topo_phase1 g = Some ord /\ Topo g ord.
Proof.
  unfold toposort. destruct (topo_phase1 g) as [o|]; [|discriminate].
  destruct (topo_orderb g o) eqn:E; [|discriminate]. intros H. inversion H; subst.
  split; [reflexivity | now apply topo_orderb_Topo].
Qed.

Lemma toposort_NoDup g ord : toposort g = Some ord -> NoDup ord.
Proof. intros H. apply (to_nodup g ord), toposort_phase1, H. Qed.

(** whatever the oracles do, the encoder observes what the structural encoder model observes *)
Theorem encode_o_canonical e u g dc tau o :
  valid_eoracle o -> encode_o e u g dc tau o = summarize (encode_model e u g dc tau).
Proof.
  intros V. unfold encode_o, encode_model. destruct (toposort g) as [ord|] eqn:Et; [|reflexivity].
  (* the two encoders are the same four stages, on states that answer alike *)
  assert (H : res_rel (fun x y => x = (e_log (fst y), snd y))
                      (encode_with_order_o e u g dc tau o ord) (encode_with_order e u g dc tau ord)).
  { unfold encode_with_order_o, encode_with_order. pose proof V as (_ & _ & _ & _ & V5).
    eapply (bind_rel est_equiv).
    { apply encode_imports_o_equiv; [exact V|]. apply NoDup_filter. exact (toposort_NoDup _ _ Et). }
    intros s0 t0 H0. eapply (bind_rel est_equiv); [apply enc_nodes_o_equiv; [exact V5|exact H0]|].
    intros s1 t1 H1. eapply (bind_rel est_equiv); [apply enc_exports_equiv, oracle_equiv; [exact V5|exact H1]|].
    intros s2 t2 H2. rewrite (enc_names_equiv e g _ t2 (oracle_equiv o V5 _ s2 t2 H2)).
    destruct (enc_names e g t2) as [ns|x]; cbn; [|reflexivity]. now rewrite (proj1 H2). }
  destruct (encode_with_order_o e u g dc tau o ord), (encode_with_order e u g dc tau ord) as [[st ns]|];
    cbn in *; try contradiction; congruence.
Qed.

(** the payload of the explicit-import merge conflict *)
Lemma explicit_conflict_scan_indep e g o1 o2 impl :
  valid_eoracle o1 -> valid_eoracle o2 ->
  forall nodes a ex, explicit_conflict_scan e g o1 impl a ex nodes = explicit_conflict_scan e g o2 impl a ex nodes.
Proof.
  intros (_ & A2 & A3 & _) (_ & B2 & B3 & _). induction nodes as [|n r IH]; cbn; intros a ex; [exact eq_refl|].
  destruct (get_node g n) as [nd|]; [|exact eq_refl]. destruct (nk nd) as [|nm| |]; auto.
  destruct (agg_add a (nstr e nm) (we_sort e (nitem nd)) (we_iid e (nitem nd))); [apply IH|].
  f_equal. f_equal. f_equal. apply (list_min_perm n), (compat_nodes_perm (fun k => compat k (nstr e nm))).
  - eapply Permutation_trans; [apply A3|apply Permutation_sym, B3].
  - eapply Permutation_trans; [apply A2|apply Permutation_sym, B2].
Qed.

Theorem explicit_conflict_indep e u g o1 o2 :
  valid_eoracle o1 -> valid_eoracle o2 -> explicit_conflict_o e u g o1 = explicit_conflict_o e u g o2.
Proof.
  intros V1 V2. unfold explicit_conflict_o. destruct (toposort g); [|exact eq_refl].
  destruct (resolve_implicit e u g) as [[a0 impl]|]; [|exact eq_refl]. apply explicit_conflict_scan_indep; assumption.
Qed.

(** the encoder's observations do not depend on any of the oracles *)
Theorem encode_order_oracle_indep e u g dc tau o1 o2 :
  valid_eoracle o1 -> valid_eoracle o2 -> encode_obs e u g dc tau o1 = encode_obs e u g dc tau o2.
Proof.
  intros V1 V2. unfold encode_obs. rewrite !encode_o_canonical by assumption.
  rewrite (explicit_conflict_indep e u g o1 o2 V1 V2). reflexivity.
Qed.

Lemma pkg_assoc_alist k (l : list (pkgid * nat)) : pkg_assoc k l = alist_get pkgid_eqb l k.
Proof. induction l as [|[k' v] r IH]; cbn; [exact eq_refl|]. rewrite IH. reflexivity. Qed.

(** permuting maps with distinct keys gives a state that answers every lookup alike; this is a fact about
    the one state, [valid_eoracle] asks it of a representation oracle on every state *)
Theorem permuted_state_equiv st st' :
  e_log st = e_log st' -> e_reg st = e_reg st' -> e_dedup st = e_dedup st' -> e_impl st = e_impl st' ->
  Permutation (e_nidx st) (e_nidx st') -> NoDup (map fst (e_nidx st)) ->
  Permutation (e_pkgs st) (e_pkgs st') -> NoDup (map fst (e_pkgs st)) ->
  est_equiv st st'.
Proof.
  intros A1 A2 A3 A4 P1 N1 P2 N2. repeat split; auto.
  - intros k. rewrite !nat_assoc_alist. apply (alist_get_perm Nat.eqb nat_eqb_spec); assumption.
  - intros k. rewrite !pkg_assoc_alist. apply (alist_get_perm pkgid_eqb pkgid_eqb_eq); assumption.
  - intros n. rewrite A4. reflexivity.
Qed.

(** histories, then encoding: nothing depends on any hash order *)
From WacV Require Import DeterminismInv.

Theorem history_then_encode_oracle_indep e u dc tau ops o1 o2 eo1 eo2 :
  valid_oracle o1 -> valid_oracle o2 -> valid_eoracle eo1 -> valid_eoracle eo2 ->
  encode_obs e u (fst (run_with o1 u ops)) dc tau eo1 = encode_obs e u (fst (run_with o2 u ops)) dc tau eo2.
Proof.
  intros H1 H2 V1 V2. rewrite (history_oracle_indep u ops o1 o2 H1 H2). apply encode_order_oracle_indep; assumption.
Qed.

Definition maps_distinct (st : est) : Prop := NoDup (map fst (e_nidx st)) /\ NoDup (map fst (e_pkgs st)).
Definition same_maps (a b : est) : Prop := e_nidx b = e_nidx a /\ e_pkgs b = e_pkgs a.

Lemma nat_assoc_none_notin {A} k (l : list (nat * A)) : nat_assoc k l = None -> ~ In k (map fst l).
Proof. rewrite nat_assoc_alist. apply (alist_get_None_notin Nat.eqb nat_eqb_spec). Qed.

Lemma pkg_assoc_none_notin k (l : list (pkgid * nat)) : pkg_assoc k l = None -> ~ In k (map fst l).
Proof. rewrite pkg_assoc_alist. apply (alist_get_None_notin pkgid_eqb pkgid_eqb_eq). Qed.

Lemma run_ty_maps tau st rq st1 i : run_ty tau st rq = ROk (st1, i) -> same_maps st st1.
Proof.
  unfold run_ty. destruct (tau (e_log st) rq) as [its idx]. destruct (ty_items_ok _ its); [|discriminate].
  intros H. inversion H; subst. split; reflexivity.
Qed.

Lemma set_nidx_distinct st n idx st' : set_nidx st n idx = ROk st' -> maps_distinct st -> maps_distinct st'.
Proof.
  unfold set_nidx. destruct (nat_assoc n (e_nidx st)) eqn:E; [discriminate|]. intros H [D1 D2]. inversion H; subst.
  split; cbn; [constructor; [apply nat_assoc_none_notin; exact E|exact D1]|exact D2].
Qed.

Lemma maps_distinct_same a b : same_maps a b -> maps_distinct a -> maps_distinct b.
Proof. intros [E1 E2] [D1 D2]. split; [rewrite E1|rewrite E2]; assumption. Qed.

Lemma set_nidx_emit_distinct a st it n idx st' :
  same_maps a st -> maps_distinct a -> set_nidx (emit st it) n idx = ROk st' -> maps_distinct st'.
Proof. intros S D H. eapply set_nidx_distinct; [exact H|]. exact (maps_distinct_same a (emit st it) S D). Qed.

Lemma enc_definition_distinct e tau st n nd st' :
  enc_definition e tau st n nd = ROk st' -> maps_distinct st -> maps_distinct st'.
Proof.
  unfold enc_definition. destruct (nexport nd) as [nm|]; [|discriminate]. intros H D.
  apply bind_ok in H. destruct H as [[s1 t1] [H1 H2]].
  destruct (negb (t1 <? cnt SType (e_log s1))); [discriminate|].
  exact (set_nidx_emit_distinct st s1 _ n _ st' (run_ty_maps _ _ _ _ _ H1) D H2).
Qed.

Lemma enc_alias_distinct e u g st n st' : enc_alias e u g st n = ROk st' -> maps_distinct st -> maps_distinct st'.
Proof.
  unfold enc_alias. destruct (get_alias_source u g n) as [[src en]|]; [|discriminate].
  destruct (get_node g src) as [sn|]; [|discriminate]. destruct (u_inst_exports u (nitem sn)) as [ex|]; [|discriminate].
  destruct (alist_get N.eqb ex en) as [k|]; [|discriminate]. destruct (nat_assoc src (e_nidx st)) as [inst|]; [|discriminate].
  intros H D. exact (set_nidx_emit_distinct st st _ n _ st' (conj eq_refl eq_refl) D H).
Qed.

(** the component of the package is recorded under a key that was looked up and not found *)
Lemma enc_instantiation_distinct e u g dc tau st n nd st' :
  enc_instantiation e u g dc tau st n nd = ROk st' -> maps_distinct st -> maps_distinct st'.
Proof.
  unfold enc_instantiation. destruct (npkg nd) as [pid|]; [|discriminate].
  destruct (get_pkg g pid) as [p|]; [|discriminate]. destruct (inst_imports u g nd) as [imps|]; [|discriminate].
  intros H D. apply bind_ok in H. destruct H as [[s1 ci] [H1 H2]].
  apply bind_ok in H2. destruct H2 as [args [_ H3]].
  refine (set_nidx_emit_distinct s1 s1 _ n _ st' (conj eq_refl eq_refl) _ H3). clear H3.
  destruct (pkg_assoc pid (e_pkgs st)) as [c|] eqn:Ep; [inversion H1; subst; exact D|].
  apply bind_ok in H1. destruct H1 as [[s0 c0] [K1 K2]]. inversion K2; subst. clear K2.
  assert (S0 : same_maps st s0).
  { destruct dc; [inversion K1; subst; split; reflexivity|].
    apply bind_ok in K1. destruct K1 as [[sa ta] [L1 L2]]. inversion L2; subst. exact (run_ty_maps _ _ _ _ _ L1). }
  destruct S0 as [A B]. destruct D as [Dn Dp]. split; cbn.
  - rewrite A. exact Dn.
  - rewrite B. constructor; [apply pkg_assoc_none_notin; exact Ep|exact Dp].
Qed.

Lemma enc_node_distinct e u g dc tau st n st' :
  enc_node e u g dc tau st n = ROk st' -> maps_distinct st -> maps_distinct st'.
Proof.
  unfold enc_node. destruct (get_node g n) as [nd|]; [|discriminate].
  destruct (nk nd); [apply enc_definition_distinct|discriminate|apply enc_instantiation_distinct|apply enc_alias_distinct].
Qed.

Lemma import_maps tau st x st' i : import_ tau st x = ROk (st', i) -> same_maps st st'.
Proof.
  unfold import_. cbv zeta.
  match goal with |- context [match reg_lookup _ _ with Some _ => _ | None => ?F end] => set (fresh := F) end.
  assert (F : fresh = ROk (st', i) -> same_maps st st').
  { unfold fresh. intros H. apply bind_ok in H. destruct H as [[s1 t1] [H1 H2]].
    destruct (run_ty_maps _ _ _ _ _ H1) as [A B]. inversion H2; subst.
    destruct (ae_sort x); try (split; cbn; assumption). destruct (ae_iid x); split; cbn; assumption. }
  destruct (ae_sort x); try exact F. destruct (ae_iid x) as [iid|]; [|exact F].
  destruct (reg_lookup iid (e_reg st)) as [[idx under]|]; [|exact F].
  intros H. inversion H; subst. split; reflexivity.
Qed.

Lemma encode_imports_distinct e u g tau nodes st' :
  NoDup nodes -> encode_imports e u g tau est_init nodes = ROk st' -> maps_distinct st'.
Proof.
  intros Hnd H. unfold encode_imports in H.
  apply bind_ok in H. destruct H as [[a0 impl] [_ H]].
  apply bind_ok in H. destruct H as [[a expl] [Ex H]].
  apply bind_ok in H. destruct H as [[st1 encoded] [H1 H]].
  apply bind_ok in H. destruct H as [st2 [H2 H3]].
  assert (S1 : same_maps est_init st1).
  { refine (fold_res_ind _ (fun _ s => same_maps est_init (fst s)) _ (est_init, []) (st1, encoded) H1 _ _).
    - split; reflexivity.
    - intros pre x post [sa ea] [sb eb] _ HP Hf. cbn in *. apply bind_ok in Hf. destruct Hf as [[sc ic] [K1 K2]].
      inversion K2; subst. destruct (import_maps _ _ _ _ _ K1) as [A B]. destruct HP as [C D]. split; congruence. }
  assert (S2 : same_maps est_init st2).
  { refine (fold_res_ind _ (fun _ s => same_maps est_init s) _ st1 st2 H2 S1 _).
    intros pre [[nm k] node] post sa sb _ HP Hf.
    destruct (str_assoc (canonical_name a (nstr e nm)) encoded) as [[s idx]|]; [|discriminate].
    inversion Hf; subst. exact HP. }
  change (fold_left (last_step (fun k => str_assoc (canonical_name a k) encoded)) expl (ROk st2) = ROk st') in H3.
  rewrite last_loop_char in H3. destruct (collect _ expl) as [xs|] eqn:Ee; [|discriminate]. inversion H3; subst.
  destruct S2 as [A B]. cbn in A, B. split; cbn.
  - rewrite A, app_nil_r, map_rev, (collect_map _ fst snd (entry_of_key _) _ _ Ee). apply NoDup_rev.
    rewrite (resolve_explicit_nodes _ _ _ _ _ _ Ex). apply NoDup_filter. exact Hnd.
  - rewrite B. constructor.
Qed.

Lemma enc_exports_maps e g st st' : enc_exports e g st = ROk st' -> same_maps st st'.
Proof.
  unfold enc_exports. intros H.
  refine (fold_res_ind _ (fun _ s => same_maps st s) _ st st' H _ _).
  - split; reflexivity.
  - intros pre p post sa sb _ HP Hf. destruct (is_def g (snd p)); [inversion Hf; subst; exact HP|].
    destruct (nat_assoc (snd p) (e_nidx sa)); [|discriminate]. inversion Hf; subst. exact HP.
Qed.

(** when the model encoder succeeds, [node_indexes] and [packages] have pairwise distinct keys at the end -- hence at
    every moment before, the maps only ever grow at the front -- so an oracle that PERMUTES them answers every lookup
    alike ([permuted_state_equiv]) *)
Theorem encoder_maps_have_distinct_keys e u g dc tau st ns :
  encode_model e u g dc tau = ROk (st, ns) -> maps_distinct st.
Proof.
  unfold encode_model. destruct (toposort g) as [ord|] eqn:Et; [|discriminate]. unfold encode_with_order. intros H.
  apply bind_ok in H. destruct H as [st0 [H0 H]].
  apply bind_ok in H. destruct H as [st1 [H1 H]].
  apply bind_ok in H. destruct H as [st2 [H2 H]].
  apply bind_ok in H. destruct H as [ns' [_ H]]. inversion H; subst.
  pose proof (encode_imports_distinct e u g tau _ _ (NoDup_filter _ (toposort_NoDup _ _ Et)) H0) as D0.
  assert (D1 : maps_distinct st1).
  { refine (fold_res_ind _ (fun _ s => maps_distinct s) _ st0 st1 H1 D0 _).
    intros pre x post sa sb _ HP Hf. eapply enc_node_distinct; eassumption. }
  apply (maps_distinct_same st1); [apply (enc_exports_maps e g); exact H2|exact D1].
Qed.
