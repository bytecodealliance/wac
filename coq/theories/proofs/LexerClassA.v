(** Lexer classes, part A: the identifier scanner [id_len] against the class [id_b] of
    spec/LexClasses.v. For each of its stages two facts:
      - [_scan]: the prefix it returns is in the class, and what follows that prefix does not continue it;
      - [_exact]: a prefix that is in the class is never longer than what the scanner returns, and on
        [w ++ rest] with [w] in the class and [rest] not continuing it, it returns [|w|]. *)
From WacV Require Import Str Token Lexer LexSpec Semver Ast Parser LexClasses StrFacts ListFacts.
From Coq Require Import Lia.
Local Open Scope nat_scope.

Lemma lower_not_upper c : is_lower c = true -> is_upper c = false.
Proof. unfold is_lower, is_upper. intros H. apply andb_true_iff in H. destruct H as [H1 H2].
  apply N.leb_le in H1. apply andb_false_iff. right. apply N.leb_gt. lia. Qed.

Lemma upper_not_lower c : is_upper c = true -> is_lower c = false.
Proof. intros H. destruct (is_lower c) eqn:E; auto. apply lower_not_upper in E. congruence. Qed.

Lemma digit_not_alpha c : is_digit c = true -> is_alpha c = false.
Proof.
  unfold is_digit, is_alpha, is_upper, is_lower. intros H. apply andb_true_iff in H. destruct H as [H1 H2].
  apply N.leb_le in H1, H2. apply orb_false_iff. split; apply andb_false_iff; left; apply N.leb_gt; lia.
Qed.

Lemma is_lower_minus : is_lower c_minus = false. Proof. reflexivity. Qed.
Lemma is_upper_minus : is_upper c_minus = false. Proof. reflexivity. Qed.

Lemma forallb_impl {A} (p q : A -> bool) l : (forall x, p x = true -> q x = true) -> forallb p l = true -> forallb q l = true.
Proof.
  intros Hpq. induction l as [|x l IH]; cbn [forallb]; auto. intros H. apply andb_true_iff in H. destruct H as [Hx H].
  now rewrite (Hpq _ Hx), IH.
Qed.

(** If every piece between the separators consists of [p]-characters, the text consists of
    [p]-characters and separators. *)
Lemma split_on_forallb c p : forall s,
  forallb (forallb p) (split_on c s) = true -> forallb (fun x => p x || (x =? c)%N) s = true.
Proof.
  induction s as [|x s IH]; [reflexivity|]. cbn [split_on forallb]. destruct (x =? c)%N.
  - rewrite orb_true_r. exact IH.
  - pose proof (split_on_nonempty c s) as Hne. destruct (split_on c s) as [|seg segs]; [congruence|].
    cbn [forallb] in *. rewrite orb_false_r. intros H. apply andb_true_iff in H. destruct H as [H Hs].
    apply andb_true_iff in H. destruct H as [-> H]. apply IH. now rewrite H, Hs.
Qed.

Section Id.
Variable d : deviations.
Notation au := (uppercase_words d).

Definition cont_b (up : bool) (c : N) : bool := if up then upper_or_digit c else lower_or_digit c.

Lemma cont_b_minus up : cont_b up c_minus = false.
Proof. destruct up; reflexivity. Qed.

(** Inside a word of case [up]: the rest of that word, then ('-' word)*. *)
Definition tail_b (up : bool) (s : str) : bool :=
  match split_on c_minus s with
  | seg :: segs => forallb (cont_b up) seg && forallb (word_b d) segs
  | [] => false
  end.

Lemma tail_b_nil up : tail_b up [] = true.
Proof. reflexivity. Qed.

Lemma kebab_b_nil : kebab_b d [] = false.
Proof. unfold kebab_b, word_b. cbn. now rewrite andb_false_r. Qed.

Lemma tail_b_cons up c r :
  tail_b up (c :: r) = if (c =? c_minus)%N then kebab_b d r else cont_b up c && tail_b up r.
Proof.
  unfold tail_b, kebab_b. cbn [split_on]. destruct (c =? c_minus)%N; [reflexivity|].
  pose proof (split_on_nonempty c_minus r). destruct (split_on c_minus r) as [|seg segs]; [congruence|].
  cbn [forallb]. now rewrite andb_assoc.
Qed.

Lemma kebab_b_cons c r :
  kebab_b d (c :: r) = (is_lower c && tail_b false r) || (au && is_upper c && tail_b true r).
Proof.
  unfold tail_b, kebab_b. cbn [split_on]. destruct (c =? c_minus)%N eqn:E.
  - apply N.eqb_eq in E. subst c. cbn [forallb]. rewrite is_lower_minus, is_upper_minus.
    unfold word_b. cbn [lower_word upper_word]. rewrite !andb_false_r. reflexivity.
  - pose proof (split_on_nonempty c_minus r). destruct (split_on c_minus r) as [|seg segs]; [congruence|].
    cbn [forallb]. generalize (forallb (word_b d) segs). intros W. unfold word_b, lower_word, upper_word.
    change (forallb (cont_b false) seg) with (forallb lower_or_digit seg).
    change (forallb (cont_b true) seg) with (forallb upper_or_digit seg).
    destruct (is_lower c), (is_upper c), au, (forallb lower_or_digit seg), (forallb upper_or_digit seg), W; reflexivity.
Qed.

Lemma cont_case up c : cont_b up c = true -> (if is_alpha c then is_upper c else up) = up.
Proof.
  unfold cont_b, upper_or_digit, lower_or_digit, is_alpha. destruct up; intros H; apply orb_true_iff in H.
  - destruct H as [H|H]; [now rewrite H|]. apply digit_not_alpha in H. unfold is_alpha in H. now rewrite H.
  - destruct H as [H|H].
    + rewrite H, (lower_not_upper _ H). reflexivity.
    + apply digit_not_alpha in H. unfold is_alpha in H. now rewrite H.
Qed.

Lemma model_cont (up : bool) (c : N) : (if up then upper_cont c else lower_cont c) = cont_b up c.
Proof. reflexivity. Qed.

(** [last_case w up] (spec/LexClasses.v): the case reached at the end of [w] when [w] is read from
    inside a word of case [up]; it decides which characters continue the last word. *)
Lemma last_case_cont up c r : cont_b up c = true -> last_case (c :: r) up = last_case r up.
Proof. intros H. cbn [last_case]. now rewrite (cont_case _ _ H). Qed.

Lemma last_case_lower c r x : is_lower c = true -> last_case (c :: r) x = last_case r false.
Proof. intros H. cbn [last_case]. unfold is_alpha. now rewrite H, (lower_not_upper _ H), orb_true_r. Qed.

Lemma last_case_upper c r x : is_upper c = true -> last_case (c :: r) x = last_case r true.
Proof. intros H. cbn [last_case]. unfold is_alpha. now rewrite H. Qed.

Lemma last_case_minus r x : last_case (c_minus :: r) x = last_case r x.
Proof. reflexivity. Qed.

Lemma id_tail_scan : forall s up,
  tail_b up (firstn (id_tail_len au up s) s) = true /\
  word_stop d (last_case (firstn (id_tail_len au up s) s) up) (skipn (id_tail_len au up s) s) = true.
Proof.
  fix IH 1. intros s up. destruct s as [|c r]; [now split|]. cbn [id_tail_len]. rewrite model_cont.
  destruct (cont_b up c) eqn:Ec.
  - cbn [firstn skipn]. rewrite tail_b_cons, (last_case_cont _ _ _ Ec), Ec.
    destruct (c =? c_minus)%N eqn:E; [apply N.eqb_eq in E; subst c; rewrite cont_b_minus in Ec; discriminate|]. apply IH.
  - (* nothing is taken unless a dash and the start of a word follow *)
    assert (Hz : (c =? c_minus)%N && starts_word d r = false ->
                 tail_b up (firstn 0 (c :: r)) = true /\ word_stop d (last_case (firstn 0 (c :: r)) up) (skipn 0 (c :: r)) = true).
    { intros Hz. split; [reflexivity|]. cbn [firstn skipn last_case word_stop].
      change (if up then upper_or_digit c else lower_or_digit c) with (cont_b up c). now rewrite Ec, Hz. }
    destruct (c =? c_minus)%N eqn:E; [|now apply Hz]. destruct r as [|c2 r2]; [now apply Hz|].
    apply N.eqb_eq in E. subst c. destruct (is_lower c2) eqn:El.
    + cbn [firstn skipn]. rewrite tail_b_cons, N.eqb_refl, kebab_b_cons, El, last_case_minus, (last_case_lower _ _ _ El).
      destruct (IH r2 false) as [-> H2]. now split.
    + destruct (au && is_upper c2) eqn:Eu; [|apply Hz; cbn [starts_word]; now rewrite El, Eu].
      cbn [firstn skipn]. rewrite tail_b_cons, N.eqb_refl, kebab_b_cons, El, last_case_minus, Eu.
      apply andb_true_iff in Eu. destruct Eu as [_ Eu]. rewrite (last_case_upper _ _ _ Eu). apply IH.
Qed.

Lemma id_tail_exact : forall w up rest,
  tail_b up w = true ->
  length w <= id_tail_len au up (w ++ rest) /\
  (word_stop d (last_case w up) rest = true -> id_tail_len au up (w ++ rest) = length w).
Proof.
  fix IH 1. intros w up rest Hw. destruct w as [|c r].
  - split; [cbn; lia|]. cbn [app last_case length]. destruct rest as [|x rest]; [reflexivity|].
    cbn [word_stop id_tail_len]. change (if up then upper_cont x else lower_cont x) with (cont_b up x).
    change (if up then upper_or_digit x else lower_or_digit x) with (cont_b up x).
    intros H. apply andb_true_iff in H. destruct H as [H1 H2]. apply negb_true_iff in H1, H2. rewrite H1.
    destruct (x =? c_minus)%N; [|reflexivity]. cbn [andb] in H2. destruct rest as [|c2 r2]; [reflexivity|].
    cbn [starts_word] in H2. apply orb_false_iff in H2. destruct H2 as [-> ->]. reflexivity.
  - rewrite tail_b_cons in Hw. cbn [app id_tail_len length]. rewrite model_cont.
    destruct (c =? c_minus)%N eqn:E.
    + apply N.eqb_eq in E. subst c. rewrite cont_b_minus. cbn [N.eqb Pos.eqb c_minus].
      destruct r as [|c2 r2]; [rewrite kebab_b_nil in Hw; discriminate|]. rewrite kebab_b_cons in Hw. cbn [app length]. rewrite last_case_minus.
      destruct (is_lower c2) eqn:El.
      * rewrite (lower_not_upper _ El), andb_false_r in Hw. cbn [andb orb] in Hw. rewrite orb_false_r in Hw.
        destruct (IH r2 false rest Hw) as [H1 H2]. rewrite (last_case_lower _ _ _ El).
        split; [lia|]. intros H. rewrite (H2 H). reflexivity.
      * cbn [andb orb] in Hw. apply andb_true_iff in Hw. destruct Hw as [Hu Hw]. rewrite Hu.
        apply andb_true_iff in Hu. destruct Hu as [_ Hu].
        destruct (IH r2 true rest Hw) as [H1 H2]. rewrite (last_case_upper _ _ _ Hu).
        split; [lia|]. intros H. rewrite (H2 H). reflexivity.
    + apply andb_true_iff in Hw. destruct Hw as [Hc Hw]. rewrite Hc, (last_case_cont _ _ _ Hc).
      destruct (IH r up rest Hw) as [H1 H2]. split; [lia|]. intros H. now rewrite (H2 H).
Qed.

Lemma words_len_scan s :
  words_len au s <> 0 ->
  kebab_b d (firstn (words_len au s) s) = true /\
  word_stop d (last_case (firstn (words_len au s) s) false) (skipn (words_len au s) s) = true.
Proof.
  destruct s as [|c r]; cbn [words_len]; [congruence|]. destruct (is_lower c) eqn:El.
  - intros _. cbn [firstn skipn]. rewrite kebab_b_cons, El, (last_case_lower _ _ _ El).
    destruct (id_tail_scan r false) as [-> H2]. now split.
  - destruct (au && is_upper c) eqn:Eu; [|congruence]. intros _. cbn [firstn skipn]. rewrite kebab_b_cons, El, Eu.
    apply andb_true_iff in Eu. destruct Eu as [_ Eu]. rewrite (last_case_upper _ _ _ Eu). apply id_tail_scan.
Qed.

Lemma words_len_zero s : words_len au s = 0 <-> starts_word d s = false.
Proof.
  destruct s as [|c r]; cbn [words_len starts_word]; [tauto|].
  destruct (is_lower c); cbn [orb]; [split; [lia|discriminate]|].
  destruct (au && is_upper c); [split; [lia|discriminate]|tauto].
Qed.

Lemma kebab_starts s : kebab_b d s = true -> starts_word d s = true.
Proof.
  destruct s as [|c r]; [rewrite kebab_b_nil; discriminate|]. rewrite kebab_b_cons. cbn [starts_word]. intros H.
  apply orb_true_iff in H. destruct H as [H|H]; apply andb_true_iff in H; destruct H as [H _].
  - now rewrite H.
  - rewrite H. now rewrite orb_true_r.
Qed.

Lemma words_len_exact w rest :
  kebab_b d w = true ->
  length w <= words_len au (w ++ rest) /\
  (word_stop d (last_case w false) rest = true -> words_len au (w ++ rest) = length w).
Proof.
  destruct w as [|c r]; [rewrite kebab_b_nil; discriminate|]. rewrite kebab_b_cons. cbn [app words_len length]. intros H.
  destruct (is_lower c) eqn:El.
  - rewrite (lower_not_upper _ El), andb_false_r in H. cbn [andb orb] in H. rewrite orb_false_r in H.
    destruct (id_tail_exact r false rest H) as [H1 H2]. rewrite (last_case_lower _ _ _ El).
    split; [lia|]. intros Hs. now rewrite (H2 Hs).
  - cbn [andb orb] in H. apply andb_true_iff in H. destruct H as [Hu H]. rewrite Hu.
    apply andb_true_iff in Hu. destruct Hu as [_ Hu]. destruct (id_tail_exact r true rest H) as [H1 H2].
    rewrite (last_case_upper _ _ _ Hu). split; [lia|]. intros Hs. now rewrite (H2 Hs).
Qed.

Lemma id_len_zero s : id_len au s = 0 <-> starts_id d s = false.
Proof.
  unfold starts_id. destruct s as [|c r]; cbn [id_len strip_percent]; [cbn; tauto|].
  destruct (c =? c_percent)%N.
  - rewrite <- words_len_zero. destruct (words_len au r); [tauto|split; discriminate].
  - apply words_len_zero.
Qed.

Lemma id_b_starts w : id_b d w = true -> starts_id d w = true.
Proof. unfold id_b, starts_id. apply kebab_starts. Qed.

Lemma id_b_not_nil w : id_b d w = true -> w <> [].
Proof. intros H ->. unfold id_b in H. cbn [strip_percent] in H. rewrite kebab_b_nil in H. discriminate. Qed.

Lemma last_case_percent r dflt : last_case (c_percent :: r) dflt = last_case r dflt.
Proof. reflexivity. Qed.

Lemma id_len_exact w rest :
  id_b d w = true ->
  length w <= id_len au (w ++ rest) /\
  (id_follow d w rest = true -> id_len au (w ++ rest) = length w).
Proof.
  unfold id_b, id_follow. destruct w as [|c r]; [cbn [strip_percent]; rewrite kebab_b_nil; discriminate|]. cbn [strip_percent app id_len].
  destruct (c =? c_percent)%N eqn:E.
  - apply N.eqb_eq in E. subst c. intros H. destruct (words_len_exact r rest H) as [H1 H2].
    assert (Hr : r <> []) by (intros ->; rewrite kebab_b_nil in H; discriminate). rewrite last_case_percent.
    destruct (words_len au (r ++ rest)) as [|n] eqn:En.
    + destruct r; [congruence|cbn in H1; lia].
    + cbn [length]. split; [lia|]. intros Hs. specialize (H2 Hs). lia.
  - intros H. exact (words_len_exact (c :: r) rest H).
Qed.

Lemma id_len_max s m : m <= length s -> id_b d (firstn m s) = true -> m <= id_len au s.
Proof.
  intros Hm H. destruct (id_len_exact _ (skipn m s) H) as [H1 _].
  rewrite firstn_skipn, firstn_length_le in H1; lia.
Qed.

Lemma id_len_scan s :
  id_len au s <> 0 ->
  id_b d (firstn (id_len au s) s) = true /\ id_follow d (firstn (id_len au s) s) (skipn (id_len au s) s) = true.
Proof.
  unfold id_b, id_follow. destruct s as [|c r]; cbn [id_len]; [congruence|]. destruct (c =? c_percent)%N eqn:E.
  - pose proof (words_len_scan r) as H. destruct (words_len au r) as [|n]; [congruence|]. intros _.
    cbn [firstn skipn strip_percent]. rewrite E. apply N.eqb_eq in E. subst c. rewrite last_case_percent. apply H. discriminate.
  - intros Hn. pose proof (words_len_scan (c :: r) Hn) as H. destruct (words_len au (c :: r)) as [|n]; [congruence|].
    cbn [firstn strip_percent] in *. rewrite E. exact H.
Qed.

(** Characters of a kebab id: letters, digits, '-' (the leading '%' is added in [id_b_chars]). *)
Definition id_char (c : N) : bool := is_alpha c || is_digit c || (c =? c_minus)%N.

Lemma cont_b_alnum up c : cont_b up c = true -> is_alpha c || is_digit c = true.
Proof.
  unfold is_alpha. destruct up; cbn [cont_b]; unfold upper_or_digit, lower_or_digit; intros H;
    apply orb_true_iff in H; destruct H as [-> | ->]; rewrite ?orb_true_r; reflexivity.
Qed.

Lemma word_b_chars w : word_b d w = true -> forallb (fun c => is_alpha c || is_digit c) w = true.
Proof.
  unfold word_b. destruct w as [|c r]; [cbn; rewrite andb_false_r; discriminate|]. cbn [lower_word upper_word forallb]. intros H.
  apply orb_true_iff in H. destruct H as [H|H].
  - apply andb_true_iff in H. destruct H as [Hc H]. unfold is_alpha at 1. rewrite Hc, orb_true_r. cbn [orb andb].
    exact (forallb_impl _ _ _ (cont_b_alnum false) H).
  - apply andb_true_iff in H. destruct H as [_ H]. apply andb_true_iff in H. destruct H as [Hc H].
    unfold is_alpha at 1. rewrite Hc. cbn [orb andb]. exact (forallb_impl _ _ _ (cont_b_alnum true) H).
Qed.

Lemma kebab_b_chars w : kebab_b d w = true -> forallb id_char w = true.
Proof.
  intros H. apply (split_on_forallb c_minus (fun c => is_alpha c || is_digit c)). exact (forallb_impl _ _ _ word_b_chars H).
Qed.

(** An id contains none of the separators ':' '/' '@' (nor any character outside letters, digits, '-', '%'). *)
Lemma id_b_chars w : id_b d w = true -> forallb (fun c => id_char c || (c =? c_percent)%N) w = true.
Proof.
  unfold id_b. intros H. apply kebab_b_chars in H.
  assert (Hm : forall l, forallb id_char l = true -> forallb (fun c => id_char c || (c =? c_percent)%N) l = true).
  { intros l. apply forallb_impl. now intros x ->. }
  destruct w as [|c r]; [reflexivity|]. cbn [strip_percent] in H. destruct (c =? c_percent)%N eqn:E; [|auto].
  cbn [forallb]. rewrite E, orb_true_r. cbn [andb]. auto.
Qed.

End Id.
