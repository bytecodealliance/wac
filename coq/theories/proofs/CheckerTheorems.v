(** The C07 theorems, derived from [is_subtype_spec]: sufficient fuel, equivalence with the declarative
    relation, independence of the variance stack, memo soundness, reflexivity across copies, transitivity. *)
From WacV Require Import Str Types StrFacts C07Flags Checker SubSpec CheckerEq SubSpecProofs CheckerValue CheckerProofs.
Set Warnings "-unused-intro-pattern".

Lemma lookup_ok {A} (t : types) (l : list A) i : id_ok t l i -> exists x, lookup (t_tag t) l i = Some x /\ nth_error l (id_idx i) = Some x.
Proof.
  intros [Ht Hi]. unfold lookup. rewrite Ht, N.eqb_refl.
  destruct (nth_error l (id_idx i)) as [x|] eqn:E; [eauto|]. apply nth_error_None in E. lia.
Qed.

Lemma all_some_total {A B} (U : A -> option B) (l : list A) :
  (forall x, In x l -> exists y, U x = Some y) -> exists l', all_some (map U l) = Some l'.
Proof.
  induction l as [|x l IH]; intro H; cbn [map all_some]; [eauto|].
  destruct (H x (or_introl eq_refl)) as [y ->]. destruct IH as [l' ->]; [intros; apply H; now right | eauto].
Qed.
Lemma map_snd_total {K A B} (U : A -> option B) (l : list (K * A)) :
  (forall x, In x (map snd l) -> exists y, U x = Some y) -> exists l', map_snd U l = Some l'.
Proof.
  intro H. unfold map_snd. apply all_some_total. intros [k x] Hin. cbn [fst snd].
  destruct (H x) as [y ->]; [|eauto]. apply in_map_iff. exists (k, x). auto.
Qed.
Lemma omap_total {A B} (U : A -> option B) (o : option A) :
  (forall x, o = Some x -> exists y, U x = Some y) -> exists o', omap U o = Some o'.
Proof. destruct o as [x|]; cbn [omap]; [|eauto]. intro H. destruct (H x eq_refl) as [y ->]. eauto. Qed.

Lemma option_map_total {A B} (f : A -> B) o : (exists x, o = Some x) -> exists y, option_map f o = Some y.
Proof. intros [x ->]. cbn. eauto. Qed.

Section Total.
  Variable t : types.
  Variable r : ranking.
  Hypothesis W : wf_types t r.

  Lemma res_name_total : forall g i, id_ok t (t_resources t) i -> (rk_res r (id_idx i) < g)%nat ->
    exists n, res_name_of g t i = Some n.
  Proof.
    induction g as [|g IH]; intros i Hok Hr; [lia|]. cbn [res_name_of]. unfold get_res.
    destruct (lookup_ok t _ i Hok) as [x [-> Hn]].
    destruct (res_source x) as [s|] eqn:Es; [|eauto].
    destruct (wf_res t r W _ _ Hn s Es) as [Hs Hlt]. apply IH; [assumption | lia].
  Qed.

  Lemma unfold_vt_total : forall g v, valtype_ok t v -> (vrank r v < g)%nat -> exists tr, unfold_vt g t v = Some tr.
  Proof.
    induction g as [|g IH]; intros v Hok Hr; [lia|]. rewrite unfold_vt_eq.
    destruct v as [p|i|i|d]; cbn [unfold_vt_body valtype_ok vrank] in *; [eauto | | |].
    - destruct (res_name_total (S g) i Hok ltac:(lia)) as [n ->]. cbn. eauto.
    - destruct (res_name_total (S g) i Hok ltac:(lia)) as [n ->]. cbn. eauto.
    - unfold get_def. destruct (lookup_ok t _ d Hok) as [x [-> Hn]].
      assert (Hch : forall v, In v (def_children x) -> exists tr, unfold_vt g t v = Some tr).
      { intros v Hin. destruct (wf_def t r W _ _ Hn v Hin) as [H1 H2]. apply IH; [assumption | lia]. }
      destruct x; cbn [def_children] in Hch.
      + apply option_map_total, all_some_total, Hch.
      + apply option_map_total, Hch. now left.
      + apply option_map_total, Hch. now left.
      + apply option_map_total, Hch. now left.
      + destruct (omap_total (unfold_vt g t) ok) as [o' ->].
        { intros x ->. apply Hch. cbn. now left. }
        destruct (omap_total (unfold_vt g t) err) as [e' ->]; [|eauto].
        intros x ->. apply Hch. apply in_or_app. right. cbn. now left.
      + apply option_map_total, map_snd_total. intros o Hin. apply omap_total. intros v ->. apply Hch, in_flat_map.
        apply in_map_iff in Hin as [[k o'] [Eo Hin]]. cbn [snd] in Eo. subst o'. exists (k, Some v). split; [assumption | cbn; now left].
      + apply option_map_total, map_snd_total, Hch.
      + eauto.
      + eauto.
      + apply (Hch v). now left.
      + apply option_map_total, omap_total. intros x ->. apply Hch. now left.
      + apply option_map_total, omap_total. intros x ->. apply Hch. now left.
  Qed.

  Lemma unfold_func_total g i : id_ok t (t_funcs t) i -> (S (rk_func r (id_idx i)) < S g)%nat ->
    exists ft, unfold_func g t i = Some ft.
  Proof.
    intros Hok Hr. unfold unfold_func, get_func. destruct (lookup_ok t _ i Hok) as [x [-> Hn]].
    destruct (wf_func t r W _ _ Hn) as [_ Hch].
    destruct (map_snd_total (unfold_vt g t) (f_params x)) as [ps ->].
    { intros v Hin. destruct (Hch v) as [H1 H2]; [unfold func_children; apply in_or_app; now left|]. apply unfold_vt_total; [assumption | lia]. }
    destruct (omap_total (unfold_vt g t) (f_result x)) as [o' ->]; [|eauto].
    intros v Ev. destruct (Hch v) as [H1 H2]; [unfold func_children; apply in_or_app; right; rewrite Ev; cbn; now left|].
    apply unfold_vt_total; [assumption | lia].
  Qed.

  Lemma unfold_total : forall g k, kind_ok t k -> (krank r k < g)%nat -> exists tr, unfold g t k = Some tr.
  Proof.
    induction g as [|g IH]; intros k Hok Hr; [lia|]. rewrite unfold_eq.
    assert (Hi : forall i, id_ok t (t_interfaces t) i -> (rk_if r (id_idx i) < g)%nat -> exists e, unfold_inst (unfold g t) t i = Some e).
    { intros i Hoki Hri. unfold unfold_inst, get_if. destruct (lookup_ok t _ i Hoki) as [x [-> Hn]].
      destruct (wf_if t r W _ _ Hn) as [_ Hch]. apply map_snd_total. intros k' Hin. destruct (Hch k' Hin). apply IH; [assumption | lia]. }
    assert (Hw : forall i, id_ok t (t_worlds t) i -> (rk_world r (id_idx i) < g)%nat -> exists e, unfold_comp (unfold g t) t i = Some e).
    { intros i Hoki Hri. unfold unfold_comp, get_world. destruct (lookup_ok t _ i Hoki) as [x [-> Hn]].
      destruct (wf_world t r W _ _ Hn) as [_ [_ Hch]].
      destruct (map_snd_total (unfold g t) (w_imports x)) as [i' ->].
      { intros k' Hin. destruct (Hch k'); [apply in_or_app; now left|]. apply IH; [assumption | lia]. }
      destruct (map_snd_total (unfold g t) (w_exports x)) as [e' ->]; [|eauto].
      intros k' Hin. destruct (Hch k'); [apply in_or_app; now right|]. apply IH; [assumption | lia]. }
    assert (Hm : forall i, id_ok t (t_modules t) i -> exists m, get_mod t i = Some m).
    { intros i Hoki. unfold get_mod. destruct (lookup_ok t _ i Hoki) as [x [-> _]]. eauto. }
    unfold unfold_body. destruct k as [[i|i|v|i|i|i]|i|i|i|i|v]; cbn [kind_ok krank] in *; apply option_map_total.
    1: apply res_name_total; [assumption | lia].
    (* goals in the order tres tfunc tvalue tinst tcomp tmod func inst comp mod value; an item and its type-level
       twin are closed by the same lemma, hence the pairs: funcs, values, instances, components, then modules *)
    1,6: apply unfold_func_total; [assumption | lia].
    1,8: apply unfold_vt_total; [assumption | lia].
    1,4: apply Hi; [assumption | lia].
    1,3: apply Hw; [assumption | lia].
    all: now apply Hm.
  Qed.

  Lemma wf_nodup : nodup_types t.
  Proof.
    split; [|split].
    - intros i x Hn. apply (wf_if t r W _ _ Hn).
    - intros i x Hn. destruct (wf_world t r W _ _ Hn) as [? [? _]]. auto.
    - intros i m Hn. apply (wf_mod t r W _ _ Hn).
  Qed.
End Total.

Definition pairE (a b : types) : types -> Prop := fun t => t = a \/ t = b.
Lemma pairE_same a b : (t_tag a = t_tag b -> a = b) ->
  forall t1 t2, pairE a b t1 -> pairE a b t2 -> t_tag t1 = t_tag t2 -> t1 = t2.
Proof. intros H t1 t2 [-> | ->] [-> | ->] Ht; auto. symmetry. auto. Qed.
Lemma pairE_nodup a b : nodup_types a -> nodup_types b -> forall t, pairE a b t -> nodup_types t.
Proof. intros Na Nb t [-> | ->]; assumption. Qed.

Definition verdict (rs : SR) : bool := is_ok (fst rs).

Section Two.
  Variables at_ bt : types.
  Hypothesis same : t_tag at_ = t_tag bt -> at_ = bt.
  Hypothesis Na : nodup_types at_.
  Hypothesis Nb : nodup_types bt.

  Let E := pairE at_ bt.
  Let E_same := pairE_same at_ bt same.

  Definition memo_ok := cache_ok E.

  Theorem is_subtype_decides g F s a b ta tb : (g <= F)%nat -> memo_ok (cache s) ->
    unfold g at_ a = Some ta -> unfold g bt b = Some tb ->
    decides (fst (is_subtype F s at_ a bt b)) (SubX ta tb) /\
    memo_ok (cache (snd (is_subtype F s at_ a bt b))) /\
    incl (cache s) (cache (snd (is_subtype F s at_ a bt b))) /\
    (fst (is_subtype F s at_ a bt b) = Ok tt -> ks (snd (is_subtype F s at_ a bt b)) = ks s).
  Proof.
    intros HF Hc Ha Hb.
    destruct (is_subtype_spec E E_same (pairE_nodup at_ bt Na Nb) g F s at_ a bt b ta tb HF (or_introl eq_refl) (or_intror eq_refl) Hc Ha Hb)
      as [D [C [K I]]]. auto.
  Qed.

  Lemma memo_ok_nil : memo_ok [].
  Proof. intros x y []. Qed.

  Theorem check_decides g F a b ta tb : (g <= F)%nat ->
    unfold g at_ a = Some ta -> unfold g bt b = Some tb -> decides (check F at_ a bt b) (SubX ta tb).
  Proof. intros HF Ha Hb. unfold check. apply (is_subtype_decides g F st0 a b ta tb HF memo_ok_nil Ha Hb). Qed.

  Theorem verdict_indep_of_variance_and_memo g F s s' a b ta tb : (g <= F)%nat ->
    memo_ok (cache s) -> memo_ok (cache s') ->
    unfold g at_ a = Some ta -> unfold g bt b = Some tb ->
    verdict (is_subtype F s at_ a bt b) = verdict (is_subtype F s' at_ a bt b).
  Proof.
    intros HF Hc Hc' Ha Hb. unfold verdict.
    exact (decides_same _ _ _ (proj1 (is_subtype_decides g F s a b ta tb HF Hc Ha Hb))
                              (proj1 (is_subtype_decides g F s' a b ta tb HF Hc' Ha Hb))).
  Qed.
End Two.

(** Tree-equal copies (in the same or in different collections) are mutual subtypes. *)
Theorem refl_copies at_ bt : (t_tag at_ = t_tag bt -> at_ = bt) -> nodup_types at_ -> nodup_types bt ->
  forall g F a b t, (g <= F)%nat -> unfold g at_ a = Some t -> unfold g bt b = Some t ->
  check F at_ a bt b = Ok tt.
Proof.
  intros same Na Nb g F a b t HF Ha Hb.
  apply (decides_ok_iff _ _ (check_decides at_ bt same Na Nb g F a b t t HF Ha Hb)).
  apply (Sub_refl PGx PGx_refl (tdepth t)); [lia|]. apply (unfold_wf_tree at_ Na _ _ _ Ha).
Qed.

Theorem trans3 at_ bt ct :
  (t_tag at_ = t_tag bt -> at_ = bt) -> (t_tag bt = t_tag ct -> bt = ct) -> (t_tag at_ = t_tag ct -> at_ = ct) ->
  nodup_types at_ -> nodup_types bt -> nodup_types ct ->
  forall g F a b c ta tb tc, (g <= F)%nat ->
    unfold g at_ a = Some ta -> unfold g bt b = Some tb -> unfold g ct c = Some tc ->
    check F at_ a bt b = Ok tt -> check F bt b ct c = Ok tt -> check F at_ a ct c = Ok tt.
Proof.
  intros sab sbc sac Na Nb Nc g F a b c ta tb tc HF Ha Hb Hc H1 H2.
  apply (decides_ok_iff _ _ (check_decides at_ bt sab Na Nb g F a b ta tb HF Ha Hb)) in H1.
  apply (decides_ok_iff _ _ (check_decides bt ct sbc Nb Nc g F b c tb tc HF Hb Hc)) in H2.
  apply (decides_ok_iff _ _ (check_decides at_ ct sac Na Nc g F a c ta tc HF Ha Hc)).
  apply (Sub_trans PGx PGx_trans (tdepth tb) ta tb tc); auto.
Qed.

Definition check_in (E : types -> Prop) (g : nat) (c : (types * kind) * (types * kind)) : Prop :=
  E (fst (fst c)) /\ E (fst (snd c)) /\
  exists tx ty, unfold g (fst (fst c)) (snd (fst c)) = Some tx /\ unfold g (fst (snd c)) (snd (snd c)) = Some ty.

Theorem run_checks_sound (E : types -> Prop)
  (E_same : forall t1 t2, E t1 -> E t2 -> t_tag t1 = t_tag t2 -> t1 = t2)
  (E_nodup : forall t, E t -> nodup_types t) g F : (g <= F)%nat ->
  forall l s, cache_ok E (cache s) -> Forall (check_in E g) l ->
    map is_ok (fst (run_checks F s l))
    = map (fun c => is_ok (check F (fst (fst c)) (snd (fst c)) (fst (snd c)) (snd (snd c)))) l
    /\ cache_ok E (cache (snd (run_checks F s l))).
Proof.
  intros HF. induction l as [|[[xt x] [yt y]] l IH]; intros s Hc Hl; cbn [run_checks map fst snd]; [auto|].
  inversion Hl as [|? ? [Hx [Hy [tx [ty [Hux Huy]]]]] Hl']; subst. cbn [fst snd] in *.
  pose proof (is_subtype_spec E E_same E_nodup g F s xt x yt y tx ty HF Hx Hy Hc Hux Huy) as [D [C _]].
  assert (C0 : cache_ok E (cache st0)) by (intros ? ? []).
  pose proof (is_subtype_spec E E_same E_nodup g F st0 xt x yt y tx ty HF Hx Hy C0 Hux Huy) as [D0 _].
  destruct (is_subtype F s xt x yt y) as [r s'] eqn:Er. cbn [fst snd] in *.
  destruct (IH s' C Hl') as [IH1 IH2]. destruct (run_checks F s' l) as [rs s''] eqn:Err. cbn [fst snd map] in *.
  split; [|assumption]. f_equal; [|assumption]. exact (decides_same _ _ _ D D0).
Qed.

Definition canon_types (t : types) : Prop := forall i m, nth_error (t_modules t) i = Some m -> mod_ok ce_canon m.

Lemma unfold_tcanon t : canon_types t -> forall g k tr, unfold g t k = Some tr -> tcanon tr.
Proof.
  intros Ct. induction g as [|g IH]; intros k tr Hu; [discriminate|].
  apply unfold_inv in Hu. destruct tr; unfold tcanon; cbn [tokm]; try exact I.
  1,4: destruct Hu as [i [x [_ H]]]; apply all_snd_iff, (map_snd_all _ _ _ _ H), IH.
  1,3: destruct Hu as [w [x [_ [H1 H2]]]]; split; [apply all_snd_iff, (map_snd_all _ _ _ _ H1), IH | apply all_snd_iff, (map_snd_all _ _ _ _ H2), IH].
  all: destruct Hu as [i E]; apply (Ct _ _ (lookup_nth _ _ _ _ E)).
Qed.

(** the side condition of completeness: nothing once the source normalises the default page size, otherwise
    "no memory type spells out the default page size" *)
Definition pages_ok (t : types) : Prop := psl_default_normalised = true \/ canon_types t.

Lemma SubCM_SubX a b : (psl_default_normalised = true \/ (tcanon a /\ tcanon b)) -> SubCM a b -> SubX a b.
Proof.
  intros [Hf|[Ca Cb]] H.
  - apply (SubCM_SubP PGx (fun _ => True) a b); [|apply tokm_true|apply tokm_true|assumption].
    intros x y ? ? ? ? ? ? _ _ Hp. unfold PGx. rewrite Hf. exact Hp.
  - apply (SubCM_SubP PGx ce_canon a b); [|exact Ca|exact Cb|assumption].
    intros x y ? ? ? ? ? ? Hx Hy Hp. cbn [ce_canon] in Hx, Hy. unfold PGx, PageCM in *.
    destruct psl_default_normalised; [assumption | now apply (page_log2_canon x y Hx Hy)].
Qed.

Theorem algo_iff_declarative_wf at_ bt ra rb a b F :
  wf_types at_ ra -> wf_types bt rb -> (t_tag at_ = t_tag bt -> at_ = bt) ->
  kind_ok at_ a -> kind_ok bt b -> (krank ra a < F)%nat -> (krank rb b < F)%nat ->
  exists ta tb, unfold F at_ a = Some ta /\ unfold F bt b = Some tb /\
                decides (check F at_ a bt b) (SubX ta tb) /\
                (resfree ta = true -> resfree tb = true ->
                 (check F at_ a bt b = Ok tt -> SubCM ta tb) /\
                 (pages_ok at_ -> pages_ok bt -> SubCM ta tb -> check F at_ a bt b = Ok tt)).
Proof.
  intros Wa Wb same Ka Kb Ra Rb.
  destruct (unfold_total at_ ra Wa F a Ka Ra) as [ta Ha]. destruct (unfold_total bt rb Wb F b Kb Rb) as [tb Hb].
  exists ta, tb. split; [assumption|]. split; [assumption|].
  pose proof (check_decides at_ bt same (wf_nodup _ _ Wa) (wf_nodup _ _ Wb) F F a b ta tb (le_n _) Ha Hb) as D.
  split; [assumption|]. intros Fa Fb. split.
  - intro Hok. apply (decides_ok_iff _ _ D) in Hok. exact (SubP_SubCM PGx ta tb PGx_PageCM Fa Fb Hok).
  - intros Pa Pb Hs. apply (decides_ok_iff _ _ D). apply SubCM_SubX; [|assumption].
    destruct Pa as [Hf|Ca]; [now left|]. destruct Pb as [Hf|Cb]; [now left|]. right.
    split; [apply (unfold_tcanon at_ Ca _ _ _ Ha) | apply (unfold_tcanon bt Cb _ _ _ Hb)].
Qed.

(** While the source compares the two [Option]s, the unrestricted statement is false of the faithful model: a memory
    type that spells out the default page size against one that does not.  [page_size_log2 = Some 16] is what
    wasmparser reports for [(memory 1 (pagesize 0x10000))]. *)
Definition pz_mod (p : option N) : moduletype := mkmod [] [([101], CEMemory false false 1 None p)].
Definition pz_tA : types := mktypes 1 [] [] [] [] [] [pz_mod None].
Definition pz_tB : types := mktypes 2 [] [] [] [] [] [pz_mod (Some 16)].
Theorem algo_iff_declarative_refuted_witness : psl_default_normalised = false ->
  check 3 pz_tA (KModule (mkid 1 0)) pz_tB (KModule (mkid 2 0)) = Err EMemPage /\
  check 3 pz_tB (KModule (mkid 2 0)) pz_tA (KModule (mkid 1 0)) = Err EMemPage /\
  exists ta tb, unfold 3 pz_tA (KModule (mkid 1 0)) = Some ta /\ unfold 3 pz_tB (KModule (mkid 2 0)) = Some tb /\
                resfree ta = true /\ resfree tb = true /\ SubCM ta tb /\ SubCM tb ta.
Proof.
  intro Hf.
  (* the script must check whichever value the generated flag has: either the hypothesis is absurd, or the
     witness computes *)
  first [ discriminate Hf
        | split; [vm_compute; reflexivity|]; split; [vm_compute; reflexivity|];
          eexists; eexists; split; [vm_compute; reflexivity|]; split; [vm_compute; reflexivity|];
          split; [reflexivity|]; split; [reflexivity|];
          split; apply sub_b_iff; vm_compute; reflexivity ].
Qed.
