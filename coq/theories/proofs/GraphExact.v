(** C06: [remove_node] removes exactly the node and its alias/dependency descendants. *)
From Coq Require Import List Arith Bool NArith.
From WacV Require Import Graph GraphInv GraphRemove GraphAcyclic.
Import ListNotations.

Definition dstep (s : gstate) (a b : nat) : Prop :=
  exists e, In e (edges s) /\ dep_edge e /\ esrc e = a /\ etgt e = b.

Inductive reach (s : gstate) (a : nat) : nat -> Prop :=
  | reach_refl : reach s a a
  | reach_step b c : reach s a b -> dstep s b c -> reach s a c.

Lemma reach_trans s a b c : reach s a b -> reach s b c -> reach s a c.
Proof. intros H1 H2. induction H2; [exact H1|]. eapply reach_step; eauto. Qed.

Lemma reach_mono s s' a b : (forall e, In e (edges s') -> In e (edges s)) -> reach s' a b -> reach s a b.
Proof.
  intros H R. induction R; [constructor|]. eapply reach_step; eauto.
  destruct H0 as [e [He R']]. exists e. split; auto.
Qed.

Lemma removed_are_descendants u fuel : forall s n s',
  InvC u s -> remove_node_rec fuel s n = inl s' ->
  forall m, live s m = true -> live s' m = false -> reach s n m.
Proof.
  induction fuel as [|f IH]; intros s n s' HI; [discriminate|]. rewrite remove_node_rec_S.
  assert (G : forall l s0 s1, InvC u s0 -> go_list (remove_node_rec f) s0 l = inl s1 ->
              InvC u s1 /\ (forall e, In e (edges s1) -> In e (edges s0)) /\
              forall m, live s0 m = true -> live s1 m = false -> exists d, In d l /\ reach s0 d m).
  { induction l as [|x r IHl]; intros s0 s1 H0; cbn.
    - intros [= <-]. split; [exact H0|split; [auto|]]. intros m L1 L2. congruence.
    - destruct (live s0 x) eqn:Lx.
      + destruct (remove_node_rec f s0 x) as [s2|] eqn:R; [|discriminate]. intros Go.
        pose proof (remove_node_rec_ok u f s0 x H0) as Ok. rewrite R in Ok. destruct Ok as (I2 & _ & _ & Ed & _).
        destruct (IHl s2 s1 I2 Go) as (J1 & J2 & J3). split; [exact J1|split; [auto|]].
        intros m L1 L2. destruct (live s2 m) eqn:L3.
        * destruct (J3 m L3 L2) as [d [Hd Rd]]. exists d. split; [now right|]. eapply reach_mono; eauto.
        * exists x. split; [now left|]. eapply IH; eauto.
      + intros Go. destruct (IHl s0 s1 H0 Go) as (J1 & J2 & J3). split; [exact J1|split; [auto|]].
        intros m L1 L2. destruct (J3 m L1 L2) as [d [Hd Rd]]. exists d. split; [now right|auto]. }
  destruct (go_list _ s (dependants s n)) as [s1|] eqn:Go; [|discriminate].
  destruct (G _ _ _ HI Go) as (J1 & J2 & J3). intros R m L1 L2.
  destruct (live s1 m) eqn:L3.
  - destruct (get_node s1 n) as [nd|] eqn:Gn.
    + destruct (remove_one_live u s1 n nd J1 Gn) as [s'' [R' [_ K]]]. rewrite R in R'. injection R' as <-.
      rewrite (RemOne_live _ _ _ K) in L2. destruct (Nat.eqb_spec m n) as [->|_]; [constructor|congruence].
    + rewrite (remove_one_dead u s1 n J1 Gn) in R. discriminate.
  - destruct (J3 m L1 L3) as [d [Hd Rd]]. apply dependants_edge in Hd as [e [He [Es [Et De]]]].
    eapply reach_trans; [|exact Rd]. eapply reach_step; [constructor|]. exists e. auto.
Qed.

(** [s] is the state in which [remove_node] was called, [cur] a state during the call. *)
Definition Exact (s cur : gstate) : Prop :=
  forall e, In e (edges s) -> dep_edge e -> live cur (esrc e) = true -> live cur (etgt e) = true -> In e (edges cur).
Definition Closed (s cur : gstate) : Prop :=
  forall e, In e (edges s) -> dep_edge e -> live cur (esrc e) = false -> live cur (etgt e) = false.

Lemma RemOne_closure s cur n s' :
  live cur n = true -> (forall e, In e (edges cur) -> esrc e = n -> exists i, ek e = EArg i) -> RemOne cur n s' ->
  Exact s cur /\ Closed s cur -> Exact s s' /\ Closed s s'.
Proof.
  intros Ln Hno R [HE HC]. pose proof (RemOne_live _ _ _ R) as Lv. split.
  - intros e He Dp L1 L2. rewrite (ro_edges _ _ _ R). apply filter_In. rewrite Lv in L1, L2.
    destruct (esrc e =? n); [discriminate|]. destruct (etgt e =? n); [discriminate|]. split; auto.
  - intros e He Dp. rewrite !Lv. destruct (etgt e =? n); [reflexivity|].
    destruct (Nat.eqb_spec (esrc e) n) as [Es|_]; [intros _|now apply HC].
    destruct (live cur (etgt e)) eqn:Lt; auto. exfalso.
    assert (Hin : In e (edges cur)) by (apply HE; auto; now rewrite Es).
    destruct (Hno e Hin Es) as [j Kj]. now apply (Dp j).
Qed.

Lemma remove_exact u s n s' :
  Inv u s -> remove_node s n = (s', OUnit) ->
  forall m, live s' m = true <-> (live s m = true /\ ~ reach s n m).
Proof.
  intros H R m. apply Inv_iff in H.
  edestruct (remove_node_rel u (fun cur s' => Exact s cur /\ Closed s cur -> Exact s s' /\ Closed s s')) as (I' & Gn & Lv & _ & _ & Ok);
    [| | |exact H|exact R|]; auto.
  { intros cur k s2 _ Lk Hno _ R2. now apply (RemOne_closure s cur k s2). }
  unfold remove_node in R. destruct (remove_node_rec _ s n) as [s''|] eqn:RR; [|discriminate]. injection R as <-.
  destruct Ok as [_ C'].
  { split; [intros e He _ _ _; exact He|]. intros e He _ L.
    destruct (eo_live _ _ (ic_edge _ _ H) e He) as [L1 _]. rewrite <- live_liveb in L1. congruence. }
  assert (Hdead : forall x, reach s n x -> live s'' x = false).
  { intros x Rx. induction Rx; [apply Gn; now left|]. destruct H0 as [e [He [De [Es Et]]]]. rewrite <- Et. apply C'; auto.
    now rewrite Es. }
  split.
  - intros L. split; [auto|]. intros Rm. apply Hdead in Rm. congruence.
  - intros [L Nr]. destruct (live s'' m) eqn:L'; auto. exfalso. apply Nr.
    eapply removed_are_descendants; eauto.
Qed.
