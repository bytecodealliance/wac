(** C05, part E: documents; the rejection of borrows in results; example documents. *)
From Coq Require Import String.
From WacV Require Import Str StrLit Types Decls WitDenote
     DeclsProofsA DeclsProofsF DeclsProofsB DeclsProofsC DeclsProofsD.
From WacV Require Ast.

Lemma den_statement_plain pn penv genv d :
  is_resource d = false -> den_statement pn penv genv (Ast.TSType d) = option_map (fun s => (dname d, s)) (den_plain genv d).
Proof. destruct d; [discriminate | reflexivity ..]. Qed.

Lemma type_statement_sim {pn pkgs penv s genv x s'} :
  flat (r_types s) -> Renv (r_types s) (r_root s) genv -> Rpk (r_types s) pkgs penv ->
  type_statement pn pkgs s x = DOk s' ->
  aext (r_types s) (r_types s') /\
  exists n y sm, den_statement pn penv genv x = Some (n, sm) /\ bound n genv = false /\
                 r_root s' = (n, y) :: r_root s /\ r_defs s' = r_defs s ++ [(n, KType y)] /\
                 rel_item (r_types s') y sm.
Proof.
  intros Hf Hg Hp H. destruct (type_statement_inv H) as (n & y & t1 & Hx & Eh & ->). cbn [r_types r_root r_defs].
  assert (Hs : aext (r_types s) t1 /\ exists sm, den_statement pn penv genv x = Some (n, sm) /\ rel_item t1 y sm).
  { destruct x as [docs i items|docs i items|d].
    - destruct Hx as (j & E0 & -> & ->). cbn [den_statement].
      destruct (interface_body_sim Hf Hg Hp E0) as [X1 [e [D1 [R1 _]]]]. split; [exact X1|].
      rewrite D1. cbn [option_map]. eexists. split; [reflexivity | exact R1].
    - destruct Hx as (j & E0 & -> & ->). cbn [den_statement].
      destruct (world_body_sim Hf Hg Hp E0) as [X1 [wi [we [D1 R1]]]]. split; [exact X1|].
      rewrite D1. cbn [option_map fst snd]. eexists. split; [reflexivity | exact R1].
    - destruct Hx as (Er & E0 & ->). destruct (plain_decl_sim Hg E0) as [X1 [sm [D1 R1]]]. split; [exact X1|].
      rewrite (den_statement_plain _ _ _ _ Er). rewrite D1. cbn [option_map]. eexists. split; [reflexivity | exact R1]. }
  destruct Hs as [X1 [sm [D1 R1]]]. split; [exact X1|]. exists n, y, sm. rewrite <- (R2_has n Hg). auto.
Qed.

Lemma statements_go_sim pn pkgs penv : forall l s genv acc s',
  flat (r_types s) -> Renv (r_types s) (r_root s) genv -> Rpk (r_types s) pkgs penv -> Rexts (r_types s) (r_defs s) acc ->
  statements_go pn pkgs s l = DOk s' ->
  aext (r_types s) (r_types s') /\
  exists defs genv', den_statements pn penv genv acc l = Some defs /\ Rexts (r_types s') (r_defs s') defs /\
                     Renv (r_types s') (r_root s') genv'.
Proof.
  induction l as [|st rest IH]; intros s genv acc s' Hf Hg Hp Ha H.
  - cbn in H. injection H as <-. split; [apply aext_refl|]. exists acc, genv. auto.
  - destruct st as [| x | |]; cbn [statements_go] in H; try discriminate. dinv H as [s1 [E1 H]].
    destruct (type_statement_sim Hf Hg Hp E1) as [X1 [n [y [sm [D1 [Hb [Hroot [Hdefs R1]]]]]]]].
    assert (Hg1 : Renv (r_types s1) (r_root s1) ((n, sm) :: genv)).
    { rewrite Hroot. apply R2_cons; [exact R1 | eapply Renv_aext; eassumption]. }
    assert (Ha1 : Rexts (r_types s1) (r_defs s1) (acc ++ [(n, sem_tree sm)])).
    { rewrite Hdefs. apply R2_snoc; [eapply Rexts_aext; eassumption | now apply rel_item_uk]. }
    destruct (IH _ _ _ _ (type_statement_flat _ _ _ _ _ Hf E1) Hg1 (Rpk_aext X1 Hp) Ha1 H)
      as [X2 [defs [genv' [D2 [R2' G2]]]]].
    split; [eapply aext_trans; eassumption|]. exists defs, genv'. cbn [den_statements]. rewrite D1, Hb. auto.
Qed.

Lemma resolve_document_sim {ext eext t0 d s} :
  flat t0 -> Renv t0 ext eext -> resolve_document ext t0 d = DOk s ->
  aext t0 (r_types s) /\ exists defs, den_document eext d = Some defs /\ Rexts (r_types s) (r_defs s) defs.
Proof.
  intros Hf He H. unfold resolve_document, den_document in *. cbv zeta in *.
  destruct (Ast.pd_targets (Ast.doc_directive d)); [discriminate|].
  pose proof (fun hf hg hp ha =>
                statements_go_sim _ _ (mkpenv (Ast.pn_name (Ast.pd_package (Ast.doc_directive d))) eext) _ _ [] [] _
                                  hf hg hp ha H) as Hsim.
  cbn [r_types r_root r_defs] in Hsim.
  destruct (Hsim Hf (R2_nil _) (conj eq_refl He) (R2_nil _)) as [X1 [defs [genv' [D1 [R1 _]]]]].
  split; [exact X1|]. exists defs. auto.
Qed.

Lemma borrow_rejected cur t e ps y k res rname v :
  Renv t cur e -> (forall r, res = Some r -> un t r rname) -> den_ty e y = Some v -> has_borrow v = true ->
  forall r, func_type cur t ps (Ast.RLScalar y) k res <> DOk r.
Proof.
  intros He Hres Hv Hb [i t'] H. destruct (func_type_sim He Hres H) as [_ [ft [D _]]].
  unfold den_func in D. destruct (den_params e ps); [|discriminate]. cbv zeta in D.
  destruct (negb _); [discriminate|]. rewrite Hv, Hb in D. discriminate.
Qed.

(** once the parameters and the result type themselves resolve, the outcome is exactly [BorrowInResult] (or the
    fuel of [contains_borrow] ran out, which needs an acyclicity invariant of the arenas to exclude) *)
Lemma borrow_rejected_exact {cur t e ps y k res v params t1 vr t2} :
  Renv t cur e -> den_ty e y = Some v -> has_borrow v = true ->
  (k = FMethod -> res <> None) ->
  params_go cur t (self_pre k res) ps = DOk (params, t1) -> resolve_ty cur t1 y = DOk (vr, t2) ->
  func_type cur t ps (Ast.RLScalar y) k res = DErr EBorrowInResult \/ func_type cur t ps (Ast.RLScalar y) k res = DFuel.
Proof.
  intros He Hv Hb Hk Hp Hr. rewrite (func_type_scalar Hk Hp Hr).
  destruct (params_go_frame Hp) as [[X1 _] _].
  destruct (resolve_ty_sim _ _ _ _ _ _ (Renv_aext X1 He) Hr) as [_ [tr [D U]]].
  rewrite Hv in D. injection D as <-.
  destruct (cb_vt (cb_fuel t2) t2 vr) as [[|]|] eqn:Ecb; auto.
  pose proof (cb_vt_spec _ _ _ _ _ Ecb U). congruence.
Qed.

(** example documents (non-vacuity) *)
Definition empty_types : types := mktypes 0 [] [] [] [] [] [].
Lemma flat_empty : flat empty_types.
Proof. split; intros x []. Qed.

Definition xsp : Token.span := {| Token.off := 0; Token.slen := 0 |}.
Definition xid (s : str) : Ast.ident := {| Ast.id_string := s; Ast.id_span := xsp |}.
Definition xprim (p : Ast.prim) : Ast.ty := Ast.TyPrim p xsp.
Definition xnt (n : str) (t : Ast.ty) : Ast.named_type := {| Ast.nt_id := xid n; Ast.nt_ty := t |}.
Definition xpn : Ast.package_name :=
  {| Ast.pn_string := L"test:pkg"; Ast.pn_name := L"test:pkg"; Ast.pn_version := None; Ast.pn_span := xsp |}.
Definition xdoc (l : list Ast.type_statement) : Ast.document :=
  {| Ast.doc_docs := []; Ast.doc_directive := {| Ast.pd_package := xpn; Ast.pd_targets := None |};
     Ast.doc_statements := map Ast.SType l |}.

(** interface i {
      record r { a: u8, b: string }
      resource res { constructor(x: u8); m: func(y: r) -> u32; s: static func() -> res; }
      f: func(p: borrow<res>) -> list<r>;
    } *)
Definition ex_iface : Ast.type_statement :=
  Ast.TSInterface [] (xid (L"i"))
    [ Ast.IIType (Ast.DRecord [] (xid (L"r"))
        [ {| Ast.fd_docs := []; Ast.fd_id := xid (L"a"); Ast.fd_ty := xprim Ast.PU8 |};
          {| Ast.fd_docs := []; Ast.fd_id := xid (L"b"); Ast.fd_ty := xprim Ast.PString |} ]);
      Ast.IIType (Ast.DResource [] (xid (L"res"))
        [ Ast.RMConstructor [] xsp [xnt (L"x") (xprim Ast.PU8)];
          Ast.RMMethod [] (xid (L"m")) false
            {| Ast.ft_params := [xnt (L"y") (Ast.TyIdent (xid (L"r")))]; Ast.ft_results := Ast.RLScalar (xprim Ast.PU32) |};
          Ast.RMMethod [] (xid (L"s")) true
            {| Ast.ft_params := []; Ast.ft_results := Ast.RLScalar (Ast.TyIdent (xid (L"res"))) |} ]);
      Ast.IIExport [] (xid (L"f"))
        (Ast.FRFunc {| Ast.ft_params := [xnt (L"p") (Ast.TyBorrow (xid (L"res")) xsp)];
                       Ast.ft_results := Ast.RLScalar (Ast.TyList (Ast.TyIdent (xid (L"r"))) xsp) |}) ].

(** world w1 { import i; export f: func(); import g: func(); }
    world w2 { use i.{r as rr}; export f: func(x: rr); include w1 with { g as h }; } *)
Definition xfunc0 : Ast.func_type := {| Ast.ft_params := []; Ast.ft_results := Ast.RLEmpty |}.
Definition ex_w1 : Ast.type_statement :=
  Ast.TSWorld [] (xid (L"w1"))
    [ Ast.WIImport [] (Ast.WPIdent (xid (L"i")));
      Ast.WIExport [] (Ast.WPNamed (xid (L"f")) (Ast.ETFunc xfunc0));
      Ast.WIImport [] (Ast.WPNamed (xid (L"g")) (Ast.ETFunc xfunc0)) ].
Definition ex_w2 : Ast.type_statement :=
  Ast.TSWorld [] (xid (L"w2"))
    [ Ast.WIUse {| Ast.u_docs := []; Ast.u_path := Ast.UPIdent (xid (L"i"));
                   Ast.u_items := [{| Ast.ui_id := xid (L"r"); Ast.ui_as := Some (xid (L"rr")) |}] |};
      Ast.WIInclude [] (Ast.WRIdent (xid (L"w1"))) [{| Ast.ii_from := xid (L"g"); Ast.ii_to := xid (L"h") |}];
      Ast.WIExport [] (Ast.WPNamed (xid (L"f2"))
                        (Ast.ETFunc {| Ast.ft_params := [xnt (L"x") (Ast.TyIdent (xid (L"rr")))]; Ast.ft_results := Ast.RLEmpty |})) ].

Definition ex_doc1 : Ast.document := xdoc [ex_iface].
Definition ex_doc2 : Ast.document := xdoc [ex_iface; ex_w1; ex_w2].

(** the model's definitions unfolded to trees *)
Definition defs_trees (fuel : nat) (r : dres rst) : option (list (str * tree)) :=
  match r with DOk s => map_snd (unfold fuel (r_types s)) (r_defs s) | _ => None end.

Lemma use_type_split root pkgs l u l' :
  use_type root pkgs l u = DOk l' ->
  exists iface, use_source root pkgs (l_types l) (Ast.u_path u) = DOk iface /\ use_items iface l (Ast.u_items u) = DOk l'.
Proof. unfold use_type. intro H. dinv H as [iface [E1 H]]. eauto. Qed.

(** the conclusion of [resolve_document_sim] with one common fuel: the unfolded definitions ARE the denotation *)
Lemma resolve_document_trees ext eext t0 d s :
  flat t0 -> Renv t0 ext eext -> resolve_document ext t0 d = DOk s ->
  exists F defs, den_document eext d = Some defs /\ defs_trees F (resolve_document ext t0 d) = Some defs.
Proof.
  intros Hf He H. destruct (resolve_document_sim Hf He H) as [_ [defs [D R]]].
  destruct (Rexts_collect R) as [F HF]. exists F, defs. rewrite H. cbn [defs_trees]. auto.
Qed.
