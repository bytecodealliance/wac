(** Soundness and completeness of the parser model against the grammar, nonterminal by nonterminal,
    in dependency order. Stated for an arbitrary environment [e], hence for every choice of deviation
    flags ([impl_flags], [doc_flags], ...).

    Soundness needs no side condition. Completeness ([ParserComb.complete]) is relative to the fuel and
    to what follows the derivation, because the parser decides by one token of lookahead: a bare
    [result] must not be followed by [<], an expression not by [.] or [[], an absent optional part not
    by its own first token. *)
From WacV Require Import Str Token Lexer Semver Ast Parser Grammar ParserComb.
From Coq Require Import Lia.
Local Open Scope nat_scope.

(** Soundness proofs invert the parser equation ([ParserComb.sinv]) and then name the production. The
    soundness lemmas of the parts are collected in [psound]: they close a premise [g_X ts r x] from the
    equation [parse_X e ts = POk x r] that the inversion left in the context. *)
Create HintDb psound.

(** After inversion: provide the witnesses of a relation defined with [exists]. *)
Ltac gsolve :=
  repeat match goal with |- exists _, _ => eexists end;
  repeat match goal with |- _ /\ _ => split end;
  eauto with psound.

(** Completeness proofs follow the parser from left to right, and keep the lengths of the streams they
    pass, since every sub-parser wants its input shorter than the fuel. Consuming a token: rewrite
    [parse_token e k ts] with [H : tok k ts r t] and record that [r] is one shorter. *)
Ltac tokc H := pose proof (tok_len _ _ _ _ H); rewrite (parse_token_complete _ _ _ _ _ H); cbn [bind].

Lemma seplist_g_types d ts r x : seplist (g_type d) ts r x -> g_types d ts r x.
Proof. induction 1; econstructor; eauto. Qed.

Lemma g_types_seplist d ts r x : g_types d ts r x -> seplist (g_type d) ts r x.
Proof. induction 1; econstructor; eauto. Qed.

Lemma seplist_g_args d ts r x : seplist (g_arg d) ts r x -> g_args d ts r x.
Proof. induction 1; econstructor; eauto. Qed.

Lemma g_args_seplist d ts r x : g_args d ts r x -> seplist (g_arg d) ts r x.
Proof. induction 1; econstructor; eauto. Qed.

Section Leaves.
Variable e : env.

Lemma parse_ident_sound ts i r : parse_ident e ts = POk i r -> g_id ts r i.
Proof.
  unfold parse_ident. intros H. sinv H. red. eauto.
Qed.

Lemma parse_ident_complete ts i r : g_id ts r i -> parse_ident e ts = POk i r.
Proof. intros (t & Ht & ->). unfold parse_ident. now rewrite (next_tok_complete e _ _ _ _ Ht). Qed.

Lemma parse_string_sound ts s r : parse_string e ts = POk s r -> g_string ts r s.
Proof.
  unfold parse_string. intros H. sinv H. destruct (strlit_of a) eqn:E; try discriminate. sinv H. red. eauto.
Qed.

Lemma parse_string_complete ts s r : g_string ts r s -> parse_string e ts = POk s r.
Proof. intros (t & Ht & Hs). unfold parse_string. rewrite (next_tok_complete e _ _ _ _ Ht). cbn. now rewrite Hs. Qed.

Lemma parse_package_name_sound ts p r : parse_package_name e ts = POk p r -> g_package_name ts r p.
Proof.
  unfold parse_package_name. intros H. sinv H. destruct (package_name_of a) eqn:E; cbn in H; try discriminate.
  sinv H. red. eauto.
Qed.

Lemma parse_package_name_complete ts p r : g_package_name ts r p -> parse_package_name e ts = POk p r.
Proof. intros (t & Ht & Hs). unfold parse_package_name. rewrite (next_tok_complete e _ _ _ _ Ht). cbn. now rewrite Hs. Qed.

Lemma parse_package_path_sound ts p r : parse_package_path e ts = POk p r -> g_package_path ts r p.
Proof.
  unfold parse_package_path. intros H. sinv H. destruct (package_path_of a) eqn:E; cbn in H; try discriminate.
  sinv H. red. eauto.
Qed.

Lemma parse_package_path_complete ts p r : g_package_path ts r p -> parse_package_path e ts = POk p r.
Proof. intros (t & Ht & Hs). unfold parse_package_path. rewrite (next_tok_complete e _ _ _ _ Ht). cbn. now rewrite Hs. Qed.

Lemma g_id_len ts r i : g_id ts r i -> length ts = S (length r).
Proof. intros (t & Ht & _). eapply tok_len; eauto. Qed.

Lemma g_id_peek ts r i : g_id ts r i -> peek_kind ts = Some TIdent.
Proof. intros (t & Ht & _). eapply tok_peek; eauto. Qed.

Lemma g_id_starts : starts_in g_id [TIdent].
Proof. intros ts r i (t & Ht & _). exact (tok_starts_in TIdent [TIdent] eq_refl _ _ _ Ht). Qed.

End Leaves.

(** Enter the branch of an [alt] that [H : tok k ts r t] or [H : g_id ts r i] selects. *)
Ltac altc H :=
  erewrite alt_select; [|first [exact (tok_peek _ _ _ _ H)|exact (g_id_peek _ _ _ H)]|reflexivity]; cbv beta.

(** Enter the branch of an [alt] whose set is the first-set of the derivation [H] ([lem] says so): the
    earlier branches are skipped because their sets are disjoint from it. *)
Ltac altc_by lem H :=
  erewrite (alt_select_starts _ _ _ _ _ _ _ _ lem H);
  [|let k := fresh "k" in let Hm := fresh "Hm" in
    intros k Hm; cbn [alt_find]; rewrite ?(mem_tok_disjoint _ _ _ Hm) by reflexivity; rewrite Hm; reflexivity];
  cbv beta.

Ltac idc H := pose proof (g_id_len _ _ _ H); rewrite (parse_ident_complete _ _ _ _ H); cbn [bind].

(** What may follow a type: not [<] (which would continue a bare [result]). *)
Definition type_follow (r : list lexitem) : Prop := not_next TOpenAngle r.

Lemma item_follow_type_follow until r : until <> TOpenAngle -> item_follow until r -> type_follow r.
Proof. intros Hu. apply item_follow_not_next; [exact Hu|discriminate]. Qed.

Lemma tok_not_next k k' ts r t : tok k' ts r t -> k' <> k -> not_next k ts.
Proof. intros H. eapply next_is_not_next, tok_peek, H. Qed.

Section Types.
Variable e : env.
Let d := dv e.

Lemma peek_in_true first ts : peek_in first ts = true -> exists t r, ts = LTok t :: r /\ mem_tok (tk t) first = true.
Proof. apply peek_in_iff. Qed.

Definition g_result_arg : drel (option ty) := fun ts r o =>
  (exists u, tok TUnderscore ts r u /\ o = None) \/ (exists t, g_type d ts r t /\ o = Some t).

(** What stands between [result<] and the end of the type: one or two arguments, in a shape the flags
    allow. The grammar lists the shapes one by one; the parser reads this and checks the shape. *)
Definition g_result_tail (kw : rtoken) : drel (option ty * option ty * span) := fun ts r x =>
  exists r2 r3 ok err c,
    g_result_arg ts r2 ok /\ opt TComma g_result_arg r2 r3 err /\
    result_shape_ok d ok err = true /\ tok TCloseAngle r3 r c /\
    x = (ok, match err with Some x => x | None => None end, span_join (tsp kw) (tsp c)).

Lemma result_arg_sound (self : parser ty) ts o r :
  (forall ts t r, self ts = POk t r -> g_type d ts r t) ->
  result_arg self e ts = POk o r -> g_result_arg ts r o.
Proof.
  intros Hs. unfold result_arg. destruct (peek_kind ts) as [k|] eqn:Ek; [|intros H; sinv H].
  destruct (token_eqb k TUnderscore) eqn:Eu.
  - intros H. sinv H. apply token_eqb_eq in Eu. subst k. cbn in Ek.
    left. eexists. split; [split; [reflexivity|now inversion Ek]|reflexivity].
  - destruct (mem_tok k type_first); [|intros H; sinv H]. intros H. sinv H. right. eauto.
Qed.

Lemma type_step_sound (self : parser ty) :
  (forall ts t r, self ts = POk t r -> g_type d ts r t) ->
  forall ts t r, type_step self e ts = POk t r -> g_type d ts r t.
Proof.
  intros Hs ts t r. unfold type_step.
  destruct ts as [|[t0| | | |] ts]; try (intros H; now apply la_fail_not_ok in H).
  destruct (prim_of_token (tk t0)) as [p|] eqn:Ep.
  { intros H; sinv H. eapply gt_prim; eauto. }
  revert Ep. destruct (tk t0) eqn:Ek; intros Ep; try (intros H; now apply la_fail_not_ok in H); try discriminate Ep.
  - (* ident *) intros H; sinv H. apply gt_id. exists t0. split; [split; auto|reflexivity].
  - (* tuple *) intros H. sinv H.
    match goal with Hx : delimited_items _ _ _ _ _ _ = _ |- _ =>
      eapply delimited_items_ok in Hx; [|exact Hs]; destruct Hx as ((tr & Hx) & _) end.
    eapply gt_tuple; eauto; try (split; auto); try discriminate. apply seplist_g_types; eauto.
  - (* list *) intros H. unfold angle1 in H. sinv H. eapply gt_list; eauto. split; auto.
  - (* option *) intros H. unfold angle1 in H. sinv H. eapply gt_option; eauto. split; auto.
  - (* result *) intros H. apply bind_ok in H. destruct H as (res & r5 & Hopt & H).
    eapply (parse_optional_ok _ _ (g_result_tail t0)) in Hopt.
    2:{ clear H Hopt. intros ts0 x r0 H. sinv H.
        match goal with Hx : result_arg _ _ _ = _ |- _ => apply result_arg_sound in Hx; [|exact Hs] end.
        match goal with Hx : parse_optional _ _ _ = _ |- _ =>
          eapply parse_optional_ok in Hx; [|intros ? ? ? Hy; apply result_arg_sound in Hy; [exact Hy|exact Hs]] end.
        red. gsolve. }
    destruct Hopt as [ts0|ts0 r1 r2 o x Ho (r3 & r4 & ok & err & c & Hok & Herr & Hsh & Hc & ->)].
    + sinv H. apply gt_result. split; auto.
    + sinv H. unfold result_shape_ok in Hsh.
      destruct Hok as [(u & Hu & ->)|(t1 & Ht1 & ->)];
      (destruct Herr as [ts1|ts1 r5 r6 cm oe Hcm [(u2 & Hu2 & ->)|(t2 & Ht2 & ->)]]); cbn in Hsh.
      * rewrite orb_false_r in Hsh. eapply gt_result_u; eauto. split; auto.
      * rewrite orb_false_r in Hsh. eapply gt_result_uu; eauto. split; auto.
      * eapply gt_result_err; eauto. split; auto.
      * eapply gt_result_ok; eauto. split; auto.
      * rewrite orb_false_r in Hsh. eapply gt_result_tu; eauto. split; auto.
      * eapply gt_result_both; eauto. split; auto.
  - (* borrow *) intros H. sinv H.
    + match goal with Hx : self _ = _ |- _ => apply Hs in Hx; rename Hx into Hin end.
      destruct a; try (eapply gt_borrow_ty; eauto; [split; auto|intros ? ?; discriminate]).
      inversion Hin; subst; try discriminate. eapply gt_borrow; eauto. split; auto.
    + eapply gt_borrow; eauto using parse_ident_sound. split; auto.
Qed.

Lemma parse_type_f_sound f : forall ts t r, parse_type_f f e ts = POk t r -> g_type d ts r t.
Proof. induction f as [|f IH]; cbn; [discriminate|]. apply type_step_sound. exact IH. Qed.

Lemma parse_type_sound ts t r : parse_type e ts = POk t r -> g_type d ts r t.
Proof. apply parse_type_f_sound. Qed.

Lemma prim_in_type_first k p : prim_of_token k = Some p -> mem_tok k type_first = true.
Proof.
  intros H. pose proof (forall_tokens (fun k => match prim_of_token k with Some _ => mem_tok k type_first | None => true end)
                          eq_refl k) as Hk.
  cbv beta in Hk. now rewrite H in Hk.
Qed.

Lemma g_type_starts : starts_in (g_type d) type_first.
Proof.
  intros ts r t H. destruct H; try (eapply tok_starts_in; [|eassumption]; reflexivity).
  - subst. eexists _, _. split; [reflexivity|]. eapply prim_in_type_first; eauto.
  - eapply starts_in_incl; [apply g_id_starts| |eassumption]. reflexivity.
Qed.

Lemma result_arg_complete b (self : parser ty) :
  completeB e b (g_type d) type_follow self -> completeB e b g_result_arg type_follow (result_arg self e).
Proof.
  intros Hs ts r o [(u & [-> Hk] & ->)|(t & Hg & ->)] Hb Hf Hfol; unfold result_arg.
  - cbn [peek_kind]. rewrite Hk. split; [reflexivity|cbn; lia].
  - destruct (g_type_starts _ _ _ Hg) as (t0 & ts' & -> & Hm). destruct (Hs _ _ _ Hg Hb Hf Hfol) as [Hp Hl].
    cbn [peek_kind]. rewrite (until_not_first TUnderscore type_first _ eq_refl Hm), Hm, Hp. split; [reflexivity|exact Hl].
Qed.

(** [kw '<' type '>'], the body of [list] and [option]. *)
Lemma angle1_complete b (self : parser ty) mk kw ts r2 r3 r o c t :
  completeB e b (g_type d) type_follow self ->
  tok TOpenAngle ts r2 o -> g_type d r2 r3 t -> tok TCloseAngle r3 r c -> length ts <= b -> length ts <= fuel e ->
  angle1 self e mk kw ts = POk (mk t (span_join (tsp kw) (tsp c))) r /\ length r < length ts.
Proof.
  intros Hs Ho Hg Hc Hb Hf. unfold angle1. tokc Ho.
  destruct (Hs _ _ _ Hg) as [-> Hl]; [lia|lia|eapply tok_not_next; eauto; discriminate|].
  cbn [bind]. tokc Hc. split; [reflexivity|lia].
Qed.

(** [result '<' tail]: both arguments are followed by [,] or [>], never by [<]. *)
Lemma type_step_result b (self : parser ty) kw ts r1 r2 r o ok err sp :
  completeB e b (g_type d) type_follow self -> length ts < S b -> length ts < fuel e ->
  tok TResultKeyword ts r1 kw -> tok TOpenAngle r1 r2 o -> g_result_tail kw r2 r (ok, err, sp) ->
  type_step self e ts = POk (TyResult ok err sp) r /\ length r < length ts.
Proof.
  intros Hs Hb Hf [-> Hk] Ho (r3 & r4 & ok' & err' & c & Hok & Herr & Hsh & Hc & E). inversion E; subst; clear E.
  cbn [length] in Hb, Hf. pose proof (tok_len _ _ _ _ Ho). pose proof (tok_len _ _ _ _ Hc).
  pose proof (result_arg_complete b self Hs) as Ha.
  unfold type_step. rewrite Hk. cbn [prim_of_token]. unfold d in Hsh.
  destruct Herr as [r3|r3 r5 r4 cm err Hcm Herr].
  - destruct (Ha _ _ _ Hok) as [Hp1 L1]; [lia|lia|eapply tok_not_next; eauto; discriminate|].
    erewrite parse_optional_some; [|exact Ho|].
    2:{ cbv beta. rewrite Hp1. cbn [bind]. rewrite parse_optional_none by (eapply tok_not_next; eauto; discriminate).
        cbn [bind]. rewrite Hsh. tokc Hc. reflexivity. }
    cbn [bind length]. split; [reflexivity|lia].
  - pose proof (tok_len _ _ _ _ Hcm).
    destruct (Ha _ _ _ Hok) as [Hp1 L1]; [lia|lia|eapply tok_not_next; eauto; discriminate|].
    destruct (Ha _ _ _ Herr) as [Hp2 L2]; [lia|lia|eapply tok_not_next; eauto; discriminate|].
    erewrite parse_optional_some; [|exact Ho|].
    2:{ cbv beta. rewrite Hp1. cbn [bind]. erewrite parse_optional_some; [|exact Hcm|exact Hp2].
        cbn [bind]. rewrite Hsh. tokc Hc. reflexivity. }
    cbn [bind length]. split; [reflexivity|lia].
Qed.

Lemma result_tail1 kw ts r3 r ok c :
  g_result_arg ts r3 ok -> result_shape_ok d ok None = true -> tok TCloseAngle r3 r c ->
  g_result_tail kw ts r (ok, None, span_join (tsp kw) (tsp c)).
Proof. intros Hok Hsh Hc. exists r3, r3, ok, None, c. repeat split; auto; try apply Hc. constructor. Qed.

Lemma result_tail2 kw ts r3 r4 r5 r ok err cm c :
  g_result_arg ts r3 ok -> tok TComma r3 r4 cm -> g_result_arg r4 r5 err -> result_shape_ok d ok (Some err) = true ->
  tok TCloseAngle r5 r c -> g_result_tail kw ts r (ok, err, span_join (tsp kw) (tsp c)).
Proof.
  intros Hok Hcm Herr Hsh Hc. exists r3, r5, ok, (Some err), c. repeat split; auto; try apply Hc. econstructor; eauto.
Qed.

Lemma result_shape_flag ok err : result_underscore_forms d = true -> result_shape_ok d ok err = true.
Proof. intros E. unfold result_shape_ok. now rewrite E. Qed.

Lemma type_step_complete b (self : parser ty) :
  completeB e b (g_type d) type_follow self -> completeB e (S b) (g_type d) type_follow (type_step self e).
Proof.
  intros Hs ts r t Hg Hb Hf Hfol.
  destruct Hg.
  - (* prim *) subst. unfold type_step. rewrite H0. split; [reflexivity|cbn; lia].
  - (* tuple *)
    destruct H as [-> Hk]. cbn [length] in Hb, Hf. apply g_types_seplist in H1.
    unfold type_step. rewrite Hk. cbn [prim_of_token]. tokc H0.
    rewrite (seplist_starts _ _ _ _ _ _ g_type_starts H1 H2).
    destruct (delim_loop_complete e (g_type d) b TCloseAngle type_first self g_type_starts) with (ts := r2) (x := (tys, tr)) (r := r3)
      as [Hd Hl3]; [|reflexivity|discriminate|exact H1|lia|lia|eapply tok_peek; eauto|].
    { eapply completeB_follow; [exact Hs|]. intros r0. apply item_follow_type_follow. discriminate. }
    unfold delimited_items, delimited. rewrite Hd by lia. cbn [bind].
    destruct tys; [contradiction|]. tokc H3. split; [reflexivity|cbn [length]; lia].
  - (* list *)
    destruct H as [-> Hk]. cbn [length] in Hb, Hf. unfold type_step. rewrite Hk. cbn [prim_of_token].
    destruct (angle1_complete b self TyList kw _ _ _ _ _ _ _ Hs H0 Hg H1) as [-> Hl]; [lia|lia|].
    split; [reflexivity|cbn [length]; lia].
  - (* option *)
    destruct H as [-> Hk]. cbn [length] in Hb, Hf. unfold type_step. rewrite Hk. cbn [prim_of_token].
    destruct (angle1_complete b self TyOption kw _ _ _ _ _ _ _ Hs H0 Hg H1) as [-> Hl]; [lia|lia|].
    split; [reflexivity|cbn [length]; lia].
  - (* result *)
    destruct H as [-> Hk]. unfold type_step. rewrite Hk. cbn [prim_of_token].
    rewrite parse_optional_none by exact Hfol. split; [reflexivity|cbn; lia].
  - (* result<T> *)
    eapply (type_step_result _ _ _ _ _ _ _ _ _ _ _ Hs Hb Hf H H0), result_tail1; [right; eauto|apply orb_true_r|exact H1].
  - (* result<_, T> *)
    eapply (type_step_result _ _ _ _ _ _ _ _ _ _ _ Hs Hb Hf H H0), result_tail2;
      [left; eauto|exact H2|right; eauto|apply orb_true_r|exact H3].
  - (* result<T, T> *)
    eapply (type_step_result _ _ _ _ _ _ _ _ _ _ _ Hs Hb Hf H H0), result_tail2;
      [right; eauto|exact H1|right; eauto|apply orb_true_r|exact H2].
  - (* result<_> *)
    eapply (type_step_result _ _ _ _ _ _ _ _ _ _ _ Hs Hb Hf H0 H1), result_tail1; [left; eauto|now apply result_shape_flag|exact H3].
  - (* result<_, _> *)
    eapply (type_step_result _ _ _ _ _ _ _ _ _ _ _ Hs Hb Hf H0 H1), (result_tail2 _ _ _ _ _ _ None None);
      [left; eauto|exact H3|left; eauto|now apply result_shape_flag|exact H5].
  - (* result<T, _> *)
    eapply (type_step_result _ _ _ _ _ _ _ _ _ _ _ Hs Hb Hf H0 H1), (result_tail2 _ _ _ _ _ _ (Some t) None);
      [right; eauto|exact H2|left; eauto|now apply result_shape_flag|exact H4].
  - (* borrow<id> *)
    destruct H as [-> Hk]. cbn [length] in Hb, Hf. unfold type_step. rewrite Hk. cbn [prim_of_token]. tokc H0.
    destruct (borrow_any_type (dv e)) eqn:Eb.
    + destruct (Hs r2 r3 (TyIdent i)) as [-> Hl]; [apply gt_id; auto|lia|lia|eapply tok_not_next; eauto; discriminate|].
      cbn [bind]. tokc H2. split; [reflexivity|cbn [length]; lia].
    + idc H1. tokc H2. split; [reflexivity|cbn [length]; lia].
  - (* borrow<type> *)
    destruct H0 as [-> Hk]. cbn [length] in Hb, Hf. unfold type_step. rewrite Hk. cbn [prim_of_token]. tokc H1.
    destruct (Hs _ _ _ Hg) as [Hp Hl]; [lia|lia|eapply tok_not_next; eauto; discriminate|].
    unfold d in H. rewrite H, Hp. cbn [bind]. tokc H3.
    split; [|cbn [length]; lia]. destruct t; try reflexivity. exfalso. eapply H2; reflexivity.
  - (* id *)
    destruct H as (t0 & [-> Hk] & ->). unfold type_step. rewrite Hk. cbn [prim_of_token]. split; [reflexivity|cbn; lia].
Qed.

Lemma parse_type_f_complete f : completeB e f (g_type d) type_follow (parse_type_f f e).
Proof. induction f as [|f IH]; [intros ts r t _ Hb; lia|]. cbn [parse_type_f]. now apply type_step_complete. Qed.

Lemma parse_type_complete : complete e (g_type d) type_follow (parse_type e).
Proof. apply completeB_fuel, parse_type_f_complete. Qed.

End Types.

#[local] Hint Resolve parse_ident_sound parse_string_sound parse_package_name_sound parse_package_path_sound
  parse_type_sound : psound.

Ltac starts_tok := eapply tok_starts_in; [|eassumption]; reflexivity.
(** The derivation starts like its first part [H], whose first-set lemma is [lem]. *)
Ltac starts_by lem H := eapply starts_in_incl; [| |exact H]; [apply lem|reflexivity].

Section Productions.
Variable e : env.
Let d := dv e.

Lemma parse_named_type_sound ts n r : parse_named_type e ts = POk n r -> g_named_type d ts r n.
Proof. unfold parse_named_type. intros H. sinv H. red. gsolve. Qed.
Hint Resolve parse_named_type_sound : psound.

Lemma g_named_type_starts : starts_in (g_named_type d) [TIdent].
Proof. intros ts r n (r1 & r2 & i & c & t & Hi & _). exact (g_id_starts _ _ _ Hi). Qed.

Lemma parse_named_type_complete : complete e (g_named_type d) type_follow (parse_named_type e).
Proof.
  intros ts r n (r1 & r2 & i & c & t & Hi & Hc & Ht & ->) Hl Hf. unfold parse_named_type. idc Hi. tokc Hc.
  destruct (parse_type_complete e _ _ _ Ht) as [-> Hl2]; [lia|exact Hf|]. cbn [bind]. split; [reflexivity|lia].
Qed.

(** [alt]: one case per branch. *)
Ltac altinv H :=
  let k := fresh "k" in let first := fresh "first" in let p := fresh "p" in
  let Hpk := fresh "Hpk" in let Hfind := fresh "Hfind" in let Hin := fresh "Hin" in let Hmem := fresh "Hmem" in
  apply alt_ok in H; destruct H as (k & first & p & Hpk & Hfind & H & Hin & Hmem);
  cbn [In] in Hin;
  repeat (destruct Hin as [Hin|Hin]; [injection Hin as ? ?; subst first p|]); try contradiction.

Ltac sall := repeat match goal with Hx : _ = POk _ _ |- _ => progress sinv Hx end.

Lemma parse_params_sound until ts ps r :
  parse_params e until ts = POk ps r -> g_params d ts r ps /\ next_is until r.
Proof. unfold parse_params. intros H. eapply delimited_items_ok in H; [exact H|apply parse_named_type_sound]. Qed.

Lemma parse_params_sound1 until ts ps r : parse_params e until ts = POk ps r -> g_params d ts r ps.
Proof. intros H. now apply parse_params_sound in H. Qed.
Hint Resolve parse_params_sound1 : psound.

Lemma parse_params_complete until ts ps r :
  g_params d ts r ps -> until <> TComma -> until <> TIdent -> until <> TOpenAngle ->
  length ts < fuel e -> next_is until r ->
  parse_params e until ts = POk ps r /\ length r <= length ts.
Proof.
  intros (tr & Hs) Hc Hi Ha Hl Hn. unfold parse_params.
  apply (delimited_items_complete e _ until _ _ _ _ tr _ g_named_type_starts); auto.
  - eapply complete_follow; [apply parse_named_type_complete|]. intros r0. now apply item_follow_type_follow.
  - cbn [mem_tok]. rewrite orb_false_r. apply token_eqb_neq. congruence.
Qed.

Lemma parse_result_list_sound ts x r : parse_result_list e ts = POk x r -> g_results d ts r x.
Proof.
  unfold parse_result_list. intros H. sinv H.
  - apply gr_scalar. eauto with psound.
  - apply andb_true_iff in Eb0. destruct Eb0 as [Hn Hp]. unfold peek_in in Hp. cbn [peek_kind mem_tok] in Hp.
    rewrite orb_false_r in Hp. apply token_eqb_eq in Hp.
    eapply gr_named; eauto with psound; [split; auto|discriminate].
  - apply gr_empty. assumption.
Qed.
Hint Resolve parse_result_list_sound : psound.

(** What follows a function type in every production that uses one: [;]. *)
Definition semi_follow (r : list lexitem) : Prop := next_is TSemicolon r.

Lemma peek_in_false_semi l r : semi_follow r -> mem_tok TSemicolon l = false -> peek_in l r = false.
Proof. intros H Hm. now rewrite (next_is_peek_in _ _ _ H). Qed.

Lemma parse_result_list_complete ts x r :
  g_results d ts r x -> length ts < fuel e -> semi_follow r ->
  parse_result_list e ts = POk x r /\ length r <= length ts.
Proof.
  intros Hg Hl Hf. destruct Hg; unfold parse_result_list.
  - destruct (parse_type_complete e _ _ _ H) as [Hp Hl2]; [lia|eapply next_is_not_next; [exact Hf|discriminate]|].
    rewrite (starts_in_peek _ _ _ _ _ (g_type_starts e) H), Hp. split; [reflexivity|lia].
  - pose proof (tok_len _ _ _ _ H0).
    destruct (parse_params_complete TCloseParen _ _ _ H1) as [Hp Hl2]; try discriminate; [lia|eapply tok_peek; eauto|].
    rewrite !(tok_peek_in _ _ _ _ _ H0). destruct H0 as [-> Hk]. fold d. rewrite H. cbn [mem_tok orb andb any_tok bind].
    rewrite Hp. cbn [bind]. destruct ps; [contradiction|]. tokc H3. split; [reflexivity|cbn [length] in *; lia].
  - fold d. rewrite H. rewrite peek_in_false_semi by (auto; reflexivity).
    rewrite (peek_in_false_semi [TOpenParen]) by (auto; reflexivity). rewrite andb_false_r. split; [reflexivity|lia].
Qed.

Lemma parse_func_type_sound ts f r : parse_func_type e ts = POk f r -> g_func_type d ts r f.
Proof.
  unfold parse_func_type. intros H. sinv H. apply parse_params_sound in Hs1. destruct Hs1 as [Hps _].
  eapply parse_optional_ok in Hs3; [|apply parse_result_list_sound]. red. gsolve.
Qed.
Hint Resolve parse_func_type_sound : psound.

Lemma g_func_type_starts : starts_in (g_func_type d) [TFuncKeyword].
Proof. intros ts r f (r1 & r2 & r3 & r4 & kw & o & c & ps & res & Hkw & _). starts_tok. Qed.

Lemma parse_func_type_complete : complete e (g_func_type d) semi_follow (parse_func_type e).
Proof.
  intros ts r f (r1 & r2 & r3 & r4 & kw & o & c & ps & res & Hkw & Ho & Hps & Hc & Hres & ->) Hl Hf.
  unfold parse_func_type. tokc Hkw. tokc Ho.
  destruct (parse_params_complete TCloseParen _ _ _ Hps) as [-> Hl2]; try discriminate; [lia|eapply tok_peek; eauto|].
  cbn [bind]. tokc Hc. destruct Hres as [ts0|ts0 r5 r6 ar x Har Hx].
  - rewrite parse_optional_none by (eapply next_is_not_next; [exact Hf|discriminate]).
    cbn [bind]. split; [reflexivity|lia].
  - pose proof (tok_len _ _ _ _ Har).
    destruct (parse_result_list_complete _ _ _ Hx) as [Hr Hl3]; [lia|exact Hf|].
    erewrite parse_optional_some; eauto. cbn [bind]. split; [reflexivity|lia].
Qed.

Lemma parse_variant_case_sound ts v r : parse_variant_case e ts = POk v r -> g_variant_case d ts r v.
Proof.
  unfold parse_variant_case. intros H. sinv H.
  eapply (parse_optional_ok _ _ (fun a b x => exists b1 c, g_type d a b1 x /\ tok TCloseParen b1 b c)) in Hs0.
  2:{ intros tsA xA rA HA. sinv HA. gsolve. }
  red. gsolve.
Qed.
Hint Resolve parse_variant_case_sound : psound.

Lemma g_variant_case_starts : starts_in (g_variant_case d) [TIdent].
Proof. intros ts r v (r1 & i & t & Hi & _). exact (g_id_starts _ _ _ Hi). Qed.

Lemma parse_variant_case_complete : complete e (g_variant_case d) (item_follow TCloseBrace) (parse_variant_case e).
Proof.
  intros ts r v (r1 & i & t & Hi & Ho & ->) Hl Hf. unfold parse_variant_case. idc Hi.
  destruct Ho as [ts0|ts0 r2 r3 o x Hop (b1 & c & Hx & Hc)].
  - rewrite parse_optional_none by (eapply item_follow_not_next; eauto; discriminate). cbn [bind]. split; [reflexivity|lia].
  - pose proof (tok_len _ _ _ _ Hop). pose proof (tok_len _ _ _ _ Hc).
    destruct (parse_type_complete e _ _ _ Hx) as [Hp Hl2]; [lia|eapply tok_not_next; eauto; discriminate|].
    erewrite parse_optional_some; [|exact Hop|rewrite Hp; cbn [bind]; tokc Hc; reflexivity].
    cbn [bind]. split; [reflexivity|lia].
Qed.

Lemma parse_field_sound ts v r : parse_field e ts = POk v r -> g_field d ts r v.
Proof. unfold parse_field. intros H. sinv H. apply parse_named_type_sound in Hs. red. gsolve. Qed.
Hint Resolve parse_field_sound : psound.

Lemma g_field_starts : starts_in (g_field d) [TIdent].
Proof. intros ts r f (n & Hn & _). exact (g_named_type_starts _ _ _ Hn). Qed.

Lemma parse_field_complete : complete e (g_field d) (item_follow TCloseBrace) (parse_field e).
Proof.
  intros ts r v (n & Hn & ->) Hl Hf.
  destruct (parse_named_type_complete _ _ _ Hn) as [Hp Hl2]; [exact Hl|eapply item_follow_type_follow; eauto; discriminate|].
  unfold parse_field. rewrite Hp. cbn [bind]. auto.
Qed.

Lemma parse_flag_sound ts v r : parse_flag e ts = POk v r -> g_flag ts r v.
Proof. unfold parse_flag. intros H. sinv H. red. gsolve. Qed.
Hint Resolve parse_flag_sound : psound.

Lemma g_flag_starts : starts_in g_flag [TIdent].
Proof. intros ts r f (i & Hi & _). exact (g_id_starts _ _ _ Hi). Qed.

Lemma parse_flag_complete : complete e g_flag (item_follow TCloseBrace) (parse_flag e).
Proof.
  intros ts r v (i & Hi & ->) Hl Hf. unfold parse_flag. idc Hi. split; [reflexivity|lia].
Qed.

Lemma parse_enum_case_sound ts v r : parse_enum_case e ts = POk v r -> g_enum_case ts r v.
Proof. unfold parse_enum_case. intros H. sinv H. red. gsolve. Qed.
Hint Resolve parse_enum_case_sound : psound.

Lemma g_enum_case_starts : starts_in g_enum_case [TIdent].
Proof. intros ts r f (i & Hi & _). exact (g_id_starts _ _ _ Hi). Qed.

Lemma parse_enum_case_complete : complete e g_enum_case (item_follow TCloseBrace) (parse_enum_case e).
Proof.
  intros ts r v (i & Hi & ->) Hl Hf. unfold parse_enum_case. idc Hi. split; [reflexivity|lia].
Qed.

Lemma braced_nonempty_sound {A} kw which (item : parser A) (R : drel A) mk ts x r :
  (forall ts a r, item ts = POk a r -> R ts r a) ->
  braced_nonempty e kw which item mk ts = POk x r -> g_braced kw R mk ts r x.
Proof.
  intros Hi. unfold braced_nonempty. intros H. sinv H.
  eapply delimited_items_ok in Hs2; [|exact Hi]. destruct Hs2 as ((tr & Hl) & _).
  red. gsolve. discriminate.
Qed.

Lemma g_braced_starts {A} kw (R : drel A) mk : starts_in (g_braced kw R mk) [kw].
Proof.
  intros ts r x (r1 & r2 & r3 & r4 & k & i & o & c & items & tr & Hk & _).
  eapply tok_starts_in; [|exact Hk]. cbn. now rewrite token_eqb_refl.
Qed.

Lemma braced_nonempty_complete {A} kw which (item : parser A) (R : drel A) mk :
  starts_in R [TIdent] -> complete e R (item_follow TCloseBrace) item ->
  complete e (g_braced kw R mk) (fun _ => True) (braced_nonempty e kw which item mk).
Proof.
  intros Hst Hi ts r x (r1 & r2 & r3 & r4 & k & i & o & c & items & tr & Hk & Hid & Ho & Hs & Hne & Hc & ->) Hl _.
  unfold braced_nonempty. tokc Hk. idc Hid. tokc Ho.
  destruct (delimited_items_complete e R TCloseBrace [TIdent] item r3 items tr r4) as [-> Hl2];
    auto; [discriminate|lia|eapply tok_peek; eauto|].
  cbn [bind]. tokc Hc. destruct items; [contradiction|]. split; [reflexivity|lia].
Qed.

Lemma parse_type_alias_sound ts x r : parse_type_alias e ts = POk x r -> g_type_decl d ts r x.
Proof.
  unfold parse_type_alias. intros H. sall. match goal with Hx : alt _ _ _ = POk _ _ |- _ => altinv Hx end; sall.
  - eapply gd_alias_func; eauto with psound.
  - eapply gd_alias_type; eauto with psound.
Qed.
Hint Resolve parse_type_alias_sound : psound.

(** The two alias productions differ only in what stands between [=] and [;]. *)
Lemma parse_type_alias_complete ts r1 r2 r3 r4 r kw i eq s k :
  tok TTypeKeyword ts r1 kw -> g_id r1 r2 i -> tok TEquals r2 r3 eq -> tok TSemicolon r4 r s ->
  (exists f, g_func_type d r3 r4 f /\ k = TAFunc f) \/ (exists t, g_type d r3 r4 t /\ k = TAType t) ->
  length ts < fuel e -> parse_type_alias e ts = POk (DAlias (docs_of ts) i k) r /\ length r < length ts.
Proof.
  intros Hkw Hi Heq Hs Hk Hl. unfold parse_type_alias. tokc Hkw. idc Hi. tokc Heq.
  destruct Hk as [(f & Hf & ->)|(t & Ht & ->)].
  - destruct (parse_func_type_complete _ _ _ Hf) as [Hp Hl2]; [lia|eapply tok_peek; eauto|].
    altc_by g_func_type_starts Hf. rewrite Hp. cbn [bind]. tokc Hs. split; [reflexivity|lia].
  - destruct (parse_type_complete e _ _ _ Ht) as [Hp Hl2]; [lia|eapply tok_not_next; eauto; discriminate|].
    altc_by (g_type_starts e) Ht. rewrite Hp. cbn [bind]. tokc Hs. split; [reflexivity|lia].
Qed.

Lemma type_decl_branches_sound first p ts x r :
  In (first, p) (type_decl_branches e) -> p ts = POk x r -> g_type_decl d ts r x.
Proof.
  intros Hin H. cbn [In type_decl_branches] in Hin.
  repeat (destruct Hin as [Hin|Hin]; [injection Hin as ? ?; subst first p|]); try contradiction.
  - apply gd_variant. eapply braced_nonempty_sound; [apply parse_variant_case_sound|exact H].
  - apply gd_record. eapply braced_nonempty_sound; [apply parse_field_sound|exact H].
  - apply gd_flags. eapply braced_nonempty_sound; [apply parse_flag_sound|exact H].
  - apply gd_enum. eapply braced_nonempty_sound; [apply parse_enum_case_sound|exact H].
  - now apply parse_type_alias_sound.
Qed.

Lemma parse_type_decl_sound ts x r : parse_type_decl e ts = POk x r -> g_type_decl d ts r x.
Proof.
  unfold parse_type_decl. intros H. apply alt_ok in H. destruct H as (k & first & p & _ & _ & H & Hin & _).
  eapply type_decl_branches_sound; eauto.
Qed.
Hint Resolve parse_type_decl_sound : psound.

Lemma g_type_decl_starts : starts_in (g_type_decl d) type_decl_first.
Proof.
  intros ts r x H. destruct H; try starts_tok; starts_by @g_braced_starts H.
Qed.

Lemma parse_type_decl_complete ts x r :
  g_type_decl d ts r x -> length ts < fuel e -> parse_type_decl e ts = POk x r /\ length r < length ts.
Proof.
  intros Hg Hl. destruct Hg; unfold parse_type_decl, type_decl_branches.
  - altc_by (g_braced_starts TVariantKeyword (g_variant_case d) DVariant) H.
    exact (braced_nonempty_complete _ 0%N _ _ _ g_variant_case_starts parse_variant_case_complete _ _ _ H Hl I).
  - altc_by (g_braced_starts TRecordKeyword (g_field d) DRecord) H.
    exact (braced_nonempty_complete _ 1%N _ _ _ g_field_starts parse_field_complete _ _ _ H Hl I).
  - altc_by (g_braced_starts TFlagsKeyword g_flag DFlags) H.
    exact (braced_nonempty_complete _ 2%N _ _ _ g_flag_starts parse_flag_complete _ _ _ H Hl I).
  - altc_by (g_braced_starts TEnumKeyword g_enum_case DEnum) H.
    exact (braced_nonempty_complete _ 3%N _ _ _ g_enum_case_starts parse_enum_case_complete _ _ _ H Hl I).
  - altc H. eapply parse_type_alias_complete; eauto.
  - altc H. eapply parse_type_alias_complete; eauto.
Qed.

Lemma parse_resource_method_sound ts x r : parse_resource_method e ts = POk x r -> g_resource_item d ts r x.
Proof.
  unfold parse_resource_method. intros H. altinv H.
  - unfold parse_constructor in H. sall. eapply gri_constructor; eauto with psound.
  - unfold parse_method in H. sall.
    + unfold peek_in in Eb. cbn [peek_kind mem_tok] in Eb. rewrite orb_false_r in Eb. apply token_eqb_eq in Eb.
      eapply (gri_method d _ _ _ _ _ _ _ _ (Some tt)); eauto with psound.
      eapply opt_some; [split; [reflexivity|symmetry; exact Eb]|reflexivity].
    + eapply (gri_method d _ _ _ _ _ _ _ _ None); eauto with psound. constructor.
Qed.
Hint Resolve parse_resource_method_sound : psound.

Lemma g_resource_item_starts : starts_in (g_resource_item d) [TConstructorKeyword; TIdent].
Proof. intros ts r x H. destruct H; [starts_tok|starts_by g_id_starts H]. Qed.

Lemma parse_resource_method_complete : complete e (g_resource_item d) (fun _ => True) (parse_resource_method e).
Proof.
  intros ts r x Hg Hl _. destruct Hg; unfold parse_resource_method.
  - altc H. unfold parse_constructor. tokc H. tokc H0.
    destruct (parse_params_complete TCloseParen _ _ _ H1) as [-> Hl2]; try discriminate; [lia|eapply tok_peek; eauto|].
    cbn [bind]. tokc H2. tokc H3. split; [reflexivity|lia].
  - altc H. unfold parse_method. idc H. tokc H0.
    assert (length r3 <= length r2) as L3 by (destruct H1 as [|? ? ? ? ? Hst ->]; [lia|pose proof (tok_len _ _ _ _ Hst); lia]).
    destruct (parse_func_type_complete _ _ _ H2) as [Hp Hl2]; [lia|eapply tok_peek; eauto|].
    destruct H1 as [ts0|ts0 r5 r6 t1 u Hst ->].
    + rewrite (starts_in_peek_out _ _ [TStaticKeyword] _ _ _ g_func_type_starts H2 eq_refl). cbn [bind].
      rewrite Hp. cbn [bind]. tokc H3. split; [reflexivity|lia].
    + rewrite (tok_peek_in _ _ _ _ _ Hst). destruct Hst as [-> Hk9].
      cbn [mem_tok token_eqb token_code N.eqb Pos.eqb orb bind any_tok]. rewrite Hp. cbn [bind]. tokc H3. destruct u.
      split; [reflexivity|lia].
Qed.

Lemma parse_item_type_decl_sound ts x r : parse_item_type_decl e ts = POk x r -> g_item_type_decl d ts r x.
Proof.
  unfold parse_item_type_decl. intros H. apply alt_ok in H. destruct H as (k & first & p & Hpk & _ & H & [Hin|Hin] & Hmem).
  - injection Hin as ? ?; subst first p. unfold parse_resource_decl in H. sall. match goal with Hx : alt _ _ _ = POk _ _ |- _ => altinv Hx end; sall.
    + cbn [peek_kind] in Hpk0. inversion Hpk0; subst k0. cbn [mem_tok] in Hmem0. rewrite orb_false_r in Hmem0.
      apply token_eqb_eq in Hmem0. eapply gi_resource_semi; eauto with psound. split; [reflexivity|now symmetry].
    + match goal with Hx : delimited_items _ _ _ _ _ _ = _ |- _ =>
        eapply delimited_items_ok in Hx; [|apply parse_resource_method_sound]; destruct Hx as [Hx _] end.
      eapply gi_resource_body; eauto with psound.
  - apply gi_type_decl. eapply type_decl_branches_sound; eauto.
Qed.
Hint Resolve parse_item_type_decl_sound : psound.

Lemma g_item_type_decl_starts : starts_in (g_item_type_decl d) item_type_decl_first.
Proof. intros ts r x H. destruct H; try starts_tok. starts_by g_type_decl_starts H. Qed.

Lemma parse_item_type_decl_complete : complete e (g_item_type_decl d) (fun _ => True) (parse_item_type_decl e).
Proof.
  intros ts r x Hg Hl _. destruct Hg; unfold parse_item_type_decl.
  - altc H. unfold parse_resource_decl. tokc H. idc H0. altc H1. pose proof (tok_len _ _ _ _ H1). destruct H1 as [-> _].
    split; [reflexivity|lia].
  - altc H. unfold parse_resource_decl. tokc H. idc H0. altc H1. tokc H1.
    destruct (delimited_many_complete e _ TCloseBrace _ _ _ _ _ g_resource_item_starts parse_resource_method_complete eq_refl H2)
      as [-> Hl2]; [lia|eapply tok_peek; eauto|].
    cbn [bind]. tokc H3. split; [reflexivity|lia].
  - (* a type declaration: the first branch is skipped *)
    destruct (parse_type_decl_complete _ _ _ H Hl) as [Hp Hl2]. split; [|exact Hl2].
    destruct (g_type_decl_starts _ _ _ H) as (t & ts' & -> & Hm).
    apply alt_ok in Hp. destruct Hp as (k & first & p & Hk & Hf & Hp & _). injection Hk as <-.
    erewrite alt_select; [exact Hp|reflexivity|]. cbn [alt_find]. now rewrite (mem_tok_disjoint _ _ [TResourceKeyword] Hm).
Qed.

Lemma parse_use_path_sound ts x r : parse_use_path e ts = POk x r -> g_use_path ts r x.
Proof. unfold parse_use_path. intros H. altinv H; sall; constructor; eauto with psound. Qed.
Hint Resolve parse_use_path_sound : psound.

Lemma parse_use_path_complete ts x r : g_use_path ts r x -> parse_use_path e ts = POk x r /\ length ts = S (length r).
Proof.
  destruct 1 as [ts r p (t & Ht & Hp)|ts r i (t & Ht & ->)]; (split; [|eapply tok_len; eauto]); unfold parse_use_path; altc Ht.
  - rewrite (parse_package_path_complete e ts p r) by (exists t; auto). reflexivity.
  - rewrite (parse_ident_complete e ts (mk_ident t) r) by (exists t; auto). reflexivity.
Qed.

Lemma parse_use_item_sound ts x r : parse_use_item e ts = POk x r -> g_use_item ts r x.
Proof.
  unfold parse_use_item. intros H. sall.
  match goal with Hx : parse_optional _ _ _ = _ |- _ => eapply parse_optional_ok in Hx; [|apply parse_ident_sound] end.
  red. gsolve.
Qed.
Hint Resolve parse_use_item_sound : psound.

Lemma g_use_item_starts : starts_in g_use_item [TIdent].
Proof. intros ts r x (r1 & i & a & Hi & _). exact (g_id_starts _ _ _ Hi). Qed.

Lemma parse_use_item_complete : complete e g_use_item (item_follow TCloseBrace) (parse_use_item e).
Proof.
  intros ts r x (r1 & i & a & Hi & Ho & ->) Hl Hf. unfold parse_use_item. idc Hi.
  destruct Ho as [ts0|ts0 r2 r3 o x Hop Hx].
  - rewrite parse_optional_none by (eapply item_follow_not_next; eauto; discriminate). cbn [bind]. split; [reflexivity|lia].
  - pose proof (tok_len _ _ _ _ Hop). pose proof (g_id_len _ _ _ Hx).
    erewrite parse_optional_some; [|exact Hop|apply parse_ident_complete; exact Hx].
    cbn [bind]. split; [reflexivity|lia].
Qed.

Lemma parse_use_sound ts x r : parse_use e ts = POk x r -> g_use d ts r x.
Proof.
  unfold parse_use. intros H. sall;
    match goal with Hx : delimited_items _ _ _ _ _ _ = _ |- _ =>
      eapply delimited_items_ok in Hx; [|apply parse_use_item_sound]; destruct Hx as ((tr & Hx) & _) end.
  - red. gsolve.
  - red. gsolve. left. discriminate.
Qed.
Hint Resolve parse_use_sound : psound.

Lemma nonempty_check {A} (items : list A) (flag : bool) w r :
  items <> [] \/ flag = true ->
  match items with
  | [] => if flag then POk tt r else PErr (PE_DocRestriction w)
  | _ :: _ => POk tt r
  end = POk tt r.
Proof. destruct items; auto. intros [H| ->]; [contradiction|reflexivity]. Qed.

Lemma g_use_starts : starts_in (g_use d) [TUseKeyword].
Proof.
  intros ts r x (r1 & r2 & r3 & r4 & r5 & r6 & kw & rest). destruct rest as (p & dt & o & c & s & items & tr & Hkw & _).
  starts_tok.
Qed.

Lemma parse_use_complete : complete e (g_use d) (fun _ => True) (parse_use e).
Proof.
  intros ts r x (r1 & r2 & r3 & r4 & r5 & r6 & kw & p & dt & o & c & s & items & tr &
                 Hkw & Hp & Hdt & Ho & Hs & Hne & Hc & Hsemi & ->) Hl _.
  unfold parse_use. tokc Hkw. destruct (parse_use_path_complete _ _ _ Hp) as [-> Hlp]. cbn [bind]. tokc Hdt. tokc Ho.
  destruct (delimited_items_complete e _ TCloseBrace _ _ _ _ _ _ g_use_item_starts parse_use_item_complete eq_refl ltac:(discriminate) Hs)
    as [-> Hl2]; [lia|eapply tok_peek; eauto|].
  cbn [bind]. rewrite nonempty_check by exact Hne. cbn [bind]. tokc Hc. tokc Hsemi. split; [reflexivity|lia].
Qed.

Lemma parse_func_type_ref_sound ts x r : parse_func_type_ref e ts = POk x r -> g_func_type_ref d ts r x.
Proof.
  unfold parse_func_type_ref. intros H. altinv H; sall; constructor; eauto with psound.
Qed.
Hint Resolve parse_func_type_ref_sound : psound.

Lemma parse_func_type_ref_complete : complete e (g_func_type_ref d) semi_follow (parse_func_type_ref e).
Proof.
  intros ts r x Hg Hl Hf. destruct Hg as [ts r f Hfn|ts r i Hi]; unfold parse_func_type_ref.
  - destruct (parse_func_type_complete _ _ _ Hfn Hl Hf) as [Hp Hl2].
    altc_by g_func_type_starts Hfn. rewrite Hp. split; [reflexivity|exact Hl2].
  - altc Hi. idc Hi. split; [reflexivity|lia].
Qed.

Lemma parse_interface_item_sound ts x r : parse_interface_item e ts = POk x r -> g_interface_item d ts r x.
Proof.
  unfold parse_interface_item. intros H. altinv H; sall.
  - constructor; eauto with psound.
  - unfold parse_interface_export in H. sall. eapply gii_export; eauto with psound.
  - constructor; eauto with psound.
Qed.
Hint Resolve parse_interface_item_sound : psound.

Lemma g_interface_item_starts : starts_in (g_interface_item d) interface_item_first.
Proof.
  intros ts r x H. destruct H.
  - starts_by g_use_starts H.
  - starts_by g_item_type_decl_starts H.
  - starts_by g_id_starts H.
Qed.

Lemma parse_interface_item_complete : complete e (g_interface_item d) (fun _ => True) (parse_interface_item e).
Proof.
  intros ts r x Hg Hl _. destruct Hg; unfold parse_interface_item.
  - destruct (parse_use_complete _ _ _ H Hl I) as [Hp Hl2].
    altc_by g_use_starts H. rewrite Hp. split; [reflexivity|exact Hl2].
  - destruct (parse_item_type_decl_complete _ _ _ H Hl I) as [Hp Hl2].
    altc_by g_item_type_decl_starts H. rewrite Hp. split; [reflexivity|exact Hl2].
  - altc H. unfold parse_interface_export. idc H. tokc H0.
    destruct (parse_func_type_ref_complete _ _ _ H1) as [-> Hl2]; [lia|eapply tok_peek; eauto|].
    cbn [bind]. tokc H2. split; [reflexivity|lia].
Qed.

Lemma parse_interface_body_sound ts x r : parse_interface_body e ts = POk x r -> g_interface_body d ts r x.
Proof.
  unfold parse_interface_body. intros H. sall.
  match goal with Hx : delimited_items _ _ _ _ _ _ = _ |- _ =>
    eapply delimited_items_ok in Hx; [|apply parse_interface_item_sound]; destruct Hx as [Hx _] end.
  red. gsolve.
Qed.
Hint Resolve parse_interface_body_sound : psound.

Lemma parse_interface_body_complete : complete e (g_interface_body d) (fun _ => True) (parse_interface_body e).
Proof.
  intros ts r x (r1 & r2 & o & c & Ho & Hm & Hc) Hl _. unfold parse_interface_body. tokc Ho.
  destruct (delimited_many_complete e _ TCloseBrace _ _ _ _ _ g_interface_item_starts parse_interface_item_complete eq_refl Hm)
    as [-> Hl2]; [lia|eapply tok_peek; eauto|].
  cbn [bind]. tokc Hc. split; [reflexivity|lia].
Qed.

Lemma parse_inline_interface_sound ts x r : parse_inline_interface e ts = POk x r -> g_inline_interface d ts r x.
Proof.
  unfold parse_inline_interface. intros H. sall. red. gsolve.
Qed.
Hint Resolve parse_inline_interface_sound : psound.

Lemma parse_inline_interface_complete : complete e (g_inline_interface d) (fun _ => True) (parse_inline_interface e).
Proof.
  intros ts r x (r1 & kw & Hkw & Hb) Hl _. unfold parse_inline_interface. tokc Hkw.
  destruct (parse_interface_body_complete _ _ _ Hb) as [-> Hl2]; [lia|exact I|]. split; [reflexivity|lia].
Qed.

Lemma g_inline_interface_starts : starts_in (g_inline_interface d) [TInterfaceKeyword].
Proof. intros ts r x (r1 & kw & Hkw & _). starts_tok. Qed.

Lemma parse_extern_type_sound ts x r : parse_extern_type e ts = POk x r -> g_extern_type d ts r x.
Proof.
  unfold parse_extern_type. intros H. altinv H; sall; constructor; eauto with psound.
Qed.
Hint Resolve parse_extern_type_sound : psound.

Lemma parse_extern_type_complete : complete e (g_extern_type d) semi_follow (parse_extern_type e).
Proof.
  intros ts r x Hg Hl Hf. destruct Hg as [ts r f Hfn|ts r b Hb|ts r i Hi]; unfold parse_extern_type.
  - destruct (parse_func_type_complete _ _ _ Hfn Hl Hf) as [Hp Hl2].
    altc_by g_func_type_starts Hfn. rewrite Hp. split; [reflexivity|exact Hl2].
  - destruct (parse_inline_interface_complete _ _ _ Hb Hl I) as [Hp Hl2].
    altc_by g_inline_interface_starts Hb. rewrite Hp. split; [reflexivity|exact Hl2].
  - altc Hi. idc Hi. split; [reflexivity|lia].
Qed.

Lemma is_colon_true k : is_colon k = true -> k = Some TColon.
Proof. destruct k as [k|]; cbn; [|discriminate]. intros H. apply token_eqb_eq in H. now subst. Qed.

Lemma parse_world_item_path_sound ts x r : parse_world_item_path e ts = POk x r -> g_world_item_path d ts r x.
Proof.
  unfold parse_world_item_path. intros H. altinv H; sall; econstructor; eauto with psound.
Qed.
Hint Resolve parse_world_item_path_sound : psound.

Lemma parse_world_item_path_complete : complete e (g_world_item_path d) semi_follow (parse_world_item_path e).
Proof.
  intros ts r x Hg Hl Hf.
  destruct Hg as [ts r1 r2 r i c t Hi Hc Ht|ts r p (t & Ht & Hp)|ts r i Hi]; unfold parse_world_item_path.
  - altc Hi. assert (is_colon (peek2_kind ts) = true) as ->.
    { destruct Hi as (t0 & [-> _] & _). destruct Hc as [-> Hk]. cbn. rewrite Hk. reflexivity. }
    idc Hi. tokc Hc. destruct (parse_extern_type_complete _ _ _ Ht) as [-> Hl2]; [lia|exact Hf|]. split; [reflexivity|lia].
  - pose proof (tok_len _ _ _ _ Ht). altc Ht. rewrite (parse_package_path_complete e ts p r) by (exists t; auto).
    split; [reflexivity|lia].
  - altc Hi. assert (is_colon (peek2_kind ts) = false) as ->.
    { destruct Hi as (t & [-> _] & _). apply peek_kind_Some in Hf. destruct Hf as (t1 & r' & -> & Hk). cbn. now rewrite Hk. }
    idc Hi. split; [reflexivity|lia].
Qed.

Lemma parse_world_ref_sound ts x r : parse_world_ref e ts = POk x r -> g_world_ref ts r x.
Proof. unfold parse_world_ref. intros H. altinv H; sall; constructor; eauto with psound. Qed.
Hint Resolve parse_world_ref_sound : psound.

Lemma parse_world_ref_complete ts x r : g_world_ref ts r x -> parse_world_ref e ts = POk x r /\ length ts = S (length r).
Proof.
  destruct 1 as [ts r p (t & Ht & Hp)|ts r i (t & Ht & ->)]; (split; [|eapply tok_len; eauto]); unfold parse_world_ref; altc Ht.
  - rewrite (parse_package_path_complete e ts p r) by (exists t; auto). reflexivity.
  - rewrite (parse_ident_complete e ts (mk_ident t) r) by (exists t; auto). reflexivity.
Qed.

Lemma parse_include_item_sound ts x r : parse_include_item e ts = POk x r -> g_include_item ts r x.
Proof. unfold parse_include_item. intros H. sall. red. gsolve. Qed.
Hint Resolve parse_include_item_sound : psound.

Lemma g_include_item_starts : starts_in g_include_item [TIdent].
Proof. intros ts r x (r1 & r2 & a & kw & b & Ha & _). exact (g_id_starts _ _ _ Ha). Qed.

Lemma parse_include_item_complete : complete e g_include_item (item_follow TCloseBrace) (parse_include_item e).
Proof.
  intros ts r x (r1 & r2 & a & kw & b & Ha & Hkw & Hb & ->) Hl Hf.
  unfold parse_include_item. idc Ha. tokc Hkw. idc Hb. split; [reflexivity|lia].
Qed.

Definition g_with_clause : drel (list include_item) := fun a b items => exists b1 b2 o c tr,
  tok TOpenBrace a b1 o /\ seplist g_include_item b1 b2 (items, tr) /\
  (items <> [] \/ empty_include_with d = true) /\ tok TCloseBrace b2 b c.

Lemma parse_world_include_sound ts x r : parse_world_include e ts = POk x r -> g_world_item d ts r x.
Proof.
  unfold parse_world_include. intros H. sall.
  match goal with Hx : parse_optional _ _ _ = _ |- _ => eapply (parse_optional_ok _ _ g_with_clause) in Hx end.
  2:{ intros tsA xA rA HA. sall;
        match goal with Hx : delimited_items _ _ _ _ _ _ = _ |- _ =>
          eapply delimited_items_ok in Hx; [|apply parse_include_item_sound]; destruct Hx as ((tr & Hx) & _) end.
      - red. gsolve.
      - red. gsolve. left. discriminate. }
  eapply gwi_include; eauto with psound.
Qed.
Hint Resolve parse_world_include_sound : psound.

Lemma parse_world_item_sound ts x r : parse_world_item e ts = POk x r -> g_world_item d ts r x.
Proof.
  unfold parse_world_item. intros H. altinv H; sall.
  - constructor; eauto with psound.
  - unfold parse_world_port in H. sall. eapply gwi_import; eauto with psound.
  - unfold parse_world_port in H. sall. eapply gwi_export; eauto with psound.
  - now apply parse_world_include_sound.
  - constructor; eauto with psound.
Qed.
Hint Resolve parse_world_item_sound : psound.

Lemma g_world_item_starts : starts_in (g_world_item d) world_item_first.
Proof.
  intros ts r x H. destruct H; try starts_tok.
  - starts_by g_use_starts H.
  - starts_by g_item_type_decl_starts H.
Qed.

(** [kw world-item-path ';'], the body of a world import and of a world export. *)
Lemma parse_world_port_complete kw mk ts r1 r2 r k p s :
  tok kw ts r1 k -> g_world_item_path d r1 r2 p -> tok TSemicolon r2 r s -> length ts < fuel e ->
  parse_world_port e kw mk ts = POk (mk (docs_of ts) p) r /\ length r < length ts.
Proof.
  intros H H0 H1 Hl. unfold parse_world_port. tokc H.
  destruct (parse_world_item_path_complete _ _ _ H0) as [-> Hl2]; [lia|eapply tok_peek; eauto|].
  cbn [bind]. tokc H1. split; [reflexivity|lia].
Qed.

Lemma parse_world_include_complete ts r1 r2 r3 r kw w wi s :
  tok TIncludeKeyword ts r1 kw -> g_world_ref r1 r2 w -> opt TWithKeyword g_with_clause r2 r3 wi ->
  tok TSemicolon r3 r s -> length ts < fuel e ->
  parse_world_include e ts = POk (WIInclude (docs_of ts) w (match wi with Some x => x | None => [] end)) r /\
  length r < length ts.
Proof.
  intros H H0 H1 H2 Hl. unfold parse_world_include. tokc H.
  destruct (parse_world_ref_complete _ _ _ H0) as [-> Hlp]. cbn [bind].
  destruct H1 as [ts0|ts0 r5 r6 wt items Hw (b1 & b2 & o & c & tr & Ho & Hs & Hne & Hc)].
  - rewrite parse_optional_none by (eapply tok_not_next; eauto; discriminate). cbn [bind]. tokc H2. split; [reflexivity|lia].
  - pose proof (tok_len _ _ _ _ Hw). pose proof (tok_len _ _ _ _ Ho). pose proof (tok_len _ _ _ _ Hc).
    destruct (delimited_items_complete e _ TCloseBrace _ _ _ _ _ _ g_include_item_starts parse_include_item_complete
                eq_refl ltac:(discriminate) Hs) as [Hd Hl2]; [lia|eapply tok_peek; eauto|].
    erewrite parse_optional_some; [|exact Hw|].
    2:{ cbv beta. tokc Ho. rewrite Hd. cbn [bind]. rewrite nonempty_check by exact Hne. cbn [bind]. tokc Hc. reflexivity. }
    cbn [bind]. tokc H2. split; [reflexivity|lia].
Qed.

Lemma parse_world_item_complete : complete e (g_world_item d) (fun _ => True) (parse_world_item e).
Proof.
  intros ts r x Hg Hl _. destruct Hg; unfold parse_world_item.
  - destruct (parse_use_complete _ _ _ H Hl I) as [Hp Hl2].
    altc_by g_use_starts H. rewrite Hp. split; [reflexivity|exact Hl2].
  - destruct (parse_item_type_decl_complete _ _ _ H Hl I) as [Hp Hl2].
    altc_by g_item_type_decl_starts H. rewrite Hp. split; [reflexivity|exact Hl2].
  - altc H. exact (parse_world_port_complete TImportKeyword WIImport _ _ _ _ _ _ _ H H0 H1 Hl).
  - altc H. exact (parse_world_port_complete TExportKeyword WIExport _ _ _ _ _ _ _ H H0 H1 Hl).
  - altc H. exact (parse_world_include_complete _ _ _ _ _ _ _ _ _ H H0 H1 H2 Hl).
Qed.

Lemma parse_type_statement_sound ts x r : parse_type_statement e ts = POk x r -> g_type_statement d ts r x.
Proof.
  unfold parse_type_statement. intros H. altinv H; sall.
  - unfold parse_interface_decl in H. sall. eapply gts_interface; eauto with psound.
  - unfold parse_world_decl in H. sall.
    match goal with Hx : delimited_items _ _ _ _ _ _ = _ |- _ =>
      eapply delimited_items_ok in Hx; [|apply parse_world_item_sound]; destruct Hx as [Hx _] end.
    eapply gts_world; eauto with psound.
  - constructor; eauto with psound.
Qed.
Hint Resolve parse_type_statement_sound : psound.

Lemma g_type_statement_starts : starts_in (g_type_statement d) type_statement_first.
Proof. intros ts r x H. destruct H; try starts_tok. starts_by g_type_decl_starts H. Qed.

Lemma parse_type_statement_complete : complete e (g_type_statement d) (fun _ => True) (parse_type_statement e).
Proof.
  intros ts r x Hg Hl _. destruct Hg; unfold parse_type_statement.
  - altc H. unfold parse_interface_decl. tokc H. idc H0.
    destruct (parse_interface_body_complete _ _ _ H1) as [-> Hl2]; [lia|exact I|]. split; [reflexivity|lia].
  - altc H. unfold parse_world_decl. tokc H. idc H0. tokc H1.
    destruct (delimited_many_complete e _ TCloseBrace _ _ _ _ _ g_world_item_starts parse_world_item_complete eq_refl H2)
      as [-> Hl2]; [lia|eapply tok_peek; eauto|].
    cbn [bind]. tokc H3. split; [reflexivity|lia].
  - destruct (parse_type_decl_complete _ _ _ H Hl) as [Hp Hl2].
    altc_by g_type_decl_starts H. rewrite Hp. split; [reflexivity|exact Hl2].
Qed.

Lemma parse_arg_name_sound ts x r : parse_arg_name e ts = POk x r -> g_arg_name ts r x.
Proof. unfold parse_arg_name. intros H. altinv H; sall; constructor; eauto with psound. Qed.
Hint Resolve parse_arg_name_sound : psound.

Lemma parse_arg_name_complete ts x r : g_arg_name ts r x -> parse_arg_name e ts = POk x r /\ length ts = S (length r).
Proof.
  destruct 1 as [ts r i (t & Ht & ->)|ts r s (t & Ht & Hs)]; (split; [|eapply tok_len; eauto]); unfold parse_arg_name; altc Ht.
  - rewrite (parse_ident_complete e ts (mk_ident t) r) by (exists t; auto). reflexivity.
  - rewrite (parse_string_complete e ts s r) by (exists t; auto). reflexivity.
Qed.

Lemma g_arg_name_starts : starts_in g_arg_name [TIdent; TString].
Proof. intros ts r x H. destruct H as [ts r i (t & Ht & _)|ts r s (t & Ht & _)]; (eapply tok_starts_in; [|exact Ht]; reflexivity). Qed.

(** What may follow an expression: anything but a postfix operator. *)
Definition expr_follow (r : list lexitem) : Prop := peek_kind r <> Some TDot /\ peek_kind r <> Some TOpenBracket.

Lemma next_is_expr_follow k r : next_is k r -> k <> TDot -> k <> TOpenBracket -> expr_follow r.
Proof. intros H H1 H2. red in H. split; rewrite H; congruence. Qed.

Lemma postfix_loop_sound n : forall ts post r, postfix_loop n e ts = POk post r -> many g_postfix ts r post.
Proof.
  induction n as [|n IH]; intros ts post r; cbn [postfix_loop]; [discriminate|].
  destruct (peek_kind ts) as [k|] eqn:Ek.
  - destruct (token_eqb k TDot) eqn:Ed.
    + intros H. sall. match goal with Hx : postfix_loop _ _ _ = _ |- _ => apply IH in Hx end.
      econstructor; [|eassumption]. eapply gpf_access; eauto with psound.
    + destruct (token_eqb k TOpenBracket) eqn:Eo.
      * intros H. sall. match goal with Hx : postfix_loop _ _ _ = _ |- _ => apply IH in Hx end.
        econstructor; [|eassumption]. eapply gpf_named; eauto with psound.
      * intros H. sall. constructor.
  - intros H. sall. constructor.
Qed.

Lemma postfix_loop_complete ts post r :
  many g_postfix ts r post -> expr_follow r ->
  forall n, length ts < n -> postfix_loop n e ts = POk post r /\ length r <= length ts.
Proof.
  intros Hm Hf. induction Hm as [ts|ts r1 r a l Ha Hm IH]; intros n Hl; (destruct n as [|n]; [lia|]); cbn [postfix_loop].
  - split; [|lia]. destruct Hf as [Hf1 Hf2]. destruct (peek_kind ts) as [k|] eqn:Ek; auto.
    destruct (token_eqb k TDot) eqn:Ed; [apply token_eqb_eq in Ed; congruence|].
    destruct (token_eqb k TOpenBracket) eqn:Eo; [apply token_eqb_eq in Eo; congruence|]. reflexivity.
  - destruct Ha.
    + rewrite (tok_peek _ _ _ _ H). cbn [token_eqb token_code N.eqb Pos.eqb]. tokc H. idc H0.
      destruct (IH Hf n) as [-> Hl2]; [lia|]. split; [reflexivity|lia].
    + rewrite (tok_peek _ _ _ _ H). cbn [token_eqb token_code N.eqb Pos.eqb]. tokc H.
      destruct H0 as (t0 & Ht0 & Hs0). pose proof (tok_len _ _ _ _ Ht0).
      rewrite (parse_string_complete e r1 s r2) by (exists t0; auto). cbn [bind]. tokc H1.
      destruct (IH Hf n) as [-> Hl2]; [lia|]. split; [reflexivity|lia].
Qed.

Lemma parse_inst_arg_sound (self : parser expr) :
  (forall ts x r, self ts = POk x r -> g_expr d ts r x) ->
  forall ts a r, parse_inst_arg self e ts = POk a r -> g_arg d ts r a.
Proof.
  intros Hs ts a r. unfold parse_inst_arg. destruct (peek_kind ts) as [k|] eqn:Ek; [|intros H; sall].
  destruct (token_eqb k TEllipsis) eqn:Ee.
  - apply token_eqb_eq in Ee. subst k. intros H. sall.
    + cbn [peek_kind] in Ek. inversion Ek. apply gar_fill. split; auto.
    + cbn [peek_kind] in Ek. inversion Ek. eapply gar_spread; eauto with psound. split; auto.
  - destruct (mem_tok k [TIdent; TString]) eqn:Em; [|intros H; sall].
    destruct (is_colon (peek2_kind ts)) eqn:Ec; intros H; sall.
    + eapply gar_named; eauto with psound.
    + apply gar_inferred. eauto with psound.
Qed.

Lemma g_arg_starts : starts_in (g_arg d) inst_arg_first.
Proof.
  intros ts r a H. destruct H; try starts_tok.
  - starts_by g_id_starts H.
  - starts_by g_arg_name_starts H.
Qed.

Lemma parse_inst_arg_complete b (self : parser expr) :
  completeB e b (g_expr d) expr_follow self -> completeB e (S b) (g_arg d) (item_follow TCloseBrace) (parse_inst_arg self e).
Proof.
  intros Hs ts r a Hg Hb Hl Hf. destruct Hg.
  - (* inferred *) destruct H as (t & [-> Hk] & ->). split; [|cbn; lia].
    unfold parse_inst_arg. cbn [peek_kind]. rewrite Hk. cbn [token_eqb token_code N.eqb Pos.eqb mem_tok orb].
    assert (is_colon (peek2_kind (LTok t :: r)) = false) as ->.
    { cbn [peek2_kind]. destruct Hf as [Hf|Hf]; rewrite Hf; reflexivity. }
    unfold parse_ident, next_tok. rewrite Hk. reflexivity.
  - (* spread *) pose proof (g_id_len _ _ _ H0). destruct H as [-> Hk]. split; [|cbn; lia].
    unfold parse_inst_arg. cbn [peek_kind]. rewrite Hk. cbn [token_eqb token_code N.eqb Pos.eqb any_tok bind].
    rewrite (next_is_peek_in _ _ _ (g_id_peek _ _ _ H0)). rewrite (parse_ident_complete e _ _ _ H0). reflexivity.
  - (* named *) destruct (parse_arg_name_complete _ _ _ H) as [Hp Hlp]. pose proof (tok_len _ _ _ _ H0).
    destruct (Hs _ _ _ H1) as [Hx Hl2]; [lia|lia|destruct Hf as [Hf|Hf]; (eapply next_is_expr_follow; [exact Hf|discriminate..])|].
    split; [|lia]. destruct (g_arg_name_starts _ _ _ H) as (t & ts' & -> & Hm).
    unfold parse_inst_arg. cbn [peek_kind].
    rewrite (until_not_first TEllipsis [TIdent; TString] _ eq_refl Hm), Hm.
    assert (is_colon (peek2_kind (LTok t :: ts')) = true) as ->.
    { cbn [peek2_kind]. assert (ts' = r1) as -> by (inversion H as [? ? ? (t1 & [E _] & _)|? ? ? (t1 & [E _] & _)]; subst; now inversion E).
      rewrite (tok_peek _ _ _ _ H0). reflexivity. }
    rewrite Hp. cbn [bind]. tokc H0. rewrite Hx. reflexivity.
  - (* fill *) destruct H as [-> Hk]. split; [|cbn; lia].
    unfold parse_inst_arg. cbn [peek_kind]. rewrite Hk. cbn [token_eqb token_code N.eqb Pos.eqb any_tok bind].
    assert (peek_in [TComma; TCloseBrace] r = true) as ->.
    { unfold peek_in. destruct Hf as [Hf|Hf]; rewrite Hf; reflexivity. }
    reflexivity.
Qed.

Lemma expr_step_sound (self : parser expr) :
  (forall ts x r, self ts = POk x r -> g_expr d ts r x) ->
  forall ts x r, expr_step self e ts = POk x r -> g_expr d ts r x.
Proof.
  intros Hs ts x r. unfold expr_step. intros H. sall.
  match goal with Hx : postfix_loop _ _ _ = _ |- _ => apply postfix_loop_sound in Hx end.
  econstructor; [|eassumption].
  match goal with Hx : primary_step _ _ _ = _ |- _ => unfold primary_step in Hx; altinv Hx end; sall.
  - match goal with Hx : delimited _ _ _ _ _ _ = _ |- _ =>
      unfold delimited in Hx; eapply delim_loop_ok in Hx; [|apply parse_inst_arg_sound; exact Hs]; destruct Hx as [Hx _] end.
    eapply gp_new; eauto with psound. apply seplist_g_args; eauto.
  - eapply gp_nested; eauto with psound.
  - apply gp_id. eauto with psound.
Qed.

Lemma parse_expr_f_sound f : forall ts x r, parse_expr_f f e ts = POk x r -> g_expr d ts r x.
Proof. induction f as [|f IH]; cbn; [discriminate|]. apply expr_step_sound. exact IH. Qed.
Hint Resolve parse_expr_f_sound : psound.

Lemma parse_expr_sound ts x r : parse_expr e ts = POk x r -> g_expr d ts r x.
Proof. apply parse_expr_f_sound. Qed.
Hint Resolve parse_expr_sound : psound.

Lemma expr_step_complete b (self : parser expr) :
  completeB e b (g_expr d) expr_follow self -> completeB e (S b) (g_expr d) expr_follow (expr_step self e).
Proof.
  intros Hs ts r x Hg Hb Hl Hfol. destruct Hg as [ts r1 r p post Hp Hpost]. unfold expr_step.
  assert (primary_step self e ts = POk p r1 /\ length r1 < length ts) as [-> Hl1].
  { unfold primary_step.
    destruct Hp as [ts q1 q2 q3 q4 r1 kw pkg o c args tr Hkw Hpkg Ho Hargs Hok Hc
                   |ts q1 q2 r1 o c x Ho Hx Hc
                   |ts r1 i Hi].
    - (* new *)
      altc Hkw. tokc Hkw. destruct Hpkg as (tp & Htp & Hpk). pose proof (tok_len _ _ _ _ Htp).
      rewrite (parse_package_name_complete e q1 pkg q2) by (exists tp; auto). cbn [bind]. tokc Ho.
      apply g_args_seplist in Hargs.
      destruct (delim_loop_complete e (g_arg d) (S b) TCloseBrace inst_arg_first (parse_inst_arg self e) g_arg_starts
                  (parse_inst_arg_complete b self Hs) eq_refl ltac:(discriminate) _ _ _ Hargs) as [Hd Hl2];
        [lia|lia|eapply tok_peek; eauto|].
      unfold delimited. rewrite Hd by lia. cbn [bind]. fold d. rewrite Hok. tokc Hc. split; [reflexivity|lia].
    - (* nested *)
      altc Ho. tokc Ho.
      destruct (Hs _ _ _ Hx) as [-> Hl2]; [lia|lia|eapply next_is_expr_follow; [eapply tok_peek; eauto|discriminate..]|].
      cbn [bind]. tokc Hc. split; [reflexivity|lia].
    - (* id *) altc Hi. idc Hi. split; [reflexivity|lia]. }
  cbn [bind]. destruct (postfix_loop_complete _ _ _ Hpost Hfol (fuel e)) as [-> Hl2]; [lia|]. split; [reflexivity|lia].
Qed.

Lemma parse_expr_f_complete f : completeB e f (g_expr d) expr_follow (parse_expr_f f e).
Proof. induction f as [|f IH]; [intros ts r x _ Hb; lia|]. cbn [parse_expr_f]. now apply expr_step_complete. Qed.

Lemma parse_expr_complete : complete e (g_expr d) expr_follow (parse_expr e).
Proof. apply completeB_fuel, parse_expr_f_complete. Qed.

Lemma parse_extern_name_sound ts x r : parse_extern_name e ts = POk x r -> g_extern_name ts r x.
Proof. unfold parse_extern_name. intros H. altinv H; sall; constructor; eauto with psound. Qed.
Hint Resolve parse_extern_name_sound : psound.

Lemma parse_extern_name_complete ts x r : g_extern_name ts r x -> parse_extern_name e ts = POk x r /\ length ts = S (length r).
Proof.
  destruct 1 as [ts r i (t & Ht & ->)|ts r s (t & Ht & Hs)]; (split; [|eapply tok_len; eauto]); unfold parse_extern_name; altc Ht.
  - rewrite (parse_ident_complete e ts (mk_ident t) r) by (exists t; auto). reflexivity.
  - rewrite (parse_string_complete e ts s r) by (exists t; auto). reflexivity.
Qed.

Lemma parse_import_type_sound ts x r : parse_import_type e ts = POk x r -> g_import_type d ts r x.
Proof.
  unfold parse_import_type. intros H. altinv H; sall; constructor; eauto with psound.
Qed.
Hint Resolve parse_import_type_sound : psound.

Lemma parse_import_type_complete : complete e (g_import_type d) semi_follow (parse_import_type e).
Proof.
  intros ts r x Hg Hl Hf.
  destruct Hg as [ts r p (t & Ht & Hp)|ts r f Hfn|ts r b Hb|ts r i Hi]; unfold parse_import_type.
  - pose proof (tok_len _ _ _ _ Ht). altc Ht. rewrite (parse_package_path_complete e ts p r) by (exists t; auto).
    split; [reflexivity|lia].
  - destruct (parse_func_type_complete _ _ _ Hfn Hl Hf) as [Hp Hl2].
    altc_by g_func_type_starts Hfn. rewrite Hp. split; [reflexivity|exact Hl2].
  - destruct (parse_inline_interface_complete _ _ _ Hb Hl I) as [Hp Hl2].
    altc_by g_inline_interface_starts Hb. rewrite Hp. split; [reflexivity|exact Hl2].
  - altc Hi. idc Hi. split; [reflexivity|lia].
Qed.

Lemma parse_export_options_sound ts x r : parse_export_options e ts = POk x r -> g_export_options ts r x.
Proof.
  unfold parse_export_options. intros H. sall.
  - constructor; eauto with psound.
  - eapply geo_rename; eauto with psound.
  - constructor.
Qed.
Hint Resolve parse_export_options_sound : psound.

Lemma parse_export_options_complete ts x r :
  g_export_options ts r x -> semi_follow r -> parse_export_options e ts = POk x r /\ length r <= length ts.
Proof.
  intros Hg Hf. destruct Hg as [ts|ts r el Hel|ts r1 r kw n Hkw Hn]; unfold parse_export_options.
  - rewrite !peek_in_false_semi by (auto; reflexivity). split; [reflexivity|lia].
  - rewrite (tok_peek_in _ _ _ _ _ Hel). cbn [mem_tok orb]. tokc Hel. split; [reflexivity|lia].
  - rewrite !(tok_peek_in _ _ _ _ _ Hkw). cbn [mem_tok orb]. tokc Hkw.
    destruct (parse_extern_name_complete _ _ _ Hn) as [-> Hl2]. split; [reflexivity|lia].
Qed.

Lemma parse_statement_sound ts x r : parse_statement e ts = POk x r -> g_statement d ts r x.
Proof.
  unfold parse_statement. intros H. altinv H; sall.
  - unfold parse_import_statement in H. sall.
    match goal with Hx : parse_optional _ _ _ = _ |- _ => eapply parse_optional_ok in Hx; [|apply parse_extern_name_sound] end.
    eapply gs_import; eauto with psound.
  - unfold parse_let_statement in H. sall.
eapply gs_let; eauto with psound.
  - unfold parse_export_statement in H. sall. eapply gs_export; eauto with psound.
  - constructor; eauto with psound.
Qed.
Hint Resolve parse_statement_sound : psound.

Lemma parse_statement_complete : complete e (g_statement d) (fun _ => True) (parse_statement e).
Proof.
  intros ts r x Hg Hl _. destruct Hg; unfold parse_statement.
  - (* import *)
    altc H. unfold parse_import_statement. tokc H. idc H0.
    assert (parse_optional TAsKeyword (parse_extern_name e) r2 = POk name r3 /\ length r3 <= length r2) as [-> Hl3].
    { destruct H1 as [ts0|ts0 r6 r7 a n Ha Hn].
      - split; [|lia]. apply parse_optional_none. eapply tok_not_next; eauto; discriminate.
      - pose proof (tok_len _ _ _ _ Ha). destruct (parse_extern_name_complete _ _ _ Hn) as [Hp Hl2]. split; [|lia].
        erewrite parse_optional_some; eauto. }
    cbn [bind]. tokc H2. destruct (parse_import_type_complete _ _ _ H3) as [-> Hl2]; [lia|eapply tok_peek; eauto|].
    cbn [bind]. tokc H4. split; [reflexivity|lia].
  - (* type statement *)
    destruct (parse_type_statement_complete _ _ _ H Hl I) as [Hp Hl2].
    altc_by g_type_statement_starts H. rewrite Hp. split; [reflexivity|exact Hl2].
  - (* let *)
    altc H. unfold parse_let_statement. tokc H. idc H0. tokc H1.
    destruct (parse_expr_complete _ _ _ H2) as [-> Hl2];
      [lia|eapply next_is_expr_follow; [eapply tok_peek; eauto|discriminate..]|].
    cbn [bind]. tokc H3. split; [reflexivity|lia].
  - (* export *)
    altc H. unfold parse_export_statement. tokc H.
    destruct (parse_expr_complete _ _ _ H0) as [-> Hl2]; [lia| |].
    { destruct H1 as [ts0|ts0 r6 el Hel|ts0 r6 r7 kw0 n Hkw0 Hn];
        (eapply next_is_expr_follow; [eapply tok_peek; eauto|discriminate..]). }
    cbn [bind]. destruct (parse_export_options_complete _ _ _ H1) as [-> Hl3]; [eapply tok_peek; eauto|].
    cbn [bind]. tokc H2. split; [reflexivity|lia].
Qed.

Lemma statements_loop_sound n : forall ts ss r, statements_loop n e ts = POk ss r -> many (g_statement d) ts r ss /\ r = [].
Proof.
  induction n as [|n IH]; intros ts ss r; cbn [statements_loop]; [discriminate|].
  destruct ts as [|x ts].
  - intros H. sall. split; [constructor|reflexivity].
  - intros H. sall. match goal with Hx : statements_loop _ _ _ = _ |- _ => apply IH in Hx; destruct Hx as [Hx ->] end.
    split; [econstructor; eauto with psound|reflexivity].
Qed.

Lemma statements_loop_complete ts ss :
  many (g_statement d) ts [] ss -> length ts < fuel e ->
  forall n, length ts < n -> statements_loop n e ts = POk ss [].
Proof.
  intros Hm. remember [] as r eqn:Er. induction Hm as [ts|ts r1 r a l Ha Hm IH]; intros Hl n Hn;
    (destruct n as [|n]; [lia|]); cbn [statements_loop].
  - subst. reflexivity.
  - destruct (parse_statement_complete _ _ _ Ha Hl I) as [Hp Hl2].
    destruct ts as [|x ts]; [cbn in Hl2; lia|]. rewrite Hp. cbn [bind].
    rewrite (IH Er) by (cbn in *; lia). reflexivity.
Qed.

Lemma parse_directive_sound ts x r : parse_directive e ts = POk x r -> g_package_decl ts r x.
Proof.
  unfold parse_directive. intros H. sall.
  match goal with Hx : parse_optional _ _ _ = _ |- _ => eapply parse_optional_ok in Hx; [|apply parse_package_path_sound] end.
  red. gsolve.
Qed.
Hint Resolve parse_directive_sound : psound.

Lemma parse_directive_complete ts x r :
  g_package_decl ts r x -> parse_directive e ts = POk x r /\ length r < length ts.
Proof.
  intros (r1 & r2 & r3 & kw & p & t & s & Hkw & Hp & Ht & Hs & ->). unfold parse_directive. tokc Hkw.
  destruct Hp as (tp & Htp & Hpn). pose proof (tok_len _ _ _ _ Htp).
  rewrite (parse_package_name_complete e r1 p r2) by (exists tp; auto). cbn [bind].
  assert (parse_optional TTargetsKeyword (parse_package_path e) r2 = POk t r3 /\ length r3 <= length r2) as [-> Hl3].
  { destruct Ht as [ts0|ts0 r6 r7 a n Ha (tq & Htq & Hq)].
    - split; [|lia]. apply parse_optional_none. eapply tok_not_next; eauto; discriminate.
    - pose proof (tok_len _ _ _ _ Ha). pose proof (tok_len _ _ _ _ Htq). split; [|lia].
      erewrite parse_optional_some; [reflexivity|exact Ha|]. apply parse_package_path_complete. exists tq; auto. }
  cbn [bind]. tokc Hs. split; [reflexivity|lia].
Qed.

Lemma parse_document_items_sound ts x r : parse_document_items e ts = POk x r -> g_document d ts r x /\ r = [].
Proof.
  unfold parse_document_items. intros H. sall.
  match goal with Hx : statements_loop _ _ _ = _ |- _ => apply statements_loop_sound in Hx; destruct Hx as [Hx _] end.
  split; [|reflexivity]. red. gsolve.
Qed.
Hint Resolve parse_document_items_sound : psound.

Lemma parse_document_items_complete ts x :
  g_document d ts [] x -> length ts < fuel e -> parse_document_items e ts = POk x [].
Proof.
  intros (r1 & pd & ss & Hpd & Hss & ->) Hl. destruct (parse_directive_complete _ _ _ Hpd) as [Hp Hl2].
  unfold parse_document_items. rewrite Hp. cbn [bind].
  rewrite (statements_loop_complete _ _ Hss) by lia. reflexivity.
Qed.

End Productions.
