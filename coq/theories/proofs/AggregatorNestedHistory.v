(** Histories of NESTED instance contributions: the invariant [NestInv] and its preservation by one aggregation
    ([NestInv_step]); the C09 statements are derived from it in AggregatorNestedTheorems.v.

    A nested contribution is an import name with [KInstance i] where [i] is the root of a nest of interfaces of the
    contributor's collection ([SIDen]): no uses, pairwise different export names, leaves are resource-free functions, values
    and value types, inner interfaces are anonymous; the root has no identifier or the import name as identifier.  One
    interface may be mentioned in several places of one contribution and by several contributions (the repaired aggregator
    copies an anonymous interface once per mention), and one contribution may occur several times in a history.

    [NestInv a s done]: every import of [a] is the root of such a tree in the aggregator's collection; the trees of
    different imports are disjoint ([n_roots], the ownership part: a merged nested interface has exactly one parent); and the
    tree of import [n] is the left-to-right [tmerge] of the trees of the contributions whose canonical name is [n], in the
    order in which they arrived ([MergedOf], the semantic part: recursively the first-seen union). *)
From Coq Require Import ZArith Lia Permutation.
From WacV Require Import Str Names NamesSpec Types Checker SubSpec CheckerEq SubSpecProofs CheckerValue CheckerProofs.
From WacV Require Import Aggregator AggregatorSpec AggregatorFrame AggregatorRemap AggregatorChecker AggregatorNames
     AggregatorCanonical AggregatorFlat AggregatorHistory NamesProofs
     AggregatorNestedSpec AggregatorNestedDen AggregatorNestedRemap AggregatorNestedMerge StrFacts.

Lemma id_dec (a b : id) : {a = b} + {a <> b}.
Proof. decide equality; [apply Nat.eq_dec | apply N.eq_dec]. Qed.

(** the canonical name after a higher version took an import over *)
Lemma canon_high keys rd names name en n0 :
  NInv keys rd names -> In en keys ->
  canon (ins en name (map (retarget en name) rd)) n0 = if str_eqb (canon rd n0) en then name else canon rd n0.
Proof.
  intros I Hen. unfold canon. destruct (str_eqb en n0) eqn:E.
  - apply str_eqb_eq in E. subst n0. rewrite assoc_ins_same.
    assert (assoc en rd = None) as ->.
    { destruct (assoc en rd) eqn:X; auto. apply (ni_rd _ _ _ I) in X. tauto. }
    now rewrite str_eqb_refl.
  - assert (N : en <> n0) by (intros ->; rewrite str_eqb_refl in E; discriminate).
    rewrite assoc_ins_other by auto. rewrite assoc_map_retarget. destruct (assoc n0 rd) as [b|]; auto.
    destruct (str_eqb n0 en) eqn:E2; auto. apply str_eqb_eq in E2. congruence.
Qed.

Lemma find_compat_in {V} name (l : list (str * V)) en v :
  find_compat name l = Some (en, v) -> In (en, v) l /\ compat name en = true.
Proof. intros H. destruct (find_compat_some _ _ _ _ H) as [Hin T]. split; [exact Hin|now apply on_track_compat]. Qed.

Section NHist.
  Variable ord : list (str * id) -> list (str * id).
  Hypothesis ord_incl : forall l x, In x (ord l) -> In x l.
  Variables (cf fuel : nat).
  Variable Col : types -> Prop.
  Hypothesis Col_same : forall t1 t2, Col t1 -> Col t2 -> t_tag t1 = t_tag t2 -> t1 = t2.
  Variable tag0 : N.
  Hypothesis Col_tag : forall t, Col t -> t_tag t <> tag0.

  Notation contrib := (str * (types * kind))%type.
  Notation MI := (MInv Col tag0).

  (** contribution [c] requires the tree [tr] and uses the interfaces [ids] of its collection *)
  Definition ncontrib (c : contrib) (tr : tree) (ids : list id) : Prop :=
    Col (fst (snd c)) /\ owner_free (fst (snd c)) /\
    exists d i oid e, snd (snd c) = KInstance i /\ SIDen d (fst (snd c)) i oid e ids /\ tr = XInst e /\
                      (oid = None \/ oid = Some (fst c)).
  Definition nested_contrib (c : contrib) : Prop := exists tr ids, ncontrib c tr ids.
  Lemma ncontrib_wt c tr ids : ncontrib c tr ids -> exists d, wt d tr.
  Proof. intros [_ [_ [d [i [oid [e [_ [ID [-> _]]]]]]]]]. exists (S d). eapply IDen_wt; eauto. Qed.
  Lemma ncontrib_unf c tr ids : ncontrib c tr ids -> UnfK (fst (snd c)) (snd (snd c)) tr.
  Proof. intros [_ [_ [d [i [oid [e [-> [ID [-> _]]]]]]]]]. eapply IDen_unf; eauto. Qed.
  Lemma ncontrib_det c tr ids tr' ids' : ncontrib c tr ids -> ncontrib c tr' ids' -> tr = tr'.
  Proof. intros H1 H2. eapply UnfK_det; eapply ncontrib_unf; eauto. Qed.

  (** the merged requirement of a list of contributions (latest first) *)
  Inductive MergedOf : list contrib -> tree -> Prop :=
  | MO_one c tr ids : ncontrib c tr ids -> MergedOf [c] tr
  | MO_cons c cs ta tb ids tm : MergedOf cs ta -> ncontrib c tb ids -> tmerge ta tb = Some tm -> MergedOf (c :: cs) tm.

  Lemma wt_common d1 d2 a b : wt d1 a -> wt d2 b -> wt (Nat.max d1 d2) a /\ wt (Nat.max d1 d2) b.
  Proof. intros H1 H2. split; [apply (wt_mono d1)|apply (wt_mono d2)]; auto; lia. Qed.
  Lemma MergedOf_wt cs tm : MergedOf cs tm -> exists d, wt d tm.
  Proof.
    induction 1 as [c tr ids Hc | c cs ta tb ids tm _ [d1 W1] Hc Hm]; [eapply ncontrib_wt; eauto|].
    destruct (ncontrib_wt _ _ _ Hc) as [d2 W2]. destruct (wt_common _ _ _ _ W1 W2) as [Wa Wb].
    exists (Nat.max d1 d2). now destruct (tmerge_upper _ _ _ _ Wa Wb Hm).
  Qed.
  Lemma MergedOf_upper cs tm : MergedOf cs tm ->
    forall c tr ids, In c cs -> ncontrib c tr ids -> forall z, SubCM tr z -> SubCM tm z.
  Proof.
    induction 1 as [c0 tr0 ids0 Hc0 | c0 cs ta tb ids0 tm HM IH Hc0 Hm]; intros c tr ids Hin Hc z Hz.
    - destruct Hin as [<-|[]]. now rewrite (ncontrib_det _ _ _ _ _ Hc0 Hc).
    - destruct (MergedOf_wt _ _ HM) as [d1 W1]. destruct (ncontrib_wt _ _ _ Hc0) as [d2 W2].
      destruct (wt_common _ _ _ _ W1 W2) as [Wa Wb]. destruct (tmerge_upper _ _ _ _ Wa Wb Hm) as [_ [_ [_ [Ma Mb]]]].
      destruct Hin as [<-|Hin].
      + apply Mb. now rewrite (ncontrib_det _ _ _ _ _ Hc0 Hc).
      + apply Ma. eapply IH; eauto.
  Qed.
  Lemma MergedOf_below cs tm c tr ids : MergedOf cs tm -> In c cs -> ncontrib c tr ids -> SubCM tm tr.
  Proof.
    intros M Hin Hc. destruct (ncontrib_wt _ _ _ Hc) as [d W]. exact (MergedOf_upper _ _ M c tr ids Hin Hc tr (wt_sub_refl _ _ W)).
  Qed.
  Lemma MergedOf_glb cs tm : MergedOf cs tm ->
    forall z, (forall c tr ids, In c cs -> ncontrib c tr ids -> SubCM z tr) -> SubCM z tm.
  Proof.
    induction 1 as [c0 tr0 ids0 Hc0 | c0 cs ta tb ids0 tm HM IH Hc0 Hm]; intros z Hz.
    - apply (Hz c0 tr0 ids0); auto. now left.
    - destruct (MergedOf_wt _ _ HM) as [d1 W1]. destruct (ncontrib_wt _ _ _ Hc0) as [d2 W2].
      destruct (wt_common _ _ _ _ W1 W2) as [Wa Wb]. apply (tmerge_glb _ _ _ _ z Wa Wb Hm).
      + apply IH. intros c tr ids Hin. apply Hz. now right.
      + apply (Hz c0 tb ids0); auto. now left.
  Qed.
  Lemma MergedOf_nonempty cs tm : MergedOf cs tm -> cs <> [].
  Proof. destruct 1; discriminate. Qed.

  Definition on_import (rd : list (str * str)) (n : str) (c : contrib) : bool := str_eqb (canon rd (fst c)) n.

  Record NestInv (a : agg) (s : st) (done : list contrib) : Prop := {
    n_names : NInv (map fst (a_imports a)) (a_redirects a) (map fst done);
    n_minv : MI (core_of a s);
    n_roots : exists rown : str -> list id,
        (forall n k, In (n, k) (a_imports a) ->
                     exists y oid e d, k = KInstance y /\ IDen d (a_types a) y oid e (rown n) /\
                                       MergedOf (filter (on_import (a_redirects a) n) done) (XInst e)) /\
        (forall n m j, In n (map fst (a_imports a)) -> In m (map fst (a_imports a)) -> n <> m ->
                       In j (rown n) -> ~ In j (rown m));
    n_ifaces : forall n1 y1, In (n1, y1) (a_ifaces a) -> In n1 (map fst done);
    n_ifkeys : forall i v, rm_get (TInterface i) (a_remapped a) = Some v ->
                           exists c tr ids, In c done /\ ncontrib c tr ids /\ In i ids }.

  Lemma NestInv_nil : NestInv (agg0 tag0) st0 [].
  Proof.
    split; cbn; try tauto; try discriminate.
    - apply NInv_nil.
    - split; cbn; auto; intros ? ? H; try discriminate; contradiction.
    - exists (fun _ => []). split; [intros ? ? []|intros ? ? ? []].
  Qed.

  (** no contributed name is on the track of a name that is neither an import nor compatible with one *)
  Lemma no_name_on_track imports rd names name :
    NInv (map fst imports) rd names ->
    assoc name imports = None -> find_compat name (imports : list (str * kind)) = None ->
    forall n1, In n1 names -> compat n1 name = true -> False.
  Proof.
    intros I0 Ea Ef n1 Hn1 C. pose proof (ni_total _ _ _ I0 n1 Hn1) as Hk. pose proof (canon_compat _ _ _ n1 I0) as Cc.
    set (k := canon rd n1) in *.
    assert (Ck : compat name k = true) by (rewrite compat_sym in C; apply (compat_trans _ _ _ C Cc)).
    destruct (str_eqb name k) eqn:E.
    - apply str_eqb_eq in E. subst k. rewrite <- E in Hk. apply assoc_none_keys in Ea. contradiction.
    - apply str_eqb_neq in E. destruct (compat_on_track _ _ Ck E) as [ak [nv [ev [An Ae]]]].
      unfold find_compat in Ef. rewrite An in Ef. apply in_keys_assoc in Hk as [v Hv]. apply assoc_in in Hv.
      now apply (find_on_track_none _ _ Ef k v ak ev Hv Ae).
  Qed.
  Lemma no_iface_on_track_n imports rd names ifaces name :
    NInv (map fst imports) rd names -> (forall n1 (y1 : id), In (n1, y1) ifaces -> In n1 names) ->
    assoc name imports = None -> find_compat name (imports : list (str * kind)) = None ->
    assoc name ifaces = None /\ find_compat name (ord ifaces) = None.
  Proof.
    intros I0 Hif Ea Ef. pose proof (no_name_on_track imports rd names name I0 Ea Ef) as Hno.
    split.
    - destruct (assoc name ifaces) as [y1|] eqn:E; auto. exfalso.
      apply (Hno name); [apply (Hif name y1 (assoc_in _ _ _ E)) | apply compat_refl].
    - destruct (find_compat name (ord ifaces)) as [[n1 y1]|] eqn:E; auto. exfalso.
      apply find_compat_in in E as [Hin C]. apply (Hno n1); [apply (Hif n1 y1), ord_incl, Hin | now rewrite compat_sym].
  Qed.

  (** merging a nested contribution into the import rooted at [y] *)
  Lemma nmerge_into a s done t i d oid eb ids y oidr e d0 idsr cc :
    NestInv a s done -> Col t -> SIDen d t i oid eb ids ->
    IDen d0 (a_types a) y oidr e idsr ->
    merge_item_kind ord cf fuel (KInstance y) t (KInstance i) (core_of a s) = AOk (tt, cc) ->
    exists em idsr' d1, tmerge (XInst e) (XInst eb) = Some (XInst em) /\ IDen d1 (c_types cc) y oidr em idsr' /\
       MI cc /\ MFrame idsr (core_of a s) cc /\ rm_frame ids (core_of a s) cc /\
       (forall j, In j idsr' -> In j idsr \/ (length (t_interfaces (a_types a)) <= id_idx j)%nat).
  Proof using Col_same Col_tag.
    intros HI Ct IDc IDr H. cbn [merge_item_kind] in H.
    destruct (ML_all ord cf Col Col_same tag0 Col_tag t Ct (Nat.max d d0) fuel y oidr e idsr i oid eb ids (core_of a s) cc
                     (n_minv _ _ _ HI) (IDen_mono _ _ _ _ _ _ _ (Nat.le_max_r d d0) IDr)
                     (IDen_mono _ _ _ _ _ _ _ (Nat.le_max_l d d0) IDc) H)
      as [em [idsr' [[n Hn] [ID' [I' [Fr [Rm Sub]]]]]]].
    exists em, idsr', (Nat.max d d0). split; [|auto 6].
    apply (tmerge_complete (S n)). cbn [tmerge_f]. now rewrite Hn.
  Qed.

  Lemma NestInv_assemble a s done c tr ids cc im rd' (rown' : str -> list id) :
    NestInv a s done -> ncontrib c tr ids ->
    NInv (map fst im) rd' (fst c :: map fst done) -> MI cc ->
    rm_frame ids (core_of a s) cc ->
    (forall n1 y1, In (n1, y1) (c_ifaces cc) -> In n1 (fst c :: map fst done)) ->
    (forall n k, In (n, k) im -> exists y oid e d, k = KInstance y /\ IDen d (c_types cc) y oid e (rown' n) /\
                                     MergedOf (filter (on_import rd' n) (c :: done)) (XInst e)) ->
    (forall n m j, In n (map fst im) -> In m (map fst im) -> n <> m -> In j (rown' n) -> ~ In j (rown' m)) ->
    NestInv (agg_of cc im rd') (c_chk cc) (c :: done).
  Proof.
    intros HI Hc I' M Rm Hif Hroots Hdisj. split; cbn [a_imports a_redirects a_types a_remapped a_ifaces agg_of map fst].
    - exact I'.
    - now apply MInv_core_of.
    - exists rown'. split; auto.
    - exact Hif.
    - intros i0 v Hv. destruct (in_dec id_dec i0 ids) as [Hin|Hnin].
      + exists c, tr, ids. split; [now left|auto].
      + rewrite (Rm i0 Hnin) in Hv. destruct (n_ifkeys _ _ _ HI i0 v Hv) as [c0 [tr0 [ids0 [X Y]]]].
        exists c0, tr0, ids0. split; [now right|exact Y].
  Qed.

  Lemma filter_cons_true {A} (f : A -> bool) x l : f x = true -> filter f (x :: l) = x :: filter f l.
  Proof. intros E. cbn [filter]. now rewrite E. Qed.
  Lemma filter_cons_false {A} (f : A -> bool) x l : f x = false -> filter f (x :: l) = filter f l.
  Proof. intros E. cbn [filter]. now rewrite E. Qed.
  Lemma filter_none {A} (f : A -> bool) l : (forall x, In x l -> f x = false) -> filter f l = [].
  Proof. induction l as [|x l IH]; intros H; auto. rewrite filter_cons_false; [apply IH; intros; apply H; now right | apply H; now left]. Qed.
  (* the shape of hypothesis [Him] of [NestInv_merged] at [key = en], hence [n <> en] twice *)
  Lemma import_cases (im : list (str * kind)) en ek :
    NoDup (map fst im) -> assoc en im = Some ek ->
    forall n k, In (n, k) im -> (n = en /\ k = ek) \/ (n <> en /\ n <> en /\ In (n, k) im).
  Proof.
    intros ND E n k Hin. destruct (str_eqb n en) eqn:En.
    - apply str_eqb_eq in En. subst n. left. split; auto. apply (in_assoc _ _ _ ND) in Hin. congruence.
    - apply str_eqb_neq in En. auto.
  Qed.

  (** [key]: the name of the import [en] after the step ([en], or the contributed name when that is the higher version) *)
  Lemma NestInv_merged a s done name t i tr ids en ek cc im rd' key :
    NestInv a s done -> ncontrib (name, (t, KInstance i)) tr ids ->
    In (en, ek) (a_imports a) ->
    merge_item_kind ord cf fuel ek t (KInstance i) (core_of a s) = AOk (tt, cc) ->
    NInv (map fst im) rd' (name :: map fst done) ->
    (forall n k, In (n, k) im -> (n = key /\ k = ek) \/ (n <> key /\ n <> en /\ In (n, k) (a_imports a))) ->
    key = en \/ ~ In key (map fst (a_imports a)) ->
    canon rd' name = key ->
    (forall n0, In n0 (map fst done) ->
                canon rd' n0 = if str_eqb (canon (a_redirects a) n0) en then key else canon (a_redirects a) n0) ->
    NestInv (agg_of cc im rd') (c_chk cc) ((name, (t, KInstance i)) :: done).
  Proof.
    intros HI Hc Hin Hm I' Him Hkey Hcn Hcan.
    pose proof Hc as [Ct [_ [d [i0 [oid [eb [Ek [IDc [-> _]]]]]]]]]. cbn [fst snd] in Ct, Ek, IDc. injection Ek as <-.
    pose proof (n_names _ _ _ HI) as I0. destruct (n_roots _ _ _ HI) as [rown [Hroots Hrdisj]].
    destruct (Hroots en ek Hin) as [y [oidr [e [d0 [-> [IDr MO]]]]]].
    destruct (nmerge_into a s done t i d oid eb ids y oidr e d0 (rown en) cc HI Ct IDc IDr Hm)
      as [em [idsr' [d1 [Htm [ID' [M [Fr [Rm Sub]]]]]]]].
    assert (Hkeys : forall n k, In (n, k) (a_imports a) -> In n (map fst (a_imports a))).
    { intros n k Hnk. change n with (fst (n, k)). now apply in_map. }
    apply (NestInv_assemble a s done (name, (t, KInstance i)) (XInst eb) ids cc im rd' (upd rown key idsr')); auto.
    - intros n1 y1 Hin1. rewrite (mf_ifaces _ _ _ Fr) in Hin1. right. exact (n_ifaces _ _ _ HI n1 y1 Hin1).
    - intros n k Hnk. destruct (Him n k Hnk) as [[-> ->]|[Nk [Nen Hold]]].
      + exists y, oidr, em, d1. rewrite upd_same. split; [reflexivity|]. split; [exact ID'|].
        rewrite filter_cons_true by (unfold on_import; cbn [fst]; rewrite Hcn; apply str_eqb_refl).
        rewrite (filter_ext_in (on_import rd' key) (on_import (a_redirects a) en) done); [eapply MO_cons; eauto|].
        intros c0 Hc0. unfold on_import. rewrite (Hcan _ (in_map fst _ _ Hc0)).
        destruct (str_eqb (canon (a_redirects a) (fst c0)) en) eqn:E; [apply str_eqb_refl|]. apply str_eqb_neq. apply str_eqb_neq in E.
        intros X. destruct Hkey as [->|Hk]; [contradiction|]. apply Hk. rewrite <- X. apply (ni_total _ _ _ I0). now apply in_map.
      + destruct (Hroots n k Hold) as [y0 [oid0 [e0 [d2 [-> [ID0 MO0]]]]]]. exists y0, oid0, e0, d2. rewrite upd_other by auto.
        split; [reflexivity|]. split.
        * eapply IDen_frame; [apply Fr| |exact ID0]. intros j z Hj. apply (mf_other _ _ _ Fr). apply (Hrdisj n en j); eauto.
        * rewrite filter_cons_false by (unfold on_import; cbn [fst]; rewrite Hcn; apply str_eqb_neq; auto).
          rewrite (filter_ext_in (on_import rd' n) (on_import (a_redirects a) n) done); [exact MO0|].
          intros c0 Hc0. unfold on_import. rewrite (Hcan _ (in_map fst _ _ Hc0)).
          destruct (str_eqb (canon (a_redirects a) (fst c0)) en) eqn:E; [|reflexivity]. apply str_eqb_eq in E. rewrite E.
          rewrite (proj2 (str_eqb_neq key n)), (proj2 (str_eqb_neq en n)); auto.
    - apply (disj_upd (fun j => length (t_interfaces (a_types a)) <= id_idx j)%nat rown (map fst (a_imports a)) (map fst im) key en idsr');
        auto.
      + intros n Hn Nk. destruct (in_keys_assoc _ _ Hn) as [k Hk]. apply assoc_in in Hk.
        destruct (Him n k Hk) as [[-> _]|[_ [Nen Hold]]]; [contradiction|eauto].
      + intros j Hj. destruct (Sub j Hj); eauto.
      + intros n j Hn Hj X. destruct (in_keys_assoc _ _ Hn) as [k Hk]. apply assoc_in in Hk.
        destruct (Hroots n k Hk) as [y0 [oid0 [e0 [d2 [_ [ID0 _]]]]]]. pose proof (IDen_lt _ _ _ _ _ _ ID0 j Hj). lia.
  Qed.

  (** A recorded interface with an identifier is the root of an earlier contribution of that name, and that would have made
      the name an import (or compatible with one). *)
  Lemma root_unrecorded a s done name t i d oid eb ids :
    NestInv a s done -> Col t -> SIDen d t i oid eb ids -> oid = None \/ oid = Some name ->
    assoc name (a_imports a) = None -> find_compat name (a_imports a) = None ->
    forall nm, oid = Some nm ->
      assoc nm (a_ifaces a) = None /\ find_compat nm (ord (a_ifaces a)) = None /\ rm_get (TInterface i) (a_remapped a) = None.
  Proof.
    intros HI Ct IDc Hoid Ea Ef nm Hnm. pose proof (n_names _ _ _ HI) as I0.
    destruct Hoid as [X|X]; [congruence|]. assert (nm = name) as -> by congruence.
    destruct (no_iface_on_track_n (a_imports a) (a_redirects a) (map fst done) (a_ifaces a) name I0 (n_ifaces _ _ _ HI) Ea Ef) as [L1 L2].
    split; [exact L1|]. split; [exact L2|].
    destruct (rm_get (TInterface i) (a_remapped a)) as [v|] eqn:Xr; auto. exfalso.
    destruct (n_ifkeys _ _ _ HI _ _ Xr) as [c0 [tr0 [ids0 [Hin0 [Hc0 Hj0]]]]].
    destruct Hc0 as [Ct0 [_ [d0 [i0 [oid0 [e0 [_ [ID0 [_ Hoid0]]]]]]]]]. destruct (IDen_lt _ _ _ _ _ _ ID0 _ Hj0) as [Tg0 _].
    destruct (IDen_root _ _ _ _ _ _ IDc) as [_ [x [Hgx Hix]]].
    assert (Et : fst (snd c0) = t).
    { apply Col_same; auto. rewrite <- Tg0. now destruct (get_if_lt _ _ _ Hgx). }
    rewrite Et in ID0.
    destruct (IDen_anon _ _ _ _ _ _ ID0 i Hj0) as [->|[x' [Hgx' Hix']]]; [|rewrite Hgx in Hgx'; congruence].
    destruct (IDen_root _ _ _ _ _ _ ID0) as [_ [x0 [Hgx0 Hix0]]]. rewrite Hgx in Hgx0. injection Hgx0 as <-.
    assert (E0 : fst c0 = name) by (destruct Hoid0; congruence).
    apply (no_name_on_track (a_imports a) (a_redirects a) (map fst done) name I0 Ea Ef name);
      [rewrite <- E0; now apply in_map | apply compat_refl].
  Qed.

  Lemma NestInv_new a s done name t i tr ids f y c1 :
    NestInv a s done -> ncontrib (name, (t, KInstance i)) tr ids ->
    assoc name (a_imports a) = None -> find_compat name (a_imports a) = None ->
    remap_interface ord cf f t i (core_of a s) = AOk (y, c1) ->
    NInv (map fst (ins name (KInstance y) (c_imports c1))) (a_redirects a) (name :: map fst done) ->
    NestInv (agg_of c1 (ins name (KInstance y) (c_imports c1)) (a_redirects a)) (c_chk c1) ((name, (t, KInstance i)) :: done).
  Proof.
    intros HI Hc Ea Ef H1 I'.
    pose proof Hc as [Ct [_ [d [i0 [oid [eb [Ek [IDc [-> Hoid]]]]]]]]]. cbn [fst snd] in Ct, Ek, IDc, Hoid. injection Ek as <-.
    pose proof (n_names _ _ _ HI) as I0. destruct (n_roots _ _ _ HI) as [rown [Hroots Hrdisj]].
    destruct (RI_all ord cf Col Col_same tag0 t Ct d f i oid eb ids (core_of a s) y c1 (n_minv _ _ _ HI) IDc
                     (root_unrecorded a s done name t i d oid eb ids HI Ct IDc Hoid Ea Ef) H1)
      as [ids' [ID' [M [E [Nw [Rm0 Hifc]]]]]].
    assert (Rm : rm_frame ids (core_of a s) c1).
    { eapply rm_frame_weaken; [|exact Rm0]. intros j Hj. destruct oid; [|destruct Hj].
      destruct Hj as [<-|[]]. now destruct (IDen_root _ _ _ _ _ _ IDc). }
    pose proof (ax_imports _ _ E) as Him. cbn [c_imports core_of] in Him. rewrite Him in I' |- *.
    assert (Hnin : ~ In name (map fst (a_imports a))) by now apply assoc_none_keys.
    pose proof (keys_ins_new name (KInstance y) _ Ea) as Hkeys.
    apply (NestInv_assemble a s done (name, (t, KInstance i)) (XInst eb) ids c1 _ (a_redirects a) (upd rown name ids')); auto.
    - intros n1 y1 Hin1. cbn [fst]. rewrite Hifc in Hin1. cbn [c_ifaces core_of] in Hin1. destruct oid as [nm|].
      + apply in_ins in Hin1 as [[-> _]|Hin1]; [|right; apply (n_ifaces _ _ _ HI n1 y1 Hin1)].
        destruct Hoid as [X|X]; [discriminate|]. injection X as ->. now left.
      + right. apply (n_ifaces _ _ _ HI n1 y1 Hin1).
    - assert (Hcn : canon (a_redirects a) name = name) by (apply (canon_key _ _ _ name I'); rewrite Hkeys; apply in_or_app; right; now left).
      intros n k Hnk. apply in_ins in Hnk as [[-> ->]|Hold].
      + exists y, oid, eb, d. rewrite upd_same. split; [reflexivity|]. split; [exact ID'|].
        rewrite filter_cons_true by (unfold on_import; cbn [fst]; rewrite Hcn; apply str_eqb_refl).
        rewrite filter_none; [eapply MO_one; eauto|]. intros c0 Hc0. unfold on_import. apply str_eqb_neq. intros X. apply Hnin.
        rewrite <- X. apply (ni_total _ _ _ I0). now apply in_map.
      + assert (Nn : n <> name) by (intros ->; apply Hnin; change name with (fst (name, k)); now apply in_map).
        destruct (Hroots n k Hold) as [y0 [oid0 [e0 [d2 [-> [ID0 MO0]]]]]]. exists y0, oid0, e0, d2. rewrite upd_other by auto.
        split; [reflexivity|]. split.
        * eapply IDen_frame; [apply E| |exact ID0]. intros j z _ Hz. now apply (AExt_get_if _ _ _ _ E).
        * rewrite filter_cons_false; auto. unfold on_import. cbn [fst]. rewrite Hcn. apply str_eqb_neq. auto.
    - apply (disj_upd (fun j => length (t_interfaces (a_types a)) <= id_idx j)%nat rown (map fst (a_imports a)) _ name name ids'); auto.
      + intros n Hn Nk. rewrite Hkeys in Hn. apply in_app_or in Hn as [Hn|[<-|[]]]; [auto|contradiction].
      + intros n j Hn Hj X. destruct (in_keys_assoc _ _ Hn) as [k Hk]. apply assoc_in in Hk.
        destruct (Hroots n k Hk) as [y0 [oid0 [e0 [d2 [_ [ID0 _]]]]]]. pose proof (IDen_lt _ _ _ _ _ _ ID0 j Hj). lia.
  Qed.

  Theorem NestInv_step a s done c tr ids a' s' :
    NestInv a s done -> ncontrib c tr ids ->
    aggregate ord cf fuel a s (fst c) (fst (snd c)) (snd (snd c)) = AOk (a', s') -> NestInv a' s' (c :: done).
  Proof using ord_incl Col_same Col_tag.
    intros HI Hc H. destruct c as [name [t k]]. cbn [fst snd] in *.
    pose proof Hc as [Ct [OF [d [i [oid [eb [Ek [IDc [Etr Hoid]]]]]]]]]. cbn [fst snd] in *. subst k tr.
    pose proof (n_names _ _ _ HI) as I0. pose proof (ni_nodup _ _ _ I0) as NDim.
    pose proof (NStep_preserves _ _ _ _ _ _ I0 (aggregate_NStep ord cf fuel a s name t _ a' s' OF NDim H)) as I'.
    apply aggregate_cases in H as [[existing [cc [Ea [Hm [-> ->]]]]] | [[en [ek [cc [im [rd' [Ea [Ef [Hm [Hr [-> ->]]]]]]]]]] | [k' [cc [Ea [Ef [Hm [Hh [-> ->]]]]]]]]];
      cbn [a_imports a_redirects agg_of] in I'.
    - (* the name is an import already *)
      pose proof (si_merge_item_kind ord cf t OF fuel _ _ _ _ _ Hm) as Him. unfold same_imports in Him. cbn [c_imports core_of] in Him.
      rewrite Him in I' |- *. pose proof (assoc_in_keys _ _ _ Ea) as Hkname.
      apply (NestInv_merged a s done name t i (XInst eb) ids name existing cc (a_imports a) (a_redirects a) name); auto.
      + now apply assoc_in.
      + now apply import_cases.
      + apply (canon_key _ _ _ name I0 Hkname).
      + intros n0 _. destruct (str_eqb (canon (a_redirects a) n0) name) eqn:E; [now apply str_eqb_eq in E|reflexivity].
    - (* a semver-compatible import *)
      pose proof (si_merge_item_kind ord cf t OF fuel _ _ _ _ _ Hm) as Him. unfold same_imports in Him. cbn [c_imports core_of] in Him.
      rewrite Him in Hr.
      destruct (find_compat_in _ _ _ _ Ef) as [Hin Hcompat].
      assert (Hek : assoc en (a_imports a) = Some ek) by (apply in_assoc; [exact NDim|exact Hin]).
      assert (Hnin : ~ In name (map fst (a_imports a))) by now apply assoc_none_keys.
      pose proof (assoc_in_keys _ _ _ Hek) as Hken.
      unfold rename in Hr. destruct (alt_key name) as [[ak nv]|]; [|discriminate]. destruct (alt_key en) as [[ak' ev]|]; [|discriminate].
      destruct (version_gtb nv ev).
      + (* the new name takes over *)
        rewrite Hek in Hr. injection Hr as <- <-.
        change (map (fun r : str * str => if str_eqb (snd r) en then (fst r, name) else r) (a_redirects a))
          with (map (retarget en name) (a_redirects a)) in *.
        apply (NestInv_merged a s done name t i (XInst eb) ids en ek cc _ _ name); auto.
        * intros n k Hnk. apply in_ins in Hnk as [[-> ->]|Hnk]; [now left|]. right.
          assert (Hkn : In n (map fst (rem en (a_imports a)))) by (change n with (fst (n, k)); now apply in_map).
          apply in_keys_rem in Hkn as [Hkn Nn]; [|exact NDim]. split; [intros ->; contradiction|]. split; auto. eapply in_rem; eauto.
        * apply (canon_key _ _ _ name I'). eapply assoc_in_keys. apply assoc_ins_same.
        * intros n0 _. apply (canon_high _ _ _ name en n0 I0 Hken).
      + (* the existing name stays *)
        injection Hr as <- <-.
        apply (NestInv_merged a s done name t i (XInst eb) ids en ek cc (a_imports a) _ en); auto.
        * now apply import_cases.
        * unfold canon. now rewrite assoc_ins_same.
        * intros n0 Hn0. rewrite (rename_low_track _ _ _ I0 name en ek Hnin Hek Hcompat n0 Hn0).
          destruct (str_eqb (canon (a_redirects a) n0) en) eqn:E; [now apply str_eqb_eq in E|reflexivity].
    - (* a new import *)
      destruct fuel as [|f]; [discriminate|]. cbn [remap_item_kind] in Hm.
      apply bindM_ok in Hm as [y [c1 [H1 H2]]]. apply ret_ok in H2 as [-> ->].
      now apply (NestInv_new a s done name t i (XInst eb) ids f y c1).
  Qed.
End NHist.
