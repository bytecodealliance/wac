(** Histories of FLAT contributions: the invariant that ties every contribution to the import that carries it,
    and its consequences (the merged instance offers every export of every contributor, with the contributor's tree). *)
From Coq Require Import Permutation.
From WacV Require Import Str Names NamesSpec Types Checker SubSpec CheckerEq SubSpecProofs CheckerValue CheckerProofs.
From WacV Require Import Aggregator AggregatorSpec AggregatorFrame AggregatorRemap AggregatorChecker AggregatorNames
     AggregatorCanonical AggregatorFlat NamesProofs StrFacts ListFacts.

Lemma rem_perm {V} k (v : V) l : NoDup (map fst l) -> assoc k l = Some v -> Permutation l ((k, v) :: rem k l).
Proof.
  induction l as [|[k2 v2] l IH]; cbn [assoc rem map fst]; [discriminate|]. intros ND H.
  inversion ND as [|? ? Hn ND']; subst. destruct (str_eqb k k2) eqn:E.
  - apply str_eqb_eq in E. subst k2. injection H as <-. apply Permutation_refl.
  - eapply perm_trans; [apply perm_skip, (IH ND' H)|]. apply perm_swap.
Qed.

Lemma canonical_canon a n : Aggregator.canonical a n = canon (a_redirects a) n.
Proof. reflexivity. Qed.

(** the arena index of an instance import ([0] otherwise; by [h_flat] every import is an instance) *)
Definition kidx (k : kind) : nat := match k with KInstance y => id_idx y | _ => O end.

Lemma canon_key keys rd names k : NInv keys rd names -> In k keys -> canon rd k = k.
Proof.
  intros I Hk. unfold canon. destruct (assoc k rd) as [b|] eqn:E; auto. apply (ni_rd _ _ _ I) in E. tauto.
Qed.

(** * Where the kind of a name's import goes under [rename] *)
Section Rename.
  Variables (imports : list (str * kind)) (rd : list (str * str)) (names : list str).
  Hypothesis I : NInv (map fst imports) rd names.
  Variables (name en : str) (ek : kind).
  Hypothesis Hnin : ~ In name (map fst imports).
  Hypothesis Hen : assoc en imports = Some ek.

  Let ND : NoDup (map fst imports) := ni_nodup _ _ _ I.

  Lemma rename_low_track (Hc : compat name en = true) n0 : In n0 names -> canon (ins name en rd) n0 = canon rd n0.
  Proof.
    intros Hn. unfold canon. destruct (str_eqb_spec name n0) as [<-|E].
    - rewrite assoc_ins_same.
      pose proof (ni_total _ _ _ I name Hn) as Ht. unfold canon in Ht.
      destruct (assoc name rd) as [b|] eqn:Eb; [|contradiction].
      destruct (ni_rd _ _ _ I _ _ Eb) as [_ [Hb [_ Cb]]].
      apply (ni_one _ _ _ I); auto. { eapply assoc_in_keys; eauto. }
      rewrite compat_sym in Hc. apply (compat_trans _ _ _ Hc Cb).
    - now rewrite assoc_ins_other.
  Qed.

  Lemma rename_high_track n0 : In n0 names ->
    assoc (canon (ins en name (map (retarget en name) rd)) n0) (ins name ek (rem en imports)) = assoc (canon rd n0) imports.
  Proof.
    intros Hn. pose proof (ni_total _ _ _ I n0 Hn) as Ht.
    assert (Hnr : assoc name (rem en imports) = None).
    { apply assoc_none_keys. intros X. apply in_keys_rem in X; auto. tauto. }
    assert (Hmoved : assoc name (ins name ek (rem en imports)) = assoc en imports) by (rewrite assoc_ins_same; auto).
    assert (Hother : forall c0, In c0 (map fst imports) -> c0 <> en ->
                                assoc c0 (ins name ek (rem en imports)) = assoc c0 imports).
    { intros c0 Hc0 N. rewrite assoc_ins_other; [|intros X; apply Hnin; now rewrite X]. apply assoc_rem_other. congruence. }
    unfold canon in *. destruct (str_eqb_spec en n0) as [<-|E].
    - rewrite (assoc_ins_same en).
      assert (assoc en rd = None) as ->.
      { destruct (assoc en rd) eqn:X; auto. apply (ni_rd _ _ _ I) in X. exfalso. apply X. eapply assoc_in_keys; eauto. }
      exact Hmoved.
    - rewrite (assoc_ins_other en n0) by auto. rewrite assoc_map_retarget.
      destruct (assoc n0 rd) as [b|] eqn:Eb.
      + destruct (str_eqb_spec b en) as [->|Ebe]; [exact Hmoved | now apply Hother].
      + apply Hother; auto.
  Qed.
End Rename.

Section Hist.
  Variable ord : list (str * id) -> list (str * id).
  Hypothesis ord_incl : forall l x, In x (ord l) -> In x l.
  Variables (cf fuel : nat).
  Variable Col : types -> Prop.
  Hypothesis Col_same : forall t1 t2, Col t1 -> Col t2 -> t_tag t1 = t_tag t2 -> t1 = t2.
  Variable tag0 : N.
  Hypothesis Col_tag : forall t, Col t -> t_tag t <> tag0.

  Notation contrib := (str * (types * kind))%type.
  Definition flat_contrib (c : contrib) : Prop :=
    Col (fst (snd c)) /\ owner_free (fst (snd c)) /\
    exists i x, snd (snd c) = KInstance i /\ get_if (fst (snd c)) i = Some x /\ flat_if (fst (snd c)) x /\
                (i_id x = None \/ i_id x = Some (fst c)).
  Definition ckey (c : contrib) : ty := ty_of (snd (snd c)).

  (** every export of contribution [c] is offered, with its tree, by the import its name leads to *)
  Definition carried (a : agg) (c : contrib) : Prop :=
    forall i x, snd (snd c) = KInstance i -> get_if (fst (snd c)) i = Some x ->
      exists y oid exs, assoc (Aggregator.canonical a (fst c)) (a_imports a) = Some (KInstance y) /\
                    get_if (a_types a) y = Some (mkif oid [] exs) /\
                    forall en ek tr, In (en, ek) (i_exports x) -> UnfK (fst (snd c)) ek tr ->
                                     exists k', assoc en exs = Some k' /\ UnfK (a_types a) k' tr.

  (** contribution [c] requires an export [en] with tree [tr] *)
  Definition exports_of (c : contrib) (en : str) (tr : tree) : Prop :=
    exists i x ek, snd (snd c) = KInstance i /\ get_if (fst (snd c)) i = Some x /\ In (en, ek) (i_exports x) /\
                   UnfK (fst (snd c)) ek tr.
  (** every export of every import comes from a contribution whose name leads to that import *)
  Definition justified (a : agg) (done : list contrib) : Prop :=
    forall n y oid exs, In (n, KInstance y) (a_imports a) -> get_if (a_types a) y = Some (mkif oid [] exs) ->
      forall en k' tr, assoc en exs = Some k' -> UnfK (a_types a) k' tr ->
        exists c, In c done /\ Aggregator.canonical a (fst c) = n /\ exports_of c en tr.

  Record HInv (a : agg) (s : st) (done : list contrib) : Prop := {
    h_names : NInv (map fst (a_imports a)) (a_redirects a) (map fst done);
    h_minv : MInv Col tag0 (core_of a s);
    h_flat : forall n k, In (n, k) (a_imports a) ->
                         exists y oid exs, k = KInstance y /\ get_if (a_types a) y = Some (mkif oid [] exs) /\
                                           flat_exports (a_types a) exs;
    h_ifaces : forall n1 y1, In (n1, y1) (a_ifaces a) -> In n1 (map fst done);
    h_distinct : NoDup (map (fun nk : str * kind => kidx (snd nk)) (a_imports a));
    h_ifkeys : forall i v, rm_get (TInterface i) (a_remapped a) = Some v -> In (TInterface i) (map ckey done);
    h_carried : forall c, In c done -> carried a c;
    h_just : justified a done }.

  Lemma HInv_nil : HInv (agg0 tag0) st0 [].
  Proof.
    split; cbn; try tauto; try discriminate.
    - apply NInv_nil.
    - split; cbn; auto; intros ? ? H; try discriminate; contradiction.
    - constructor.
    - intros n y oid exs [].
  Qed.

  Lemma h_flat_at a s done n y oid exs :
    HInv a s done -> In (n, KInstance y) (a_imports a) -> get_if (a_types a) y = Some (mkif oid [] exs) ->
    flat_exports (a_types a) exs.
  Proof.
    intros HI Hin Hy. destruct (h_flat _ _ _ HI _ _ Hin) as [y1 [oid1 [exs1 [Ey [Hy1 Hf1]]]]]. injection Ey as <-. congruence.
  Qed.

  Lemma get_if_tag T y z : get_if T y = Some z -> id_tag y = t_tag T /\ (id_idx y < length (t_interfaces T))%nat.
  Proof.
    unfold get_if, lookup. destruct (id_tag y =? t_tag T) eqn:E; [|discriminate]. intros H. split; [now apply N.eqb_eq|].
    apply nth_error_Some. congruence.
  Qed.
  Lemma id_eq_of y1 y2 : id_tag y1 = id_tag y2 -> id_idx y1 = id_idx y2 -> y1 = y2.
  Proof. destruct y1, y2. cbn. congruence. Qed.

  Lemma MInv_imports c im : MInv Col tag0 c -> MInv Col tag0 (with_imports c im).
  Proof. intros [A B C]. split; auto. Qed.

  (** flat interfaces of the aggregator only grow, and keep the trees of their exports *)
  Definition grows (T T' : types) : Prop :=
    forall y0 oid exs0, get_if T y0 = Some (mkif oid [] exs0) -> flat_exports T exs0 ->
      exists exs0', get_if T' y0 = Some (mkif oid [] exs0') /\ flat_exports T' exs0' /\
                    forall en k tr, assoc en exs0 = Some k -> UnfK T k tr ->
                                    exists k', assoc en exs0' = Some k' /\ UnfK T' k' tr.

  Lemma grows_unchanged T T' :
    ext T T' -> (forall j z, get_if T j = Some z -> get_if T' j = Some z) -> grows T T'.
  Proof.
    intros E Hsame y0 oid exs0 Hg Hf. exists exs0. split; [now apply Hsame|]. split; [eapply flat_exports_ext; eauto|].
    intros en k tr Ha Hu. exists k. split; auto. destruct Hf as [_ Hall]. destruct (Hall en k (assoc_in _ _ _ Ha)) as [L _].
    eapply UnfK_leaf_ext; eauto.
  Qed.

  Lemma grows_merge y c c' oid exs exs' :
    LoopSt Col tag0 y c oid exs -> LoopSt Col tag0 y c' oid exs' -> Frame y c c' ->
    (forall n k tr, assoc n exs = Some k -> UnfK (c_types c) k tr -> exists k', assoc n exs' = Some k' /\ UnfK (c_types c') k' tr) ->
    grows (c_types c) (c_types c').
  Proof.
    intros L L' Fr Old y0 oid0 exs0 Hg Hf. destruct (Nat.eq_dec (id_idx y0) (id_idx y)) as [E|N].
    - assert (y0 = y) as ->.
      { apply id_eq_of; auto. destruct (get_if_tag _ _ _ Hg) as [T0 _]. destruct (get_if_tag _ _ _ (ls_get _ _ _ _ _ _ L)) as [T1 _]. congruence. }
      rewrite (ls_get _ _ _ _ _ _ L) in Hg. injection Hg as <- <-. exists exs'. split; [apply (ls_get _ _ _ _ _ _ L')|].
      split; [apply (ls_flat _ _ _ _ _ _ L')|]. exact Old.
    - exists exs0. split; [rewrite (fr_other _ _ _ Fr); auto|]. split; [eapply flat_exports_ext; [apply Fr|exact Hf]|].
      intros en k tr Ha Hu. exists k. split; auto. destruct Hf as [_ Hall]. destruct (Hall en k (assoc_in _ _ _ Ha)) as [Lk _].
      eapply UnfK_leaf_ext; [apply Fr|auto|exact Hu].
  Qed.

  (** a contribution stays carried when its import's kind is tracked and interfaces only grow *)
  Lemma carried_step a a' c0 :
    (forall n k, In (n, k) (a_imports a) ->
                 exists y oid exs, k = KInstance y /\ get_if (a_types a) y = Some (mkif oid [] exs) /\ flat_exports (a_types a) exs) ->
    assoc (Aggregator.canonical a' (fst c0)) (a_imports a') = assoc (Aggregator.canonical a (fst c0)) (a_imports a) ->
    grows (a_types a) (a_types a') -> carried a c0 -> carried a' c0.
  Proof.
    intros Hflat Htrack Hgrow Hc i x Hk Hg. destruct (Hc i x Hk Hg) as [y [oid [exs [Ha [Hy Hex]]]]].
    destruct (Hflat _ _ (assoc_in _ _ _ Ha)) as [y1 [oid1 [exs1 [Ey [Hy1 Hf1]]]]]. injection Ey as <-.
    rewrite Hy in Hy1. injection Hy1 as <- <-.
    destruct (Hgrow y oid exs Hy Hf1) as [exs' [Hy' [Hf' Hold]]].
    exists y, oid, exs'. split; [now rewrite Htrack|]. split; auto.
    intros en ek tr Hin Hu. destruct (Hex en ek tr Hin Hu) as [k1 [A1 U1]]. apply (Hold _ _ _ A1 U1).
  Qed.

  Lemma MInv_core_of c im rd : MInv Col tag0 c -> MInv Col tag0 (core_of (agg_of c im rd) (c_chk c)).
  Proof. intros [A B C]. split; auto. Qed.

  Lemma merge_into a s done c y oid exs cc :
    HInv a s done -> flat_contrib c ->
    get_if (a_types a) y = Some (mkif oid [] exs) -> flat_exports (a_types a) exs ->
    merge_item_kind ord cf fuel (KInstance y) (fst (snd c)) (snd (snd c)) (core_of a s) = AOk (tt, cc) ->
    MInv Col tag0 cc /\ c_imports cc = a_imports a /\ grows (a_types a) (c_types cc) /\
    (forall i0, rm_get (TInterface i0) (c_remapped cc) = rm_get (TInterface i0) (a_remapped a)) /\
    c_ifaces cc = a_ifaces a /\
    exists exs', get_if (c_types cc) y = Some (mkif oid [] exs') /\
      (forall i x, snd (snd c) = KInstance i -> get_if (fst (snd c)) i = Some x ->
        forall en ek tr, In (en, ek) (i_exports x) -> UnfK (fst (snd c)) ek tr ->
                         exists k', assoc en exs' = Some k' /\ UnfK (c_types cc) k' tr) /\
      (forall en k' tr, assoc en exs' = Some k' -> UnfK (c_types cc) k' tr ->
                        (exists k, assoc en exs = Some k /\ UnfK (a_types a) k tr) \/ exports_of c en tr) /\
      (forall j, id_idx j <> id_idx y -> get_if (c_types cc) j = get_if (a_types a) j) /\
      ext (a_types a) (c_types cc).
  Proof.
    intros HI Hfc Hy Hf H. destruct Hfc as [Ct [OF [i [x [Ek [Hg [Hfl _]]]]]]]. rewrite Ek in H. cbn [merge_item_kind] in H.
    assert (L : LoopSt Col tag0 y (core_of a s) oid exs) by (split; [apply (h_minv _ _ _ HI)|exact Hy|exact Hf]).
    destruct (merge_interface_flat ord cf Col Col_same tag0 Col_tag fuel y _ i x _ cc oid exs Ct Hg Hfl L H)
      as [exs' [L' [Fr [K [New [Old Conv]]]]]].
    split; [apply (ls_inv _ _ _ _ _ _ L')|]. split; [apply (fr_imports _ _ _ Fr)|].
    split; [apply (grows_merge y _ _ oid exs exs' L L' Fr Old)|]. split; [apply (fr_noif _ _ _ Fr)|].
    split; [apply (fr_ifaces _ _ _ Fr)|].
    exists exs'. split; [apply (ls_get _ _ _ _ _ _ L')|]. split; [|split; [|split]].
    - intros i0 x0 E0 G0. rewrite Ek in E0. injection E0 as <-. rewrite Hg in G0. injection G0 as <-. exact New.
    - intros en k' tr Ha Hu. destruct (Conv en k' tr Ha Hu) as [X|[ek [Hin Hek]]]; [now left|].
      right. exists i, x, ek. auto.
    - apply (fr_other _ _ _ Fr).
    - apply (fr_ext _ _ _ Fr).
  Qed.

  Lemma kind_key_unique (im : list (str * kind)) k1 k2 y :
    NoDup (map (fun nk : str * kind => kidx (snd nk)) im) -> In (k1, KInstance y) im -> In (k2, KInstance y) im -> k1 = k2.
  Proof.
    intros ND H1 H2. pose proof (NoDup_map_inj _ _ _ _ ND H1 H2 eq_refl) as E. now injection E.
  Qed.

  Lemma HInv_assemble a s done c cc im rd' :
    HInv a s done -> NInv (map fst im) rd' (fst c :: map fst done) -> MInv Col tag0 cc ->
    grows (a_types a) (c_types cc) ->
    (forall i0 v, rm_get (TInterface i0) (c_remapped cc) = Some v ->
                  rm_get (TInterface i0) (a_remapped a) = Some v \/ TInterface i0 = ckey c) ->
    (forall n k, In (n, k) im -> exists y oid exs, k = KInstance y /\ get_if (c_types cc) y = Some (mkif oid [] exs) /\
                                                   flat_exports (c_types cc) exs) ->
    (forall n1 y1, In (n1, y1) (c_ifaces cc) -> In n1 (fst c :: map fst done)) ->
    NoDup (map (fun nk : str * kind => kidx (snd nk)) im) ->
    (forall n0, In n0 (map fst done) -> assoc (canon rd' n0) im = assoc (canon (a_redirects a) n0) (a_imports a)) ->
    carried (agg_of cc im rd') c ->
    (forall n' y0 oid exs0', In (n', KInstance y0) im -> get_if (c_types cc) y0 = Some (mkif oid [] exs0') ->
       forall en k' tr, assoc en exs0' = Some k' -> UnfK (c_types cc) k' tr ->
         (exists n0 oid0 exs0 k, In (n0, KInstance y0) (a_imports a) /\ get_if (a_types a) y0 = Some (mkif oid0 [] exs0) /\
                                 assoc en exs0 = Some k /\ UnfK (a_types a) k tr) \/
         (n' = canon rd' (fst c) /\ exports_of c en tr)) ->
    HInv (agg_of cc im rd') (c_chk cc) (c :: done).
  Proof.
    intros HI I' M G K Fl Hif D Tr Cn Hback. split; cbn [a_imports a_redirects a_types a_remapped a_ifaces agg_of map fst].
    - exact I'.
    - now apply MInv_core_of.
    - exact Fl.
    - exact Hif.
    - exact D.
    - intros i0 v Hv. destruct (K i0 v Hv) as [X|X]; [right; apply (h_ifkeys _ _ _ HI _ _ X) | left; now rewrite X].
    - intros c0 [<-|Hc0]; [exact Cn|].
      apply (carried_step a); [apply (h_flat _ _ _ HI) | | exact G | now apply (h_carried _ _ _ HI)].
      apply Tr. now apply in_map.
    - intros n y oid exs Hin Hy en k' tr Ha Hu. cbn [a_imports a_types agg_of] in Hin, Hy, Hu.
      destruct (Hback n y oid exs Hin Hy en k' tr Ha Hu) as [[n0 [oid0 [exs0 [k [Hin0 [Hy0 [Ha0 Hu0]]]]]]] | [En Hex]].
      + destruct (h_just _ _ _ HI n0 y oid0 exs0 Hin0 Hy0 en k tr Ha0 Hu0) as [c0 [Hc0 [Hcan Hex]]].
        exists c0. split; [now right|]. split; [|exact Hex]. rewrite canonical_canon. cbn [a_redirects agg_of].
        rewrite canonical_canon in Hcan.
        assert (Hk : assoc (canon rd' (fst c0)) im = Some (KInstance y)).
        { rewrite Tr by (now apply in_map). rewrite Hcan. apply in_assoc; auto. apply (ni_nodup _ _ _ (h_names _ _ _ HI)). }
        apply (kind_key_unique im _ _ y D (assoc_in _ _ _ Hk) Hin).
      + exists c. split; [now left|]. split; [|exact Hex]. rewrite canonical_canon. cbn [a_redirects agg_of]. now symmetry.
  Qed.

  Lemma kinds_grow a s done cc :
    HInv a s done -> grows (a_types a) (c_types cc) ->
    forall n k, In (n, k) (a_imports a) ->
      exists y oid exs, k = KInstance y /\ get_if (c_types cc) y = Some (mkif oid [] exs) /\ flat_exports (c_types cc) exs.
  Proof.
    intros HI G n k Hin. destruct (h_flat _ _ _ HI n k Hin) as [y [oid [exs [-> [Hy Hf]]]]].
    destruct (G y oid exs Hy Hf) as [exs' [Hy' [Hf' _]]]. eauto 6.
  Qed.

  (** no registered interface name is on the track of a name that no import is compatible with *)
  Lemma no_iface_on_track a s done name :
    HInv a s done -> assoc name (a_imports a) = None -> find_compat name (a_imports a) = None ->
    assoc name (a_ifaces a) = None /\ find_compat name (ord (a_ifaces a)) = None.
  Proof.
    intros HI Ea Ef. pose proof (h_names _ _ _ HI) as I0.
    assert (Hno : forall n1, In n1 (map fst done) -> compat n1 name = true -> False).
    { intros n1 Hn1 C. pose proof (ni_total _ _ _ I0 n1 Hn1) as Hk. pose proof (canon_compat _ _ _ n1 I0) as Cc.
      set (k := canon (a_redirects a) n1) in *.
      assert (Ck : compat name k = true) by (rewrite compat_sym in C; apply (compat_trans _ _ _ C Cc)).
      destruct (str_eqb_spec name k) as [E|E].
      - rewrite <- E in Hk. apply assoc_none_keys in Ea. contradiction.
      - apply in_keys_assoc in Hk as [v Hv]. exact (find_compat_none _ _ k v Ef (assoc_in _ _ _ Hv) (compat_on_track _ _ Ck E)). }
    split.
    - destruct (assoc name (a_ifaces a)) as [y1|] eqn:E; auto. exfalso.
      apply (Hno name); [apply (h_ifaces _ _ _ HI name y1 (assoc_in _ _ _ E)) | apply compat_refl].
    - destruct (find_compat name (ord (a_ifaces a))) as [[n1 y1]|] eqn:E; auto. exfalso.
      apply find_compat_some in E as [Hin OT]. apply ord_incl in Hin.
      apply (Hno n1); [apply (h_ifaces _ _ _ HI n1 y1 Hin)|]. rewrite compat_sym. now apply on_track_compat.
  Qed.

  (** the converse bookkeeping for an interface that the step did not touch *)
  Lemma back_untouched a s done T' n' y0 oid exs0' :
    HInv a s done -> ext (a_types a) T' -> In (n', KInstance y0) (a_imports a) ->
    get_if T' y0 = get_if (a_types a) y0 -> get_if T' y0 = Some (mkif oid [] exs0') ->
    forall en k' tr, assoc en exs0' = Some k' -> UnfK T' k' tr ->
      exists n0 oid0 exs0 k, In (n0, KInstance y0) (a_imports a) /\ get_if (a_types a) y0 = Some (mkif oid0 [] exs0) /\
                             assoc en exs0 = Some k /\ UnfK (a_types a) k tr.
  Proof.
    intros HI E Hin Hsame Hy' en k' tr Ha Hu. rewrite Hsame in Hy'.
    exists n', oid, exs0', k'. repeat split; auto. exact (proj2 (flat_tree_ext _ _ _ _ _ _ (h_flat_at _ _ _ _ _ _ _ HI Hin Hy') E Ha) Hu).
  Qed.

  (** [im], [rd']: the imports and redirects after the name bookkeeping, which at most renames the import [ny] *)
  Lemma HInv_merged a s done c ny y oid exs cc im rd' :
    HInv a s done -> flat_contrib c ->
    In (ny, KInstance y) (a_imports a) -> get_if (a_types a) y = Some (mkif oid [] exs) ->
    merge_item_kind ord cf fuel (KInstance y) (fst (snd c)) (snd (snd c)) (core_of a s) = AOk (tt, cc) ->
    NInv (map fst im) rd' (fst c :: map fst done) ->
    (forall n k, In (n, k) im -> exists n0, In (n0, k) (a_imports a)) ->
    NoDup (map (fun nk : str * kind => kidx (snd nk)) im) ->
    (forall n0, In n0 (map fst done) -> assoc (canon rd' n0) im = assoc (canon (a_redirects a) n0) (a_imports a)) ->
    assoc (canon rd' (fst c)) im = Some (KInstance y) ->
    HInv (agg_of cc im rd') (c_chk cc) (c :: done).
  Proof.
    intros HI Hfc Hin Hy Hm I' Him D Tr Hc.
    pose proof (h_flat_at _ _ _ _ _ _ _ HI Hin Hy) as Hf.
    destruct (merge_into a s done c y oid exs cc HI Hfc Hy Hf Hm)
      as [M [_ [G [Kf [Hifc [exs' [Hy' [New [Conv [Foth Eext]]]]]]]]]].
    apply (HInv_assemble a s); auto.
    - intros i0 v Hv. left. now rewrite <- Kf.
    - intros n k Hk. destruct (Him n k Hk) as [n0 Hn0]. exact (kinds_grow a s done cc HI G n0 k Hn0).
    - intros n1 y1 Hin1. rewrite Hifc in Hin1. right. exact (h_ifaces _ _ _ HI n1 y1 Hin1).
    - intros i x Ek Hg. exists y, oid, exs'. rewrite canonical_canon. cbn [a_imports a_redirects a_types agg_of].
      split; auto. split; auto. exact (New i x Ek Hg).
    - intros n' y0 oid0 exs0' Hin' Hy0' en0 k0 tr Ha Hu. destruct (Him _ _ Hin') as [n0 Hin0].
      destruct (Nat.eq_dec (id_idx y0) (id_idx y)) as [E|N].
      + assert (y0 = y) as ->.
        { apply id_eq_of; auto. destruct (get_if_tag _ _ _ Hy0') as [T0 _]. destruct (get_if_tag _ _ _ Hy') as [T1 _]. congruence. }
        rewrite Hy' in Hy0'. injection Hy0' as <- <-.
        destruct (Conv en0 k0 tr Ha Hu) as [[k1 [A1 U1]]|Hex].
        * left. exists ny, oid, exs, k1. auto.
        * right. split; auto. exact (kind_key_unique im _ _ y D Hin' (assoc_in _ _ _ Hc)).
      + left. exact (back_untouched a s done (c_types cc) n0 y0 oid0 exs0' HI Eext Hin0 (Foth _ N) Hy0' en0 k0 tr Ha Hu).
  Qed.

  Lemma HInv_step a s done c a' s' :
    HInv a s done -> flat_contrib c -> ~ In (ckey c) (map ckey done) ->
    aggregate ord cf fuel a s (fst c) (fst (snd c)) (snd (snd c)) = AOk (a', s') ->
    HInv a' s' (c :: done).
  Proof.
    intros HI Hfc Hnew H. destruct c as [name [t k]]. cbn [fst snd] in *.
    pose proof Hfc as [Ct [OF _]]. cbn [fst snd] in Ct, OF.
    pose proof HI as [I0 M0 Fl0 If0 D0 Ik0 _ _]. pose proof (ni_nodup _ _ _ I0) as ND0.
    pose proof (aggregate_NStep ord cf fuel a s name t k a' s' OF ND0 H) as NS.
    pose proof (NStep_preserves _ _ _ _ _ _ I0 NS) as I'.
    assert (Hsi : forall e cc, merge_item_kind ord cf fuel e t k (core_of a s) = AOk (tt, cc) -> c_imports cc = a_imports a).
    { intros e cc Hm. exact (si_merge_item_kind ord cf t OF fuel e k _ _ _ Hm). }
    apply aggregate_cases in H as [[existing [cc [Ea [Hm [-> ->]]]]] | [[en [ek [cc [im [rd' [Ea [Ef [Hm [Hr [-> ->]]]]]]]]]] | [k' [cc [Ea [Ef [Hm [Hh [-> ->]]]]]]]]].
    - (* the name is an import already *)
      destruct (Fl0 name existing (assoc_in _ _ _ Ea)) as [y [oid [exs [-> [Hy _]]]]].
      cbn [a_imports a_redirects agg_of] in I'. rewrite (Hsi _ _ Hm) in *.
      apply (HInv_merged a s done (name, (t, k)) name y oid exs); eauto.
      + now apply assoc_in.
      + cbn [fst]. now rewrite (canon_key _ _ _ name I0 (assoc_in_keys _ _ _ Ea)).
    - (* a semver-compatible import *)
      apply find_compat_some in Ef as [Hin Hcompat]. apply on_track_compat in Hcompat.
      assert (Hek : assoc en (a_imports a) = Some ek) by (apply in_assoc; [apply ND0|exact Hin]).
      assert (Hnin : ~ In name (map fst (a_imports a))) by now apply assoc_none_keys.
      destruct (Fl0 en ek Hin) as [y [oid [exs [-> [Hy _]]]]].
      rewrite (Hsi _ _ Hm) in Hr. unfold rename in Hr.
      destruct (alt_key name) as [[ak nv]|]; [|discriminate]. destruct (alt_key en) as [[ak' ev]|]; [|discriminate].
      destruct (version_gtb nv ev).
      + (* the new name takes over *)
        rewrite Hek in Hr. injection Hr as <- <-. cbn [a_imports a_redirects agg_of] in I'.
        assert (Hnr : assoc name (rem en (a_imports a)) = None).
        { apply assoc_none_keys. intros X. apply in_keys_rem in X; [tauto|apply ND0]. }
        assert (Dim : NoDup (map (fun nk : str * kind => kidx (snd nk)) (ins name (KInstance y) (rem en (a_imports a))))).
        { rewrite (ins_new_app _ _ _ Hnr), map_app. cbn [map snd kidx].
          pose proof (rem_perm en (KInstance y) _ ND0 Hek) as P.
          apply (Permutation_map (fun nk : str * kind => kidx (snd nk))) in P.
          pose proof (Permutation_NoDup P D0) as ND. cbn [map snd kidx] in ND.
          eapply Permutation_NoDup; [|exact ND]. apply Permutation_cons_append. }
        assert (Hk' : In name (map fst (ins name (KInstance y) (rem en (a_imports a))))).
        { eapply assoc_in_keys. apply assoc_ins_same. }
        apply (HInv_merged a s done (name, (t, k)) en y oid exs); auto.
        * intros n0 k0 Hk0. apply in_ins in Hk0 as [[-> ->]|Hk0]; [eauto|]. apply in_rem in Hk0. eauto.
        * intros n0 Hn0. apply (rename_high_track _ _ _ I0 name en (KInstance y) Hnin Hek); auto.
        * cbn [fst]. rewrite (canon_key _ _ _ name I' Hk'). apply assoc_ins_same.
      + (* the existing name stays *)
        injection Hr as <- <-. cbn [a_imports a_redirects agg_of] in I'.
        apply (HInv_merged a s done (name, (t, k)) en y oid exs); eauto.
        * intros n0 Hn0. now rewrite (rename_low_track _ _ _ I0 name en (KInstance y) Hnin Hek Hcompat n0 Hn0).
        * cbn [fst]. unfold canon. now rewrite assoc_ins_same.
    - (* a new import *)
      destruct Hfc as [_ [_ [i [x [Ek [Hg [Hfl Hidx]]]]]]]. cbn [fst snd] in Ek, Hg, Hfl, Hidx. subst k.
      assert (Eck : ckey (name, (t, KInstance i)) = TInterface i) by reflexivity.
      destruct fuel as [|f]; [discriminate|]. cbn [remap_item_kind] in Hm.
      apply bindM_ok in Hm as [y [c1 [H1 H2]]]. apply ret_ok in H2 as [-> ->].
      assert (Hnone : rm_get (TInterface i) (c_remapped (core_of a s)) = None).
      { cbn [c_remapped core_of]. destruct (rm_get (TInterface i) (a_remapped a)) eqn:X; auto.
        apply Ik0 in X. rewrite <- Eck in X. contradiction. }
      assert (Hlook : forall nm, i_id x = Some nm ->
                                 assoc nm (c_ifaces (core_of a s)) = None /\ find_compat nm (ord (c_ifaces (core_of a s))) = None).
      { intros nm Hnm. destruct Hidx as [X|X]; [congruence|]. assert (nm = name) as -> by congruence.
        cbn [c_ifaces core_of]. now apply (no_iface_on_track a s done). }
      destruct (remap_interface_flat ord cf Col Col_same tag0 f t i x _ y c1 Ct Hg Hfl M0 (fun _ _ => Hnone) Hlook H1)
        as [exs [[LI LG LF] [Hidy [K [New [Prov [E [Him [Hif [Hsame [Hoth Hthis]]]]]]]]]]].
      cbn [c_types c_imports c_ifaces c_remapped core_of] in *.
      assert (G : grows (a_types a) (c_types c1)) by (apply grows_unchanged; auto).
      rewrite Him in *. cbn [a_imports a_redirects agg_of] in I'.
      assert (Hnin : ~ In name (map fst (a_imports a))) by now apply assoc_none_keys.
      assert (Hk' : In name (map fst (ins name (KInstance y) (a_imports a)))).
      { eapply assoc_in_keys. apply assoc_ins_same. }
      apply (HInv_assemble a s); auto.
      + intros i0 v Hv. destruct (id_eqb i0 i) eqn:Ei.
        * apply ideqb_eq in Ei. subst i0. right. now rewrite Eck.
        * left. rewrite <- Hoth; auto. intros ->. rewrite ideqb_refl in Ei. discriminate.
      + intros n0 k0 Hk0. apply in_ins in Hk0 as [[-> ->]|Hk0]; [|now apply (kinds_grow a s done c1 HI G n0)].
        exists y, (i_id x), exs. auto.
      + intros n1 y1 Hin1. cbn [fst]. rewrite Hif in Hin1. destruct (i_id x) as [nm|] eqn:Hnm.
        * apply in_ins in Hin1 as [[-> _]|Hin1]; [|right; apply (If0 n1 y1 Hin1)].
          destruct Hidx as [X|X]; [discriminate|]. injection X as ->. now left.
        * right. apply (If0 n1 y1 Hin1).
      + rewrite (ins_new_app _ _ _ Ea), map_app. cbn [map snd kidx]. apply NoDup_app_one; [apply D0|].
        intros X. apply in_map_iff in X as [[n0 k0] [E0 Hin0]]. cbn [snd] in E0.
        destruct (Fl0 n0 k0 Hin0) as [y0 [oid0 [exs0 [-> [Hy0 _]]]]]. cbn [kidx] in E0.
        destruct (get_if_tag _ _ _ Hy0) as [_ Hlt]. rewrite E0, Hidy in Hlt. exact (Nat.lt_irrefl _ Hlt).
      + intros n0 Hn0. rewrite assoc_ins_other; auto. intros X. apply Hnin. rewrite X. apply (ni_total _ _ _ I0). exact Hn0.
      + intros i1 x1 Ek1 Hg1. cbn [fst snd] in *. injection Ek1 as <-. rewrite Hg in Hg1. injection Hg1 as <-.
        exists y, (i_id x), exs. rewrite canonical_canon. cbn [a_imports a_redirects a_types agg_of fst snd].
        rewrite (canon_key _ _ _ name I' Hk'). rewrite assoc_ins_same. auto.
      + intros n' y0 oid0 exs0' Hin' Hy0' en0 k0 tr Ha Hu. cbn [fst].
        apply in_ins in Hin' as [[-> X]|Hin'].
        * injection X as ->. right. rewrite (canon_key _ _ _ name I' Hk'). split; auto.
          rewrite LG in Hy0'. injection Hy0' as <- <-.
          destruct (Prov en0 k0 tr Ha Hu) as [ek [Hin1 Hu1]]. exists i, x, ek. auto.
        * left. assert (Hs0 : get_if (c_types c1) y0 = get_if (a_types a) y0).
          { destruct (Fl0 n' _ Hin') as [y1 [oid1 [exs1 [Ey [Hy1 _]]]]]. injection Ey as <-.
            now rewrite (Hsame _ _ Hy1). }
          apply (back_untouched a s done (c_types c1) n' y0 oid0 exs0' HI E Hin' Hs0 Hy0' en0 k0 tr Ha Hu).
  Qed.

  Lemma HInv_history : forall l a s pos done a' s',
    HInv a s done -> Forall flat_contrib l -> NoDup (map ckey l) ->
    (forall c, In c l -> ~ In (ckey c) (map ckey done)) ->
    aggregate_all ord cf fuel a s l pos = inl (a', s') -> HInv a' s' (rev l ++ done).
  Proof.
    induction l as [|[name [t k]] l IH]; intros a s pos done a' s' HI HF ND Hd H; cbn [aggregate_all] in H.
    - injection H as <- <-. exact HI.
    - inversion HF as [|? ? Hc HF']; subst. cbn [map] in ND. inversion ND as [|? ? Hn ND']; subst.
      destruct (aggregate ord cf fuel a s name t k) as [[a1 s1]| | |] eqn:E; try discriminate.
      pose proof (HInv_step a s done (name, (t, k)) a1 s1 HI Hc (Hd _ (or_introl eq_refl)) E) as H1.
      cbn [rev]. rewrite <- app_assoc. cbn [app]. eapply IH; eauto.
      intros c0 Hc0 [X|X]; [apply Hn; rewrite X; now apply in_map | exact (Hd c0 (or_intror Hc0) X)].
  Qed.

  Lemma HInv_run l a s :
    Forall flat_contrib l -> NoDup (map ckey l) -> aggregate_all ord cf fuel (agg0 tag0) st0 l 0 = inl (a, s) -> HInv a s (rev l).
  Proof.
    intros HF ND H. rewrite <- (app_nil_r (rev l)). exact (HInv_history l _ _ _ [] a s HInv_nil HF ND (fun _ _ X => X) H).
  Qed.

  Lemma flat_exports_unfold T exs :
    flat_exports T exs -> exists g e, map_snd (unfold g T) exs = Some e.
  Proof.
    intros [_ Hall].
    assert (H : exists e, Forall2 (fun a b => fst a = fst b /\ UnfK T (snd a) (snd b)) exs e).
    { induction exs as [|[n k] exs IH]; [exists []; constructor|].
      destruct IH as [e1 H1]; [intros n0 k0 Hin0; apply (Hall n0 k0); now right|].
      destruct (Hall n k (or_introl eq_refl)) as [_ [tr [U _]]]. exists ((n, tr) :: e1). constructor; auto. }
    destruct H as [e H]. apply (named_common (fun g => unfold g T)) in H as [g Hg]; [eauto|].
    intros g g' x y. apply unfold_mono.
  Qed.
  Lemma flat_inst T y oid exs :
    get_if T y = Some (mkif oid [] exs) -> flat_exports T exs ->
    exists e, UnfK T (KInstance y) (XInst e) /\
              (forall n k tr, assoc n exs = Some k -> UnfK T k tr -> assoc n e = Some tr) /\
              (forall n b, In (n, b) e -> exists k, assoc n exs = Some k /\ UnfK T k b).
  Proof.
    intros Hy Hf. destruct (flat_exports_unfold T exs Hf) as [g [e He]]. exists e. split; [|split].
    - exists (S g). cbn [unfold]. rewrite Hy. cbn [i_exports]. now rewrite He.
    - intros n k tr Ha Hu. rewrite (map_snd_assoc _ _ _ n He), Ha.
      destruct (map_snd_some_in _ _ _ _ _ He (assoc_in _ _ _ Ha)) as [tr' E]. rewrite E.
      f_equal. apply (UnfK_det T k); [now exists g | exact Hu].
    - intros n b Hin. destruct (map_snd_in _ _ _ _ _ He Hin) as [k [Hk Hb]]. exists k. split; [|now exists g].
      destruct Hf as [ND _]. now apply in_assoc.
  Qed.

  (** the declarative relation is reflexive on resource-free leaf trees *)
  Lemma leaf_tree_refl T k tr : leafk k = true -> UnfK T k tr -> resfree tr = true -> SubCM tr tr.
  Proof.
    intros L Hu Hr. apply (UnfK_leaf_inv _ _ _ L) in Hu.
    assert (HV : forall v, vt_resfree v = true -> VSub NoRes v v).
    { intros v Hv. apply (VSub_change eq NoRes v v (or_introl Hv)). apply VSub_eq_refl. }
    destruct k as [[| |v| | |]|i| | | |v]; try discriminate L.
    - destruct Hu as [vt [-> _]]. cbn [resfree] in Hr. constructor. now apply HV.
    - destruct Hu as [ft [-> _]]. cbn [resfree] in Hr. constructor.
      apply (FSub_change eq NoRes ft ft (or_introl Hr)). now apply FSub_eq_iff.
    - destruct Hu as [vt [-> _]]. cbn [resfree] in Hr. constructor. now apply HV.
  Qed.

  (** The merged requirement satisfies every contributor. *)
  Lemma HInv_upper_bound a s done c :
    HInv a s done -> flat_contrib c -> In c done -> forall tr, UnfK (fst (snd c)) (snd (snd c)) tr ->
      exists merged tm, assoc (Aggregator.canonical a (fst c)) (imports a) = Some merged /\
                        UnfK (a_types a) merged tm /\ SubCM tm tr.
  Proof.
    intros HI Hfc Hc tr Hu.
    destruct Hfc as [Ct [_ [i [x [Ek [Hg [[_ [NDx Hall]] _]]]]]]].
    destruct (h_carried _ _ _ HI c Hc i x Ek Hg) as [y [oid [exs [Ha [Hy Hex]]]]].
    destruct (flat_inst _ _ _ _ Hy (h_flat_at _ _ _ _ _ _ _ HI (assoc_in _ _ _ Ha) Hy)) as [e [Ue [He _]]].
    exists (KInstance y), (XInst e). split; [exact Ha|]. split; [exact Ue|].
    rewrite Ek in Hu. destruct Hu as [g Hu]. destruct g as [|g]; [discriminate|]. cbn [unfold] in Hu. rewrite Hg in Hu.
    destruct (map_snd (unfold g (fst (snd c))) (i_exports x)) as [er|] eqn:Er; [|discriminate]. injection Hu as <-.
    constructor. intros k b Hin. destruct (map_snd_in _ _ _ _ _ Er Hin) as [ek [Hek Hb]].
    destruct (Hex k ek b Hek (ex_intro _ g Hb)) as [k' [Ak Uk]].
    exists b. split; [apply (He _ _ _ Ak Uk)|].
    destruct (Hall k ek Hek) as [Lk [tr0 [U0 R0]]].
    assert (tr0 = b) as <- by (eapply UnfK_leaf_indep; [| |exact U0|exists g; exact Hb]; auto).
    eapply leaf_tree_refl; eauto.
  Qed.

  Theorem flat_upper_bound l a s :
    Forall flat_contrib l -> NoDup (map ckey l) ->
    aggregate_all ord cf fuel (agg0 tag0) st0 l 0 = inl (a, s) ->
    forall c, In c l -> forall tr, UnfK (fst (snd c)) (snd (snd c)) tr ->
      exists merged tm, assoc (Aggregator.canonical a (fst c)) (imports a) = Some merged /\
                        UnfK (a_types a) merged tm /\ SubCM tm tr.
  Proof.
    intros HF ND H c Hc. apply (HInv_upper_bound a s (rev l) c (HInv_run l a s HF ND H)); [|now apply -> in_rev].
    rewrite Forall_forall in HF. auto.
  Qed.

  Lemma sub_of_justified a s done a' s' done' n :
    HInv a s done -> HInv a' s' done' -> (forall c, In c done' -> In c done) ->
    (forall c, In c done -> Aggregator.canonical a (fst c) = Aggregator.canonical a' (fst c)) ->
    Aggregator.canonical a n = Aggregator.canonical a' n ->
    forall y oid exs y' oid' exs' e e',
      assoc (Aggregator.canonical a n) (a_imports a) = Some (KInstance y) -> get_if (a_types a) y = Some (mkif oid [] exs) ->
      assoc (Aggregator.canonical a' n) (a_imports a') = Some (KInstance y') -> get_if (a_types a') y' = Some (mkif oid' [] exs') ->
      (forall n0 k tr, assoc n0 exs = Some k -> UnfK (a_types a) k tr -> assoc n0 e = Some tr) ->
      (forall n0 b, In (n0, b) e' -> exists k, assoc n0 exs' = Some k /\ UnfK (a_types a') k b) ->
      SubCM (XInst e) (XInst e').
  Proof.
    intros HI HI' Hsub Hagree Hcn y oid exs y' oid' exs' e e' Ha Hy Ha' Hy' He He'.
    constructor. intros k b Hin. destruct (He' k b Hin) as [k' [Ak' Uk']].
    destruct (h_just _ _ _ HI' _ _ _ _ (assoc_in _ _ _ Ha') Hy' k k' b Ak' Uk') as [c [Hc [Hcan [i [x [ek [Ek [Hg [Hek Hu]]]]]]]]].
    pose proof (Hsub c Hc) as Hcd.
    destruct (h_carried _ _ _ HI c Hcd i x Ek Hg) as [y1 [oid1 [exs1 [Ha1 [Hy1 Hex1]]]]].
    assert (Ec : Aggregator.canonical a (fst c) = Aggregator.canonical a n) by (rewrite (Hagree c Hcd), Hcan; now symmetry).
    rewrite Ec, Ha in Ha1. injection Ha1 as <-. rewrite Hy in Hy1. injection Hy1 as <- <-.
    destruct (Hex1 k ek b Hek Hu) as [k1 [A1 U1]].
    exists b. split; [apply (He _ _ _ A1 U1)|].
    destruct (h_flat_at _ _ _ _ _ _ _ HI (assoc_in _ _ _ Ha) Hy) as [_ Hall].
    destruct (Hall k k1 (assoc_in _ _ _ A1)) as [Lk [tr0 [U0 R0]]].
    assert (tr0 = b) as <- by (eapply UnfK_det; eauto).
    eapply leaf_tree_refl; eauto.
  Qed.

  Lemma flat_owner_free l : Forall flat_contrib l -> Forall (fun c : contrib => owner_free (fst (snd c))) l.
  Proof. apply Forall_impl. intros c [_ [H _]]. exact H. Qed.

  Lemma import_of a s done n :
    HInv a s done -> In n (map fst done) ->
    exists y oid exs e, assoc (Aggregator.canonical a n) (a_imports a) = Some (KInstance y) /\
      get_if (a_types a) y = Some (mkif oid [] exs) /\ UnfK (a_types a) (KInstance y) (XInst e) /\
      (forall n0 k tr, assoc n0 exs = Some k -> UnfK (a_types a) k tr -> assoc n0 e = Some tr) /\
      (forall n0 b, In (n0, b) e -> exists k, assoc n0 exs = Some k /\ UnfK (a_types a) k b).
  Proof.
    intros HI Hn. pose proof (ni_total _ _ _ (h_names _ _ _ HI) n Hn) as Hk. rewrite <- canonical_canon in Hk.
    apply in_keys_assoc in Hk as [k Hk]. destruct (h_flat _ _ _ HI _ _ (assoc_in _ _ _ Hk)) as [y [oid [exs [-> [Hy Hf]]]]].
    destruct (flat_inst _ _ _ _ Hy Hf) as [e [U [A B]]]. exists y, oid, exs, e. auto.
  Qed.

  (** Order independence for flat multisets, given that both orders succeed: the canonical names agree, and the merged
      requirement of every contributed name is the same tree up to the order of its exports (mutual subtypes). *)
  Theorem flat_order_indep l l' a s a' s' :
    Forall flat_contrib l -> NoDup (map ckey l) -> Permutation l l' ->
    aggregate_all ord cf fuel (agg0 tag0) st0 l 0 = inl (a, s) ->
    aggregate_all ord cf fuel (agg0 tag0) st0 l' 0 = inl (a', s') ->
    forall n, In n (map fst l) ->
      Aggregator.canonical a n = Aggregator.canonical a' n /\
      exists m m' tm tm', assoc (Aggregator.canonical a n) (imports a) = Some m /\
                          assoc (Aggregator.canonical a' n) (imports a') = Some m' /\
                          UnfK (a_types a) m tm /\ UnfK (a_types a') m' tm' /\ SubCM tm tm' /\ SubCM tm' tm.
  Proof.
    intros HF ND P H H' n Hn.
    assert (HF' : Forall flat_contrib l') by (eapply Permutation_Forall; eauto).
    assert (ND' : NoDup (map ckey l')) by (eapply Permutation_NoDup; [apply Permutation_map; exact P|exact ND]).
    pose proof (HInv_run l a s HF ND H) as HI.
    pose proof (HInv_run l' a' s' HF' ND' H') as HI'.
    assert (Hnames : forall m, In m (map fst l) <-> In m (map fst l')).
    { intros m. split; apply Permutation_in; [|apply Permutation_sym]; now apply Permutation_map. }
    assert (Hagree : forall m, In m (map fst l) -> Aggregator.canonical a m = Aggregator.canonical a' m).
    { intros m Hm. apply (canonical_order_indep ord ord cf fuel cf fuel tag0 tag0 l l' a a' s s'); auto using flat_owner_free. }
    split; [now apply Hagree|].
    assert (Hn1 : In n (map fst (rev l))) by (rewrite map_rev; now apply -> in_rev).
    assert (Hn2 : In n (map fst (rev l'))) by (rewrite map_rev; apply -> in_rev; now apply Hnames).
    destruct (import_of _ _ _ n HI Hn1) as [y [oid [exs [e [Ha [Hy [U [A B]]]]]]]].
    destruct (import_of _ _ _ n HI' Hn2) as [y' [oid' [exs' [e' [Ha' [Hy' [U' [A' B']]]]]]]].
    assert (P' : forall c, In c (rev l) <-> In c (rev l')).
    { intros c. rewrite <- !in_rev. split; apply Permutation_in; [|apply Permutation_sym]; exact P. }
    assert (G : forall c, In c (rev l) -> Aggregator.canonical a (fst c) = Aggregator.canonical a' (fst c)).
    { intros c Hc. apply Hagree. apply in_map. now apply in_rev. }
    exists (KInstance y), (KInstance y'), (XInst e), (XInst e').
    split; [exact Ha|]. split; [exact Ha'|]. split; [exact U|]. split; [exact U'|]. split.
    - exact (sub_of_justified a s (rev l) a' s' (rev l') n HI HI' (fun c => proj2 (P' c)) G (Hagree n Hn)
                              y oid exs y' oid' exs' e e' Ha Hy Ha' Hy' A B').
    - exact (sub_of_justified a' s' (rev l') a s (rev l) n HI' HI (fun c => proj1 (P' c))
                              (fun c Hc => eq_sym (G c (proj2 (P' c) Hc))) (eq_sym (Hagree n Hn))
                              y' oid' exs' y oid exs e' e Ha' Hy' Ha Hy A' B).
  Qed.

  (** ** A conflict makes the history fail: in a successful flat history two contributions of one track agree on every
      export they share *)
  Lemma HInv_no_conflict a s done c1 c2 :
    HInv a s done -> In c1 done -> In c2 done -> compat_spec_b (fst c1) (fst c2) = true ->
    forall en tr1 tr2, exports_of c1 en tr1 -> exports_of c2 en tr2 -> tr1 = tr2.
  Proof.
    intros HI H1 H2 C en tr1 tr2 [i1 [x1 [ek1 [E1 [G1 [In1 U1]]]]]] [i2 [x2 [ek2 [E2 [G2 [In2 U2]]]]]].
    destruct (h_carried _ _ _ HI c1 H1 i1 x1 E1 G1) as [y1 [o1 [exs1 [A1 [Y1 X1]]]]].
    destruct (h_carried _ _ _ HI c2 H2 i2 x2 E2 G2) as [y2 [o2 [exs2 [A2 [Y2 X2]]]]].
    assert (Ec : Aggregator.canonical a (fst c1) = Aggregator.canonical a (fst c2)).
    { rewrite !canonical_canon. apply (inv_one _ _ _ (h_names _ _ _ HI)); [now apply in_map | now apply in_map|].
      now rewrite compat_is_spec_b. }
    rewrite Ec, A2 in A1. injection A1 as <-. rewrite Y2 in Y1. injection Y1 as <- <-.
    destruct (X1 en ek1 tr1 In1 U1) as [k1 [B1 V1]]. destruct (X2 en ek2 tr2 In2 U2) as [k2 [B2 V2]].
    rewrite B2 in B1. injection B1 as <-.
    destruct (h_flat_at _ _ _ _ _ _ _ HI (assoc_in _ _ _ A2) Y2) as [_ Hall]. destruct (Hall en k2 (assoc_in _ _ _ B2)) as [Lk _].
    eapply UnfK_det; eauto.
  Qed.

  Lemma aggregate_merges a s done c a' s' y oid exs :
    HInv a s done -> flat_contrib c ->
    (assoc (fst c) (a_imports a) = Some (KInstance y) \/
     (assoc (fst c) (a_imports a) = None /\ exists en, find_compat (fst c) (a_imports a) = Some (en, KInstance y))) ->
    get_if (a_types a) y = Some (mkif oid [] exs) ->
    aggregate ord cf fuel a s (fst c) (fst (snd c)) (snd (snd c)) = AOk (a', s') ->
    forall i x, snd (snd c) = KInstance i -> get_if (fst (snd c)) i = Some x ->
      exists exs', get_if (a_types a') y = Some (mkif oid [] exs') /\
                   map fst exs' = first_seen_union (map fst exs) (map fst (i_exports x)) /\
                   forall en k tr, assoc en exs = Some k -> UnfK (a_types a) k tr ->
                                   exists k', assoc en exs' = Some k' /\ UnfK (a_types a') k' tr.
  Proof.
    intros HI Hfc Hwhere Hy H i x Ek Hg. destruct c as [name [t k]]. cbn [fst snd] in *.
    assert (Hf : flat_exports (a_types a) exs).
    { destruct Hwhere as [Ha|[_ [en Hf]]].
      - exact (h_flat_at _ _ _ _ _ _ _ HI (assoc_in _ _ _ Ha) Hy).
      - apply find_compat_some in Hf as [Hin _]. exact (h_flat_at _ _ _ _ _ _ _ HI Hin Hy). }
    pose proof Hfc as [Ct [_ [i0 [x0 [Ek0 [Hg0 [Hfl _]]]]]]]. cbn [fst snd] in *. rewrite Ek in Ek0. injection Ek0 as <-.
    rewrite Hg in Hg0. injection Hg0 as <-.
    assert (L : LoopSt Col tag0 y (core_of a s) oid exs) by (split; [apply (h_minv _ _ _ HI)|exact Hy|exact Hf]).
    assert (Hm : exists cc, merge_item_kind ord cf fuel (KInstance y) t k (core_of a s) = AOk (tt, cc) /\ a_types a' = c_types cc).
    { apply aggregate_cases in H as [[existing [cc [Ea [Hm [-> ->]]]]] | [[en [ek [cc [im [rd' [Ea [Ef [Hm [Hr [-> ->]]]]]]]]]] | [k' [cc [Ea [Ef _]]]]]].
      - destruct Hwhere as [Ha|[Ha _]]; [|congruence]. rewrite Ea in Ha. injection Ha as ->. eauto.
      - destruct Hwhere as [Ha|[_ [en' Hf']]]; [congruence|]. rewrite Ef in Hf'. injection Hf' as _ ->. eauto.
      - destruct Hwhere as [Ha|[_ [en' Hf']]]; congruence. }
    destruct Hm as [cc [Hm ->]]. rewrite Ek in Hm. cbn [merge_item_kind] in Hm.
    destruct (merge_interface_flat ord cf Col Col_same tag0 Col_tag fuel y t i x _ cc oid exs Ct Hg Hfl L Hm)
      as [exs' [L' [_ [K [_ [Old _]]]]]].
    exists exs'. split; [apply (ls_get _ _ _ _ _ _ L')|]. split; [exact K|exact Old].
  Qed.
End Hist.
