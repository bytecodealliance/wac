(** The resolver model simulates the reference evaluation of LangSpec: the relation [Rel] between a
    resolver state and a specification environment (with a value for every node), its frame lemma, and
    the relation [osim] between outcomes with its rule for [bind]. *)
From Coq Require Import List Arith Bool NArith Lia.
From WacV Require Import Str StrFacts Names Ast Graph Resolver LangSpec GraphInv ResolverProofs ListFacts.
Import ListNotations.
Local Open Scope nat_scope.

Definition class_of (e : rerr) : illformed :=
  match e with
  | EUndefinedName n _ => IUndefinedName n
  | EDuplicateName n _ => IDuplicateName n
  | EUnknownPackage n _ => IUnknownPackage n
  | EPackageMissingExport s _ | EPackagePathMissingExport s _ => IUnknownPath s
  | EMissingComponentImport n _ => IUnknownArgument n
  | EMismatchedInstantiationArg n _ => IArgumentMismatch n
  | EDuplicateInstantiationArg n _ => IDuplicateArgument n
  | EMissingInstantiationArg n _ => IMissingArgument n
  | ENotAnInstance OpAccess _ => INonInstanceAccess
  | ENotAnInstance OpSpread _ => INonInstanceSpread
  | EMissingInstanceExport n _ => IUnknownExport n
  | EExportRequiresAs _ => IExportNeedsName
  | EExportConflict n _ => IConflictingExport n
  | EDuplicateExternName XImport n _ => IConflictingImport n
  | EDuplicateExternName XExport n _ => IConflictingExport n
  | EInvalidExternName _ n _ => IInvalidName n
  | EFillArgumentNotLast _ => IFillNotLast
  | ESpreadInstantiationNoMatch _ | ESpreadExportNoEffect _ => IIneffectiveSpread
  end.

Definition fail_matches (f : fail) (i : illformed) : Prop :=
  match f with
  | FErr e => class_of e = i
  | FUnsupported _ => i = IOutOfScope
  | FPanic _ => False
  end.

Definition prefix {A} (a b : list A) : Prop := exists c, b = a ++ c.
Lemma prefix_refl {A} (a : list A) : prefix a a.
Proof. exists []. now rewrite app_nil_r. Qed.
Lemma prefix_trans {A} {a b c : list A} : prefix a b -> prefix b c -> prefix a c.
Proof. intros [x ->] [y ->]. exists (x ++ y). now rewrite app_assoc. Qed.
Lemma prefix_nth {A} {a b : list A} {n x} : prefix a b -> nth_error a n = Some x -> nth_error b n = Some x.
Proof. intros [c ->] H. rewrite nth_error_app1; auto. apply nth_error_Some. congruence. Qed.
Lemma prefix_snoc {A} (a : list A) x : prefix a (a ++ [x]).
Proof. now exists [x]. Qed.

Section Sim.
  Variable u : runiverse.
  (** the kinds of the universe *)
  Variable K : kid -> Prop.

  (** well-formedness of the universe (facts about how the driver/harness build it) *)
  Record uok : Prop := {
    uo_text_intern : forall s, ru_text u (ru_intern u s) = s;
    uo_intern_imports : forall p pd n k, nth_error (u_pkgs u) p = Some pd -> In (n, k) (pd_imports pd) ->
                        ru_intern u (ru_text u n) = n;
    uo_intern_exports : forall k ex n k', u_inst_exports u k = Some ex -> In (n, k') ex -> ru_intern u (ru_text u n) = n;
    uo_pkg_find : forall nm v p, ru_pkg_find u nm v = Some p -> p < length (u_pkgs u);
    uo_imports_nodup : forall p pd, nth_error (u_pkgs u) p = Some pd -> NoDup (map fst (pd_imports pd));
    uo_lk : forall k, K k -> nth_error (u_lkinds u) (N.to_nat k) = Some k;
    uo_K_promote : forall k, K k -> K (ru_promote u k);
    uo_K_func : forall s k, ru_func_kind u s = Some k -> K k;
    uo_K_defs : forall p s k, In (s, k) (ru_pkg_defs u p) -> K k;
    uo_K_proj : forall k ex s k', K k -> ru_proj_exports u k = Some ex -> In (s, k') ex -> K k';
    uo_K_inst : forall p pd, nth_error (u_pkgs u) p = Some pd -> K (pd_inst pd);
    uo_K_exports : forall k ex n k', K k -> u_inst_exports u k = Some ex -> In (n, k') ex -> K k' }.

  (** the argument edges of instantiation node [k] are what the bindings [si] say *)
  Definition arg_edges_ok (g : gstate) (vm : list sval) (k : nat) (si : sinst) : Prop :=
    exists pd, nth_error (u_pkgs u) (si_pkg si) = Some pd /\
      map fst (si_bindings si) = map fst (text_items u (pd_imports pd)) /\
      forall idx i kd b, nth_error (pd_imports pd) idx = Some (i, kd) ->
        nth_error (si_bindings si) idx = Some (ru_text u i, b) ->
        match binding_value (ru_text u i) b with
        | Some v => exists src, In {| esrc := src; etgt := k; ek := EArg idx |} (edges g) /\ nth_error vm src = Some v /\
                      forall src', In {| esrc := src'; etgt := k; ek := EArg idx |} (edges g) -> src' = src
        | None => forall src, ~ In {| esrc := src; etgt := k; ek := EArg idx |} (edges g)
        end.

  Definition node_ok (g : gstate) (env : senv) (vm : list sval) (k : nat) (nd : node) (v : sval) : Prop :=
    K (nitem nd) /\ val_kind u env v = Some (nitem nd) /\ nk nd <> NDef /\
    match v with
    | VImport nm => nk nd = NImport (ru_intern u nm)
    | VInst j =>
        (exists sat, nk nd = NInst sat) /\
        exists si id, nth_error (se_insts env) j = Some si /\ npkg nd = Some id /\ get_pkg g id = Some (si_pkg si) /\
                      arg_edges_ok g vm k si
    | VAccess w e => nk nd = NAlias /\ exists src idx, In {| esrc := src; etgt := k; ek := EAlias idx |} (edges g)
    end.

  Record Rel (st : rstate) (env : senv) (vm : list sval) : Prop := {
    r_free : nofree (rs_g st);
    r_len : length vm = length (nodes (rs_g st));
    r_live : forall k, k < length (nodes (rs_g st)) -> get_node (rs_g st) k <> None;
    r_edges : forall e, In e (edges (rs_g st)) ->
              esrc e < length (nodes (rs_g st)) /\ etgt e < length (nodes (rs_g st));
    r_node : forall k nd v, get_node (rs_g st) k = Some nd -> nth_error vm k = Some v -> node_ok (rs_g st) env vm k nd v;
    r_alias : forall e idx, In e (edges (rs_g st)) -> ek e = EAlias idx ->
      exists sn ex nm kd w, get_node (rs_g st) (esrc e) = Some sn /\ u_inst_exports u (nitem sn) = Some ex /\
        nth_error ex idx = Some (nm, kd) /\ nth_error vm (esrc e) = Some w /\
        nth_error vm (etgt e) = Some (VAccess w (ru_text u nm));
    r_scope : Forall2 (fun a b => fst a = fst b /\ nth_error vm (fst (snd a)) = Some (snd b)) (rs_scope st) (se_names env);
    r_exports : Forall2 (fun a b => fst a = ru_intern u (fst b) /\ nth_error vm (snd a) = Some (snd b))
                        (exports (rs_g st)) (se_exports env);
    r_imports : Forall2 (fun a b => fst a = ru_intern u (fst b) /\ nth_error vm (snd a) = Some (VImport (fst b)) /\
                                    exists nd, get_node (rs_g st) (snd a) = Some nd /\ nitem nd = snd b)
                        (rev (imports (rs_g st))) (se_imports env);
    r_insts : forall j, j < length (se_insts env) -> exists k, nth_error vm k = Some (VInst j) }.
End Sim.

Arguments r_free {u K st env vm}.
Arguments r_len {u K st env vm}.
Arguments r_live {u K st env vm}.
Arguments r_edges {u K st env vm}.
Arguments r_node {u K st env vm}.
Arguments r_alias {u K st env vm}.
Arguments r_scope {u K st env vm}.
Arguments r_exports {u K st env vm}.
Arguments r_imports {u K st env vm}.
Arguments r_insts {u K st env vm}.

Section Frame.
  Variable u : runiverse.
  Variable K : kid -> Prop.
  Notation Rel := (Rel u K).
  Notation uok := (uok u K).

  Lemma rel_init : Rel init_state empty_env [].
  Proof.
    constructor; cbn.
    - split; reflexivity.
    - reflexivity.
    - intros k0 H. lia.
    - intros e [].
    - intros k0 nd v H. unfold get_node in H. cbn in H. destruct k0; discriminate.
    - intros e idx [].
    - constructor.
    - constructor.
    - constructor.
    - intros j H. lia.
  Qed.

  Lemma rel_val st env vm n v :
    Rel st env vm -> nth_error vm n = Some v ->
    exists nd, get_node (rs_g st) n = Some nd /\ node_ok u K (rs_g st) env vm n nd v.
  Proof.
    intros R V. assert (L : n < length (nodes (rs_g st))).
    { rewrite <- (r_len R). apply nth_error_Some. congruence. }
    pose proof (r_live R n L) as X. destruct (get_node (rs_g st) n) as [nd|] eqn:G; [|now contradiction X].
    exists nd. split; [reflexivity|]. exact (r_node R n nd v G V).
  Qed.

  Lemma rel_node_val st env vm n nd :
    Rel st env vm -> get_node (rs_g st) n = Some nd ->
    exists v, nth_error vm n = Some v /\ node_ok u K (rs_g st) env vm n nd v.
  Proof.
    intros R G. pose proof (get_node_lt _ _ _ G) as L. rewrite <- (r_len R) in L. apply nth_error_Some in L.
    destruct (nth_error vm n) as [v|] eqn:V; [|now contradiction L]. exists v. split; [reflexivity|]. exact (r_node R n nd v G V).
  Qed.

  Lemma rel_new_val st env vm v : Rel st env vm -> nth_error (vm ++ [v]) (length (nodes (rs_g st))) = Some v.
  Proof. intros R. rewrite <- (r_len R). apply nth_error_snoc. Qed.

  Definition env_le (e e' : senv) : Prop :=
    prefix (se_imports e) (se_imports e') /\ prefix (se_insts e) (se_insts e').

  Lemma env_le_refl e : env_le e e.
  Proof. split; apply prefix_refl. Qed.

  Lemma env_le_trans a b c : env_le a b -> env_le b c -> env_le a c.
  Proof. intros [A1 A2] [B1 B2]. split; eapply prefix_trans; eauto. Qed.

  Lemma val_kind_mono e e' v k : env_le e e' -> val_kind u e v = Some k -> val_kind u e' v = Some k.
  Proof.
    intros [Pi Pn]. revert k. induction v as [nm|j|w IH x]; intros k; cbn [val_kind].
    - destruct Pi as [c ->]. rewrite im_get_app. intros H. now rewrite H.
    - destruct (nth_error (se_insts e) j) as [si|] eqn:E; [|discriminate]. now rewrite (prefix_nth Pn E).
    - destruct (val_kind u e w) as [kw|]; [|discriminate]. now rewrite (IH kw eq_refl).
  Qed.

  Definition alias_edge_ok (g : gstate) (vm : list sval) (e : edge) (idx : nat) : Prop :=
    exists sn ex nm kd w, get_node g (esrc e) = Some sn /\ u_inst_exports u (nitem sn) = Some ex /\
      nth_error ex idx = Some (nm, kd) /\ nth_error vm (esrc e) = Some w /\
      nth_error vm (etgt e) = Some (VAccess w (ru_text u nm)).

  Definition scope_ok (vm : list sval) (sc : scope) (names : list (str * sval)) : Prop :=
    Forall2 (fun a b => fst a = fst b /\ nth_error vm (fst (snd a)) = Some (snd b)) sc names.
  Definition exports_ok (vm : list sval) (ex : list (name * nat)) (sx : list (str * sval)) : Prop :=
    Forall2 (fun a b => fst a = ru_intern u (fst b) /\ nth_error vm (snd a) = Some (snd b)) ex sx.
  Definition imports_ok (g : gstate) (vm : list sval) (si : list (str * kid)) : Prop :=
    Forall2 (fun a b => fst a = ru_intern u (fst b) /\ nth_error vm (snd a) = Some (VImport (fst b)) /\
                        exists nd, get_node g (snd a) = Some nd /\ nitem nd = snd b)
            (rev (imports g)) si.

  Definition nodes_kept (g g' : gstate) : Prop :=
    forall k nd, get_node g k = Some nd ->
      exists nd', get_node g' k = Some nd' /\ nitem nd' = nitem nd /\ nk nd' = nk nd /\ npkg nd' = npkg nd.

  Lemma nodes_kept_same g g' : (forall k nd, get_node g k = Some nd -> get_node g' k = Some nd) -> nodes_kept g g'.
  Proof. intros H k nd G. exists nd. auto. Qed.

  Lemma get_node_snoc (g g' : gstate) x k nd : nodes g' = nodes g ++ [x] -> get_node g k = Some nd -> get_node g' k = Some nd.
  Proof. intros Hn G. unfold get_node in *. rewrite Hn. now apply get_node_app_old. Qed.

  Lemma scope_ok_mono vm vm' sc names : prefix vm vm' -> scope_ok vm sc names -> scope_ok vm' sc names.
  Proof. intros P H. eapply Forall2_impl; [|exact H]. intros a b [A0 B0]. split; auto. eapply prefix_nth; eauto. Qed.

  Lemma exports_ok_mono vm vm' ex sx : prefix vm vm' -> exports_ok vm ex sx -> exports_ok vm' ex sx.
  Proof. intros P H. eapply Forall2_impl; [|exact H]. intros a b [A0 B0]. split; auto. eapply prefix_nth; eauto. Qed.

  Lemma imports_ok_mono g g' vm vm' si :
    prefix vm vm' -> imports g' = imports g -> nodes_kept g g' -> imports_ok g vm si -> imports_ok g' vm' si.
  Proof.
    intros P E Hold H. unfold imports_ok in *. rewrite E. eapply Forall2_impl; [|exact H].
    intros a b (A0 & B0 & nd & G & I0). split; auto. split; [eapply prefix_nth; eauto|].
    destruct (Hold _ _ G) as (nd' & G' & I' & _). exists nd'. split; auto. congruence.
  Qed.

  Lemma node_ok_frame g g' env env' vm vm' k nd nd' v :
    node_ok u K g env vm k nd v -> prefix vm vm' -> env_le env env' ->
    nitem nd' = nitem nd -> nk nd' = nk nd -> npkg nd' = npkg nd ->
    (forall id p, get_pkg g id = Some p -> get_pkg g' id = Some p) ->
    (forall e, In e (edges g) -> In e (edges g')) ->
    (forall e, In e (edges g') -> etgt e = k -> In e (edges g)) ->
    node_ok u K g' env' vm' k nd' v.
  Proof.
    intros (HK & VK & ND & Tag) Pv Le I2 K2 P2 Hpk Hkeep Hinto.
    unfold node_ok. rewrite I2, K2, P2.
    split; [exact HK|]. split; [exact (val_kind_mono _ _ _ _ Le VK)|]. split; [exact ND|].
    destruct v as [nm|j|w x].
    - exact Tag.
    - destruct Tag as (Sat & si & id & Sj & Pk & GP & pd & Ppd & Mf & AE). split; [exact Sat|]. exists si, id.
      split; [exact (prefix_nth (proj2 Le) Sj)|]. split; [exact Pk|]. split; [exact (Hpk _ _ GP)|].
      exists pd. split; [exact Ppd|]. split; [exact Mf|].
      intros idx i kd b N1 N2. specialize (AE idx i kd b N1 N2).
      destruct (binding_value (ru_text u i) b) as [bv|].
      + destruct AE as (src & Ein & Vs & Uq). exists src. split; [exact (Hkeep _ Ein)|]. split; [exact (prefix_nth Pv Vs)|].
        intros src' E'. exact (Uq src' (Hinto _ E' eq_refl)).
      + intros src E'. exact (AE src (Hinto _ E' eq_refl)).
    - destruct Tag as (KA & src & idx & Ein). split; [exact KA|]. exists src, idx. exact (Hkeep _ Ein).
  Qed.

  (** the frame lemma: a state change that keeps the old nodes, keeps the old edges and adds edges only
      towards new nodes *)
  Lemma Rel_frame st env vm st' env' vm' :
    Rel st env vm ->
    nofree (rs_g st') ->
    length vm' = length (nodes (rs_g st')) -> prefix vm vm' -> env_le env env' ->
    length (nodes (rs_g st)) <= length (nodes (rs_g st')) ->
    nodes_kept (rs_g st) (rs_g st') ->
    (forall id p, get_pkg (rs_g st) id = Some p -> get_pkg (rs_g st') id = Some p) ->
    (forall e, In e (edges (rs_g st)) -> In e (edges (rs_g st'))) ->
    (forall e, In e (edges (rs_g st')) -> In e (edges (rs_g st)) \/
        (length (nodes (rs_g st)) <= etgt e /\ esrc e < length (nodes (rs_g st')) /\ etgt e < length (nodes (rs_g st')) /\
         forall idx, ek e = EAlias idx -> alias_edge_ok (rs_g st') vm' e idx)) ->
    (forall k, length (nodes (rs_g st)) <= k -> k < length (nodes (rs_g st')) ->
       exists nd v, get_node (rs_g st') k = Some nd /\ nth_error vm' k = Some v /\ node_ok u K (rs_g st') env' vm' k nd v) ->
    scope_ok vm' (rs_scope st') (se_names env') ->
    exports_ok vm' (exports (rs_g st')) (se_exports env') ->
    imports_ok (rs_g st') vm' (se_imports env') ->
    (forall j, j < length (se_insts env') -> exists k, nth_error vm' k = Some (VInst j)) ->
    Rel st' env' vm'.
  Proof.
    intros R NF Len Pv Le LenN Hold Hpk Hkeep Hnew Hnodes Hsc Hex Him Hin.
    constructor.
    - exact NF.
    - exact Len.
    - intros k Hk. destruct (Nat.lt_ge_cases k (length (nodes (rs_g st)))) as [Lo|Hi].
      + pose proof (r_live R k Lo) as X. destruct (get_node (rs_g st) k) as [nd|] eqn:G; [|now contradiction X].
        destruct (Hold k nd G) as (nd' & G' & _). congruence.
      + destruct (Hnodes k Hi Hk) as (nd & v & G & _). congruence.
    - intros e He. destruct (Hnew e He) as [Ho|(A & B & C & _)]; [|split; assumption].
      destruct (r_edges R e Ho). lia.
    - intros k nd' v G' V'. destruct (Nat.lt_ge_cases k (length (nodes (rs_g st)))) as [Lo|Hi].
      + pose proof (r_live R k Lo) as X. destruct (get_node (rs_g st) k) as [nd|] eqn:G; [|now contradiction X].
        destruct (Hold k nd G) as (nd2 & G2 & I2 & K2 & P2). rewrite G' in G2. injection G2 as <-.
        assert (V : nth_error vm k = Some v).
        { destruct Pv as [c ->]. rewrite nth_error_app1 in V'; [exact V'|]. rewrite (r_len R). exact Lo. }
        apply (node_ok_frame (rs_g st) _ env _ vm _ k nd nd' v (r_node R k nd v G V) Pv Le I2 K2 P2 Hpk Hkeep).
        intros e He T. destruct (Hnew e He) as [Ho|(A & _)]; [exact Ho|]. lia.
      + destruct (Hnodes k Hi (get_node_lt _ _ _ G')) as (nd & v0 & G & V & NO).
        rewrite G' in G. injection G as <-. rewrite V' in V. injection V as <-. exact NO.
    - intros e idx He Ke. destruct (Hnew e He) as [Ho|(_ & _ & _ & A)]; [|exact (A idx Ke)].
      destruct (r_alias R e idx Ho Ke) as (sn & ex & nm & kd & w & G & U & N & V1 & V2).
      destruct (Hold _ _ G) as (sn' & G' & I' & _). exists sn', ex, nm, kd, w. rewrite I'.
      split; [exact G'|]. split; [exact U|]. split; [exact N|].
      split; [exact (prefix_nth Pv V1)|exact (prefix_nth Pv V2)].
    - exact Hsc.
    - exact Hex.
    - exact Him.
    - exact Hin.
  Qed.

  (** [Rel_frame] when no node is added *)
  Lemma Rel_same st env vm g' sc' env' :
    Rel st env vm -> nofree g' -> length (nodes g') = length (nodes (rs_g st)) -> nodes_kept (rs_g st) g' ->
    (forall id p, get_pkg (rs_g st) id = Some p -> get_pkg g' id = Some p) ->
    edges g' = edges (rs_g st) -> imports g' = imports (rs_g st) ->
    se_imports env' = se_imports env -> se_insts env' = se_insts env ->
    scope_ok vm sc' (se_names env') -> exports_ok vm (exports g') (se_exports env') ->
    Rel {| rs_g := g'; rs_scope := sc' |} env' vm.
  Proof.
    intros R NF Ln Hold Hp He Hi Ei En Hsc Hex.
    eapply (Rel_frame st env vm _ _ _ R); cbn [rs_g rs_scope].
    - exact NF.
    - rewrite Ln. apply (r_len R).
    - apply prefix_refl.
    - split; [rewrite Ei|rewrite En]; apply prefix_refl.
    - rewrite Ln. apply Nat.le_refl.
    - exact Hold.
    - exact Hp.
    - intros e H. now rewrite He.
    - intros e H. left. now rewrite <- He.
    - intros k Lo Hi'. rewrite Ln in Hi'. lia.
    - exact Hsc.
    - exact Hex.
    - rewrite Ei. eapply imports_ok_mono; [apply prefix_refl|exact Hi|exact Hold|apply (r_imports R)].
    - rewrite En. apply (r_insts R).
  Qed.

  (** [Rel_frame] when one node is added *)
  Lemma Rel_add st env vm g' env' nd v newE :
    Rel st env vm ->
    nodes g' = nodes (rs_g st) ++ [Some nd] -> free_nodes g' = [] -> free_pkgs g' = [] -> pkgs g' = pkgs (rs_g st) ->
    edges g' = newE ++ edges (rs_g st) -> exports g' = exports (rs_g st) ->
    (forall e, In e newE -> etgt e = length (nodes (rs_g st)) /\ esrc e < length (nodes (rs_g st)) /\
       forall idx, ek e = EAlias idx -> alias_edge_ok g' (vm ++ [v]) e idx) ->
    env_le env env' -> se_names env' = se_names env -> se_exports env' = se_exports env ->
    node_ok u K g' env' (vm ++ [v]) (length (nodes (rs_g st))) nd v ->
    imports_ok g' (vm ++ [v]) (se_imports env') ->
    (forall j, length (se_insts env) <= j -> j < length (se_insts env') -> v = VInst j) ->
    Rel {| rs_g := g'; rs_scope := rs_scope st |} env' (vm ++ [v]).
  Proof.
    intros R Hn F Fp Hp He Hx HE Le En Ex NO Him Hj.
    assert (Vn := rel_new_val st env vm v R).
    eapply (Rel_frame st env vm _ _ _ R); cbn [rs_g rs_scope].
    - split; assumption.
    - rewrite Hn, !app_length, (r_len R). reflexivity.
    - apply prefix_snoc.
    - exact Le.
    - rewrite Hn, app_length. lia.
    - apply nodes_kept_same. intros k nd0 G0. exact (get_node_snoc _ _ _ _ _ Hn G0).
    - intros id p. unfold get_pkg. now rewrite Hp.
    - intros e H. rewrite He. apply in_or_app. now right.
    - intros e H. rewrite He in H. apply in_app_or in H as [H|H]; [right|now left].
      destruct (HE e H) as (T & S & A). rewrite T, Hn, app_length. cbn [length]. split; [lia|]. split; [lia|]. split; [lia|exact A].
    - intros k Lo Hi. rewrite Hn, app_length in Hi. cbn [length] in Hi. assert (k = length (nodes (rs_g st))) by lia. subst k.
      exists nd, v. split; [|split; [exact Vn|exact NO]].
      unfold get_node. now rewrite Hn, nth_error_snoc.
    - rewrite En. eapply scope_ok_mono; [apply prefix_snoc|apply (r_scope R)].
    - rewrite Hx, Ex. eapply exports_ok_mono; [apply prefix_snoc|apply (r_exports R)].
    - exact Him.
    - intros j Hj'. destruct (Nat.lt_ge_cases j (length (se_insts env))) as [Lo|Hi].
      + destruct (r_insts R j Lo) as (k & Vk). exists k. eapply prefix_nth; eauto. apply prefix_snoc.
      + exists (length (nodes (rs_g st))). rewrite <- (Hj j Hi Hj'). exact Vn.
  Qed.

  Lemma imports_ok_snoc g g' vm x v si :
    nodes g' = nodes g ++ [x] -> imports g' = imports g -> imports_ok g vm si -> imports_ok g' (vm ++ [v]) si.
  Proof.
    intros Hn Hi. apply imports_ok_mono; [apply prefix_snoc|exact Hi|].
    apply nodes_kept_same. intros k nd G. exact (get_node_snoc _ _ _ _ _ Hn G).
  Qed.

  Lemma scope_get {vm sc names} nm :
    scope_ok vm sc names ->
    match im_get sc nm with
    | Some (n, _) => exists v, im_get names nm = Some v /\ nth_error vm n = Some v
    | None => im_get names nm = None
    end.
  Proof.
    induction 1 as [|[k [n a]] [k' v] sc names [E V] H IH]; cbn; auto. cbn in E, V. subst k'.
    destruct (str_eqb k nm); [eauto|exact IH].
  Qed.

  Lemma scope_has_key {vm sc names} nm : scope_ok vm sc names -> has_key sc nm = has_key names nm.
  Proof.
    intros H. pose proof (scope_get nm H) as X. unfold has_key.
    destruct (im_get sc nm) as [[n a]|]; [destruct X as (v & -> & _); reflexivity|now rewrite X].
  Qed.

  Lemma scope_ok_snoc vm sc names nm n at_ v :
    scope_ok vm sc names -> nth_error vm n = Some v -> scope_ok vm (sc ++ [(nm, (n, at_))]) (names ++ [(nm, v)]).
  Proof. intros H V. apply Forall2_app; [exact H|]. constructor; [split; [reflexivity|exact V]|constructor]. Qed.

  Lemma intern_eqb a b : uok -> N.eqb (ru_intern u a) (ru_intern u b) = str_eqb a b.
  Proof.
    intros U. destruct (N.eqb_spec (ru_intern u a) (ru_intern u b)) as [E|Ne].
    - assert (a = b) by (rewrite <- (uo_text_intern _ _ U a), E; apply (uo_text_intern _ _ U)). subst. now rewrite str_eqb_refl.
    - destruct (str_eqb a b) eqn:Es; [apply str_eqb_eq in Es; subst; now contradiction Ne|reflexivity].
  Qed.

  Lemma exports_get vm ex sx nm :
    uok -> exports_ok vm ex sx ->
    match alist_get N.eqb ex (ru_intern u nm) with
    | Some n => exists v, im_get sx nm = Some v /\ nth_error vm n = Some v
    | None => im_get sx nm = None
    end.
  Proof.
    intros U. induction 1 as [|[k n] [k' v] ex sx [E V] H IH]; cbn; auto. cbn in E, V. subst k.
    rewrite (intern_eqb k' nm U). destruct (str_eqb k' nm); [eauto|exact IH].
  Qed.

  Lemma imports_get g vm si nm :
    uok -> imports_ok g vm si ->
    (alist_get N.eqb (imports g) (ru_intern u nm) = None <-> has_key si nm = false).
  Proof.
    intros U H. rewrite alist_get_None, in_rev, <- map_rev, <- alist_get_None. unfold imports_ok in H. induction H as [|[k n] [k' kd] l si (E & V & _) H IH]; cbn.
    - split; reflexivity.
    - cbn in E. subst k. unfold has_key. cbn. rewrite (intern_eqb k' nm U).
      destruct (str_eqb k' nm); [split; discriminate|exact IH].
  Qed.

  Lemma alias_source_val st env vm k v :
    Rel st env vm -> nth_error vm k = Some v ->
    match v with
    | VAccess w e => exists src nm, get_alias_source u (rs_g st) k = Some (src, nm) /\ ru_text u nm = e /\ nth_error vm src = Some w
    | _ => get_alias_source u (rs_g st) k = None
    end.
  Proof.
    intros R V. destruct (rel_val _ _ _ _ _ R V) as (nd & G & _ & _ & _ & Tag).
    unfold get_alias_source. destruct (find _ (incoming (rs_g st) k)) as [ed|] eqn:Fd.
    - apply find_some in Fd as [He Ke]. unfold incoming in He. apply filter_In in He as [He T]. apply Nat.eqb_eq in T.
      destruct (ek ed) as [idx| |] eqn:Kk; try discriminate.
      destruct (r_alias R ed idx He Kk) as (sn & ex & nm & kd & w' & G1 & U1 & N1 & V1 & V2).
      rewrite G1, U1, N1. rewrite T, V in V2. injection V2 as ->. eauto.
    - destruct v as [nm|j|w x]; auto. exfalso. destruct Tag as (_ & src & idx & Ein).
      assert (Hi : In {| esrc := src; etgt := k; ek := EAlias idx |} (incoming (rs_g st) k)).
      { unfold incoming. apply filter_In. split; auto. cbn. apply Nat.eqb_refl. }
      pose proof (find_none _ _ Fd _ Hi) as X. discriminate.
  Qed.

  Lemma node_source_val st env vm k v :
    uok -> Rel st env vm -> nth_error vm k = Some v -> node_source u (rs_g st) k = val_source v.
  Proof.
    intros U R V. destruct (rel_val _ _ _ _ _ R V) as (nd & G & _ & _ & _ & Tag).
    pose proof (alias_source_val st env vm k v R V) as AS. unfold node_source. rewrite G.
    destruct v as [nm|j|w x]; cbn [val_source].
    - rewrite Tag. now rewrite (uo_text_intern _ _ U).
    - destruct Tag as ((sat & ->) & _). now rewrite AS.
    - destruct Tag as (-> & _). destruct AS as (src & nm & -> & <- & _). reflexivity.
  Qed.

  (** names of the universe: text-level and index-level lookups agree *)
  Lemma get_full_text (l : list (name * kid)) nm :
    uok -> (forall n k, In (n, k) l -> ru_intern u (ru_text u n) = n) ->
    forall i,
    match im_get (text_items u l) nm with
    | Some kd => exists idx, get_full l (ru_intern u nm) i = Some (i + idx, kd) /\ nth_error l idx = Some (ru_intern u nm, kd)
    | None => get_full l (ru_intern u nm) i = None
    end.
  Proof.
    intros U. induction l as [|[n0 k0] l IH]; intros Hl i; cbn; auto.
    assert (E : N.eqb n0 (ru_intern u nm) = str_eqb (ru_text u n0) nm).
    { rewrite <- (intern_eqb _ _ U), (Hl n0 k0 (or_introl eq_refl)). reflexivity. }
    rewrite E. destruct (str_eqb (ru_text u n0) nm) eqn:Es.
    - apply str_eqb_eq in Es. subst nm. rewrite (Hl n0 k0 (or_introl eq_refl)). exists 0. rewrite Nat.add_0_r. auto.
    - specialize (IH (fun n k H => Hl n k (or_intror H)) (Datatypes.S i)).
      fold (text_items u l). destruct (im_get (text_items u l) nm); auto. destruct IH as (idx & A0 & B0). exists (Datatypes.S idx).
      rewrite <- plus_n_Sm. auto.
  Qed.

  Lemma get_full_nodup (l : list (name * kid)) : NoDup (map fst l) -> forall idx i kd off,
    nth_error l idx = Some (i, kd) -> get_full l i off = Some (off + idx, kd).
  Proof.
    induction l as [|[n k] l IH]; intros ND idx i kd off H; [destruct idx; discriminate|].
    cbn in ND. inversion ND as [|? ? Hn ND']; subst. destruct idx as [|idx]; cbn in H.
    - injection H as -> ->. cbn. rewrite N.eqb_refl, Nat.add_0_r. reflexivity.
    - cbn. destruct (N.eqb_spec n i) as [->|Ne].
      + exfalso. apply Hn. apply nth_error_In in H. apply (in_map fst) in H. exact H.
      + rewrite (IH ND' idx i kd (Datatypes.S off) H). f_equal. f_equal. lia.
  Qed.

  Lemma text_names_nth (l : list (name * kid)) idx i kd :
    nth_error l idx = Some (i, kd) -> nth_error (map fst (text_items u l)) idx = Some (ru_text u i).
  Proof. intros H. unfold text_items. rewrite map_map, nth_error_map, H. reflexivity. Qed.

  Lemma alias_sim st env vm item nd w exN nm :
    uok -> Rel st env vm ->
    get_node (rs_g st) item = Some nd -> nth_error vm item = Some w ->
    u_inst_exports u (nitem nd) = Some exN -> has_key (text_items u exN) nm = true ->
    exists g' n vm',
      alias u (rs_g st) item (ru_intern u nm) = (g', ONode n) /\ prefix vm vm' /\
      Rel {| rs_g := g'; rs_scope := rs_scope st |} env vm' /\ nth_error vm' n = Some (VAccess w nm).
  Proof.
    intros U R G V UE HK.
    pose proof (get_full_text exN nm U (fun n k H => uo_intern_exports _ _ U _ _ _ _ UE H) 0) as GF.
    unfold has_key in HK. destruct (im_get (text_items u exN) nm) as [kd|] eqn:IG; [|discriminate].
    destruct GF as (idx & GF & Nt). cbn in GF.
    unfold alias. rewrite G, UE, GF.
    destruct (find _ (outgoing (rs_g st) item)) as [ed|] eqn:Fd.
    - (* the alias exists *)
      apply find_some in Fd as [He Ke]. unfold outgoing in He. apply filter_In in He as [He S]. apply Nat.eqb_eq in S.
      destruct (ek ed) as [i'| |] eqn:Kk; try discriminate. apply Nat.eqb_eq in Ke. subst i'.
      destruct (r_alias R ed idx He Kk) as (sn & ex & nm' & kd' & w' & G1 & U1 & N1 & V1 & V2).
      rewrite S, G in G1. injection G1 as <-. rewrite UE in U1. injection U1 as <-. rewrite Nt in N1. injection N1 as <- <-.
      rewrite S, V in V1. injection V1 as <-. rewrite (uo_text_intern _ _ U) in V2.
      exists (rs_g st), (etgt ed), vm. split; auto. split; [apply prefix_refl|]. split; auto. destruct st; exact R.
    - (* a new alias node *)
      destruct (r_free R) as [F Fp]. unfold add_node. rewrite F.
      set (len := length (nodes (rs_g st))). set (nd' := mk_node NAlias kd (npkg nd)).
      set (e0 := {| esrc := item; etgt := len; ek := EAlias idx |}).
      assert (Vn := rel_new_val st env vm (VAccess w nm) R).
      eexists _, len, (vm ++ [VAccess w nm]).
      split; [reflexivity|]. split; [apply prefix_snoc|]. split; [|exact Vn].
      destruct (r_node R item nd w G V) as (HK0 & VK0 & _).
      apply (Rel_add st env vm _ env nd' (VAccess w nm) [e0] R);
        cbn [add_edge nodes free_nodes free_pkgs pkgs edges exports app]; try reflexivity.
      + exact Fp.
      + intros e [<-|[]]. split; [reflexivity|]. split; [exact (get_node_lt _ _ _ G)|].
        intros idx' [= <-]. exists nd, exN, (ru_intern u nm), kd, w. cbn [esrc etgt e0].
        split; [apply get_node_snoc with (g := rs_g st) (x := Some nd'); [reflexivity|exact G]|].
        split; [exact UE|]. split; [exact Nt|]. split; [apply (prefix_nth (prefix_snoc vm _) V)|].
        now rewrite (uo_text_intern _ _ U).
      + apply env_le_refl.
      + unfold node_ok. cbn.
        split; [eapply (uo_K_exports _ _ U); eauto; eapply nth_error_In; eauto|].
        split; [rewrite VK0; unfold inst_exports; rewrite UE; exact IG|]. split; [discriminate|].
        split; [reflexivity|]. exists item, idx. now left.
      + apply (imports_ok_snoc (rs_g st)) with (x := Some nd'); [reflexivity|reflexivity|apply (r_imports R)].
      + intros j A B. lia.
  Qed.

  Definition osim {A B} (P : A -> rstate -> B -> senv -> Prop)
             (mo : (A * rstate) + fail) (so : (B * senv) + illformed) : Prop :=
    match mo, so with
    | inl (a, st'), inl (b, env') => P a st' b env'
    | inr f, inr i => fail_matches f i
    | _, _ => False
    end.

  Lemma osim_impl {A B} (P Q : A -> rstate -> B -> senv -> Prop) mo so :
    (forall a st b env, P a st b env -> Q a st b env) -> osim P mo so -> osim Q mo so.
  Proof. intros H. destruct mo as [[a st]|f], so as [[b env]|i]; cbn; auto. Qed.

  (** the one rule for sequencing: both sides fail alike, or both continue *)
  Lemma osim_bind_eq {A B A' B'} (P : A -> rstate -> B -> senv -> Prop) (Q : A' -> rstate -> B' -> senv -> Prop)
        (m : M A) (k : A -> M A') (s : SM B) (k' : B -> SM B') st env :
    osim P (m st) (s env) ->
    (forall a st' b env', m st = inl (a, st') -> s env = inl (b, env') -> P a st' b env' -> osim Q (k a st') (k' b env')) ->
    osim Q (bind m k st) (sbind s k' env).
  Proof.
    unfold bind, sbind. destruct (m st) as [[a st']|f], (s env) as [[b env']|i]; cbn; intros H HK;
      [now apply HK|contradiction|contradiction|exact H].
  Qed.

  Lemma osim_bind {A B A' B'} (P : A -> rstate -> B -> senv -> Prop) (Q : A' -> rstate -> B' -> senv -> Prop)
        (m : M A) (k : A -> M A') (s : SM B) (k' : B -> SM B') st env :
    osim P (m st) (s env) ->
    (forall a st' b env', P a st' b env' -> osim Q (k a st') (k' b env')) ->
    osim Q (bind m k st) (sbind s k' env).
  Proof. intros H HK. apply (osim_bind_eq P); [exact H|]. intros a st' b env' _ _. apply HK. Qed.

  (** the usual case: the state reached is related again, over more nodes and a larger environment *)
  Definition sim {A B} (RV : list sval -> A -> B -> Prop) (vm : list sval) (env : senv) :=
    osim (fun (a : A) st' (b : B) env' => exists vm', prefix vm vm' /\ Rel st' env' vm' /\ env_le env env' /\ RV vm' a b).

  Definition item_rel (vm : list sval) (n : nat) (v : sval) : Prop := nth_error vm n = Some v.
  Definition unit_rel (vm : list sval) (a b : unit) : Prop := True.

  Lemma sim_ret {A B} (RV : list sval -> A -> B -> Prop) vm env st a b :
    Rel st env vm -> RV vm a b -> sim RV vm env (inl (a, st)) (inl (b, env)).
  Proof. intros R H. exists vm. split; [apply prefix_refl|]. split; auto. split; [apply env_le_refl|auto]. Qed.

  Lemma sim_weaken {A B} (RV : list sval -> A -> B -> Prop) vm vm' env env' mo so :
    prefix vm vm' -> env_le env env' -> sim RV vm' env' mo so -> sim RV vm env mo so.
  Proof.
    intros P L. unfold sim. apply osim_impl. intros a st b e (vm2 & P2 & R2 & L2 & V2).
    exists vm2. split; [eapply prefix_trans; eauto|]. split; auto. split; [eapply env_le_trans; eauto|auto].
  Qed.

  Lemma sim_bind {A B A' B'} (RV : list sval -> A -> B -> Prop) (RW : list sval -> A' -> B' -> Prop) vm env
        (m : M A) (k : A -> M A') (s : SM B) (k' : B -> SM B') st :
    sim RV vm env (m st) (s env) ->
    (forall a st' b env' vm', prefix vm vm' -> env_le env env' -> Rel st' env' vm' -> RV vm' a b ->
       sim RW vm' env' (k a st') (k' b env')) ->
    sim RW vm env (bind m k st) (sbind s k' env).
  Proof.
    intros H HK. eapply osim_bind; [exact H|]. intros a st' b env' (vm' & P & R & L & V).
    eapply sim_weaken; eauto.
  Qed.
End Frame.

Arguments rel_val {u K st env vm n v}.
Arguments rel_new_val {u K st env vm} v.
Arguments exports_get {u K vm ex sx} nm.
Arguments imports_get {u K g vm si} nm.
Arguments node_source_val {u K st env vm k v}.
Arguments alias_sim {u K st env vm item nd w exN nm}.
Arguments sim_ret {u K A B RV vm env st a b}.
Arguments rel_node_val {u K st env vm n nd}.
