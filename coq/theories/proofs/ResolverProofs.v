(** C04: the resolver model [Resolver.v] against the rules of [LangSpec.v], construct by construct.
    A construct without a loop is run out once as an equation ([..._run]) and its outcomes are read off by
    cases; the loops are inverted [bind] by [bind].  The resolver never frees a node, so what it reads
    back of a node cannot change under it ([gframe]). *)
From Coq Require Import List Arith Bool NArith Lia.
From WacV Require Import Str Token Lexer Semver Names Ast Graph Resolver LangSpec ListFacts GraphInv StrFacts.
Import ListNotations.
Local Open Scope nat_scope.

Lemma bind_inl {A B} (m : M A) (f : A -> M B) st y st' :
  bind m f st = inl (y, st') -> exists x st1, m st = inl (x, st1) /\ f x st1 = inl (y, st').
Proof. unfold bind. destruct (m st) as [[x st1]|e]; [eauto|discriminate]. Qed.

Lemma get_g_inl st x st' : get_g st = inl (x, st') -> x = rs_g st /\ st' = st.
Proof. unfold get_g. intros [= <- <-]. auto. Qed.
Lemma get_scope_inl st x st' : get_scope st = inl (x, st') -> x = rs_scope st /\ st' = st.
Proof. unfold get_scope. intros [= <- <-]. auto. Qed.
Lemma ret_inl {A} (a : A) st x st' : ret a st = inl (x, st') -> x = a /\ st' = st.
Proof. unfold ret. intros [= <- <-]. auto. Qed.

Lemma str_eqb_sym a b : str_eqb a b = str_eqb b a.
Proof. exact (StrFacts.str_eqb_sym a b). Qed.

Lemma im_get_app {V} (a b : list (str * V)) k :
  im_get (a ++ b) k = match im_get a k with Some v => Some v | None => im_get b k end.
Proof. induction a as [|[k' v] a IH]; cbn; auto. destruct (str_eqb k' k); auto. Qed.

Lemma im_get_In {V} (l : list (str * V)) k v : im_get l k = Some v -> In (k, v) l.
Proof.
  induction l as [|[k' v'] l IH]; cbn; [discriminate|]. destruct (str_eqb k' k) eqn:E.
  - intros [= <-]. apply str_eqb_eq in E. subst. now left.
  - intros H. right. auto.
Qed.

Lemma im_get_None {V} (l : list (str * V)) k : im_get l k = None <-> ~ In k (map fst l).
Proof.
  induction l as [|[k' v'] l IH]; cbn; [tauto|]. destruct (str_eqb k' k) eqn:E.
  - apply str_eqb_eq in E. subst. split; [discriminate|]. intros H. exfalso. apply H. now left.
  - rewrite IH. split; [|tauto]. intros H [->|H']; [rewrite str_eqb_refl in E; discriminate|auto].
Qed.

Lemma has_key_In {V} (l : list (str * V)) k : has_key l k = true <-> In k (map fst l).
Proof.
  unfold has_key. destruct (im_get l k) eqn:E.
  - split; auto. intros _. apply im_get_In in E. apply (in_map fst) in E. exact E.
  - apply im_get_None in E. split; [discriminate|tauto].
Qed.

Lemma has_key_false {V} (l : list (str * V)) k : has_key l k = false <-> ~ In k (map fst l).
Proof. rewrite <- has_key_In. destruct (has_key l k); split; auto; try discriminate. intros H. exfalso. auto. Qed.

Lemma In_im_get {V} (l : list (str * V)) k v : NoDup (map fst l) -> In (k, v) l -> im_get l k = Some v.
Proof.
  intros ND H. destruct (im_get l k) as [v'|] eqn:E.
  - f_equal. exact (NoDup_keys_inj l k v' v ND (im_get_In l k v' E) H).
  - apply im_get_None in E. contradiction E. exact (in_map fst l (k, v) H).
Qed.

(** the two graphs differ at most in the debug name of node [n] *)
Definition same_but_name (g g' : gstate) (n : nat) : Prop :=
  edges g' = edges g /\ free_nodes g' = free_nodes g /\ imports g' = imports g /\ exports g' = exports g /\
  defined g' = defined g /\ pkgs g' = pkgs g /\ free_pkgs g' = free_pkgs g /\
  length (nodes g') = length (nodes g) /\
  (forall m, m <> n -> get_node g' m = get_node g m) /\
  (match get_node g n, get_node g' n with
   | Some a, Some b => nk b = nk a /\ npkg b = npkg a /\ nitem b = nitem a /\ nexport b = nexport a
   | None, None => True
   | _, _ => False
   end).

Lemma same_but_name_refl g n : same_but_name g g n.
Proof. unfold same_but_name. repeat split; auto. destruct (get_node g n); auto. Qed.

Lemma set_name_same g n nm g' o : set_name g n nm = (g', o) -> same_but_name g g' n.
Proof.
  unfold set_name, update_node. destruct (get_node g n) as [nd|] eqn:G; intros [= <- <-]; [|apply same_but_name_refl].
  unfold same_but_name, set_node; cbn. repeat split; auto.
  - apply length_set_nth.
  - intros m Hm. rewrite !get_node_getn. cbn. rewrite (getn_set_live _ _ _ _ _ G). apply Nat.eqb_neq in Hm. now rewrite Hm.
  - rewrite G, get_node_getn. cbn. rewrite (getn_set_live _ _ _ _ _ G), Nat.eqb_refl. cbn. auto.
Qed.

Section LetOnlyNames.
  Variable u : runiverse.
  Variable self_name : str.

  Lemma register_name_run id n st :
    register_name u id n st =
    match im_get (rs_scope st) (id_string id) with
    | Some _ => inr (FErr (EDuplicateName (id_string id) (off (id_span id))))
    | None =>
        let sc' := rs_scope st ++ [(id_string id, (n, off (id_span id)))] in
        match get_node (rs_g st) n with
        | None => inr (FPanic RNodeIndex)
        | Some nd =>
            match nname nd with
            | Some _ => inl (tt, {| rs_g := rs_g st; rs_scope := sc' |})
            | None =>
                match set_name (rs_g st) n (ru_intern u (id_string id)) with
                | (g', OUnit) => inl (tt, {| rs_g := g'; rs_scope := sc' |})
                | (_, OPanic p) => inr (FPanic (RGraph p))
                | _ => inr (FPanic RBadUniverse)
                end
            end
        end
    end.
  Proof.
    unfold register_name, bind at 1. unfold get_scope at 1.
    destruct (im_get (rs_scope st) (id_string id)); [reflexivity|].
    unfold bind at 1, put_scope at 1, bind at 1, get_g at 1. cbn [rs_g rs_scope].
    destruct (get_node (rs_g st) n) as [nd|]; [|reflexivity]. destruct (nname nd); [reflexivity|].
    unfold bind at 1, gop, bind at 1, get_g at 1. cbn [rs_g rs_scope].
    destruct (set_name (rs_g st) n (ru_intern u (id_string id))) as [g' o]. destruct o; reflexivity.
  Qed.

  Lemma register_name_effect id n st st' :
    register_name u id n st = inl (tt, st') ->
    same_but_name (rs_g st) (rs_g st') n /\
    rs_scope st' = rs_scope st ++ [(id_string id, (n, off (id_span id)))] /\
    im_get (rs_scope st) (id_string id) = None.
  Proof.
    rewrite register_name_run. destruct (im_get (rs_scope st) (id_string id)); [discriminate|].
    destruct (get_node (rs_g st) n) as [nd|]; [|discriminate]. destruct (nname nd).
    - intros [= <-]. split; [apply same_but_name_refl|auto].
    - destruct (set_name (rs_g st) n (ru_intern u (id_string id))) as [g' o] eqn:SN. destruct o; try discriminate.
      intros [= <-]. split; [exact (set_name_same _ _ _ _ _ SN)|auto].
  Qed.

  (** A [let] statement evaluates its expression and then only adds the local name: no node, no
      edge, no import, export or package beyond the expression's; at most the debug name of the
      expression's node is set. *)
  Theorem let_only_names_proof id e st st' :
    let_statement u self_name id e st = inl (tt, st') ->
    exists item st1,
      eval_expr u self_name e st = inl (item, st1) /\
      same_but_name (rs_g st1) (rs_g st') item /\
      rs_scope st' = rs_scope st1 ++ [(id_string id, (item, off (id_span id)))].
  Proof.
    unfold let_statement. intros H. apply bind_inl in H as (item & st1 & H1 & H).
    apply register_name_effect in H as (A & B & _). eauto.
  Qed.
End LetOnlyNames.

Local Open Scope N_scope.

Lemma split_on_single c r y : split_on c r = [y] -> y = r.
Proof.
  revert y. induction r as [|x r IH]; intros y H; cbn [split_on] in H.
  - now injection H as <-.
  - destruct (x =? c).
    + injection H as _ H. exfalso. now apply (split_on_nonempty c r).
    + destruct (split_on c r) as [|seg segs] eqn:S; [now exfalso; apply (split_on_nonempty c r)|].
      injection H as <- ->. f_equal. now apply IH.
Qed.

Lemma after_last_slash_tl s : after_last_slash s = hd_error (rev (tl (split_on c_slash s))).
Proof.
  induction s as [|x r IH]; [reflexivity|]. cbn [after_last_slash split_on]. rewrite IH.
  destruct (split_on c_slash r) as [|seg segs] eqn:S; [now destruct (split_on_nonempty c_slash r)|].
  destruct (x =? c_slash); cbn [tl]; [|now destruct (hd_error (rev segs))].
  cbn [rev]. destruct (rev segs) as [|y w] eqn:E; [|reflexivity].
  apply (f_equal (@rev str)) in E. rewrite rev_involutive in E. cbn in E. subst segs.
  apply split_on_single in S. now subst.
Qed.

Lemma before_at_until s : before_at s = until_at s.
Proof.
  unfold before_at. induction s as [|c r IH]; [reflexivity|].
  cbn [split_first]. unfold until_at. fold (until_at r).
  destruct (c =? c_at) eqn:E; [reflexivity|].
  change ((fix go (s : str) : list N := match s with [] => [] | c :: r => if c =? c_at then [] else c :: go r end) r)
    with (until_at r).
  rewrite <- IH. destruct (split_first c_at r) as [[b a]|]; reflexivity.
Qed.

Lemma last_segment_path_segment n : last_segment n = path_segment n.
Proof.
  unfold last_segment, path_segment. rewrite after_last_slash_tl.
  destruct (split_on c_slash n) as [|h t]; [reflexivity|]. cbn [tl rev]. destruct (rev t) as [|y w]; [reflexivity|].
  cbn. rewrite before_at_until. now destruct w.
Qed.

Lemma mem_In x l : mem x l = true <-> In x l.
Proof.
  induction l as [|y l IH]; cbn; [split; [discriminate|tauto]|].
  rewrite orb_true_iff, IH, str_eqb_eq. tauto.
Qed.

Lemma has_key_mem {V} (m : list (str * V)) k : has_key m k = mem k (map fst m).
Proof.
  destruct (mem k (map fst m)) eqn:E.
  - apply has_key_In. now apply mem_In.
  - apply has_key_false. intros H. apply mem_In in H. congruence.
Qed.

Lemma filter_map_fst {V} (f : str -> bool) (l : list (str * V)) :
  map fst (filter (fun p => f (fst p)) l) = filter f (map fst l).
Proof. induction l as [|[k v] l IH]; cbn; auto. destruct (f k); cbn; now rewrite IH. Qed.

(** [find_matching_interface_name], followed by the fall-back to the identifier, is the path rule
    of the reference under the flag [exact_name_first] *)
Lemma find_matching_is_path_rule {V} (nm : str) (externs : list (str * V)) :
  (match find_matching_interface_name nm externs with Some n => n | None => nm end)
  = path_or_self impl_flags_c04 nm (map fst externs).
Proof.
  unfold find_matching_interface_name, path_or_self, unique_path_ending. cbn [exact_name_first impl_flags_c04 andb].
  rewrite <- has_key_mem. destruct (has_key externs nm); [reflexivity|].
  rewrite <- (filter_map_fst (ends_with_name nm)).
  rewrite (filter_ext _ (fun p : str * V => ends_with_name nm (fst p)))
    by (intros [k v]; unfold ends_with_name; cbn [fst]; now rewrite last_segment_path_segment).
  destruct (filter _ externs) as [|p [|q r]]; reflexivity.
Qed.

Lemma named_name_spec (imports : list (str * kid)) a :
  named_name imports a = arg_name_of impl_flags_c04 (map fst imports) a.
Proof. destruct a as [i|s]; cbn; [apply find_matching_is_path_rule|reflexivity]. Qed.

Local Open Scope nat_scope.

Lemma add_node_nofree g nd g' i :
  free_nodes g = [] -> add_node g nd = (g', i) ->
  i = length (nodes g) /\ nodes g' = nodes g ++ [Some nd] /\ free_nodes g' = [] /\ edges g' = edges g /\
  imports g' = imports g /\ exports g' = exports g /\ defined g' = defined g /\ pkgs g' = pkgs g /\
  free_pkgs g' = free_pkgs g.
Proof. unfold add_node. intros ->. intros [= <- <-]. cbn. repeat split; auto. Qed.

Lemma get_node_app_old (ns : list (option node)) x k (nd : node) :
  match nth_error ns k with Some (Some a) => Some a | _ => None end = Some nd ->
  match nth_error (ns ++ [x]) k with Some (Some a) => Some a | _ => None end = Some nd.
Proof.
  intros H. assert (L : k < length ns).
  { apply nth_error_Some. intros E. rewrite E in H. discriminate. }
  now rewrite nth_error_app1.
Qed.

(** what may change of a node under the resolver: nothing it reads back *)
Definition node_stable (a b : node) : Prop :=
  nitem b = nitem a /\ npkg b = npkg a /\ (forall nm, nk b = NImport nm <-> nk a = NImport nm) /\ (nk b = NDef <-> nk a = NDef).

Lemma node_stable_refl a : node_stable a a.
Proof. unfold node_stable. tauto. Qed.

Lemma node_stable_trans a b c : node_stable a b -> node_stable b c -> node_stable a c.
Proof.
  intros (I & P & K & D) (I' & P' & K' & D'). split; [congruence|]. split; [congruence|].
  split; [intros nm; rewrite K'; apply K|rewrite D'; exact D].
Qed.

(** the resolver never frees a node or a package slot *)
Definition nofree (g : gstate) : Prop := free_nodes g = [] /\ free_pkgs g = [].

(** what an operation may do to the parts of the graph the resolver reads back *)
Record gframe (g g' : gstate) : Prop := {
  gf_free : nofree g';
  gf_len : length (nodes g) <= length (nodes g');
  gf_nodes : forall k a, get_node g k = Some a ->
             exists b, get_node g' k = Some b /\ nitem b = nitem a /\ npkg b = npkg a /\
                       (forall nm, nk b = NImport nm <-> nk a = NImport nm) /\ (nk b = NDef <-> nk a = NDef);
  gf_pkgs : forall id p, get_pkg g id = Some p -> get_pkg g' id = Some p }.

Lemma gframe_refl g : nofree g -> gframe g g.
Proof. intros H. constructor; auto. intros k a G. exists a. split; [exact G|apply node_stable_refl]. Qed.

Lemma gframe_trans g1 g2 g3 : gframe g1 g2 -> gframe g2 g3 -> gframe g1 g3.
Proof.
  intros [F1 L1 N1 P1] [F2 L2 N2 P2]. constructor; auto; [lia|].
  intros k a G. destruct (N1 k a G) as (b & G2 & S1). destruct (N2 k b G2) as (c & G3 & S2).
  exists c. split; [exact G3|exact (node_stable_trans a b c S1 S2)].
Qed.

Lemma alias_same_nodes (u : universe) g n e g' o :
  nofree g -> alias u g n e = (g', o) ->
  nofree g' /\ pkgs g' = pkgs g /\ exports g' = exports g /\
  length (nodes g) <= length (nodes g') /\
  (forall k nd, get_node g k = Some nd -> get_node g' k = Some nd).
Proof.
  intros [F Fp]. unfold alias. destruct (get_node g n) as [nd|]; [|intros [= <- <-]; repeat split; auto].
  destruct (u_inst_exports u (nitem nd)) as [ex|]; [|intros [= <- <-]; repeat split; auto].
  destruct (get_full ex e 0) as [[index kind]|]; [|intros [= <- <-]; repeat split; auto].
  destruct (find _ (outgoing g n)); [intros [= <- <-]; repeat split; auto|].
  destruct (add_node g (mk_node NAlias kind (npkg nd))) as [s1 idx] eqn:A.
  apply add_node_nofree in A as (-> & Hn & F' & He & Hi & Hx & Hd & Hp & Hf); auto.
  intros [= <- <-]. cbn. split; [split; [exact F'|cbn; congruence]|]. split; [exact Hp|]. split; [exact Hx|]. split.
  - rewrite Hn, app_length. cbn. lia.
  - intros k a G. unfold get_node in *. cbn. rewrite Hn. now apply get_node_app_old.
Qed.

Lemma alias_gframe (u : universe) g n e g' o : nofree g -> alias u g n e = (g', o) -> gframe g g'.
Proof.
  intros F A. destruct (alias_same_nodes u g n e g' o F A) as (F' & P & _ & L & N). constructor; auto.
  - intros k a G. exists a. rewrite (N k a G). repeat split; auto.
  - intros id p. unfold get_pkg. now rewrite P.
Qed.

Section Access.
  Variable u : runiverse.

  Lemma kind_of_inl n st k st' :
    kind_of n st = inl (k, st') -> st' = st /\ exists nd, get_node (rs_g st) n = Some nd /\ k = nitem nd.
  Proof.
    unfold kind_of. intros H. apply bind_inl in H as (g & s1 & H1 & H). apply get_g_inl in H1 as [-> ->].
    destruct (get_node (rs_g st) n) as [nd|]; [|discriminate]. apply ret_inl in H as [-> ->]. eauto.
  Qed.

  Lemma gop_inl f st o st' :
    gop f st = inl (o, st') -> f (rs_g st) = (rs_g st', o) /\ rs_scope st' = rs_scope st.
  Proof.
    unfold gop. intros H. apply bind_inl in H as (g & s1 & H1 & H). apply get_g_inl in H1 as [-> ->].
    destruct (f (rs_g st)) as [g' o'] eqn:E. apply bind_inl in H as ([] & s2 & H1 & H).
    unfold put_g in H1. injection H1 as E1; subst s2. apply ret_inl in H as [-> ->]. cbn. auto.
  Qed.

  Lemma alias_export_run item nm at_ op st :
    alias_export u item nm at_ op st =
    match get_node (rs_g st) item with
    | None => inr (FPanic RNodeIndex)
    | Some nd =>
        match inst_exports u (nitem nd) with
        | None => inr (FErr (ENotAnInstance op at_))
        | Some ex =>
            if has_key ex nm then
              match alias u (rs_g st) item (ru_intern u nm) with
              | (g', ONode n) => inl (Some n, {| rs_g := g'; rs_scope := rs_scope st |})
              | (_, OPanic p) => inr (FPanic (RGraph p))
              | _ => inr (FPanic RAliasExpect)
              end
            else inl (None, st)
        end
    end.
  Proof.
    unfold alias_export, bind at 1, kind_of, bind at 1, get_g at 1.
    destruct (get_node (rs_g st) item) as [nd|]; [|reflexivity]. unfold ret at 1.
    destruct (inst_exports u (nitem nd)) as [ex|]; [|reflexivity]. destruct (has_key ex nm); [|reflexivity].
    unfold bind at 1, gop, bind at 1, get_g at 1. destruct (alias u (rs_g st) item (ru_intern u nm)) as [g' o].
    destruct o; reflexivity.
  Qed.

  (** the name an access expression selects, as the reference states it (under the flags) *)
  Definition access_name (pe : postfix_expr) (exports : list str) : str :=
    match pe with
    | PAccess _ id => path_or_self impl_flags_c04 (id_string id) exports
    | PNamedAccess _ s => s_value s
    end.

  Lemma eval_postfix_run item pe parent st :
    eval_postfix u item pe parent st =
    match get_node (rs_g st) item with
    | None => inr (FPanic RNodeIndex)
    | Some nd =>
        match inst_exports u (nitem nd) with
        | None => inr (FErr (ENotAnInstance OpAccess parent))
        | Some ex =>
            if has_key ex (access_name pe (map fst ex)) then
              match alias u (rs_g st) item (ru_intern u (access_name pe (map fst ex))) with
              | (g', ONode n) => inl (n, {| rs_g := g'; rs_scope := rs_scope st |})
              | (_, OPanic p) => inr (FPanic (RGraph p))
              | _ => inr (FPanic RAliasExpect)
              end
            else inr (FErr (EMissingInstanceExport (access_name pe (map fst ex)) (off (postfix_span pe))))
        end
    end.
  Proof.
    destruct pe as [sp id|sp s]; cbn [eval_postfix access_name postfix_span].
    - unfold bind at 1, kind_of, bind at 1, get_g at 1.
      destruct (get_node (rs_g st) item) as [nd|] eqn:G; [|reflexivity]. unfold ret at 1.
      destruct (inst_exports u (nitem nd)) as [ex|] eqn:IE; [|reflexivity].
      rewrite find_matching_is_path_rule. unfold bind at 1. rewrite alias_export_run, G, IE.
      destruct (has_key ex _); [|reflexivity]. destruct (alias u (rs_g st) item _) as [g' o]. destruct o; reflexivity.
    - unfold bind at 1. rewrite alias_export_run. destruct (get_node (rs_g st) item) as [nd|]; [|reflexivity].
      destruct (inst_exports u (nitem nd)) as [ex|]; [|reflexivity]. destruct (has_key ex (s_value s)); [|reflexivity].
      destruct (alias u (rs_g st) item _) as [g' o]. destruct o; reflexivity.
  Qed.

  (** C04 3. Access expressions: [e.id] / [e["name"]] succeed exactly on an instance that has the export
      the reference names, and yield the graph's alias of that export of that instance *)
  Theorem access_spec_ok item pe parent st n st' :
    eval_postfix u item pe parent st = inl (n, st') ->
    exists nd ex,
      get_node (rs_g st) item = Some nd /\ inst_exports u (nitem nd) = Some ex /\
      has_key ex (access_name pe (map fst ex)) = true /\
      alias u (rs_g st) item (ru_intern u (access_name pe (map fst ex))) = (rs_g st', ONode n) /\
      rs_scope st' = rs_scope st.
  Proof.
    rewrite eval_postfix_run. destruct (get_node (rs_g st) item) as [nd|]; [|discriminate].
    destruct (inst_exports u (nitem nd)) as [ex|] eqn:IE; [|discriminate].
    destruct (has_key ex _) eqn:HK; [|discriminate]. destruct (alias u (rs_g st) item _) as [g' o] eqn:A.
    destruct o; try discriminate. intros [= <- <-]. exists nd, ex. auto.
  Qed.

  (** ... and the two ways they are ill-formed, with the diagnostics *)
  Theorem access_spec_err item pe parent st e :
    eval_postfix u item pe parent st = inr (FErr e) ->
    exists nd, get_node (rs_g st) item = Some nd /\
      match inst_exports u (nitem nd) with
      | None => e = ENotAnInstance OpAccess parent
      | Some ex => has_key ex (access_name pe (map fst ex)) = false /\
                   e = EMissingInstanceExport (access_name pe (map fst ex)) (off (postfix_span pe))
      end.
  Proof.
    rewrite eval_postfix_run. destruct (get_node (rs_g st) item) as [nd|]; [|discriminate].
    intros H. exists nd. split; [reflexivity|]. revert H.
    destruct (inst_exports u (nitem nd)) as [ex|]; [|now intros [= <-]].
    destruct (has_key ex _); [destruct (alias u (rs_g st) item _) as [g' o]; destruct o; discriminate|].
    intros [= <-]. auto.
  Qed.

  (** C04 6a, access: an access on something that is not an instance is rejected with [NotAnInstance{Access}] at
      the span of the operand, and only then *)
  Theorem access_not_instance_iff item pe parent st nd :
    get_node (rs_g st) item = Some nd ->
    forall a, eval_postfix u item pe parent st = inr (FErr (ENotAnInstance OpAccess a)) <->
              inst_exports u (nitem nd) = None /\ a = parent.
  Proof.
    intros G a. rewrite eval_postfix_run, G. destruct (inst_exports u (nitem nd)) as [ex|].
    - split; [|intros [X _]; discriminate].
      destruct (has_key ex _); [destruct (alias u (rs_g st) item _) as [g' o]; destruct o; discriminate|discriminate].
    - split; [intros [= <-]; auto|intros [_ ->]; reflexivity].
  Qed.
End Access.

Section Args.
  Variable u : runiverse.

  (** the import name / accessed export name a node carries *)
  Definition node_source (g : gstate) (n : nat) : option str :=
    match get_node g n with
    | Some nd =>
        match nk nd with
        | NImport nm => Some (ru_text u nm)
        | _ => match get_alias_source u g n with Some (_, nm) => Some (ru_text u nm) | None => None end
        end
    | None => None
    end.

  (** rules 2-4 of an inferred argument, on any candidate source name *)
  Lemma source_or_path_spec (imports : list (str * kid)) idn (src : option str) st nm st' :
    (match (match src with Some x => if has_key imports x then Some x else None | None => None end) with
     | Some x => ret x
     | None => match find_matching_interface_name idn imports with Some n => ret n | None => ret idn end
     end) st = inl (nm, st') ->
    st' = st /\
    nm = match (match src with Some x => if mem x (map fst imports) then Some x else None | None => None end) with
         | Some x => x
         | None => path_or_self impl_flags_c04 idn (map fst imports)
         end.
  Proof.
    rewrite <- (find_matching_is_path_rule idn imports).
    destruct src as [x|]; [rewrite <- has_key_mem; destruct (has_key imports x)|];
      [|destruct (find_matching_interface_name idn imports)..]; intros H; apply ret_inl in H as [-> ->]; auto.
  Qed.

  (** the name of an inferred argument is the one the four rules of the reference give, from the
      package path of the item's type, the import/export name it came from, and the identifier *)
  Lemma inferred_name_spec imports id item st nm st' :
    inferred_name u imports id item st = inl (nm, st') ->
    st' = st /\ exists nd, get_node (rs_g st) item = Some nd /\
      nm = infer_arg_name impl_flags_c04 (map fst imports) (id_string id)
                          (instance_id u (nitem nd)) (node_source (rs_g st) item).
  Proof.
    unfold inferred_name. intros H. apply bind_inl in H as (k & s1 & H1 & H).
    apply kind_of_inl in H1 as (-> & nd & G & ->).
    enough (E : st' = st /\ nm = infer_arg_name impl_flags_c04 (map fst imports) (id_string id)
                                   (instance_id u (nitem nd)) (node_source (rs_g st) item))
      by (destruct E; split; eauto).
    unfold infer_arg_name.
    replace (match instance_id u (nitem nd) with Some p => if mem p (map fst imports) then Some p else None | None => None end)
      with (match instance_id u (nitem nd) with Some i => if has_key imports i then Some i else None | None => None end)
      by (destruct (instance_id u (nitem nd)); [rewrite has_key_mem|]; reflexivity).
    destruct (match instance_id u (nitem nd) with Some i => if has_key imports i then Some i else None | None => None end).
    { now apply ret_inl in H as [-> ->]. }
    apply bind_inl in H as (g & s2 & H1 & H). apply get_g_inl in H1 as [-> ->].
    unfold node_import_name in H. unfold node_source. rewrite G in *.
    destruct (nk nd); try exact (source_or_path_spec _ _ (Some _) _ _ _ H);
      apply (source_or_path_spec _ _ (match get_alias_source u (rs_g st) item with Some (_, a) => Some (ru_text u a) | None => None end));
      destruct (get_alias_source u (rs_g st) item) as [[? ?]|]; exact H.
  Qed.

  (** the name [export e;] uses: the package path of the instance's type, else the import name, else
      the accessed export name ([LangSpec.export_name_of] on the node's facts) *)
  Theorem infer_export_name_spec item st r st' :
    infer_export_name u item st = inl (r, st') ->
    st' = st /\ exists nd, get_node (rs_g st) item = Some nd /\
      r = match instance_id u (nitem nd) with Some p => Some p | None => node_source (rs_g st) item end.
  Proof.
    unfold infer_export_name. intros H. apply bind_inl in H as (k & s1 & H1 & H).
    apply kind_of_inl in H1 as (-> & nd & G & ->).
    enough (E : st' = st /\ r = match instance_id u (nitem nd) with Some p => Some p | None => node_source (rs_g st) item end)
      by (destruct E; split; eauto).
    destruct (instance_id u (nitem nd)) as [i|]; [apply ret_inl in H as [-> ->]; auto|].
    apply bind_inl in H as (g & s2 & H1 & H). apply get_g_inl in H1 as [-> ->].
    unfold node_import_name in H. unfold node_source. rewrite G in *.
    destruct (nk nd); try (apply ret_inl in H as [-> ->]; auto; fail).
    all: destruct (get_alias_source u (rs_g st) item) as [[src nm]|]; apply ret_inl in H as [-> ->]; auto.
  Qed.

  Definition is_fill_arg (a : inst_arg) : bool := match a with AFill _ => true | _ => false end.
  Definition is_explicit_arg (a : inst_arg) : bool := match a with AInferred _ | ANamed _ _ => true | _ => false end.

  Lemma tbl_insert_inl t nm item at_ st t' st' :
    tbl_insert t nm item at_ st = inl (t', st') -> st' = st /\ has_key t nm = false /\ t' = t ++ [(nm, (item, at_))].
  Proof. unfold tbl_insert. destruct (has_key t nm); [discriminate|]. intros H. apply ret_inl in H as [-> ->]. auto. Qed.

  Lemma NoDup_keys_snoc (t : argtbl) nm x : NoDup (map fst t) -> has_key t nm = false -> NoDup (map fst (t ++ [(nm, x)])).
  Proof. intros ND HK. rewrite map_app. apply NoDup_app_one; [exact ND|now apply has_key_false]. Qed.

  (** after the first pass: the table has one entry per explicit argument, in order, with distinct
      names; [...] is accepted only as the last argument and clears [require_all] *)
  Lemma pass1_inl evalf imports args : forall t req st t' req' st',
    pass1 u evalf imports args t req st = inl ((t', req'), st') ->
    NoDup (map fst t) ->
    NoDup (map fst t') /\
    (exists ex, t' = t ++ ex /\ length ex = length (filter is_explicit_arg args)) /\
    req' = (req && negb (existsb is_fill_arg args)) /\
    (forall pre sp post, args = pre ++ AFill sp :: post -> post = []).
  Proof.
    induction args as [|a r IH]; intros t req st t' req' st' H ND.
    - cbn in H. apply ret_inl in H as [[= -> ->] ->]. repeat split; auto.
      + exists []. now rewrite app_nil_r.
      + now rewrite andb_true_r.
      + intros [|? ?] sp post E; discriminate.
    - destruct a as [id|id|an e|sp]; cbn [pass1] in H.
      + apply bind_inl in H as (item & s1 & H1 & H). apply bind_inl in H as (nm & s2 & H2 & H).
        apply bind_inl in H as (t1 & s3 & H3 & H). apply tbl_insert_inl in H3 as (-> & HK & ->).
        apply IH in H as (ND' & (ex & -> & L) & -> & F); [|now apply NoDup_keys_snoc].
        repeat split; auto.
        * exists ((nm, (item, off (id_span id))) :: ex). split; [now rewrite <- app_assoc|]. cbn. now rewrite L.
        * intros [|x pre] sp post E; [discriminate|]. injection E as _ E. eauto.
      + apply IH in H as (ND' & (ex & -> & L) & -> & F); auto. repeat split; auto.
        * exists ex. auto.
        * intros [|x pre] sp post E; [discriminate|]. injection E as _ E. eauto.
      + apply bind_inl in H as (item & s1 & H1 & H).
        apply bind_inl in H as (t1 & s3 & H3 & H). apply tbl_insert_inl in H3 as (-> & HK & ->).
        apply IH in H as (ND' & (ex & -> & L) & -> & F); [|now apply NoDup_keys_snoc].
        repeat split; auto.
        * exists ((named_name imports an, (item, arg_name_at an)) :: ex). split; [now rewrite <- app_assoc|]. cbn. now rewrite L.
        * intros [|x pre] sp post E; [discriminate|]. injection E as _ E. eauto.
      + destruct r as [|b r]; [|discriminate].
        cbn in H. apply ret_inl in H as [[= -> ->] ->]. repeat split; auto.
        * exists []. now rewrite app_nil_r.
        * cbn. now rewrite andb_false_r.
        * intros [|x pre] sp' post E; [now injection E as _ <-|]. injection E as _ E. destruct pre; discriminate.
  Qed.

  (** a [...] that is not the last argument is rejected where it stands *)
  Lemma pass1_fill_not_last evalf imports sp b r t req st :
    pass1 u evalf imports (AFill sp :: b :: r) t req st = inr (FErr (EFillArgumentNotLast (off sp))).
  Proof. reflexivity. Qed.

  (** a repeated argument name is rejected at the second occurrence *)
  Lemma tbl_insert_duplicate t nm item at_ st :
    has_key t nm = true <-> tbl_insert t nm item at_ st = inr (FErr (EDuplicateInstantiationArg nm at_)).
  Proof. unfold tbl_insert. destruct (has_key t nm); split; auto; discriminate. Qed.

  (** in SOME graph, [alias] answers [n] for export [nm] of node [item]; the graph is not tied to the
      state at hand (the proofs supply the state where the spread was applied) *)
  Definition alias_witness (item : nat) (nm : str) (n : nat) : Prop :=
    exists g g', alias u g item (ru_intern u nm) = (g', ONode n).

  Lemma has_key_snoc_other {V} (t : list (str * V)) nm v x : x <> nm -> has_key (t ++ [(nm, v)]) x = has_key t x.
  Proof.
    intros Hne. unfold has_key. rewrite im_get_app. destruct (im_get t x); auto. cbn.
    destruct (str_eqb nm x) eqn:E; auto. apply str_eqb_eq in E. congruence.
  Qed.

  Definition spread_filter (t : argtbl) (ex : list (str * kid)) (expected : list str) : list str :=
    filter (fun n => negb (has_key t n) && has_key ex n) expected.

  Lemma spread_names_inl item at_ nd ex : forall expected t any st t' any' st',
    spread_names u item at_ expected t any st = inl ((t', any'), st') ->
    nofree (rs_g st) -> NoDup expected ->
    get_node (rs_g st) item = Some nd -> inst_exports u (nitem nd) = Some ex ->
    exists adds, t' = t ++ adds /\
      map fst adds = spread_filter t ex expected /\
      Forall (fun p => snd (snd p) = at_ /\ alias_witness item (fst p) (fst (snd p))) adds /\
      any' = (any || negb (is_nil adds)) /\
      rs_scope st' = rs_scope st /\ gframe (rs_g st) (rs_g st').
  Proof.
    induction expected as [|nm r IH]; intros t any st t' any' st' H F ND G IE.
    - cbn in H. apply ret_inl in H as [[= -> ->] ->]. exists []. rewrite app_nil_r, orb_false_r.
      pose proof (gframe_refl _ F). auto 8.
    - inversion ND as [|? ? Hnot ND']; subst. cbn [spread_names] in H. unfold spread_filter. cbn [filter].
      destruct (has_key t nm) eqn:HK; [now apply IH|].
      unfold bind at 1 in H. rewrite alias_export_run, G, IE in H. destruct (has_key ex nm); cbn [negb andb]; [|now apply IH].
      destruct (alias u (rs_g st) item (ru_intern u nm)) as [g1 o] eqn:A. destruct o; try discriminate.
      destruct (alias_same_nodes u _ _ _ _ _ F A) as (F1 & _ & _ & _ & N1).
      apply IH in H as (adds & -> & MF & FA & -> & Sc2 & GF); auto.
      exists ((nm, (n, at_)) :: adds). rewrite <- app_assoc. split; [reflexivity|].
      split; [|split; [|split; [|split]]].
      + cbn [map fst]. f_equal. rewrite MF. unfold spread_filter. apply filter_ext_in. intros x Hx.
        rewrite has_key_snoc_other; auto. intros ->. contradiction.
      + constructor; auto. cbn. split; auto. exists (rs_g st), g1. exact A.
      + cbn. now rewrite orb_true_r.
      + exact Sc2.
      + eapply gframe_trans; [eapply alias_gframe; eauto|exact GF].
  Qed.

  Lemma local_item_inl id st n st' :
    local_item id st = inl (n, st') -> st' = st /\ exists at0, im_get (rs_scope st) (id_string id) = Some (n, at0).
  Proof.
    unfold local_item. intros H. apply bind_inl in H as (sc & s1 & H1 & H). apply get_scope_inl in H1 as [-> ->].
    destruct (im_get (rs_scope st) (id_string id)) as [[m a]|]; [|discriminate]. apply ret_inl in H as [-> ->]. eauto.
  Qed.

  (** an undefined local name is rejected with its own diagnostic, and only then *)
  Lemma local_item_undefined id st :
    im_get (rs_scope st) (id_string id) = None <->
    local_item id st = inr (FErr (EUndefinedName (id_string id) (off (id_span id)))).
  Proof.
    unfold local_item, bind, get_scope. destruct (im_get (rs_scope st) (id_string id)) as [[m a]|]; split; auto; discriminate.
  Qed.

  Record spread_rec := { sr_id : ident; sr_item : nat; sr_exports : list (str * kid); sr_adds : argtbl }.

  Definition spread_entry_ok (r : spread_rec) (p : str * (nat * N)) : Prop :=
    snd (snd p) = off (id_span (sr_id r)) /\ alias_witness (sr_item r) (fst p) (fst (snd p)).

  (** the table after the spreads [recs], applied in order to the table [t] *)
  Inductive spreads_from (expected : list str) : argtbl -> list spread_rec -> argtbl -> Prop :=
  | SF_nil t : spreads_from expected t [] t
  | SF_cons t r rest t' :
      map fst (sr_adds r) = spread_filter t (sr_exports r) expected ->
      sr_adds r <> [] ->
      Forall (spread_entry_ok r) (sr_adds r) ->
      spreads_from expected (t ++ sr_adds r) rest t' ->
      spreads_from expected t (r :: rest) t'.

  Lemma spread_arg_run id expected t st :
    spread_arg u id expected t st =
    match im_get (rs_scope st) (id_string id) with
    | None => inr (FErr (EUndefinedName (id_string id) (off (id_span id))))
    | Some (item, _) =>
        match get_node (rs_g st) item with
        | None => inr (FPanic RNodeIndex)
        | Some nd =>
            match inst_exports u (nitem nd) with
            | None => inr (FErr (ENotAnInstance OpSpread (off (id_span id))))
            | Some _ =>
                match spread_names u item (off (id_span id)) expected t false st with
                | inl ((t', any), s) =>
                    if any then inl (t', s) else inr (FErr (ESpreadInstantiationNoMatch (off (id_span id))))
                | inr f => inr f
                end
            end
        end
    end.
  Proof.
    unfold spread_arg, bind at 1, local_item, bind at 1, get_scope at 1.
    destruct (im_get (rs_scope st) (id_string id)) as [[item at0]|]; [|reflexivity]. unfold ret at 1.
    unfold bind at 1, kind_of, bind at 1, get_g at 1. destruct (get_node (rs_g st) item) as [nd|]; [|reflexivity].
    unfold ret at 1, inst_exports. destruct (u_inst_exports u (nitem nd)); [|reflexivity]. unfold bind at 1.
    destruct (spread_names u item (off (id_span id)) expected t false st) as [[[t' any] s]|f]; [|reflexivity].
    destruct any; reflexivity.
  Qed.

  Lemma spread_arg_inl id expected t st t' st' :
    spread_arg u id expected t st = inl (t', st') -> nofree (rs_g st) -> NoDup expected ->
    exists item at0 nd ex adds,
      im_get (rs_scope st) (id_string id) = Some (item, at0) /\ get_node (rs_g st) item = Some nd /\
      inst_exports u (nitem nd) = Some ex /\ t' = t ++ adds /\ map fst adds = spread_filter t ex expected /\
      adds <> [] /\
      Forall (fun p => snd (snd p) = off (id_span id) /\ alias_witness item (fst p) (fst (snd p))) adds /\
      nofree (rs_g st') /\ rs_scope st' = rs_scope st /\ gframe (rs_g st) (rs_g st').
  Proof.
    rewrite spread_arg_run. destruct (im_get (rs_scope st) (id_string id)) as [[item at0]|]; [|discriminate].
    destruct (get_node (rs_g st) item) as [nd|] eqn:G; [|discriminate].
    destruct (inst_exports u (nitem nd)) as [ex|] eqn:IE; [|discriminate].
    destruct (spread_names u item (off (id_span id)) expected t false st) as [[[t2 any] s3]|f] eqn:SN; [|discriminate].
    intros H F ND.
    destruct (spread_names_inl item _ nd ex _ _ _ _ _ _ _ SN F ND G IE) as (adds & -> & MF & FA & -> & Sc2 & GF).
    cbn [orb] in H. destruct adds as [|a adds]; [discriminate|]. injection H as <- <-.
    exists item, at0, nd, ex, (a :: adds). assert (a :: adds <> []) by discriminate.
    pose proof (gf_free _ _ GF). auto 12.
  Qed.

  Definition spread_idents (args : list inst_arg) : list ident :=
    flat_map (fun a => match a with ASpread id => [id] | _ => [] end) args.

  (** what is known of a spread when it was applied: its identifier names a node of the scope
      whose kind is an instance with the recorded exports *)
  Definition spread_rec_ok (st : rstate) (r : spread_rec) : Prop :=
    exists at0 nd s, im_get (rs_scope st) (id_string (sr_id r)) = Some (sr_item r, at0) /\
      gframe (rs_g st) (rs_g s) /\ get_node (rs_g s) (sr_item r) = Some nd /\
      inst_exports u (nitem nd) = Some (sr_exports r).

  Lemma pass2_inl expected : forall args t st t' st',
    pass2 u args expected t st = inl (t', st') -> nofree (rs_g st) -> NoDup expected ->
    exists recs, map sr_id recs = spread_idents args /\ Forall (spread_rec_ok st) recs /\
      spreads_from expected t recs t' /\
      nofree (rs_g st') /\ rs_scope st' = rs_scope st /\ gframe (rs_g st) (rs_g st').
  Proof.
    induction args as [|a r IH]; intros t st t' st' H F ND.
    - cbn in H. apply ret_inl in H as [-> ->]. exists []. pose proof (gframe_refl _ F). auto 8 using SF_nil.
    - destruct a as [id|id|an e|sp]; cbn [pass2] in H; cbn [spread_idents flat_map app]; try (now apply IH).
      apply bind_inl in H as (t1 & s1 & H1 & H).
      apply spread_arg_inl in H1 as (item & at0 & nd & ex & adds & L & G & IE & -> & MF & NE & FA & F1 & Sc1 & GF1); auto.
      apply IH in H as (recs & Ids & Oks & SF & F2 & Sc2 & GF2); auto.
      exists ({| sr_id := id; sr_item := item; sr_exports := ex; sr_adds := adds |} :: recs).
      split; [cbn; now rewrite Ids|]. split; [|split; [|split; [|split]]]; auto.
      + constructor.
        * exists at0, nd, st. cbn. split; [exact L|]. split; [now apply gframe_refl|]. split; [exact G|exact IE].
        * eapply Forall_impl; [|exact Oks]. intros rr (a0 & n0 & s & L0 & GF0 & G0 & I0).
          exists a0, n0, s. rewrite <- Sc1. split; [exact L0|]. split; [eapply gframe_trans; eauto|]. split; [exact G0|exact I0].
      + constructor; auto.
      + congruence.
      + eapply gframe_trans; eauto.
  Qed.

  Definition to_src (r : spread_rec) : spread_src (nat * N) :=
    {| sp_val := (sr_item r, off (id_span (sr_id r))); sp_exports := map fst (sr_exports r) |}.

  Lemma spreads_from_binding expected fill : forall t recs t',
    spreads_from expected t recs t' -> NoDup expected ->
    forall i, In i expected ->
    match bind_import t (map to_src recs) fill i with
    | BExplicit x => im_get t' i = Some x
    | BSpread sp => exists n, im_get t' i = Some (n, snd (sp_val sp)) /\ alias_witness (fst (sp_val sp)) i n
    | BImplicit | BMissing => im_get t' i = None
    end.
  Proof.
    induction 1 as [t|t r rest t' MF NE FA SF IH]; intros ND i Hi.
    - unfold bind_import. cbn. destruct (im_get t i) eqn:E; auto. destruct fill; auto.
    - specialize (IH ND i Hi). unfold bind_import in *. cbn [map first_spread find]. fold (first_spread (map to_src rest) i).
      rewrite im_get_app in IH. destruct (im_get t i) as [v|] eqn:E; [exact IH|].
      cbn [to_src sp_exports]. rewrite <- has_key_mem.
      destruct (has_key (sr_exports r) i) eqn:HK.
      + (* the first spread that exports [i] *)
        assert (Hin : In i (map fst (sr_adds r))).
        { rewrite MF. unfold spread_filter. apply filter_In. split; auto. unfold has_key at 1. now rewrite E, HK. }
        apply in_map_iff in Hin as ([k [n a]] & Hk & Hin). cbn in Hk. subst k.
        assert (NDa : NoDup (map fst (sr_adds r))) by (rewrite MF; now apply NoDup_filter).
        rewrite (In_im_get _ _ _ NDa Hin) in IH.
        rewrite Forall_forall in FA. destruct (FA _ Hin) as [At W]. cbn in At, W. subst a.
        cbn [sp_val to_src fst snd]. eauto.
      + assert (Hnot : ~ In i (map fst (sr_adds r))).
        { rewrite MF. unfold spread_filter. intros H. apply filter_In in H as [_ H]. rewrite HK, andb_false_r in H. discriminate. }
        apply im_get_None in Hnot. rewrite Hnot in IH. exact IH.
  Qed.
End Args.
