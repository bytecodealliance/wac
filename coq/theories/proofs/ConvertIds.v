(** Identity of converted identifiers.

    - [convert_ids_injective] (here [ids_injective]): two DISTINCT validator identifiers are never converted to the same [wac_types] identifier
      (the converse of [convert_cache_consistent]).  The only shared values are the handle value types [own r] /
      [borrow r], which are not identifiers of their own in [wac_types].
    - [resource_alias_spec] (here [resources_identity]): converted resources preserve identity and aliasing: two validator resource identifiers are
      converted to resources with the same alias root iff they have the same underlying validator resource
      ([AliasableResourceId::resource()], which is what [resource_map] is keyed by).

    Invariant: every cached identifier is in range, no [wac_types] slot is cached twice, every [resource_map] value is an
    un-aliased resource and the map is injective, every cached resource has as alias root the [resource_map] entry of
    its validator resource.  Frame: conversions only add cache entries for slots allocated after they started. *)
From Coq Require Import Lia.
From WacV Require Import Str ListFacts Types CheckerEq Convert ConvertSpec ConvertProofs ConvertFrame ConvertCache.
Set Warnings "-unused-intro-pattern".

Inductive arena := ADef | ARes | AFunc | AIf | AWorld | AMod.
Definition arena_len (t : types) (a : arena) : nat :=
  match a with
  | ADef => length (t_defined t) | ARes => length (t_resources t) | AFunc => length (t_funcs t)
  | AIf => length (t_interfaces t) | AWorld => length (t_worlds t) | AMod => length (t_modules t)
  end.
(** the [wac_types] slot an entity occupies; the handle / primitive value types occupy none *)
Definition ent_slot (e : entity) : option (arena * id) :=
  match e with
  | EnType (TValue (VDefined d)) => Some (ADef, d)
  | EnType (TValue _) => None
  | EnType (TResource r) | EnRes r => Some (ARes, r)
  | EnType (TFunc f) => Some (AFunc, f)
  | EnType (TInterface i) => Some (AIf, i)
  | EnType (TWorld w) => Some (AWorld, w)
  | EnType (TModule m) => Some (AMod, m)
  end.
Definition valid_ent (t : types) (e : entity) : Prop :=
  match ent_slot e with Some (a, i) => id_tag i = t_tag t /\ (id_idx i < arena_len t a)%nat | None => True end.
Definition fresh_ent (t : types) (e : entity) : Prop :=
  match ent_slot e with Some (a, i) => (arena_len t a <= id_idx i)%nat | None => True end.

Lemma agree_lens O t t' : agree O t t' -> forall a, (arena_len t a <= arena_len t' a)%nat.
Proof.
  intros A a.
  assert (P : forall X (l l' : list X), (forall i d, nth_error l i = Some d -> nth_error l' i <> None) -> (length l <= length l')%nat).
  { intros X l l' H. destruct (Nat.le_gt_cases (length l) (length l')) as [Hle|Hgt]; [exact Hle|].
    destruct (nth_error l (length l')) as [d|] eqn:E; [|apply nth_error_None in E; lia].
    apply H, nth_error_Some in E. lia. }
  destruct a; cbn [arena_len].
  - apply P. intros i d H. rewrite (ag_def _ _ _ A _ _ H). discriminate.
  - apply P. intros i d H. destruct (ag_res _ _ _ A _ _ H) as [r' [-> _]]. discriminate.
  - apply P. intros i d H. rewrite (ag_func _ _ _ A _ _ H). discriminate.
  - apply (ag_len_if _ _ _ A).
  - apply (ag_len_world _ _ _ A).
  - apply P. intros i d H. rewrite (ag_mod _ _ _ A _ _ H). discriminate.
Qed.

(** the kind of a cache entry is the kind of the validator node *)
Definition node_matches (n : option vnode) (e : entity) : Prop :=
  match n, e with
  | Some (NDef _), EnType (TValue _) | Some (NFunc _ _ _), EnType (TFunc _) | Some (NInst _), EnType (TInterface _)
  | Some (NComp _ _), EnType (TWorld _) | Some (NMod _), EnType (TModule _) | Some (NRes _), EnRes _ => True
  | _, _ => False
  end.

Section Ids.
  Variable g : vgraph.

  Definition rid_of_node (v : vid) : option nat := match node_of g v with Some (NRes r) => Some r | _ => None end.
  Definition is_root (t : types) (r : id) : Prop :=
    id_tag r = t_tag t /\ exists x, nth_error (t_resources t) (id_idx r) = Some x /\ res_source x = None.

  Record ids_inv (s : cstate) : Prop := mkinv {
    iv_valid : forall v e, In (v, e) (cs_cache s) -> valid_ent (cs_types s) e;
    iv_kind : forall v e, In (v, e) (cs_cache s) -> node_matches (node_of g v) e;
    iv_inj : forall v1 v2 e1 e2 x, In (v1, e1) (cs_cache s) -> In (v2, e2) (cs_cache s) ->
             ent_slot e1 = Some x -> ent_slot e2 = Some x -> v1 = v2;
    iv_roots : forall rid r, In (rid, r) (cs_resmap s) -> is_root (cs_types s) r;
    iv_rinj : forall rid1 rid2 r, nassoc rid1 (cs_resmap s) = Some r -> nassoc rid2 (cs_resmap s) = Some r -> rid1 = rid2;
    iv_res : forall v r, In (v, EnRes r) (cs_cache s) ->
             exists rid root, rid_of_node v = Some rid /\ nassoc rid (cs_resmap s) = Some root /\
                              res_root 2 (cs_types s) r = Some root }.

  (** what a conversion does to the state *)
  Record adv (s s' : cstate) : Prop := mkadv {
    adv_tag : t_tag (cs_types s') = t_tag (cs_types s);
    adv_len : forall a, (arena_len (cs_types s) a <= arena_len (cs_types s') a)%nat;
    adv_res : forall i x, nth_error (t_resources (cs_types s)) i = Some x ->
              exists x', nth_error (t_resources (cs_types s')) i = Some x' /\ res_source x' = res_source x;
    adv_cache : exists new, cs_cache s' = new ++ cs_cache s /\ forall v e, In (v, e) new -> fresh_ent (cs_types s) e;
    adv_resmap : exists newr, cs_resmap s' = newr ++ cs_resmap s /\
                 forall rid r, In (rid, r) newr -> nassoc rid (cs_resmap s) = None }.

  Lemma adv_refl s : adv s s.
  Proof. constructor; eauto; [exists []; split; [reflexivity | intros ? ? []] | exists []; split; [reflexivity | intros ? ? []]]. Qed.
  Lemma fresh_mono t t' e : (forall a, (arena_len t a <= arena_len t' a)%nat) -> fresh_ent t' e -> fresh_ent t e.
  Proof. unfold fresh_ent. destruct (ent_slot e) as [[a i]|]; [|auto]. intros H F. specialize (H a). lia. Qed.
  Lemma adv_trans s1 s2 s3 : adv s1 s2 -> adv s2 s3 -> adv s1 s3.
  Proof.
    intros [A1 A2 A3 [n1 [A4 A5]] [r1 [A6 A7]]] [B1 B2 B3 [n2 [B4 B5]] [r2 [B6 B7]]]. constructor.
    - congruence.
    - intro a. specialize (A2 a). specialize (B2 a). lia.
    - intros i x H. destruct (A3 _ _ H) as [x' [H1 H2]]. destruct (B3 _ _ H1) as [x'' [H3 H4]]. exists x''. split; congruence.
    - exists (n2 ++ n1). split; [rewrite B4, A4; now rewrite app_assoc|]. intros v e Hin. apply in_app_or in Hin as [Hin|Hin].
      + eapply fresh_mono; [exact A2 | eapply B5; exact Hin].
      + eapply A5; exact Hin.
    - exists (r2 ++ r1). split; [rewrite B6, A6; now rewrite app_assoc|]. intros rid r Hin. apply in_app_or in Hin as [Hin|Hin].
      + apply B7 in Hin. rewrite A6 in Hin. eapply nassoc_app_none; exact Hin.
      + eapply A7; exact Hin.
  Qed.

  Lemma res_root_agree O t t' : agree O t t' -> forall f r root, res_root f t r = Some root -> res_root f t' r = Some root.
  Proof.
    intros A. induction f as [|f IH]; intros r root; [discriminate|]. cbn [res_root].
    destruct (get_res t r) as [x|] eqn:E; [|discriminate]. destruct (agree_get_res _ _ _ A _ _ E) as [x' [-> [_ Hs]]].
    rewrite Hs. destruct (res_source x); [apply IH | auto].
  Qed.

  Lemma types_step O s s' :
    agree O (cs_types s) (cs_types s') -> cs_cache s' = cs_cache s -> cs_resmap s' = cs_resmap s ->
    ids_inv s -> ids_inv s' /\ adv s s'.
  Proof.
    intros A Hc Hr [I1 IK I2 I3 I4 I5]. pose proof (agree_lens _ _ _ A) as L. split.
    - constructor; rewrite ?Hc, ?Hr; auto.
      + intros v e Hin. specialize (I1 v e Hin). unfold valid_ent in *. destruct (ent_slot e) as [[a i]|]; [|auto].
        destruct I1 as [T1 T2]. rewrite (ag_tag _ _ _ A). split; [exact T1 | specialize (L a); lia].
      + intros rid r Hin. destruct (I3 rid r Hin) as [T [x [E1 E2]]]. destruct (ag_res _ _ _ A _ _ E1) as [x' [E1' [_ E3]]].
        split; [now rewrite (ag_tag _ _ _ A)|]. exists x'. split; [exact E1' | congruence].
      + intros v r Hin. destruct (I5 v r Hin) as [rid [root [H1 [H2 H3]]]]. exists rid, root. repeat split; auto.
        eapply res_root_agree; eassumption.
    - constructor.
      + apply (ag_tag _ _ _ A).
      + exact L.
      + intros i x H. destruct (ag_res _ _ _ A _ _ H) as [x' [H1 [_ H2]]]. eauto.
      + exists []. split; [now rewrite Hc | intros ? ? []].
      + exists []. split; [now rewrite Hr | intros ? ? []].
  Qed.

  Definition unused (s : cstate) (e : entity) : Prop :=
    forall v' e' x, In (v', e') (cs_cache s) -> ent_slot e' = Some x -> ent_slot e = Some x -> False.

  Lemma put_step s0 s v e :
    ids_inv s -> node_matches (node_of g v) e -> valid_ent (cs_types s) e -> unused s e -> fresh_ent (cs_types s0) e ->
    (forall r, e = EnRes r -> exists rid root, rid_of_node v = Some rid /\ nassoc rid (cs_resmap s) = Some root /\
                                                res_root 2 (cs_types s) r = Some root) ->
    adv s0 s -> ids_inv (cache_put s v e) /\ adv s0 (cache_put s v e).
  Proof.
    intros [I1 IK I2 I3 I4 I5] Hk Hv Hu Hf Hr A. split.
    - constructor; unfold cache_put; cbn [cs_cache cs_types cs_resmap]; auto.
      + intros v' e' [Hin|Hin]; [injection Hin as <- <-; exact Hv | eauto].
      + intros v' e' [Hin|Hin]; [injection Hin as <- <-; exact Hk | eauto].
      + intros v1 v2 e1 e2 x [H1|H1] [H2|H2] E1 E2.
        * congruence.
        * injection H1 as <- <-. exfalso. eapply Hu; eassumption.
        * injection H2 as <- <-. exfalso. eapply Hu; eassumption.
        * eauto.
      + intros v' r [Hin|Hin]; [injection Hin as Ev Ee; subst v'; exact (Hr r Ee) | eauto].
    - destruct A as [A1 A2 A3 [n [A4 A5]] A6]. constructor; unfold cache_put; cbn [cs_cache cs_types cs_resmap]; auto.
      exists ((v, e) :: n). split; [now rewrite A4|]. intros v' e' [Hin|Hin]; [injection Hin as <- <-; exact Hf | eauto].
  Qed.

  (** a freshly allocated slot is used by nobody *)
  Lemma unused_fresh s0 s e a i :
    ids_inv s0 -> adv s0 s -> ent_slot e = Some (a, i) -> id_idx i = arena_len (cs_types s0) a -> unused s0 e ->
    (forall v' e', In (v', e') (cs_cache s) -> In (v', e') (cs_cache s0) \/ fresh_ent (cs_types s0) e' /\ ent_slot e' <> Some (a, i)) ->
    unused s e.
  Proof.
    intros I0 A Es Hi U0 H v' e' x Hin E1 E2. rewrite Es in E2. injection E2 as <-.
    destruct (H v' e' Hin) as [Hold|[Hf Hne]]; [eapply U0; eauto | congruence].
  Qed.
  Lemma unused_at_len s e a i :
    ids_inv s -> ent_slot e = Some (a, i) -> id_idx i = arena_len (cs_types s) a -> unused s e.
  Proof.
    intros I Es Hi v' e' x Hin E1 E2. rewrite Es in E2. injection E2 as <-.
    pose proof (iv_valid _ I v' e' Hin) as Hv. unfold valid_ent in Hv. rewrite E1 in Hv. lia.
  Qed.

  Definition id_ok {R} (F : cstate -> cres (R * cstate)) : Prop := keeps ids_inv adv F.

  (** the result of the inner computation of [defined_body]: a handle, or a defined type allocated last *)
  Definition newval (s0 s : cstate) (v : valtype) : Prop :=
    valid_ent (cs_types s) (EnType (TValue v)) /\ unused s (EnType (TValue v)) /\ fresh_ent (cs_types s0) (EnType (TValue v)).

  Lemma mk_def_id s0 d s v s' :
    ids_inv s -> adv s0 s -> mk_def d s = COk (v, s') -> ids_inv s' /\ adv s0 s' /\ newval s0 s' v.
  Proof.
    intros I A H. unfold mk_def, add_def in H. injection H as <- <-.
    set (t1 := mktypes _ _ _ _ _ _ _). set (i := mkid _ _).
    assert (A1 : agree [] (cs_types s) t1) by apply (agree_add_def (cs_types s) d).
    destruct (types_step [] s (with_types s t1) A1 eq_refl eq_refl I) as [I1 A2].
    split; [exact I1|]. split; [eapply adv_trans; eassumption|]. split; [|split].
    - unfold valid_ent. cbn [ent_slot cs_types with_types]. split; [reflexivity|]. unfold t1, i. cbn [arena_len t_defined id_idx]. rewrite app_length. cbn. lia.
    - exact (unused_at_len s (EnType (TValue (VDefined i))) ADef i I eq_refl eq_refl).
    - unfold fresh_ent. cbn [ent_slot]. pose proof (adv_len _ _ A ADef). cbn [arena_len i id_idx] in *. lia.
  Qed.

  (** allocate-then-fill, for the three arenas where the two are adjacent *)
  Lemma alloc_put s0 s t1 v e a i :
    ids_inv s -> adv s0 s -> agree [] (cs_types s) t1 -> node_matches (node_of g v) e -> ent_slot e = Some (a, i) ->
    id_tag i = t_tag (cs_types s) -> id_idx i = arena_len (cs_types s) a -> (arena_len (cs_types s) a < arena_len t1 a)%nat ->
    (forall r, e = EnRes r -> exists rid root, rid_of_node v = Some rid /\ nassoc rid (cs_resmap s) = Some root /\
                                                res_root 2 t1 r = Some root) ->
    ids_inv (cache_put (with_types s t1) v e) /\ adv s0 (cache_put (with_types s t1) v e).
  Proof.
    intros I A A1 Hk Es Ht Hi Hl Hr.
    destruct (types_step [] s (with_types s t1) A1 eq_refl eq_refl I) as [I1 A2].
    apply put_step; [exact I1 | exact Hk | | | | exact Hr | eapply adv_trans; eassumption].
    - unfold valid_ent. rewrite Es. cbn [cs_types with_types]. rewrite (ag_tag _ _ _ A1). split; [exact Ht | lia].
    - exact (unused_at_len s e a i I Es Hi).
    - unfold fresh_ent. rewrite Es. pose proof (adv_len _ _ A a). lia.
  Qed.

  Lemma c_module_id v : id_ok (c_module g v).
  Proof.
    intros s r s' I H. destruct (c_module_run _ _ _ _ _ H) as [[_ ->]|[mt [_ [En [-> ->]]]]]; [split; [exact I | apply adv_refl]|].
    eapply (alloc_put s s _ v _ AMod); [exact I | apply adv_refl | apply (agree_add_mod (cs_types s)) | rewrite En; exact Logic.I | reflexivity
                                        | reflexivity | reflexivity | cbn; rewrite app_length; cbn; lia | intros; discriminate].
  Qed.

  Lemma get_res_new t r : get_res (snd (add_res t r)) (mkid (t_tag t) (length (t_resources t))) = Some r.
  Proof. unfold get_res, add_res. cbn [snd t_tag t_resources]. apply lookup_new. Qed.

  Lemma c_resource_id hf name v : id_ok (c_resource hf g name v).
  Proof.
    intros s r s' I H.
    destruct (c_resource_run _ _ _ _ _ _ _ H) as [[_ ->]|[rid [rr0 [_ [En [-> X]]]]]]; [split; [exact I | apply adv_refl]|].
    assert (Hrid : rid_of_node v = Some rid) by (unfold rid_of_node; now rewrite En).
    destruct X as [[src [ownr [Em [-> ->]]]]|[Em [-> ->]]].
    - set (rr := mkres name _).
      eapply (alloc_put s s _ v _ ARes); [exact I | apply adv_refl | apply (agree_add_res (cs_types s) rr) | rewrite En; exact Logic.I | reflexivity
                                          | reflexivity | reflexivity | cbn; rewrite app_length; cbn; lia |].
      intros r1 E1. injection E1 as <-. exists rid, src. split; [exact Hrid|]. split; [exact Em|].
      (* the new resource aliases the root *)
      cbn [res_root]. rewrite (get_res_new (cs_types s) rr). unfold res_source at 1. cbn [rr res_alias].
      destruct (iv_roots _ I rid src (nassoc_in _ _ _ Em)) as [T [x [E1 E2]]].
      assert (G2 : get_res (snd (add_res (cs_types s) rr)) src = Some x).
      { unfold get_res, add_res. cbn [snd t_tag t_resources]. apply lookup_intro; [exact T | now apply nth_error_app_some]. }
      rewrite G2, E2. reflexivity.
    - unfold add_res, cache_put. cbn [fst snd cs_types cs_cache cs_resmap cs_owners cs_log].
      set (rr := mkres name None). set (i := mkid _ _). set (t1 := mktypes _ _ _ _ _ _ _).
      assert (A1 : agree [] (cs_types s) t1) by apply (agree_add_res (cs_types s) rr).
      assert (G : get_res t1 i = Some rr) by (apply (get_res_new (cs_types s) rr)).
      assert (Rt : is_root t1 i).
      { split; [reflexivity|]. exists rr. split; [|reflexivity]. unfold t1, i. cbn [t_resources id_idx]. apply nth_error_snoc. }
      pose proof (agree_lens _ _ _ A1) as L.
      destruct I as [I1 IK I2 I3 I4 I5]. split.
      + constructor; cbn [cs_cache cs_types cs_resmap].
        * intros v' e' [Hin|Hin].
          -- injection Hin as <- <-. unfold valid_ent. cbn [ent_slot]. split; [reflexivity|]. unfold t1, i. cbn. rewrite app_length. cbn. lia.
          -- specialize (I1 v' e' Hin). unfold valid_ent in *. destruct (ent_slot e') as [[a j]|]; [|auto]. destruct I1 as [T1 T2].
             split; [exact T1 | specialize (L a); lia].
        * intros v' e' [Hin|Hin]; [injection Hin as <- <-; rewrite En; exact Logic.I | eauto].
        * assert (U : forall v' e' x, In (v', e') (cs_cache s) -> ent_slot e' = Some x -> x <> (ARes, i)).
          { intros v' e' x Hin E1 ->. specialize (I1 v' e' Hin). unfold valid_ent in I1. rewrite E1 in I1. cbn in I1. lia. }
          intros v1 v2 e1 e2 x [H1|H1] [H2|H2] E1 E2.
          -- congruence.
          -- injection H1 as <- <-. cbn [ent_slot] in E1. injection E1 as <-. exfalso. exact (U _ _ _ H2 E2 eq_refl).
          -- injection H2 as <- <-. cbn [ent_slot] in E2. injection E2 as <-. exfalso. exact (U _ _ _ H1 E1 eq_refl).
          -- eauto.
        * intros rid' r' [Hin|Hin]; [injection Hin as <- <-; exact Rt|].
          destruct (I3 rid' r' Hin) as [T [x [E1 E2]]]. split; [exact T|]. exists x. split; [|exact E2].
          unfold t1. cbn [t_resources]. now apply nth_error_app_some.
        * intros rid1 rid2 r'. cbn [nassoc].
          assert (NV : forall k, nassoc k (cs_resmap s) <> Some i).
          { intros k Hk. destruct (I3 _ _ (nassoc_in _ _ _ Hk)) as [_ [x [E1 _]]]. assert (id_idx i < length (t_resources (cs_types s)))%nat by (apply nth_error_Some; congruence).
            cbn [i id_idx] in *. lia. }
          destruct (Nat.eqb rid1 rid) eqn:E1, (Nat.eqb rid2 rid) eqn:E2; intros H1 H2.
          -- apply Nat.eqb_eq in E1, E2. congruence.
          -- injection H1 as <-. exfalso. exact (NV _ H2).
          -- injection H2 as <-. exfalso. exact (NV _ H1).
          -- eauto.
        * intros v' r' [Hin|Hin].
          -- injection Hin as <- <-. exists rid, i. split; [exact Hrid|]. split; [cbn [nassoc]; now rewrite Nat.eqb_refl|].
             cbn [res_root]. rewrite G. reflexivity.
          -- destruct (I5 v' r' Hin) as [rid' [root [H1 [H2 H3]]]]. exists rid', root. split; [exact H1|]. split.
             ++ cbn [nassoc]. destruct (Nat.eqb rid' rid) eqn:E; [apply Nat.eqb_eq in E; congruence | exact H2].
             ++ eapply res_root_agree; eassumption.
      + constructor; cbn [cs_cache cs_types cs_resmap].
        * reflexivity.
        * exact L.
        * intros j x Hx. exists x. split; [|reflexivity]. unfold t1. cbn [t_resources]. now apply nth_error_app_some.
        * exists [(v, EnRes i)]. split; [reflexivity|]. intros v' e' [Hin|[]]. injection Hin as <- <-.
          unfold fresh_ent. cbn [ent_slot arena_len i id_idx]. lia.
        * exists [(rid, i)]. split; [reflexivity|]. intros rid' r' [Hin|[]]. injection Hin as <- <-. exact Em.
  Qed.

  (** allocate, fill the items, then enter the cache *)
  Lemma slot_put s s0 s1 v e a i :
    ids_inv s -> agree [] (cs_types s) (cs_types s0) -> cs_cache s0 = cs_cache s -> cs_resmap s0 = cs_resmap s ->
    ids_inv s1 -> adv s0 s1 -> node_matches (node_of g v) e ->
    ent_slot e = Some (a, i) -> id_tag i = t_tag (cs_types s) -> id_idx i = arena_len (cs_types s) a ->
    (arena_len (cs_types s) a < arena_len (cs_types s0) a)%nat -> (forall r, e <> EnRes r) ->
    ids_inv (cache_put s1 v e) /\ adv s (cache_put s1 v e).
  Proof.
    intros I A0 C0 R0 I1 A1 Hk Es Ht Hi Hl Hr.
    destruct (types_step [] s s0 A0 C0 R0 I) as [I0 Ad0].
    assert (A01 : adv s s1) by (eapply adv_trans; eassumption).
    apply put_step; [exact I1 | exact Hk | | | | intros r E0; exfalso; exact (Hr r E0) | exact A01].
    - unfold valid_ent. rewrite Es. rewrite (adv_tag _ _ A01). split; [exact Ht|]. pose proof (adv_len _ _ A1 a). lia.
    - intros v' e' x Hin E1 E2. rewrite Es in E2. injection E2 as <-.
      destruct (adv_cache _ _ A1) as [n [En Fn]]. rewrite En, C0 in Hin. apply in_app_or in Hin as [Hin|Hin].
      + specialize (Fn _ _ Hin). unfold fresh_ent in Fn. rewrite E1 in Fn. lia.
      + pose proof (iv_valid _ I _ _ Hin) as Hv. unfold valid_ent in Hv. rewrite E1 in Hv. lia.
    - unfold fresh_ent. rewrite Es. lia.
  Qed.


  Lemma frame_inv O s s' : agree O (cs_types s) (cs_types s') /\ tables_kept s s' -> ids_inv s -> ids_inv s'.
  Proof. intros [A [C R]] Hi. exact (proj1 (types_step O s s' A C R Hi)). Qed.
  Lemma frame_id (F : cstate -> cres cstate) :
    (forall s s', F s = COk s' -> exists O, agree O (cs_types s) (cs_types s') /\ tables_kept s s') -> keeps1 ids_inv adv F.
  Proof. intros HF s s' Hi H. destruct (HF s s' H) as [O [A [C R]]]. exact (types_step O s s' A C R Hi). Qed.

  Theorem c_entity_id hf fuel n e : id_ok (c_entity hf fuel g n e).
  Proof.
    apply (c_entity_walk g hf ids_inv (fun _ _ => adv) (fun _ => adv) newval); try (intros; apply adv_refl); try (intros; assumption).
    - intros v s0. apply adv_trans.
    - intros v s0 s dd x s1. apply mk_def_id.
    - intros s r _. unfold newval, valid_ent, fresh_ent, unused. cbn [ent_slot]. repeat split; intros; discriminate.
    - intros d nd s s1 x _ _ En I1 A1 [N1 [N2 N3]]. apply put_step; auto; [rewrite En; exact I | intros r0 E0; discriminate].
    - intros v a ps r s s2 ft f t _ _ En I2 A2 Ea. unfold add_func in Ea. injection Ea as <- <-.
      eapply (alloc_put s s2 _ v _ AFunc); [exact I2 | exact A2 | apply (agree_add_func (cs_types s2)) | rewrite En; exact I | reflexivity
                                            | reflexivity | reflexivity | cbn; rewrite app_length; cbn; lia | intros; discriminate].
    - exact c_module_id.
    - exact (c_resource_id hf).
    - intros v s0 vn ow nm rf cr. apply frame_id. intros s s' H. exists []. exact (use_or_own_frame _ _ _ _ _ _ _ _ _ H).
    - intros v s0 me k. apply frame_id. intros s s' H. exists []. exact (reset_self_owner_frame _ _ _ _ H).
    - intros v s0 x me t nm k _. apply frame_id. intros s s' H. eexists. destruct (sv_put _ _ _ (if_slot me) _ _ _ _ H) as [A [C _]]. eauto.
    - intros v s0 x me t nm k _. apply frame_id. intros s s' H. eexists. destruct (sv_put _ _ _ (imports_slot me) _ _ _ _ H) as [A [C _]]. eauto.
    - intros v s0 x me t nm k _. apply frame_id. intros s s' H. eexists. destruct (sv_put _ _ _ (exports_slot me) _ _ _ _ H) as [A [C _]]. eauto.
    - intros s nm me t Hi Ea. apply (frame_inv [] s); [|exact Hi]. split; [|split; reflexivity].
      replace t with (snd (add_if (cs_types s) (mkif (iface_id_of nm) [] []))) by now rewrite Ea. apply agree_add_if.
    - intros s nm me t Hi Ea. apply (frame_inv [] s); [|exact Hi]. split; [|split; reflexivity].
      replace t with (snd (add_world (cs_types s) (mkworld (iface_id_of nm) [] [] []))) by now rewrite Ea. apply agree_add_world.
    - intros v ex s nm me t s1 Hi _ En Ea I1 A1. unfold add_if in Ea. injection Ea as <- <-.
      eapply (slot_put s (with_types s _) s1 v _ AIf); [exact Hi | apply (agree_add_if (cs_types s)) | reflexivity | reflexivity | exact I1 | exact A1
        | rewrite En; exact I | reflexivity | reflexivity | reflexivity | cbn; rewrite app_length; cbn; lia | intros; discriminate].
    - intros v im ex s nm me t s1 Hi _ En Ea I1 A1. unfold add_world in Ea. injection Ea as <- <-.
      eapply (slot_put s (with_types s _) s1 v _ AWorld); [exact Hi | apply (agree_add_world (cs_types s)) | reflexivity | reflexivity | exact I1 | exact A1
        | rewrite En; exact I | reflexivity | reflexivity | reflexivity | cbn; rewrite app_length; cbn; lia | intros; discriminate].
  Qed.

  Lemma c_val_id fuel v : id_ok (c_val fuel g v).
  Proof. intros s r s' Hi H. apply (c_entity_id fuel 1 [] (EValue v) s (KValue r) s' Hi). cbn [c_entity entity_body]. now rewrite H. Qed.
  Lemma c_defined_id fuel d : id_ok (c_defined fuel g d).
  Proof. exact (c_val_id fuel (WRef d)). Qed.

  Lemma collect_id hf fuel l acc s m s' : ids_inv s -> collect (c_entity hf fuel g) l acc s = COk (m, s') -> ids_inv s'.
  Proof.
    intros Hi H. exact (proj1 (collect_keeps ids_inv adv adv_refl adv_trans _ l acc (fun n e _ => c_entity_id hf fuel n e) s m s' Hi H)).
  Qed.

  Lemma conv_items_inv hf fuel t0 imports exports s :
    conv_items hf fuel g t0 = COk (imports, exports, s) -> ids_inv s.
  Proof.
    intro H. unfold conv_items in H. inv_bind H as [im s1] H1. inv_bind H as [ex s2] H2. injection H as _ _ <-.
    assert (I0 : ids_inv (cs_init t0)) by (constructor; cbn; intros; try contradiction; discriminate).
    eapply collect_id; [|exact H2]. eapply collect_id; [exact I0 | exact H1].
  Qed.

  (** two distinct validator identifiers are never converted to the same wac identifier *)
  Theorem ids_injective hf fuel t0 imports exports s :
    conv_items hf fuel g t0 = COk (imports, exports, s) ->
    forall v1 v2 e1 e2 x, In (v1, e1) (cs_cache s) -> In (v2, e2) (cs_cache s) ->
      ent_slot e1 = Some x -> ent_slot e2 = Some x -> v1 = v2.
  Proof. intro H. exact (iv_inj _ (conv_items_inv _ _ _ _ _ _ H)). Qed.

  (** converted resources have the same alias root iff the validator gives them the same resource *)
  Theorem resources_identity hf fuel t0 imports exports s :
    conv_items hf fuel g t0 = COk (imports, exports, s) ->
    forall v1 v2 r1 r2, In (v1, EnRes r1) (cs_cache s) -> In (v2, EnRes r2) (cs_cache s) ->
      exists rid1 rid2 root1 root2,
        rid_of_node v1 = Some rid1 /\ rid_of_node v2 = Some rid2 /\
        res_root 2 (cs_types s) r1 = Some root1 /\ res_root 2 (cs_types s) r2 = Some root2 /\
        (root1 = root2 <-> rid1 = rid2).
  Proof.
    intros H v1 v2 r1 r2 H1 H2. pose proof (conv_items_inv _ _ _ _ _ _ H) as I.
    destruct (iv_res _ I _ _ H1) as [rid1 [root1 [A1 [A2 A3]]]]. destruct (iv_res _ I _ _ H2) as [rid2 [root2 [B1 [B2 B3]]]].
    exists rid1, rid2, root1, root2. repeat split; auto.
    - intros ->. eapply (iv_rinj _ I); eassumption.
    - intros ->. congruence.
  Qed.
End Ids.
