(** C13, [render_lex]: lexing the printed text gives the token stream the pieces denote.

    Proved here: the part of the statement that concerns the printer's own layout -- blanks, line
    feeds, doc lines -- i.e. that the lexer's gap skipping ([skip_gap]) passes over exactly the
    non-token pieces, collects exactly the doc comments [tokens_of_pieces] attaches to the next token,
    and arrives at each token at the byte offset [tokens_of_pieces] computes. What is assumed
    ([toks_scan]) is, for every token piece, that [scan_token] run on that token's text followed by
    the rest of the printed text returns that token's kind and length (the printer separates two
    tokens that could fuse) and that the text starts with neither white space nor a slash. *)
From WacV Require Import Str Token Lexer LexTables LexImpl Semver Ast Parser Printer PrintSpec PrinterText ListFacts.
From Coq Require Import Lia.
Local Open Scope nat_scope.

Definition ws_char (c : N) : bool := ((c =? 32) || (c =? 10))%N.

(** The non-token pieces are what the printer writes: blanks and line feeds; doc lines without a line
    feed inside (the piece carries the line feed that ends it). *)
Fixpoint gaps_okb (ps : list piece) : bool :=
  match ps with
  | [] => true
  | PcTok _ _ :: r => gaps_okb r
  | PcWs s :: r => forallb ws_char s && gaps_okb r
  | PcDoc l :: r => negb (existsb (N.eqb c_nl) l) && gaps_okb r
  end.

Definition tok_start (t : str) : Prop :=
  match t with c :: _ => is_ws c = false /\ c <> c_slash | [] => False end.

Fixpoint toks_scan (cfg : lexcfg) (ps : list piece) : Prop :=
  match ps with
  | [] => True
  | PcTok k t :: r =>
      tok_start t /\
      (forall F, length (t ++ text_of r) < F -> scan_token cfg F (t ++ text_of r) = ScanTok k (length t)) /\
      toks_scan cfg r
  | _ :: r => toks_scan cfg r
  end.

Section Lex.
Variable cfg : lexcfg.

(** What [lex_loop] does once the gap before the next token has been skipped. *)
Definition cont (F : nat) (g : gapres) : list lexitem :=
  match g with
  | GapErr e sp => [LErr e sp]
  | GapPanic => [LPanic]
  | GapFuel => [LFuel]
  | GapOk o1 s1 docs =>
      match s1 with
      | [] => []
      | _ :: _ =>
          match scan_token cfg (S F) s1 with
          | ScanErr e n => [LErr e {| off := o1; slen := n |}]
          | ScanUnmodelled => [LUnmodelled {| off := o1; slen := 0 |}]
          | ScanTok k n =>
              let text := firstn n s1 in
              let bl := byte_len text in
              LTok {| tk := k; tsp := {| off := o1; slen := bl |}; ttext := text; tdocs := docs |}
              :: lex_loop F cfg (o1 + bl) (skipn n s1)
          end
      end
  end.

Lemma lex_loop_cont F o s : lex_loop (S F) cfg o s = cont F (skip_gap (S F) o s true []).
Proof. reflexivity. Qed.

Lemma ws_char_facts c : ws_char c = true -> is_ws c = true /\ is_doc_ws c = true /\ utf8_len c = 1%N.
Proof.
  unfold ws_char. intros H. apply orb_true_iff in H. destruct H as [H|H]; apply N.eqb_eq in H; subst c; repeat split.
Qed.

Lemma skip_gap_ws s : forall g o rest docs,
  forallb ws_char s = true -> length s < g ->
  skip_gap g o (s ++ rest) true docs = skip_gap (g - length s) (o + byte_len s) rest true docs.
Proof.
  induction s as [|c s IH]; intros g o rest docs Hs Hg.
  - cbn [app length byte_len]. rewrite Nat.sub_0_r, N.add_0_r. reflexivity.
  - cbn [forallb] in Hs. apply andb_true_iff in Hs. destruct Hs as [Hc Hs].
    destruct (ws_char_facts c Hc) as (H1 & H2 & H3).
    destruct g as [|g]; [cbn in Hg; lia|]. cbn [app skip_gap]. rewrite H1, H2. cbn [andb].
    rewrite IH by (auto; cbn in Hg; lia). cbn [length byte_len]. rewrite H3. f_equal; lia.
Qed.

Lemma run_len_no_nl l rest :
  existsb (N.eqb c_nl) l = false ->
  run_len (fun x => negb (x =? c_nl)%N) (l ++ c_nl :: rest) = length l.
Proof.
  induction l as [|c l IH]; intros H; cbn [app run_len length].
  - rewrite N.eqb_refl. reflexivity.
  - cbn [existsb] in H. apply orb_false_iff in H. destruct H as [H1 H2].
    rewrite N.eqb_sym in H1. rewrite H1. cbn [negb]. now rewrite IH.
Qed.

(** Skipping one printed doc line (up to, not including, its line feed). *)
Lemma skip_gap_doc l : forall g o rest docs,
  existsb (N.eqb c_nl) l = false ->
  skip_gap (S g) o (doc_prefix ++ l ++ c_nl :: rest) true docs =
  skip_gap g (o + byte_len (doc_prefix ++ l)) (c_nl :: rest) true
           (docs ++ [(doc_of_line l, {| off := o; slen := byte_len (doc_prefix ++ l) |})]).
Proof.
  intros g o rest docs Hl. unfold doc_prefix. cbn [app skip_gap].
  change (is_ws 47%N) with false. cbv iota. change ((47 =? c_slash)%N) with true. cbv iota.
  change ((47 =? c_slash)%N) with true. cbv iota.
  change (47%N :: 32%N :: l ++ c_nl :: rest) with ((47%N :: 32%N :: l) ++ c_nl :: rest).
  rewrite run_len_no_nl by (cbn [existsb]; exact Hl).
  rewrite firstn_app_exact, skipn_app_exact. unfold push_doc. cbn [doc_of_comment]. reflexivity.
Qed.

Lemma text_of_cons p ps : text_of (p :: ps) = piece_text p ++ text_of ps.
Proof. reflexivity. Qed.

(** The main induction: from any state of the gap skipping, the lexer produces the tokens of the
    remaining pieces. [F]: fuel of [lex_loop]; [g]: remaining fuel of [skip_gap]. *)
Lemma lex_pieces ps : forall F g o docs,
  gaps_okb ps = true -> toks_scan cfg ps ->
  length (text_of ps) < g -> length (text_of ps) <= F ->
  cont F (skip_gap g o (text_of ps) true docs) = map LTok (tokens_of_pieces o docs ps).
Proof.
  induction ps as [|p ps IH]; intros F g o docs Hg Hs Hlg HlF.
  - destruct g; [cbn in Hlg; lia|]. reflexivity.
  - rewrite text_of_cons in *. destruct p as [k t|s|l]; cbn [piece_text gaps_okb toks_scan tokens_of_pieces] in *.
    + (* token *)
      destruct Hs as (Hst & Hscan & Hs). destruct t as [|c t]; [destruct Hst|]. destruct Hst as [Hws Hsl].
      destruct g; [cbn in Hlg; lia|]. cbn [app skip_gap]. rewrite Hws.
      assert (Hc : (c =? c_slash)%N = false) by (apply N.eqb_neq; exact Hsl). rewrite Hc.
      cbn [cont]. change (c :: t ++ text_of ps) with ((c :: t) ++ text_of ps).
      rewrite (Hscan (S F)) by lia.
      rewrite firstn_app_exact, skipn_app_exact. cbn [map]. f_equal.
      rewrite app_length in HlF, Hlg. cbn [length] in HlF, Hlg.
      destruct F as [|F]; [lia|]. rewrite lex_loop_cont. apply IH; auto; lia.
    + (* blanks *)
      apply andb_true_iff in Hg. destruct Hg as [Hw Hg]. rewrite app_length in Hlg, HlF.
      rewrite skip_gap_ws by (auto; lia). apply IH; auto; lia.
    + (* doc line *)
      apply andb_true_iff in Hg. destruct Hg as [Hg1 Hg3]. apply negb_true_iff in Hg1.
      destruct g; [cbn in Hlg; lia|]. rewrite <- !app_assoc. cbn [app].
      rewrite skip_gap_doc by exact Hg1.
      rewrite !app_length in Hlg, HlF. cbn [length] in Hlg, HlF. change (length doc_prefix) with 4 in *.
      change (c_nl :: text_of ps) with ([c_nl] ++ text_of ps).
      rewrite skip_gap_ws by (cbn; auto; lia). cbn [length byte_len]. change (utf8_len c_nl) with 1%N.
      replace (o + byte_len (doc_prefix ++ l) + (1 + 0))%N with (o + byte_len (doc_prefix ++ l) + 1)%N by lia.
      apply IH; auto; lia.
Qed.

Theorem lex_of_pieces ps :
  screen cfg (text_of ps) = None -> gaps_okb ps = true -> toks_scan cfg ps ->
  lex cfg (text_of ps) = items_of_pieces ps.
Proof.
  intros Hsc Hg Hs. unfold lex. rewrite Hsc. rewrite lex_loop_cont. unfold items_of_pieces.
  apply lex_pieces; auto.
Qed.

End Lex.
