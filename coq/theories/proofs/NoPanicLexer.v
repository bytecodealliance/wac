(** C14, lexer part: [lex] is total in the strong sense -- with the fuel it gives itself it never
    produces the out-of-fuel item, the [unwrap] in [Lexer::comments] is unreachable, every token
    consumes at least one byte, every span (of a token or of the final error) lies inside the source on
    character boundaries, and the texts of string / package tokens have the shape the parser's
    [unwrap]s and slices rely on. *)
From WacV Require Import Str Token Lexer LexTables LexImpl LexerProofs LexerSound.
From Coq Require Import ZArith Lia.
Local Open Scope nat_scope.

(** [n] is the byte offset of a character boundary of [src] (hence [n <= byte_len src]). *)
Definition boundary (src : str) (n : N) : Prop := exists pre post, src = pre ++ post /\ n = byte_len pre.

(** The property's span predicate: both ends on character boundaries of the source. *)
Definition span_ok (src : str) (sp : span) : Prop :=
  boundary src (off sp) /\ boundary src (off sp + slen sp)%N.

Lemma boundary_le src n : boundary src n -> (n <= byte_len src)%N.
Proof. intros (pre & post & -> & ->). rewrite byte_len_app. lia. Qed.

Lemma span_ok_in_bounds src sp : span_ok src sp -> (off sp + slen sp <= byte_len src)%N.
Proof. intros [_ H]. now apply boundary_le. Qed.

Lemma boundary_0 src : boundary src 0%N.
Proof. exists [], src. auto. Qed.

Lemma boundary_end src : boundary src (byte_len src).
Proof. exists src, []. now rewrite app_nil_r. Qed.

Lemma boundary_app src a b : src = a ++ b -> boundary src (byte_len a).
Proof. intros ->. now exists a, b. Qed.

Lemma span_ok_slice src pre mid post o l :
  src = pre ++ mid ++ post -> o = byte_len pre -> l = byte_len mid -> span_ok src {| off := o; slen := l |}.
Proof.
  intros -> -> ->. split; cbn [off slen].
  - now exists pre, (mid ++ post).
  - exists (pre ++ mid), post. rewrite <- app_assoc, byte_len_app. auto.
Qed.

Lemma find_char_In c : forall s, In c s -> find_char c s <> None.
Proof.
  induction s as [|x s IH]; intros Hin; [destruct Hin|]. cbn [find_char].
  destruct (x =? c)%N eqn:E; [discriminate|]. destruct Hin as [->|Hin]; [rewrite N.eqb_refl in E; discriminate|].
  specialize (IH Hin). destruct (find_char c s); [discriminate|congruence].
Qed.

(** A scan error sits on the first character and spans it (the unterminated string: its quote). *)
Lemma scan_token_err cfg fuel s e n :
  scan_token cfg fuel s = ScanErr e n -> s <> [] -> exists c r, s = c :: r /\ n = utf8_len c.
Proof.
  unfold scan_token. destruct s as [|c r]; [congruence|]. intros H _. exists c, r. split; [reflexivity|].
  destruct (c =? c_quote)%N eqn:Eq.
  { apply N.eqb_eq in Eq. subst c. destruct (find_char c_quote r); inversion H. reflexivity. }
  destruct (id_len (allow_upper cfg) (c :: r)) as [|n0].
  { destruct (best_symbol (symbols cfg) (c :: r)) as [[k m]|]; inversion H. reflexivity. }
  set (rest1 := skipn (S n0) (c :: r)) in *.
  destruct (head_is c_minus rest1).
  { destruct (q_pkgzone cfg && is_kw_prefix (firstn (S n0) (c :: r)) (keywords cfg)); [discriminate|].
    destruct (q_dash cfg); discriminate. }
  destruct (seg_loop fuel (allow_upper cfg) c_colon rest1) as [|m2].
  { destruct (head_is c_colon rest1 && q_kwcolon cfg); discriminate. }
  set (after := skipn (S n0 + S m2) (c :: r)) in *.
  destruct (q_pkgzone cfg && (head_is c_minus after || head_is c_colon after)); [discriminate|].
  destruct (seg_loop fuel (allow_upper cfg) c_slash after); discriminate.
Qed.

(** Token kinds that only the dedicated scanner branches may produce. *)
Definition scanner_only_kind (k : token) : bool :=
  match k with TString | TPackageName | TPackagePath => true | _ => false end.

(** Weaker than [tables_ok] of LexerClassC (which pins the tables to the documented rows); C14 needs
    only this. *)
Definition tables_sane (cfg : lexcfg) : bool :=
  forallb (fun p => negb (scanner_only_kind (snd p))) (keywords cfg ++ symbols cfg).

Lemma impl_tables_sane : tables_sane impl_cfg = true.
Proof. vm_compute. reflexivity. Qed.

Lemma lookup_str_in k tbl t : lookup_str k tbl = Some t -> In t (map snd tbl).
Proof.
  induction tbl as [|[x t'] tbl IH]; cbn; [discriminate|]. destruct (str_eqb x k).
  - intros H; inversion H. now left.
  - intros H. right. auto.
Qed.

Lemma best_symbol_in tbl s t n : best_symbol tbl s = Some (t, n) -> In t (map snd tbl).
Proof. intros H. destruct (best_symbol_spec _ _ _ _ H) as [(x & Hin & _) _]. exact (in_map snd _ _ Hin). Qed.

Lemma sane_not_special cfg t :
  tables_sane cfg = true -> In t (map snd (keywords cfg)) \/ In t (map snd (symbols cfg)) -> scanner_only_kind t = false.
Proof.
  unfold tables_sane. rewrite forallb_forall. intros Hs Hin.
  assert (In t (map snd (keywords cfg ++ symbols cfg))) as Hi by (rewrite map_app; apply in_or_app; exact Hin).
  apply in_map_iff in Hi. destruct Hi as ([x t'] & <- & Hi). apply Hs in Hi. now apply negb_true_iff in Hi.
Qed.

Lemma seg_loop_head fuel au sep s m : seg_loop fuel au sep s = S m -> exists r, s = sep :: r.
Proof.
  destruct fuel as [|f]; cbn [seg_loop]; [discriminate|]. destruct s as [|c r]; [discriminate|].
  destruct (c =? sep)%N eqn:E; [|discriminate]. apply N.eqb_eq in E. subst. eauto.
Qed.

Lemma firstn_skipn_In {A} (x : A) n m l r : skipn n l = x :: r -> n < m -> In x (firstn m l).
Proof.
  revert m l. induction n as [|n IH]; intros m l Hs Hm.
  - cbn in Hs. subst l. destruct m; [lia|]. now left.
  - destruct l as [|y l]; [discriminate|]. destruct m as [|m]; [lia|]. cbn [firstn]. right.
    apply (IH m l); [exact Hs|lia].
Qed.

Definition ascii (c : N) : Prop := (c < 128)%N.

Lemma range_ascii lo hi c : ((lo <=? c) && (c <=? hi))%N = true -> (hi < 128)%N -> ascii c.
Proof. intros H Hhi. apply andb_true_iff in H. destruct H as [_ H]. apply N.leb_le in H. unfold ascii. lia. Qed.

Lemma is_lower_ascii c : is_lower c = true -> ascii c.
Proof. intros H. now apply (range_ascii _ _ _ H). Qed.
Lemma is_upper_ascii c : is_upper c = true -> ascii c.
Proof. intros H. now apply (range_ascii _ _ _ H). Qed.
Lemma is_digit_ascii c : is_digit c = true -> ascii c.
Proof. intros H. now apply (range_ascii _ _ _ H). Qed.
Lemma lower_cont_ascii c : lower_cont c = true -> ascii c.
Proof. intros H. apply orb_true_iff in H. destruct H; [now apply is_lower_ascii|now apply is_digit_ascii]. Qed.
Lemma upper_cont_ascii c : upper_cont c = true -> ascii c.
Proof. intros H. apply orb_true_iff in H. destruct H; [now apply is_upper_ascii|now apply is_digit_ascii]. Qed.
Lemma semver_char_ascii c : semver_char c = true -> ascii c.
Proof.
  unfold semver_char, is_alpha. rewrite !orb_true_iff, !N.eqb_eq.
  intros [[[H|[H|H]]| ->]| ->]; [now apply is_digit_ascii|now apply is_upper_ascii|now apply is_lower_ascii|reflexivity|reflexivity].
Qed.

Lemma id_tail_len_ascii au : forall s up, Forall ascii (firstn (id_tail_len au up s) s).
Proof.
  fix IH 1. intros s up. destruct s as [|c r]; cbn [id_tail_len firstn]; [constructor|].
  destruct (if up then upper_cont c else lower_cont c) eqn:Ec.
  { cbn [firstn]. constructor; [destruct up; [now apply upper_cont_ascii|now apply lower_cont_ascii]|]. apply IH. }
  destruct (c =? c_minus)%N eqn:Em; [|constructor]. apply N.eqb_eq in Em. subst c.
  destruct r as [|c2 r2]; [constructor|].
  destruct (is_lower c2) eqn:El.
  { cbn [firstn]. constructor; [unfold ascii, c_minus; lia|]. constructor; [now apply is_lower_ascii|]. apply IH. }
  destruct (au && is_upper c2) eqn:Eu; [|constructor].
  apply andb_true_iff in Eu. destruct Eu as [_ Eu].
  cbn [firstn]. constructor; [unfold ascii, c_minus; lia|]. constructor; [now apply is_upper_ascii|]. apply IH.
Qed.

Lemma words_len_ascii au s : Forall ascii (firstn (words_len au s) s).
Proof.
  destruct s as [|c r]; cbn [words_len firstn]; [constructor|].
  destruct (is_lower c) eqn:El.
  { cbn [firstn]. constructor; [now apply is_lower_ascii|]. apply id_tail_len_ascii. }
  destruct (au && is_upper c) eqn:Eu; [|constructor]. apply andb_true_iff in Eu. destruct Eu as [_ Eu].
  cbn [firstn]. constructor; [now apply is_upper_ascii|]. apply id_tail_len_ascii.
Qed.

Lemma id_len_ascii au s : Forall ascii (firstn (id_len au s) s).
Proof.
  destruct s as [|c r]; cbn [id_len firstn]; [constructor|]. destruct (c =? c_percent)%N eqn:E.
  - apply N.eqb_eq in E. subst c. pose proof (words_len_ascii au r) as H.
    destruct (words_len au r) as [|n]; [constructor|]. cbn [firstn]. constructor; [unfold ascii, c_percent; lia|exact H].
  - apply (words_len_ascii au (c :: r)).
Qed.

Lemma seg_loop_ascii fuel au sep : ascii sep -> forall s, Forall ascii (firstn (seg_loop fuel au sep s) s).
Proof.
  intros Hsep. induction fuel as [|f IH]; intros s; cbn [seg_loop]; [constructor|].
  destruct s as [|c r]; [constructor|]. destruct (c =? sep)%N eqn:E; [|constructor]. apply N.eqb_eq in E. subst c.
  pose proof (id_len_ascii au r) as Hid. destruct (id_len au r) as [|n]; [constructor|].
  change (S (S n) + seg_loop f au sep (skipn (S n) r)) with (S (S n + seg_loop f au sep (skipn (S n) r))).
  cbn [firstn]. constructor; [exact Hsep|]. rewrite firstn_add. apply Forall_app. split; [exact Hid|apply IH].
Qed.

Lemma semver_rest_ascii : forall s ing, Forall ascii (firstn (semver_rest ing s) s).
Proof.
  fix IH 1. intros s ing. destruct s as [|c r]; cbn [semver_rest firstn]; [constructor|].
  destruct (ing && semver_char c) eqn:E1.
  { apply andb_true_iff in E1. destruct E1 as [_ E1]. cbn [firstn]. constructor; [now apply semver_char_ascii|]. apply IH. }
  destruct (c =? c_period)%N eqn:Ep; [|constructor]. apply N.eqb_eq in Ep. subst c.
  destruct r as [|c2 r2]; [constructor|].
  destruct (semver_char c2) eqn:E2; [|constructor]. cbn [firstn].
  constructor; [unfold ascii, c_period; lia|]. constructor; [now apply semver_char_ascii|]. apply IH.
Qed.

Lemma semver_len_ascii s : Forall ascii (firstn (semver_len s) s).
Proof.
  unfold semver_len. pose proof (run_len_forall is_digit s) as Hd.
  destruct (run_len is_digit s) as [|dd]; [constructor|]. rewrite firstn_add. apply Forall_app. split; [|apply semver_rest_ascii].
  eapply Forall_impl; [|exact Hd]. apply is_digit_ascii.
Qed.

Lemma version_tail_len_ascii s : Forall ascii (firstn (version_tail_len s) s).
Proof.
  destruct s as [|c r]; cbn [version_tail_len firstn]; [constructor|]. destruct (c =? c_atsign)%N eqn:E; [|constructor].
  apply N.eqb_eq in E. subst c. pose proof (semver_len_ascii r) as H.
  destruct (semver_len r) as [|n]; [constructor|]. cbn [firstn]. constructor; [unfold ascii, c_atsign; lia|exact H].
Qed.

(** For ASCII text, character index = byte offset. *)
Lemma byte_len_ascii s : Forall ascii s -> byte_len s = N.of_nat (length s).
Proof.
  induction 1 as [|c s Hc _ IH]; [reflexivity|]. cbn [byte_len length]. rewrite IH.
  unfold utf8_len. unfold ascii in Hc. apply N.ltb_lt in Hc. rewrite Hc. lia.
Qed.

(** The shape facts the parser's [unwrap]s, slices and span arithmetic rely on. *)
Definition text_shape (k : token) (text : str) : Prop :=
  match k with
  | TString => exists body, text = c_quote :: body ++ [c_quote]
  | TPackageName => Forall ascii text
  | TPackagePath => find_char c_slash text <> None /\ Forall ascii text
  | _ => True
  end.

Lemma scan_token_shape cfg fuel s k n :
  tables_sane cfg = true -> scan_token cfg fuel s = ScanTok k n -> text_shape k (firstn n s).
Proof.
  intros Hsane. unfold scan_token. destruct s as [|c r]; [discriminate|].
  destruct (c =? c_quote)%N eqn:Eq.
  { apply N.eqb_eq in Eq. subst c. destruct (find_char c_quote r) as [m|] eqn:Ef; [|discriminate].
    intros H; inversion H; subst. destruct (find_char_spec _ _ _ Ef) as (body & rest & -> & <- & _). exists body.
    change (firstn (S (S (length body))) (c_quote :: body ++ c_quote :: rest))
      with (c_quote :: firstn (S (length body)) (body ++ c_quote :: rest)). now rewrite firstn_app_S. }
  assert (Hkw : forall key, scanner_only_kind (match lookup_str key (keywords cfg) with Some k0 => k0 | None => TIdent end) = false).
  { intros key. destruct (lookup_str key (keywords cfg)) as [k0|] eqn:El; [|reflexivity].
    eapply sane_not_special; eauto. left. eapply lookup_str_in; eauto. }
  assert (Hns : forall k0 txt, scanner_only_kind k0 = false -> text_shape k0 txt).
  { intros k0 txt. destruct k0; cbn; try discriminate; auto. }
  pose proof (id_len_ascii (allow_upper cfg) (c :: r)) as Ha1.
  destruct (id_len (allow_upper cfg) (c :: r)) as [|n0] eqn:Eid.
  { destruct (best_symbol (symbols cfg) (c :: r)) as [[k' n']|] eqn:Eb; [|discriminate].
    intros H; inversion H; subst. apply Hns. eapply sane_not_special; eauto. right. eapply best_symbol_in; eauto. }
  set (rest1 := skipn (S n0) (c :: r)) in *.
  destruct (head_is c_minus rest1).
  { destruct (q_pkgzone cfg && is_kw_prefix (firstn (S n0) (c :: r)) (keywords cfg)); [discriminate|].
    destruct (q_dash cfg); intros H; inversion H; subst; [exact I|]. apply Hns, Hkw. }
  pose proof (seg_loop_ascii fuel (allow_upper cfg) c_colon ltac:(unfold ascii, c_colon; lia) rest1) as Ha2.
  destruct (seg_loop fuel (allow_upper cfg) c_colon rest1) as [|m2] eqn:Es2.
  { destruct (head_is c_colon rest1 && q_kwcolon cfg); intros H; inversion H; subst; [exact I|]. apply Hns, Hkw. }
  set (pkg := S n0 + S m2) in *. set (after := skipn pkg (c :: r)) in *.
  assert (Hpkg : Forall ascii (firstn pkg (c :: r))).
  { unfold pkg. rewrite firstn_add. apply Forall_app. split; [exact Ha1|exact Ha2]. }
  destruct (q_pkgzone cfg && (head_is c_minus after || head_is c_colon after)); [discriminate|].
  pose proof (seg_loop_ascii fuel (allow_upper cfg) c_slash ltac:(unfold ascii, c_slash; lia) after) as Ha3.
  assert (Hname : Forall ascii (firstn (pkg + version_tail_len after) (c :: r))).
  { rewrite firstn_add. apply Forall_app. split; [exact Hpkg|]. apply version_tail_len_ascii. }
  destruct (seg_loop fuel (allow_upper cfg) c_slash after) as [|m3] eqn:Es3.
  - intros H; injection H as <- <-. exact Hname.
  - assert (Hpath : Forall ascii (firstn (pkg + S m3 + version_tail_len (skipn (pkg + S m3) (c :: r))) (c :: r))).
    { rewrite firstn_add. apply Forall_app. split; [|apply version_tail_len_ascii].
      rewrite firstn_add. apply Forall_app. split; [exact Hpkg|exact Ha3]. }
    assert (Hslash : forall m, pkg < m -> find_char c_slash (firstn m (c :: r)) <> None).
    { intros m Hm. apply find_char_In. destruct (seg_loop_head _ _ _ _ _ Es3) as (rr & Hr). unfold after in Hr.
      eapply firstn_skipn_In; [exact Hr|exact Hm]. }
    intros H; injection H as <- <-. split; [apply Hslash; lia|exact Hpath].
Qed.

(** What the parser may assume about an item of the stream: a token's text is the slice of the
    source at its span, it is not empty, it has the shape of its kind, and the doc comments attached to
    it carry good spans. *)
Definition item_wf (src : str) (it : lexitem) : Prop :=
  match it with
  | LTok t => (exists a b, src = a ++ ttext t ++ b /\ off (tsp t) = byte_len a) /\
              slen (tsp t) = byte_len (ttext t) /\ ttext t <> [] /\ text_shape (tk t) (ttext t) /\
              Forall (span_ok src) (map snd (tdocs t))
  | LErr _ sp => span_ok src sp
  | LUnmodelled _ => True
  | LPanic | LFuel => False
  end.

Lemma byte_len_pos s : s <> [] -> (0 < byte_len s)%N.
Proof. destruct s as [|c s]; [congruence|]. intros _. cbn [byte_len]. pose proof (utf8_len_pos c). lia. Qed.

Lemma item_wf_span src t : item_wf src (LTok t) -> span_ok src (tsp t).
Proof.
  intros ((a & b & Hs & Ho) & Hl & _). destruct (tsp t) as [o l]. cbn [off slen] in *.
  eapply span_ok_slice; eauto.
Qed.

Lemma item_wf_progress src t : item_wf src (LTok t) -> (0 < slen (tsp t))%N.
Proof. intros (_ & Hl & Hne & _). rewrite Hl. now apply byte_len_pos. Qed.

Lemma skip_gap_docs src fuel : forall o s alive docs pre o' s' docs',
  src = pre ++ s -> o = byte_len pre -> Forall (span_ok src) (map snd docs) ->
  skip_gap fuel o s alive docs = GapOk o' s' docs' -> Forall (span_ok src) (map snd docs').
Proof.
  intros o s alive docs pre o' s' docs' Hsrc Ho Hd H. pose proof (skip_gap_spec fuel o s alive docs) as Hs. rewrite H in Hs.
  destruct Hs as (g & -> & _ & _ & new & -> & Hnew). rewrite map_app. apply Forall_app. split; [exact Hd|].
  apply Forall_map. eapply Forall_impl; [|exact Hnew]. intros dc (g1 & t & g2 & -> & ->).
  apply (span_ok_slice src (pre ++ g1) t (g2 ++ s')); [|rewrite byte_len_app; now subst|reflexivity].
  rewrite Hsrc, <- !app_assoc. reflexivity.
Qed.

Lemma lex_loop_wf cfg (Hsane : tables_sane cfg = true) src fuel : forall o s pre,
  src = pre ++ s -> o = byte_len pre -> length s < fuel -> Forall (item_wf src) (lex_loop fuel cfg o s).
Proof.
  induction fuel as [|f IH]; intros o s pre Hsrc Ho Hf; [lia|]. cbn [lex_loop].
  pose proof (skip_gap_spec (S f) o s true []) as Hgap.
  destruct (skip_gap (S f) o s true []) as [o1 s1 docs|e sp| |] eqn:Eg; cbn [gap_spec] in Hgap; [| |contradiction|lia].
  - pose proof (skip_gap_docs src _ _ _ _ [] pre _ _ _ Hsrc Ho (Forall_nil _) Eg) as Hdocs.
    destruct Hgap as (g & -> & _ & -> & _).
    destruct s1 as [|c1 r1]; [constructor|].
    destruct (scan_token cfg (S f) (c1 :: r1)) as [k n|e n|] eqn:Es.
    + pose proof (scan_token_bound _ _ _ _ _ Es) as [Hn1 Hn2].
      pose proof (scan_token_shape _ _ _ _ _ Hsane Es) as Hshape.
      set (text := firstn n (c1 :: r1)) in *. set (rest := skipn n (c1 :: r1)).
      assert (Hsplit : c1 :: r1 = text ++ rest) by (symmetry; apply firstn_skipn).
      assert (Hne : text <> []) by (unfold text; destruct n; [lia|discriminate]).
      constructor.
      * cbn [item_wf tsp tk ttext tdocs off slen]. repeat split; auto.
        exists (pre ++ g), rest. rewrite Hsrc, Hsplit, byte_len_app, <- !app_assoc. split; [reflexivity|lia].
      * apply (IH _ _ ((pre ++ g) ++ text)).
        -- rewrite Hsrc, Hsplit, <- !app_assoc. reflexivity.
        -- rewrite !byte_len_app. lia.
        -- unfold rest. rewrite skipn_length. rewrite app_length in Hf. cbn [length] in *. lia.
    + destruct (scan_token_err _ _ _ _ _ Es ltac:(discriminate)) as (c & r & Hcr & ->). inversion Hcr; subst c r.
      constructor; [|constructor]. cbn [item_wf].
      apply (span_ok_slice _ (pre ++ g) [c1] r1); [now rewrite Hsrc, <- app_assoc|rewrite byte_len_app; lia|cbn; lia].
    + constructor; [exact I|constructor].
  - destruct Hgap as (g & rest & -> & _ & ->).
    constructor; [|constructor]. cbn [item_wf].
    apply (span_ok_slice _ (pre ++ g) rest []); [now rewrite Hsrc, app_nil_r, <- app_assoc|rewrite byte_len_app; lia|auto].
Qed.

(** [lexer_total]: for every source the lexer returns a finite stream of well-formed items: tokens
    (each consuming at least one byte, inside the source, on character boundaries, of the shape the
    parser relies on), possibly ended by ONE lexer error whose span has the same properties (or by
    the not-modelled marker) -- never the panic item, never the out-of-fuel item. *)
Lemma lex_wf cfg src : tables_sane cfg = true -> Forall (item_wf src) (lex cfg src).
Proof.
  intros Hsane. unfold lex. destruct (screen cfg src) as [[e sp]|] eqn:Es.
  - constructor; [|constructor]. cbn [item_wf]. unfold screen in Es.
    apply screen_from_some in Es. destruct Es as (pre & c & post & -> & _ & _ & ->).
    apply (span_ok_slice _ pre [c] post); auto; cbn; lia.
  - apply (lex_loop_wf cfg Hsane src _ 0%N src []); auto.
Qed.

(** Errors and the not-modelled marker only ever END the stream. *)
Lemma lex_loop_stops fuel cfg : forall o s pre it post,
  lex_loop fuel cfg o s = pre ++ it :: post -> post <> [] -> exists t, it = LTok t.
Proof. intros o s. exact (tiles_stops _ _ _ (lex_loop_tiles cfg fuel o s)). Qed.
