(** Frame reasoning for the conversion: how the [wac_types] arenas change ([agree]), and that the unfoldings of value
    types and function types are not affected by those changes ([agree_unfold_vt], [agree_unfold_func]).  ConvertTree.v
    does not go through these two: it states every fact robustly ([rob]) over all collections that [agree].

    [agree O t t']: [t'] has everything [t] has -- defined types, function types and module types unchanged,
    resources unchanged up to the [owner] of an alias (which no denotation reads), interfaces and worlds with the
    same items -- EXCEPT for the interface / world slots listed in [O] (the ones under construction), about
    which nothing is said.  [agree []] is the frame condition of every conversion function: it only appends to
    the arenas and changes slots it allocated itself.

    Also here, because every invariant of the converter needs them: what a successful run of [c_module] and
    [c_resource] is, and the three item loops of instance and component types as one loop over a view of the slot
    being filled. *)
From Coq Require Import Lia.
From WacV Require Import Str Types CheckerValue CheckerProofs Convert ConvertSpec ConvertProofs.
Set Warnings "-unused-intro-pattern".

Definition slot := (bool * nat)%type.          (* [true]: interface arena, [false]: world arena *)

Record agree (O : list slot) (t t' : types) : Prop := mkagree {
  ag_tag : t_tag t' = t_tag t;
  ag_def : forall i d, nth_error (t_defined t) i = Some d -> nth_error (t_defined t') i = Some d;
  ag_func : forall i d, nth_error (t_funcs t) i = Some d -> nth_error (t_funcs t') i = Some d;
  ag_mod : forall i d, nth_error (t_modules t) i = Some d -> nth_error (t_modules t') i = Some d;
  ag_res : forall i r, nth_error (t_resources t) i = Some r ->
           exists r', nth_error (t_resources t') i = Some r' /\ res_name r' = res_name r /\ res_source r' = res_source r;
  ag_if : forall i x, nth_error (t_interfaces t) i = Some x -> ~ In (true, i) O ->
          exists x', nth_error (t_interfaces t') i = Some x' /\ i_exports x' = i_exports x;
  ag_world : forall i x, nth_error (t_worlds t) i = Some x -> ~ In (false, i) O ->
             exists x', nth_error (t_worlds t') i = Some x' /\ w_imports x' = w_imports x /\ w_exports x' = w_exports x;
  ag_len_if : (length (t_interfaces t) <= length (t_interfaces t'))%nat;
  ag_len_world : (length (t_worlds t) <= length (t_worlds t'))%nat }.

Lemma agree_refl O t : agree O t t.
Proof. constructor; eauto. Qed.

Definition slots_ok (O : list slot) (t : types) : Prop :=
  forall b i, In (b, i) O -> if b : bool then (i < length (t_interfaces t))%nat else (i < length (t_worlds t))%nat.
Lemma slots_ok_agree O O' t t' : agree O' t t' -> slots_ok O t -> slots_ok O t'.
Proof.
  intros A H b i Hin. specialize (H b i Hin). pose proof (ag_len_if _ _ _ A). pose proof (ag_len_world _ _ _ A).
  destruct b; lia.
Qed.

Lemma agree_trans O t1 t2 t3 : agree O t1 t2 -> agree O t2 t3 -> agree O t1 t3.
Proof.
  intros [A1 A2 A3 A4 A5 A6 A7 A8 A9] [B1 B2 B3 B4 B5 B6 B7 B8 B9]. constructor; eauto; try congruence; try lia.
  - intros i r H. destruct (A5 _ _ H) as [r' [H1 [H2 H3]]]. destruct (B5 _ _ H1) as [r'' [H4 [H5 H6]]].
    exists r''. repeat split; congruence.
  - intros i x H Hn. destruct (A6 _ _ H Hn) as [x' [H1 H2]]. destruct (B6 _ _ H1 Hn) as [x'' [H3 H4]].
    exists x''. split; congruence.
  - intros i x H Hn. destruct (A7 _ _ H Hn) as [x' [H1 [H2 H2']]]. destruct (B7 _ _ H1 Hn) as [x'' [H3 [H4 H4']]].
    exists x''. repeat split; congruence.
Qed.

Lemma agree_weaken O O' t t' : (forall s, In s O -> In s O') -> agree O t t' -> agree O' t t'.
Proof. intros Hs [A1 A2 A3 A4 A5 A6 A7 A8 A9]. constructor; eauto. Qed.

Lemma agree_nil O t t' : agree [] t t' -> agree O t t'.
Proof. apply agree_weaken. intros ? []. Qed.

Lemma agree_nil_trans O t1 t2 t3 : agree [] t1 t2 -> agree O t2 t3 -> agree O t1 t3.
Proof. intro A. apply agree_trans. now apply agree_nil. Qed.

Lemma agree_add_def t d : agree [] t (snd (add_def t d)).
Proof. constructor; cbn; eauto. intros. now apply nth_error_app_some. Qed.
Lemma agree_add_func t d : agree [] t (snd (add_func t d)).
Proof. constructor; cbn; eauto. intros. now apply nth_error_app_some. Qed.
Lemma agree_add_mod t d : agree [] t (snd (add_mod t d)).
Proof. constructor; cbn; eauto. intros. now apply nth_error_app_some. Qed.
Lemma agree_add_res t d : agree [] t (snd (add_res t d)).
Proof. constructor; cbn; eauto. intros i r H. exists r. split; [now apply nth_error_app_some | auto]. Qed.
Lemma agree_add_if t d : agree [] t (snd (add_if t d)).
Proof. constructor; cbn; eauto; [|rewrite app_length; lia]. intros i x H _. exists x. split; [now apply nth_error_app_some | auto]. Qed.
Lemma agree_add_world t d : agree [] t (snd (add_world t d)).
Proof. constructor; cbn; eauto; [|rewrite app_length; lia]. intros i x H _. exists x. split; [now apply nth_error_app_some | auto]. Qed.

Lemma nth_error_set_nth_eq {A} (l : list A) : forall n x y, nth_error l n = Some y -> nth_error (set_nth n x l) n = Some x.
Proof. induction l as [|a l IH]; intros [|n] x y; cbn; try discriminate; eauto. Qed.
Lemma nth_error_set_nth_neq {A} (l : list A) : forall n m x, n <> m -> nth_error (set_nth n x l) m = nth_error l m.
Proof. induction l as [|a l IH]; intros [|n] [|m] x H; cbn; try reflexivity; try lia. apply IH. lia. Qed.
Lemma set_nth_length {A} (l : list A) : forall n x, length (set_nth n x l) = length l.
Proof. induction l as [|a l IH]; intros [|n] x; cbn; auto. Qed.

Lemma lookup_some {A} tag (l : list A) i x : lookup tag l i = Some x -> id_tag i = tag /\ nth_error l (id_idx i) = Some x.
Proof. unfold lookup. destruct (id_tag i =? tag) eqn:E; [|discriminate]. apply N.eqb_eq in E. auto. Qed.
Lemma lookup_intro {A} tag (l : list A) i x : id_tag i = tag -> nth_error l (id_idx i) = Some x -> lookup tag l i = Some x.
Proof. unfold lookup. intros -> H. now rewrite N.eqb_refl. Qed.

(** an update of an interface slot that keeps its items, or of any slot listed in [O] *)
Lemma agree_upd_if O t i f t' :
  upd_if t i f = Some t' -> (In (true, id_idx i) O \/ forall x, i_exports (f x) = i_exports x) -> agree O t t'.
Proof.
  unfold upd_if. destruct (get_if t i) as [x|] eqn:E; [|discriminate]. intro H. injection H as <-. intro Hc.
  apply lookup_some in E as [_ E]. constructor; cbn; eauto; [|rewrite set_nth_length; lia].
  intros j y Hj Hn. destruct (Nat.eq_dec (id_idx i) j) as [<-|Hne].
  - destruct Hc as [Hc|Hc]; [contradiction|]. exists (f x). rewrite (nth_error_set_nth_eq _ _ _ _ E).
    split; [reflexivity|]. rewrite Hc. congruence.
  - exists y. now rewrite nth_error_set_nth_neq.
Qed.
Lemma agree_upd_world O t i f t' :
  upd_world t i f = Some t' ->
  (In (false, id_idx i) O \/ forall x, w_imports (f x) = w_imports x /\ w_exports (f x) = w_exports x) -> agree O t t'.
Proof.
  unfold upd_world. destruct (get_world t i) as [x|] eqn:E; [|discriminate]. intro H. injection H as <-. intro Hc.
  apply lookup_some in E as [_ E]. constructor; cbn; eauto; [|rewrite set_nth_length; lia].
  intros j y Hj Hn. destruct (Nat.eq_dec (id_idx i) j) as [<-|Hne].
  - destruct Hc as [Hc|Hc]; [contradiction|]. exists (f x). rewrite (nth_error_set_nth_eq _ _ _ _ E).
    split; [reflexivity|]. destruct (Hc x) as [-> ->]. split; congruence.
  - exists y. now rewrite nth_error_set_nth_neq.
Qed.
Lemma agree_upd_res t i f t' :
  upd_res t i f = Some t' ->
  (forall x, get_res t i = Some x -> res_name (f x) = res_name x /\ res_source (f x) = res_source x) -> agree [] t t'.
Proof.
  unfold upd_res. destruct (get_res t i) as [x|] eqn:E; [|discriminate]. intro H. injection H as <-. intro Hc.
  specialize (Hc x eq_refl).
  apply lookup_some in E as [_ E]. constructor; cbn; eauto.
  intros j y Hj. destruct (Nat.eq_dec (id_idx i) j) as [<-|Hne].
  - exists (f x). rewrite (nth_error_set_nth_eq _ _ _ _ E). split; [reflexivity|]. destruct Hc as [-> ->]. split; congruence.
  - exists y. now rewrite nth_error_set_nth_neq.
Qed.

Section Lookups.
  Variables (O : list slot) (t t' : types).
  Hypothesis A : agree O t t'.

  Lemma agree_get_def i d : get_def t i = Some d -> get_def t' i = Some d.
  Proof. unfold get_def. intro H. apply lookup_some in H as [H1 H2]. apply lookup_intro; [rewrite (ag_tag _ _ _ A); exact H1|]. now apply (ag_def _ _ _ A). Qed.
  Lemma agree_get_func i d : get_func t i = Some d -> get_func t' i = Some d.
  Proof. unfold get_func. intro H. apply lookup_some in H as [H1 H2]. apply lookup_intro; [rewrite (ag_tag _ _ _ A); exact H1|]. now apply (ag_func _ _ _ A). Qed.
  Lemma agree_get_mod i d : get_mod t i = Some d -> get_mod t' i = Some d.
  Proof. unfold get_mod. intro H. apply lookup_some in H as [H1 H2]. apply lookup_intro; [rewrite (ag_tag _ _ _ A); exact H1|]. now apply (ag_mod _ _ _ A). Qed.
  Lemma agree_get_res i r : get_res t i = Some r ->
    exists r', get_res t' i = Some r' /\ res_name r' = res_name r /\ res_source r' = res_source r.
  Proof.
    unfold get_res. intro H. apply lookup_some in H as [H1 H2]. destruct (ag_res _ _ _ A _ _ H2) as [r' [H3 H4]].
    exists r'. split; [|exact H4]. apply lookup_intro; [rewrite (ag_tag _ _ _ A); exact H1 | exact H3].
  Qed.
  Lemma agree_get_if i x : get_if t i = Some x -> ~ In (true, id_idx i) O ->
    exists x', get_if t' i = Some x' /\ i_exports x' = i_exports x.
  Proof.
    unfold get_if. intros H Hn. apply lookup_some in H as [H1 H2]. destruct (ag_if _ _ _ A _ _ H2 Hn) as [x' [H3 H4]].
    exists x'. split; [|exact H4]. apply lookup_intro; [rewrite (ag_tag _ _ _ A); exact H1 | exact H3].
  Qed.
  Lemma agree_get_world i x : get_world t i = Some x -> ~ In (false, id_idx i) O ->
    exists x', get_world t' i = Some x' /\ w_imports x' = w_imports x /\ w_exports x' = w_exports x.
  Proof.
    unfold get_world. intros H Hn. apply lookup_some in H as [H1 H2]. destruct (ag_world _ _ _ A _ _ H2 Hn) as [x' [H3 H4]].
    exists x'. split; [|exact H4]. apply lookup_intro; [rewrite (ag_tag _ _ _ A); exact H1 | exact H3].
  Qed.

  Lemma agree_res_name : forall f, ext_some (res_name_of f t) (res_name_of f t').
  Proof.
    induction f as [|f IH]; intros r n; [discriminate|]. cbn [res_name_of].
    destruct (get_res t r) as [x|] eqn:E; [|discriminate]. destruct (agree_get_res _ _ E) as [x' [-> [Hn Hs]]].
    rewrite Hs. destruct (res_source x) as [s|]; [apply IH | congruence].
  Qed.

  Lemma agree_unfold_vt : forall f, ext_some (unfold_vt f t) (unfold_vt f t').
  Proof.
    induction f as [|f IH]; intros v tr; [discriminate|]. rewrite !unfold_vt_eq. intro H.
    apply (unfold_vt_body_ext _ _ _ _ t' v tr IH (agree_res_name (S f))).
    destruct v as [p|r|r|d]; try exact H. cbn [unfold_vt_body] in *.
    destruct (get_def t d) as [x|] eqn:E; [|discriminate]. now rewrite (agree_get_def _ _ E).
  Qed.

  Lemma agree_unfold_func f : ext_some (unfold_func f t) (unfold_func f t').
  Proof.
    intros i ft. unfold unfold_func. destruct (get_func t i) as [x|] eqn:E; [|discriminate]. rewrite (agree_get_func _ _ E).
    destruct (map_snd (unfold_vt f t) (f_params x)) as [ps|] eqn:E1; [|discriminate].
    destruct (omap (unfold_vt f t) (f_result x)) as [r|] eqn:E2; [|discriminate].
    now rewrite (map_snd_ext _ _ _ _ (agree_unfold_vt f) E1), (omap_ext _ _ _ _ (agree_unfold_vt f) E2).
  Qed.
End Lookups.

Definition slots_new (O : list slot) (t : types) : Prop :=
  forall b i, In (b, i) O -> if b : bool then (length (t_interfaces t) <= i)%nat else (length (t_worlds t) <= i)%nat.

Lemma agree_open O' O t t1 t2 : slots_new O' t -> agree [] t t1 -> agree (O' ++ O) t1 t2 -> agree O t t2.
Proof.
  intros N A B. destruct (agree_trans _ _ _ _ (agree_nil (O' ++ O) _ _ A) B) as [C1 C2 C3 C4 C5 C6 C7 C8 C9].
  assert (F : forall b i, In (b, i) (O' ++ O) -> ~ In (b, i) O ->
              if b : bool then (length (t_interfaces t) <= i)%nat else (length (t_worlds t) <= i)%nat).
  { intros b i Hin Hn. apply in_app_or in Hin as [Hin|Hin]; [exact (N b i Hin) | contradiction]. }
  constructor; auto.
  - intros i x H Hn. apply C6; [exact H|]. intro Hin. specialize (F true i Hin Hn). cbn in F.
    assert (i < length (t_interfaces t))%nat by (apply nth_error_Some; congruence). lia.
  - intros i x H Hn. apply C7; [exact H|]. intro Hin. specialize (F false i Hin Hn). cbn in F.
    assert (i < length (t_worlds t))%nat by (apply nth_error_Some; congruence). lia.
Qed.
Definition next_slot (b : bool) (t : types) : slot := (b, if b then length (t_interfaces t) else length (t_worlds t)).
Lemma agree_open_next b O t t1 t2 : agree [] t t1 -> agree (next_slot b t :: O) t1 t2 -> agree O t t2.
Proof. apply (agree_open [_]). intros b' i [E|[]]. injection E as <- <-. destruct b; apply Nat.le_refl. Qed.

Lemma mk_def_run d s x s1 :
  mk_def d s = COk (x, s1) -> x = VDefined (fst (add_def (cs_types s) d)) /\ s1 = with_types s (snd (add_def (cs_types s) d)).
Proof. unfold mk_def, add_def. intro H. injection H as <- <-. split; reflexivity. Qed.

Lemma c_module_run g v s r s' : c_module g v s = COk (r, s') ->
  nassoc v (cs_cache s) = Some (EnType (TModule r)) /\ s' = s \/
  exists mt, nassoc v (cs_cache s) = None /\ node_of g v = Some (NMod (Some mt)) /\
    r = fst (add_mod (cs_types s) mt) /\ s' = cache_put (with_types s (snd (add_mod (cs_types s) mt))) v (EnType (TModule r)).
Proof.
  unfold c_module. destruct (nassoc v (cs_cache s)) as [[[ | | | | |m0]|]|]; try discriminate.
  { intro H. injection H as <- <-. now left. }
  destruct (node_of g v) as [[ | | | | |[mt|]]|]; try discriminate.
  unfold add_mod. intro H. injection H as <- <-. right. exists mt. repeat split.
Qed.
Lemma c_resource_run hf g name v s r s' : c_resource hf g name v s = COk (r, s') ->
  nassoc v (cs_cache s) = Some (EnRes r) /\ s' = s \/
  exists rid rr, nassoc v (cs_cache s) = None /\ node_of g v = Some (NRes rid) /\ r = fst (add_res (cs_types s) rr) /\
    let t := snd (add_res (cs_types s) rr) in
    ((exists src ownr, nassoc rid (cs_resmap s) = Some src /\ rr = mkres name (Some (ownr, src)) /\ s' = cache_put (with_types s t) v (EnRes r)) \/
     nassoc rid (cs_resmap s) = None /\ rr = mkres name None /\
     s' = cache_put (mkcs t (cs_cache s) ((rid, r) :: cs_resmap s) (cs_owners s) (cs_log s)) v (EnRes r)).
Proof.
  unfold c_resource. destruct (nassoc v (cs_cache s)) as [[|r0]|]; try discriminate.
  { intro H. injection H as <- <-. now left. }
  destruct (node_of g v) as [[ | | | |rid| ]|]; try discriminate.
  destruct (nassoc rid (cs_resmap s)) as [src|] eqn:Em.
  - destruct (find_owner hf g (cs_owners s) v) as [o|]; [|discriminate].
    unfold add_res. intro H. injection H as <- <-. right. eexists rid, _. repeat split. left. eexists src, _. repeat split. exact Em.
  - unfold add_res. intro H. injection H as <- <-. right. eexists rid, _. repeat split. right. repeat split. exact Em.
Qed.

Definition tables_kept (s s' : cstate) : Prop := cs_cache s' = cs_cache s /\ cs_resmap s' = cs_resmap s.

Lemma frame_refl s : agree [] (cs_types s) (cs_types s) /\ tables_kept s s.
Proof. split; [apply agree_refl | split; reflexivity]. Qed.

Lemma use_or_own_frame hf g vn ow name rf cr s s' :
  use_or_own hf g vn ow name rf cr s = COk s' -> agree [] (cs_types s) (cs_types s') /\ tables_kept s s'.
Proof.
  unfold use_or_own. destruct (find_owner hf g (cs_owners s) rf) as [[[other orig]|]|]; [| |discriminate].
  - intro H. inv_bind H as s1 H1. injection H as <-.
    assert (X : agree [] (cs_types s) (cs_types s1) /\ tables_kept s s1).
    { destruct other as [i|w]; [|injection H1 as <-; apply frame_refl].
      destruct (owner_eqb ow (OwIface i)); [injection H1 as <-; apply frame_refl|].
      destruct ow as [me|me].
      - destruct (upd_if _ _ _) as [t|] eqn:E; [|discriminate]. injection H1 as <-. split; [|split; reflexivity].
        eapply agree_upd_if; [exact E|]. right. reflexivity.
      - destruct (upd_world _ _ _) as [t|] eqn:E; [|discriminate]. injection H1 as <-. split; [|split; reflexivity].
        eapply agree_upd_world; [exact E|]. right. intro x. split; reflexivity. }
    unfold tables_kept, remember_owner in *. destruct (nassoc cr (cs_owners s1)); exact X.
  - destruct (nassoc cr (cs_owners s)); [discriminate|]. intro H. injection H as <-. exact (frame_refl s).
Qed.

Lemma reset_self_owner_frame me k s s' :
  reset_self_owner me k s = COk s' -> agree [] (cs_types s) (cs_types s') /\ tables_kept s s'.
Proof.
  unfold reset_self_owner.
  destruct k as [[res| | | | | ]| | | | | ]; try (intro H; injection H as <-; apply frame_refl).
  destruct (get_res (cs_types s) res) as [r|] eqn:Er; [|discriminate].
  destruct (res_alias r) as [[[o|] src]|] eqn:Ea; try (intro H; injection H as <-; apply frame_refl).
  destruct (id_eqb o me); [|intro H; injection H as <-; apply frame_refl].
  destruct (upd_res _ _ _) as [t|] eqn:E; [|discriminate]. intro H. injection H as <-. split; [|split; reflexivity].
  eapply agree_upd_res; [exact E|]. intros x Hx. rewrite Er in Hx. injection Hx as <-. split; [reflexivity|].
  unfold res_source. cbn [res_alias]. now rewrite Ea.
Qed.

Lemma get_if_upd t i f t' x : upd_if t i f = Some t' -> get_if t i = Some x -> get_if t' i = Some (f x).
Proof.
  unfold upd_if. intros H E. rewrite E in H. injection H as <-. unfold get_if in *. cbn [t_tag t_interfaces].
  apply lookup_some in E as [E1 E2]. apply lookup_intro; [exact E1|]. eapply nth_error_set_nth_eq. exact E2.
Qed.
Lemma get_world_upd t i f t' x : upd_world t i f = Some t' -> get_world t i = Some x -> get_world t' i = Some (f x).
Proof.
  unfold upd_world. intros H E. rewrite E in H. injection H as <-. unfold get_world in *. cbn [t_tag t_worlds].
  apply lookup_some in E as [E1 E2]. apply lookup_intro; [exact E1|]. eapply nth_error_set_nth_eq. exact E2.
Qed.

(** The export loop of an instance type and the import and export loops of a component type are one loop: convert the
    item, let [mid] record who owns a type item, let [put] append the item to the list under construction. *)
Section ItemLoop.
  Variable E : str -> vent -> cstate -> cres (kind * cstate).
  Variable mid : str -> vent -> kind -> cstate -> cres cstate.
  Variable put : str -> kind -> cstate -> cres cstate.
  Fixpoint item_loop (l : list (str * vent)) (s : cstate) : cres cstate :=
    match l with
    | [] => COk s
    | (n, e) :: r => '(k, s1) <- E n e s ;; s2 <- mid n e k s1 ;; s3 <- put n k s2 ;; item_loop r s3
    end.
End ItemLoop.

Definition own_if hf g vn me (n : str) (e : vent) (k : kind) (s : cstate) : cres cstate :=
  match e with EType rf cr => s' <- use_or_own hf g vn (OwIface me) n rf cr s ;; reset_self_owner me k s' | _ => COk s end.
Definition own_world hf g vn me (n : str) (e : vent) (k : kind) (s : cstate) : cres cstate :=
  match e with EType rf cr => use_or_own hf g vn (OwWorld me) n rf cr s | _ => COk s end.
Definition own_none (n : str) (e : vent) (k : kind) (s : cstate) : cres cstate := COk s.

Lemma bind_ext {A B} (x : cres A) (f f' : A -> cres B) : (forall a, f a = f' a) -> bind x f = bind x f'.
Proof. intro H. destruct x; cbn [bind]; auto. Qed.

Lemma inst_loop_eq hf g E vn me : forall l s,
  inst_loop hf g E vn me l s = item_loop E (own_if hf g vn me) (put_if_export me) l s.
Proof.
  induction l as [|[n e] l IH]; intro s; cbn [inst_loop item_loop]; [reflexivity|].
  apply bind_ext. intros [k s1]. apply bind_ext. intro s2. apply bind_ext. exact IH.
Qed.
Lemma comp_imports_eq hf g E vn me : forall l s,
  comp_imports hf g E vn me l s = item_loop E (own_world hf g vn me) (put_world_import me) l s.
Proof.
  induction l as [|[n e] l IH]; intro s; cbn [comp_imports item_loop]; [reflexivity|].
  apply bind_ext. intros [k s1]. apply bind_ext. intro s2. apply bind_ext. exact IH.
Qed.
Lemma comp_exports_eq E me : forall l s, comp_exports E me l s = item_loop E own_none (put_world_export me) l s.
Proof.
  induction l as [|[n e] l IH]; intro s; cbn [comp_exports item_loop]; [reflexivity|].
  apply bind_ext. intros [k s1]. unfold own_none. cbn [bind]. apply bind_ext. exact IH.
Qed.

(** The list a loop fills, as a view of the collection, together with what else the slot holds: the view survives
    every change outside the slot, and [put] succeeds exactly when the name is new, appending the item. *)
Definition if_view me (t : types) : option (list (str * kind) * unit) := option_map (fun x => (i_exports x, tt)) (get_if t me).
Definition imports_view me (t : types) := option_map (fun x => (w_imports x, w_exports x)) (get_world t me).
Definition exports_view me (t : types) := option_map (fun x => (w_exports x, w_imports x)) (get_world t me).

Record slot_view {X} (sl : slot) (put : str -> kind -> cstate -> cres cstate) (view : types -> option (list (str * kind) * X)) : Prop := mkview {
  sv_keep : forall t t' v, agree [] t t' -> view t = Some v -> view t' = Some v;
  sv_fresh : forall n k s l x, view (cs_types s) = Some (l, x) -> assoc n l = None -> exists s', put n k s = COk s';
  sv_put : forall n k s s', put n k s = COk s' ->
           agree [sl] (cs_types s) (cs_types s') /\ tables_kept s s' /\
           exists l x, view (cs_types s) = Some (l, x) /\ assoc n l = None /\ view (cs_types s') = Some (l ++ [(n, k)], x) }.

Lemma own_if_frame hf g vn me n e k s s' :
  own_if hf g vn me n e k s = COk s' -> agree [] (cs_types s) (cs_types s') /\ tables_kept s s'.
Proof.
  unfold own_if. destruct e as [ | | |rf cr| | ]; try (intro H; injection H as <-; apply frame_refl).
  intro H. inv_bind H as sa Ha. destruct (use_or_own_frame _ _ _ _ _ _ _ _ _ Ha) as [Aa [Ca Ra]].
  destruct (reset_self_owner_frame _ _ _ _ H) as [Ab [Cb Rb]].
  split; [eapply agree_trans; eassumption | split; congruence].
Qed.
Lemma own_world_frame hf g vn me n e k s s' :
  own_world hf g vn me n e k s = COk s' -> agree [] (cs_types s) (cs_types s') /\ tables_kept s s'.
Proof.
  unfold own_world. destruct e as [ | | |rf cr| | ]; try (intro H; injection H as <-; apply frame_refl). apply use_or_own_frame.
Qed.

Lemma own_none_frame n e k s s' : own_none n e k s = COk s' -> agree [] (cs_types s) (cs_types s') /\ tables_kept s s'.
Proof. intro H. injection H as <-. apply frame_refl. Qed.

Lemma if_slot me : slot_view (true, id_idx me) (put_if_export me) (if_view me).
Proof.
  constructor.
  - unfold if_view. intros t t' v A H. destruct (get_if t me) as [x|] eqn:E; [|discriminate].
    destruct (agree_get_if _ _ _ A _ _ E (fun F => F)) as [x' [-> Ex]]. cbn [option_map] in *. now rewrite Ex.
  - unfold if_view, put_if_export, upd_if. intros n k s l x H Ha. destruct (get_if (cs_types s) me) as [y|]; [|discriminate].
    injection H as <- _. rewrite Ha. eauto.
  - unfold if_view, put_if_export. intros n k s s'. destruct (get_if (cs_types s) me) as [x|] eqn:E; [|discriminate].
    destruct (assoc n (i_exports x)) eqn:Ea; [discriminate|].
    destruct (upd_if _ _ _) as [t|] eqn:Eu; [|discriminate]. intro H. injection H as <-. cbn [cs_types with_types].
    split; [eapply agree_upd_if; [exact Eu | left; now left]|]. split; [split; reflexivity|].
    exists (i_exports x), tt. split; [reflexivity|]. split; [exact Ea|]. now rewrite (get_if_upd _ _ _ _ _ Eu E).
Qed.
Lemma imports_slot me : slot_view (false, id_idx me) (put_world_import me) (imports_view me).
Proof.
  constructor.
  - unfold imports_view. intros t t' v A H. destruct (get_world t me) as [x|] eqn:E; [|discriminate].
    destruct (agree_get_world _ _ _ A _ _ E (fun F => F)) as [x' [-> [Ei Ee]]]. cbn [option_map] in *. now rewrite Ei, Ee.
  - unfold imports_view, put_world_import, upd_world. intros n k s l x H Ha. destruct (get_world (cs_types s) me) as [y|]; [|discriminate].
    injection H as <- _. rewrite Ha. eauto.
  - unfold imports_view, put_world_import. intros n k s s'. destruct (get_world (cs_types s) me) as [x|] eqn:E; [|discriminate].
    destruct (assoc n (w_imports x)) eqn:Ea; [discriminate|].
    destruct (upd_world _ _ _) as [t|] eqn:Eu; [|discriminate]. intro H. injection H as <-. cbn [cs_types with_types].
    split; [eapply agree_upd_world; [exact Eu | left; now left]|]. split; [split; reflexivity|].
    exists (w_imports x), (w_exports x). split; [reflexivity|]. split; [exact Ea|]. now rewrite (get_world_upd _ _ _ _ _ Eu E).
Qed.
Lemma exports_slot me : slot_view (false, id_idx me) (put_world_export me) (exports_view me).
Proof.
  constructor.
  - unfold exports_view. intros t t' v A H. destruct (get_world t me) as [x|] eqn:E; [|discriminate].
    destruct (agree_get_world _ _ _ A _ _ E (fun F => F)) as [x' [-> [Ei Ee]]]. cbn [option_map] in *. now rewrite Ei, Ee.
  - unfold exports_view, put_world_export, upd_world. intros n k s l x H Ha. destruct (get_world (cs_types s) me) as [y|]; [|discriminate].
    injection H as <- _. rewrite Ha. eauto.
  - unfold exports_view, put_world_export. intros n k s s'. destruct (get_world (cs_types s) me) as [x|] eqn:E; [|discriminate].
    destruct (assoc n (w_exports x)) eqn:Ea; [discriminate|].
    destruct (upd_world _ _ _) as [t|] eqn:Eu; [|discriminate]. intro H. injection H as <-. cbn [cs_types with_types].
    split; [eapply agree_upd_world; [exact Eu | left; now left]|]. split; [split; reflexivity|].
    exists (w_exports x), (w_imports x). split; [reflexivity|]. split; [exact Ea|]. now rewrite (get_world_upd _ _ _ _ _ Eu E).
Qed.
