(** Text-level facts used by the C13 proofs: [trim], [split_on], [rust_lines], doc-comment lines, and
    [slice] (the model of [&source[a..b]]); how a property of single commands passes through the
    printer's three list layouts; induction over a run of the interpreter [layout]. *)
From WacV Require Import Str Token Lexer Semver Ast Parser Printer PrintSpec StrFacts LexerSound.
From Coq Require Import Lia.
Local Open Scope nat_scope.

Definition all_ws (s : str) : Prop := Forall (fun c => is_rust_ws c = true) s.
Definition no_lead (s : str) : Prop := match s with c :: _ => is_rust_ws c = false | [] => True end.

Lemma trim_start_split s : exists p, s = p ++ trim_start s /\ all_ws p /\ no_lead (trim_start s).
Proof.
  induction s as [|c s IH]; [exists []; repeat split; constructor|].
  cbn [trim_start]. destruct (is_rust_ws c) eqn:E.
  - destruct IH as (p & Hs & Hp & Hn). exists (c :: p). split; [cbn; congruence|]. split; [constructor; auto|exact Hn].
  - exists []. repeat split; [constructor|exact E].
Qed.

Lemma trim_start_no_lead s : no_lead s -> trim_start s = s.
Proof. destruct s as [|c s]; [reflexivity|]. cbn. now intros ->. Qed.

Lemma trim_start_all_ws p s : all_ws p -> trim_start (p ++ s) = trim_start s.
Proof. induction 1 as [|c p Hc Hp IH]; [reflexivity|]. cbn. now rewrite Hc. Qed.

Lemma trim_start_idem s : trim_start (trim_start s) = trim_start s.
Proof. destruct (trim_start_split s) as (_ & _ & _ & H). now apply trim_start_no_lead. Qed.

Lemma no_lead_app_nonempty a b : a <> [] -> no_lead (a ++ b) -> no_lead a.
Proof. destruct a; [congruence|auto]. Qed.

Lemma no_lead_app a b : a <> [] -> no_lead a -> no_lead (a ++ b).
Proof. destruct a; [congruence|auto]. Qed.

(** The shape of a trimmed text: no white space at either end. *)
Definition trimmed (s : str) : Prop := no_lead s /\ no_lead (rev s).

Lemma trim_trimmed s : trimmed (trim s).
Proof.
  unfold trim, trimmed. rewrite rev_involutive.
  destruct (trim_start_split s) as (p & Hs & Hp & Hn). set (a := trim_start s) in *.
  destruct (trim_start_split (rev a)) as (q & Hr & Hq & Hb). set (b := trim_start (rev a)) in *.
  split; [|exact Hb].
  destruct b as [|c b'] eqn:Eb; [exact I|].
  assert (Ha : a = rev (c :: b') ++ rev q) by (rewrite <- rev_app_distr, <- Hr, rev_involutive; reflexivity).
  rewrite Ha in Hn. eapply no_lead_app_nonempty; [|exact Hn].
  intros E. apply (f_equal (@rev N)) in E. rewrite rev_involutive in E. discriminate E.
Qed.

Lemma trim_of_trimmed s : trimmed s -> trim s = s.
Proof.
  intros [H1 H2]. unfold trim. rewrite (trim_start_no_lead s H1), (trim_start_no_lead _ H2). apply rev_involutive.
Qed.

Lemma trim_idem s : trim (trim s) = trim s.
Proof. apply trim_of_trimmed, trim_trimmed. Qed.

Lemma trim_cons_ws c s : is_rust_ws c = true -> trim (c :: s) = trim s.
Proof. intros H. unfold trim. cbn [trim_start]. now rewrite H. Qed.

Lemma In_trim_start x s : In x (trim_start s) -> In x s.
Proof. destruct (trim_start_split s) as (p & Hs & _). intros H. rewrite Hs. apply in_or_app. now right. Qed.

Lemma In_trim x s : In x (trim s) -> In x s.
Proof. unfold trim. intros H. apply in_rev in H. apply In_trim_start in H. apply in_rev in H. now apply In_trim_start. Qed.

Lemma trim_nil : trim [] = [].
Proof. reflexivity. Qed.

Lemma trim_snoc_ws s c : is_rust_ws c = true -> trim (s ++ [c]) = trim s.
Proof.
  intros Hc. unfold trim. destruct (trim_start_split s) as (p & Hs & Hp & Hn).
  remember (trim_start s) as a eqn:Ea. 
  assert (E1 : trim_start (s ++ [c]) = trim_start (a ++ [c])).
  { rewrite Hs, <- app_assoc. apply trim_start_all_ws. exact Hp. }
  rewrite E1. clear E1 Ea Hs. destruct a as [|x a].
  - cbn. now rewrite Hc.
  - assert (E : trim_start ((x :: a) ++ [c]) = (x :: a) ++ [c]) by (apply trim_start_no_lead; exact Hn).
    rewrite E, rev_app_distr. cbn [rev app trim_start]. now rewrite Hc.
Qed.

Lemma strip_cr_trim s : trim (strip_cr s) = trim s.
Proof.
  unfold strip_cr. destruct (rev s) as [|c r] eqn:E; [reflexivity|].
  destruct (c =? c_cr)%N eqn:Ec; [|reflexivity].
  apply N.eqb_eq in Ec. subst c.
  assert (Hs : s = rev r ++ [c_cr]) by (rewrite <- (rev_involutive s), E; reflexivity).
  rewrite Hs. symmetry. now apply trim_snoc_ws.
Qed.

Lemma split_on_no_sep c s : Forall (fun seg => ~ In c seg) (split_on c s).
Proof.
  induction s as [|x s IH]; cbn.
  - constructor; [intros []|constructor].
  - destruct (x =? c)%N eqn:E.
    + constructor; [intros []|exact IH].
    + apply N.eqb_neq in E. destruct (split_on c s) as [|seg segs]; [constructor; [|constructor]|].
      * intros [H|[]]. congruence.
      * inversion IH; subst. constructor; [|assumption]. intros [H|H]; [congruence|auto].
Qed.

Lemma split_on_none c s : ~ In c s -> split_on c s = [s].
Proof.
  induction s as [|x s IH]; [reflexivity|]. intros H. cbn.
  destruct (x =? c)%N eqn:E; [apply N.eqb_eq in E; subst; exfalso; apply H; now left|].
  rewrite IH by (intros H'; apply H; now right). reflexivity.
Qed.

Lemma filter_nonempty_trim_app (a b : list str) :
  filter (fun l => negb (is_nil l)) (a ++ b) =
  filter (fun l => negb (is_nil l)) a ++ filter (fun l => negb (is_nil l)) b.
Proof. apply filter_app. Qed.

(** The repaired printer writes exactly the specification's normalised lines of a comment. *)
Lemma doc_lines_repaired text : doc_lines_of repaired text = doc_norm_text text.
Proof.
  unfold doc_lines_of, doc_norm_text, rust_lines. cbn [fx_doc_blank_line repaired andb].
  pose proof (split_on_nonempty c_nl text) as Hne.
  destruct (exists_last Hne) as (ini & lst & E). rewrite E.
  rewrite removelast_last, last_last, !map_app, !filter_app, map_map.
  f_equal.
  - f_equal. apply map_ext. intros a. apply strip_cr_trim.
  - destruct lst as [|c l]; reflexivity.
Qed.

Lemma doc_norm_text_elems text l :
  In l (doc_norm_text text) -> l <> [] /\ trimmed l /\ ~ In c_nl l.
Proof.
  unfold doc_norm_text. intros H. apply filter_In in H. destruct H as [H Hn].
  apply in_map_iff in H. destruct H as (seg & <- & Hseg). split; [|split].
  - destruct (trim seg); [discriminate|discriminate].
  - apply trim_trimmed.
  - intros Hin. apply In_trim in Hin.
    pose proof (split_on_no_sep c_nl text) as Hf. rewrite Forall_forall in Hf. exact (Hf _ Hseg Hin).
Qed.

(** A printed doc line comes back from the lexer as the same text, and normalises to itself. *)
Lemma doc_of_line_trimmed l : trimmed l -> doc_of_line l = l.
Proof. intros H. unfold doc_of_line. rewrite trim_cons_ws by reflexivity. now apply trim_of_trimmed. Qed.

Lemma doc_norm_text_line l : l <> [] -> trimmed l -> ~ In c_nl l -> doc_norm_text l = [l].
Proof.
  intros Hne Ht Hnl. unfold doc_norm_text. rewrite split_on_none by exact Hnl. cbn [map filter].
  rewrite trim_of_trimmed by exact Ht. destruct l; [congruence|reflexivity].
Qed.

Lemma doc_norm_lines_fix (L : list str) :
  Forall (fun l => l <> [] /\ trimmed l /\ ~ In c_nl l) L ->
  flat_map doc_norm_text (map doc_of_line L) = L.
Proof.
  induction 1 as [|l L (Hne & Ht & Hnl) _ IH]; [reflexivity|].
  cbn [map flat_map]. rewrite IH, doc_of_line_trimmed by exact Ht.
  now rewrite doc_norm_text_line.
Qed.

(** Every line of a normalised doc list is non-empty, trimmed and without a line feed: the premise of
    [doc_norm_lines_fix]. *)
Lemma doc_norm_flat_elems (ts : list str) :
  Forall (fun l => l <> [] /\ trimmed l /\ ~ In c_nl l) (flat_map doc_norm_text ts).
Proof.
  apply Forall_forall. intros l H. apply in_flat_map in H. destruct H as (t & _ & H).
  now apply doc_norm_text_elems in H.
Qed.

Lemma drop_bytes_app pre s : drop_bytes (pre ++ s) (byte_len pre) = Some s.
Proof.
  induction pre as [|c pre IH]; cbn [byte_len app drop_bytes].
  - destruct s; reflexivity.
  - pose proof (utf8_len_pos c).
    destruct ((utf8_len c + byte_len pre =? 0)%N) eqn:E; [apply N.eqb_eq in E; lia|].
    destruct ((utf8_len c <=? utf8_len c + byte_len pre)%N) eqn:E2; [|apply N.leb_gt in E2; lia].
    replace (utf8_len c + byte_len pre - utf8_len c)%N with (byte_len pre) by lia. exact IH.
Qed.

Lemma take_bytes_app t s : take_bytes (t ++ s) (byte_len t) = Some t.
Proof.
  induction t as [|c t IH]; cbn [byte_len app take_bytes].
  - destruct s; reflexivity.
  - pose proof (utf8_len_pos c).
    destruct ((utf8_len c + byte_len t =? 0)%N) eqn:E; [apply N.eqb_eq in E; lia|].
    destruct ((utf8_len c <=? utf8_len c + byte_len t)%N) eqn:E2; [|apply N.leb_gt in E2; lia].
    replace (utf8_len c + byte_len t - utf8_len c)%N with (byte_len t) by lia. now rewrite IH.
Qed.

(** The text standing at a span that was computed from the byte lengths of what precedes it. *)
Lemma slice_at pre t post : slice (pre ++ t ++ post) {| off := byte_len pre; slen := byte_len t |} = Some t.
Proof. unfold slice. cbn [off slen]. rewrite drop_bytes_app. apply take_bytes_app. Qed.

(** Induction over a run of [layout] that does not panic: one case per command and state of
    [indented] in which the interpreter behaves differently. *)
Lemma layout_ind s (Q : nat -> bool -> list cmd -> list piece -> Prop) :
  (forall ind b, Q ind b [] []) ->
  (forall ind b k cs ps, Q ind b cs ps -> Q ind b (CTok k :: cs) (PcTok k (fixed_text k) :: ps)) ->
  (forall ind b k sp t cs ps, slice s sp = Some t -> Q ind b cs ps -> Q ind b (CSrc k sp :: cs) (PcTok k t :: ps)) ->
  (forall ind b cs ps, Q ind b cs ps -> Q ind b (CSp :: cs) (PcWs [32%N] :: ps)) ->
  (forall ind l cs ps, Q ind false cs ps -> Q ind true (CDoc l :: cs) (PcDoc l :: ps)) ->
  (forall ind l cs ps, Q ind false cs ps -> Q ind false (CDoc l :: cs) (PcWs (indent_text ind) :: PcDoc l :: ps)) ->
  (forall ind cs ps, Q ind true cs ps -> Q ind true (CIndent :: cs) ps) ->
  (forall ind cs ps, Q ind true cs ps -> Q ind false (CIndent :: cs) (PcWs (indent_text ind) :: ps)) ->
  (forall ind b cs ps, Q ind false cs ps -> Q ind b (CNewline :: cs) (PcWs [c_nl] :: ps)) ->
  (forall ind b cs ps, Q ind b cs ps -> Q ind b (CRawNl :: cs) (PcWs [c_nl] :: ps)) ->
  (forall ind b cs ps, Q (S ind) b cs ps -> Q ind b (CInc :: cs) ps) ->
  (forall ind b cs ps, Q (pred ind) b cs ps -> Q ind b (CDec :: cs) ps) ->
  forall cs ind b ps, layout s ind b cs = Some ps -> Q ind b cs ps.
Proof.
  intros Hnil Htok Hsrc Hsp Hdoc1 Hdoc0 Hind1 Hind0 Hnl Hraw Hinc Hdec.
  induction cs as [|c cs IH]; intros ind b ps H; cbn [layout] in H; [injection H as <-; apply Hnil|].
  destruct c; [| destruct (slice s sp) eqn:Es; [|discriminate] | | destruct b | destruct b | | | |];
    try (destruct (layout s _ _ cs) eqn:E; [|discriminate]; injection H as <-); auto.
Qed.

(** [wf_ty] and [wf_primary] spell [All] out as a local [fix]. *)
Lemma fix_All {A} (P : A -> Prop) l :
  (fix all (l : list A) : Prop := match l with [] => True | a :: r => P a /\ all r end) l <-> All P l.
Proof. induction l as [|a l IH]; cbn; [tauto|]. split; intros [H1 H2]; split; auto; now apply IH. Qed.

Lemma Forall_app_intro {A} (P : A -> Prop) a b : Forall P a -> Forall P b -> Forall P (a ++ b).
Proof. intros Ha Hb. apply Forall_app. now split. Qed.

Lemma Forall_comma_sep {A} (P : cmd -> Prop) (pr : A -> list cmd) l :
  P (CTok TComma) -> P CSp -> Forall (fun x => Forall P (pr x)) l -> forall b, Forall P (comma_sep pr b l).
Proof.
  intros Hc Hs. induction 1 as [|x r Hx _ IH]; intros b; cbn [comma_sep]; [constructor|].
  apply Forall_app_intro; [destruct b; repeat constructor; assumption|]. apply Forall_app_intro; [exact Hx|apply IH].
Qed.

Lemma Forall_comma_lines {A} (P : cmd -> Prop) (pr : A -> list cmd) l :
  P (CTok TComma) -> P CNewline -> Forall (fun x => Forall P (pr x)) l -> Forall P (comma_lines pr l).
Proof.
  intros Hc Hn. unfold comma_lines. induction 1 as [|x r Hx _ IH]; cbn [flat_map]; [constructor|].
  apply Forall_app_intro; [|exact IH]. apply Forall_app_intro; [exact Hx|repeat constructor; assumption].
Qed.

Lemma Forall_spaced {A} (P : cmd -> Prop) (pr : A -> list cmd) l :
  P CNewline -> Forall (fun x => Forall P (pr x)) l -> forall b, Forall P (spaced pr b l).
Proof.
  intros Hn. induction 1 as [|x r Hx _ IH]; intros b; cbn [spaced]; [constructor|].
  apply Forall_app_intro; [destruct b; repeat constructor; assumption|]. apply Forall_app_intro; [exact Hx|].
  constructor; [exact Hn|apply IH].
Qed.
