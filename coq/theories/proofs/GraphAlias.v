(** C06: alias nodes. In every reachable state an alias edge runs from a live node whose kind has
    instance exports to a live alias node of the same package, with an export index in range and the
    kind recorded in the alias node; and every alias node has such an edge. So [get_alias_source]
    answers for exactly the alias nodes. *)
From Coq Require Import List Arith Bool NArith Lia.
From WacV Require Import Graph GraphInv GraphPrims GraphSteps GraphRemove GraphUnreg GraphFrame GraphTheorems.
Import ListNotations.

Definition AliasInv (u : universe) (s : gstate) : Prop :=
  (forall e i, In e (edges s) -> ek e = EAlias i ->
     exists sn ex nd nm, get_node s (esrc e) = Some sn /\ u_inst_exports u (nitem sn) = Some ex /\
       get_node s (etgt e) = Some nd /\ nk nd = NAlias /\ npkg sn = npkg nd /\
       nth_error ex i = Some (nm, nitem nd)) /\
  (forall n nd, get_node s n = Some nd -> nk nd = NAlias ->
     exists e i, In e (edges s) /\ etgt e = n /\ ek e = EAlias i).

Lemma kclass_alias k k' : kclass k k' -> (k = NAlias <-> k' = NAlias).
Proof. destruct k, k'; cbn; intros H; split; intros E; try discriminate; congruence. Qed.

(** the generic step: nothing is re-created, no alias node appears, alias edges are old, and an alias
    edge survives with its target *)
Lemma AliasInv_step u s s' :
  AliasInv u s ->
  (forall m a b, get_node s m = Some a -> get_node s' m = Some b -> nrel3 a b) ->
  (forall m b, get_node s m = None -> get_node s' m = Some b -> nk b <> NAlias) ->
  (forall e i, In e (edges s') -> ek e = EAlias i -> In e (edges s)) ->
  InvC u s' ->
  (forall e i, In e (edges s) -> ek e = EAlias i -> live s' (etgt e) = true -> In e (edges s')) ->
  AliasInv u s'.
Proof.
  intros [A B] H1 H2 H3 I' H5. split.
  - intros e i He K. pose proof (H3 e i He K) as Hold. destruct (A e i Hold K) as (sn & ex & nd & nm & G1 & U & G2 & K2 & P & N).
    destruct (eo_live _ _ (ic_edge _ _ I') e He) as [L1 L2]. apply liveb_true in L1 as [sn' L1], L2 as [nd' L2].
    destruct (H1 _ _ _ G1 L1) as (I1 & P1 & _). destruct (H1 _ _ _ G2 L2) as (I2 & P2 & C2).
    exists sn', ex, nd', nm. repeat split; auto; try congruence.
    now apply (kclass_alias _ _ C2).
  - intros n nd' G' K'. destruct (get_node s n) as [a|] eqn:G.
    + destruct (H1 _ _ _ G G') as (_ & _ & C). apply (kclass_alias _ _ C) in K'.
      destruct (B n a G K') as (e & i & He & T & K). exists e, i. repeat split; auto.
      apply (H5 e i He K). rewrite T. unfold live. now rewrite G'.
    + exfalso. eapply H2; eauto.
Qed.

(** what one operation does to the nodes and the alias edges *)
Definition Delta (s s' : gstate) : Prop :=
  (forall m a b, get_node s m = Some a -> get_node s' m = Some b -> nrel3 a b) /\
  (forall m b, get_node s m = None -> get_node s' m = Some b -> nk b <> NAlias) /\
  (forall e i, ek e = EAlias i -> (In e (edges s') <-> In e (edges s))).

Lemma Quiet_Delta s s' : Quiet s s' -> Delta s s'.
Proof.
  intros Q. split; [|split].
  - intros m a b G1 G2. now apply (qu_old _ _ Q m).
  - intros m b G1 G2. now apply (qu_new _ _ Q m).
  - intros e i Ke. split; [|now apply (qu_alias _ _ Q e i)].
    intros He. destruct (qu_edges _ _ Q e He) as [H|[j H]]; [exact H|congruence].
Qed.

Lemma export_delta u s n e : Delta s (fst (export_ u s n e)).
Proof.
  destruct (export_spec u s n e) as [->|(nd & G & _ & ->)]; [now apply Quiet_Delta, Quiet_eq|].
  rewrite get_node_getn in G. split; [|split; [|reflexivity]].
  - intros m a b G1 G2. rewrite get_node_getn in *. cbn in G2. erewrite getn_set_live in G2 by eauto.
    destruct (Nat.eqb_spec m n) as [->|_]; [|rewrite G1 in G2; injection G2 as <-; apply nrel3_refl].
    rewrite G in G1. injection G1 as <-. injection G2 as <-. repeat split. apply kclass_refl.
  - intros m b G1 G2. rewrite get_node_getn in *. cbn in G2. erewrite getn_set_live in G2 by eauto.
    destruct (Nat.eqb_spec m n) as [->|_]; congruence.
Qed.

Lemma define_type_delta u s nm t : InvC u s -> Delta s (fst (define_type u s nm t)).
Proof.
  intros HI.
  destruct (define_type_spec u s nm t) as [->|(td & s1 & idx & new & _ & _ & _ & A & Hn & ->)]; [now apply Quiet_Delta, Quiet_eq|].
  apply add_node_spec in A as ([Fd Fu] & _ & E1 & _); [|apply HI]. split; [|split].
  - intros m a b G1 G2. rewrite get_node_getn in *. cbn in G2. rewrite Fu in G2.
    destruct (Nat.eqb_spec m idx) as [->|_]; [congruence|]. rewrite G1 in G2. injection G2 as <-. apply nrel3_refl.
  - intros m b G1 G2. rewrite get_node_getn in *. cbn in G2. rewrite Fu in G2.
    destruct (Nat.eqb_spec m idx) as [->|_]; [injection G2 as <-; discriminate|congruence].
  - intros e i Ke. cbn. rewrite in_app_iff, E1. split; [intros [Hx|Hx]; auto|auto]. apply Hn in Hx as [K _]. congruence.
Qed.

Lemma AliasInv_delta u s s' : AliasInv u s -> Delta s s' -> InvC u s' -> AliasInv u s'.
Proof.
  intros A (D1 & D2 & D3) HI. apply (AliasInv_step u s s'); auto.
  - intros e i He K. now apply (D3 e i K).
  - intros e i He K _. now apply (D3 e i K).
Qed.

Lemma get_full_nth {B} (l : list (name * B)) k : forall i j v,
  get_full l k i = Some (j, v) -> i <= j /\ nth_error l (j - i) = Some (k, v).
Proof.
  induction l as [|[k' v'] l IH]; intros i j v; cbn; [discriminate|].
  destruct (N.eqb_spec k' k) as [->|Hne].
  - intros [= <- <-]. rewrite Nat.sub_diag. auto.
  - intros H. apply IH in H as [L H]. split; [lia|]. replace (j - i) with (S (j - S i)) by lia. exact H.
Qed.

Lemma alias_alias_inv u s n e : InvC u s -> AliasInv u s -> AliasInv u (fst (alias u s n e)).
Proof.
  intros HI HA.
  destruct (alias_spec u s n e) as [->|(nd & ex & index & kind & s1 & idx & G & U & Gf & A & ->)]; [exact HA|].
  pose proof HI as [F E X I D P].
  apply add_node_spec in A as ([Fd Fu] & _ & E1 & _); [|exact F].
  rewrite get_node_getn in G. assert (Hn : n <> idx) by (intros ->; congruence).
  apply get_full_nth in Gf as [_ Gf]. rewrite Nat.sub_0_r in Gf.
  destruct HA as [A1 A2]. split; cbn [add_edge edges]; rewrite E1.
  - intros x i [<-|Hx] K; rewrite !get_node_getn; cbn [add_edge nodes esrc etgt ek] in *.
    + injection K as <-. exists nd, ex, (mk_node NAlias kind (npkg nd)), e. rewrite !Fu, Nat.eqb_refl.
      apply Nat.eqb_neq in Hn. rewrite Hn. repeat split; auto.
    + destruct (A1 x i Hx K) as (sn & ex' & nd' & nm & G1 & U' & G2 & K2 & P' & N). rewrite get_node_getn in G1, G2.
      exists sn, ex', nd', nm. rewrite !Fu.
      destruct (Nat.eqb_spec (esrc x) idx) as [Eq|_]; [congruence|].
      destruct (Nat.eqb_spec (etgt x) idx) as [Eq|_]; [congruence|]. repeat split; auto.
  - intros m b Gm K. rewrite get_node_getn in Gm. cbn [add_edge nodes] in Gm. rewrite Fu in Gm.
    destruct (Nat.eqb_spec m idx) as [->|_].
    + eexists _, index. split; [left; reflexivity|]. cbn. auto.
    + destruct (A2 m b Gm K) as (x & i & Hx & T & Kx). exists x, i. repeat split; auto. now right.
Qed.

Lemma nrel5_nrel3 a b : nrel5 a b -> nrel3 a b.
Proof. intros (A & B & _ & _ & C). now repeat split. Qed.

Lemma RemOne_alias_inv u s n s' :
  (forall e, In e (edges s) -> esrc e = n -> exists i, ek e = EArg i) -> InvC u s' -> RemOne s n s' ->
  AliasInv u s -> AliasInv u s'.
Proof.
  intros Hno I' R HA. destruct (ro_purged _ _ _ R) as [l Pu].
  assert (Hm : forall m b, get_node s' m = Some b -> orel (cleared l m) (get_node s m) (Some b)).
  { intros m b G. pose proof (pu_nodes _ _ _ _ Pu m) as H. rewrite !get_node_getn in *. rewrite G in H.
    destruct (m =? n); [discriminate|exact H]. }
  apply (AliasInv_step u s s'); auto.
  - intros m a b G1 G2. apply Hm in G2. rewrite G1 in G2. apply nrel5_nrel3. eapply cleared_nrel5; eauto.
  - intros m b G1 G2. apply Hm in G2. rewrite G1 in G2. destruct G2.
  - intros e i He _. rewrite (ro_edges _ _ _ R) in He. apply filter_In in He. tauto.
  - intros e i He Ke L. rewrite (ro_edges _ _ _ R). apply filter_In. split; auto.
    assert (S1 : esrc e <> n) by (intros Es; destruct (Hno e He Es) as [j Kj]; congruence).
    assert (S2 : etgt e <> n) by (intros Eq; rewrite (RemOne_live _ _ _ R), Eq, Nat.eqb_refl in L; discriminate).
    apply Nat.eqb_neq in S1, S2. now rewrite S1, S2.
Qed.

Lemma remove_node_alias_inv u s n : InvC u s -> AliasInv u s -> AliasInv u (fst (remove_node s n)).
Proof.
  intros HI HA. destruct (remove_node_cases s n) as [->|R]; [exact HA|].
  edestruct (remove_node_rel u (fun a b => AliasInv u a -> AliasInv u b)) as (_ & _ & _ & _ & _ & Ok);
    [| | |exact HI|exact R|exact (Ok HA)]; auto.
  intros a m b _ _ H2 H3 H4. now apply (RemOne_alias_inv u a m b).
Qed.

(** [unregister]: an alias edge and its two ends belong to one package *)
Lemma unregister_alias_inv u s id : InvC u s -> AliasInv u s -> AliasInv u (fst (unregister s id)).
Proof.
  intros HI HA. pose proof (unregister_inv u s id HI) as I'.
  destruct (unregister_cases s id) as [->|R]; [exact HA|]. set (s' := fst (unregister s id)) in *.
  destruct (unregister_frame s id s' R) as (Fl & Fn & Fe & _).
  assert (Hl : forall m b, get_node s' m = Some b -> live s' m = true) by (intros m b G; unfold live; now rewrite G).
  apply (AliasInv_step u s s'); auto.
  - intros m a b G1 G2. specialize (Fn m (Hl m b G2)). rewrite G1, G2 in Fn. now apply nrel5_nrel3.
  - intros m b G1 G2. apply Hl, Fl in G2 as [L _]. unfold live in L. rewrite G1 in L. discriminate.
  - intros e i He _. now apply Fe in He.
  - intros e i He K L. apply Fe. split; auto.
    destruct (proj1 HA e i He K) as (sn & ex & nd & nm & G1 & _ & G2 & _ & P & _).
    assert (T : node_pkg_is s id (etgt e) = false) by now apply Fl in L.
    split; auto. unfold node_pkg_is in *. rewrite G1. rewrite G2 in T. now rewrite P.
Qed.

Lemma step_alias_inv u s o : Inv u s -> AliasInv u s -> AliasInv u (fst (step u s o)).
Proof.
  intros HI HA. apply Inv_iff in HI. pose proof (step_invC u s o HI) as I'.
  destruct (quiet_op o) eqn:Q; [eapply AliasInv_delta; eauto using Quiet_Delta, step_quiet|].
  destruct o; try discriminate; cbn [step] in *.
  - now apply unregister_alias_inv.
  - eapply AliasInv_delta; eauto using define_type_delta.
  - now apply alias_alias_inv.
  - eapply AliasInv_delta; eauto using export_delta.
  - now apply remove_node_alias_inv.
Qed.

Lemma reach_alias_inv u ops : AliasInv u (run u ops).
Proof.
  apply (run_ind u); [|intros s o; apply step_alias_inv].
  split; [intros ? ? []|]. intros n nd H. rewrite get_node_getn, getn_nil in H. discriminate.
Qed.

(** the alias-source query answers for exactly the alias nodes, with a live source *)
Lemma alias_source_reflects u s n :
  Inv u s -> AliasInv u s ->
  match get_node s n with
  | Some nd =>
      match nk nd with
      | NAlias => exists src i nm, get_alias_source u s n = Some (src, nm) /\ live s src = true /\
                                   In {| esrc := src; etgt := n; ek := EAlias i |} (edges s)
      | _ => get_alias_source u s n = None
      end
  | None => get_alias_source u s n = None
  end.
Proof.
  intros HI [A B]. unfold get_alias_source. destruct (find _ (incoming s n)) as [e|] eqn:Fd.
  - apply find_some in Fd as [He Ke]. apply filter_In in He as [He T]. apply Nat.eqb_eq in T.
    destruct (ek e) as [i|i|] eqn:Ki; try discriminate.
    destruct (A e i He Ki) as (sn & ex & nd & nm & G1 & U & G2 & K2 & P & N). rewrite T in G2.
    rewrite G2, K2, G1, U, N. exists (esrc e), i, nm. repeat split; [unfold live; now rewrite G1|].
    destruct e as [a b c]. cbn in *. subst. exact He.
  - destruct (get_node s n) as [nd|] eqn:G; auto. destruct (nk nd) eqn:K; auto. exfalso.
    destruct (B n nd G K) as (e0 & i0 & He0 & T0 & K0).
    assert (Xf := find_none _ _ Fd e0). cbn in Xf. rewrite K0 in Xf. discriminate Xf.
    apply filter_In. split; auto. now apply Nat.eqb_eq.
Qed.

Lemma node_ids_live s n : In n (node_ids s) <-> live s n = true.
Proof.
  unfold node_ids. rewrite nodes_where_In, live_liveb, liveb_true. split; [intros [nd [H _]]; eauto|intros [nd H]; eauto].
Qed.

(** the satisfied set is the set of indexes carried by the incoming argument edges, one edge each *)
Lemma sat_iff_edge u s n nd sat :
  Inv u s -> get_node s n = Some nd -> nk nd = NInst sat ->
  forall i, In i sat <-> exists e, In e (edges s) /\ etgt e = n /\ ek e = EArg i.
Proof.
  intros H G K i. destruct (inv_sat_exact _ _ H n nd sat G K) as [_ Cn]. specialize (Cn i).
  change (count_arg s n i) with (count_arg_l (edges s) n i) in Cn. split.
  - intros Hi. apply existsb_eqb_In in Hi. rewrite Hi in Cn. unfold count_arg_l in Cn.
    destruct (filter (is_arg n i) (edges s)) as [|e r] eqn:F; [discriminate|].
    assert (He : In e (filter (is_arg n i) (edges s))) by (rewrite F; now left).
    apply filter_In in He as [He Ha]. apply is_arg_true in Ha as [T Ke]. eauto.
  - intros [e [He [T Ke]]]. subst n. apply (arg_edge_sat (nodes s) (edges s) e nd sat i); auto.
    apply Inv_iff in H. apply H.
Qed.
