(** C02: the side condition [EncInv] of [wiring_correct] holds of every reachable graph, given how the
    per-case universe is built. That no definition is exported under two names ([DefsSingle]) holds
    of every reachable graph ([GraphDefExport.reach_def_exp]: [export(definition_node, other_name)]
    renames the definition).
    The history invariant [KindInv] records what item a node carries (an instantiation the instance
    kind of its package, a definition the kind of a definable type together with an export name) and
    that the occupied slots of the package table hold distinct packages. *)
From Coq Require Import List Arith Bool NArith.
From WacV Require Import Str StrFacts ListFacts Graph Wiring WiringSpec EncodeModel GraphInv GraphPrims GraphTheorems GraphAlias GraphDefExport GraphQueries WiringSim ValidArgs.
Import ListNotations.
Local Open Scope nat_scope.

(** how the universe of a case is built (facts about wac-types data, checked per case by the harness) *)
Record UnivOK (e : wenv) (u : universe) : Prop := {
  uo_inst_sort : forall k ex, u_inst_exports u k = Some ex -> we_sort e k = SInstance;
  uo_pkg_inst : forall p pd, nth_error (u_pkgs u) p = Some pd -> exists ex, u_inst_exports u (pd_inst pd) = Some ex;
  uo_ty_sort : forall t td, nth_error (u_tys u) t = Some td -> we_sort e (td_kind td) = SType;
  uo_exports_nodup : forall k ex, u_inst_exports u k = Some ex -> NoDup (map fst ex);
  uo_names_inj : forall a b, we_name e a = we_name e b -> a = b }.

(** history invariant: what kind of item a node carries, and registered packages are distinct *)
Record KindInv (u : universe) (s : gstate) : Prop := {
  ki_inst : forall n nd sat, get_node s n = Some nd -> nk nd = NInst sat ->
            exists id pd, npkg nd = Some id /\ pkg_desc u s id = Some pd /\ nitem nd = pd_inst pd;
  ki_def : forall n nd, get_node s n = Some nd -> nk nd = NDef ->
           (exists t td, nth_error (u_tys u) t = Some td /\ nitem nd = td_kind td) /\ nexport nd <> None;
  ki_pkg_inj : forall id1 id2 p, get_pkg s id1 = Some p -> get_pkg s id2 = Some p -> id1 = id2 }.

Lemma kind_inv_empty : forall u, KindInv u empty_graph.
Proof.
  intros u. assert (G : forall n, get_node empty_graph n = None) by (intros n; apply getn_nil).
  constructor.
  - intros n nd sat H. rewrite G in H. discriminate.
  - intros n nd H. rewrite G in H. discriminate.
  - intros [i g] id2 p H. unfold get_pkg in H. cbn in H. destruct i; discriminate.
Qed.

Lemma kind_step_frame u s s' : KindInv u s -> OpFrame u s s' -> KindInv u s'.
Proof.
  intros [A B C] [O Nw P J _]. constructor; [| |exact (J C)].
  - intros n nd sat G K. destruct (get_node s n) as [a|] eqn:Ga.
    + destruct (O _ _ _ Ga G) as [(I1 & P1 & C1) _]. rewrite K in C1.
      destruct (nk a) as [| |sat0|] eqn:Ka; cbn in C1; try discriminate.
      destruct (A n a sat0 Ga Ka) as (id & pd & Np & Pd & It). exists id, pd.
      assert (Np' : npkg nd = Some id) by congruence.
      split; [exact Np'|split; [|congruence]]. unfold pkg_desc in *. now rewrite (P n nd id G Np').
    + specialize (Nw n nd Ga G). unfold newok in Nw. rewrite K in Nw. destruct Nw as (id & pd & Np & Pd & It).
      exists id, pd. split; [exact Np|split; [|exact It]]. unfold pkg_desc in *. now rewrite (P n nd id G Np).
  - intros n nd G K. destruct (get_node s n) as [a|] eqn:Ga.
    + destruct (O _ _ _ Ga G) as [(I1 & P1 & C1) E1].
      assert (Ka : nk a = NDef) by (now apply (kclass_def _ _ C1)).
      destruct (B n a Ga Ka) as [(t & td & T & It) Ex]. split; [|auto].
      exists t, td. split; [exact T|congruence].
    + specialize (Nw n nd Ga G). unfold newok in Nw. now rewrite K in Nw.
Qed.

Lemma step_kind_inv : forall u s o, Inv u s -> KindInv u s -> KindInv u (fst (step u s o)).
Proof. intros u s o HI HK. exact (kind_step_frame _ _ _ HK (step_frame u s o HI)). Qed.

Lemma reach_kind_inv : forall u ops, KindInv u (run u ops).
Proof.
  intros u ops. induction ops as [|o ops IH] using rev_ind.
  - exact (kind_inv_empty u).
  - rewrite run_app. apply step_kind_inv; auto. apply reach_inv.
Qed.

(** a definition is exported under one name only: holds of every reachable graph ([reach_defs_single]) *)
Definition DefsSingle (g : gstate) : Prop :=
  forall nm nm' n, In (nm, n) (exports g) -> In (nm', n) (exports g) -> is_def g n = true -> nm' = nm.

Lemma defs_single_of_def_exp g : DefExp g -> DefsSingle g.
Proof.
  intros H nm nm' n H1 H2 D. unfold is_def in D. destruct (get_node g n) as [nd|] eqn:G; [|discriminate].
  destruct (nk nd) eqn:K; try discriminate. eapply def_exp_single; eauto.
Qed.

Theorem reach_defs_single : forall u ops, DefsSingle (run u ops).
Proof. intros u ops. apply defs_single_of_def_exp, reach_def_exp. Qed.

Lemma def_name_listed e g nm n :
  In (nm, n) (exports g) -> exists nm', In (nm', n) (exports g) /\ def_name e g n = nstr e nm'.
Proof.
  intros Hin. unfold def_name. destruct (find _ (exports g)) as [[nm' n']|] eqn:Fd.
  - apply find_some in Fd as [Hin' E]. cbn in E. apply Nat.eqb_eq in E. subst n'. eauto.
  - exfalso. pose proof (find_none _ _ Fd (nm, n) Hin) as X. cbn in X. rewrite Nat.eqb_refl in X. discriminate.
Qed.

Lemma def_name_single e g nm n :
  DefsSingle g -> In (nm, n) (exports g) -> is_def g n = true -> nstr e nm = def_name e g n.
Proof.
  intros DS Hin Hd. destruct (def_name_listed e g nm n Hin) as (nm' & Hin' & ->).
  now rewrite (DS nm nm' n Hin Hin' Hd).
Qed.

Theorem enc_inv_of_invariants : forall e u g,
  UnivOK e u -> Inv u g -> AliasInv u g -> KindInv u g -> DefsSingle g -> EncInv e u g.
Proof.
  intros e u g UO HI HA HK DS. constructor.
  - exact (uo_inst_sort _ _ UO).
  - intros n nd sat G K. destruct (ki_inst _ _ HK n nd sat G K) as (id & pd & Np & Pd & It).
    unfold pkg_desc in Pd. destruct (get_pkg g id) as [p|]; [|discriminate].
    destruct (uo_pkg_inst _ _ UO p pd Pd) as [ex Ex]. rewrite It. eapply uo_inst_sort; eauto.
  - intros n nd G K. destruct (ki_def _ _ HK n nd G K) as [(t & td & T & It) _]. rewrite It.
    eapply uo_ty_sort; eauto.
  - intros n nd src en sn ex k G K GA Gs U AG. unfold get_alias_source in GA.
    destruct (find _ (incoming g n)) as [ed|] eqn:Fd; [|discriminate].
    apply find_some in Fd as [He Ke]. unfold incoming in He. apply filter_In in He as [He T]. apply Nat.eqb_eq in T.
    destruct (ek ed) as [i|i|] eqn:Ki; try discriminate. destruct HA as [A _].
    destruct (A ed i He Ki) as (sn' & ex' & nd' & nm & G1 & U' & G2 & K2 & P & N).
    rewrite G1, U', N in GA. injection GA as <- <-. rewrite T in G2. rewrite G in G2. injection G2 as <-.
    rewrite G1 in Gs. injection Gs as <-. rewrite U' in U. injection U as <-.
    apply nth_error_In in N.
    rewrite (In_alist_get ex' nm (nitem nd) (uo_exports_nodup _ _ UO _ _ U') N) in AG. injection AG as <-. reflexivity.
  - intros n nd nm G K Ex. apply def_name_single; auto.
    + eapply inv_node_export; eauto.
    + unfold is_def. now rewrite G, K.
  - intros nm n Hin Hd. now apply def_name_single.
  - intros nm n Hin Hd. unfold str_mem. destruct (existsb _ (def_names e g)) eqn:Ex; auto. exfalso.
    apply existsb_exists in Ex as [x [Hx Ex]]. apply str_eqb_eq in Ex. unfold def_names in Hx.
    apply in_map_iff in Hx as [m [Em Hm]]. apply filter_In in Hm as [_ Dm].
    pose proof Dm as Dm'. unfold is_def in Dm'. destruct (get_node g m) as [md|] eqn:Gm; [|discriminate].
    destruct (nk md) eqn:Km; try discriminate. destruct (ki_def _ _ HK m md Gm Km) as [_ Ne].
    destruct (nexport md) as [nm'|] eqn:Ex'; [|congruence].
    pose proof (inv_node_export _ _ HI m md nm' Gm Ex') as Hin'.
    destruct (def_name_listed e g nm' m Hin') as (nm'' & Hin'' & Dn).
    assert (E : nm = nm'') by (apply (uo_names_inj _ _ UO); unfold nstr in *; congruence). subst nm''.
    assert (n = m) by (eapply NoDup_keys_inj; eauto; apply (inv_exports_keys _ _ HI)). subst m. congruence.
  - exact (ki_pkg_inj _ _ HK).
Qed.

Theorem enc_inv_reachable : forall e u ops,
  UnivOK e u -> EncInv e u (run u ops).
Proof.
  intros e u ops UO. apply enc_inv_of_invariants; auto.
  - apply reach_inv.
  - apply reach_alias_inv.
  - apply reach_kind_inv.
  - apply reach_defs_single.
Qed.
