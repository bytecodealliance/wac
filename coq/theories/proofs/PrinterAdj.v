(** C13: what follows each token the printer writes. A purely syntactic property of the command lists
    [p_X]: every keyword, identifier copy and package copy is directly followed by a blank, a line
    feed, or a punctuation token that cannot continue it; [.] is never followed by [.]. Holds of every
    tree (no well-formedness needed). *)
From WacV Require Import Str Token Lexer LexTables LexImpl Semver Ast Parser AstInd Printer PrintSpec PrinterText PrinterProofs PrinterScan.
From Coq Require Import Lia.
Local Open Scope nat_scope.

(** The beginning of what the commands [nx] write, as far as it depends neither on the layout state
    nor on the source (it ends before an indentation, a doc line or a copy). *)
Fixpoint lead (nx : list cmd) : str :=
  match nx with
  | CTok k :: r => fixed_text k ++ lead r
  | CSp :: _ => [32]%N
  | CNewline :: _ | CRawNl :: _ => [10]%N
  | _ => []
  end.

(** A character after which nothing can be continued. *)
Definition hard (c : N) : bool :=
  negb (alnum c) && negb (existsb (N.eqb c) [45; 37; 58; 47; 64; 43; 46]%N).

Definition hard1 (s : str) : bool := match s with c :: _ => hard c | [] => false end.

Lemma hard_facts c : hard c = true ->
  alnum c = false /\ c <> c_minus /\ c <> 43%N /\ c <> c_colon /\ c <> c_slash /\ c <> c_atsign /\ c <> c_period.
Proof.
  unfold hard. intros H. apply andb_true_iff in H. destruct H as [H1 H2]. apply negb_true_iff in H1, H2.
  cbn [existsb] in H2. repeat (apply orb_false_iff in H2; destruct H2 as [? H2]).
  repeat match goal with H : (c =? _)%N = false |- _ => apply N.eqb_neq in H end.
  repeat split; assumption.
Qed.

(** The literal tokens the printer may write: keywords and symbols, except the [/] symbol. *)
Definition okfixed (k : token) : bool := (is_kw k || is_sym k) && negb (token_eqb k TSlash).

(** [tokfokb c nx]: what the commands [nx] write directly after [c] cannot continue the token [c]
    writes (keyword: a hard character; [.]: a copy, or not a [.]; identifier copy: hard, [.] or
    [: ]/[:\n]; package copy: hard or [.{]; other symbols and strings: no condition). *)
Definition tokfokb (c : cmd) (nx : list cmd) : bool :=
  match c with
  | CTok k =>
      okfixed k &&
      (if is_kw k then hard1 (lead nx)
       else if token_eqb k TDot
            then match nx with CSrc _ _ :: _ => true | _ => match lead nx with c1 :: _ => negb (c1 =? 46)%N | [] => false end end
            else true)
  | CSrc TIdent _ =>
      hard1 (lead nx) || head_is 46 (lead nx) ||
      (head_is 58 (lead nx) && (head_is 32 (tl (lead nx)) || head_is 10 (tl (lead nx))))
  | CSrc TString _ => true
  | CSrc TPackageName _ | CSrc TPackagePath _ => hard1 (lead nx) || (head_is 46 (lead nx) && head_is 123 (tl (lead nx)))
  | CSrc _ _ => false
  | _ => true
  end.

(** [adjb cs h]: every command of [cs] has a good follower when [cs] is followed by the commands [h]
    (the continuation: what the enclosing node prints next). *)
Fixpoint adjb (cs : list cmd) (h : list cmd) : bool :=
  match cs with
  | [] => true
  | c :: r => tokfokb c (r ++ h) && adjb r h
  end.

(** Continuations: [h1b]: starts with a hard character; [h2b]: hard or a period. *)
Definition h1b (h : list cmd) : bool := hard1 (lead h).
Definition h2b (h : list cmd) : bool := hard1 (lead h) || head_is 46 (lead h).
Lemma h1_h2 h : h1b h = true -> h2b h = true.
Proof. unfold h1b, h2b. now intros ->. Qed.

Lemma adjb_app a b h : adjb (a ++ b) h = adjb a (b ++ h) && adjb b h.
Proof. induction a as [|c a IH]; [reflexivity|]. cbn [app adjb]. rewrite IH, <- app_assoc, andb_assoc. reflexivity. Qed.

Lemma adjb_app_true a b h : adjb a (b ++ h) = true -> adjb b h = true -> adjb (a ++ b) h = true.
Proof. intros Ha Hb. now rewrite adjb_app, Ha, Hb. Qed.

Lemma adjb_cons_true c r h : tokfokb c (r ++ h) = true -> adjb r h = true -> adjb (c :: r) h = true.
Proof. intros Hc Hr. cbn [adjb]. now rewrite Hc, Hr. Qed.

(** Splitting tactic: [adjb (a ++ b) h] into its parts, concrete heads by computation. What is left:
    one goal [adjb (p_X ..) h'] per sub-node, in printing order, whose continuation [h'] starts with
    the concrete command that follows it (so [h1b h'] / [h2b h'] is by [reflexivity]), or is the
    caller's [h] for the last sub-node. *)
Ltac adj :=
  repeat first
    [ reflexivity
    | match goal with
      | |- (_ && _)%bool = true => apply andb_true_intro; split
      | |- adjb (_ ++ _) _ = true => apply adjb_app_true
      | |- adjb (_ :: _) _ = true => apply adjb_cons_true
      | |- tokfokb _ _ = true =>
          unfold src_id, src_str, src_path; cbn [app tokfokb];
          repeat match goal with
                 | H : h1b _ = true |- _ => unfold h1b in H; rewrite ?H
                 | H : h2b _ = true |- _ => unfold h2b in H; rewrite ?H
                 end; reflexivity
      end ].

Section Adj.
Let fx := repaired.

Lemma adj_docs ds h : adjb (p_docs fx ds) h = true.
Proof. rewrite p_docs_flat. induction (printed_lines ds) as [|l L IH]; [reflexivity|]. cbn [map adjb tokfokb]. exact IH. Qed.

Lemma adj_comma_sep {A} (pr : A -> list cmd) l :
  (forall x h, In x l -> h1b h = true -> adjb (pr x) h = true) ->
  forall b h, h1b h = true -> adjb (comma_sep pr b l) h = true.
Proof.
  induction l as [|x l IH]; intros Hx b h Hh; [reflexivity|]. cbn [comma_sep].
  assert (IH' := IH (fun y h' Hy => Hx y h' (or_intror Hy))).
  destruct b; cbn [app]; adj.
  - apply Hx; [now left|]. destruct l; [exact Hh|reflexivity].
  - now apply IH'.
  - apply Hx; [now left|]. destruct l; [exact Hh|reflexivity].
  - now apply IH'.
Qed.

Lemma adj_comma_lines {A} (pr : A -> list cmd) l :
  (forall x h, In x l -> h1b h = true -> adjb (pr x) h = true) -> forall h, adjb (comma_lines pr l) h = true.
Proof.
  unfold comma_lines. induction l as [|x l IH]; intros Hx h; [reflexivity|]. cbn [flat_map]. adj.
  - apply Hx; [now left|reflexivity].
  - apply IH. intros y h' Hy. apply Hx. now right.
Qed.

Lemma adj_spaced {A} (pr : A -> list cmd) l :
  (forall x h, In x l -> h1b h = true -> adjb (pr x) h = true) -> forall b h, adjb (spaced pr b l) h = true.
Proof.
  induction l as [|x l IH]; intros Hx b h; [reflexivity|]. cbn [spaced].
  assert (IH' := IH (fun y h' Hy => Hx y h' (or_intror Hy))).
  destruct b; cbn [app]; adj; try (apply Hx; [now left|reflexivity]); apply IH'.
Qed.

Lemma adj_ty t : forall h, h1b h = true -> adjb (p_ty t) h = true.
Proof.
  induction t as [p sp|tys sp IH|t sp IH|t sp IH|ok err sp IHok IHerr|i sp|t sp IH|i] using ty_ind'; intros h Hh.
  - destruct p; cbn [p_ty prim_token adjb app]; adj.
  - rewrite p_ty_tuple. adj. apply adj_comma_sep; [|reflexivity]. intros x h' Hx Hh'. rewrite Forall_forall in IH. now apply IH.
  - cbn [p_ty]. adj. now apply IH.
  - cbn [p_ty]. adj. now apply IH.
  - destruct ok as [ok|], err as [err|]; cbn [p_ty optP] in *; adj; try (apply IHok; reflexivity); try (apply IHerr; reflexivity).
  - cbn [p_ty src_id]. adj.
  - cbn [p_ty]. adj. now apply IH.
  - cbn [p_ty src_id]. adj.
Qed.

Lemma adj_named_type n h : h1b h = true -> adjb (p_named_type n) h = true.
Proof. intros Hh. unfold p_named_type. adj. now apply adj_ty. Qed.

Lemma adj_named_types l h : h1b h = true -> adjb (p_named_types l) h = true.
Proof. intros Hh. unfold p_named_types. apply adj_comma_sep; [|exact Hh]. intros x h' _ Hh'. now apply adj_named_type. Qed.

Lemma adj_func_type f h : h1b h = true -> adjb (p_func_type f) h = true.
Proof.
  intros Hh. unfold p_func_type. destruct (ft_results f) as [|t|rs]; cbn [app]; adj;
    try (apply adj_named_types; reflexivity); try (now apply adj_ty).
Qed.

Lemma adj_variant_case c h : h1b h = true -> adjb (CIndent :: p_variant_case fx c) h = true.
Proof.
  intros Hh. unfold p_variant_case. destruct (vc_ty c) as [t|]; adj; try apply adj_docs. apply adj_ty. reflexivity.
Qed.

Lemma adj_resource_method m h : h1b h = true -> adjb (p_resource_method fx m) h = true.
Proof.
  intros Hh. destruct m as [dcs sp ps|dcs i st f]; cbn [p_resource_method]; [|destruct st]; adj; try apply adj_docs;
    try (apply adj_named_types; reflexivity); try (apply adj_func_type; reflexivity).
Qed.

Lemma adj_block dcs k i body h :
  okfixed k && is_kw k = true -> (forall h', adjb body h' = true) -> adjb (p_block fx dcs k i body) h = true.
Proof.
  intros Hk Hb. apply andb_true_iff in Hk. destruct Hk as [Hk1 Hk2]. unfold p_block. adj; try apply adj_docs; try apply Hb.
  cbn [app tokfokb]. rewrite Hk1, Hk2. reflexivity.
Qed.

Lemma adj_item_type_decl x h : h1b h = true -> adjb (p_item_type_decl fx x) h = true.
Proof.
  intros Hh. destruct x as [dcs i ms|dcs i cs|dcs i fs|dcs i fs|dcs i cs|dcs i k]; cbn [p_item_type_decl].
  - apply adj_block; [reflexivity|]. intros h'. apply adj_spaced. intros m h'' _ H. now apply adj_resource_method.
  - apply adj_block; [reflexivity|]. intros h'. apply adj_comma_lines. intros c h'' _ H. now apply adj_variant_case.
  - apply adj_block; [reflexivity|]. intros h'. apply adj_comma_lines. intros f h'' _ H. unfold p_field. adj; [apply adj_docs|now apply adj_ty].
  - apply adj_block; [reflexivity|]. intros h'. apply adj_comma_lines. intros f h'' _ H. unfold p_flag. adj. apply adj_docs.
  - apply adj_block; [reflexivity|]. intros h'. apply adj_comma_lines. intros c h'' _ H. unfold p_enum_case. adj. apply adj_docs.
  - destruct k as [f|t]; adj; try apply adj_docs; [apply adj_func_type|apply adj_ty]; reflexivity.
Qed.

Lemma adj_use u h : h1b h = true -> adjb (p_use fx u) h = true.
Proof.
  intros Hh. unfold p_use. destruct (u_path u) as [p|i]; cbn [p_use_path]; adj; try apply adj_docs;
    (apply adj_comma_sep; [|reflexivity]); intros it h' _ Hh'; unfold p_use_item; destruct (ui_as it); adj.
Qed.

Lemma adj_interface_item it h : h1b h = true -> adjb (p_interface_item fx it) h = true.
Proof.
  intros Hh. destruct it as [u|x|dcs i t]; cbn [p_interface_item]; [now apply adj_use|now apply adj_item_type_decl|].
  destruct t as [f|j]; cbn [p_func_type_ref]; adj; try apply adj_docs. apply adj_func_type. reflexivity.
Qed.

Lemma adj_items {A} (pr : A -> list cmd) l h :
  (forall x h', h1b h' = true -> adjb (pr x) h' = true) -> adjb (p_items pr l) h = true.
Proof. intros H. unfold p_items. adj. apply adj_spaced. intros x h' _ Hh'. now apply H. Qed.

Lemma adj_inline_interface items h : adjb (p_inline_interface fx items) h = true.
Proof. unfold p_inline_interface. adj. apply adj_items. intros. now apply adj_interface_item. Qed.

Lemma adj_extern_type t h : h1b h = true -> adjb (p_extern_type fx t) h = true.
Proof. intros Hh. destruct t; cbn [p_extern_type]; [adj|now apply adj_func_type|apply adj_inline_interface]. Qed.

Lemma adj_world_item_path p h : h1b h = true -> adjb (p_world_item_path fx p) h = true.
Proof. intros Hh. destruct p; cbn [p_world_item_path]; adj. now apply adj_extern_type. Qed.

Lemma adj_world_item w h : h1b h = true -> adjb (p_world_item fx w) h = true.
Proof.
  intros Hh. destruct w as [u|x|dcs p|dcs p|dcs wr items]; cbn [p_world_item];
    [now apply adj_use|now apply adj_item_type_decl| | |].
  - adj; [apply adj_docs|apply adj_world_item_path; reflexivity].
  - adj; [apply adj_docs|apply adj_world_item_path; reflexivity].
  - destruct wr, items as [|x l]; cbn [p_world_ref]; adj; try apply adj_docs;
      apply adj_comma_lines; intros it h' _ Hh'; unfold p_include_item; adj.
Qed.

Lemma adj_type_statement t h : h1b h = true -> adjb (p_type_statement fx t) h = true.
Proof.
  intros Hh. destruct t as [dcs i items|dcs i items|x]; cbn [p_type_statement]; [| |now apply adj_item_type_decl].
  - adj; try apply adj_docs. apply adj_items. intros. now apply adj_interface_item.
  - adj; try apply adj_docs. apply adj_items. intros. now apply adj_world_item.
Qed.

Lemma adj_postfixes post : forall h, h2b h = true -> adjb (flat_map p_postfix post) h = true.
Proof.
  induction post as [|p post IH]; intros h Hh; [reflexivity|]. cbn [flat_map].
  assert (Hc : h2b (flat_map p_postfix post ++ h) = true).
  { destruct post as [|q post']; [exact Hh|]. destruct q; reflexivity. }
  destruct p; cbn [p_postfix]; adj; now apply IH.
Qed.

Lemma adj_args l : Forall (fun a => forall h, h1b h = true -> adjb (p_arg0 a) h = true) l -> forall h, adjb (p_args l) h = true.
Proof.
  induction 1 as [|a l Ha _ IH]; intros h; [reflexivity|]. cbn [p_args]. unfold p_arg_line.
  destruct (is_fill a && nil_args l)%bool; adj; try (apply Ha; reflexivity); apply IH.
Qed.

Lemma adj_arg_name n h :
  (head_is 58 (lead h) && (head_is 32 (tl (lead h)) || head_is 10 (tl (lead h))))%bool = true -> adjb (p_arg_name n) h = true.
Proof.
  intros Hh. destruct n; cbn [p_arg_name src_id src_str adjb app tokfokb]; [|reflexivity].
  rewrite Hh, !orb_true_r. reflexivity.
Qed.

Lemma adj_expr x : forall h, h2b h = true -> adjb (p_expr fx x) h = true.
Proof.
  revert x. apply (expr_ind' (fun x => forall h, h2b h = true -> adjb (p_expr fx x) h = true)
                     (fun p => forall h, h2b h = true -> adjb (p_primary fx p) h = true)
                     (fun a => forall h, h1b h = true -> adjb (p_arg0 a) h = true)).
  - intros sp p post IH h Hh. cbn [p_expr]. adj; [|now apply adj_postfixes].
    apply IH. destruct post as [|q post']; [exact Hh|]. destruct q; reflexivity.
  - intros sp pkg args IH h Hh. rewrite p_new_eq. pose proof (adj_args args IH) as Ha.
    unfold p_new_args. destruct args as [|a [|b l]]; [adj| |]; destruct a; adj; apply Ha.
  - intros sp x IH h Hh. cbn [p_primary]. adj. apply IH. reflexivity.
  - intros i h Hh. cbn [p_primary]. adj.
  - intros i h Hh. cbn [p_arg0]. adj.
  - intros i h Hh. cbn [p_arg0]. adj.
  - intros n x IH h Hh. cbn [p_arg0]. adj; [apply adj_arg_name; reflexivity|]. apply IH. now apply h1_h2.
  - intros sp h Hh. cbn [p_arg0]. adj.
Qed.

Lemma adj_import_type t h : h1b h = true -> adjb (p_import_type fx t) h = true.
Proof. intros Hh. destruct t; cbn [p_import_type]; [adj|now apply adj_func_type|apply adj_inline_interface|adj]. Qed.

Lemma adj_statement st h : h1b h = true -> adjb (p_statement fx st) h = true.
Proof.
  intros Hh. destruct st as [dcs i name t|t|dcs i x|dcs x o]; cbn [p_statement].
  - destruct name as [[j|s0]|]; cbn [p_extern_name]; adj; try apply adj_docs; apply adj_import_type; reflexivity.
  - now apply adj_type_statement.
  - adj; [apply adj_docs|]. apply adj_expr. reflexivity.
  - destruct o as [|osp|[j|s0]]; cbn [p_extern_name]; adj; try apply adj_docs; apply adj_expr; reflexivity.
Qed.

Theorem adj_document doc : adjb (p_document fx doc) [] = true.
Proof.
  unfold p_document, p_directive. destruct (pd_targets (doc_directive doc)); cbn [fx_targets_keyword fx repaired];
    adj; try apply adj_docs; apply adj_spaced; intros st h _ Hh; now apply adj_statement.
Qed.

End Adj.
