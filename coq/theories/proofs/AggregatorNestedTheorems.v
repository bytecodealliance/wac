(** The C09 statements for NESTED instance requirements, derived from [NestInv] (AggregatorNestedHistory.v) and the laws of
    [tmerge] (AggregatorNestedSpec.v). *)
From Coq Require Import ZArith Lia Permutation.
From WacV Require Import Str Names NamesSpec Types Checker SubSpec CheckerEq SubSpecProofs CheckerValue CheckerProofs.
From WacV Require Import Aggregator AggregatorSpec AggregatorFrame AggregatorRemap AggregatorChecker AggregatorNames
     AggregatorCanonical AggregatorFlat AggregatorHistory NamesProofs
     AggregatorNestedSpec AggregatorNestedDen AggregatorNestedRemap AggregatorNestedMerge AggregatorNestedHistory StrFacts.

Section NThm.
  Variable ord : list (str * id) -> list (str * id).
  Hypothesis ord_incl : forall l x, In x (ord l) -> In x l.
  Variables (cf fuel : nat).
  Variable Col : types -> Prop.
  Hypothesis Col_same : forall t1 t2, Col t1 -> Col t2 -> t_tag t1 = t_tag t2 -> t1 = t2.
  Variable tag0 : N.
  Hypothesis Col_tag : forall t, Col t -> t_tag t <> tag0.
  Notation contrib := (str * (types * kind))%type.
  Notation NI := (NestInv Col tag0).

  Lemma NestInv_history : forall l a s pos done a' s',
    NI a s done -> Forall (nested_contrib Col) l ->
    aggregate_all ord cf fuel a s l pos = inl (a', s') -> NI a' s' (rev l ++ done).
  Proof.
    induction l as [|[name [t k]] l IH]; intros a s pos done a' s' HI HF H; cbn [aggregate_all] in H.
    - injection H as <- <-. exact HI.
    - inversion HF as [|? ? [tr [ids Hc]] HF']; subst.
      destruct (aggregate ord cf fuel a s name t k) as [[a1 s1]| | |] eqn:E; try discriminate.
      pose proof (NestInv_step ord ord_incl cf fuel Col Col_same tag0 Col_tag a s done (name, (t, k)) tr ids a1 s1 HI Hc E) as H1.
      cbn [rev]. rewrite <- app_assoc. cbn [app]. eapply IH; eauto.
  Qed.

  Lemma nested_history l a s :
    Forall (nested_contrib Col) l -> aggregate_all ord cf fuel (agg0 tag0) st0 l 0 = inl (a, s) -> NI a s (rev l).
  Proof. intros HF H. rewrite <- (app_nil_r (rev l)). exact (NestInv_history l _ _ _ [] a s (NestInv_nil Col tag0) HF H). Qed.

  Lemma nested_owner_free l : Forall (nested_contrib Col) l -> Forall (fun c : contrib => owner_free (fst (snd c))) l.
  Proof. apply Forall_impl. intros c [tr [ids [_ [H _]]]]. exact H. Qed.

  (** the import a contributed name leads to, with its tree and the contributions merged into it *)
  Lemma nested_import_of a s done n :
    NI a s done -> In n (map fst done) ->
    exists y oid e d ids, assoc (Aggregator.canonical a n) (a_imports a) = Some (KInstance y) /\
      IDen d (a_types a) y oid e ids /\
      MergedOf Col (filter (on_import (a_redirects a) (Aggregator.canonical a n)) done) (XInst e).
  Proof.
    intros HI Hn. pose proof (ni_total _ _ _ (n_names _ _ _ _ _ HI) n Hn) as Hk. rewrite <- canonical_canon in Hk.
    apply in_keys_assoc in Hk as [k Hk]. destruct (n_roots _ _ _ _ _ HI) as [rown [Hroots _]].
    destruct (Hroots _ _ (assoc_in _ _ _ Hk)) as [y [oid [e [d [-> [ID MO]]]]]]. exists y, oid, e, d, (rown (Aggregator.canonical a n)). auto.
  Qed.
  Lemma ncontrib_of l c tr :
    Forall (nested_contrib Col) l -> In c l -> UnfK (fst (snd c)) (snd (snd c)) tr -> exists ids, ncontrib Col c tr ids.
  Proof.
    intros HF Hc Hu. rewrite Forall_forall in HF. destruct (HF c Hc) as [tr0 [ids Hc0]]. exists ids.
    assert (tr0 = tr) as <- by (eapply UnfK_det; [eapply ncontrib_unf; eauto|exact Hu]). exact Hc0.
  Qed.
  Lemma in_chain a done c : In c done -> In c (filter (on_import (a_redirects a) (Aggregator.canonical a (fst c))) done).
  Proof. intros H. apply filter_In. split; auto. unfold on_import. rewrite <- canonical_canon. apply str_eqb_refl. Qed.

  (** the merged requirement satisfies every contributor *)
  Theorem nested_upper_bound l a s :
    Forall (nested_contrib Col) l ->
    aggregate_all ord cf fuel (agg0 tag0) st0 l 0 = inl (a, s) ->
    forall c, In c l -> forall tr, UnfK (fst (snd c)) (snd (snd c)) tr ->
      exists merged tm, assoc (Aggregator.canonical a (fst c)) (imports a) = Some merged /\
                        UnfK (a_types a) merged tm /\ SubCM tm tr.
  Proof using ord_incl Col_same Col_tag.
    intros HF H c Hc tr Hu. destruct (ncontrib_of l c tr HF Hc Hu) as [ids0 Hc0].
    pose proof (nested_history l a s HF H) as HI. apply in_rev in Hc.
    destruct (nested_import_of a s (rev l) (fst c) HI (in_map fst _ _ Hc)) as [y [oid [e [d [ids [Ha [ID MO]]]]]]].
    exists (KInstance y), (XInst e). split; [exact Ha|]. split; [eapply IDen_unf; eauto|].
    exact (MergedOf_below _ _ _ _ _ _ MO (in_chain a (rev l) c Hc) Hc0).
  Qed.

  Lemma nested_merge_step a s done c a' s' y :
    NI a s done -> nested_contrib Col c ->
    (assoc (fst c) (a_imports a) = Some (KInstance y) \/
     (assoc (fst c) (a_imports a) = None /\ exists en, find_compat (fst c) (a_imports a) = Some (en, KInstance y))) ->
    aggregate ord cf fuel a s (fst c) (fst (snd c)) (snd (snd c)) = AOk (a', s') ->
    forall ta tb, UnfK (a_types a) (KInstance y) ta -> UnfK (fst (snd c)) (snd (snd c)) tb ->
      exists ea eb em d0, ta = XInst ea /\ tb = XInst eb /\ wt d0 ta /\ wt d0 tb /\
        UnfK (a_types a') (KInstance y) (XInst em) /\ tmerge ta tb = Some (XInst em).
  Proof.
    intros HI [tr [ids Hc]] Hwhere H ta tb Uta Utb. destruct c as [name [t k]]. cbn [fst snd] in *.
    pose proof Hc as [Ct [OF [d [i [oid [eb [Ek [IDc [Etr Hoid]]]]]]]]]. cbn [fst snd] in *. subst k tr.
    assert (tb = XInst eb) as -> by (eapply UnfK_det; [exact Utb|eapply IDen_unf; eauto]).
    assert (Hm : exists n0 cc, In (n0, KInstance y) (a_imports a) /\ a_types a' = c_types cc /\
                               merge_item_kind ord cf fuel (KInstance y) t (KInstance i) (core_of a s) = AOk (tt, cc)).
    { apply aggregate_cases in H as [[existing [cc [Ea [Hm [-> ->]]]]] | [[en [ek [cc [im [rd' [Ea [Ef [Hm [Hr [-> ->]]]]]]]]]] | [k' [cc [Ea [Ef _]]]]]].
      - destruct Hwhere as [Ha|[Ha _]]; [|congruence]. rewrite Ea in Ha. injection Ha as ->. exists name, cc.
        split; [now apply assoc_in|auto].
      - destruct Hwhere as [Ha|[_ [en' Hf']]]; [congruence|]. rewrite Ef in Hf'. injection Hf' as <- ->. exists en, cc.
        split; [apply (find_compat_in _ _ _ _ Ef)|auto].
      - destruct Hwhere as [Ha|[_ [en' Hf']]]; congruence. }
    destruct Hm as [n0 [cc [Hin [-> Hm]]]]. destruct (n_roots _ _ _ _ _ HI) as [rown [Hroots _]].
    destruct (Hroots n0 _ Hin) as [y0 [oidr [e [d0 [Ey [IDr _]]]]]]. injection Ey as <-.
    assert (ta = XInst e) as -> by (eapply UnfK_det; [exact Uta|eapply IDen_unf; eauto]).
    destruct (nmerge_into ord cf fuel Col Col_same tag0 Col_tag a s done t i d oid eb ids y oidr e d0 (rown n0) cc HI Ct IDc IDr Hm)
      as [em [idsr' [d1 [Htm [ID' _]]]]].
    destruct (wt_common _ _ _ _ (IDen_wt _ _ _ _ _ _ IDr) (IDen_wt _ _ _ _ _ _ IDc)) as [Wa Wb].
    exists e, eb, em, (Nat.max (S d0) (S d)). split; auto. split; auto. split; auto. split; auto. split; [eapply IDen_unf; eauto|exact Htm].
  Qed.

  Theorem nested_merge_is_union a s done c a' s' y :
    NI a s done -> nested_contrib Col c ->
    (assoc (fst c) (a_imports a) = Some (KInstance y) \/
     (assoc (fst c) (a_imports a) = None /\ exists en, find_compat (fst c) (a_imports a) = Some (en, KInstance y))) ->
    aggregate ord cf fuel a s (fst c) (fst (snd c)) (snd (snd c)) = AOk (a', s') ->
    forall ta tb, UnfK (a_types a) (KInstance y) ta -> UnfK (fst (snd c)) (snd (snd c)) tb ->
      exists ea eb em, ta = XInst ea /\ tb = XInst eb /\ UnfK (a_types a') (KInstance y) (XInst em) /\
        tmerge ta tb = Some (XInst em) /\
        map fst em = first_seen_union (map fst ea) (map fst eb) /\
        forall k, match assoc k ea, assoc k eb with
                  | Some x, Some z => exists m, tmerge x z = Some m /\ assoc k em = Some m
                  | Some x, None => assoc k em = Some x
                  | None, Some z => assoc k em = Some z
                  | None, None => assoc k em = None
                  end.
  Proof using Col_same Col_tag.
    intros HI Hnc Hwhere H ta tb Uta Utb.
    destruct (nested_merge_step a s done c a' s' y HI Hnc Hwhere H ta tb Uta Utb) as [ea [eb [em [d0 [-> [-> [Wa [Wb [U' Htm]]]]]]]]].
    destruct (tmerge_inst_names _ ea eb _ Wa Wb Htm) as [em0 [E0 [Hn Hch]]]. injection E0 as <-.
    exists ea, eb, em. auto 8.
  Qed.

  (** more than idempotence: any requirement the import already satisfies changes nothing *)
  Theorem nested_idempotent a s done c a' s' y :
    NI a s done -> nested_contrib Col c ->
    (assoc (fst c) (a_imports a) = Some (KInstance y) \/
     (assoc (fst c) (a_imports a) = None /\ exists en, find_compat (fst c) (a_imports a) = Some (en, KInstance y))) ->
    aggregate ord cf fuel a s (fst c) (fst (snd c)) (snd (snd c)) = AOk (a', s') ->
    forall ta tb, UnfK (a_types a) (KInstance y) ta -> UnfK (fst (snd c)) (snd (snd c)) tb -> SubCM ta tb ->
      UnfK (a_types a') (KInstance y) ta.
  Proof using Col_same Col_tag.
    intros HI Hnc Hwhere H ta tb Uta Utb HS.
    destruct (nested_merge_step a s done c a' s' y HI Hnc Hwhere H ta tb Uta Utb) as [ea [eb [em [d0 [-> [-> [Wa [Wb [U' Htm]]]]]]]]].
    rewrite (tmerge_absorb _ _ _ Wa Wb HS) in Htm. injection Htm as <-. exact U'.
  Qed.

  Theorem nested_conflict_fails a s done c y :
    NI a s done -> nested_contrib Col c ->
    (assoc (fst c) (a_imports a) = Some (KInstance y) \/
     (assoc (fst c) (a_imports a) = None /\ exists en, find_compat (fst c) (a_imports a) = Some (en, KInstance y))) ->
    forall ta tb, UnfK (a_types a) (KInstance y) ta -> UnfK (fst (snd c)) (snd (snd c)) tb -> tmerge ta tb = None ->
      forall r, aggregate ord cf fuel a s (fst c) (fst (snd c)) (snd (snd c)) <> AOk r.
  Proof using Col_same Col_tag.
    intros HI Hnc Hwhere ta tb Uta Utb Hnone [a' s'] H.
    destruct (nested_merge_step a s done c a' s' y HI Hnc Hwhere H ta tb Uta Utb) as [ea [eb [em [d0 [_ [_ [_ [_ [_ Htm]]]]]]]]].
    congruence.
  Qed.

  (** ... and in a successful history any two contributions of one track are mergeable (they have a common refinement:
      the import both lead to) *)
  Theorem nested_success_no_conflict l a s :
    Forall (nested_contrib Col) l ->
    aggregate_all ord cf fuel (agg0 tag0) st0 l 0 = inl (a, s) ->
    forall c1 c2, In c1 l -> In c2 l -> compat_spec_b (fst c1) (fst c2) = true ->
    forall tr1 tr2, UnfK (fst (snd c1)) (snd (snd c1)) tr1 -> UnfK (fst (snd c2)) (snd (snd c2)) tr2 ->
      exists tm, tmerge tr1 tr2 = Some tm.
  Proof using ord_incl Col_same Col_tag.
    intros HF H c1 c2 H1 H2 C tr1 tr2 U1 U2.
    pose proof (nested_history l a s HF H) as HI.
    destruct (ncontrib_of l c1 tr1 HF H1 U1) as [ids1 Hc1], (ncontrib_of l c2 tr2 HF H2 U2) as [ids2 Hc2].
    apply in_rev in H1, H2.
    destruct (nested_import_of a s (rev l) (fst c1) HI (in_map fst _ _ H1)) as [y [oid [e [d [ids [Ha [ID MO]]]]]]].
    assert (Ec : Aggregator.canonical a (fst c1) = Aggregator.canonical a (fst c2)).
    { rewrite !canonical_canon. apply (inv_one _ _ _ (n_names _ _ _ _ _ HI)); [now apply in_map | now apply in_map|].
      now rewrite compat_is_spec_b. }
    destruct (ncontrib_wt _ _ _ _ Hc1) as [d1 W1]. destruct (ncontrib_wt _ _ _ _ Hc2) as [d2 W2].
    pose proof (MergedOf_below _ _ _ _ _ _ MO (in_chain a (rev l) c1 H1) Hc1) as S1.
    pose proof (in_chain a (rev l) c2 H2) as Hin2. rewrite <- Ec in Hin2.
    pose proof (MergedOf_below _ _ _ _ _ _ MO Hin2 Hc2) as S2.
    destruct (wt_common _ _ _ _ W1 W2) as [Wa Wb]. exact (tmerge_total _ _ _ _ Wa Wb S1 S2).
  Qed.

  Theorem nested_order_indep l l' a s a' s' :
    Forall (nested_contrib Col) l -> Permutation l l' ->
    aggregate_all ord cf fuel (agg0 tag0) st0 l 0 = inl (a, s) ->
    aggregate_all ord cf fuel (agg0 tag0) st0 l' 0 = inl (a', s') ->
    forall n, In n (map fst l) ->
      Aggregator.canonical a n = Aggregator.canonical a' n /\
      exists m m' tm tm', assoc (Aggregator.canonical a n) (imports a) = Some m /\
                          assoc (Aggregator.canonical a' n) (imports a') = Some m' /\
                          UnfK (a_types a) m tm /\ UnfK (a_types a') m' tm' /\ SubCM tm tm' /\ SubCM tm' tm.
  Proof using ord_incl Col_same Col_tag.
    intros HF P H H' n Hn.
    assert (HF' : Forall (nested_contrib Col) l') by (eapply Permutation_Forall; eauto).
    pose proof (nested_history l a s HF H) as HI. pose proof (nested_history l' a' s' HF' H') as HI'.
    assert (Hnames : forall m, In m (map fst l) <-> In m (map fst l')).
    { intros m. split; apply Permutation_in; [|apply Permutation_sym]; now apply Permutation_map. }
    assert (Hagree : forall m, In m (map fst l) -> Aggregator.canonical a m = Aggregator.canonical a' m).
    { intros m Hm. apply (canonical_order_indep ord ord cf fuel cf fuel tag0 tag0 l l' a a' s s'); auto using nested_owner_free. }
    split; [now apply Hagree|].
    assert (Hn1 : In n (map fst (rev l))) by (rewrite map_rev; now apply -> in_rev).
    assert (Hn2 : In n (map fst (rev l'))) by (rewrite map_rev; apply -> in_rev; now apply Hnames).
    destruct (nested_import_of a s (rev l) n HI Hn1) as [y [oid [e [d [ids [Ha [ID MO]]]]]]].
    destruct (nested_import_of a' s' (rev l') n HI' Hn2) as [y' [oid' [e' [d' [ids' [Ha' [ID' MO']]]]]]].
    exists (KInstance y), (KInstance y'), (XInst e), (XInst e').
    split; [exact Ha|]. split; [exact Ha'|]. split; [eapply IDen_unf; eauto|]. split; [eapply IDen_unf; eauto|].
    assert (Hsame : forall c, In c (filter (on_import (a_redirects a) (Aggregator.canonical a n)) (rev l)) <->
                              In c (filter (on_import (a_redirects a') (Aggregator.canonical a' n)) (rev l'))).
    { intros c. rewrite !filter_In, <- !in_rev. unfold on_import. rewrite <- !canonical_canon.
      split; intros [Hc E]; (split; [eauto using Permutation_in, Permutation_sym|]).
      - rewrite <- (Hagree n Hn), <- (Hagree (fst c)); auto. now apply in_map.
      - rewrite (Hagree n Hn), (Hagree (fst c)); auto. apply in_map. eapply Permutation_in; [apply Permutation_sym; exact P|exact Hc]. }
    assert (Hlow : forall cs cs' tm tm', MergedOf Col cs tm -> MergedOf Col cs' tm' -> (forall c, In c cs' -> In c cs) -> SubCM tm tm').
    { intros cs cs' tm tm' M M' Hsub. apply (MergedOf_glb _ _ _ M'). intros c tr ids0 Hc Hnc.
      exact (MergedOf_below _ _ _ _ _ _ M (Hsub c Hc) Hnc). }
    split; [eapply Hlow; eauto; intros c; apply Hsame | eapply Hlow; eauto; intros c; apply Hsame].
  Qed.
End NThm.
