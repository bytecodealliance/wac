(** C05, part B: value types, function types and the plain type declarations.
    Each lemma has the shape "the resolver step returns [DOk] => the arenas are extended, the denotation is
    defined, and the result unfolds (in the new arenas) to the denoted tree". *)
From Coq Require Import String.
From WacV Require Import Str StrLit ListFacts Types Decls WitDenote DeclsProofsA DeclsProofsF.
From WacV Require Ast.

Lemma prim_of_den p : prim_of p = den_prim p.
Proof. destruct p; reflexivity. Qed.

Definition den_uv (e : env) (t : types) (x : Ast.ty) (v : valtype) : Prop :=
  exists tr, den_ty e x = Some tr /\ uv t v tr.

Lemma den_uv_list {e t ts vs} : Forall2 (den_uv e t) ts vs ->
  exists trs, all_some (map (den_ty e) ts) = Some trs /\ Forall2 (uv t) vs trs.
Proof.
  induction 1 as [|y v ts vs [tr [D U]] _ [trs [Ds Us]]]; [exists []; split; [reflexivity | constructor]|].
  exists (tr :: trs). cbn [map all_some]. rewrite D, Ds. split; [reflexivity | now constructor].
Qed.
Lemma den_uv_opt {e t o ov} : orel (den_uv e t) o ov -> exists o', omap (den_ty e) o = Some o' /\ uvo t ov o'.
Proof.
  destruct o as [y|], ov as [v|]; cbn [orel]; try contradiction.
  - intros [tr [D U]]. exists (Some tr). cbn [omap]. rewrite D. split; [reflexivity | exact U].
  - intros _. exists None. split; [reflexivity | exact I].
Qed.

(** appending [d] for [x]: it is enough that the new slot unfolds to the tree of [x] wherever it holds [d] *)
Lemma sim_def_rule {cur e x t d} tr :
  den_ty e x = Some tr -> (forall t', get_def t' (snd (add_defined t d)) = Some d -> aext t t' -> uv t' (VDefined (snd (add_defined t d))) tr) ->
  def_rule (fun t => Renv t cur e) (den_uv e) x t d.
Proof.
  intros D U He. pose proof (aext_add_defined t d) as X. split; [exact (Renv_aext X He)|].
  exists tr. split; [exact D | exact (U _ (get_def_new t d) X)].
Qed.

Lemma sim_rules cur e : ty_rules cur (fun t => Renv t cur e) (den_uv e).
Proof.
  constructor.
  - intros t t' x v X [tr [D U]]. exists tr. split; [exact D | exact (uv_aext _ _ _ _ (frame_aext X) U)].
  - intros t p sp. exists (VTPrim (den_prim p)). split; [reflexivity|]. rewrite prim_of_den. apply uv_prim.
  - intros t ts sp vs [trs [D U]]%den_uv_list. apply (sim_def_rule (VTTuple trs)); [cbn [den_ty]; now rewrite D|].
    intros t' G X. apply (uv_tuple _ _ _ _ G). eapply Forall2_impl; [|exact U]. intros a b. now apply uv_aext.
  - intros t y sp v [tr [D U]]. apply (sim_def_rule (VTList tr)); [cbn [den_ty]; now rewrite D|].
    intros t' G X. apply (uv_list _ _ _ _ G). eapply uv_aext; eassumption.
  - intros t y sp v [tr [D U]]. apply (sim_def_rule (VTOption tr)); [cbn [den_ty]; now rewrite D|].
    intros t' G X. apply (uv_option _ _ _ _ G). eapply uv_aext; eassumption.
  - intros t o r sp ov rv [o' [D1 U1]]%den_uv_opt [r' [D2 U2]]%den_uv_opt.
    apply (sim_def_rule (VTResult o' r')); [cbn [den_ty]; now rewrite D1, D2|].
    intros t' G X. apply (uv_result _ _ _ _ _ _ G); eapply uvo_aext; eassumption.
  - intros t i sp r He Ha. destruct (R2_assoc_some He Ha) as [s [As [n [-> Hun]]%rel_item_inv]].
    exists (VTBorrow n). cbn [den_ty]. rewrite As. split; [reflexivity | now apply uv_borrow].
  - intros t i r He Ha. destruct (R2_assoc_some He Ha) as [s [As [n [-> Hun]]%rel_item_inv]].
    exists (VTOwn n). cbn [den_ty]. rewrite As. split; [reflexivity | now apply uv_own].
  - intros t i v He Ha. destruct (R2_assoc_some He Ha) as [s [As [tr [-> Huv]]%rel_item_inv]].
    exists tr. cbn [den_ty]. rewrite As. split; [reflexivity | exact Huv].
Qed.

Lemma resolve_ty_sim x cur t e v t' : Renv t cur e -> resolve_ty cur t x = DOk (v, t') ->
  aext t t' /\ exists tr, den_ty e x = Some tr /\ uv t' v tr.
Proof.
  intros He H. destruct (resolve_ty_run (sim_rules cur e) x _ _ H He) as (X & _ & Hq). split; [exact (frame_aext X) | exact Hq].
Qed.

Lemma oty_step_sim o cur t e ov t' : Renv t cur e -> oty_step cur t o = DOk (ov, t') ->
  aext t t' /\ exists o', omap (den_ty e) o = Some o' /\ uvo t' ov o'.
Proof.
  intros He H. destruct (oty_step_run (sim_rules cur e) o _ _ H He) as (X & _ & Hq).
  split; [exact (frame_aext X) | exact (den_uv_opt Hq)].
Qed.

Section AccGoSim.
  Context {X V W : Type} (step : types -> X -> dres (V * types)) (key : X -> str) (dup : derr)
          (D : X -> option W) (P : types -> V -> W -> Prop) (cur : scope) (e : env).
  Hypothesis P_aext : forall t t' v w, aext t t' -> P t v w -> P t' v w.
  Hypothesis step_sim : forall t p v t1, Renv t cur e -> step t p = DOk (v, t1) -> aext t t1 /\ exists w, D p = Some w /\ P t1 v w.

  Definition den_keyed (l : list X) : option (list (str * W)) :=
    all_some (map (fun p => match D p with Some w => Some (key p, w) | None => None end) l).

  Lemma acc_go_sim : forall l t acc acc' res t',
    Renv t cur e -> R2 (P t) acc acc' -> acc_go step key dup t acc l = DOk (res, t') ->
    aext t t' /\ exists ws, den_keyed l = Some ws /\ R2 (P t') res (acc' ++ ws) /\
                             (distinct (map fst acc') = true -> distinct (map fst (acc' ++ ws)) = true).
  Proof.
    induction l as [|p r IH]; intros t acc acc' res t' Hi Ha H; cbn [acc_go] in H.
    - injection H as <- <-. split; [apply aext_refl|]. exists []. rewrite app_nil_r. auto.
    - dinv H as [[v t1] [E1 H]]. destruct (has (key p) acc) eqn:Eh; [discriminate|].
      destruct (step_sim _ _ _ _ Hi E1) as [X1 [w [D1 U1]]].
      assert (Ha1 : R2 (P t1) (acc ++ [(key p, v)]) (acc' ++ [(key p, w)])).
      { apply R2_snoc; [|exact U1]. eapply R2_mono; [|exact Ha]. intros x y. now apply P_aext. }
      destruct (IH _ _ _ _ _ (Renv_aext X1 Hi) Ha1 H) as [X2 [ws [D2 [U2 Hd]]]].
      split; [eapply aext_trans; eassumption|]. exists ((key p, w) :: ws).
      unfold den_keyed in *. cbn [map all_some]. rewrite D1, D2. rewrite <- app_assoc in U2, Hd.
      split; [reflexivity|]. split; [exact U2|]. intro Hd0. apply Hd.
      rewrite map_app. cbn [map fst]. rewrite distinct_snoc, Hd0, <- bound_keys, <- (R2_has (key p) Ha), Eh. reflexivity.
  Qed.
End AccGoSim.

Lemma names_go_ok er : forall l acc l', names_go er acc l = DOk l' ->
  l' = acc ++ l /\ (distinct acc = true -> distinct (acc ++ l) = true).
Proof.
  induction l as [|n r IH]; intros acc l' H; cbn [names_go] in H.
  - injection H as <-. rewrite app_nil_r. auto.
  - destruct (mem n acc) eqn:Em; [discriminate|]. destruct (IH _ _ H) as [-> Hd]. rewrite <- app_assoc in *. cbn [app] in *.
    split; [reflexivity|]. intro Hd0. apply Hd. rewrite distinct_snoc, Hd0, <- mem_existsb, Em. reflexivity.
Qed.

Lemma any_o_cons {A} (p : A -> option bool) x r :
  any_o p (x :: r) = match p x with Some false => any_o p r | o => o end.
Proof. reflexivity. Qed.
Lemma any_o_spec {A B} (p : A -> option bool) (q : B -> bool) (R : A -> B -> Prop) l l' :
  (forall x y c, p x = Some c -> R x y -> c = q y) -> Forall2 R l l' ->
  forall b, any_o p l = Some b -> b = existsb q l'.
Proof.
  intros Hpq. induction 1 as [|x y l l' Hxy _ IH]; intros b H.
  - cbn in H. now injection H as <-.
  - rewrite any_o_cons in H. cbn [existsb]. destruct (p x) as [[|]|] eqn:E; [| |discriminate].
    + injection H as <-. now rewrite <- (Hpq _ _ _ E Hxy).
    + rewrite <- (Hpq _ _ _ E Hxy). cbn [orb]. now apply IH.
Qed.
Lemma opt_o_spec t (C : valtype -> option bool) o o' c :
  (forall v b tr, C v = Some b -> uv t v tr -> b = has_borrow tr) ->
  opt_o C o = Some c -> uvo t o o' -> c = match o' with Some y => has_borrow y | None => false end.
Proof.
  intros HC H Hu. destruct o as [v|], o' as [tr|]; cbn in Hu; try contradiction; cbn [opt_o] in H.
  - eapply HC; eassumption.
  - now injection H as <-.
Qed.

Lemma cb_vt_spec t : forall f v b tr, cb_vt f t v = Some b -> uv t v tr -> b = has_borrow tr.
Proof.
  induction f as [|f IH]; intros v b tr H Hu; [discriminate|]. cbn [cb_vt] in H.
  destruct v as [p|r|r|d].
  - injection H as <-. now rewrite (uv_prim_inv _ _ _ Hu).
  - injection H as <-. destruct (uv_borrow_inv _ _ _ Hu) as [n [-> _]]. reflexivity.
  - injection H as <-. destruct (uv_own_inv _ _ _ Hu) as [n [-> _]]. reflexivity.
  - destruct (get_def t d) as [x|] eqn:E; [|discriminate]. pose proof (uv_def_inv _ _ _ _ E Hu) as Hs.
    destruct x; cbn [uv_def_shape] in Hs.
    + destruct Hs as [l' [-> Hl]]. cbn [has_borrow]. eapply (any_o_spec _ has_borrow (uv t)); [|exact Hl|exact H].
      intros x y c. apply IH.
    + destruct Hs as [ty [-> Hy]]. cbn [has_borrow]. eapply IH; eassumption.
    + destruct Hs as [ty [-> Hy]]. cbn [has_borrow]. eapply IH; eassumption.
    + destruct Hs as [ty [-> Hy]]. cbn [has_borrow]. eapply IH; eassumption.
    + destruct Hs as [o' [e' [-> [Ho He]]]]. cbn [has_borrow].
      destruct (opt_o (cb_vt f t) ok) as [[|]|] eqn:Eo; [| |discriminate].
      * injection H as <-. rewrite <- (opt_o_spec t _ _ _ _ IH Eo Ho). reflexivity.
      * rewrite <- (opt_o_spec t _ _ _ _ IH Eo Ho). cbn [orb]. apply (opt_o_spec t _ _ _ _ IH H He).
    + destruct Hs as [c' [-> Hc]]. cbn [has_borrow].
      eapply (any_o_spec _ _ (fun a b => fst a = fst b /\ uvo t (snd a) (snd b))); [|exact Hc|exact H].
      intros x y c Hx [_ Hxy]. cbv beta in *. apply (opt_o_spec t _ _ _ _ IH Hx Hxy).
    + destruct Hs as [c' [-> Hc]]. cbn [has_borrow].
      eapply (any_o_spec _ _ (fun a b => fst a = fst b /\ uv t (snd a) (snd b))); [|exact Hc|exact H].
      intros x y c Hx [_ Hxy]. cbv beta in *. eapply IH; eassumption.
    + subst tr. now injection H as <-.
    + subst tr. now injection H as <-.
    + eapply IH; eassumption.
    + destruct Hs as [o' [-> Ho]]. cbn [has_borrow]. apply (opt_o_spec t _ _ _ _ IH H Ho).
    + destruct Hs as [o' [-> Ho]]. cbn [has_borrow]. apply (opt_o_spec t _ _ _ _ IH H Ho).
Qed.

Definition kmap (k : fkind) : mkind :=
  match k with FFree => MFree | FMethod => MMethod | FStatic => MStatic | FConstructor => MCtor end.

Lemma method_name_member r m k : method_name r m k = member_name r m (kmap k).
Proof. destruct k; reflexivity. Qed.

Lemma func_type_sim {cur t e ps rs k res rname i t'} :
  Renv t cur e -> (forall r, res = Some r -> un t r rname) ->
  func_type cur t ps rs k res = DOk (i, t') ->
  aext t t' /\ exists ft, den_func e (kmap k) rname ps rs = Some ft /\ uf t' i ft.
Proof.
  intros He Hres H. destruct (func_type_inv H) as (params & t1 & result & t2 & Hk & E1 & E2 & -> & ->).
  assert (Hpre : exists pre, uvf t (self_pre k res) pre /\ distinct (map fst pre) = true /\
            forall ps', match kmap k with MMethod => (L"self", VTBorrow rname) :: ps' | _ => ps' end = pre ++ ps').
  { destruct k; cbn [kmap self_pre]; try (exists []; split; [apply R2_nil | split; reflexivity]).
    destruct res as [r|]; [|exfalso; exact (Hk eq_refl eq_refl)]. exists [(L"self", VTBorrow rname)].
    split; [|split; reflexivity]. apply R2_cons; [|apply R2_nil]. apply uv_borrow. now apply Hres. }
  destruct Hpre as [pre [Hp0 [Hd0 Hpre]]].
  rewrite params_go_acc in E1.
  destruct (acc_go_sim _ _ _ (fun p => den_ty e (Ast.nt_ty p)) uv _ _ uv_aext (fun t0 p => resolve_ty_sim _ cur t0 e)
                       _ _ _ _ _ _ He Hp0 E1) as [X1 [l [D1 [U1 Hd1]]]].
  assert (Hr : aext t1 t2 /\ exists ro, uvo t2 result ro /\ forall pp,
            match rs with
            | Ast.RLEmpty => Some (mkft pp (match kmap k with MCtor => Some (VTOwn rname) | _ => None end) false)
            | Ast.RLScalar y => match den_ty e y with
                                | Some v => if has_borrow v then None else Some (mkft pp (Some v) false)
                                | None => None
                                end
            | Ast.RLNamed _ => None
            end = Some (mkft pp ro false)).
  { destruct rs as [|y|rs']; cbn [result_step] in E2.
    - destruct k; cbn [kmap]; try (injection E2 as <- <-; split; [apply aext_refl|]; exists None; split; [exact I | reflexivity]).
      destruct res as [r|]; [|discriminate]. injection E2 as <- <-. split; [apply aext_refl|]. exists (Some (VTOwn rname)).
      split; [|reflexivity]. cbn [uvo]. apply uv_own. eapply un_aext; [exact X1|]. now apply Hres.
    - dinv E2 as [[v t2'] [E3 E2]].
      destruct (cb_vt (cb_fuel t2') t2' v) as [[|]|] eqn:Ecb; try discriminate. injection E2 as <- <-.
      destruct (resolve_ty_sim _ _ _ _ _ _ (Renv_aext X1 He) E3) as [X2 [tr [D2 U2]]].
      split; [exact X2|]. exists (Some tr). split; [exact U2|]. intro pp. rewrite D2.
      rewrite <- (cb_vt_spec _ _ _ _ _ Ecb U2). reflexivity.
    - discriminate. }
  destruct Hr as [X2 [ro [Ur Hro]]].
  set (x := mkfunc params result false).
  split.
  - eapply aext_trans; [exact X1|]. eapply aext_trans; [exact X2|]. apply (aext_add_func t2 x).
  - exists (mkft (pre ++ l) ro false). split.
    + unfold den_func, den_params. unfold den_keyed in D1. rewrite D1. cbv zeta. rewrite Hpre, (Hd1 Hd0). cbn [negb]. apply Hro.
    + apply (uf_intro (fst (add_func t2 x)) (snd (add_func t2 x)) x (pre ++ l) ro).
      * apply get_func_new.
      * cbn [f_params x]. eapply uvf_aext; [|exact U1]. eapply aext_trans; [exact X2|]. apply (aext_add_func t2 x).
      * cbn [f_result x]. eapply uvo_aext; [|exact Ur]. apply (aext_add_func t2 x).
Qed.

Lemma func_type_free_sim {cur t e ps rs i t'} :
  Renv t cur e -> func_type cur t ps rs FFree None = DOk (i, t') ->
  aext t t' /\ exists ft, den_func e MFree [] ps rs = Some ft /\ uf t' i ft.
Proof. intros He H. apply (func_type_sim (k := FFree) (res := None) (rname := []) He); [discriminate | exact H]. Qed.

Lemma func_type_ref_sim {cur t e r f t'} :
  Renv t cur e -> func_type_ref cur t r = DOk (f, t') ->
  aext t t' /\ exists ft, den_func_ref e r = Some ft /\ uf t' f ft.
Proof.
  intros He H. destruct r as [fn|i]; cbn [func_type_ref den_func_ref] in *.
  - apply (func_type_free_sim He H).
  - dinv H as [it [E1 H]]. destruct (lookup_in_sim He E1) as [s [As Hs]]. apply rel_item_inv in Hs.
    destruct it; try discriminate. injection H as <- <-. destruct Hs as [ft [-> Huf]].
    split; [apply aext_refl|]. exists ft. rewrite As. auto.
Qed.

Lemma decl_name_dname d : decl_name d = dname d.
Proof. destruct d; reflexivity. Qed.

Lemma alias_generic cur t e y x t' :
  Renv t cur e -> (do (v, t1) <- resolve_ty cur t y ;; value_ty t1 (DAlias v)) = DOk (x, t') ->
  aext t t' /\ exists tr, den_ty e y = Some tr /\ rel_item t' x (SVal tr).
Proof.
  intros He H. dinv H as [[v t1] [E1 H]]. destruct (resolve_ty_sim _ _ _ _ _ _ He E1) as [X1 [tr [D1 U1]]].
  destruct (value_ty_frame H) as [X2%frame_aext [i [-> G]]]. split; [eapply aext_trans; eassumption|].
  exists tr. split; [exact D1|]. constructor. apply (uv_alias _ _ _ _ G). eapply uv_aext; eassumption.
Qed.

Lemma type_alias_sim cur t e n docs id k x t' :
  Renv t cur e -> type_alias cur t n k = DOk (x, t') ->
  aext t t' /\ exists s, den_plain e (Ast.DAlias docs id k) = Some s /\ rel_item t' x s.
Proof.
  intros He H. destruct k as [fn|y].
  - cbn [type_alias] in H. dinv H as [[i t1] [E1 H]]. injection H as <- <-.
    destruct (func_type_free_sim He E1) as [X1 [ft [D1 U1]]].
    split; [exact X1|]. exists (SFunc ft). cbn [den_plain kmap] in *. rewrite D1. split; [reflexivity | now constructor].
  - destruct y as [p sp|ts sp|y sp|y sp|o r sp|i sp|y sp|i];
      try (cbn [type_alias] in H; destruct (alias_generic _ _ _ _ _ _ He H) as [X1 [tr [D1 U1]]];
           split; [exact X1|]; exists (SVal tr); cbn [den_plain]; rewrite D1; split; [reflexivity | exact U1]).
    cbn [type_alias] in H. dinv H as [it [E1 H]]. destruct (lookup_in_sim He E1) as [s [As Hs]].
    apply rel_item_inv in Hs. cbn [den_plain]. rewrite As. destruct it as [r|f|v|j|w|m]; try discriminate.
    + destruct Hs as [rn [-> Hun]].
      destruct (get_res t r) as [x0|] eqn:G; [|discriminate].
      set (owner := match res_alias x0 with Some (o, _) => o | None => None end) in H.
      set (nr := mkres n (Some (owner, r))) in H. unfold add_resource in H. injection H as <- <-.
      split; [apply (aext_add_resource t nr)|]. exists (SRes rn). split; [reflexivity|]. constructor.
      apply (un_alias (fst (add_resource t nr)) (snd (add_resource t nr)) nr owner r rn).
      * apply get_res_new.
      * reflexivity.
      * eapply un_aext; [apply (aext_add_resource t nr) | exact Hun].
    + destruct Hs as [ft [-> Huf]].
      destruct (get_func t f) as [x0|] eqn:G; [|discriminate]. unfold add_func in H. injection H as <- <-.
      split; [apply (aext_add_func t x0)|]. exists (SFunc ft). split; [reflexivity|]. constructor.
      destruct (uf_inv _ _ _ Huf) as [x1 [G1 [Hp [Hr Ha]]]]. rewrite G in G1. injection G1 as <-.
      destruct ft as [fps fr fa]. cbn [ft_params ft_result ft_async] in *. subst fa.
      apply (uf_intro (fst (add_func t x0)) (snd (add_func t x0)) x0 fps fr).
      * apply get_func_new.
      * eapply uvf_aext; [apply (aext_add_func t x0) | exact Hp].
      * eapply uvo_aext; [apply (aext_add_func t x0) | exact Hr].
    + destruct Hs as [tr [-> Huv]].
      destruct (value_ty_frame H) as [X2%frame_aext [i0 [-> G]]]. split; [exact X2|]. exists (SVal tr). split; [reflexivity|].
      constructor. apply (uv_alias _ _ _ _ G). eapply uv_aext; eassumption.
Qed.

Lemma plain_decl_sim {cur t e d x t'} :
  Renv t cur e -> plain_decl cur t d = DOk (x, t') ->
  aext t t' /\ exists s, den_plain e d = Some s /\ rel_item t' x s.
Proof.
  intros He H. destruct d as [docs id ms|docs id cs|docs id fs|docs id fl|docs id cs|docs id k]; cbn [plain_decl] in H.
  - discriminate.
  - dinv H as [[c t1] [E1 H]]. rewrite cases_go_acc in E1.
    destruct (acc_go_sim _ _ _ (fun c => omap (den_ty e) (Ast.vc_ty c)) uvo _ _ uvo_aext (fun t0 c => oty_step_sim _ cur t0 e)
                         _ _ _ _ _ _ He (R2_nil _) E1) as [X1 [l [D1 [U1 Hd]]]].
    unfold den_keyed in D1.
    destruct (value_ty_frame H) as [X2%frame_aext [i [-> G]]]. split; [eapply aext_trans; eassumption|].
    exists (SVal (VTVariant l)). cbn [den_plain]. unfold den_cases. rewrite D1. cbn [app] in Hd. rewrite (Hd eq_refl). split; [reflexivity|].
    constructor. apply (uv_variant _ _ _ _ G). eapply uvc_aext; eassumption.
  - dinv H as [[c t1] [E1 H]]. rewrite fields_go_acc in E1.
    destruct (acc_go_sim _ _ _ (fun f => den_ty e (Ast.fd_ty f)) uv _ _ uv_aext (fun t0 f => resolve_ty_sim _ cur t0 e)
                         _ _ _ _ _ _ He (R2_nil _) E1) as [X1 [l [D1 [U1 Hd]]]].
    unfold den_keyed in D1.
    destruct (value_ty_frame H) as [X2%frame_aext [i [-> G]]]. split; [eapply aext_trans; eassumption|].
    exists (SVal (VTRecord l)). cbn [den_plain]. unfold den_fields. rewrite D1. cbn [app] in Hd. rewrite (Hd eq_refl). split; [reflexivity|].
    constructor. apply (uv_record _ _ _ _ G). eapply uvf_aext; eassumption.
  - dinv H as [l [E1 H]]. destruct (names_go_ok _ _ _ _ E1) as [-> Hd]. cbn [app] in *.
    destruct (value_ty_frame H) as [X2%frame_aext [i [-> G]]]. split; [exact X2|].
    eexists. cbn [den_plain]. cbv zeta. unfold name_of in *. unfold nm. rewrite (Hd eq_refl). split; [reflexivity|].
    constructor. apply (uv_flags _ _ _ G).
  - dinv H as [l [E1 H]]. destruct (names_go_ok _ _ _ _ E1) as [-> Hd]. cbn [app] in *.
    destruct (value_ty_frame H) as [X2%frame_aext [i [-> G]]]. split; [exact X2|].
    eexists. cbn [den_plain]. cbv zeta. unfold name_of in *. unfold nm. rewrite (Hd eq_refl). split; [reflexivity|].
    constructor. apply (uv_enum _ _ _ G).
  - eapply type_alias_sim; eassumption.
Qed.
