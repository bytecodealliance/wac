(** Proofs for C17: package discovery ([Visitor.v]) against the resolver's package requests
    ([ResolveSkel.v]).

    Both traversals are flattened: the visitor into the list of callback events it would deliver in
    order ([ev_document]; [visitor_flat] shows that [gvisit] with ANY callback is the interpretation
    of that list, early stops and the self-[new] error included), the resolver by construction
    ([actions]).  The theorems then compare the two lists. *)
From WacV Require Import Str StrFacts ListFacts Token Lexer Semver Ast AstInd Visitor ResolveSkel.

Lemma version_eqb_eq a b : version_eqb a b = true <-> a = b.
Proof.
  destruct a as [a1 a2 a3 a4 a5], b as [b1 b2 b3 b4 b5]. unfold version_eqb. cbn [major minor patch pre build].
  rewrite !andb_true_iff, !N.eqb_eq, !str_eqb_eq. split.
  - intros [[[[-> ->] ->] ->] ->]. reflexivity.
  - intros H. injection H as -> -> -> -> ->. auto.
Qed.

Lemma oversion_eqb_eq a b : oversion_eqb a b = true <-> a = b.
Proof.
  destruct a as [a|], b as [b|]; cbn; try (split; congruence).
  rewrite version_eqb_eq. split; congruence.
Qed.

Lemma pkgkey_eqb_eq a b : pkgkey_eqb a b = true <-> a = b.
Proof. exact (pair_eqb_eq _ _ str_eqb_eq oversion_eqb_eq a b). Qed.

Lemma pkgkey_eqb_refl a : pkgkey_eqb a a = true.
Proof. now apply pkgkey_eqb_eq. Qed.

Lemma pkgkey_eqb_false a b : pkgkey_eqb a b = false <-> a <> b.
Proof.
  split.
  - intros H E. apply pkgkey_eqb_eq in E. congruence.
  - intros H. destruct (pkgkey_eqb a b) eqn:E; auto. apply pkgkey_eqb_eq in E. contradiction.
Qed.

(** The visitor's events, in delivery order *)
Inductive vevent : Set :=
| VRef (name : str) (v : option version) (sp : span)      (* a package path *)
| VNew (pkg : package_name).                              (* a [new]: self check, then callback *)

Definition ev_name (ev : vevent) : str :=
  match ev with VRef n _ _ => n | VNew pkg => pn_name pkg end.
Definition ev_key (ev : vevent) : pkgkey :=
  match ev with VRef n v _ => (n, v) | VNew pkg => (pn_name pkg, pn_version pkg) end.
Definition ev_span (ev : vevent) : span :=
  match ev with VRef _ _ sp => sp | VNew pkg => pn_span pkg end.

Definition ev_path (p : package_path) : list vevent := [VRef (pp_name p) (pp_version p) (name_span p)].
Definition ev_use (u : use_decl) : list vevent :=
  match u_path u with UPPackage p => ev_path p | UPIdent _ => [] end.
Definition ev_interface_item (it : interface_item) : list vevent :=
  match it with IIUse u => ev_use u | _ => [] end.
Definition ev_world_item_path (p : world_item_path) : list vevent :=
  match p with
  | WPNamed _ (ETInterface items) => flat_map ev_interface_item items
  | WPPackage p => ev_path p
  | _ => []
  end.
Definition ev_world_item (it : world_item) : list vevent :=
  match it with
  | WIUse u => ev_use u
  | WIType _ => []
  | WIImport _ p => ev_world_item_path p
  | WIExport _ p => ev_world_item_path p
  | WIInclude _ (WRPackage p) _ => ev_path p
  | WIInclude _ (WRIdent _) _ => []
  end.
Definition ev_import (t : import_type) : list vevent :=
  match t with
  | ITPackage p => ev_path p
  | ITInterface items => flat_map ev_interface_item items
  | _ => []
  end.
Definition ev_type_statement (t : type_statement) : list vevent :=
  match t with
  | TSInterface _ _ items => flat_map ev_interface_item items
  | TSWorld _ _ items => flat_map ev_world_item items
  | TSType _ => []
  end.

Fixpoint ev_expr (e : expr) {struct e} : list vevent :=
  match e with Expr _ p _ => ev_primary p end
with ev_primary (p : primary_expr) {struct p} : list vevent :=
  match p with
  | PNew _ pkg args =>
      VNew pkg :: (fix go (l : list inst_arg) : list vevent :=
                     match l with [] => [] | a :: r => ev_arg a ++ go r end) args
  | PNested _ inner => ev_expr inner
  | PIdent _ => []
  end
with ev_arg (a : inst_arg) {struct a} : list vevent :=
  match a with
  | ANamed _ e => ev_expr e
  | _ => []
  end.

Fixpoint ev_args (l : list inst_arg) : list vevent :=
  match l with [] => [] | a :: r => ev_arg a ++ ev_args r end.

Definition ev_statement (st : statement) : list vevent :=
  match st with
  | SImport _ _ _ t => ev_import t
  | SType t => ev_type_statement t
  | SLet _ _ e => ev_expr e
  | SExport _ e _ => ev_expr e
  end.

Definition ev_document (d : document) : list vevent :=
  match pd_targets (doc_directive d) with Some t => ev_path t | None => [] end
  ++ flat_map ev_statement (doc_statements d).

Lemma ev_primary_new sp pkg args : ev_primary (PNew sp pkg args) = VNew pkg :: ev_args args.
Proof. reflexivity. Qed.

(** Interpretation of an event list with an arbitrary callback *)
Section Interp.
  Context {S : Type}.
  Variable cb : S -> str -> option version -> span -> S * bool.
  Variable this : str.

  Definition ev_step (s : S) (ev : vevent) : vres (S * bool) :=
    match ev with
    | VRef n v sp => VOk (cb s n v sp)
    | VNew pkg =>
        if str_eqb (pn_name pkg) this then VErr (CannotInstantiateSelf (pn_span pkg))
        else VOk (cb s (pn_name pkg) (pn_version pkg) (pn_span pkg))
    end.

  Definition andthen (x : vres (S * bool)) (k : S -> vres (S * bool)) : vres (S * bool) :=
    match x with
    | VErr e => VErr e
    | VOk (s1, true) => k s1
    | VOk (s1, false) => VOk (s1, false)
    end.

  Fixpoint interp (s : S) (evs : list vevent) : vres (S * bool) :=
    match evs with
    | [] => VOk (s, true)
    | ev :: r => andthen (ev_step s ev) (fun s1 => interp s1 r)
    end.

  Lemma interp_app s a b : interp s (a ++ b) = andthen (interp s a) (fun s1 => interp s1 b).
  Proof.
    revert s; induction a as [|ev a IH]; intros s; cbn [app interp]; [reflexivity|].
    destruct (ev_step s ev) as [[s1 [|]]|e]; cbn [andthen]; auto.
  Qed.

  Lemma interp_one_ref s n v sp : interp s [VRef n v sp] = VOk (cb s n v sp).
  Proof. cbn. destruct (cb s n v sp) as [s1 [|]]; reflexivity. Qed.

  Lemma cb_path_flat s p : VOk (cb_path cb s p) = interp s (ev_path p).
  Proof. unfold ev_path, cb_path. now rewrite interp_one_ref. Qed.

  Lemma v_all_flat {A} (f : S -> A -> S * bool) (g : A -> list vevent) :
    (forall s x, VOk (f s x) = interp s (g x)) ->
    forall l s, VOk (v_all f s l) = interp s (flat_map g l).
  Proof.
    intros H. induction l as [|x r IH]; intros s; cbn [v_all flat_map]; [reflexivity|].
    rewrite interp_app, <- H. destruct (f s x) as [s1 [|]]; cbn [andthen]; auto.
  Qed.

  Lemma v_use_flat s u : VOk (v_use cb s u) = interp s (ev_use u).
  Proof. unfold v_use, ev_use. destruct (u_path u); [apply cb_path_flat | reflexivity]. Qed.

  Lemma v_interface_item_flat s it : VOk (v_interface_item cb s it) = interp s (ev_interface_item it).
  Proof. destruct it; cbn [v_interface_item ev_interface_item]; [apply v_use_flat | reflexivity..]. Qed.

  Lemma v_world_item_path_flat s p : VOk (v_world_item_path cb s p) = interp s (ev_world_item_path p).
  Proof.
    destruct p as [id t|p|i]; cbn [v_world_item_path ev_world_item_path].
    - destruct t; try reflexivity. apply v_all_flat. intros; apply v_interface_item_flat.
    - apply cb_path_flat.
    - reflexivity.
  Qed.

  Lemma v_world_item_flat s it : VOk (v_world_item cb s it) = interp s (ev_world_item it).
  Proof.
    destruct it as [u|t|docs p|docs p|docs w items]; cbn [v_world_item ev_world_item].
    - apply v_use_flat.
    - reflexivity.
    - apply v_world_item_path_flat.
    - apply v_world_item_path_flat.
    - destruct w; [reflexivity | apply cb_path_flat].
  Qed.

  Lemma v_import_flat s t : VOk (v_import_statement cb s t) = interp s (ev_import t).
  Proof.
    destruct t; cbn [v_import_statement ev_import]; try reflexivity.
    - apply cb_path_flat.
    - apply v_all_flat. intros; apply v_interface_item_flat.
  Qed.

  Lemma v_type_statement_flat s t : VOk (v_type_statement cb s t) = interp s (ev_type_statement t).
  Proof.
    destruct t; cbn [v_type_statement ev_type_statement]; try reflexivity.
    - apply v_all_flat. intros; apply v_interface_item_flat.
    - apply v_all_flat. intros; apply v_world_item_flat.
  Qed.

  Lemma v_expr_flat : forall e s, v_expr cb this s e = interp s (ev_expr e).
  Proof.
    apply (expr_ind' (fun e => forall s, v_expr cb this s e = interp s (ev_expr e))
                     (fun p => forall s, v_primary cb this s p = interp s (ev_primary p))
                     (fun a => forall s, v_arg cb this s a = interp s (ev_arg a))); auto.
    (* only a [new] does something of its own; the other cases hand the induction hypothesis on or compute *)
    intros sp pkg args IH s. rewrite ev_primary_new. cbn [v_primary interp ev_step].
      destruct (str_eqb (pn_name pkg) this); [reflexivity|].
      destruct (cb s (pn_name pkg) (pn_version pkg) (pn_span pkg)) as [s1 [|]]; cbn [andthen]; [|reflexivity].
      revert s1. induction IH as [|a r Ha _ IHr]; intros s1; [reflexivity|].
      cbn [ev_args]. rewrite interp_app, Ha.
      destruct (interp s1 (ev_arg a)) as [[s2 [|]]|err]; cbn [andthen]; auto.
  Qed.

  Lemma v_statement_flat s st : v_statement cb this s st = interp s (ev_statement st).
  Proof.
    destruct st; cbn [v_statement ev_statement].
    - apply v_import_flat.
    - apply v_type_statement_flat.
    - apply v_expr_flat.
    - apply v_expr_flat.
  Qed.

  Lemma v_statements_flat l : forall s, v_statements cb this s l = interp s (flat_map ev_statement l).
  Proof.
    induction l as [|st r IH]; intros s; cbn [v_statements flat_map]; [reflexivity|].
    rewrite interp_app, v_statement_flat.
    destruct (interp s (ev_statement st)) as [[s1 [|]]|e]; cbn [andthen]; auto.
  Qed.
End Interp.

(** [PackageVisitor::visit] with any callback is the interpretation of the event list. *)
Theorem visitor_flat {S : Type} (cb : S -> str -> option version -> span -> S * bool) s d :
  gvisit cb s d = interp cb (own_name d) s (ev_document d).
Proof.
  unfold gvisit, ev_document, own_name. rewrite interp_app.
  destruct (pd_targets (doc_directive d)) as [t|].
  - rewrite <- cb_path_flat. destruct (cb_path cb s t) as [s1 [|]]; cbn [andthen]; [|reflexivity].
    apply v_statements_flat.
  - cbn [interp andthen]. apply v_statements_flat.
Qed.

(** The closure of [packages()] *)
Definition is_self_new (own : str) (ev : vevent) : bool :=
  match ev with VNew pkg => str_eqb (pn_name pkg) own | VRef _ _ _ => false end.

Fixpoint first_self_new (own : str) (evs : list vevent) : option span :=
  match evs with
  | [] => None
  | ev :: r => if is_self_new own ev then Some (ev_span ev) else first_self_new own r
  end.

Definition ins (own : str) (m : keymap) (ev : vevent) : keymap :=
  if str_eqb (ev_name ev) own then m else km_insert m (ev_key ev) (ev_span ev).

Lemma interp_pk own evs : forall m,
  interp (pk_cb own) own m evs =
  match first_self_new own evs with
  | Some sp => VErr (CannotInstantiateSelf sp)
  | None => VOk (fold_left (ins own) evs m, true)
  end.
Proof.
  induction evs as [|ev r IH]; intros m; cbn [interp first_self_new fold_left]; [reflexivity|].
  destruct ev as [n v sp|pkg]; cbn [ev_step is_self_new].
  - unfold pk_cb at 1, ins at 2. cbn [ev_name ev_key ev_span].
    destruct (str_eqb n own); cbn [andthen]; apply IH.
  - destruct (str_eqb (pn_name pkg) own) eqn:E; [reflexivity|].
    unfold pk_cb at 1, ins at 2. cbn [ev_name ev_key ev_span]. rewrite E. cbn [andthen]. apply IH.
Qed.

Lemma packages_flat d :
  packages d =
  match first_self_new (own_name d) (ev_document d) with
  | Some sp => VErr (CannotInstantiateSelf sp)
  | None => VOk (fold_left (ins (own_name d)) (ev_document d) [])
  end.
Proof.
  unfold packages. rewrite visitor_flat, interp_pk.
  destruct (first_self_new (own_name d) (ev_document d)); reflexivity.
Qed.

Lemma km_insert_keys m k sp k0 :
  In k0 (map fst (km_insert m k sp)) <-> In k0 (map fst m) \/ k = k0.
Proof.
  induction m as [|[k' sp'] r IH]; cbn [km_insert map fst In]; [tauto|].
  destruct (pkgkey_eqb k' k) eqn:E; cbn [map fst In].
  - apply pkgkey_eqb_eq in E. subst k'. tauto.
  - rewrite IH. tauto.
Qed.

Lemma km_insert_nodup m k sp : NoDup (map fst m) -> NoDup (map fst (km_insert m k sp)).
Proof.
  induction m as [|[k' sp'] r IH]; cbn [km_insert map fst]; intros H.
  - constructor; [intros [] | constructor].
  - destruct (pkgkey_eqb k' k) eqn:E; cbn [map fst]; [exact H|].
    inversion H as [|? ? Hn Hr]; subst. constructor; [|auto].
    intros Hin. apply km_insert_keys in Hin as [Hin|Hin]; [contradiction|].
    apply pkgkey_eqb_false in E. congruence.
Qed.

(** The keys an event list contributes: every event not naming the own package. *)
Definition foreign (own : str) (ev : vevent) : bool := negb (str_eqb (ev_name ev) own).
Definition ev_keys (own : str) (evs : list vevent) : list pkgkey := map ev_key (filter (foreign own) evs).

Lemma fold_ins_keys own evs : forall m k,
  In k (map fst (fold_left (ins own) evs m)) <-> In k (map fst m) \/ In k (ev_keys own evs).
Proof.
  induction evs as [|ev r IH]; intros m k; cbn [fold_left].
  - unfold ev_keys; cbn. tauto.
  - rewrite IH. unfold ev_keys, ins, foreign. cbn [filter].
    destruct (str_eqb (ev_name ev) own); cbn [negb map In].
    + reflexivity.
    + rewrite km_insert_keys. tauto.
Qed.

Lemma fold_ins_nodup own evs : forall m, NoDup (map fst m) -> NoDup (map fst (fold_left (ins own) evs m)).
Proof.
  induction evs as [|ev r IH]; intros m H; cbn [fold_left]; [exact H|].
  apply IH. unfold ins. destruct (str_eqb (ev_name ev) own); [exact H | now apply km_insert_nodup].
Qed.

Lemma visit_ok_inv d ks :
  visit d = VOk ks ->
  first_self_new (own_name d) (ev_document d) = None /\
  ks = map fst (fold_left (ins (own_name d)) (ev_document d) []).
Proof.
  unfold visit. rewrite packages_flat.
  destruct (first_self_new (own_name d) (ev_document d)); [discriminate|].
  intros H. injection H as <-. auto.
Qed.

Lemma visit_keys d ks : visit d = VOk ks -> forall k, In k ks <-> In k (ev_keys (own_name d) (ev_document d)).
Proof.
  intros H k. apply visit_ok_inv in H as [_ ->]. rewrite fold_ins_keys. cbn. tauto.
Qed.

Lemma ev_keys_name own evs k : In k (ev_keys own evs) -> fst k <> own.
Proof.
  unfold ev_keys. rewrite in_map_iff. intros [ev [<- Hin]]. apply filter_In in Hin as [_ Hf].
  unfold foreign in Hf. apply negb_true_iff, str_eqb_neq in Hf. destruct ev; exact Hf.
Qed.

(** The document's own package is never reported. *)
Theorem self_never_discovered d ks : visit d = VOk ks -> forall k, In k ks -> fst k <> own_name d.
Proof.
  intros H k Hk. apply (visit_keys d ks H) in Hk. now apply ev_keys_name in Hk.
Qed.

(** The discovered keys are pairwise distinct (one entry per name AND version). *)
Theorem discovered_nodup d ks : visit d = VOk ks -> NoDup ks.
Proof.
  intros H. apply visit_ok_inv in H as [_ ->]. apply fold_ins_nodup. constructor.
Qed.

Lemma existsb_flat_map {A B} (f : B -> bool) (g : A -> list B) l :
  existsb f (flat_map g l) = existsb (fun x => existsb f (g x)) l.
Proof. induction l as [|x r IH]; cbn; [reflexivity | now rewrite existsb_app, IH]. Qed.

Lemma first_self_new_none own evs : first_self_new own evs = None <-> existsb (is_self_new own) evs = false.
Proof.
  induction evs as [|ev r IH]; cbn; [intuition|].
  destruct (is_self_new own ev); cbn; [split; discriminate | exact IH].
Qed.

Section SelfNew.
  Variable own : str.
  Notation ex evs := (existsb (is_self_new own) evs).

  Lemma ex_path p : ex (ev_path p) = false.
  Proof. reflexivity. Qed.
  Lemma ex_use u : ex (ev_use u) = false.
  Proof. unfold ev_use. destruct (u_path u); reflexivity. Qed.
  Lemma ex_interface_items items : ex (flat_map ev_interface_item items) = false.
  Proof.
    rewrite existsb_flat_map. induction items as [|it r IH]; cbn [existsb]; [reflexivity|].
    rewrite IH, orb_false_r. destruct it; cbn [ev_interface_item]; [apply ex_use | reflexivity..].
  Qed.
  Lemma ex_world_item_path p : ex (ev_world_item_path p) = false.
  Proof.
    destruct p as [id t|p|i]; cbn [ev_world_item_path]; try reflexivity.
    destruct t; try reflexivity. apply ex_interface_items.
  Qed.
  Lemma ex_world_items items : ex (flat_map ev_world_item items) = false.
  Proof.
    rewrite existsb_flat_map. induction items as [|it r IH]; cbn [existsb]; [reflexivity|].
    rewrite IH, orb_false_r. destruct it as [u|t|docs p|docs p|docs w its]; cbn [ev_world_item].
    - apply ex_use.
    - reflexivity.
    - apply ex_world_item_path.
    - apply ex_world_item_path.
    - destruct w; reflexivity.
  Qed.
  Lemma ex_import t : ex (ev_import t) = false.
  Proof. destruct t; cbn [ev_import]; try reflexivity. apply ex_interface_items. Qed.
  Lemma ex_type_statement t : ex (ev_type_statement t) = false.
  Proof.
    destruct t; cbn [ev_type_statement]; try reflexivity; [apply ex_interface_items | apply ex_world_items].
  Qed.

  Lemma ex_expr : forall e, expr_self_new own e = ex (ev_expr e).
  Proof.
    apply (expr_ind' (fun e => expr_self_new own e = ex (ev_expr e))
                     (fun p => primary_self_new own p = ex (ev_primary p))
                     (fun a => arg_self_new own a = ex (ev_arg a))); auto.
    intros sp pkg args IH. rewrite ev_primary_new. cbn [primary_self_new existsb is_self_new]. f_equal.
      induction IH as [|a r Ha _ IHr]; [reflexivity|].
      cbn [ev_args]. rewrite existsb_app, <- Ha, <- IHr. reflexivity.
  Qed.

  Lemma ex_statement st : statement_self_new own st = ex (ev_statement st).
  Proof.
    destruct st; cbn [statement_self_new ev_statement].
    - symmetry; apply ex_import.
    - symmetry; apply ex_type_statement.
    - apply ex_expr.
    - apply ex_expr.
  Qed.
End SelfNew.

Lemma has_self_new_events d : has_self_new d = existsb (is_self_new (own_name d)) (ev_document d).
Proof.
  unfold has_self_new, ev_document. rewrite existsb_app, existsb_flat_map.
  replace (existsb (is_self_new (own_name d)) match pd_targets (doc_directive d) with Some t => ev_path t | None => [] end)
    with false by (destruct (pd_targets (doc_directive d)); reflexivity).
  cbn [orb]. induction (doc_statements d) as [|st r IH]; cbn [existsb]; [reflexivity|].
  now rewrite IH, ex_statement.
Qed.

(** A document instantiating its own package, at any nesting, is rejected at discovery ... *)
Theorem self_new_rejected d : has_self_new d = true -> exists sp, visit d = VErr (CannotInstantiateSelf sp).
Proof.
  intros H. rewrite has_self_new_events in H. unfold visit. rewrite packages_flat.
  destruct (first_self_new (own_name d) (ev_document d)) as [sp|] eqn:E.
  - exists sp. reflexivity.
  - apply first_self_new_none in E. congruence.
Qed.

(** ... and discovery fails for no other reason. *)
Theorem visit_error_only_self_new d e : visit d = VErr e -> has_self_new d = true.
Proof.
  unfold visit. rewrite packages_flat, has_self_new_events.
  destruct (first_self_new (own_name d) (ev_document d)) as [sp|] eqn:E; [|discriminate].
  intros _. destruct (existsb (is_self_new (own_name d)) (ev_document d)) eqn:X; [reflexivity|].
  apply first_self_new_none in X. congruence.
Qed.

Definition act_of (own : str) (ev : vevent) : list action :=
  match ev with
  | VRef n v sp => if str_eqb n own then [] else [AReq n v sp]
  | VNew pkg => [if str_eqb (pn_name pkg) own then ASelfNew (pn_name pkg) (pn_span pkg)
                 else AReq (pn_name pkg) (pn_version pkg) (pn_span pkg)]
  end.
Definition acts_of (own : str) (evs : list vevent) : list action := flat_map (act_of own) evs.

Lemma acts_of_app own a b : acts_of own (a ++ b) = acts_of own a ++ acts_of own b.
Proof. apply flat_map_app. Qed.

Lemma acts_of_flat_map {A} own (g : A -> list vevent) l :
  acts_of own (flat_map g l) = flat_map (fun x => acts_of own (g x)) l.
Proof. induction l as [|x r IH]; cbn [flat_map]; [reflexivity | now rewrite acts_of_app, IH]. Qed.

(** All requests along a list of actions, and whether it is free of self-[new]s; [reqs] stops at the
    first self-[new], so the two agree exactly on the lists without one. *)
Definition act_keys (a : action) : list pkgkey :=
  match a with AReq n v _ => [(n, v)] | ASelfNew _ _ => [] end.
Definition reqs_all (acts : list action) : list pkgkey := flat_map act_keys acts.
Definition act_ok (a : action) : bool := match a with AReq _ _ _ => true | ASelfNew _ _ => false end.
Definition no_self (acts : list action) : bool := forallb act_ok acts.

Lemma reqs_no_self acts : no_self acts = true -> reqs acts = reqs_all acts.
Proof.
  induction acts as [|[n v sp|n sp] r IH]; cbn; [reflexivity| |discriminate].
  intros H. now rewrite (IH H).
Qed.

Lemma reqs_all_acts own evs : reqs_all (acts_of own evs) = ev_keys own evs.
Proof.
  induction evs as [|ev r IH]; [reflexivity|]. cbn [acts_of flat_map]. unfold reqs_all. rewrite flat_map_app.
  fold (acts_of own r) (reqs_all (acts_of own r)). rewrite IH. unfold ev_keys, foreign. cbn [filter].
  destruct ev as [n v sp|pkg]; cbn [act_of ev_name]; destruct (str_eqb _ own); reflexivity.
Qed.

Lemma no_self_acts own evs : no_self (acts_of own evs) = negb (existsb (is_self_new own) evs).
Proof.
  induction evs as [|ev r IH]; [reflexivity|]. cbn [acts_of flat_map existsb]. unfold no_self. rewrite forallb_app.
  fold (acts_of own r) (no_self (acts_of own r)). rewrite IH, negb_orb.
  destruct ev as [n v sp|pkg]; cbn [act_of is_self_new]; destruct (str_eqb _ own); reflexivity.
Qed.

(** Both are functions of the SET of actions. *)
Lemma same_actions a b : (forall x, In x a <-> In x b) ->
  (no_self b = true -> no_self a = true) /\ forall k, In k (reqs_all a) <-> In k (reqs_all b).
Proof.
  intros H. split.
  - unfold no_self. rewrite !forallb_forall. intros Hb x Hx. apply Hb, H, Hx.
  - intros k. unfold reqs_all. rewrite !in_flat_map. split; intros [x [Hx Hk]]; exists x; split; auto; now apply H.
Qed.

Section Actions.
  Variable own : str.
  Notation ex evs := (existsb (is_self_new own) evs).

  Lemma rs_path_ev p : rs_path own p = acts_of own (ev_path p).
  Proof. unfold rs_path, ev_path. cbn. destruct (str_eqb (pp_name p) own); reflexivity. Qed.

  Lemma rs_use_ev u : rs_use own u = acts_of own (ev_use u).
  Proof. unfold rs_use, ev_use. destruct (u_path u); [apply rs_path_ev | reflexivity]. Qed.

  Lemma rs_interface_item_ev it : rs_interface_item own it = acts_of own (ev_interface_item it).
  Proof. destruct it; [apply rs_use_ev | reflexivity..]. Qed.

  Lemma rs_interface_items_ev items :
    rs_interface_items own items = acts_of own (flat_map ev_interface_item items).
  Proof. unfold rs_interface_items. rewrite acts_of_flat_map. apply flat_map_ext, rs_interface_item_ev. Qed.

  Lemma rs_world_item_path_ev p : rs_world_item_path own p = acts_of own (ev_world_item_path p).
  Proof.
    destruct p as [id t|p|i]; cbn [rs_world_item_path ev_world_item_path].
    - destruct t; try reflexivity. apply rs_interface_items_ev.
    - apply rs_path_ev.
    - reflexivity.
  Qed.

  (** A world item acts either in the first loop or (an include) in the second. *)
  Lemma rs_world_item_ev it :
    rs_world_item_now own it ++ rs_world_item_later own it = acts_of own (ev_world_item it).
  Proof.
    destruct it as [u|t|docs p|docs p|docs w items]; cbn [rs_world_item_now rs_world_item_later ev_world_item];
      rewrite ?app_nil_r.
    - apply rs_use_ev.
    - reflexivity.
    - apply rs_world_item_path_ev.
    - apply rs_world_item_path_ev.
    - destruct w; [reflexivity | apply rs_path_ev].
  Qed.

  Lemma rs_world_items_ev items a :
    In a (rs_world_items own items) <-> In a (acts_of own (flat_map ev_world_item items)).
  Proof.
    unfold rs_world_items. rewrite acts_of_flat_map, in_app_iff, !in_flat_map. split.
    - intros [[x [Hx H]]|[x [Hx H]]]; exists x; (split; [exact Hx|]); rewrite <- rs_world_item_ev;
        apply in_or_app; auto.
    - intros [x [Hx H]]. rewrite <- rs_world_item_ev in H. apply in_app_or in H as [H|H]; [left | right]; exists x; auto.
  Qed.

  Lemma rs_import_ev t : rs_import own t = acts_of own (ev_import t).
  Proof.
    destruct t; cbn [rs_import ev_import]; try reflexivity; [apply rs_path_ev | apply rs_interface_items_ev].
  Qed.

  Lemma rs_type_statement_ev t a :
    In a (rs_type_statement own t) <-> In a (acts_of own (ev_type_statement t)).
  Proof.
    destruct t; cbn [rs_type_statement ev_type_statement].
    - now rewrite rs_interface_items_ev.
    - apply rs_world_items_ev.
    - reflexivity.
  Qed.

  Fixpoint rs_args (l : list inst_arg) : list action :=
    match l with [] => [] | a :: r => rs_arg own a ++ rs_args r end.

  Lemma rs_primary_new sp pkg args :
    rs_primary own (PNew sp pkg args) =
    if str_eqb (pn_name pkg) own then [ASelfNew (pn_name pkg) (pn_span pkg)]
    else AReq (pn_name pkg) (pn_version pkg) (pn_span pkg) :: rs_args args.
  Proof. cbn. destruct (str_eqb (pn_name pkg) own); reflexivity. Qed.

  (** The resolver stops at a self-[new] while the event list goes on: equal only without one. *)
  Lemma rs_expr_ev : forall e, ex (ev_expr e) = false -> rs_expr own e = acts_of own (ev_expr e).
  Proof.
    apply (expr_ind' (fun e => ex (ev_expr e) = false -> rs_expr own e = acts_of own (ev_expr e))
                     (fun p => ex (ev_primary p) = false -> rs_primary own p = acts_of own (ev_primary p))
                     (fun a => ex (ev_arg a) = false -> rs_arg own a = acts_of own (ev_arg a))); auto.
    intros sp pkg args IH. rewrite rs_primary_new, ev_primary_new. cbn [existsb is_self_new acts_of flat_map act_of].
      intros H. apply orb_false_iff in H as [E H]. rewrite E. cbn [app]. f_equal. fold (acts_of own (ev_args args)).
      induction IH as [|a r Ha _ IHr]; [reflexivity|].
      cbn [ev_args] in H. rewrite existsb_app in H. apply orb_false_iff in H as [H1 H2].
      cbn [rs_args ev_args]. now rewrite acts_of_app, <- Ha, <- IHr.
  Qed.

  Lemma rs_statement_ev st a : ex (ev_statement st) = false ->
    (In a (rs_statement own st) <-> In a (acts_of own (ev_statement st))).
  Proof.
    destruct st; cbn [rs_statement ev_statement]; intros H.
    - now rewrite rs_import_ev.
    - apply rs_type_statement_ev.
    - now rewrite rs_expr_ev.
    - now rewrite rs_expr_ev.
  Qed.
End Actions.

(** The statements come first for the resolver and the [targets] clause first for the visitor. *)
Lemma actions_ev d a : existsb (is_self_new (own_name d)) (ev_document d) = false ->
  (In a (actions d) <-> In a (acts_of (own_name d) (ev_document d))).
Proof.
  unfold actions, ev_document. rewrite existsb_app, existsb_flat_map. intros H. apply orb_false_iff in H as [_ H].
  assert (Hst : forall st, In st (doc_statements d) -> existsb (is_self_new (own_name d)) (ev_statement st) = false).
  { intros st Hst. destruct (existsb _ (ev_statement st)) eqn:X; [|reflexivity].
    rewrite <- H. symmetry. apply existsb_exists. exists st. auto. }
  rewrite acts_of_app, acts_of_flat_map, !in_app_iff, !in_flat_map.
  replace (match pd_targets (doc_directive d) with Some p => rs_path (own_name d) p | None => [] end)
    with (acts_of (own_name d) match pd_targets (doc_directive d) with Some t => ev_path t | None => [] end)
    by (destruct (pd_targets (doc_directive d)); [symmetry; apply rs_path_ev | reflexivity]).
  split.
  - intros [[st [Hi Ha]]|Ht]; [right | now left]. exists st. split; [exact Hi|].
    now apply (rs_statement_ev _ st a (Hst st Hi)).
  - intros [Ht|[st [Hi Ha]]]; [now right | left]. exists st. split; [exact Hi|].
    now apply (rs_statement_ev _ st a (Hst st Hi)).
Qed.

(** Discovery is exact: when it succeeds, the discovered keys are the requests the resolver makes if
    nothing fails. *)
Theorem discovered_exact d ks : visit d = VOk ks -> forall k, In k ks <-> In k (requests d).
Proof.
  intros H k. rewrite (visit_keys d ks H). apply visit_ok_inv in H as [E _]. apply first_self_new_none in E.
  destruct (same_actions _ _ (fun a => actions_ev d a E)) as [N K].
  unfold requests. rewrite reqs_no_self.
  - now rewrite K, reqs_all_acts.
  - apply N. now rewrite no_self_acts, E.
Qed.

(** Every package the resolver can request is among the discovered ones ... *)
Theorem requests_incl_discovered d ks : visit d = VOk ks -> incl (requests d) ks.
Proof. intros H k. apply (discovered_exact d ks H). Qed.

(** ... and nothing else is. *)
Theorem discovered_all_requested d ks : visit d = VOk ks -> incl ks (requests d).
Proof. intros H k. apply (discovered_exact d ks H). Qed.


(** The interpreter: what is supplied outside [requests] does not matter *)
Section RunProofs.
  Context {content : Type}.
  Variable abort : list (pkgkey * content) -> nat -> option N.

  Lemma log_prefix (l : pkgkey -> option content) acts :
    forall n reg, exists rest, reqs acts = o_log (run l abort acts n reg) ++ rest.
  Proof.
    induction acts as [|[name v sp|name sp] r IH]; intros n reg; cbn [run].
    - destruct (abort reg n); exists []; reflexivity.
    - destruct (abort reg n); [eexists; reflexivity|]. cbn [reqs].
      destruct (reg_has reg (name, v)).
      + destruct (IH (S n) reg) as [rest ->]. exists rest. reflexivity.
      + destruct (l (name, v)).
        * destruct (IH (S n) (reg ++ [(name, v, c)])) as [rest ->]. exists rest. reflexivity.
        * exists (reqs r). reflexivity.
    - destruct (abort reg n); exists []; reflexivity.
  Qed.

  (** Two package maps that agree on the keys the run actually looks up give the same run. *)
  Lemma run_agree_log (l1 l2 : pkgkey -> option content) acts : forall n reg,
    (forall k, In k (o_log (run l1 abort acts n reg)) -> l1 k = l2 k) ->
    run l1 abort acts n reg = run l2 abort acts n reg.
  Proof.
    induction acts as [|[name v sp|name sp] r IH]; intros n reg; cbn [run]; [reflexivity| |reflexivity].
    destruct (abort reg n); [reflexivity|].
    destruct (reg_has reg (name, v)).
    - cbn [logged o_log]. intros H. rewrite (IH (S n) reg); [reflexivity|]. intros k Hk. apply H. now right.
    - intros H. assert (E : l1 (name, v) = l2 (name, v)) by (apply H; destruct (l1 (name, v)); now left).
      rewrite <- E. destruct (l1 (name, v)) as [c|]; [|reflexivity].
      rewrite (IH (S n) (reg ++ [(name, v, c)])); [reflexivity|]. intros k Hk. apply H. now right.
  Qed.

  Lemma restrict_in ks (l : pkgkey -> option content) k : In k ks -> restrict ks l k = l k.
  Proof.
    intros H. unfold restrict.
    replace (existsb (pkgkey_eqb k) ks) with true; [reflexivity|].
    symmetry. apply existsb_exists. exists k. split; [exact H | apply pkgkey_eqb_refl].
  Qed.
End RunProofs.

(** Two package maps that agree on the requests of the document give the same resolution. *)
Theorem superset_same_result {content : Type} (abort : list (pkgkey * content) -> nat -> option N)
    (lookup1 lookup2 : pkgkey -> option content) d :
  (forall k, In k (requests d) -> lookup1 k = lookup2 k) ->
  resolve_skel lookup1 abort d = resolve_skel lookup2 abort d.
Proof.
  intros H. apply run_agree_log. intros k Hk. apply H.
  destruct (log_prefix abort lookup1 (actions d) 0 []) as [rest E]. unfold requests. rewrite E. apply in_or_app. now left.
Qed.

(** Hence: supplying exactly the discovered packages, or any superset of them, gives the result of
    supplying everything. *)
Theorem discovered_suffice {content : Type} (abort : list (pkgkey * content) -> nat -> option N)
    (lookup : pkgkey -> option content) d ks ks' :
  visit d = VOk ks -> incl ks ks' ->
  resolve_skel (restrict ks' lookup) abort d = resolve_skel lookup abort d.
Proof.
  intros H Hs. apply superset_same_result. intros k Hk. apply restrict_in.
  apply Hs. now apply (requests_incl_discovered d ks H).
Qed.

(** The resolver performs a prefix of [requests d], whatever is supplied and wherever it stops. *)
Theorem log_is_prefix {content : Type} (abort : list (pkgkey * content) -> nat -> option N)
    (lookup : pkgkey -> option content) d :
  exists rest, requests d = o_log (resolve_skel lookup abort d) ++ rest.
Proof. apply log_prefix. Qed.
