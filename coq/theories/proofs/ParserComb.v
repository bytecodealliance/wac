(** The parser-combinator layer: soundness and completeness of the primitives of [Parser.v] ([bind],
    [next_tok]/[parse_token], [parse_optional], [alt], [delimited]) against the grammar combinators of
    [Grammar.v] ([tok], [opt], [seplist], [many]), from which [ParserProofs.v] composes the productions. *)
From WacV Require Import Str Token Lexer Semver Ast Parser Grammar.
From WacV Require Export TokenFacts AstInd.
From Coq Require Import Lia.
Local Open Scope nat_scope.

Lemma mem_tok_In k l : mem_tok k l = true <-> In k l.
Proof.
  induction l as [|x l IH]; cbn; [split; [discriminate|tauto]|].
  rewrite orb_true_iff, token_eqb_eq, IH. tauto.
Qed.

Lemma mem_tok_disjoint k l1 l2 :
  mem_tok k l1 = true -> forallb (fun x => negb (mem_tok x l2)) l1 = true -> mem_tok k l2 = false.
Proof.
  intros H1 H2. apply mem_tok_In in H1. rewrite forallb_forall in H2. apply negb_true_iff. now apply H2.
Qed.

Lemma mem_tok_incl k l1 l2 :
  mem_tok k l1 = true -> forallb (fun x => mem_tok x l2) l1 = true -> mem_tok k l2 = true.
Proof. intros H1 H2. apply mem_tok_In in H1. rewrite forallb_forall in H2. now apply H2. Qed.

Lemma bind_ok {A B} (m : pres A) (k : A -> list lexitem -> pres B) b r :
  m >>= k = POk b r -> exists a r', m = POk a r' /\ k a r' = POk b r.
Proof. destruct m; cbn; try discriminate. eauto. Qed.

Lemma bind_POk {A B} (a : A) r (k : A -> list lexitem -> pres B) : POk a r >>= k = k a r.
Proof. reflexivity. Qed.

Lemma next_tok_ok e k ts t r : next_tok e k ts = POk t r -> tok k ts r t.
Proof.
  unfold next_tok, tok. destruct ts as [|[t'| | | |] ts]; cbn; try discriminate.
  destruct (token_eqb (tk t') k) eqn:E; try discriminate.
  intros H; inversion H; subst. apply token_eqb_eq in E. auto.
Qed.

Lemma next_tok_complete e k ts t r : tok k ts r t -> next_tok e k ts = POk t r.
Proof. intros [-> <-]. unfold next_tok. now rewrite token_eqb_refl. Qed.

Lemma parse_token_ok e k ts sp r : parse_token e k ts = POk sp r -> exists t, tok k ts r t /\ sp = tsp t.
Proof.
  unfold parse_token. intros H. apply bind_ok in H. destruct H as (t & r' & H1 & H2).
  inversion H2; subst. apply next_tok_ok in H1. eauto.
Qed.

Lemma parse_token_complete e k ts t r : tok k ts r t -> parse_token e k ts = POk (tsp t) r.
Proof. intros H. unfold parse_token. now rewrite (next_tok_complete _ _ _ _ _ H). Qed.

Lemma any_tok_ok ts t r : any_tok ts = POk t r -> ts = LTok t :: r.
Proof. destruct ts as [|[t'| | | |] ts]; cbn; try discriminate. intros H; inversion H; now subst. Qed.

Lemma tok_len k ts r t : tok k ts r t -> length ts = S (length r).
Proof. intros [-> _]. reflexivity. Qed.

Lemma tok_peek k ts r t : tok k ts r t -> peek_kind ts = Some k.
Proof. intros [-> <-]. reflexivity. Qed.

Lemma peek_kind_Some ts k : peek_kind ts = Some k -> exists t r, ts = LTok t :: r /\ tk t = k.
Proof. destruct ts as [|[t| | | |] ts]; cbn; try discriminate. intros H; inversion H. eauto. Qed.

(** What follows a delimited list: the closing token. *)
Definition next_is (k : token) (r : list lexitem) : Prop := peek_kind r = Some k.

Lemma peek_in_iff first ts :
  peek_in first ts = true <-> exists t r, ts = LTok t :: r /\ mem_tok (tk t) first = true.
Proof.
  unfold peek_in. split.
  - destruct (peek_kind ts) as [k|] eqn:E; try discriminate.
    intros H. apply peek_kind_Some in E. destruct E as (t & r & -> & <-). eauto.
  - intros (t & r & -> & H). exact H.
Qed.

Lemma next_is_peek_in k first r : next_is k r -> peek_in first r = mem_tok k first.
Proof. unfold peek_in, next_is. now intros ->. Qed.

Lemma tok_peek_in k first ts r t : tok k ts r t -> peek_in first ts = mem_tok k first.
Proof. intros H. eapply next_is_peek_in, tok_peek, H. Qed.

Definition starts_in {A} (R : drel A) (first : list token) : Prop :=
  forall ts r a, R ts r a -> exists t ts', ts = LTok t :: ts' /\ mem_tok (tk t) first = true.

Lemma tok_starts_in k first : mem_tok k first = true -> starts_in (tok k) first.
Proof. intros H ts r t [-> Hk]. rewrite <- Hk in H. eauto. Qed.

Lemma starts_in_peek {A} (R : drel A) first ts r a : starts_in R first -> R ts r a -> peek_in first ts = true.
Proof. intros H Ha. apply peek_in_iff. eapply H, Ha. Qed.

Lemma starts_in_peek_out {A} (R : drel A) first l ts r a :
  starts_in R first -> R ts r a -> forallb (fun x => negb (mem_tok x l)) first = true -> peek_in l ts = false.
Proof. intros H Ha Hd. destruct (H _ _ _ Ha) as (t & ts' & -> & Hm). exact (mem_tok_disjoint _ _ _ Hm Hd). Qed.

Lemma seplist_starts {A} (R : drel A) first ts r l tr :
  starts_in R first -> seplist R ts r (l, tr) -> l <> [] -> peek_in first ts = true.
Proof. intros H Hs Hne. inversion Hs; subst; try congruence; eapply starts_in_peek; eauto. Qed.

Lemma starts_in_incl {A} (R : drel A) l1 l2 :
  starts_in R l1 -> forallb (fun x => mem_tok x l2) l1 = true -> starts_in R l2.
Proof. intros H Hi ts r a Ha. destruct (H _ _ _ Ha) as (t & ts' & -> & Hm). eauto using mem_tok_incl. Qed.

Lemma parse_optional_ok {A} k (cb : parser A) (R : drel A) ts o r :
  (forall ts a r, cb ts = POk a r -> R ts r a) ->
  parse_optional k cb ts = POk o r -> opt k R ts r o.
Proof.
  intros Hcb. unfold parse_optional. destruct ts as [|[t| | | |] ts]; cbn; try discriminate.
  - intros H; inversion H; subst. constructor.
  - destruct (token_eqb (tk t) k) eqn:E.
    + intros H. apply bind_ok in H. destruct H as (a & r' & H1 & H2). inversion H2; subst.
      apply token_eqb_eq in E. econstructor; [split; [reflexivity|exact E]|]. now apply Hcb.
    + intros H; inversion H; subst. constructor.
Qed.

(** What may follow an absent optional part: the end of the input or a token other than [k]. *)
Definition not_next (k : token) (r : list lexitem) : Prop :=
  match r with [] => True | LTok t :: _ => tk t <> k | _ => False end.

Lemma next_is_not_next k k' r : next_is k' r -> k' <> k -> not_next k r.
Proof. intros H Hn. apply peek_kind_Some in H. destruct H as (t & r' & -> & Hk). cbn. congruence. Qed.

Lemma parse_optional_some {A} k (cb : parser A) ts r1 r t a :
  tok k ts r1 t -> cb r1 = POk a r -> parse_optional k cb ts = POk (Some a) r.
Proof. intros [-> Hk] Hc. unfold parse_optional. rewrite Hk, token_eqb_refl, Hc. reflexivity. Qed.

Lemma parse_optional_none {A} k (cb : parser A) ts : not_next k ts -> parse_optional k cb ts = POk None ts.
Proof.
  unfold parse_optional. destruct ts as [|[t| | | |] ts]; cbn; try tauto.
  intros H. apply token_eqb_neq in H. now rewrite H.
Qed.

Lemma parse_optional_complete {A} k (cb : parser A) (R : drel A) ts o r :
  (forall ts a r, R ts r a -> cb ts = POk a r) ->
  opt k R ts r o -> (o = None -> not_next k r) -> parse_optional k cb ts = POk o r.
Proof.
  intros Hcb Ho Hn. destruct Ho as [ts|ts r1 r t a Ht Ha].
  - now apply parse_optional_none, Hn.
  - eapply parse_optional_some; eauto.
Qed.

Lemma la_fail_not_ok {A} e l ts (a : A) r : la_fail e l ts = POk a r -> False.
Proof. unfold la_fail. destruct ts as [|[t| | | |] ts]; cbn; discriminate. Qed.

Lemma alt_ok {A} e (bs : list (list token * parser A)) ts a r :
  alt e bs ts = POk a r ->
  exists k first p, peek_kind ts = Some k /\ alt_find k bs = Some p /\ p ts = POk a r /\
                    In (first, p) bs /\ mem_tok k first = true.
Proof.
  unfold alt. destruct (peek_kind ts) as [k|] eqn:Ek; [|intros H; now apply la_fail_not_ok in H].
  destruct (alt_find k bs) as [p|] eqn:Ef; [|intros H; now apply la_fail_not_ok in H].
  intros H. assert (exists first, In (first, p) bs /\ mem_tok k first = true) as (first & Hin & Hm).
  { clear -Ef. induction bs as [|[f q] bs IH]; cbn in *; try discriminate.
    destruct (mem_tok k f) eqn:Em.
    - inversion Ef; subst. eauto.
    - destruct (IH Ef) as (f' & Hin & Hm). eauto. }
  exists k, first, p. auto.
Qed.

Lemma alt_select {A} e (bs : list (list token * parser A)) ts k p :
  peek_kind ts = Some k -> alt_find k bs = Some p -> alt e bs ts = p ts.
Proof. intros Hk Hf. unfold alt. now rewrite Hk, Hf. Qed.

Lemma alt_select_starts {A B} e (bs : list (list token * parser B)) (R : drel A) first p ts r a :
  starts_in R first -> R ts r a -> (forall k, mem_tok k first = true -> alt_find k bs = Some p) -> alt e bs ts = p ts.
Proof. intros Hst Ha Hf. destruct (Hst _ _ _ Ha) as (t & ts' & -> & Hm). eapply alt_select; [reflexivity|exact (Hf _ Hm)]. Qed.

Lemma delim_loop_ok {A} (R : drel A) n e until commas first (p : parser A) :
  (forall ts a r, p ts = POk a r -> R ts r a) ->
  forall ts l tr r, delim_loop n e until commas first p ts = POk (l, tr) r ->
  (if commas then seplist R ts r (l, tr) else many R ts r l) /\ next_is until r.
Proof.
  intros Hp. induction n as [|n IH]; intros ts l tr r; cbn [delim_loop]; try discriminate.
  destruct (peek_kind ts) as [k|] eqn:Ek; [|intros H; now apply la_fail_not_ok in H].
  destruct (token_eqb k until) eqn:Eu.
  { intros H; inversion H; subst. apply token_eqb_eq in Eu. subst.
    split; [destruct commas; constructor|exact Ek]. }
  destruct (mem_tok k first); [|intros H; now apply la_fail_not_ok in H].
  intros H. apply bind_ok in H. destruct H as (a & r1 & Hpa & H). apply Hp in Hpa.
  destruct (peek_kind r1) as [k2|] eqn:Ek2; [|now apply la_fail_not_ok in H].
  destruct (token_eqb k2 until) eqn:Eu2.
  { inversion H; subst. apply token_eqb_eq in Eu2; subst.
    split; [destruct commas; [now apply sl_one|econstructor; [eassumption|constructor]]|exact Ek2]. }
  destruct commas.
  - apply bind_ok in H. destruct H as (sp & r2 & Hc & H).
    apply parse_token_ok in Hc. destruct Hc as (c & Hc & _).
    apply bind_ok in H. destruct H as ([items tr'] & r3 & Hrec & H). inversion H; subst.
    destruct (IH _ _ _ _ Hrec) as [Hs Hn]. split; [|exact Hn].
    destruct items as [|i items].
    + inversion Hs; subst. eapply sl_trail; eauto.
    + eapply sl_cons; eauto. discriminate.
  - apply bind_ok in H. destruct H as ([items tr'] & r3 & Hrec & H). inversion H; subst.
    destruct (IH _ _ _ _ Hrec) as [Hs Hn]. split; [econstructor; eauto|exact Hn].
Qed.

Lemma delimited_items_ok {A} (R : drel A) e until commas first (p : parser A) ts l r :
  (forall ts a r, p ts = POk a r -> R ts r a) ->
  delimited_items e until commas first p ts = POk l r ->
  (if commas then exists tr, seplist R ts r (l, tr) else many R ts r l) /\ next_is until r.
Proof.
  intros Hp H. unfold delimited_items, delimited in H. apply bind_ok in H. destruct H as ([items tr] & r1 & H0 & H).
  inversion H; subst. eapply delim_loop_ok in H0; [|exact Hp]. destruct commas; destruct H0; eauto.
Qed.

Lemma seplist_Forall {A} (R : drel A) (Q : A -> Prop) ts r x :
  seplist R ts r x -> (forall ts r a, R ts r a -> Q a) -> Forall Q (fst x).
Proof. intros H HQ. induction H; cbn [fst] in *; eauto. Qed.

Lemma seplist_nonempty {A} (R : drel A) first until ts r l tr :
  seplist R ts r (l, tr) -> peek_in first ts = true -> next_is until r -> mem_tok until first = false -> l <> [].
Proof.
  intros H Hp Hn Hu. inversion H; subst; try discriminate.
  rewrite (next_is_peek_in _ _ _ Hn) in Hp. congruence.
Qed.

(** Inversion of a parser equation [H : p ts = POk a r] along the binds of [p]: what remains are the
    equations of the sub-parsers, those of tokens turned into [tok] facts. *)
Ltac sinv H :=
  lazymatch type of H with
  | bind ?m ?k = POk _ _ =>
      let a := fresh "a" in let r := fresh "r" in let H1 := fresh "Hs" in
      apply bind_ok in H; destruct H as (a & r & H1 & H); cbv beta in H; sinv H1; sinv H
  | POk _ _ = POk _ _ => injection H; clear H; intros; subst
  | PErr _ = POk _ _ => discriminate H
  | PPanic _ = POk _ _ => discriminate H
  | parse_token _ _ _ = POk _ _ =>
      let t := fresh "t" in apply parse_token_ok in H; destruct H as (t & H & ->)
  | next_tok _ _ _ = POk _ _ => apply next_tok_ok in H
  | any_tok _ = POk _ _ => apply any_tok_ok in H
  | la_fail _ _ _ = POk _ _ => exfalso; exact (la_fail_not_ok _ _ _ _ _ H)
  | (if ?c then _ else _) = POk _ _ => let E := fresh "Eb" in destruct c eqn:E; sinv H
  | (match ?x with [] => _ | _ :: _ => _ end) = POk _ _ => let E := fresh "El" in destruct x eqn:E; sinv H
  | (let '(a, b) := ?x in _) _ = POk _ _ => destruct x; sinv H
  | _ => idtac
  end.

(** An item is followed by a comma or by the closing token. *)
Definition item_follow (until : token) (r : list lexitem) : Prop :=
  peek_kind r = Some TComma \/ peek_kind r = Some until.

Lemma item_follow_not_next until k r : until <> k -> k <> TComma -> item_follow until r -> not_next k r.
Proof. intros H1 H2 [H|H]; eapply next_is_not_next; eauto. Qed.

Section Complete.
Variable e : env.

(** [b] bounds the stream for the recursive productions, whose parser is a fixpoint on fuel. *)
Definition completeB {A} (b : nat) (R : drel A) (F : list lexitem -> Prop) (p : parser A) : Prop :=
  forall ts r a, R ts r a -> length ts < b -> length ts < fuel e -> F r -> p ts = POk a r /\ length r < length ts.

Definition complete {A} (R : drel A) (F : list lexitem -> Prop) (p : parser A) : Prop :=
  forall ts r a, R ts r a -> length ts < fuel e -> F r -> p ts = POk a r /\ length r < length ts.

Lemma completeB_fuel {A} (R : drel A) F p : completeB (fuel e) R F p -> complete R F p.
Proof. intros H ts r a Ha Hl. now apply H. Qed.

Lemma complete_B {A} b (R : drel A) F p : complete R F p -> completeB b R F p.
Proof. intros H ts r a Ha _. now apply H. Qed.

Lemma completeB_follow {A} b (R : drel A) (F F' : list lexitem -> Prop) p :
  completeB b R F p -> (forall r, F' r -> F r) -> completeB b R F' p.
Proof. intros H HF ts r a Ha Hb Hl Hf. apply H; auto. Qed.

Lemma complete_follow {A} (R : drel A) (F F' : list lexitem -> Prop) p :
  complete R F p -> (forall r, F' r -> F r) -> complete R F' p.
Proof. intros H HF ts r a Ha Hl Hf. apply H; auto. Qed.

Lemma until_not_first until first k : mem_tok until first = false -> mem_tok k first = true -> token_eqb k until = false.
Proof. intros Hu Hm. apply token_eqb_neq. intros ->. congruence. Qed.

(** Fuel: one unit per item, and a stream of [n] items is longer than [n]. *)
Lemma delim_loop_complete {A} (R : drel A) b until first (p : parser A) :
  starts_in R first -> completeB b R (item_follow until) p -> mem_tok until first = false -> until <> TComma ->
  forall ts x r, seplist R ts r x -> length ts < b -> length ts < fuel e -> next_is until r ->
  (forall n, length ts < n -> delim_loop n e until true first p ts = POk x r) /\ length r <= length ts.
Proof.
  intros Hst Hp Hu Hc ts x r Hs.
  assert (Hitem : forall ts r1 a, R ts r1 a -> length ts < b -> length ts < fuel e -> item_follow until r1 ->
            length r1 < length ts /\
            forall n, delim_loop (S n) e until true first p ts =
              match peek_kind r1 with
              | Some k2 => if token_eqb k2 until then POk ([a], false) r1
                           else parse_token e TComma r1 >>= fun _ r2 =>
                                delim_loop n e until true first p r2 >>= fun '(items, tr) r3 =>
                                POk (a :: items, match items with [] => true | _ => tr end) r3
              | None => la_fail e (until :: first) r1
              end).
  { intros ts0 r1 a Ha Hb Hf Hfol. destruct (Hst _ _ _ Ha) as (t & ts' & -> & Hmem).
    destruct (Hp _ _ _ Ha Hb Hf Hfol) as [Hpa Hl1]. split; [exact Hl1|]. intros n.
    cbn [delim_loop peek_kind]. rewrite (until_not_first _ _ _ Hu Hmem), Hmem, Hpa. reflexivity. }
  assert (Hcomma : token_eqb TComma until = false) by (apply token_eqb_neq; congruence).
  induction Hs as [ts|ts r a Ha|ts r1 r a c Ha Hcm|ts r1 r2 r a c l tr Ha Hcm Hs IH Hl]; intros Hb Hf Hn.
  - split; [|lia]. intros [|n] Hlen; [lia|]. cbn [delim_loop]. red in Hn. now rewrite Hn, token_eqb_refl.
  - destruct (Hitem _ _ _ Ha Hb Hf (or_intror Hn)) as [Hl1 Hstep]. split; [|lia].
    intros [|n] Hlen; [lia|]. rewrite Hstep. red in Hn. now rewrite Hn, token_eqb_refl.
  - pose proof (tok_peek _ _ _ _ Hcm) as Hpk. pose proof (tok_len _ _ _ _ Hcm) as Hl2.
    destruct (Hitem _ _ _ Ha Hb Hf (or_introl Hpk)) as [Hl1 Hstep]. split; [|lia].
    intros [|n] Hlen; [lia|]. rewrite Hstep, Hpk, Hcomma, (parse_token_complete e _ _ _ _ Hcm). cbn [bind].
    destruct n as [|n]; [lia|]. cbn [delim_loop]. red in Hn. now rewrite Hn, token_eqb_refl.
  - pose proof (tok_peek _ _ _ _ Hcm) as Hpk. pose proof (tok_len _ _ _ _ Hcm) as Hl2.
    destruct (Hitem _ _ _ Ha Hb Hf (or_introl Hpk)) as [Hl1 Hstep].
    destruct IH as [IH1 IH2]; [lia|lia|exact Hn|]. split; [|lia].
    intros [|n] Hlen; [lia|]. rewrite Hstep, Hpk, Hcomma, (parse_token_complete e _ _ _ _ Hcm). cbn [bind].
    rewrite (IH1 n) by lia. cbn [bind]. destruct l; [contradiction|reflexivity].
Qed.

Lemma delimited_items_complete {A} (R : drel A) until first (p : parser A) ts l tr r :
  starts_in R first -> complete R (item_follow until) p -> mem_tok until first = false -> until <> TComma ->
  seplist R ts r (l, tr) -> length ts < fuel e -> next_is until r ->
  delimited_items e until true first p ts = POk l r /\ length r <= length ts.
Proof.
  intros Hst Hp Hu Hc Hs Hl Hn.
  destruct (delim_loop_complete R (fuel e) until first p Hst (complete_B _ _ _ _ Hp) Hu Hc _ _ _ Hs Hl Hl Hn) as [Hd Hl2].
  unfold delimited_items, delimited. now rewrite (Hd _ Hl).
Qed.

(** Without commas the items need no follow condition: the loop decides by the first token of the NEXT
    item, which is in [first] and so is not [until]. *)
Lemma delimited_many_complete {A} (R : drel A) until first (p : parser A) ts l r :
  starts_in R first -> complete R (fun _ => True) p -> mem_tok until first = false ->
  many R ts r l -> length ts < fuel e -> next_is until r ->
  delimited_items e until false first p ts = POk l r /\ length r <= length ts.
Proof.
  intros Hst Hp Hu Hs Hl Hn.
  enough (H : (forall n, length ts < n -> exists tr, delim_loop n e until false first p ts = POk (l, tr) r) /\
              length r <= length ts).
  { destruct H as [Hd Hl2]. destruct (Hd _ Hl) as (tr & Hd'). unfold delimited_items, delimited. now rewrite Hd'. }
  induction Hs as [ts|ts r1 r a l Ha Hs IH].
  - split; [|lia]. intros [|n] Hlen; [lia|]. cbn [delim_loop]. red in Hn. rewrite Hn, token_eqb_refl. eauto.
  - destruct (Hst _ _ _ Ha) as (t & ts' & -> & Hmem). destruct (Hp _ _ _ Ha Hl I) as [Hpa Hl1].
    destruct IH as [IH1 IH2]; [lia|exact Hn|]. split; [|lia].
    intros [|n] Hlen; [lia|]. cbn [delim_loop peek_kind]. rewrite (until_not_first _ _ _ Hu Hmem), Hmem, Hpa. cbn [bind].
    destruct (IH1 n) as (tr & Hrec); [cbn [length] in *; lia|].
    destruct Hs as [ts|ts r2 r b l Hb Hs].
    + red in Hn. rewrite Hn, token_eqb_refl. eauto.
    + destruct (Hst _ _ _ Hb) as (t2 & ts2 & -> & Hm2). cbn [peek_kind].
      rewrite (until_not_first _ _ _ Hu Hm2), Hrec. cbn [bind]. eauto.
Qed.

End Complete.

(** Under the implementation's flags every placement of the fill [...] is accepted (not a combinator
    fact: it stands here for NoPanicParser.v and PrinterProofs.v, which do not import ParserTop.v). *)
Lemma args_ok_impl args tr : args_ok impl_flags args tr = true.
Proof. destruct args as [|[i|i|n x|sp] [|a2 rest]]; destruct tr; reflexivity. Qed.
