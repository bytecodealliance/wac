(** C16: what fixes the emission order of [CompositionGraphEncoder::toposort] ([EncodeModel.topo_phase1]).

    The Rust comment says the result is "in index order for independent nodes".  Read literally (no path between a
    and b, a < b  ==>  a is emitted first) this is FALSE, of the model and of the real code
    ([independent_nodes_index_order_refuted]; replayed by the check).  What holds, and what makes the order a function of
    the composition alone:
      - a node that is not reachable from any node of larger index is emitted before every node of larger index
        ([emission_order_index]); in particular nodes without incoming edges come in index order among
        themselves and before all larger nodes ([sources_in_index_order]);
      - if every edge goes from a smaller to a larger index (nothing was defined after its dependants, no slot was
        reused against the grain) the emission order IS the index order ([forward_graph_emitted_in_index_order]). *)
From Coq Require Import List Arith Bool NArith Lia Sorted Permutation.
(* [before], [reach], [d_init] are also names of ToposortDfs / ToposortPhase1 / Wiring: EncodeOrder is imported
   last, so below [before] and [reach] are EncodeOrder's (its [reach] is reflexive, ToposortPhase1's is
   [clos_trans]); ToposortPhase1.d_init is qualified *)
From WacV Require Import GraphUnreg ToposortDfs ToposortPhase1.
From WacV Require Import Graph Wiring WiringSpec EncodeModel WiringOrder EncodeOrder EncodeOrderProofs.
Import ListNotations.
Local Open Scope nat_scope.

Definition loop_props (g : gstate) (st : list nat) (d d' : dfs) : Prop :=
  (exists new, df_out d' = new ++ df_out d /\
               forall x, In x new -> In x (df_disc d') /\ (In x st \/ ~ In x (df_disc d))) /\
  incl (df_disc d) (df_disc d') /\
  (forall x, In x (df_disc d') -> In x (df_disc d) \/ exists s, In s st /\ reach g s x).

Lemma loop_props_refl g st d : loop_props g st d d.
Proof.
  split; [exists []; split; [reflexivity|intros x []]|]. split; [apply incl_refl|intros x H; left; exact H].
Qed.

Lemma dfs_loop_props g : forall f st d d', dfs_loop g f st d = Some d' -> loop_props g st d d'.
Proof.
  induction f as [|f IH]; intros st d d' H; [cbn in H; inversion H; subst; apply loop_props_refl|].
  destruct st as [|nx rest]; [cbn in H; inversion H; subst; apply loop_props_refl|].
  rewrite dfs_loop_S in H. unfold dfs_step in H.
  destruct (memn nx (df_disc d)) eqn:Ed.
  - apply memn_In in Ed. destruct (memn nx (df_fin d));
      destruct (IH _ _ _ H) as ((new & E & P1) & P2 & P3); cbn [df_disc df_fin df_out] in *.
    + split; [exists new; split; [exact E|]|split; [exact P2|]].
      * intros x Hx. destruct (P1 x Hx) as [A [B|B]]; auto. split; [exact A|]. left. right. exact B.
      * intros x Hx. destruct (P3 x Hx) as [A|[s [A B]]]; auto. right. exists s. split; [right; exact A|exact B].
    + split; [exists (new ++ [nx]); split; [rewrite E, <- app_assoc; reflexivity|]|split; [exact P2|]].
      * intros x Hx. apply in_app_or in Hx as [Hx|[<-|[]]].
        -- destruct (P1 x Hx) as [A [B|B]]; auto. split; [exact A|]. left. right. exact B.
        -- split; [apply P2; exact Ed|]. left. left. reflexivity.
      * intros x Hx. destruct (P3 x Hx) as [A|[s [A B]]]; auto. right. exists s. split; [right; exact A|exact B].
  - apply memn_notIn in Ed. destruct (memn nx (succs g nx)); [discriminate|].
    destruct (IH _ _ _ H) as ((new & E & P1) & P2 & P3). cbn [df_disc df_fin df_out] in *.
    split; [exists new; split; [exact E|]|split; [intros x Hx; apply P2; right; exact Hx|]].
    + intros x Hx. destruct (P1 x Hx) as [A B]. split; [exact A|]. destruct B as [B|B].
      * apply in_app_or in B as [B|B]; [|left; exact B].
        apply pushed_In in B as [_ B]. right. intros D. apply B. right. exact D.
      * right. intros D. apply B. right. exact D.
    + intros x Hx. destruct (P3 x Hx) as [[<-|A]|[s [A B]]]; auto.
      * right. exists nx. split; [left; reflexivity|apply reach_refl].
      * right. apply in_app_or in A as [A|A]; [|exists s; split; assumption].
        apply pushed_In in A as [A _]. exists nx. split; [left; reflexivity|]. eapply reach_step; eassumption.
Qed.

Lemma loop_props_trans g st1 st2 a b c :
  loop_props g st1 a b -> loop_props g st2 b c -> loop_props g (st1 ++ st2) a c.
Proof.
  intros ((n1 & E1 & A1) & A2 & A3) ((n2 & E2 & B1) & B2 & B3).
  split; [exists (n2 ++ n1); split; [rewrite E2, E1, app_assoc; reflexivity|]|split; [eapply incl_tran; eassumption|]].
  - intros x Hx. apply in_app_or in Hx as [Hx|Hx].
    + destruct (B1 x Hx) as [H [K|K]]; (split; [exact H|]).
      * left. apply in_or_app. right. exact K.
      * right. intros L. apply K. apply A2. exact L.
    + destruct (A1 x Hx) as [H [K|K]]; (split; [apply B2; exact H|]); auto. left. apply in_or_app. left. exact K.
  - intros x Hx. destruct (B3 x Hx) as [H|[s [H K]]].
    + destruct (A3 x H) as [L|[s [L M]]]; auto. right. exists s. split; [apply in_or_app; left; exact L|exact M].
    + right. exists s. split; [apply in_or_app; right; exact H|exact K].
Qed.

Lemma outer_props g : forall l d d', fold_left (topo_step g (dfs_fuel g)) l (Some d) = Some d' ->
    loop_props g l d d' /\ (forall i, In i l -> In i (df_disc d')).
Proof.
  induction l as [|i r IH]; intros d d' H.
  - cbn in H. inversion H; subst. split; [apply loop_props_refl|intros i []].
  - cbn [fold_left] in H.
    destruct (topo_step g (dfs_fuel g) (Some d) i) as [d1|] eqn:E1; [|rewrite topo_step_none in H; discriminate].
    destruct (IH _ _ H) as [P Q]. unfold topo_step in E1.
    assert (P1 : loop_props g [i] d d1 /\ In i (df_disc d1)).
    { destruct (memn i (df_disc d)) eqn:Ed.
      - inversion E1; subst d1. split; [apply loop_props_refl|apply memn_In; exact Ed].
      - pose proof (dfs_loop_props _ _ _ _ _ E1) as P1. split; [exact P1|].
        (* the model's fuel is positive, so [i] itself is discovered *)
        assert (exists f, dfs_fuel g = S f) as [f Ef]
          by (exists (2 * (length (nodes g) + length (edges g)) + 1); unfold dfs_fuel; lia).
        rewrite Ef, dfs_loop_S in E1. unfold dfs_step in E1. rewrite Ed in E1.
        destruct (memn i (succs g i)); [discriminate|].
        destruct (dfs_loop_props _ _ _ _ _ E1) as (_ & P2 & _). apply P2. left. reflexivity. }
    destruct P1 as [P1 Di]. split.
    + exact (loop_props_trans g [i] r d d1 d' P1 P).
    + intros j [<-|Hj]; [|apply Q; exact Hj]. destruct P as (_ & P2 & _). apply P2. exact Di.
Qed.

Lemma nw_sorted f l : forall a, StronglySorted lt (flat_map (GraphUnreg.nw_g f) (combine (seq a (length l)) l)).
Proof.
  induction l as [|x l IH]; intros a; cbn [length seq combine flat_map]; [constructor|].
  unfold GraphUnreg.nw_g at 1. cbn [fst snd]. destruct x as [nd|]; [destruct (f nd)|]; cbn [app]; auto.
  constructor; auto. apply Forall_forall. intros v H. apply GraphUnreg.nw_in in H as [H _]. lia.
Qed.

Lemma node_ids_sorted g : StronglySorted lt (node_ids g).
Proof. unfold node_ids, nodes_where. apply (nw_sorted (fun _ => true) (nodes g) 0). Qed.

Lemma sorted_split : forall l a, StronglySorted lt l -> In a l ->
    exists lo hi, l = lo ++ a :: hi /\ (forall x, In x lo -> x < a) /\ (forall x, In x hi -> a < x).
Proof.
  induction l as [|y r IH]; intros a Hs Hin; [contradiction|].
  inversion Hs as [|? ? Hr Hall]; subst. rewrite Forall_forall in Hall.
  destruct Hin as [<-|Hin].
  - exists [], r. split; [reflexivity|]. split; [intros x []|exact Hall].
  - destruct (IH a Hr Hin) as (lo & hi & E & L & H). exists (y :: lo), hi. subst r. split; [reflexivity|].
    split; [|exact H]. intros x [<-|Hx]; [apply Hall; apply in_or_app; right; left; reflexivity|apply L; exact Hx].
Qed.

Lemma index_of_app_lt a b l m : In a l -> ~ In b l -> index_of a (l ++ m) < index_of b (l ++ m).
Proof.
  induction l as [|x r IH]; cbn; intros Ha Hb; [contradiction|].
  destruct (Nat.eqb_spec x b) as [->|_]; [tauto|]. destruct (Nat.eqb_spec x a) as [_|Na]; [lia|].
  apply -> Nat.succ_lt_mono. apply IH; [destruct Ha; [contradiction|assumption]|tauto].
Qed.

Theorem emission_order_index g ord a b :
  topo_phase1 g = Some ord -> In a ord ->
  In a (node_ids g) -> In b (node_ids g) -> a < b ->
  (forall c, In c (node_ids g) -> a < c -> ~ reach g c a) ->
  before ord a b.
Proof.
  intros Ht Ha Ia Ib Hlt Hnr. rewrite topo_phase1_eq in Ht. unfold topo_phase1_fuel, topo_fold in Ht.
  (* the outer loop takes the nodes above [a] first, then [a], then those below *)
  destruct (sorted_split _ a (node_ids_sorted g) Ia) as (lo & hi & E & Llo & Lhi).
  assert (Hbhi : In b hi).
  { rewrite E in Ib. apply in_app_or in Ib. destruct Ib as [K|[K|K]]; [specialize (Llo b K); lia|lia|exact K]. }
  rewrite E, rev_app_distr in Ht. cbn [rev] in Ht. rewrite <- app_assoc in Ht. cbn [app] in Ht. rewrite fold_left_app in Ht.
  destruct (fold_left (topo_step g (dfs_fuel g)) (rev hi) (Some ToposortPhase1.d_init)) as [da|] eqn:E1;
    [|rewrite topo_step_none in Ht; discriminate].
  destruct (fold_left (topo_step g (dfs_fuel g)) (a :: rev lo) (Some da)) as [df|] eqn:E2; [|discriminate].
  inversion Ht; subst ord. clear Ht.
  destruct (outer_props g _ _ _ E1) as [((newa & Ea & A1) & _ & A3) A4].
  destruct (outer_props g _ _ _ E2) as [((new & En & B1) & _) _].
  cbn in Ea. rewrite app_nil_r in Ea. rewrite En in *. unfold before. apply index_of_app_lt.
  - (* [a] is finished in its own turn: before, it was not even discovered *)
    apply in_app_or in Ha as [Ha|Ha]; [exact Ha|]. exfalso. rewrite Ea in Ha.
    destruct (A3 a (proj1 (A1 a Ha))) as [[]|[s [Hs Hr]]]. apply in_rev in Hs.
    apply (Hnr s); [rewrite E; apply in_or_app; right; right; exact Hs|apply Lhi; exact Hs|exact Hr].
  - intros K. destruct (B1 b K) as [_ [[<-|L]|L]]; [lia|apply in_rev in L; specialize (Llo b L); lia|].
    apply L, A4. rewrite <- in_rev. exact Hbhi.
Qed.

Lemma reach_into g c a : reach g c a -> c = a \/ exists ed, In ed (edges g) /\ etgt ed = a.
Proof.
  induction 1 as [x|x y z Hxy Hyz IH]; [left; reflexivity|].
  destruct IH as [->|IH]; [|right; exact IH]. right.
  apply succs_edge in Hxy as [ed [Hin [_ Et]]]. exists ed. split; assumption.
Qed.

Theorem toposort_unreached_before_larger g ord a b :
  toposort g = Some ord -> In a (node_ids g) -> In b (node_ids g) -> a < b ->
  (forall c, In c (node_ids g) -> a < c -> ~ reach g c a) -> before ord a b.
Proof.
  intros Ht Ia Ib Hlt Hnr. destruct (toposort_phase1 _ _ Ht) as [E1 T].
  apply (emission_order_index g ord a b E1); auto; now apply (to_all _ _ T).
Qed.

(** nodes nothing points to: index order among themselves, and before every larger node *)
Theorem sources_in_index_order g ord a b :
  toposort g = Some ord -> In a (node_ids g) -> In b (node_ids g) -> a < b ->
  (forall ed, In ed (edges g) -> etgt ed <> a) -> before ord a b.
Proof.
  intros Ht Ia Ib Hlt Hsrc. apply (toposort_unreached_before_larger g ord a b Ht Ia Ib Hlt).
  intros c _ Hc Hr. destruct (reach_into _ _ _ Hr) as [->|[ed [Hin Et]]]; [lia|]. exact (Hsrc ed Hin Et).
Qed.

Lemma reach_forward g : (forall ed, In ed (edges g) -> esrc ed < etgt ed) -> forall c a, reach g c a -> c <= a.
Proof.
  intros Hf c a H. induction H as [x|x y z Hxy Hyz IH]; [lia|].
  apply succs_edge in Hxy as [ed [Hin [Es Et]]]. specialize (Hf ed Hin). lia.
Qed.

Lemma ordered_sorted : forall ord, NoDup ord ->
    (forall a b, In a ord -> In b ord -> a < b -> before ord a b) -> StronglySorted lt ord.
Proof.
  induction ord as [|x r IH]; intros Hnd Ho; [constructor|].
  inversion Hnd as [|? ? Hx Hr]; subst. constructor.
  - apply IH; [exact Hr|]. intros a b Ha Hb Hlt. specialize (Ho a b (or_intror Ha) (or_intror Hb) Hlt).
    unfold before in *. cbn in Ho.
    destruct (x =? a) eqn:E1; [apply Nat.eqb_eq in E1; subst; contradiction|].
    destruct (x =? b) eqn:E2; [apply Nat.eqb_eq in E2; subst; contradiction|]. lia.
  - apply Forall_forall. intros y Hy. destruct (Nat.lt_trichotomy x y) as [L|[->|L]]; [exact L|contradiction|].
    specialize (Ho y x (or_intror Hy) (or_introl eq_refl) L). unfold before in Ho. cbn in Ho. rewrite Nat.eqb_refl in Ho.
    destruct (x =? y); lia.
Qed.

(** a graph whose edges all point from smaller to larger indexes is emitted in index order *)
Theorem forward_graph_emitted_in_index_order g ord :
  toposort g = Some ord -> (forall ed, In ed (edges g) -> esrc ed < etgt ed) -> ord = node_ids g.
Proof.
  intros Ht Hf. destruct (toposort_phase1 _ _ Ht) as [E1 T].
  assert (Hlive : forall n, In n ord -> In n (node_ids g)) by (intros n Hn; now apply node_ids_live_iff, (to_live _ _ T)).
  apply (DeterminismProofs.sorted_perm_unique lt); [intros x y _ _ L1 L2; lia| |apply node_ids_sorted|].
  2:{ apply NoDup_Permutation; [exact (to_nodup _ _ T)|apply node_ids_nodup|].
      intros x; split; [apply Hlive | apply (to_all _ _ T)]. }
  apply ordered_sorted; [exact (to_nodup _ _ T)|]. intros a b Ha Hb Hlt.
  apply (emission_order_index g ord a b E1 Ha (Hlive a Ha) (Hlive b Hb) Hlt).
  intros c _ Hc Hr. pose proof (reach_forward g Hf c a Hr). lia.
Qed.

Definition u_w : universe :=
  {| u_inst_exports := fun _ => None; u_pkgs := [];
     u_tys := [ {| td_res := false; td_kind := 0%N; td_deps := [] |};
                {| td_res := false; td_kind := 1%N; td_deps := [0] |};
                {| td_res := false; td_kind := 2%N; td_deps := [] |} ];
     u_lkinds := []; u_sub := fun _ _ => true; u_import_name_ok := fun _ => true; u_export_name_ok := fun _ => true |}.

(** a dependant (node 0), an unrelated type (node 1), then the base type (node 2): the only edge is 2 -> 0 *)
Definition g_w : gstate := run u_w [DefineType 1%N 1; DefineType 2%N 2; DefineType 0%N 0].

Theorem independent_nodes_index_order_refuted :
  exists g ord a b, toposort g = Some ord /\ In a (node_ids g) /\ In b (node_ids g) /\ a < b /\
                    ~ reach g a b /\ ~ reach g b a /\ before ord b a.
Proof.
  exists g_w, [1; 2; 0], 0, 1.
  split; [vm_compute; reflexivity|]. split; [vm_compute; auto|]. split; [vm_compute; auto|]. split; [lia|].
  split; [|split].
  - intros H. inversion H as [|x y z Hxy Hyz]; subst. vm_compute in Hxy. exact Hxy.
  - intros H. inversion H as [|x y z Hxy Hyz]; subst. vm_compute in Hxy. exact Hxy.
  - vm_compute. lia.
Qed.
