(** Inversion of the aggregator's state monad ([bindM_ok], [ret_ok]); [owner_free]; frame reasoning: what a
    computation leaves unchanged ([pres], instantiated with [same_imports]). *)
From WacV Require Import Str Ord Semver Names Types Checker Aggregator.
From WacV Require Import SemverProofs CheckerEq.

Lemma bindM_ok {A B} (m : M A) (k : A -> M B) c y c2 :
  bindM m k c = AOk (y, c2) -> exists x c1, m c = AOk (x, c1) /\ k x c1 = AOk (y, c2).
Proof. unfold bindM. destruct (m c) as [[x c1]| | |]; try discriminate. eauto. Qed.
Lemma ret_ok {A} (a : A) c y c2 : ret a c = AOk (y, c2) -> y = a /\ c2 = c.
Proof. unfold ret. intros H. injection H as <- <-. auto. Qed.

Section Pres.
  Variable P : core -> core -> Prop.
  Hypothesis P_refl : forall c, P c c.
  Hypothesis P_trans : forall a b c, P a b -> P b c -> P a c.

  Definition pres {A} (m : M A) : Prop := forall c x c', m c = AOk (x, c') -> P c c'.

  Lemma pres_ret {A} (a : A) : pres (ret a).
  Proof. intros c x c' H. apply ret_ok in H as [_ ->]. apply P_refl. Qed.
  Lemma pres_bind {A B} (m : M A) (k : A -> M B) : pres m -> (forall x, pres (k x)) -> pres (bindM m k).
  Proof. intros Hm Hk c y c2 H. apply bindM_ok in H as [x [c1 [H1 H2]]]. eapply P_trans; [eapply Hm | eapply Hk]; eauto. Qed.
  Lemma pres_fail {A} e : pres (@fail A e). Proof. intros c x c' H. discriminate. Qed.
  Lemma pres_panic {A} : pres (@panic A). Proof. intros c x c' H. discriminate. Qed.
  Lemma pres_oof {A} : pres (@oof A). Proof. intros c x c' H. discriminate. Qed.
  Lemma pres_get : pres get.
  Proof. intros c x c' H. unfold get in H. injection H as <- <-. apply P_refl. Qed.
  Lemma pres_idxM {A} (o : option A) : pres (idxM o).
  Proof. destruct o; cbn [idxM]; [apply pres_ret | apply pres_panic]. Qed.
  Lemma pres_liftR {A} (r : R A) : pres (liftR r).
  Proof. destruct r; cbn [liftR]; auto using pres_ret, pres_fail, pres_panic, pres_oof. Qed.
  Lemma pres_must ctx r : pres (must ctx r).
  Proof. destruct r; cbn [must]; auto using pres_ret, pres_fail, pres_panic, pres_oof. Qed.
  Lemma pres_mapM {A B} (f : A -> M B) l : (forall x, In x l -> pres (f x)) -> pres (mapM f l).
  Proof.
    induction l as [|a l IH]; intros H; cbn [mapM]; [apply pres_ret|].
    apply pres_bind; [apply H; now left|]. intros y. apply pres_bind; [apply IH; intros; apply H; now right|].
    intros ys. apply pres_ret.
  Qed.
  Lemma pres_forM {A} (f : A -> M unit) l : (forall x, In x l -> pres (f x)) -> pres (forM f l).
  Proof.
    induction l as [|a l IH]; intros H; cbn [forM]; [apply pres_ret|].
    apply pres_bind; [apply H; now left|]. intros _. apply IH. intros; apply H; now right.
  Qed.
  Lemma pres_optM {A B} (f : A -> M B) o : (forall x, o = Some x -> pres (f x)) -> pres (optM f o).
  Proof.
    destruct o as [a|]; intros H; cbn [optM]; [|apply pres_ret].
    apply pres_bind; [now apply H|]. intros y. apply pres_ret.
  Qed.
  (** binding the result of an arena lookup keeps the equation *)
  Lemma pres_bind_idxM {A B} (o : option A) (k : A -> M B) : (forall x, o = Some x -> pres (k x)) -> pres (bindM (idxM o) k).
  Proof.
    intros H c y c2 E. apply bindM_ok in E as [x [c1 [H1 H2]]]. destruct o as [a|]; cbn [idxM] in H1; [|discriminate].
    apply ret_ok in H1 as [-> ->]. eapply H; eauto.
  Qed.
  Lemma pres_bind_ret {A B} (a : A) (k : A -> M B) : pres (k a) -> pres (bindM (ret a) k).
  Proof. intros H c y c2 E. unfold bindM, ret in E. eapply H; eauto. Qed.
  (** a primitive that only rewrites the state *)
  Lemma pres_prim {A} (m : M A) : (forall c x c', m c = AOk (x, c') -> P c c') -> pres m.
  Proof. auto. Qed.
End Pres.

Definition same_imports (c c' : core) : Prop := c_imports c' = c_imports c.
Lemma same_imports_refl c : same_imports c c. Proof. reflexivity. Qed.
Lemma same_imports_trans a b c : same_imports a b -> same_imports b c -> same_imports a c.
Proof. unfold same_imports. congruence. Qed.

(** No resource alias of the collection has an owning interface. *)
Definition owner_free (t : types) : Prop :=
  forall r, In r (t_resources t) -> match res_alias r with Some (Some _, _) => False | _ => True end.

Lemma lookup_in {A} tag (l : list A) i x : lookup tag l i = Some x -> In x l.
Proof. unfold lookup. destruct (id_tag i =? tag); [|discriminate]. apply nth_error_In. Qed.

(** a primitive changes the state outside [c_imports] only: split every [match] of the unfolded body on the run
    equation [H]; each surviving branch gives [c'] as a record whose [c_imports] is syntactically that of [c] *)
Ltac prim_tac :=
  let c := fresh "c" in let x := fresh "x" in let c' := fresh "c'" in let H := fresh "H" in
  intros c x c' H; unfold same_imports;
  repeat match type of H with
         | context [match ?e with _ => _ end] => destruct e eqn:?; try discriminate H
         | context [let '(_, _) := ?e in _] => destruct e eqn:?
         end;
  try (injection H as <- <-); try reflexivity.

Notation SI := (pres same_imports).

Lemma si_remapped_get k : SI (remapped_get k). Proof. unfold remapped_get. prim_tac. Qed.
Lemma si_remapped_set k v : SI (remapped_set k v). Proof. unfold remapped_set. prim_tac. Qed.
Lemma si_remapped_new k v : SI (remapped_new k v). Proof. unfold remapped_new. prim_tac. Qed.
Lemma si_add_def d : SI (add_def d). Proof. unfold add_def. prim_tac. Qed.
Lemma si_add_res d : SI (add_res d). Proof. unfold add_res. prim_tac. Qed.
Lemma si_add_func d : SI (add_func d). Proof. unfold add_func. prim_tac. Qed.
Lemma si_add_if d : SI (add_if d). Proof. unfold add_if. prim_tac. Qed.
Lemma si_add_world d : SI (add_world d). Proof. unfold add_world. prim_tac. Qed.
Lemma si_add_mod d : SI (add_mod d). Proof. unfold add_mod. prim_tac. Qed.
Lemma si_agg_if i : SI (agg_if i). Proof. unfold agg_if, idxM, ret, panic. prim_tac. Qed.
Lemma si_agg_world i : SI (agg_world i). Proof. unfold agg_world, idxM, ret, panic. prim_tac. Qed.
Lemma si_agg_mod i : SI (agg_mod i). Proof. unfold agg_mod, idxM, ret, panic. prim_tac. Qed.
Lemma si_upd_if i f : SI (upd_if i f).
Proof.
  unfold upd_if. apply (pres_bind _ same_imports_trans); [apply si_agg_if|]. intros x c y c' H. injection H as <- <-. reflexivity.
Qed.
Lemma si_upd_world i f : SI (upd_world i f).
Proof.
  unfold upd_world. apply (pres_bind _ same_imports_trans); [apply si_agg_world|]. intros x c y c' H. injection H as <- <-. reflexivity.
Qed.
Lemma si_upd_mod i f : SI (upd_mod i f).
Proof.
  unfold upd_mod. apply (pres_bind _ same_imports_trans); [apply si_agg_mod|]. intros x c y c' H. injection H as <- <-. reflexivity.
Qed.
Lemma si_sub_fa cf t a b : SI (sub_fa cf t a b). Proof. unfold sub_fa. prim_tac. Qed.
Lemma si_sub_af cf t a b : SI (sub_af cf t a b). Proof. unfold sub_af. prim_tac. Qed.
Lemma si_chk_invert : SI chk_invert. Proof. unfold chk_invert. prim_tac. Qed.
Lemma si_chk_revert : SI chk_revert. Proof. unfold chk_revert. prim_tac. Qed.
Lemma si_cur_variance : SI cur_variance. Proof. unfold cur_variance. prim_tac. Qed.
Lemma si_lookup_iface ord n : SI (lookup_iface ord n). Proof. unfold lookup_iface. prim_tac. Qed.
Lemma si_iface_set n i : SI (iface_set n i). Proof. unfold iface_set. prim_tac. Qed.
Lemma si_iface_new n i : SI (iface_new n i). Proof. unfold iface_new. prim_tac. Qed.
#[export] Hint Resolve si_remapped_get si_remapped_set si_remapped_new si_add_def si_add_res si_add_func si_add_if si_add_world
  si_add_mod si_agg_if si_agg_world si_agg_mod si_upd_if si_upd_world si_upd_mod si_sub_fa si_sub_af si_chk_invert si_chk_revert
  si_cur_variance si_lookup_iface si_iface_set si_iface_new : si.

Ltac si_step :=
  match goal with
  | |- SI (bindM (ret _) _) => apply pres_bind_ret
  | |- SI (bindM (idxM _) _) => apply pres_bind_idxM; intros ? ?
  | |- SI (bindM _ _) => apply (pres_bind _ same_imports_trans); [ | intro]
  | |- SI (ret _) => apply (pres_ret _ same_imports_refl)
  | |- SI panic => apply pres_panic
  | |- SI oof => apply pres_oof
  | |- SI (fail _) => apply pres_fail
  | |- SI get => apply (pres_get _ same_imports_refl)
  | |- SI (idxM _) => apply (pres_idxM _ same_imports_refl)
  | |- SI (liftR _) => apply (pres_liftR _ same_imports_refl)
  | |- SI (must _ _) => apply (pres_must _ same_imports_refl)
  | |- SI (mapM _ _) => apply (pres_mapM _ same_imports_refl same_imports_trans); intros ? ?
  | |- SI (forM _ _) => apply (pres_forM _ same_imports_refl same_imports_trans); intros ? ?
  | |- SI (optM _ _) => apply (pres_optM _ same_imports_refl same_imports_trans); intros ? ?
  | |- SI (match ?e with _ => _ end) => destruct e eqn:?
  | |- SI (let '(_, _) := ?e in _) => destruct e eqn:?
  | |- SI (if ?e then _ else _) => destruct e eqn:?
  | |- SI _ => solve [auto with si]
  end.

Lemma si_remap_module_type t m : SI (remap_module_type t m).
Proof. unfold remap_module_type. repeat si_step. Qed.
#[export] Hint Resolve si_remap_module_type : si.

Section Frame.
  Variable ord : list (str * id) -> list (str * id).
  Variable cf : nat.
  Variable t : types.
  Hypothesis OF : owner_free t.

  Definition frame_stmt (fuel : nat) : Prop :=
    (forall k, SI (remap_item_kind ord cf fuel t k)) /\
    (forall x, SI (remap_type ord cf fuel t x)) /\
    (forall r, SI (remap_resource ord cf fuel t r)) /\
    (forall i, SI (remap_func_type ord cf fuel t i)) /\
    (forall v, SI (remap_value_type ord cf fuel t v)) /\
    (forall d, SI (remap_defined_type ord cf fuel t d)) /\
    (forall i, SI (remap_interface ord cf fuel t i)) /\
    (forall w, SI (remap_world ord cf fuel t w)) /\
    (forall e i, SI (merge_interface ord cf fuel e t i)) /\
    (forall e i, SI (merge_interface_used_types ord cf fuel e t i)).

  Lemma frame_all : forall fuel, frame_stmt fuel.
  Proof.
    induction fuel as [|f IH].
    - repeat split; intros; apply pres_oof.
    - destruct IH as [Hk [Hty [Hr [Hf [Hv [Hd [Hi [Hw [Hm Hu]]]]]]]]].
      repeat split; intros.
      + cbn [remap_item_kind]. repeat si_step.
      + cbn [remap_type]. repeat si_step.
      + (* remap_resource: the owner branch is unreachable *)
        cbn [remap_resource].
        repeat (match goal with
                | |- SI (bindM (optM _ (res_alias ?x)) _) =>
                  let E := fresh "E" in
                  destruct (res_alias x) as [[[o|] src]|] eqn:E; cbn [optM];
                  [ exfalso; match goal with H : get_res t _ = Some x |- _ =>
                                               apply lookup_in in H; apply OF in H; rewrite E in H; exact H end | | ]
                | _ => si_step
                end).
      + cbn [remap_func_type]. repeat si_step.
      + cbn [remap_value_type]. repeat si_step.
      + cbn [remap_defined_type]. repeat si_step.
      + cbn [remap_interface]. repeat si_step.
      + cbn [remap_world]. repeat si_step.
      + cbn [merge_interface]. repeat si_step.
      + cbn [merge_interface_used_types]. repeat si_step.
  Qed.

  Lemma si_remap_item_kind fuel k : SI (remap_item_kind ord cf fuel t k).
  Proof. apply frame_all. Qed.
  Lemma si_remap_interface fuel i : SI (remap_interface ord cf fuel t i).
  Proof. apply frame_all. Qed.
  Lemma si_merge_interface fuel e i : SI (merge_interface ord cf fuel e t i).
  Proof. apply frame_all. Qed.

  Lemma si_merge_item_kind fuel e k : SI (merge_item_kind ord cf fuel e t k).
  Proof.
    unfold merge_item_kind, merge_type, merge_world, merge_world_used_types, merge_func_type, merge_resource, merge_value_type,
      merge_module_type, cannot_merge.
    repeat (si_step || apply si_merge_interface || apply si_remap_item_kind || apply si_remap_interface).
  Qed.
End Frame.
