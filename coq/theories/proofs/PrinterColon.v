(** C13: the lexer's keyword-before-colon artefact. An identifier TOKEN spelled like a keyword exists
    only directly before a colon; in every derivation it therefore sits where the grammar has
    [id ':'], and there the printer writes the colon directly after the copy. Hence the side condition
    [kwcb] of [render_lex] holds for every parsed document. *)
From WacV Require Import LexerClassC LexerClassD.
From WacV Require Import Str Token Lexer LexTables LexImpl LexerSound Semver Ast Parser Grammar ParserComb ParserProofs ParserTop.
From WacV Require Import Printer PrintSpec PrinterText PrinterProofs PrinterWf PrinterLexFacts PrinterLex PrinterScan PrinterLeaves.
From Coq Require Import Lia.
Local Open Scope nat_scope.

Definition kwtok (t : rtoken) : Prop := tk t = TIdent /\ kw_text (ttext t) = true.

(** Token stream invariant: spans are accurate, and a keyword-spelled identifier token is directly
    followed by a colon token. *)
Fixpoint Inv (src : str) (ts : list lexitem) : Prop :=
  match ts with
  | [] => True
  | it :: r =>
      match it with
      | LTok t => slice src (tsp t) = Some (ttext t) /\ (kwtok t -> peek_kind r = Some TColon)
      | _ => True
      end /\ Inv src r
  end.

Lemma starts_with_firstn_S n : forall s : str, starts_with (firstn n s) (firstn (Datatypes.S n) s) = true.
Proof.
  induction n as [|n IH]; intros s; [destruct s; reflexivity|]. destruct s as [|c s]; [reflexivity|].
  cbn [firstn starts_with]. rewrite N.eqb_refl. apply (IH s).
Qed.

Lemma table_no_ident x : ~ In (x, TIdent) (symbols impl_cfg) /\ ~ In (x, TIdent) (keywords impl_cfg).
Proof.
  pose proof (table_kinds_not_src TIdent) as Hx.
  split; intros Hin; discriminate Hx; [left|right]; apply in_map_iff; exists (x, TIdent); auto.
Qed.

(** The three ways to an identifier token: before a dangling dash (then the text without the dash is no
    prefix of a keyword, so the text with it is no keyword), as a word not in the keyword table, or
    before a colon. *)
Lemma scan_id_kw_ident F s n1 n :
  scan_id impl_cfg F s n1 = ScanTok TIdent n -> kw_text (firstn n s) = true -> exists x, skipn n s = c_colon :: x.
Proof.
  intros H Hk. unfold scan_id in H. cbv zeta in H.
  change (allow_upper impl_cfg) with true in H. change (q_pkgzone impl_cfg) with true in H.
  change (q_dash impl_cfg) with true in H. change (q_kwcolon impl_cfg) with true in H.
  unfold kw_text in Hk. destruct (lookup_str (firstn n s) (keywords impl_cfg)) as [k|] eqn:E; [|discriminate Hk].
  destruct (head_is c_minus (skipn n1 s)).
  - cbn [andb] in H. destruct (is_kw_prefix (firstn n1 s) (keywords impl_cfg)) eqn:Ek; [discriminate H|]. exfalso.
    injection H as <-. rewrite is_kw_prefix_spec in Ek. apply lookup_str_some in E.
    assert (Ht : existsb (fun kv => starts_with (firstn n1 s) (fst kv)) (keywords impl_cfg) = true); [|congruence].
    apply existsb_exists. exists (firstn (Datatypes.S n1) s, k). split; [exact E|apply starts_with_firstn_S].
  - destruct (seg_loop F true c_colon (skipn n1 s)).
    + destruct (head_is c_colon (skipn n1 s)) eqn:Ec; cbn [andb] in H; [injection H as <-; now apply head_is_inv|].
      exfalso. assert (Hn : n1 = n) by congruence. subst n. rewrite E in H. assert (Hkd : k = TIdent) by congruence. subst k. apply lookup_str_some in E. now destruct (proj2 (table_no_ident (firstn n1 s))).
    + destruct (true && _)%bool; [discriminate H|]. destruct (seg_loop F true c_slash _); discriminate H.
Qed.

Lemma kw_ident_path F s n :
  scan_token impl_cfg F s = ScanTok TIdent n -> kw_text (firstn n s) = true ->
  exists x, skipn n s = c_colon :: x.
Proof.
  intros H. rewrite scan_token_unfold in H. destruct s as [|c r]; [discriminate H|].
  destruct (c =? c_quote)%N; [destruct (find_char c_quote r); discriminate H|].
  destruct (id_len (allow_upper impl_cfg) (c :: r)); [|exact (scan_id_kw_ident _ _ _ _ H)].
  destruct (best_symbol (symbols impl_cfg) (c :: r)) as [[k n']|] eqn:Eb; [|discriminate H]. inversion H; subst k n'.
  destruct (best_symbol_spec _ _ _ _ Eb) as [(x & Hin & _) _]. now destruct (proj1 (table_no_ident x)).
Qed.

Lemma lex_loop_colon f o x :
  0 < f -> peek_kind (lex_loop f impl_cfg o (c_colon :: x)) = Some TColon.
Proof.
  intros Hf. destruct f as [|f]; [lia|]. cbn [lex_loop skip_gap].
  change (is_ws c_colon) with false. cbv iota. change ((c_colon =? c_slash)%N) with false. cbv iota.
  assert (H : scan_token impl_cfg (Datatypes.S f) (fixed_text TColon ++ x) = ScanTok TColon (length (fixed_text TColon)))
    by (apply rescan_sym; [reflexivity|discriminate]).
  change (fixed_text TColon ++ x) with (c_colon :: x) in H. rewrite H. reflexivity.
Qed.

(** [Inv] without the spans. *)
Fixpoint Kwnext (ts : list lexitem) : Prop :=
  match ts with
  | [] => True
  | it :: r => match it with LTok t => kwtok t -> peek_kind r = Some TColon | _ => True end /\ Kwnext r
  end.

Lemma lex_loop_kwnext fuel : forall o s, length s < fuel -> Kwnext (lex_loop fuel impl_cfg o s).
Proof.
  induction fuel as [|f IH]; intros o s Hl; [lia|]. cbn [lex_loop].
  destruct (skip_gap (Datatypes.S f) o s true []) as [o1 s1 docs| | |] eqn:Eg; try (cbn; auto).
  assert (Hs1 : length s1 <= length s).
  { destruct (skip_gap_ok _ _ _ _ _ _ _ _ Eg) as (g & -> & _). rewrite app_length. lia. }
  destruct s1 as [|c1 r1]; [exact I|].
  destruct (scan_token impl_cfg (Datatypes.S f) (c1 :: r1)) as [k n|e n|] eqn:Es; try (cbn; auto).
  destruct (scan_token_bound _ _ _ _ _ Es) as [Hn _].
  cbn [Kwnext]. split.
  - intros [Hk Hkw]. cbn [tk ttext] in *. subst k. destruct (kw_ident_path _ _ _ Es Hkw) as (x & Hx). rewrite Hx.
    apply lex_loop_colon. assert (length (skipn n (c1 :: r1)) < f) by (rewrite skipn_length; cbn [length] in *; lia).
    rewrite Hx in H. cbn [length] in H. lia.
  - apply IH. rewrite skipn_length. cbn [length] in *. lia.
Qed.

Lemma lex_inv src : Inv src (lex impl_cfg src).
Proof.
  assert (H1 : Kwnext (lex impl_cfg src)).
  { unfold lex. destruct (screen impl_cfg src) as [[e sp]|]; [cbn; auto|]. apply lex_loop_kwnext. lia. }
  pose proof (lex_acc impl_cfg src) as H2. unfold Acc in H2.
  induction H2 as [|it l Hit _ IH]; [exact I|]. cbn [Kwnext Inv] in *. destruct H1 as [Ha Hb]. split; [|auto].
  destruct it; auto.
Qed.

Combined Scheme g_type_comb from g_type_mut, g_types_mut.

Lemma token_is_ident k : k = TIdent \/ k <> TIdent.
Proof. destruct k; (now left) || (right; discriminate). Qed.

(** Only identifier pieces matter to [kwcb]; the printer's literals are none. *)
Lemma kwcb_other k t r : k <> TIdent -> kwcb (PcTok k t :: r) = kwcb r.
Proof. destruct k; congruence || reflexivity. Qed.

Lemma kwcb_fixed k r : kwcb (PcTok k (fixed_text k) :: r) = kwcb r.
Proof. destruct (token_is_ident k) as [->|Hk]; [reflexivity|now apply kwcb_other]. Qed.

Section Colon.
Variable src : str.
Let d := impl_flags.
Let fx := repaired.

(** The copy at [sp] is not spelled like a keyword. *)
Definition plain (sp : span) : Prop := forall t, slice src sp = Some t -> kw_text t = false.

(** Every identifier copy is plain or directly followed by the colon; [nk]: the kind of the token that
    followed the node in the source, for an identifier copy at the very end. *)
Fixpoint kq (cs : list cmd) (nk : option token) : Prop :=
  match cs with
  | [] => True
  | CSrc TIdent sp :: r =>
      (plain sp \/ match r with [] => nk = Some TColon | CTok k :: _ => k = TColon | _ => False end) /\ kq r nk
  | _ :: r => kq r nk
  end.

Lemma kq_other k sp r nk : k <> TIdent -> kq (CSrc k sp :: r) nk = kq r nk.
Proof. destruct k; congruence || reflexivity. Qed.

(** When [b] is written after [a]: the token [nka] that followed [a] in the source is no colon, or [b]
    begins with the colon, or [b] is empty and what follows is unchanged. *)
Definition link (nka : option token) (b : list cmd) (nk : option token) : Prop :=
  nka <> Some TColon \/ (exists b', b = CTok TColon :: b') \/ (b = [] /\ nka = nk).

Lemma kq_app a : forall b nka nk, kq a nka -> kq b nk -> link nka b nk -> kq (a ++ b) nk.
Proof.
  induction a as [|c a IH]; intros b nka nk Ha Hb Hl; [exact Hb|].
  assert (Hrest : kq a nka -> kq (a ++ b) nk) by (intros H; eapply IH; eauto).
  destruct c; try (cbn [app kq] in *; now auto). cbn [app].
  destruct (token_is_ident k) as [->|Hk]; [|rewrite kq_other in * by exact Hk; auto].
  cbn [kq] in *. destruct Ha as [Ha1 Ha2]. split; [|auto].
  destruct Ha1 as [Hp|Hn]; [now left|]. destruct a as [|c2 a2]; [|cbn [app]; now right].
  cbn [app]. subst nka. destruct Hl as [Hl|[(b' & ->)|(-> & <-)]]; [congruence|now right|now right].
Qed.

Lemma kq_closed_app a b nk : (forall n, kq a n) -> kq b nk -> kq (a ++ b) nk.
Proof. intros Ha Hb. apply (kq_app a b None nk); auto. left. discriminate. Qed.

(** If anything but a colon may follow, anything may: for an identifier copy at the very end, the
    alternative "the colon follows" is then void. *)
Lemma kq_any a nka : nka <> Some TColon -> kq a nka -> forall nk, kq a nk.
Proof. intros Hn Ha nk. rewrite <- (app_nil_r a). exact (kq_app a [] nka nk Ha I (or_introl Hn)). Qed.

Lemma kq_assoc a b c nk : kq (a ++ b ++ c) nk -> kq ((a ++ b) ++ c) nk.
Proof. now rewrite <- app_assoc. Qed.

(** The printer's lists, of items after which anything may follow. *)
Lemma kq_comma_sep {A} (pr : A -> list cmd) l :
  Forall (fun a => forall nk, kq (pr a) nk) l -> forall b nk, kq (comma_sep pr b l) nk.
Proof.
  induction 1 as [|a l Ha _ IH]; intros b nk; [exact I|]. cbn [comma_sep].
  destruct b; cbn [app kq]; (apply kq_closed_app; [exact Ha|apply IH]).
Qed.

Lemma kq_comma_lines {A} (pr : A -> list cmd) l :
  Forall (fun a => forall nk, kq (pr a) nk) l -> forall nk, kq (comma_lines pr l) nk.
Proof.
  unfold comma_lines. induction 1 as [|a l Ha _ IH]; intros nk; [exact I|]. cbn [flat_map].
  rewrite <- app_assoc. apply kq_closed_app; [exact Ha|cbn [app kq]; apply IH].
Qed.

Lemma kq_args l : Forall (fun a => forall nk, kq (p_arg0 a) nk) l -> forall nk, kq (p_args l) nk.
Proof.
  induction 1 as [|a l Ha _ IH]; intros nk; [exact I|]. rewrite p_args_cons. unfold p_arg_line. cbn [kq].
  rewrite <- app_assoc. apply kq_closed_app; [exact Ha|].
  destruct (is_fill a && nil_args l)%bool; cbn [app kq]; apply IH.
Qed.

Definition stepk {A} (G : drel A) (pr : A -> list cmd) : Prop :=
  forall ts r x, G ts r x -> Inv src ts -> kq (pr x) (peek_kind r) /\ Inv src r.
Definition stepc {A} (G : drel A) (pr : A -> list cmd) : Prop :=
  forall ts r x, G ts r x -> Inv src ts -> (forall nk, kq (pr x) nk) /\ Inv src r.

Lemma tok_inv k ts r t : tok k ts r t -> Inv src ts ->
  slice src (tsp t) = Some (ttext t) /\ (kwtok t -> peek_kind r = Some TColon) /\ tk t = k /\ Inv src r.
Proof. intros [-> Hk] H. cbn [Inv] in H. tauto. Qed.

Lemma tok_step k ts r t : tok k ts r t -> Inv src ts -> Inv src r.
Proof. intros Ht Hi. now destruct (tok_inv _ _ _ _ Ht Hi) as (_ & _ & _ & Hr). Qed.

(** An identifier is plain unless the colon follows it in the source. *)
Lemma k_id ts r i : g_id ts r i -> Inv src ts -> (plain (id_span i) \/ peek_kind r = Some TColon) /\ Inv src r.
Proof.
  intros (t & Ht & ->) Hi. destruct (tok_inv _ _ _ _ Ht Hi) as (Hs & Hk & Hkd & Hr). split; [|exact Hr].
  cbn [mk_ident id_span]. destruct (kw_text (ttext t)) eqn:E.
  - right. apply Hk. split; auto.
  - left. intros t' Ht'. rewrite Hs in Ht'. inversion Ht'; subst. exact E.
Qed.

Lemma kq_docs ds nk : kq (p_docs fx ds) nk.
Proof. rewrite p_docs_flat. induction (printed_lines ds) as [|l L IH]; [exact I|exact IH]. Qed.

(** Assembling [kq] of a concrete command list, for one follower or for every follower, around sub-node facts. *)
Ltac kasm :=
  unfold src_id, src_str, src_path;
  repeat first
    [ exact I
    | progress cbn [app]
    | match goal with
      | |- kq ((_ ++ _) ++ _) _ => apply kq_assoc
      | |- _ /\ _ => split
      | |- forall _ : option token, _ => intro
      | |- plain _ \/ _ => first [assumption | left; assumption | right; reflexivity | right; assumption]
      | |- kq (_ :: _) _ => progress cbn [kq]
      | |- kq (p_docs _ _ ++ _) _ => apply kq_closed_app; [intros; apply kq_docs|]
      | H : forall n, kq ?a n |- kq (?a ++ _) _ => apply kq_closed_app; [exact H|]
      | H : forall b n, kq (spaced _ b ?l) n |- kq (spaced _ _ ?l ++ _) _ => apply kq_closed_app; [apply H|]
      | H : forall b n, kq (spaced _ b ?l) n |- kq (spaced _ _ ?l) _ => apply H
      | H : Forall _ ?l |- kq (comma_sep _ _ ?l ++ _) _ => apply kq_closed_app; [intro; apply kq_comma_sep, H|]
      | H : Forall _ ?l |- kq (comma_lines _ ?l ++ _) _ => apply kq_closed_app; [intro; apply kq_comma_lines, H|]
      | H : Forall _ ?l |- kq (p_args ?l ++ _) _ => apply kq_closed_app; [intro; apply kq_args, H|]
      | |- kq (_ ++ _) _ => eapply kq_app; [eassumption| |first [left; discriminate | right; left; eexists; reflexivity | right; right; split; reflexivity]]
      end
    | assumption ].

Ltac kext := fail.
(* applies the step lemma [L] to the derivation whose input tokens carry [Inv]; a third premise of [L]
   ("no colon follows") is discharged from the kinds recorded by [tok_peek] *)
Ltac kuse2 L :=
  match goal with
  | Hg : _ ?ts _ _, Hi : Inv src ?ts |- _ =>
      let H1 := fresh "Hq" in let H2 := fresh "Hi" in
      first [destruct (L _ _ _ Hg Hi ltac:(congruence)) as [H1 H2] | destruct (L _ _ _ Hg Hi) as [H1 H2]]; clear Hg Hi
  end.
(** [kchain] consumes the derivation of a production from left to right: a token advances the invariant
    ([tok_step]), an identifier yields its alternative ([k_id]), a sub-node its induction hypothesis or
    its lemma ([kext], extended as the lemmas become available; [kuse2 L] for a lemma [L] named at the
    call, its side condition "no colon follows" from the recorded kinds). *)
Ltac kchain :=
  (* first record the kind each token shows to the node before it *)
  repeat match goal with
         | Ht : tok ?k ?ts _ _ |- _ =>
             lazymatch goal with
             | _ : peek_kind ts = Some k |- _ => fail
             | _ => pose proof (tok_peek _ _ _ _ Ht)
             end
         end;
  repeat match goal with
         | Hi : Inv src (LTok _ :: _) |- _ => cbn [Inv] in Hi; destruct Hi as [_ Hi]
         | Ht : tok _ ?ts _ _, Hi : Inv src ?ts |- _ => apply (tok_step _ _ _ _ Ht) in Hi; clear Ht
         | Hg : g_id ?ts _ _, Hi : Inv src ?ts |- _ =>
             let H1 := fresh "Hid" in let H2 := fresh "Hi" in
             destruct (k_id _ _ _ Hg Hi) as [H1 H2]; clear Hg Hi
         | IH : Inv src ?ts -> _ /\ _, Hi : Inv src ?ts |- _ =>
             let H1 := fresh "Hq" in let H2 := fresh "Hi" in destruct (IH Hi) as [H1 H2]; clear IH Hi
         | IH : Inv src ?ts -> peek_kind _ <> Some TColon -> _ /\ _, Hi : Inv src ?ts |- _ =>
             let H1 := fresh "Hq" in let H2 := fresh "Hi" in
             destruct (IH Hi ltac:(congruence)) as [H1 H2]; clear IH Hi
         | _ => kext
         end;
  (* an identifier copy followed in the source by a token that is not a colon is plain *)
  repeat match goal with
         | Hp : peek_kind ?r = Some _, H : _ \/ peek_kind ?r = Some TColon |- _ => rewrite Hp in H
         | Hp : peek_kind ?r = Some _, H : kq _ (peek_kind ?r) |- _ => rewrite Hp in H
         end;
  repeat match goal with
         | H : plain _ \/ Some ?k = Some TColon |- _ =>
             destruct H as [H|H]; [|first [discriminate H | fail 2]]
         end.
Ltac kdone := (split; [|assumption]); kasm.

Lemma k_type_all :
  (forall ts r t, g_type d ts r t -> Inv src ts -> kq (p_ty t) (peek_kind r) /\ Inv src r) /\
  (forall ts r x, g_types d ts r x -> Inv src ts -> peek_kind r <> Some TColon ->
                  Forall (fun a => forall nk, kq (p_ty a) nk) (fst x) /\ Inv src r).
Proof.
  apply g_type_comb; intros; subst; cbn [fst] in *.
  all: try match goal with |- kq (p_ty _) _ /\ _ => try discriminate; kchain; try rewrite p_ty_tuple; cbn [p_ty]; kdone end.
  - split; [constructor|assumption].
  - kchain. split; [|assumption]. constructor; [eapply kq_any; eassumption|constructor].
  - kchain. split; [|assumption]. constructor; [eapply kq_any; [|eassumption]; discriminate|constructor].
  - kchain. split; [|assumption]. constructor; [eapply kq_any; [|eassumption]; discriminate|assumption].
Qed.

Lemma k_type_both :
  (forall ts r t, g_type d ts r t -> Inv src ts -> kq (p_ty t) (peek_kind r) /\ Inv src r) /\
  (forall ts r x, g_types d ts r x -> Inv src ts -> peek_kind r <> Some TColon ->
                  forall b, kq (comma_sep p_ty b (fst x)) (peek_kind r) /\ Inv src r).
Proof.
  split; [exact (proj1 k_type_all)|]. intros ts r x H Hi Hn b.
  destruct (proj2 k_type_all ts r x H Hi Hn) as [Hq Hi']. split; [apply kq_comma_sep, Hq|exact Hi'].
Qed.
Definition k_type : stepk (g_type d) p_ty := proj1 k_type_both.

Ltac kext ::= kuse2 k_type.

(** The items of a list that no colon follows: a comma or the follower of the list comes after each. *)
Lemma k_seplist {A} (G : drel A) (pr : A -> list cmd) : stepk G pr ->
  forall ts r x, seplist G ts r x -> Inv src ts -> peek_kind r <> Some TColon ->
  Forall (fun a => forall nk, kq (pr a) nk) (fst x) /\ Inv src r.
Proof.
  intros HG ts r x H. induction H as [ts|ts r a Ha|ts r1 r a c Ha Hc|ts r1 r2 r a c l tr Ha Hc Hl IH Hne]; intros Hi Hn; cbn [fst] in *.
  - split; [constructor|exact Hi].
  - kuse2 HG. split; [|assumption]. constructor; [eapply kq_any; eassumption|constructor].
  - kuse2 HG. kchain. split; [|assumption]. constructor; [eapply kq_any; [|eassumption]; discriminate|constructor].
  - kuse2 HG. kchain. split; [|assumption]. constructor; [eapply kq_any; [|eassumption]; discriminate|assumption].
Qed.

Lemma k_many {A} (G : drel A) (pr : A -> list cmd) : stepc G pr ->
  forall ts r l, many G ts r l -> Inv src ts -> (forall b nk, kq (spaced pr b l) nk) /\ Inv src r.
Proof.
  intros HG ts r l H. induction H as [ts|ts r1 r a l Ha Hl IH]; intros Hi.
  - split; [intros; exact I|exact Hi].
  - destruct (HG _ _ _ Ha Hi) as [Hq Hi1]. destruct (IH Hi1) as [Hq2 Hi2]. split; [|exact Hi2].
    intros b nk. cbn [spaced]. destruct b; cbn [app kq]; (apply kq_closed_app; [exact Hq|cbn [app kq]; apply Hq2]).
Qed.

Lemma k_named_type : stepk (g_named_type d) p_named_type.
Proof.
  intros ts r x H Hi. unfold g_named_type in H. unpack. subst. unfold p_named_type. cbn [nt_id nt_ty]. kchain. kdone.
Qed.

Lemma k_params ts r ps : g_params d ts r ps -> Inv src ts -> peek_kind r <> Some TColon ->
  (forall nk, kq (p_named_types ps) nk) /\ Inv src r.
Proof.
  intros [tr H] Hi Hn. destruct (k_seplist _ _ k_named_type _ _ _ H Hi Hn) as [Hq Hi']. split; [intro; apply kq_comma_sep, Hq|exact Hi'].
Qed.

Ltac kext ::= first [kuse2 k_type | kuse2 k_named_type | kuse2 k_params].

Lemma k_func_type : stepk (g_func_type d) p_func_type.
Proof.
  intros ts r x H Hi. unfold g_func_type in H. unpack. subst. unfold p_func_type. cbn [ft_params ft_results].
  match goal with Ho : opt _ _ _ _ _ |- _ => destruct Ho as [r4|r4 r5 r' ar res Har Hres] end.
  - kchain. kdone.
  - destruct Hres; try (match goal with H : named_results _ = true |- _ => discriminate H end); kchain; kdone.
Qed.

Ltac kext ::= first [kuse2 k_type | kuse2 k_named_type | kuse2 k_params | kuse2 k_func_type].

Lemma k_variant_case : stepk (g_variant_case d) (fun c => CIndent :: p_variant_case fx c).
Proof.
  intros ts r x H Hi. unfold g_variant_case in H. unpack. subst. unfold p_variant_case. cbn [vc_docs vc_id vc_ty].
  match goal with Ho : opt _ _ _ _ _ |- _ => destruct Ho end; unpack; kchain; kdone.
Qed.

Lemma k_field : stepk (g_field d) (p_field fx).
Proof.
  intros ts r x H Hi. unfold g_field in H. unpack. subst. unfold p_field. cbn [fd_docs fd_id fd_ty].
  match goal with Hn : g_named_type _ _ _ _ |- _ => unfold g_named_type in Hn end. unpack. subst. cbn [nt_id nt_ty]. kchain. kdone.
Qed.

Lemma k_flag : stepk g_flag (p_flag fx).
Proof. intros ts r x H Hi. unfold g_flag in H. unpack. subst. unfold p_flag. cbn [fl_docs fl_id]. kchain. kdone. Qed.

Lemma k_enum_case : stepk g_enum_case (p_enum_case fx).
Proof. intros ts r x H Hi. unfold g_enum_case in H. unpack. subst. unfold p_enum_case. cbn [ec_docs ec_id]. kchain. kdone. Qed.

Lemma k_braced {A} kw (item : drel A) (pr : A -> list cmd) mk :
  stepk item pr ->
  (forall dcs i items, p_item_type_decl fx (mk dcs i items) = p_block fx dcs kw i (comma_lines pr items)) ->
  stepc (g_braced kw item mk) (p_item_type_decl fx).
Proof.
  intros Hs Hmk ts r x H Hi. unfold g_braced in H. unpack. subst. kchain. kuse2 (k_seplist _ _ Hs). kchain.
  rewrite Hmk. unfold p_block. cbn [fst] in *. kdone.
Qed.

Lemma k_type_decl : stepc (g_type_decl d) (p_item_type_decl fx).
Proof.
  intros ts r x H Hi. destruct H.
  - exact (k_braced _ _ _ DVariant k_variant_case (fun _ _ _ => eq_refl) _ _ _ H Hi).
  - exact (k_braced _ _ _ DRecord k_field (fun _ _ _ => eq_refl) _ _ _ H Hi).
  - exact (k_braced _ _ _ DFlags k_flag (fun _ _ _ => eq_refl) _ _ _ H Hi).
  - exact (k_braced _ _ _ DEnum k_enum_case (fun _ _ _ => eq_refl) _ _ _ H Hi).
  - kchain. cbn [p_item_type_decl]. kdone.
  - kchain. cbn [p_item_type_decl]. kdone.
Qed.

Lemma k_resource_item : stepc (g_resource_item d) (p_resource_method fx).
Proof.
  intros ts r x H Hi. destruct H; cbn [p_resource_method].
  - kchain. kdone.
  - match goal with Ho : opt _ _ _ _ _ |- _ => destruct Ho end; subst; kchain; kdone.
Qed.

Lemma k_item_type_decl : stepc (g_item_type_decl d) (p_item_type_decl fx).
Proof.
  intros ts r x H Hi. destruct H.
  - kchain. cbn [p_item_type_decl]. unfold p_block. cbn [spaced]. kdone.
  - kchain.
    kuse2 (k_many _ _ k_resource_item).
    kchain. cbn [p_item_type_decl]. unfold p_block. kdone.
  - exact (k_type_decl _ _ _ H Hi).
Qed.

Ltac kext ::= first [kuse2 k_type | kuse2 k_named_type | kuse2 k_params | kuse2 k_func_type | kuse2 k_item_type_decl].

Lemma k_use_item : stepk g_use_item p_use_item.
Proof.
  intros ts r x H Hi. unfold g_use_item in H. unpack. subst. unfold p_use_item. cbn [ui_id ui_as].
  match goal with Ho : opt _ _ _ _ _ |- _ => destruct Ho end; kchain; kdone.
Qed.

Lemma k_use : stepc (g_use d) (p_use fx).
Proof.
  intros ts r x H Hi. unfold g_use in H. unpack. subst. unfold p_use. cbn [u_docs u_path u_items].
  match goal with Hp : g_use_path _ _ _ |- _ => destruct Hp as [? ? ? (tp & Htp & _)|] end; cbn [p_use_path]; kchain;
  kuse2 (k_seplist _ _ k_use_item);
  kchain; cbn [fst] in *; kdone.
Qed.

Lemma k_func_type_ref : stepk (g_func_type_ref d) p_func_type_ref.
Proof. intros ts r x H Hi. destruct H; cbn [p_func_type_ref]; kchain; kdone. Qed.

Lemma k_interface_item : stepc (g_interface_item d) (p_interface_item fx).
Proof.
  intros ts r x H Hi. destruct H; cbn [p_interface_item].
  - exact (k_use _ _ _ H Hi).
  - exact (k_item_type_decl _ _ _ H Hi).
  - kchain. kuse2 k_func_type_ref. kchain. kdone.
Qed.

Lemma k_inline_interface : stepc (g_inline_interface d) (p_inline_interface fx).
Proof.
  intros ts r x H Hi. unfold g_inline_interface, g_interface_body in H. unpack. kchain. kuse2 (k_many _ _ k_interface_item).
  kchain. unfold p_inline_interface, p_items. kdone.
Qed.

Lemma k_extern_type : stepk (g_extern_type d) (p_extern_type fx).
Proof.
  intros ts r x H Hi. destruct H; cbn [p_extern_type]; [kchain; kdone| |kchain; kdone].
  destruct (k_inline_interface _ _ _ H Hi) as [Hq Hi2]. split; [apply Hq|exact Hi2].
Qed.

Lemma k_world_item_path : stepk (g_world_item_path d) (p_world_item_path fx).
Proof.
  intros ts r x H Hi. destruct H as [? ? ? ? ? ? ? ? ?|? ? ? (tp & Htp & _)|]; cbn [p_world_item_path]; kchain; try kuse2 k_extern_type; kdone.
Qed.

Lemma k_include_item : stepk g_include_item p_include_item.
Proof. intros ts r x H Hi. unfold g_include_item in H. unpack. subst. unfold p_include_item. cbn [ii_from ii_to]. kchain. kdone. Qed.

Lemma k_world_item : stepc (g_world_item d) (p_world_item fx).
Proof.
  intros ts r x H Hi. destruct H; cbn [p_world_item].
  - exact (k_use _ _ _ H Hi).
  - exact (k_item_type_decl _ _ _ H Hi).
  - kchain. kuse2 k_world_item_path. kchain. kdone.
  - kchain. kuse2 k_world_item_path. kchain. kdone.
  - match goal with Hw : g_world_ref _ _ _ |- _ => destruct Hw as [? ? ? (tp & Htp & _)|] end; cbn [p_world_ref];
    (match goal with Ho : opt _ _ _ _ _ |- _ => destruct Ho end); unpack; kchain;
    try (kuse2 (k_seplist _ _ k_include_item); kchain);
    cbn [fst] in *;
    try (match goal with |- context [match ?l with [] => _ | _ :: _ => _ end] => destruct l end); kdone.
Qed.

Lemma k_type_statement : stepc (g_type_statement d) (p_type_statement fx).
Proof.
  intros ts r x H Hi. destruct H; cbn [p_type_statement].
  - match goal with Hb : g_interface_body _ _ _ _ |- _ => unfold g_interface_body in Hb end. unpack. kchain.
    kuse2 (k_many _ _ k_interface_item).
    kchain. unfold p_items. kdone.
  - kchain.
    kuse2 (k_many _ _ k_world_item).
    kchain. unfold p_items. kdone.
  - exact (k_type_decl _ _ _ H Hi).
Qed.

Lemma k_postfix : stepk g_postfix p_postfix.
Proof. intros ts r x H Hi. destruct H as [| ? ? ? ? ? ? ? ? (st & Hst & _) ?]; cbn [p_postfix]; kchain; kdone. Qed.

(** A postfix starts with [.] or [[]: the colon can follow a primary expression only where it follows
    the whole expression. *)
Lemma postfixes_link ts r post : many g_postfix ts r post -> link (peek_kind ts) (flat_map p_postfix post) (peek_kind r).
Proof.
  intros [ts0|ts0 r1 r0 a l Ha _]; [right; right; split; reflexivity|left].
  destruct Ha as [? ? ? ? ? Ht|? ? ? ? ? ? ? Ht]; rewrite (tok_peek _ _ _ _ Ht); discriminate.
Qed.

Lemma k_postfixes ts r post : many g_postfix ts r post -> Inv src ts -> kq (flat_map p_postfix post) (peek_kind r) /\ Inv src r.
Proof.
  intros H. induction H as [ts|ts r1 r a l Ha Hl IH]; intros Hi; [split; [exact I|exact Hi]|].
  destruct (k_postfix _ _ _ Ha Hi) as [Hq Hi1]. destruct (IH Hi1) as [Hq2 Hi2]. split; [|exact Hi2].
  cbn [flat_map]. exact (kq_app _ _ _ _ Hq Hq2 (postfixes_link _ _ _ Hl)).
Qed.

Lemma k_arg_name : stepk g_arg_name p_arg_name.
Proof. intros ts r x H Hi. destruct H as [|? ? ? (st & Hst & _)]; cbn [p_arg_name]; kchain; kdone. Qed.

Lemma k_expr_all :
  forall ts r x, g_expr d ts r x -> Inv src ts -> kq (p_expr fx x) (peek_kind r) /\ Inv src r.
Proof.
  apply (g_expr_mut d (fun ts r x => Inv src ts -> kq (p_expr fx x) (peek_kind r) /\ Inv src r)
                      (fun ts r p => Inv src ts -> kq (p_primary fx p) (peek_kind r) /\ Inv src r)
                      (fun ts r x => Inv src ts -> peek_kind r <> Some TColon ->
                                     Forall (fun a => forall nk, kq (p_arg0 a) nk) (fst x) /\ Inv src r)
                      (fun ts r a => Inv src ts -> kq (p_arg0 a) (peek_kind r) /\ Inv src r));
    intros; subst; cbn [fst] in *.
  - (* expr *) kchain.
    match goal with Hm : many g_postfix ?a _ _, Hi' : Inv src ?a |- _ => destruct (k_postfixes _ _ _ Hm Hi') as [Hq2 Hi2] end.
    split; [|assumption]. unfold mk_expr. cbn [p_expr]. eapply kq_app; [eassumption|exact Hq2|apply postfixes_link; assumption].
  - (* new *) match goal with Hp : g_package_name _ _ _ |- _ => destruct Hp as (tp & Htp & _) end. kchain.
    split; [|assumption]. rewrite p_new_eq. unfold p_new_args.
    repeat match goal with |- context [match ?l with [] => _ | _ :: _ => _ end] => destruct l end;
    repeat match goal with |- context [match ?a with AFill _ => _ | _ => _ end] => destruct a end; kasm.
  - (* nested *) kchain. cbn [p_primary]. kdone.
  - (* ident *) kchain. split; [|assumption]. cbn [p_primary src_id kq]. auto.
  - (* no arguments *) split; [constructor|assumption].
  - (* one argument *) kchain. split; [|assumption]. constructor; [eapply kq_any; eassumption|constructor].
  - (* one argument and a comma *) kchain. split; [|assumption]. constructor; [eapply kq_any; [|eassumption]; discriminate|constructor].
  - (* several *) kchain. split; [|assumption]. constructor; [eapply kq_any; [|eassumption]; discriminate|assumption].
  - (* inferred *) kchain. split; [|assumption]. cbn [p_arg0 src_id kq]. auto.
  - (* spread *) kchain. split; [|assumption]. cbn [p_arg0 src_id kq]. auto.
  - (* named *) kuse2 k_arg_name. kchain. split; [|assumption]. cbn [p_arg0]. kasm.
  - (* fill *) kchain. split; [|assumption]. exact I.
Qed.

Ltac kext ::= first [kuse2 k_type | kuse2 k_named_type | kuse2 k_params | kuse2 k_func_type | kuse2 k_item_type_decl | kuse2 k_expr_all].

Lemma k_extern_name : stepk g_extern_name p_extern_name.
Proof. intros ts r x H Hi. destruct H as [|? ? ? (st & Hst & _)]; cbn [p_extern_name]; kchain; kdone. Qed.

Lemma k_import_type : stepk (g_import_type d) (p_import_type fx).
Proof.
  intros ts r x H Hi. destruct H as [? ? ? (tp & Htp & _)| | |]; cbn [p_import_type]; [kchain; kdone|kchain; kdone| |kchain; kdone].
  destruct (k_inline_interface _ _ _ H Hi) as [Hq Hi2]. split; [apply Hq|exact Hi2].
Qed.

Lemma k_statement : stepc (g_statement d) (p_statement fx).
Proof.
  intros ts r x H Hi. destruct H; cbn [p_statement].
  - match goal with Ho : opt _ _ _ _ _ |- _ => destruct Ho end; kchain; try kuse2 k_extern_name; kchain;
      kuse2 k_import_type; kchain; kdone.
  - exact (k_type_statement _ _ _ H Hi).
  - kchain. kdone.
  - kchain.
    match goal with Ho : g_export_options _ _ _ |- _ => destruct Ho end; kchain; try kuse2 k_extern_name; kchain;
      kdone.
Qed.

Theorem k_document ts x : g_document d ts [] x -> Inv src ts -> forall nk, kq (p_document fx x) nk.
Proof.
  intros H Hi nk. unfold g_document in H. unpack. subst. unfold g_package_decl in *. unpack. subst.
  unfold p_document, p_directive. cbn [doc_docs doc_directive pd_package pd_targets doc_statements fx_targets_keyword fx repaired].
  match goal with Hp : g_package_name _ _ _ |- _ => destruct Hp as (tp & Htp & _) end.
  match goal with Ho : opt _ _ _ _ _ |- _ => destruct Ho as [|? ? ? ? ? ? (tq & Htq & _)] end; kchain;
  kuse2 (k_many _ _ k_statement); kasm.
Qed.

Lemma layout_kq_kwcb cs : kq cs None -> forall ind b ps, layout src ind b cs = Some ps -> kwcb ps = true.
Proof.
  induction cs as [|c cs IH]; intros Hk ind b ps H; cbn [layout] in H; [inversion H; reflexivity|].
  destruct c.
  - cbn [kq] in Hk. destruct (layout src ind b cs) eqn:E; inversion H; subst. rewrite kwcb_fixed. eauto.
  - destruct (slice src sp) as [t|] eqn:Es; [|discriminate]. destruct (layout src ind b cs) as [ps'|] eqn:E; inversion H; subst.
    destruct (token_is_ident k) as [->|Hne]; [|rewrite kwcb_other by exact Hne; rewrite kq_other in Hk by exact Hne; eauto].
    cbn [kq kwcb] in *. destruct Hk as [Hk1 Hk2]. rewrite (IH Hk2 _ _ _ E), andb_true_r.
    destruct Hk1 as [Hp|Hn]; [rewrite (Hp t Es); reflexivity|].
    destruct cs as [|c2 cs2]; [discriminate Hn|]. destruct c2 as [k2|k2 sp2| | | | | | |]; try contradiction.
    rewrite Hn in E. cbn [layout] in E. destruct (layout src ind b cs2); inversion E; subst. apply orb_true_r.
  - cbn [kq] in Hk. destruct (layout src ind b cs) eqn:E; inversion H; subst. cbn [kwcb]. eauto.
  - cbn [kq] in Hk. destruct (layout src ind false cs) eqn:E; [|destruct b; discriminate]. destruct b; inversion H; subst; cbn [kwcb]; eauto.
  - cbn [kq] in Hk. destruct b; [eauto|]. destruct (layout src ind true cs) eqn:E; inversion H; subst. cbn [kwcb]. eauto.
  - cbn [kq] in Hk. destruct (layout src ind false cs) eqn:E; inversion H; subst. cbn [kwcb]. eauto.
  - cbn [kq] in Hk. destruct (layout src ind b cs) eqn:E; inversion H; subst. cbn [kwcb]. eauto.
  - cbn [kq] in Hk. eauto.
  - cbn [kq] in Hk. eauto.
Qed.

End Colon.

Theorem parsed_kwcb src doc r ps :
  parse_document impl_flags impl_cfg src = POk doc r -> print_pieces repaired src doc = Some ps -> kwcb ps = true.
Proof.
  intros H Hp. unfold print_pieces in Hp. apply parse_document_sound in H. destruct H as [_ H].
  change (cfg_with impl_flags impl_cfg) with impl_cfg in H.
  eapply layout_kq_kwcb; [|exact Hp]. eapply k_document; [exact H|apply lex_inv].
Qed.
