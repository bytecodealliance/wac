(** Reflection lemmas for the boolean equalities used by Types.v / Checker.v / SubSpec.v, and
    facts about association lists. *)
From WacV Require Import Str Types StrFacts ListFacts.

Lemma ideqb_eq a b : id_eqb a b = true <-> a = b.
Proof.
  destruct a as [t i], b as [u j]; unfold id_eqb; cbn [id_tag id_idx].
  rewrite andb_true_iff, N.eqb_eq, Nat.eqb_eq. split; [intros [-> ->]; reflexivity | intros H; now injection H].
Qed.
Lemma ideqb_refl a : id_eqb a a = true.
Proof. now apply ideqb_eq. Qed.

Lemma primeqb_eq a b : prim_eqb a b = true <-> a = b.
Proof.
  unfold prim_eqb. rewrite N.eqb_eq. split; [|now intros ->].
  destruct a, b; intro H; try reflexivity; discriminate H.
Qed.
Lemma primeqb_refl a : prim_eqb a a = true.
Proof. now apply primeqb_eq. Qed.

Lemma vteqb_eq a b : valtype_eqb a b = true <-> a = b.
Proof. destruct a, b; cbn [valtype_eqb]; try (split; discriminate); rewrite ?primeqb_eq, ?ideqb_eq; split; congruence. Qed.
Lemma tyeqb_eq a b : ty_eqb a b = true <-> a = b.
Proof. destruct a, b; cbn [ty_eqb]; try (split; discriminate); rewrite ?ideqb_eq, ?vteqb_eq; split; congruence. Qed.
Lemma kindeqb_eq a b : kind_eqb a b = true <-> a = b.
Proof. destruct a, b; cbn [kind_eqb]; try (split; discriminate); rewrite ?ideqb_eq, ?vteqb_eq, ?tyeqb_eq; split; congruence. Qed.

Lemma booleqb_eq a b : Bool.eqb a b = true <-> a = b.
Proof. destruct a, b; cbn; split; congruence. Qed.

Lemma heapeqb_eq a b : heap_eqb a b = true <-> a = b.
Proof.
  unfold heap_eqb. split; [|intros ->; now rewrite !N.eqb_refl].
  intro H. apply andb_true_iff in H as [H1 H2]. apply N.eqb_eq in H1, H2.
  destruct a, b; try reflexivity; try discriminate H1. cbn in H2. congruence.
Qed.
Lemma refeqb_eq a b : reftype_eqb a b = true <-> a = b.
Proof.
  destruct a as [n h], b as [m g]; unfold reftype_eqb; cbn [r_nullable r_heap].
  rewrite andb_true_iff, booleqb_eq, heapeqb_eq. split; [intros [-> ->]; reflexivity | intros H; now injection H].
Qed.
Lemma cteqb_eq a b : coretype_eqb a b = true <-> a = b.
Proof. destruct a, b; cbn [coretype_eqb]; try (split; discriminate); rewrite ?refeqb_eq; split; congruence. Qed.
Lemma listeqb_eq {A} (eqb : A -> A -> bool) (Heq : forall x y, eqb x y = true <-> x = y) a b :
  list_eqb eqb a b = true <-> a = b.
Proof.
  revert b; induction a as [|x a IH]; intros [|y b]; cbn [list_eqb]; try (split; congruence).
  rewrite andb_true_iff, Heq, IH. split; [intros [-> ->]; reflexivity | intros H; now injection H].
Qed.
Lemma cfeqb_eq a b : corefunc_eqb a b = true <-> a = b.
Proof.
  destruct a as [p r], b as [q s]; unfold corefunc_eqb; cbn [cf_params cf_results].
  rewrite andb_true_iff, !(listeqb_eq _ cteqb_eq). split; [intros [-> ->]; reflexivity | intros H; now injection H].
Qed.
Lemma optNeqb_eq (a b : option N) :
  match a, b with Some x, Some y => x =? y | None, None => true | _, _ => false end = true <-> a = b.
Proof. destruct a, b; rewrite ?N.eqb_eq; split; congruence. Qed.

Lemma assoc_in {B} k (l : list (str * B)) v : assoc k l = Some v -> In (k, v) l.
Proof.
  induction l as [|[k' v'] l IH]; cbn [assoc]; [discriminate|].
  destruct (str_eqb k k') eqn:E; intro H.
  - apply str_eqb_eq in E. injection H as ->. left. congruence.
  - right. now apply IH.
Qed.
Lemma in_assoc {B} k (l : list (str * B)) v : NoDup (keys l) -> In (k, v) l -> assoc k l = Some v.
Proof.
  induction l as [|[k' v'] l IH]; cbn [assoc keys map fst]; [intros _ []|].
  intros Hnd [H|H].
  - injection H as -> ->. now rewrite str_eqb_refl.
  - inversion Hnd as [|? ? Hn Hnd']; subst.
    destruct (str_eqb k k') eqn:E.
    + apply str_eqb_eq in E as ->. exfalso. apply Hn. unfold keys. change k' with (fst (k', v)). now apply in_map.
    + now apply IH.
Qed.
Lemma assoc_none {B} k (l : list (str * B)) : assoc k l = None <-> ~ In k (keys l).
Proof.
  induction l as [|[k' v'] l IH]; cbn [assoc keys map fst]; [tauto|].
  destruct (str_eqb k k') eqn:E.
  - apply str_eqb_eq in E as ->. split; [discriminate | intro H; exfalso; apply H; now left].
  - apply str_eqb_neq in E. rewrite IH. unfold keys. cbn. intuition congruence.
Qed.

Lemma key2eqb_eq a b : key2_eqb a b = true <-> a = b.
Proof. exact (pair_eqb_eq _ _ str_eqb_eq str_eqb_eq a b). Qed.
Lemma assoc2_in {B} k (l : list ((str * str) * B)) v : assoc2 k l = Some v -> In (k, v) l.
Proof.
  induction l as [|[k' v'] l IH]; cbn [assoc2]; [discriminate|].
  destruct (key2_eqb k k') eqn:E; intro H.
  - apply key2eqb_eq in E. injection H as ->. left. congruence.
  - right. now apply IH.
Qed.
Lemma in_assoc2 {B} k (l : list ((str * str) * B)) v : NoDup (keys l) -> In (k, v) l -> assoc2 k l = Some v.
Proof.
  induction l as [|[k' v'] l IH]; cbn [assoc2 keys map fst]; [intros _ []|].
  intros Hnd [H|H].
  - injection H as -> ->. assert (E : key2_eqb k k = true) by now apply key2eqb_eq. now rewrite E.
  - inversion Hnd as [|? ? Hn Hnd']; subst.
    destruct (key2_eqb k k') eqn:E.
    + apply key2eqb_eq in E as ->. exfalso. apply Hn. unfold keys. change k' with (fst (k', v)). now apply in_map.
    + now apply IH.
Qed.

Lemma lookup_new {A} tag (l : list A) x : lookup tag (l ++ [x]) (mkid tag (length l)) = Some x.
Proof. unfold lookup. cbn [id_tag id_idx]. rewrite N.eqb_refl. apply nth_error_snoc. Qed.
