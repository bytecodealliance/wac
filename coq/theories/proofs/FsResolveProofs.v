(** Proofs relating the model of fs.rs ([FsResolve]) to the documented decision table ([FsSpec]). *)
From WacV Require Import Str StrFacts FsResolve FsSpec.

Lemma fold_left_push segs p : fold_left push segs p = p ++ segs.
Proof.
  revert p; induction segs as [|s segs IH]; intros p; cbn.
  - now rewrite app_nil_r.
  - rewrite IH. unfold push. now rewrite <- app_assoc.
Qed.

Lemma map_last_cons f x y l : map_last f (x :: y :: l) = x :: map_last f (y :: l).
Proof. reflexivity. Qed.

Lemma last_comp_cons x y l : last_comp (x :: y :: l) = last_comp (y :: l).
Proof. reflexivity. Qed.

Lemma map_last_app f front c : map_last f (front ++ [c]) = front ++ [f c].
Proof.
  induction front as [|x front IH]; [reflexivity|].
  change ((x :: front) ++ [c]) with (x :: (front ++ [c])).
  change ((x :: front) ++ [f c]) with (x :: (front ++ [f c])).
  destruct (front ++ [c]) as [|y l] eqn:E; [destruct front; discriminate|].
  rewrite map_last_cons, IH. reflexivity.
Qed.

Lemma last_comp_last p : last_comp p = last p [].
Proof.
  induction p as [|x p IH]; [reflexivity|].
  destruct p as [|y l]; [reflexivity|].
  rewrite last_comp_cons, IH. reflexivity.
Qed.

Lemma last_comp_app front c : last_comp (front ++ [c]) = c.
Proof. rewrite last_comp_last. apply last_last. Qed.

Lemma split_last_none c s : ~ In c s -> split_last c s = None.
Proof.
  induction s as [|x s IH]; cbn; intros H; auto.
  rewrite IH by tauto. destruct (x =? c) eqn:E; auto.
  apply N.eqb_eq in E. subst. exfalso; apply H; now left.
Qed.

Lemma split_last_app c b a : ~ In c a -> split_last c (b ++ c :: a) = Some (b, a).
Proof.
  intros H; induction b as [|x b IH]; cbn.
  - rewrite split_last_none by auto. now rewrite N.eqb_refl.
  - now rewrite IH.
Qed.

Lemma split_last_some c s b a : split_last c s = Some (b, a) -> s = b ++ c :: a.
Proof.
  revert b a; induction s as [|x s IH]; cbn; intros b a H; try discriminate.
  destruct (split_last c s) as [[b' a']|] eqn:E.
  - injection H as <- <-. cbn. f_equal. now apply IH.
  - destruct (x =? c) eqn:Ex; try discriminate. injection H as <- <-.
    apply N.eqb_eq in Ex. now subst.
Qed.

Lemma nodot_wasm : ~ In ch_dot s_wasm. Proof. cbv. intuition discriminate. Qed.
Lemma nodot_wat : ~ In ch_dot s_wat. Proof. cbv. intuition discriminate. Qed.
Lemma nodot_wit : ~ In ch_dot s_wit. Proof. cbv. intuition discriminate. Qed.

Lemma file_stem_app c e : c <> [] -> ~ In ch_dot e -> file_stem (c ++ ch_dot :: e) = c.
Proof.
  intros Hc He. unfold file_stem. rewrite split_last_app by assumption.
  destruct c; [contradiction|reflexivity].
Qed.

Lemma extension_of_app c e : c <> [] -> ~ In ch_dot e -> extension_of (c ++ ch_dot :: e) = Some e.
Proof.
  intros Hc He. unfold extension_of. rewrite split_last_app by assumption.
  destruct c; [contradiction|reflexivity].
Qed.

(** [set_extension] after [append_extension] swaps exactly the appended suffix -- provided the
    final component was not empty. *)
Lemma set_after_append front c e e' :
  c <> [] -> ~ In ch_dot e ->
  set_extension (append_extension (front ++ [c]) e) e' = front ++ [c ++ ch_dot :: e'].
Proof.
  intros Hc He. unfold set_extension, append_extension. rewrite !map_last_app.
  cbn [app]. now rewrite file_stem_app.
Qed.

Lemma set_after_set front c e e' :
  c <> [] -> ~ In ch_dot e ->
  set_extension (front ++ [c ++ ch_dot :: e]) e' = front ++ [c ++ ch_dot :: e'].
Proof.
  intros Hc He. unfold set_extension. rewrite map_last_app. now rewrite file_stem_app.
Qed.

Lemma append_extension_app front c e :
  append_extension (front ++ [c]) e = front ++ [c ++ ch_dot :: e].
Proof. unfold append_extension. now rewrite map_last_app. Qed.

Lemma has_ext_app front c e e' :
  c <> [] -> ~ In ch_dot e -> has_ext (front ++ [c ++ ch_dot :: e]) e' = str_eqb e e'.
Proof.
  intros Hc He. unfold has_ext. rewrite last_comp_app, extension_of_app by assumption. reflexivity.
Qed.

Lemma named_with_ext_iff ext name :
  named_with_ext ext name = true <-> exists stem, stem <> [] /\ name = stem ++ ch_dot :: ext.
Proof.
  induction name as [|x r IH]; cbn.
  - split; [discriminate|]. intros (stem & Hs & E). destruct stem; [contradiction|discriminate].
  - rewrite orb_true_iff, str_eqb_eq, IH. split.
    + intros [-> | (stem & Hs & ->)].
      * exists [x]. split; [discriminate|reflexivity].
      * exists (x :: stem). split; [discriminate|reflexivity].
    + intros (stem & Hs & E). destruct stem as [|y stem]; [contradiction|].
      injection E as <- ->. destruct stem as [|z stem].
      * now left.
      * right. exists (z :: stem). split; [discriminate|reflexivity].
Qed.

Lemma has_ext_iff p ext :
  ~ In ch_dot ext ->
  (has_ext p ext = true <-> exists stem, stem <> [] /\ last_comp p = stem ++ ch_dot :: ext).
Proof.
  intros He. unfold has_ext, extension_of. split.
  - destruct (split_last ch_dot (last_comp p)) as [[b a]|] eqn:E; [|discriminate].
    destruct b as [|y b]; [discriminate|]. intros H. apply str_eqb_eq in H. subst a.
    exists (y :: b). split; [discriminate|]. now apply split_last_some.
  - intros (stem & Hs & ->). rewrite split_last_app by assumption.
    destruct stem; [contradiction|]. apply str_eqb_refl.
Qed.

Lemma has_ext_named p ext : ~ In ch_dot ext -> has_ext p ext = named_with_ext ext (last p []).
Proof.
  intros He. apply Bool.eq_iff_eq_true.
  rewrite has_ext_iff by assumption. rewrite named_with_ext_iff, last_comp_last. reflexivity.
Qed.

Lemma lookup_find m n :
  lookup m n = option_map snd (find (fun e => str_eqb (fst e) n) m).
Proof.
  induction m as [|[n' p] m IH]; cbn; auto. destruct (str_eqb n' n); auto.
Qed.

Lemma key_components_nonempty k : key_components k <> [].
Proof.
  unfold key_components. intros H. apply app_eq_nil in H as [H _].
  exact (split_on_nonempty _ _ H).
Qed.

Lemma base_split cfg k :
  base cfg k = (root cfg ++ removelast (key_components k)) ++ [last (key_components k) []].
Proof.
  unfold base. rewrite <- app_assoc. f_equal.
  apply app_removelast_last, key_components_nonempty.
Qed.

Lemma suffixed_split cfg k e :
  suffixed cfg k e =
  (root cfg ++ removelast (key_components k)) ++ [last (key_components k) [] ++ ch_dot :: e].
Proof. unfold suffixed. now rewrite <- app_assoc. Qed.

Lemma model_base cfg k :
  (match k_version k with
   | Some v => push (fold_left push (split_on ch_colon (k_name k)) (root cfg)) v
   | None => fold_left push (split_on ch_colon (k_name k)) (root cfg)
   end) = base cfg k.
Proof.
  unfold base, key_components. rewrite fold_left_push.
  destruct (k_version k); unfold push; [now rewrite <- app_assoc | now rewrite app_nil_r].
Qed.

Lemma append_extension_base cfg k e : append_extension (base cfg k) e = suffixed cfg k e.
Proof. now rewrite base_split, append_extension_app, suffixed_split. Qed.

Lemma set_extension_suffixed cfg k e e' :
  key_wf k -> ~ In ch_dot e -> set_extension (suffixed cfg k e) e' = suffixed cfg k e'.
Proof. intros Hwf He. rewrite !suffixed_split. now apply set_after_set. Qed.

Lemma has_ext_suffixed cfg k e e' :
  key_wf k -> ~ In ch_dot e -> has_ext (suffixed cfg k e) e' = str_eqb e e'.
Proof. intros Hwf He. rewrite suffixed_split. now apply has_ext_app. Qed.

Lemma last_suffixed cfg k e :
  last (suffixed cfg k e) [] = last (key_components k) [] ++ ch_dot :: e.
Proof. rewrite suffixed_split. apply last_last. Qed.

Lemma last_base cfg k : last (base cfg k) [] = last (key_components k) [].
Proof. rewrite base_split. apply last_last. Qed.

Lemma last_components_version k v : k_version k = Some v -> last (key_components k) [] = v.
Proof. intros H. unfold key_components. rewrite H. apply last_last. Qed.

Lemma versioned_wf k v : k_version k = Some v -> v <> [] -> key_wf k.
Proof. intros Hv Hne. unfold key_wf. now rewrite (last_components_version k v Hv). Qed.

Lemma versioned_no_override cfg k v : k_version k = Some v -> applicable_override cfg k = None.
Proof. intros Hv. unfold applicable_override. now rewrite Hv. Qed.

Lemma last_of_location cfg k v p :
  k_version k = Some v ->
  p = base cfg k \/ p = suffixed cfg k s_wat \/ p = suffixed cfg k s_wasm ->
  last p [] = v \/ last p [] = v ++ ch_dot :: s_wat \/ last p [] = v ++ ch_dot :: s_wasm.
Proof.
  intros Hv [-> | [-> | ->]]; rewrite ?last_base, ?last_suffixed, (last_components_version k v Hv); auto.
Qed.

(** The default arm of fs.rs, from B on: append ".wasm", and with text support swap the extension for
    ".wat", test that candidate, swap back if the test fails.  [probe] is the test ([Path::exists] in
    the code as found, [Path::is_file] after the repair). *)
Definition probe_suffixes (probe : path -> bool) (wat : bool) (b : path) : path :=
  let pb := append_extension b s_wasm in
  if wat then
    let pb := set_extension pb s_wat in
    if negb (probe pb) then set_extension pb s_wasm else pb
  else pb.

Lemma probe_suffixes_wf probe wat cfg k :
  key_wf k ->
  probe_suffixes probe wat (base cfg k) =
  if wat && probe (suffixed cfg k s_wat) then suffixed cfg k s_wat else suffixed cfg k s_wasm.
Proof.
  intros Hwf. unfold probe_suffixes. cbv zeta. rewrite append_extension_base.
  destruct wat; [|reflexivity].
  rewrite (set_extension_suffixed cfg k s_wasm s_wat Hwf nodot_wasm). cbn [andb].
  destruct (probe (suffixed cfg k s_wat)); [reflexivity|].
  exact (set_extension_suffixed cfg k s_wat s_wasm Hwf nodot_wat).
Qed.

Lemma select_path_eq wat fs cfg k :
  select_path wat fs cfg k =
  match applicable_override cfg k with
  | Some p => if is_file fs p then Some p else None
  | None => Some (if is_dir fs (base cfg k) then base cfg k
                  else probe_suffixes (exists_ fs) wat (base cfg k))
  end.
Proof.
  unfold select_path, applicable_override. cbv zeta. rewrite lookup_find, (model_base cfg k).
  destruct (option_map snd _) as [p|], (k_version k);
    try (destruct (is_dir fs (base cfg k)); reflexivity).
  destruct (is_file fs p); reflexivity.
Qed.

Definition without_overrides (cfg : config) : config :=
  {| root := root cfg; overrides := []; error_on_unknown := error_on_unknown cfg |}.

Definition bytes_come_from (wat_parse' wit_dir' wit_file' : content -> option content)
           (fs : filesystem) (src : source) (p : path) (b : content) : Prop :=
  match src with
  | SrcRaw => fs p = File b
  | SrcWat => exists c, fs p = File c /\ wat_parse' c = Some b
  | SrcWitDir => exists c, fs p = Dir c /\ wit_dir' c = Some b
  | SrcWitFile => exists c, fs p = File c /\ wit_file' c = Some b
  end.

Definition not_found (o : outcome) : bool :=
  match o with Skipped | ErrUnknown => true | _ => false end.

Section Proofs.
  Variable wat_parse : content -> option content.
  Variable wit_dir_encode : content -> option content.
  Variable wit_file_encode : content -> option content.

  Notation resolve_one := (resolve_one wat_parse wit_dir_encode wit_file_encode).
  Notation load := (load wat_parse wit_dir_encode wit_file_encode).
  Notation load_fixed := (load_fixed wat_parse wit_dir_encode wit_file_encode).
  Notation spec := (spec wat_parse wit_dir_encode wit_file_encode).
  Notation assembled := (assembled wat_parse).
  Notation wit_package := (wit_package wit_dir_encode).
  Notation read_named_file := (read_named_file wat_parse wit_file_encode).

  (** The loader as found is the repaired one told that every path is the package's own location, so
      the facts are stated for [load_fixed]. *)
  Lemma load_eq wat fs cfg p : load wat fs cfg p = load_fixed wat fs cfg p true.
  Proof. unfold FsResolve.load, FsResolve.load_fixed, FsResolve.load_rest. now destruct (fs p). Qed.

  (** Loading a file the way fs.rs does is reading it "according to its name". *)
  Lemma load_fixed_file wat fs cfg p ip c :
    fs p = File c -> load_fixed wat fs cfg p ip = read_named_file wat p c.
  Proof.
    intros Hf. unfold FsResolve.load_fixed, FsResolve.load_rest, FsSpec.read_named_file. rewrite Hf.
    rewrite <- (has_ext_named p s_wit nodot_wit), <- (has_ext_named p s_wat nodot_wat).
    destruct (has_ext p s_wit); [reflexivity|]. destruct (wat && has_ext p s_wat); reflexivity.
  Qed.

  Lemma load_fixed_dir wat fs cfg p c : fs p = Dir c -> load_fixed wat fs cfg p true = wit_package p c.
  Proof. intros Hf. unfold FsResolve.load_fixed. now rewrite Hf. Qed.

  (** What is made of a suffixed candidate [p]: a file is handed to [on_file]; a directory is a WIT
      package if [dir_ok], and otherwise counts as nothing there. *)
  Definition at_candidate (dir_ok : bool) (on_file : path -> content -> outcome)
             (fs : filesystem) (cfg : config) (p : path) : outcome :=
    match fs p with
    | File c => on_file p c
    | Dir c => if dir_ok then wit_package p c else missing cfg
    | Absent => missing cfg
    end.

  Lemma load_fixed_suffixed wat fs cfg k e ip :
    key_wf k -> ~ In ch_dot e -> str_eqb e s_wit = false ->
    load_fixed wat fs cfg (suffixed cfg k e) ip =
    at_candidate ip (if wat && str_eqb e s_wat then assembled else Loaded SrcRaw) fs cfg (suffixed cfg k e).
  Proof.
    intros Hwf He Hwit. unfold FsResolve.load_fixed, FsResolve.load_rest, at_candidate.
    rewrite (has_ext_suffixed cfg k e s_wit Hwf He), (has_ext_suffixed cfg k e s_wat Hwf He), Hwit.
    destruct (fs (suffixed cfg k e)), ip, (wat && str_eqb e s_wat); reflexivity.
  Qed.

  Lemma load_fixed_bytes wat fs cfg q ip src p b :
    load_fixed wat fs cfg q ip = Loaded src p b ->
    bytes_come_from wat_parse wit_dir_encode wit_file_encode fs src p b.
  Proof.
    unfold FsResolve.load_fixed, FsResolve.load_rest. destruct (fs q) as [|c|c] eqn:Hq.
    - destruct (has_ext q s_wit); [discriminate|]. destruct (error_on_unknown cfg); discriminate.
    - destruct (has_ext q s_wit).
      + destruct (wit_file_encode c) as [b'|] eqn:E; [|discriminate].
        intros H; injection H as <- <- <-. cbn. eauto.
      + destruct (wat && has_ext q s_wat).
        * destruct (wat_parse c) as [b'|] eqn:E; [|discriminate].
          intros H; injection H as <- <- <-. cbn. eauto.
        * intros H; injection H as <- <- <-. cbn. assumption.
    - destruct ip.
      + destruct (wit_dir_encode c) as [b'|] eqn:E; [|discriminate].
        intros H; injection H as <- <- <-. cbn. eauto.
      + destruct (has_ext q s_wit); [discriminate|]. destruct (error_on_unknown cfg); discriminate.
  Qed.

  (** [spec] with its two degrees of freedom left open: the test applied to B".wat", and whether a
      directory found at a suffixed candidate is read as a WIT package.  The code as found is
      [table exists_ true]; the repaired code is [table is_file false], which is [spec]. *)
  Definition table (probe : filesystem -> path -> bool) (dir_ok wat : bool)
             (fs : filesystem) (cfg : config) (k : key) : outcome :=
    match applicable_override cfg k with
    | Some p =>
        match fs p with
        | File c => read_named_file wat p c
        | _ => ErrResolution OverrideMissing
        end
    | None =>
        match fs (base cfg k) with
        | Dir c => wit_package (base cfg k) c
        | _ =>
            if wat && probe fs (suffixed cfg k s_wat)
            then at_candidate dir_ok assembled fs cfg (suffixed cfg k s_wat)
            else at_candidate dir_ok (Loaded SrcRaw) fs cfg (suffixed cfg k s_wasm)
        end
    end.

  Lemma default_arm probe wat fs cfg k ip :
    key_wf k ->
    load_fixed wat fs cfg (probe_suffixes (probe fs) wat (base cfg k)) ip =
    if wat && probe fs (suffixed cfg k s_wat)
    then at_candidate ip assembled fs cfg (suffixed cfg k s_wat)
    else at_candidate ip (Loaded SrcRaw) fs cfg (suffixed cfg k s_wasm).
  Proof.
    intros Hwf. rewrite (probe_suffixes_wf (probe fs) wat cfg k Hwf). destruct wat; cbn [andb].
    - destruct (probe fs (suffixed cfg k s_wat)).
      + exact (load_fixed_suffixed true fs cfg k s_wat ip Hwf nodot_wat eq_refl).
      + exact (load_fixed_suffixed true fs cfg k s_wasm ip Hwf nodot_wasm eq_refl).
    - exact (load_fixed_suffixed false fs cfg k s_wasm ip Hwf nodot_wasm eq_refl).
  Qed.

  (** With an explicit location, and with a directory at B, the answer does not depend on the key
      being well formed. *)
  Lemma resolve_one_override wat fs cfg k p :
    applicable_override cfg k = Some p ->
    resolve_one wat fs cfg k =
    match fs p with File c => read_named_file wat p c | _ => ErrResolution OverrideMissing end.
  Proof.
    intros Hov. unfold FsResolve.resolve_one. rewrite select_path_eq, Hov. unfold is_file.
    destruct (fs p) as [|c|c] eqn:Hp; try reflexivity. rewrite load_eq. now apply load_fixed_file.
  Qed.

  Lemma dir_is_package wat fs cfg k c :
    applicable_override cfg k = None -> fs (base cfg k) = Dir c ->
    resolve_one wat fs cfg k = wit_package (base cfg k) c.
  Proof.
    intros Hov Hb. unfold FsResolve.resolve_one. rewrite select_path_eq, Hov. unfold is_dir.
    rewrite Hb, load_eq. now apply load_fixed_dir.
  Qed.

  Lemma found_table wat fs cfg k :
    key_wf k -> resolve_one wat fs cfg k = table exists_ true wat fs cfg k.
  Proof.
    intros Hwf. unfold table. destruct (applicable_override cfg k) as [p|] eqn:Hov.
    - now apply resolve_one_override.
    - destruct (fs (base cfg k)) as [|c|c] eqn:Hb; try (now apply dir_is_package);
        unfold FsResolve.resolve_one; rewrite select_path_eq, Hov; unfold is_dir; rewrite Hb, load_eq;
        now apply default_arm.
  Qed.

  Lemma table_default probe dir_ok wat fs cfg k :
    applicable_override cfg k = None -> is_dir fs (base cfg k) = false ->
    table probe dir_ok wat fs cfg k =
    if wat && probe fs (suffixed cfg k s_wat)
    then at_candidate dir_ok assembled fs cfg (suffixed cfg k s_wat)
    else at_candidate dir_ok (Loaded SrcRaw) fs cfg (suffixed cfg k s_wasm).
  Proof.
    intros Hov Hb. unfold table, is_dir in *. rewrite Hov.
    destruct (fs (base cfg k)); [reflexivity | reflexivity | discriminate].
  Qed.

  Lemma wit_package_loaded q c src p b : wit_package q c = Loaded src p b -> p = q.
  Proof. unfold FsSpec.wit_package. destruct (wit_dir_encode c); [|discriminate]. now intros [= _ <- _]. Qed.

  Lemma assembled_loaded q c src p b : assembled q c = Loaded src p b -> p = q.
  Proof. unfold FsSpec.assembled. destruct (wat_parse c); [|discriminate]. now intros [= _ <- _]. Qed.

  Lemma raw_loaded q c src p b : Loaded SrcRaw q c = Loaded src p b -> p = q.
  Proof. now intros [= _ <- _]. Qed.

  Lemma at_candidate_loaded dir_ok on_file fs cfg q src p b :
    (forall c, on_file q c = Loaded src p b -> p = q) ->
    at_candidate dir_ok on_file fs cfg q = Loaded src p b -> p = q.
  Proof.
    intros Hf. unfold at_candidate, missing. destruct (fs q) as [|c|c].
    - destruct (error_on_unknown cfg); discriminate.
    - apply Hf.
    - destruct dir_ok; [apply wit_package_loaded | destruct (error_on_unknown cfg); discriminate].
  Qed.

  (** Whatever is loaded from the dependency directory sits at B, B".wat" or B".wasm". *)
  Lemma table_location probe dir_ok wat fs cfg k src p b :
    applicable_override cfg k = None ->
    table probe dir_ok wat fs cfg k = Loaded src p b ->
    p = base cfg k \/ p = suffixed cfg k s_wat \/ p = suffixed cfg k s_wasm.
  Proof.
    intros Hov. unfold table. rewrite Hov.
    destruct (fs (base cfg k)); try (intros H; left; exact (wit_package_loaded _ _ _ _ _ H));
      (destruct (wat && probe fs (suffixed cfg k s_wat)); intros H; right;
       [ left; apply (at_candidate_loaded _ _ _ _ _ _ _ _ (fun c => assembled_loaded _ c _ _ _) H)
       | right; apply (at_candidate_loaded _ _ _ _ _ _ _ _ (fun c => raw_loaded _ c _ _ _) H) ]).
  Qed.

  (** For a versioned reference its final component is the WHOLE version text, with or without a suffix. *)
  Lemma table_last probe dir_ok wat fs cfg k v src p b :
    k_version k = Some v ->
    table probe dir_ok wat fs cfg k = Loaded src p b ->
    last p [] = v \/ last p [] = v ++ ch_dot :: s_wat \/ last p [] = v ++ ch_dot :: s_wasm.
  Proof.
    intros Hv H. apply (last_of_location cfg k v p Hv).
    exact (table_location probe dir_ok wat fs cfg k src p b (versioned_no_override cfg k v Hv) H).
  Qed.

  Lemma found_read_named_file wat p c : not_found (read_named_file wat p c) = false.
  Proof.
    unfold FsSpec.read_named_file, wit_document, FsSpec.assembled.
    destruct (named_with_ext s_wit _); [now destruct (wit_file_encode c)|].
    destruct (wat && _); [now destruct (wat_parse c) | reflexivity].
  Qed.

  Lemma found_wit_package p c : not_found (wit_package p c) = false.
  Proof. unfold FsSpec.wit_package. now destruct (wit_dir_encode c). Qed.

  Lemma found_assembled p c : not_found (assembled p c) = false.
  Proof. unfold FsSpec.assembled. now destruct (wat_parse c). Qed.

  Lemma not_found_missing cfg : not_found (missing cfg) = true.
  Proof. unfold missing. now destruct (error_on_unknown cfg). Qed.

  (** Outside the recorded deviation the model IS the table. *)
  Lemma table_partial wat fs cfg k :
    key_wf k -> suffixed_dir_chosen wat fs cfg k = false ->
    resolve_one wat fs cfg k = spec wat fs cfg k.
  Proof.
    intros Hwf Hdev. rewrite (found_table wat fs cfg k Hwf).
    unfold table, FsSpec.spec, suffixed_dir_chosen, at_candidate, is_dir, exists_ in *.
    destruct (applicable_override cfg k); [reflexivity|].
    destruct (fs (base cfg k)); [| |reflexivity];
      (destruct wat; [destruct (fs (suffixed cfg k s_wat))|]; destruct (fs (suffixed cfg k s_wasm));
       try discriminate; reflexivity).
  Qed.

  (** Inside it, the directory found at the suffixed candidate is loaded as a WIT package. *)
  Lemma deviation_shape wat fs cfg k :
    key_wf k -> suffixed_dir_chosen wat fs cfg k = true ->
    exists p c, (p = suffixed cfg k s_wat \/ p = suffixed cfg k s_wasm) /\ fs p = Dir c /\
                resolve_one wat fs cfg k = wit_package p c.
  Proof.
    intros Hwf Hdev. rewrite (found_table wat fs cfg k Hwf).
    unfold table, suffixed_dir_chosen, at_candidate, is_dir, exists_ in *.
    destruct (applicable_override cfg k); [discriminate|].
    destruct (fs (base cfg k)); [| |discriminate];
      (destruct wat; [destruct (fs (suffixed cfg k s_wat)) as [|cw|cw] eqn:Hw|];
       try (exists (suffixed cfg k s_wat), cw; now auto);
       destruct (fs (suffixed cfg k s_wasm)) as [|cs|cs] eqn:Hs; try discriminate;
       exists (suffixed cfg k s_wasm), cs; auto).
  Qed.

  Lemma not_found_only_when_missing wat fs cfg k :
    key_wf k -> not_found (resolve_one wat fs cfg k) = true ->
    resolve_one wat fs cfg k = missing cfg /\ applicable_override cfg k = None /\
    is_dir fs (base cfg k) = false /\ (wat = true -> fs (suffixed cfg k s_wat) = Absent) /\
    fs (suffixed cfg k s_wasm) = Absent.
  Proof.
    intros Hwf. rewrite (found_table wat fs cfg k Hwf). unfold table, at_candidate, is_dir, exists_.
    destruct (applicable_override cfg k) as [p|].
    { destruct (fs p); [discriminate | now rewrite found_read_named_file | discriminate]. }
    destruct (fs (base cfg k)); [| |now rewrite found_wit_package];
      (destruct wat; cbn [andb]; [destruct (fs (suffixed cfg k s_wat))|]; destruct (fs (suffixed cfg k s_wasm));
       rewrite ?found_assembled, ?found_wit_package; try discriminate; repeat split; auto; discriminate).
  Qed.
End Proofs.
