(** C01 [instantiation_complete]: in a consistent composition graph every instantiation receives exactly one
    argument per import of its package: the imports satisfied by argument edges and the imports left to the
    implicit imports are disjoint and together are all of them. Stated on indexes, on names, and on the
    instantiate item that the wiring specification (and hence, by C02 [wiring_correct], the encoder) emits. *)
From Coq Require Import List Arith Bool NArith Lia Permutation.
From WacV Require Import Str StrFacts Graph Wiring WiringSpec ValidSpec GraphInv GraphAlias.
Import ListNotations.
Local Open Scope nat_scope.

Lemma count_str_app x a b : count_str x (a ++ b) = count_str x a + count_str x b.
Proof. induction a as [|y a IH]; cbn; auto. rewrite IH. lia. Qed.

Lemma count_str_perm x a b : Permutation a b -> count_str x a = count_str x b.
Proof. induction 1; cbn; lia. Qed.

Lemma same_names_perm a b : Permutation a b -> same_names a b.
Proof. intros P x. now apply count_str_perm. Qed.

Lemma count_str_pos x l : 0 < count_str x l <-> In x l.
Proof.
  induction l as [|y l IH]; cbn; [split; [lia|tauto]|].
  destruct (str_eqb y x) eqn:E.
  - apply str_eqb_eq in E. subst. split; [auto|lia].
  - rewrite <- IH. split; [intros H; right; lia|intros [->|H]; [|lia]].
    rewrite str_eqb_refl in E. discriminate.
Qed.

(** equal multiplicities give equal lengths: split the head of [a] off [b] *)
Lemma same_names_length a : forall b, same_names a b -> length a = length b.
Proof.
  induction a as [|x a IH]; intros b H.
  - destruct b as [|y b]; auto. specialize (H y). cbn in H. rewrite str_eqb_refl in H. discriminate.
  - assert (Ix : In x b) by (apply count_str_pos; rewrite <- (H x); cbn; rewrite str_eqb_refl; lia).
    apply in_split in Ix as [b1 [b2 ->]]. rewrite app_length. cbn. rewrite (IH (b1 ++ b2)), app_length; [lia|].
    intros z. specialize (H z). rewrite count_str_app in *. cbn in H. lia.
Qed.

(** the boolean test decides multiset equality: it is enough to compare the counts of the names of [a] *)
Lemma same_namesb_sound a : forall b,
  length a = length b -> (forall x, In x a -> count_str x a = count_str x b) -> same_names a b.
Proof.
  induction a as [|x a IH]; intros b Hl Hc.
  - destruct b; [intros z; reflexivity | discriminate].
  - assert (Ix : In x b) by (apply count_str_pos; rewrite <- (Hc x (or_introl eq_refl)); cbn; rewrite str_eqb_refl; lia).
    apply in_split in Ix as [b1 [b2 ->]].
    assert (S : same_names a (b1 ++ b2)).
    { apply IH.
      - rewrite app_length in *. cbn in Hl. lia.
      - intros y Hy. specialize (Hc y (or_intror Hy)). rewrite count_str_app in *. cbn in Hc. lia. }
    intros z. specialize (S z). rewrite count_str_app in *. cbn. lia.
Qed.

Lemma same_namesb_spec a b : same_namesb a b = true <-> same_names a b.
Proof.
  unfold same_namesb. rewrite andb_true_iff, Nat.eqb_eq, forallb_forall. split.
  - intros [Hl Hc]. apply same_namesb_sound; auto. intros x Hx. now apply Nat.eqb_eq, Hc.
  - intros H. split; [now apply same_names_length | intros x _; apply Nat.eqb_eq, H].
Qed.

Definition arg_idx (ed : edge) : list nat := match ek ed with EArg i => [i] | _ => [] end.

Lemma explicit_idx_count g n i :
  count_occ Nat.eq_dec (explicit_idx g n) i = count_arg g n i.
Proof.
  unfold explicit_idx, incoming, count_arg. induction (edges g) as [|ed es IH]; cbn; auto.
  destruct (etgt ed =? n) eqn:T; cbn; [|exact IH].
  rewrite count_occ_app, IH. destruct (ek ed) as [j|j|]; cbn; auto.
  destruct (Nat.eq_dec j i) as [->|Hne].
  - rewrite Nat.eqb_refl. cbn. lia.
  - apply Nat.eqb_neq in Hne. rewrite Hne. cbn. lia.
Qed.

Lemma explicit_idx_In g n i : In i (explicit_idx g n) <-> exists ed, In ed (edges g) /\ etgt ed = n /\ ek ed = EArg i.
Proof.
  unfold explicit_idx, incoming. rewrite in_flat_map. split.
  - intros [ed [Hed Hi]]. apply filter_In in Hed as [Hed T]. apply Nat.eqb_eq in T.
    destruct (ek ed) as [j|j|] eqn:K; cbn in Hi; try contradiction. destruct Hi as [<-|[]]. eauto.
  - intros [ed [Hed [T K]]]. exists ed. split; [apply filter_In; split; auto; now apply Nat.eqb_eq|]. rewrite K. now left.
Qed.

Lemma NoDup_app_intro {A} (l1 l2 : list A) :
  NoDup l1 -> NoDup l2 -> (forall x, In x l1 -> ~ In x l2) -> NoDup (l1 ++ l2).
Proof.
  induction l1 as [|x l1 IH]; cbn; auto. intros N1 N2 D. inversion N1 as [|? ? Hx N1']; subst. constructor.
  - rewrite in_app_iff. intros [H|H]; [contradiction|]. apply (D x); auto.
  - apply IH; auto.
Qed.

Section Complete.
  Variable u : universe.
  Variable g : gstate.
  Hypothesis HI : Inv u g.

  (** the argument edges into [n] carry each satisfied index once; the others not at all *)
  Lemma explicit_idx_sat n nd sat :
    get_node g n = Some nd -> nk nd = NInst sat ->
    NoDup (explicit_idx g n) /\ forall i, In i (explicit_idx g n) <-> In i sat.
  Proof.
    intros G K. destruct (inv_sat_exact _ _ HI n nd sat G K) as [ND C]. split.
    - apply (NoDup_count_occ Nat.eq_dec). intros i. rewrite explicit_idx_count, C. destruct (existsb _ sat); lia.
    - intros i. rewrite (count_occ_In Nat.eq_dec), explicit_idx_count, C, <- existsb_eqb_In.
      destruct (existsb (Nat.eqb i) sat); split; intros; try lia; auto; discriminate.
  Qed.

  (** explicit and implicit indexes are disjoint and together are exactly the imports, provided every argument
      edge designates an import ([ArgsChecked], which holds of every reachable graph) *)
  Theorem idx_complete n nd sat len :
    get_node g n = Some nd -> nk nd = NInst sat ->
    (forall i, In i (explicit_idx g n) -> i < len) ->
    Permutation (explicit_idx g n ++ implicit_idx sat len) (seq 0 len) /\
    (forall i, In i (explicit_idx g n) -> ~ In i (implicit_idx sat len)).
  Proof.
    intros G K R. destruct (explicit_idx_sat n nd sat G K) as [ND E].
    assert (Dj : forall i, In i (explicit_idx g n) -> ~ In i (implicit_idx sat len)).
    { intros i Hi Hj. unfold implicit_idx in Hj. apply filter_In in Hj as [_ Hj]. apply negb_true_iff in Hj.
      apply E in Hi. apply existsb_eqb_In in Hi. congruence. }
    split; [|exact Dj]. apply NoDup_Permutation.
    - apply NoDup_app_intro; [exact ND|apply NoDup_filter, seq_NoDup|exact Dj].
    - apply seq_NoDup.
    - intros i. rewrite in_app_iff, in_seq. unfold implicit_idx. rewrite filter_In, in_seq, negb_true_iff. split.
      + intros [H|[H _]]; [apply R in H|]; lia.
      + intros H. destruct (existsb (Nat.eqb i) sat) eqn:X.
        * left. apply E. now apply existsb_eqb_In.
        * right. split; [lia|reflexivity].
  Qed.
End Complete.

Lemma flat_map_ext_in' {A B} (f h : A -> list B) l : (forall x, In x l -> f x = h x) -> flat_map f l = flat_map h l.
Proof.
  induction l as [|x l IH]; cbn; auto. intros H. rewrite (H x) by auto. f_equal. apply IH. intros y Hy. apply H. auto.
Qed.

Section Names.
  Variable e : wenv.
  Variable u : universe.
  Variable g : gstate.
  Variable dc : bool.

  Definition name_at (imps : list (name * kid)) (i : nat) : list str :=
    match nth_error imps i with Some (nm, _) => [nstr e nm] | None => [] end.

  Lemma import_names_at imps : map (fun x : name * kid => nstr e (fst x)) imps = flat_map (name_at imps) (seq 0 (length imps)).
  Proof.
    assert (G : forall l a, map (fun x : name * kid => nstr e (fst x)) l =
                            flat_map (fun i => match nth_error l (i - a) with Some (nm, _) => [nstr e nm] | None => [] end) (seq a (length l))).
    { induction l as [|[nm k] l IH]; intros a; cbn; auto. rewrite Nat.sub_diag. cbn. f_equal. rewrite (IH (S a)).
      apply flat_map_ext_in'. intros i Hi. apply in_seq in Hi. replace (i - a) with (S (i - S a)) by lia. reflexivity. }
    rewrite (G imps 0). apply flat_map_ext. intros i. unfold name_at. now rewrite Nat.sub_0_r.
  Qed.

  Lemma flat_map_filter {A B} (f : A -> list B) (p : A -> bool) l :
    flat_map (fun x => if p x then f x else []) l = flat_map f (filter p l).
  Proof. induction l as [|x l IH]; cbn; auto. destruct (p x); cbn; now rewrite IH. Qed.

  Lemma unsat_names n nd sat imps :
    get_node g n = Some nd -> nk nd = NInst sat -> inst_imports u g nd = Some imps ->
    map arg_name (implicit_args e u g n) = flat_map (name_at imps) (implicit_idx sat (length imps)).
  Proof.
    intros G K I. unfold implicit_args, unsat_args. rewrite G, K, I. rewrite map_map. cbn [arg_name fst].
    unfold implicit_idx. rewrite <- flat_map_filter.
    assert (H : forall l a,
      map (fun x : name * kid => nstr e (fst x))
          (flat_map (fun p : nat * (name * kid) => if existsb (Nat.eqb (fst p)) sat then [] else [snd p]) (combine (seq a (length l)) l)) =
      flat_map (fun i => if negb (existsb (Nat.eqb i) sat)
                         then match nth_error l (i - a) with Some (nm, _) => [nstr e nm] | None => [] end else []) (seq a (length l))).
    { induction l as [|[nm k] l IH]; intros a; cbn; auto. rewrite Nat.sub_diag. cbn [nth_error].
      rewrite map_app, (IH (S a)). f_equal.
      - destruct (existsb (Nat.eqb a) sat); reflexivity.
      - apply flat_map_ext_in'. intros i Hi. apply in_seq in Hi. replace (i - a) with (S (i - S a)) by lia. reflexivity. }
    rewrite (H imps 0). apply flat_map_ext. intros i. unfold name_at. now rewrite Nat.sub_0_r.
  Qed.

  Lemma explicit_names ord n nd imps :
    get_node g n = Some nd -> inst_imports u g nd = Some imps ->
    map arg_name (explicit_args e u g ord n) = flat_map (name_at imps) (explicit_idx g n).
  Proof.
    intros G I. unfold explicit_args, explicit_idx. rewrite G, I.
    induction (incoming g n) as [|ed es IH]; [reflexivity|]. cbn [flat_map].
    rewrite map_app, flat_map_app. f_equal; [|exact IH].
    destruct (ek ed) as [i|i|]; cbn; auto. unfold name_at. destruct (nth_error imps i) as [[nm k]|]; cbn; auto.
  Qed.

  (** the instantiate item of the specification passes the import names of the package, each once *)
  Theorem spec_inst_complete ord n nd sat imps :
    Inv u g -> get_node g n = Some nd -> nk nd = NInst sat -> inst_imports u g nd = Some imps ->
    (forall i, In i (explicit_idx g n) -> i < length imps) ->
    exists args, spec_inst e u g dc ord n = WInst (comp_prov e g dc n) args /\
      same_names (map arg_name args) (map (fun x : name * kid => nstr e (fst x)) imps).
  Proof.
    intros HI G K I R. exists (explicit_args e u g ord n ++ implicit_args e u g n). split; [reflexivity|].
    rewrite map_app, (explicit_names ord n nd imps G I), (unsat_names n nd sat imps G K I), <- flat_map_app, import_names_at.
    apply same_names_perm. apply Permutation_flat_map. now apply (idx_complete u g HI n nd sat (length imps) G K R).
  Qed.
End Names.
