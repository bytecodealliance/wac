(** Simulation of the model encoder by [decode_from], from the state the import phase leaves to the
    end: after every emitted node the decoded state of the log so far agrees with the specification
    restricted to the processed nodes; the exports loop and the name section complete the wiring. *)
From Coq Require Import List Arith Bool NArith Lia.
From WacV Require Import Str StrFacts Graph Wiring WiringSpec EncodeModel GraphInv WiringDecode EncodeBasics WiringOrder ToposortDfs.
Import ListNotations.
Local Open Scope nat_scope.
Arguments node_prov : simpl never.
Arguments node_sort : simpl never.
Arguments cnt : simpl never.
Arguments pkg_assoc : simpl never.
Arguments pkgid_eqb : simpl never.
Arguments nat_assoc : simpl never.

Lemma filter_snoc {A} (f : A -> bool) l x : filter f (l ++ [x]) = filter f l ++ (if f x then [x] else []).
Proof. rewrite filter_app. cbn. now destruct (f x). Qed.

Lemma flat_map_snoc {A B} (f : A -> list B) l x : flat_map f (l ++ [x]) = flat_map f l ++ f x.
Proof. rewrite flat_map_app. cbn. now rewrite app_nil_r. Qed.

Lemma map_flat_map {A B C} (f : B -> C) (h : A -> list B) l : map f (flat_map h l) = flat_map (fun x => map f (h x)) l.
Proof. induction l as [|x r IH]; cbn; auto. now rewrite map_app, IH. Qed.

Lemma flat_map_filter_nil {A B} (h : A -> list B) (p : A -> bool) l :
  (forall x, p x = false -> h x = []) -> flat_map h (filter p l) = flat_map h l.
Proof.
  intros H. induction l as [|x r IH]; cbn; auto. destruct (p x) eqn:Px; cbn; rewrite IH; auto. now rewrite (H x Px).
Qed.

Lemma filter_filter_sub {A} (f p : A -> bool) l : (forall x, f x = true -> p x = true) -> filter f (filter p l) = filter f l.
Proof.
  intros H. induction l as [|x r IH]; cbn; auto. destruct (p x) eqn:Px; cbn; rewrite IH; auto.
  destruct (f x) eqn:Fx; auto. apply H in Fx. congruence.
Qed.

Lemma flat_map_list_prod {A B C} (f : A * B -> list C) (la : list A) (lb : list B) :
  flat_map f (list_prod la lb) = flat_map (fun a => flat_map (fun b => f (a, b)) lb) la.
Proof.
  induction la as [|a r IH]; cbn; auto. rewrite flat_map_app, IH. f_equal.
  clear. induction lb as [|b r IH]; cbn; auto. now rewrite IH.
Qed.

Lemma look_args_app sp a b :
  look_args sp (a ++ b) = match look_args sp a, look_args sp b with
                          | Some x, Some y => Some (x ++ y)
                          | _, _ => None
                          end.
Proof.
  induction a as [|[[nm s] i] r IH]; cbn.
  - now destruct (look_args sp b).
  - destruct (look sp s i); [|now destruct (look_args sp r); destruct (look_args sp b)].
    rewrite IH. destruct (look_args sp r); auto. destruct (look_args sp b); auto.
Qed.

Lemma look_names_app sp a b :
  look_names sp (a ++ b) = match look_names sp a, look_names sp b with
                           | Some x, Some y => Some (x ++ y)
                           | _, _ => None
                           end.
Proof.
  induction a as [|[[s i] nm] r IH]; cbn.
  - now destruct (look_names sp b).
  - destruct (look sp s i); [|now destruct (look_names sp r); destruct (look_names sp b)].
    rewrite IH. destruct (look_names sp r); auto. destruct (look_names sp b); auto.
Qed.

Lemma nodup_nat_notin x l : ~ In x l -> filter (fun y => negb (y =? x)) l = l.
Proof.
  induction l as [|y r IH]; cbn; intros H; auto.
  destruct (y =? x) eqn:E; [apply Nat.eqb_eq in E; subst; tauto|]. cbn. rewrite IH; auto.
Qed.

Lemma nodup_nat_In x l : In x (nodup_nat l) <-> In x l.
Proof.
  induction l as [|y r IH]; cbn; [tauto|]. rewrite filter_In, IH. split.
  - intros [?|[? _]]; auto.
  - intros [?|?]; auto. destruct (Nat.eq_dec y x); auto. right. split; auto.
    apply negb_true_iff, Nat.eqb_neq. congruence.
Qed.

Lemma filter_comm_app {A} (f : A -> bool) l1 l2 : filter f (l1 ++ l2) = filter f l1 ++ filter f l2.
Proof. apply filter_app. Qed.

Lemma nodup_nat_snoc l x : nodup_nat (l ++ [x]) = nodup_nat l ++ (if existsb (Nat.eqb x) l then [] else [x]).
Proof.
  induction l as [|y r IH]; cbn; auto.
  rewrite IH, filter_app. f_equal.
  destruct (x =? y) eqn:E.
  - apply Nat.eqb_eq in E. subst y. cbn.
    destruct (existsb (Nat.eqb x) r); cbn; rewrite ?Nat.eqb_refl; cbn; now rewrite ?app_nil_r.
  - cbn. destruct (existsb (Nat.eqb x) r); cbn; [now rewrite app_nil_r|].
    rewrite Nat.eqb_sym in E. now rewrite Nat.eqb_sym, E.
Qed.

Lemma pkg_assoc_cons k0 v l k : pkg_assoc k ((k0, v) :: l) = if pkgid_eqb k0 k then Some v else pkg_assoc k l.
Proof. reflexivity. Qed.

Lemma ty_items_reg its : forall d ninst reg d',
  ninst = length (d_sp d SInstance) -> ty_items_ok ninst its = true -> decode_from d its = Some d' ->
  forall k idx under, In (k, (idx, under)) (reg_deps ninst its reg) ->
    In (k, (idx, under)) reg \/ look (d_sp d') SInstance idx = Some (PImp under).
Proof.
  induction its as [|it r IH]; intros d ninst reg d' Hn Ok D k idx under I; cbn in *; auto.
  apply andb_true_iff in Ok as [Ok1 Ok2].
  destruct (dstep d it) as [d1|] eqn:St; try discriminate.
  assert (L1 : (match it with IDepImport _ => S ninst | _ => ninst end) = length (d_sp d1 SInstance)).
  { rewrite (dstep_length _ _ _ SInstance St), <- Hn.
    destruct it; cbn in Ok1; try discriminate; try (destruct s; cbn in Ok1; try discriminate); cbn; lia. }
  destruct it; try (eapply (IH d1); eauto; fail).
  destruct (IH d1 _ _ _ L1 Ok2 D _ _ _ I) as [[E|?]|?]; auto.
  injection E as <- <- <-. right. eapply sp_ext_look; [exact (decode_from_ext _ _ _ D)|].
  cbn in St. injection St as <-. cbn. subst ninst. apply look_push_new.
Qed.

Section Sim.
  Variable e : wenv.
  Variable u : universe.
  Variable g : gstate.
  Variable dc : bool.
  Variable tau : tyenc.
  Variable ord : list nat.

  Notation ns := (node_sort e g).
  Notation np := (node_prov e u g ord).
  Notation other := (filter (fun m => negb (is_import g m)) ord).

  (** what the simulation needs from the graph and from the per-case universe; each clause follows from
      the C06 invariant of reachable graphs together with how the universe is built (instance kinds have
      exports, instantiations have instance kind, definitions have type kind, alias nodes carry the kind of
      the aliased export, a definition has one export name, registered packages are distinct) *)
  Record EncInv : Prop := {
    ei_inst_sort : forall k ex, u_inst_exports u k = Some ex -> we_sort e k = SInstance;
    ei_inst_node : forall n nd sat, get_node g n = Some nd -> nk nd = NInst sat -> we_sort e (nitem nd) = SInstance;
    ei_def_node : forall n nd, get_node g n = Some nd -> nk nd = NDef -> we_sort e (nitem nd) = SType;
    ei_alias_kind : forall n nd src en sn ex k, get_node g n = Some nd -> nk nd = NAlias ->
        get_alias_source u g n = Some (src, en) -> get_node g src = Some sn -> u_inst_exports u (nitem sn) = Some ex ->
        alist_get N.eqb ex en = Some k -> we_sort e k = we_sort e (nitem nd);
    ei_def_name : forall n nd nm, get_node g n = Some nd -> nk nd = NDef -> nexport nd = Some nm ->
        nstr e nm = def_name e g n;
    ei_def_single : forall nm n, In (nm, n) (exports g) -> is_def g n = true -> nstr e nm = def_name e g n;
    ei_nondef_names : forall nm n, In (nm, n) (exports g) -> is_def g n = false -> str_mem (nstr e nm) (def_names e g) = false;
    ei_pkg_inj : forall id1 id2 p, get_pkg g id1 = Some p -> get_pkg g id2 = Some p -> id1 = id2 }.

  Hypothesis EI : EncInv.
  Hypothesis T : Topo g ord.

  Definition pkg_prov (p : nat) : prov := if dc then PComp (we_digest e p) else PImp (pkg_import_name e p).
  Definition done_pkgs (done : list nat) : list nat :=
    flat_map (fun n => opt_list (node_pkg g n)) (filter (is_inst g) done).
  Definition erase1 (x : parg) : parg :=
    let '(nm, s, p) := x in if sort_eqb s SType && str_mem nm (def_names e g) then (nm, s, PDef) else x.
  Definition impl_of (st : est) (n : nat) : list arg :=
    flat_map (fun p : nat * arg => if fst p =? n then [snd p] else []) (e_impl st).

  Definition NidxOK (nidx : list (nat * nat)) (sp : sort -> list prov) : Prop :=
    forall n idx, nat_assoc n nidx = Some idx -> In n ord /\ look sp (ns n) idx = Some (np n).

  (** the package table: its keys are the packages instantiated so far, each bound to its component; [pk] lists
      them once each in order of first use, and so they are embedded or, when dependencies are imported,
      imported after the imports [base] of the import phase *)
  Record PInv (base : list (str * sort)) (pk : list nat) (st : est) (d : dstate) : Prop := {
    pi_look : forall pid ci, pkg_assoc pid (e_pkgs st) = Some ci ->
              exists p, get_pkg g pid = Some p /\ In p pk /\ look (d_sp d) SComponent ci = Some (pkg_prov p);
    pi_dom : forall p, In p pk -> exists pid ci, get_pkg g pid = Some p /\ pkg_assoc pid (e_pkgs st) = Some ci;
    pi_comps : d_comps d = if dc then map (we_digest e) pk else [];
    pi_imports : own_imports d = base ++ if dc then [] else map (fun p => (pkg_import_name e p, SComponent)) pk }.

  (** invariant of the node loop: [done] the non-import nodes emitted so far (a prefix of [other]), [base]
      the own imports left by the import phase; [d] decodes the log and agrees with the specification
      restricted to [done] *)
  Record LInv (base : list (str * sort)) (done : list nat) (st : est) (d : dstate) : Prop := {
    li_dec : decode_from d_init (e_log st) = Some d;
    li_nidx : NidxOK (e_nidx st) (d_sp d);
    li_impl : forall n, look_args (d_sp d) (impl_of st n) = Some (implicit_args e u g n);
    li_insts : d_insts d = map (spec_inst e u g dc ord) (filter (is_inst g) done);
    li_exports : map erase1 (d_exports d) = map (fun n => (def_name e g n, SType, PDef)) (filter (is_def g) done);
    li_pkgs : PInv base (nodup_nat (done_pkgs done)) st d }.

  Lemma NidxOK_ext nidx sp sp' : NidxOK nidx sp -> sp_ext sp sp' -> NidxOK nidx sp'.
  Proof. intros H X n idx Hn. destruct (H _ _ Hn) as [? Lk]. split; auto. eapply sp_ext_look; eauto. Qed.

  Lemma NidxOK_push nidx sp n : NidxOK nidx sp -> In n ord ->
    NidxOK ((n, length (sp (ns n))) :: nidx) (push sp (ns n) (np n)).
  Proof.
    intros H I m idx Hm. rewrite nat_assoc_cons in Hm. destruct (n =? m) eqn:E.
    - apply Nat.eqb_eq in E. subst m. injection Hm as <-. split; auto. apply look_push_new.
    - destruct (H _ _ Hm) as [? Lm]. split; auto. now apply look_push_old.
  Qed.

  Lemma PInv_ext base pk st d st1 d1 :
    PInv base pk st d -> sp_ext (d_sp d) (d_sp d1) -> e_pkgs st1 = e_pkgs st ->
    d_comps d1 = d_comps d -> own_imports d1 = own_imports d -> PInv base pk st1 d1.
  Proof.
    intros [A B C D] X P Ec Ei. constructor; rewrite ?P, ?Ec, ?Ei; auto.
    intros pid ci Hp. destruct (A _ _ Hp) as [p [? [? Lk]]]. exists p. repeat split; auto. eapply sp_ext_look; eauto.
  Qed.

  Lemma run_ty_inv st rq st1 ty :
    run_ty tau st rq = ROk (st1, ty) ->
    exists its, e_log st1 = e_log st ++ its /\ ty_items_ok (cnt SInstance (e_log st)) its = true /\
                e_nidx st1 = e_nidx st /\ e_pkgs st1 = e_pkgs st /\ e_impl st1 = e_impl st /\ e_dedup st1 = e_dedup st /\
                e_reg st1 = reg_deps (cnt SInstance (e_log st)) its (e_reg st).
  Proof.
    unfold run_ty. destruct (tau (e_log st) rq) as [its idx].
    destruct (ty_items_ok _ its) eqn:O; try discriminate. intros H. injection H as <- <-.
    exists its. cbn. repeat split; auto.
  Qed.

  Lemma ty_items_own_imports its : forall n d d',
    ty_items_ok n its = true -> decode_from d its = Some d' -> own_imports d' = own_imports d.
  Proof.
    induction its as [|it r IH]; intros n d d' Ok D; cbn in Ok, D.
    - now injection D as <-.
    - apply andb_true_iff in Ok as [Ok1 Ok2]. destruct (dstep d it) as [d1|] eqn:St; try discriminate.
      rewrite (IH _ _ _ Ok2 D), (dstep_own_imports _ _ _ St). destruct it; try discriminate Ok1; apply app_nil_r.
  Qed.

  Lemma run_ty_decode st d rq st1 ty :
    decode_from d_init (e_log st) = Some d -> run_ty tau st rq = ROk (st1, ty) ->
    exists d1, decode_from d_init (e_log st1) = Some d1 /\ sp_ext (d_sp d) (d_sp d1) /\ same_structure d d1 /\
               own_imports d1 = own_imports d /\
               forall k idx under, In (k, (idx, under)) (e_reg st1) ->
                 In (k, (idx, under)) (e_reg st) \/ look (d_sp d1) SInstance idx = Some (PImp under).
  Proof.
    intros A R. apply run_ty_inv in R as [its [L [O [_ [_ [_ [_ Rg]]]]]]].
    pose proof O as O'. rewrite <- (decode_length _ _ SInstance A) in O'.
    destruct (ty_items_decode its d _ eq_refl O') as [d1 [Dd [X S]]].
    exists d1. split; [rewrite L, decode_from_app, A; exact Dd|]. split; [exact X|]. split; [exact S|].
    split; [exact (ty_items_own_imports _ _ _ _ O Dd)|]. rewrite Rg, <- (decode_length _ _ SInstance A).
    exact (ty_items_reg its d _ (e_reg st) d1 eq_refl O' Dd).
  Qed.

  Lemma LInv_ty base done st d rq st1 ty :
    LInv base done st d -> run_ty tau st rq = ROk (st1, ty) -> exists d1, LInv base done st1 d1.
  Proof.
    intros [A B C D E F] R. destruct (run_ty_decode _ _ _ _ _ A R) as [d1 [A1 [X [[S1 [S2 S3]] [S4 _]]]]].
    apply run_ty_inv in R as [its [_ [_ [N [P [I _]]]]]].
    exists d1. constructor; auto.
    - rewrite N. eapply NidxOK_ext; eauto.
    - intros n. unfold impl_of. rewrite I. eapply look_args_ext; [exact X | apply C].
    - now rewrite S1.
    - now rewrite S2.
    - eapply PInv_ext; eauto.
  Qed.

  Lemma is_inst_true n : is_inst g n = true <-> exists nd sat, get_node g n = Some nd /\ nk nd = NInst sat.
  Proof.
    unfold is_inst. split.
    - destruct (get_node g n) as [nd|]; [|discriminate]. destruct (nk nd) eqn:K; try discriminate. eauto.
    - intros [nd [sat [-> ->]]]. reflexivity.
  Qed.
  Lemma is_def_true n : is_def g n = true <-> exists nd, get_node g n = Some nd /\ nk nd = NDef.
  Proof.
    unfold is_def. split.
    - destruct (get_node g n) as [nd|]; [|discriminate]. destruct (nk nd) eqn:K; try discriminate. eauto.
    - intros [nd [-> ->]]. reflexivity.
  Qed.

  Lemma filter_inst_other : filter (is_inst g) other = filter (is_inst g) ord.
  Proof.
    apply filter_filter_sub. intros n. unfold is_inst, is_import.
    destruct (get_node g n) as [nd|]; [|discriminate]. now destruct (nk nd).
  Qed.
  Lemma filter_def_other : filter (is_def g) other = filter (is_def g) ord.
  Proof.
    apply filter_filter_sub. intros n. unfold is_def, is_import.
    destruct (get_node g n) as [nd|]; [|discriminate]. now destruct (nk nd).
  Qed.

  Lemma done_pkgs_snoc done n : done_pkgs (done ++ [n]) = done_pkgs done ++ (if is_inst g n then opt_list (node_pkg g n) else []).
  Proof. unfold done_pkgs. rewrite filter_snoc, flat_map_app. destruct (is_inst g n); cbn; now rewrite ?app_nil_r. Qed.

  Lemma set_nidx_inv st n idx st1 :
    set_nidx st n idx = ROk st1 ->
    nat_assoc n (e_nidx st) = None /\ e_log st1 = e_log st /\ e_nidx st1 = (n, idx) :: e_nidx st /\
    e_pkgs st1 = e_pkgs st /\ e_impl st1 = e_impl st /\ e_dedup st1 = e_dedup st.
  Proof.
    unfold set_nidx. destruct (nat_assoc n (e_nidx st)); try discriminate. intros H. injection H as <-. cbn. repeat split; auto.
  Qed.

  Lemma step_alias base done st d n nd st1 :
    LInv base done st d -> In n ord -> get_node g n = Some nd -> nk nd = NAlias ->
    enc_alias e u g st n = ROk st1 -> exists d1, LInv base (done ++ [n]) st1 d1.
  Proof.
    intros [A B C D E F] In_n G K R. unfold enc_alias in R.
    destruct (get_alias_source u g n) as [[src en]|] eqn:As; try discriminate.
    destruct (get_node g src) as [sn|] eqn:Gs; try discriminate.
    destruct (u_inst_exports u (nitem sn)) as [ex|] eqn:Ux; try discriminate.
    destruct (alist_get N.eqb ex en) as [k|] eqn:Ak; try discriminate.
    destruct (nat_assoc src (e_nidx st)) as [inst|] eqn:Ns; try discriminate.
    apply set_nidx_inv in R as [_ [L [N [P [I _]]]]]. cbn in L, N, P, I.
    destruct (B _ _ Ns) as [In_s Ls].
    assert (Ss : ns src = SInstance) by (unfold node_sort; rewrite Gs; exact (ei_inst_sort EI _ _ Ux)).
    assert (Sn : we_sort e k = ns n) by (unfold node_sort; rewrite G; exact (ei_alias_kind EI _ _ _ _ _ _ _ G K As Gs Ux Ak)).
    rewrite Ss in Ls. rewrite Sn in L, N. rewrite <- (decode_length _ _ (ns n) A) in N.
    assert (Ni : is_inst g n = false) by (unfold is_inst; now rewrite G, K).
    assert (Nd : is_def g n = false) by (unfold is_def; now rewrite G, K).
    exists (with_sp d (push (d_sp d) (ns n) (np n))). constructor; cbn.
    - rewrite L, (decode_from_snoc _ _ _ _ A). cbn. rewrite Ls, (node_prov_alias e u g ord T n nd src en); auto.
    - rewrite N. now apply NidxOK_push.
    - intros m. unfold impl_of. rewrite I. eapply look_args_ext; [apply sp_ext_push | apply C].
    - now rewrite filter_snoc, Ni, app_nil_r.
    - now rewrite filter_snoc, Nd, app_nil_r.
    - rewrite done_pkgs_snoc, Ni, app_nil_r. apply (PInv_ext _ _ _ _ _ _ F); [apply sp_ext_push | exact P | reflexivity | reflexivity].
  Qed.

  Lemma def_name_in_names n : In n ord -> is_def g n = true -> str_mem (def_name e g n) (def_names e g) = true.
  Proof.
    intros I Dn. unfold str_mem, def_names. apply existsb_exists. exists (def_name e g n). split.
    - apply in_map. apply filter_In. split; auto. apply node_ids_live_iff. now apply (to_live _ _ T).
    - apply str_eqb_refl.
  Qed.

  Lemma step_def base done st d n nd st1 :
    LInv base done st d -> In n ord -> get_node g n = Some nd -> nk nd = NDef ->
    enc_definition e tau st n nd = ROk st1 -> exists d1, LInv base (done ++ [n]) st1 d1.
  Proof.
    intros LI In_n G K R. unfold enc_definition in R.
    destruct (nexport nd) as [nm|] eqn:X; try discriminate.
    apply bind_ok in R as [[st' ty] [Rt R]].
    destruct (negb (ty <? cnt SType (e_log st'))) eqn:Lt; try discriminate.
    apply negb_false_iff, Nat.ltb_lt in Lt.
    destruct (LInv_ty _ _ _ _ _ _ _ LI Rt) as [d' [A B C D E F]].
    apply set_nidx_inv in R as [_ [L [N [P [I _]]]]]. cbn in L, N, P, I.
    assert (Sn : SType = ns n) by (unfold node_sort; rewrite G; symmetry; exact (ei_def_node EI _ _ G K)).
    rewrite <- (decode_length _ _ SType A) in Lt, N.
    destruct (nth_error (d_sp d' SType) ty) as [p|] eqn:Lk; [|apply nth_error_None in Lk; lia].
    pose proof (ei_def_name EI _ _ _ G K X) as En.
    assert (Dn : is_def g n = true) by (unfold is_def; now rewrite G, K).
    assert (Ni : is_inst g n = false) by (unfold is_inst; now rewrite G, K).
    exists {| d_sp := push (d_sp d') (ns n) (np n); d_insts := d_insts d';
              d_exports := d_exports d' ++ [(nstr e nm, SType, p)]; d_comps := d_comps d'; d_imports := d_imports d' |}.
    constructor; cbn.
    - rewrite L, (decode_from_snoc _ _ _ _ A). cbn. unfold look.
      rewrite Lk, <- Sn, (node_prov_def e u g ord n nd G K), <- En. reflexivity.
    - rewrite N, Sn. now apply NidxOK_push.
    - intros m. unfold impl_of. rewrite I. eapply look_args_ext; [apply sp_ext_push | apply C].
    - now rewrite filter_snoc, Ni, app_nil_r.
    - rewrite map_app, E, filter_snoc, Dn, map_app. cbn. now rewrite En, (def_name_in_names n In_n Dn).
    - rewrite done_pkgs_snoc, Ni, app_nil_r. apply (PInv_ext _ _ _ _ _ _ F); [apply sp_ext_push | exact P | reflexivity | reflexivity].
  Qed.

  (** the component of the package: looked up, embedded, or imported; this is the first [bind] of
      [EncodeModel.enc_instantiation] and must stay in step with it ([step_inst] uses it by conversion) *)
  Definition comp_phase (st : est) (pid : pkgid) (p : nat) : res (est * nat) :=
    match pkg_assoc pid (e_pkgs st) with
    | Some ci => ROk (st, ci)
    | None =>
        bind (if dc then ROk (emit st (IComponent (we_digest e p)), cnt SComponent (e_log st))
              else bind (run_ty tau st (TImport (pkg_import_name e p) SComponent))
                        (fun x => let '(st0, _) := x in
                                  ROk (emit st0 (IImport (pkg_import_name e p) SComponent), cnt SComponent (e_log st0))))
             (fun x => let '(st1, ci) := x in
                ROk ({| e_log := e_log st1; e_nidx := e_nidx st1; e_pkgs := (pid, ci) :: e_pkgs st1; e_reg := e_reg st1;
                        e_impl := e_impl st1; e_dedup := e_dedup st1 |}, ci))
    end.

  Lemma comp_phase_ok base pk st d pid p st1 ci :
    decode_from d_init (e_log st) = Some d -> PInv base (nodup_nat pk) st d -> get_pkg g pid = Some p ->
    comp_phase st pid p = ROk (st1, ci) ->
    exists d1,
      decode_from d_init (e_log st1) = Some d1 /\ sp_ext (d_sp d) (d_sp d1) /\
      d_insts d1 = d_insts d /\ d_exports d1 = d_exports d /\ e_nidx st1 = e_nidx st /\ e_impl st1 = e_impl st /\
      look (d_sp d1) SComponent ci = Some (pkg_prov p) /\ PInv base (nodup_nat (pk ++ [p])) st1 d1.
  Proof.
    intros A PV Gp R. pose proof PV as [PL PD PC PI]. unfold comp_phase in R. rewrite nodup_nat_snoc.
    destruct (pkg_assoc pid (e_pkgs st)) as [ci0|] eqn:PA.
    - injection R as <- <-. destruct (PL _ _ PA) as [p' [Gp' [Ip Lk]]].
      assert (p' = p) by congruence. subst p'. apply -> nodup_nat_In in Ip.
      exists d. repeat (split; [solve [auto using sp_ext_refl]|]). now rewrite (proj2 (existsb_eqb_In _ _) Ip), app_nil_r.
    - assert (Np : ~ In p pk).
      { intros Ip. apply <- nodup_nat_In in Ip. destruct (PD _ Ip) as [pid' [ci' [Gq Aq]]].
        assert (pid' = pid) by (eapply ei_pkg_inj; eauto). subst. congruence. }
      rewrite (proj2 (existsb_eqb_notIn _ _) Np).
      apply bind_ok in R as [[st' ci'] [R1 R]]. injection R as <- <-.
      assert (Fr : exists d1, decode_from d_init (e_log st') = Some d1 /\ sp_ext (d_sp d) (d_sp d1) /\
                d_insts d1 = d_insts d /\ d_exports d1 = d_exports d /\
                e_nidx st' = e_nidx st /\ e_impl st' = e_impl st /\ e_pkgs st' = e_pkgs st /\
                look (d_sp d1) SComponent ci' = Some (pkg_prov p) /\
                d_comps d1 = d_comps d ++ (if dc then [we_digest e p] else []) /\
                own_imports d1 = own_imports d ++ (if dc then [] else [(pkg_import_name e p, SComponent)])).
      { unfold pkg_prov. destruct dc.
        - injection R1 as <- <-. eexists. split; [cbn; rewrite (decode_from_snoc _ _ _ _ A); reflexivity|]. cbn.
          split; [apply sp_ext_push|]. repeat (split; [reflexivity|]). split; [|split; [reflexivity|]].
          + rewrite <- (decode_length _ _ SComponent A). apply look_push_new.
          + symmetry. apply app_nil_r.
        - apply bind_ok in R1 as [[st0 ty] [Rt R1]]. injection R1 as <- <-.
          destruct (run_ty_decode _ _ _ _ _ A Rt) as [d0 [A0 [X0 [[S1 [S2 S3]] [S4 _]]]]].
          apply run_ty_inv in Rt as [its [_ [_ [N0 [P0 [I0 _]]]]]].
          eexists. split; [cbn; rewrite (decode_from_snoc _ _ _ _ A0); reflexivity|]. cbn.
          split; [eapply sp_ext_trans; [exact X0 | apply sp_ext_push]|]. repeat (split; [assumption|]).
          split; [|split].
          + rewrite <- (decode_length _ _ SComponent A0). apply look_push_new.
          + now rewrite S3, app_nil_r.
          + rewrite <- S4. unfold own_imports. cbn. now rewrite flat_map_app. }
      destruct Fr as [d1 [A1 [X1 [Si [Se [N1 [I1 [P1 [Lc [Cc Ci]]]]]]]]]].
      exists d1. cbn. repeat (split; [assumption|]). constructor; cbn; rewrite ?P1.
      + intros pid' c' H. rewrite pkg_assoc_cons in H. destruct (pkgid_eqb pid pid') eqn:Eq.
        * apply pkgid_eqb_eq in Eq. subst pid'. injection H as <-. exists p. repeat split; auto. apply in_or_app. right. cbn. auto.
        * destruct (PL _ _ H) as [q [? [? Lq]]]. exists q. repeat split; auto; [apply in_or_app; auto | eapply sp_ext_look; eauto].
      + intros q Hq. apply in_app_or in Hq as [Hq|[<-|[]]].
        * destruct (PD _ Hq) as [pid' [c' [Gq Aq]]]. exists pid', c'. split; auto.
          rewrite pkg_assoc_cons. destruct (pkgid_eqb pid pid') eqn:Eq; auto.
          apply pkgid_eqb_eq in Eq. subst. congruence.
        * exists pid, ci'. split; auto. rewrite pkg_assoc_cons, pkgid_eqb_refl. reflexivity.
      + rewrite Cc, PC. destruct dc; [rewrite map_app|]; reflexivity.
      + rewrite Ci, PI, <- app_assoc. destruct dc; [|rewrite map_app]; reflexivity.
  Qed.

  Lemma rank_at done n post : other = done ++ n :: post -> is_inst g n = true -> rank g ord n = length (filter (is_inst g) done).
  Proof.
    intros Eo Hi. unfold rank. rewrite <- filter_inst_other, Eo, filter_app_mid by auto.
    apply index_of_app_notin. intros I. apply filter_In in I as [I _].
    assert (N : NoDup (done ++ n :: post)) by (rewrite <- Eo; apply NoDup_filter, (to_nodup _ _ T)).
    apply NoDup_remove_2 in N. apply N. apply in_or_app. auto.
  Qed.

  Lemma step_inst base done st d n nd sat post st1 :
    LInv base done st d -> In n ord -> other = done ++ n :: post ->
    get_node g n = Some nd -> nk nd = NInst sat ->
    enc_instantiation e u g dc tau st n nd = ROk st1 -> exists d1, LInv base (done ++ [n]) st1 d1.
  Proof.
    intros [A B C D E F] In_n Eo G K R.
    assert (Hi : is_inst g n = true) by (unfold is_inst; now rewrite G, K).
    assert (Nd : is_def g n = false) by (unfold is_def; now rewrite G, K).
    unfold enc_instantiation in R.
    destruct (npkg nd) as [pid|] eqn:Np; try discriminate.
    destruct (get_pkg g pid) as [p|] eqn:Gp; try discriminate.
    destruct (inst_imports u g nd) as [imps|] eqn:Im; try discriminate.
    apply bind_ok in R as [[st' ci] [Rc R]]. apply bind_ok in R as [args [Ra R]].
    destruct (comp_phase_ok _ _ _ _ _ _ _ _ A F Gp Rc) as [d' [A' [X' [Si [Se [N' [I' [Lc F']]]]]]]].
    apply set_nidx_inv in R as [_ [L [N [P [I _]]]]]. cbn in L, N, P, I.
    pose proof (NidxOK_ext _ _ _ B X') as B'. rewrite <- N' in B'.
    assert (La : look_args (d_sp d') args = Some (explicit_args e u g ord n)).
    { unfold explicit_args. rewrite G, Im.
      apply (fold_ok_ind _ (fun pre l => look_args (d_sp d') l = Some (flat_map _ pre)) _ _ _ (fun _ _ => eq_refl) Ra); [reflexivity|].
      intros pre ed post' l l1 _ IH St. cbn [bind] in St.
      destruct (nat_assoc (esrc ed) (e_nidx st')) as [idx|] eqn:Ai; try discriminate.
      destruct (B' _ _ Ai) as [_ Lk].
      destruct (ek ed) as [|i|] eqn:Ke; try discriminate.
      destruct (nth_error imps i) as [[nm k]|] eqn:Ni; try discriminate. injection St as <-.
      rewrite flat_map_snoc, look_args_app, IH. cbn. now rewrite Ke, Ni, Lk. }
    assert (Li : forall m, look_args (d_sp d') (impl_of st' m) = Some (implicit_args e u g m)).
    { intros m. unfold impl_of. rewrite I'. eapply look_args_ext; [exact X' | apply C]. }
    assert (Np' : node_pkg g n = Some p) by (unfold node_pkg; now rewrite G, Np).
    assert (Sn : SInstance = ns n) by (unfold node_sort; rewrite G; symmetry; exact (ei_inst_node EI _ _ _ G K)).
    rewrite <- (decode_length _ _ SInstance A') in N.
    exists {| d_sp := push (d_sp d') (ns n) (np n); d_insts := d_insts d' ++ [spec_inst e u g dc ord n];
              d_exports := d_exports d'; d_comps := d_comps d'; d_imports := d_imports d' |}.
    constructor; cbn.
    - pose proof (Li n) as Ln. unfold impl_of in Ln.
      rewrite L, (decode_from_snoc _ _ _ _ A'). cbn. rewrite Lc, look_args_app, La, Ln, <- Sn.
      rewrite (node_prov_inst e u g ord n nd sat G K), (rank_at _ _ _ Eo Hi), Si, D, map_length.
      unfold spec_inst, comp_prov, pkg_prov. now rewrite Np'.
    - rewrite N, Sn. now apply NidxOK_push.
    - intros m. unfold impl_of. rewrite I. eapply look_args_ext; [apply sp_ext_push | apply Li].
    - now rewrite Si, D, filter_snoc, Hi, map_app.
    - now rewrite Se, filter_snoc, Nd, app_nil_r.
    - rewrite done_pkgs_snoc, Hi, Np'. apply (PInv_ext _ _ _ _ _ _ F'); [apply sp_ext_push | exact P | reflexivity | reflexivity].
  Qed.

  Lemma node_loop base st0 d0 st1 :
    LInv base [] st0 d0 ->
    fold_left (fun acc n => bind acc (fun st => enc_node e u g dc tau st n)) other (ROk st0) = ROk st1 ->
    exists d1, LInv base other st1 d1.
  Proof.
    intros L0 F.
    apply (fold_ok_ind _ (fun done st => exists d, LInv base done st d) _ _ _ (fun _ _ => eq_refl) F); [eauto|].
    intros pre n post st st' Eo [d LI] R. cbn [bind] in R.
    assert (In_n : In n ord).
    { assert (I : In n other) by (rewrite Eo; apply in_or_app; cbn; auto). apply filter_In in I. tauto. }
    unfold enc_node in R. destruct (get_node g n) as [nd|] eqn:G; try discriminate.
    destruct (nk nd) eqn:K; try discriminate.
    - eapply step_def; eauto.
    - eapply step_inst; eauto.
    - eapply step_alias; eauto.
  Qed.

  Lemma enc_node_dedup st n st1 : enc_node e u g dc tau st n = ROk st1 -> e_dedup st1 = e_dedup st.
  Proof.
    unfold enc_node. destruct (get_node g n) as [nd|]; try discriminate. destruct (nk nd); try discriminate; intros R.
    - unfold enc_definition in R. destruct (nexport nd); try discriminate.
      apply bind_ok in R as [[s' ty] [Rt R]]. destruct (negb _); try discriminate.
      apply set_nidx_inv in R as [_ [_ [_ [_ [_ D]]]]]. apply run_ty_inv in Rt as [its [_ [_ [_ [_ [_ [Dt _]]]]]]].
      cbn in D. congruence.
    - unfold enc_instantiation in R. destruct (npkg nd) as [pid|]; try discriminate.
      destruct (get_pkg g pid) as [p|]; try discriminate. destruct (inst_imports u g nd) as [imps|]; try discriminate.
      apply bind_ok in R as [[s' ci] [Rc R]]. apply bind_ok in R as [args [_ R]].
      apply set_nidx_inv in R as [_ [_ [_ [_ [_ D]]]]]. cbn in D. rewrite D. clear D.
      destruct (pkg_assoc pid (e_pkgs st)); [now injection Rc as <- <-|].
      apply bind_ok in Rc as [[s'' ci'] [Rc Rc']]. injection Rc' as <- <-. cbn.
      destruct dc; [now injection Rc as <- <-|].
      apply bind_ok in Rc as [[s0 ty] [Rt Rc]]. injection Rc as <- <-. cbn.
      now apply run_ty_inv in Rt as [its [_ [_ [_ [_ [_ [Dt _]]]]]]].
    - unfold enc_alias in R. destruct (get_alias_source u g n) as [[src en]|]; try discriminate.
      destruct (get_node g src) as [sn|]; try discriminate. destruct (u_inst_exports u (nitem sn)) as [ex|]; try discriminate.
      destruct (alist_get N.eqb ex en); try discriminate. destruct (nat_assoc src (e_nidx st)); try discriminate.
      now apply set_nidx_inv in R as [_ [_ [_ [_ [_ D]]]]].
  Qed.

  Definition export_entry (p : name * nat) : list parg :=
    if is_def g (snd p) && str_eqb (nstr e (fst p)) (def_name e g (snd p)) then []
    else [(nstr e (fst p), ns (snd p), np (snd p))].

  (** invariant of the exports loop over a prefix [pre] of [exports g], relative to the state [st1]/[d1]
      the node loop left: only the index spaces and the exports grow *)
  Record XInv (st1 : est) (d1 : dstate) (pre : list (name * nat)) (st : est) (d : dstate) : Prop := {
    xi_dec : decode_from d_init (e_log st) = Some d;
    xi_ext : sp_ext (d_sp d1) (d_sp d);
    xi_nidx : e_nidx st = e_nidx st1;
    xi_insts : d_insts d = d_insts d1;
    xi_comps : d_comps d = d_comps d1;
    xi_imports : own_imports d = own_imports d1;
    xi_exports : map erase1 (d_exports d) = map erase1 (d_exports d1) ++ flat_map export_entry pre }.

  Lemma exports_loop base done st1 d1 st2 :
    LInv base done st1 d1 -> enc_exports e g st1 = ROk st2 -> exists d2, XInv st1 d1 (exports g) st2 d2.
  Proof.
    intros [A1 B1 _ _ _ _] F. unfold enc_exports in F.
    apply (fold_ok_ind _ (fun pre st => exists d, XInv st1 d1 pre st d) _ _ _ (fun _ _ => eq_refl) F).
    - exists d1. constructor; auto using sp_ext_refl. cbn. now rewrite app_nil_r.
    - intros pre [nm n] post st st' El [d [A X N I C M E]] R. cbn [bind fst snd] in R.
      assert (Ie : In (nm, n) (exports g)) by (rewrite El; apply in_or_app; cbn; auto).
      destruct (is_def g n) eqn:Dn.
      + injection R as <-. exists d. constructor; auto.
        assert (Z : export_entry (nm, n) = []).
        { unfold export_entry. cbn. now rewrite Dn, (ei_def_single EI _ _ Ie Dn), str_eqb_refl. }
        now rewrite flat_map_snoc, Z, app_nil_r.
      + destruct (nat_assoc n (e_nidx st)) as [idx|] eqn:Na; try discriminate. injection R as <-.
        rewrite N in Na. destruct (B1 _ _ Na) as [_ Lk].
        pose proof (sp_ext_look _ _ _ _ _ X Lk) as Lk'.
        exists {| d_sp := push (d_sp d) (ns n) (PExp (nstr e nm)); d_insts := d_insts d;
                  d_exports := d_exports d ++ [(nstr e nm, ns n, np n)]; d_comps := d_comps d; d_imports := d_imports d |}.
        constructor; auto.
        * cbn. rewrite (decode_from_snoc _ _ _ _ A). cbn. now rewrite Lk'.
        * eapply sp_ext_trans; [exact X | apply sp_ext_push].
        * assert (Z : export_entry (nm, n) = [(nstr e nm, ns n, np n)]) by (unfold export_entry; cbn; now rewrite Dn).
          cbn. rewrite map_app, E, flat_map_snoc, Z, <- app_assoc. f_equal. f_equal. cbn.
          rewrite (ei_nondef_names EI _ _ Ie Dn), andb_false_r. reflexivity.
  Qed.

  Definition name_entry (sn : sort * nat) : list (sort * str * prov) :=
    match get_node g (snd sn) with
    | Some nd => match nname nd with
                 | Some nm => if sort_eqb (we_sort e (nitem nd)) (fst sn) then [(fst sn, nstr e nm, np (snd sn))] else []
                 | None => [] end
    | None => []
    end.

  Lemma names_loop st sp names :
    NidxOK (e_nidx st) sp -> enc_names e g st = ROk names -> look_names sp names = Some (spec_names e u g ord).
  Proof.
    intros Nx F. unfold enc_names in F.
    assert (S : spec_names e u g ord = flat_map name_entry (list_prod name_sorts (node_ids g))).
    { rewrite flat_map_list_prod. reflexivity. }
    rewrite S.
    apply (fold_ok_ind _ (fun pre l => look_names sp l = Some (flat_map name_entry pre)) _ _ _ (fun _ _ => eq_refl) F); [reflexivity|].
    intros pre [s n] post l l' _ IH R. cbn [bind] in R. rewrite flat_map_snoc. unfold name_entry. cbn [fst snd].
    destruct (get_node g n) as [nd|] eqn:G; [|injection R as <-; now rewrite app_nil_r].
    destruct (nname nd) as [nm|]; [|injection R as <-; now rewrite app_nil_r].
    destruct (sort_eqb (we_sort e (nitem nd)) s) eqn:Es; [|injection R as <-; now rewrite app_nil_r].
    destruct (nat_assoc n (e_nidx st)) as [idx|] eqn:Na; try discriminate. injection R as <-.
    apply sort_eqb_eq in Es. destruct (Nx _ _ Na) as [_ Lk]. unfold node_sort in Lk. rewrite G, Es in Lk.
    rewrite look_names_app, IH. cbn. now rewrite Lk.
  Qed.

  Definition later_phases (st0 : est) : res (est * list (sort * nat * str)) :=
    bind (fold_left (fun acc n => bind acc (fun st => enc_node e u g dc tau st n)) other (ROk st0))
      (fun st1 => bind (enc_exports e g st1) (fun st2 => bind (enc_names e g st2) (fun nms => ROk (st2, nms)))).

  Lemma encode_with_order_eq :
    encode_with_order e u g dc tau ord = bind (encode_imports e u g tau est_init (filter (is_import g) ord)) later_phases.
  Proof. reflexivity. Qed.

  Lemma later_dedup st0 st names : later_phases st0 = ROk (st, names) -> e_dedup st = e_dedup st0.
  Proof.
    intros R. apply bind_ok in R as [st1 [R1 R]]. apply bind_ok in R as [st2 [R2 R]]. apply bind_ok in R as [nms [_ R]].
    injection R as <- _. transitivity (e_dedup st1).
    - unfold enc_exports in R2.
      apply (fold_ok_ind _ (fun _ s => e_dedup s = e_dedup st1) _ _ _ (fun _ _ => eq_refl) R2); auto.
      intros pre p post s s1 _ IH Rs. cbn [bind] in Rs. destruct (is_def g (snd p)); [now injection Rs as <-|].
      destruct (nat_assoc (snd p) (e_nidx s)); try discriminate. now injection Rs as <-.
    - apply (fold_ok_ind _ (fun _ s => e_dedup s = e_dedup st0) _ _ _ (fun _ _ => eq_refl) R1); auto.
      intros pre n post s s1 _ IH Rn. rewrite <- IH. exact (enc_node_dedup _ _ _ Rn).
  Qed.

  Theorem later_phases_ok base st0 d0 st names :
    LInv base [] st0 d0 -> later_phases st0 = ROk (st, names) ->
    exists d, decode_from d_init (e_log st) = Some d /\
      option_map (erase_defs (def_names e g)) (decode_wiring names (e_log st)) = Some (wiring_spec e u g dc ord) /\
      own_imports d = base ++ (if dc then [] else map (fun p => (pkg_import_name e p, SComponent)) (pkgs_in_order g ord)).
  Proof.
    intros L0 R.
    apply bind_ok in R as [st1 [R1 R]]. apply bind_ok in R as [st2 [R2 R]]. apply bind_ok in R as [nms [R3 R]].
    injection R as <- <-.
    destruct (node_loop _ _ _ _ L0 R1) as [d1 LI1].
    destruct (exports_loop _ _ _ _ _ LI1 R2) as [d2 [A X N I C M E]].
    destruct LI1 as [_ B1 _ D1 E1 [_ _ C1 M1]].
    assert (Nx : NidxOK (e_nidx st2) (d_sp d2)) by (rewrite N; exact (NidxOK_ext _ _ _ B1 X)).
    pose proof (names_loop _ _ _ Nx R3) as Ln.
    unfold done_pkgs in C1, M1. rewrite filter_inst_other in D1, C1, M1. rewrite filter_def_other in E1.
    exists d2. split; [exact A|]. split.
    - unfold decode_wiring. rewrite A, Ln. cbn. unfold erase_defs, wiring_spec. cbn. f_equal. f_equal.
      + now rewrite I.
      + change (map erase1 (d_exports d2) = spec_exports e u g ord). now rewrite E, E1.
      + now rewrite C.
    - now rewrite M.
  Qed.
End Sim.
