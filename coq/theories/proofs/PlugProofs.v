(** Proofs for property C10 (plugging): the export-first algorithm of [Plug.plug] against the
    import-first reading [PlugSpec]. *)
From Coq Require Import List Arith Bool NArith Lia.
From WacV Require Import Str Names ListFacts NamesProofs Graph GraphInv GraphLive Plug PlugSpec.
Import ListNotations.
Local Open Scope nat_scope.

Lemma get_node_set_node s n nd0 nd m : get_node s n = Some nd0 ->
  get_node (set_node s n (Some nd)) m = if m =? n then Some nd else get_node s m.
Proof.
  intros G. exact (getn_set_live (nodes s) n nd0 (Some nd) m G).
Qed.

Lemma get_full_spec {B} (l : list (name * B)) k i j v :
  get_full l k i = Some (j, v) -> i <= j /\ nth_error l (j - i) = Some (k, v).
Proof.
  revert i. induction l as [|[k' v0] l IH]; intros i; cbn; [discriminate|].
  destruct (N.eqb_spec k' k) as [->|NE].
  - intros E. injection E as <- <-. rewrite Nat.sub_diag. auto.
  - intros E. apply IH in E. destruct E as (L & N). split; [lia|].
    replace (j - i) with (S (j - S i)) by lia. exact N.
Qed.

Lemma get_full_nth {B} (l : list (name * B)) k j v : get_full l k 0 = Some (j, v) -> nth_error l j = Some (k, v).
Proof. intros E. apply get_full_spec in E. rewrite Nat.sub_0_r in E. apply E. Qed.

Lemma get_full_from {B} (l : list (name * B)) i k v off :
  NoDup (map fst l) -> nth_error l i = Some (k, v) -> get_full l k off = Some (off + i, v).
Proof.
  revert i off. induction l as [|[k' v'] l IH]; intros [|i] off ND N; try discriminate; cbn in *;
    inversion ND as [|? ? NI ND']; subst.
  - injection N as -> ->. rewrite N.eqb_refl, Nat.add_0_r. reflexivity.
  - destruct (N.eqb_spec k' k) as [->|NE].
    + destruct NI. exact (in_map fst _ _ (nth_error_In _ _ N)).
    + rewrite (IH i (S off) ND' N), Nat.add_succ_r. reflexivity.
Qed.

Lemma get_full_of_nth {B} (l : list (name * B)) i k v :
  NoDup (map fst l) -> nth_error l i = Some (k, v) -> get_full l k 0 = Some (i, v).
Proof. exact (get_full_from l i k v 0). Qed.

Lemma get_full_in {B} (l : list (name * B)) k v : NoDup (map fst l) -> In (k, v) l ->
  exists j, get_full l k 0 = Some (j, v) /\ nth_error l j = Some (k, v).
Proof.
  intros ND I. destruct (In_nth_error _ _ I) as (j & N). exists j. split; [exact (get_full_of_nth l j k v ND N)|exact N].
Qed.

Lemma alist_get_none {B} (l : list (name * B)) k : alist_get N.eqb l k = None -> ~ In k (map fst l).
Proof.
  apply alist_get_None.
Qed.

Lemma Forall2_nth_right {A B} (R : A -> B -> Prop) l l' k x :
  Forall2 R l l' -> nth_error l' k = Some x -> exists p, nth_error l k = Some p /\ R p x.
Proof.
  intros F. revert k. induction F as [|a b l l' Rab _ IH]; intros [|k] N; try discriminate; cbn in *.
  - injection N as <-. eauto.
  - apply IH. exact N.
Qed.

Section Matching.
  Variable text : name -> str.
  Variable sub : kid -> kid -> bool.

  Lemma in_plug_matches imps exps e m :
    In (e, m) (plug_matches text sub imps exps) <->
    exists ke t, In (e, ke) exps /\ find_target text imps e = Some (m, t) /\ sub ke t = true.
  Proof.
    unfold plug_matches. rewrite in_flat_map. split.
    - intros ([e0 ke] & I & M). cbn [fst snd] in M.
      destruct (find_target text imps e0) as [[m' t]|] eqn:F; [|destruct M].
      destruct (sub ke t) eqn:S; [|destruct M]. destruct M as [M|[]]. injection M as -> ->.
      exists ke, t. auto.
    - intros (ke & t & I & F & S). exists (e, ke). split; [exact I|]. cbn [fst snd]. rewrite F, S. left. reflexivity.
  Qed.

  Lemma find_target_in imps e m t :
    find_target text imps e = Some (m, t) -> In (m, t) imps /\ compat (text e) (text m) = true.
  Proof.
    unfold find_target. destruct (alist_get N.eqb imps e) as [t0|] eqn:A.
    - intros E. injection E as <- <-. split; [apply alist_get_In; exact A|apply compat_refl].
    - intros F. apply find_some in F. exact F.
  Qed.

  (** every pair of the algorithm is an offer of the import-first reading, when the plug does not
      export two names on one track *)
  Lemma match_is_offer imps exps e m :
    tracks_distinct text (map fst exps) ->
    In (e, m) (plug_matches text sub imps exps) ->
    exists t, In (m, t) imps /\ offer text sub exps (m, t) = Some e.
  Proof.
    intros TD M. apply in_plug_matches in M. destruct M as (ke & t & I & F & S).
    destruct (find_target_in _ _ _ _ F) as (Im & C). exists t. split; [exact Im|].
    unfold offer. cbn [fst snd].
    destruct (find (fun e0 => N.eqb (fst e0) m && sub (snd e0) t) exps) as [e'|] eqn:F1.
    - apply find_some in F1. destruct F1 as (I1 & P1). apply andb_prop in P1. destruct P1 as (P1 & _).
      apply N.eqb_eq in P1. f_equal.
      apply TD; [apply (in_map fst) in I1; exact I1|apply (in_map fst) in I; exact I|].
      rewrite P1. rewrite compat_sym. exact C.
    - destruct (find (fun e0 => compat (text (fst e0)) (text m) && sub (snd e0) t) exps) as [e'|] eqn:F2.
      + apply find_some in F2. destruct F2 as (I2 & P2). apply andb_prop in P2. destruct P2 as (P2 & _). f_equal.
        apply TD; [apply (in_map fst) in I2; exact I2|apply (in_map fst) in I; exact I|].
        eapply compat_trans; [exact P2|]. rewrite compat_sym. exact C.
      + exfalso. apply (find_none _ _ F2) in I. cbn [fst snd] in I. rewrite C, S in I. discriminate.
  Qed.

  Lemma in_suppliers_from k0 pls i k e :
    In (k, e) (suppliers_from text sub k0 pls i) <->
    exists j exps, k = k0 + j /\ nth_error pls j = Some exps /\ offer text sub exps i = Some e.
  Proof.
    revert k0. induction pls as [|exps pls IH]; intros k0; cbn [suppliers_from].
    - split; [intros []|]. intros ([|j] & x & _ & N & _); discriminate.
    - assert (T : In (k, e) (suppliers_from text sub (S k0) pls i) <->
                  exists j x, k = k0 + S j /\ nth_error (exps :: pls) (S j) = Some x /\ offer text sub x i = Some e).
      { rewrite IH. split; intros (j & x & -> & R); exists j, x; (split; [|exact R]); [symmetry|]; apply Nat.add_succ_r. }
      destruct (offer text sub exps i) as [e0|] eqn:O; [cbn [In]|]; rewrite T; split.
      + intros [E|(j & x & R)]; [injection E as <- <-; exists 0, exps; rewrite Nat.add_0_r; auto|exists (S j), x; exact R].
      + intros ([|j] & x & -> & N & Ox); [left; injection N as <-; rewrite Nat.add_0_r; congruence|right; exists j, x; auto].
      + intros (j & x & R). exists (S j), x. exact R.
      + intros ([|j] & x & -> & N & Ox); [injection N as <-; congruence|exists j, x; auto].
  Qed.

  Lemma in_suppliers pls i k e :
    In (k, e) (suppliers text sub pls i) <-> exists exps, nth_error pls k = Some exps /\ offer text sub exps i = Some e.
  Proof.
    unfold suppliers. rewrite in_suppliers_from. split.
    - intros (j & x & -> & R). exists x. exact R.
    - intros (x & R). exists k, x. auto.
  Qed.

  (** plug positions only go up, so entries at one position are one entry *)
  Lemma suppliers_from_keys k0 pls i : NoDup (map fst (suppliers_from text sub k0 pls i)).
  Proof.
    revert k0. induction pls as [|exps pls IH]; intros k0; cbn [suppliers_from]; [constructor|].
    destruct (offer text sub exps i); [|apply IH]. cbn [map fst]. constructor; [|apply IH].
    intros Q. apply in_map_iff in Q. destruct Q as ([k e] & E & I). cbn in E. subst k.
    apply in_suppliers_from in I. destruct I as (j & _ & E & _). lia.
  Qed.

  Lemma suppliers_from_one k0 pls i :
    (forall k1 k2 e1 e2, In (k1, e1) (suppliers_from text sub k0 pls i) ->
                         In (k2, e2) (suppliers_from text sub k0 pls i) -> k1 = k2) ->
    length (suppliers_from text sub k0 pls i) <= 1.
  Proof.
    intros U. pose proof (suppliers_from_keys k0 pls i) as ND.
    destruct (suppliers_from text sub k0 pls i) as [|[k1 e1] [|[k2 e2] r]]; [apply Nat.le_0_l|apply le_n|].
    rewrite (U k1 k2 e1 e2) in ND by (cbn; auto). inversion ND as [|? ? NI _]. destruct NI. left. reflexivity.
  Qed.
End Matching.

(** the per-import dedupe of the repaired plug.rs ([unique_exports]) *)
Definition is_exact (m : name) (p : name * name) : bool := N.eqb (fst p) m && N.eqb (snd p) m.
Definition targets (m : name) (p : name * name) : bool := N.eqb (snd p) m.
Definition pick (l : list (name * name)) (m : name) : option name :=
  if existsb (is_exact m) l then Some m
  else match find (targets m) l with Some p => Some (fst p) | None => None end.

Lemma find_app_ {A} (f : A -> bool) l l' :
  find f (l ++ l') = match find f l with Some x => Some x | None => find f l' end.
Proof. induction l as [|x l IH]; cbn; [reflexivity|]. destruct (f x); auto. Qed.

Ltac dex l H := match goal with |- context [existsb ?f l] => destruct (existsb f l) eqn:H end.
Ltac dfi l H := match goal with |- context [find ?f l] => destruct (find f l) eqn:H end.

Lemma pick_in l m e : pick l m = Some e -> In (e, m) l.
Proof.
  unfold pick. dex l E.
  - intros Q. injection Q as <-. apply existsb_exists in E. destruct E as ([a b] & I & P). unfold is_exact in P. cbn in P.
    apply andb_prop in P. destruct P as (A & B). apply N.eqb_eq in A, B. subst. exact I.
  - dfi l F; [|discriminate]. destruct p as [a b]. intros Q. injection Q as <-.
    apply find_some in F. destruct F as (I & B). unfold targets in B. cbn in B. apply N.eqb_eq in B. subst. exact I.
Qed.

Lemma pick_none l m e : pick l m = None -> ~ In (e, m) l.
Proof.
  unfold pick. dex l E; [discriminate|]. dfi l F; [discriminate|].
  intros _ I. apply (find_none _ _ F) in I. unfold targets in I. cbn in I. rewrite N.eqb_refl in I. discriminate.
Qed.

Lemma pick_snoc l e1 m1 m :
  pick (l ++ [(e1, m1)]) m =
  if N.eqb m1 m then (if N.eqb e1 m1 then Some m1 else match pick l m with Some v => Some v | None => Some e1 end)
  else pick l m.
Proof.
  unfold pick. rewrite existsb_app, find_app_. cbn [existsb find]. rewrite orb_false_r.
  change (is_exact m (e1, m1)) with (N.eqb e1 m && N.eqb m1 m). change (targets m (e1, m1)) with (N.eqb m1 m).
  destruct (N.eqb_spec m1 m) as [->|NE].
  - rewrite andb_true_r. destruct (N.eqb_spec e1 m) as [->|NE1].
    + rewrite orb_true_r. reflexivity.
    + rewrite orb_false_r. dex l E; [reflexivity|]. dfi l F; reflexivity.
  - rewrite andb_false_r, orb_false_r. dex l E; [reflexivity|]. dfi l F; reflexivity.
Qed.

Lemma replace_first_snd m e acc : map snd (replace_first m e acc) = map snd acc.
Proof. induction acc as [|[e0 m0] r IH]; cbn; [reflexivity|]. destruct (N.eqb m0 m); cbn; congruence. Qed.

Lemma replace_first_in m1 e1 acc e m : NoDup (map snd acc) ->
  (In (e, m) (replace_first m1 e1 acc) <->
   (m = m1 /\ e = e1 /\ In m1 (map snd acc)) \/ (m <> m1 /\ In (e, m) acc)).
Proof.
  induction acc as [|[e0 m0] r IH]; cbn [replace_first map snd In]; intros ND; [tauto|].
  inversion ND as [|? ? NI ND']; subst. destruct (N.eqb_spec m0 m1) as [->|NE].
  - cbn [In]. split.
    + intros [Q|Q]; [injection Q as <- <-; left; auto|]. right. split; [|auto].
      intros ->. apply NI. apply (in_map snd) in Q. exact Q.
    + intros [(-> & -> & _)|(NEm & [Q|Q])]; [left; reflexivity| |right; exact Q]. injection Q as _ Q. congruence.
  - cbn [In]. rewrite (IH ND'). split.
    + intros [Q|[(A & B & C)|(A & B)]]; [injection Q as <- <-; right; split; [congruence|auto]|left; auto|right; auto].
    + intros [(A & B & [C|C])|(A & [Q|Q])]; [congruence|right; left; auto|left; exact Q|right; right; auto].
Qed.

Lemma unique_pairs_spec l :
  NoDup (map snd (unique_pairs l)) /\ forall m e, In (e, m) (unique_pairs l) <-> pick l m = Some e.
Proof.
  induction l as [|[e1 m1] l (ND & IH)] using rev_ind.
  - split; [constructor|]. intros m e. cbn. split; [intros []|discriminate].
  - unfold unique_pairs in *. rewrite fold_left_app. cbn [fold_left]. set (U := fold_left unique_step l []) in *.
    assert (MEM : In m1 (map snd U) <-> exists e0, pick l m1 = Some e0).
    { split.
      - intros Q. apply in_map_iff in Q. destruct Q as ([e0 m0] & E & I). cbn in E. subst m0. exists e0. apply IH. exact I.
      - intros (e0 & Q). apply IH in Q. apply (in_map snd) in Q. exact Q. }
    unfold unique_step. cbn [fst snd].
    destruct (existsb (fun p => N.eqb (snd p) m1) U) eqn:T.
    + assert (I1 : In m1 (map snd U)).
      { apply existsb_exists in T. destruct T as (p & I & Q). apply N.eqb_eq in Q. subst m1. apply in_map. exact I. }
      destruct (proj1 MEM I1) as (e0 & P0).
      destruct (N.eqb_spec e1 m1) as [->|NE1].
      * split; [rewrite replace_first_snd; exact ND|]. intros m e. rewrite (replace_first_in _ _ _ _ _ ND), pick_snoc, N.eqb_refl.
        destruct (N.eqb_spec m1 m) as [<-|NE].
        -- split; [intros [(_ & -> & _)|(Q & _)]; [reflexivity|congruence]|intros Q; injection Q as <-; left; auto].
        -- rewrite <- IH. split; [intros [(Q & _)|(_ & Q)]; [congruence|exact Q]|intros Q; right; split; [congruence|exact Q]].
      * split; [exact ND|]. intros m e. rewrite pick_snoc. destruct (N.eqb_spec m1 m) as [<-|NE]; [|apply IH].
        destruct (N.eqb_spec e1 m1); [congruence|]. rewrite P0. rewrite IH, P0. tauto.
    + assert (N1 : ~ In m1 (map snd U)).
      { intros Q. apply in_map_iff in Q. destruct Q as (p & E & I).
        assert (existsb (fun p => N.eqb (snd p) m1) U = true); [|congruence].
        apply existsb_exists. exists p. split; [exact I|]. apply N.eqb_eq. exact E. }
      assert (P0 : pick l m1 = None).
      { destruct (pick l m1) as [e0|] eqn:Q; [|reflexivity]. exfalso. apply N1. apply MEM. eauto. }
      split; [rewrite map_app; apply NoDup_app_one; assumption|]. intros m e. rewrite in_app_iff, pick_snoc. cbn [In].
      destruct (N.eqb_spec m1 m) as [<-|NE].
      * rewrite P0. split.
        -- intros [Q|[Q|[]]]; [exfalso; apply N1; apply (in_map snd) in Q; exact Q|]. injection Q as <-.
           destruct (N.eqb_spec e1 m1); congruence.
        -- intros Q. right. left. destruct (N.eqb_spec e1 m1); congruence.
      * rewrite <- IH. split; [intros [Q|[Q|[]]]; [exact Q|congruence]|auto].
Qed.

Lemma unique_pairs_incl l e m : In (e, m) (unique_pairs l) -> In (e, m) l.
Proof. intros I. apply pick_in. apply (proj2 (unique_pairs_spec l)). exact I. Qed.

Lemma nodup_fst_of_snd {B} (raw l : list (name * B)) :
  NoDup (map fst raw) -> (forall p, In p l -> In p raw) -> NoDup (map snd l) -> NoDup (map fst l).
Proof.
  intros NR. induction l as [|[a b] r IH]; cbn; intros INC ND; [constructor|].
  inversion ND as [|? ? NI ND']; subst. constructor; [|apply IH; auto].
  intros Q. apply in_map_iff in Q. destruct Q as ([a' b'] & E & I). cbn in E. subst a'.
  assert (b' = b) by (eapply NoDup_keys_inj; [exact NR|apply INC; right; exact I|apply INC; left; reflexivity]).
  subst. apply NI. apply (in_map snd) in I. exact I.
Qed.

Section KeptPairs.
  Variable text : name -> str.
  Variable sub : kid -> kid -> bool.

  Lemma pick_matches_is_offer imps exps m t :
    NoDup (map fst imps) -> tracks_distinct text (map fst imps) -> In (m, t) imps ->
    pick (plug_matches text sub imps exps) m = offer text sub exps (m, t).
  Proof.
    intros ND TD Im. unfold plug_matches.
    set (P := fun x : item => compat (text (fst x)) (text m) && sub (snd x) t).
    set (E := fun x : item => N.eqb (fst x) m && sub (snd x) t).
    set (f := fun e0 : name * kid => match find_target text imps (fst e0) with
                                      | Some (m0, t0) => if sub (snd e0) t0 then [(fst e0, m0)] else []
                                      | None => [] end).
    assert (L : forall x, (P x = true -> f x = [(fst x, m)]) /\ (P x = false -> forall p, In p (f x) -> snd p <> m)).
    { intros [e ke]. unfold P, f. cbn [fst snd].
      destruct (find_target text imps e) as [[m' t']|] eqn:F.
      - destruct (find_target_in _ _ _ _ _ F) as (Im' & C').
        destruct (compat (text e) (text m)) eqn:C.
        + assert (m' = m) as ->.
          { apply TD; [apply (in_map fst) in Im'; exact Im'|apply (in_map fst) in Im; exact Im|].
            eapply compat_trans; [rewrite compat_sym; exact C'|exact C]. }
          rewrite (NoDup_keys_inj _ _ _ _ ND Im' Im). cbn. split; [intros ->; reflexivity|].
          intros ->. intros p [].
        + cbn. split; [discriminate|]. intros _ p Ip. destruct (sub ke t'); [|destruct Ip].
          destruct Ip as [<-|[]]. cbn. intros ->. rewrite C' in C. discriminate.
      - split; [|intros _ p []]. intros Q. apply andb_prop in Q. destruct Q as (C & _). exfalso.
        unfold find_target in F. destruct (alist_get N.eqb imps e); [discriminate|].
        apply (find_none _ _ F) in Im. cbn in Im. congruence. }
    assert (EX : forall l0, existsb (is_exact m) (flat_map f l0) = match find E l0 with Some _ => true | None => false end).
    { intros l0. induction l0 as [|x xs IH]; [reflexivity|]. cbn [flat_map find]. rewrite existsb_app, IH.
      enough (existsb (is_exact m) (f x) = E x) as -> by (destruct (E x); reflexivity).
      destruct (L x) as (LT & LF). destruct (P x) eqn:Px.
      - rewrite (LT eq_refl). unfold is_exact. cbn. rewrite N.eqb_refl, andb_true_r, orb_false_r. unfold E.
        unfold P in Px. apply andb_prop in Px. destruct Px as (_ & ->). rewrite andb_true_r. reflexivity.
      - transitivity false.
        + destruct (existsb (is_exact m) (f x)) eqn:Q; [|reflexivity]. apply existsb_exists in Q. destruct Q as (p & Ip & Q).
          unfold is_exact in Q. apply andb_prop in Q. destruct Q as (_ & Q). apply N.eqb_eq in Q. destruct (LF eq_refl p Ip Q).
        + unfold E. destruct (N.eqb_spec (fst x) m) as [Q|Q]; [|reflexivity]. unfold P in Px. rewrite Q, compat_refl in Px.
          cbn in Px. rewrite Px. reflexivity. }
    assert (FD : forall l0, find (targets m) (flat_map f l0) =
                 match find P l0 with Some x => Some (fst x, m) | None => None end).
    { intros l0. induction l0 as [|x xs IH]; [reflexivity|]. cbn [flat_map find]. rewrite find_app_.
      destruct (L x) as (LT & LF). destruct (P x) eqn:Px.
      - rewrite (LT eq_refl). unfold targets. cbn. rewrite N.eqb_refl. reflexivity.
      - rewrite IH. destruct (find (targets m) (f x)) as [p|] eqn:Q; [|reflexivity]. apply find_some in Q. destruct Q as (Ip & Q).
        unfold targets in Q. apply N.eqb_eq in Q. destruct (LF eq_refl p Ip Q). }
    change (offer text sub exps (m, t)) with
      (match find E exps with Some e => Some (fst e)
       | None => match find P exps with Some e => Some (fst e) | None => None end end).
    unfold pick. rewrite EX, FD.
    destruct (find E exps) as [x|] eqn:FE; [|destruct (find P exps); reflexivity].
    apply find_some in FE. destruct FE as (_ & Ex). apply andb_prop in Ex. destruct Ex as (Q & _).
    apply N.eqb_eq in Q. congruence.
  Qed.

  Lemma pair_iff_offer imps exps e m t :
    NoDup (map fst imps) -> tracks_distinct text (map fst imps) -> In (m, t) imps ->
    (In (e, m) (plug_pairs text sub imps exps) <-> offer text sub exps (m, t) = Some e).
  Proof.
    intros ND TD Im. unfold plug_pairs. rewrite (proj2 (unique_pairs_spec _)).
    rewrite (pick_matches_is_offer imps exps m t ND TD Im). tauto.
  Qed.

  Lemma offer_is_match imps exps e m t :
    NoDup (map fst imps) -> tracks_distinct text (map fst imps) ->
    In (m, t) imps -> offer text sub exps (m, t) = Some e ->
    In (e, m) (plug_matches text sub imps exps).
  Proof.
    intros ND TD Im O. apply unique_pairs_incl. apply (pair_iff_offer imps exps e m t ND TD Im). exact O.
  Qed.

  Lemma pair_target_is_import imps exps e m :
    In (e, m) (plug_pairs text sub imps exps) -> exists t, In (m, t) imps.
  Proof.
    intros I. apply unique_pairs_incl in I. apply in_plug_matches in I. destruct I as (ke & t & _ & F & _).
    apply find_target_in in F. destruct F as (Im & _). eauto.
  Qed.
End KeptPairs.

Definition plug_result (pu : puniverse) (plugs : list pkgid) (socket : pkgid) (sock : nat) (imps sx : list item)
           (pls : list (list item)) (r : gstate * plug_outcome) : Prop :=
  let sup := suppliers (pu_name_text pu) (u_sub pu) pls in
  match snd r with
  | PGraphError e => e = ArgumentAlreadyPassed /\ exists i, In i imps /\ 2 <= length (sup i)
  | PNoPlugHappened => forall i, In i imps -> sup i = []
  | POk =>
      (forall i, In i imps -> length (sup i) <= 1) /\ (exists i, In i imps /\ sup i <> []) /\
      (forall m t, In (m, t) imps ->
         match sup (m, t) with
         | [] => stays_import pu (fst r) sock m t
         | [(k, e)] => exists p, nth_error plugs k = Some p /\ supplied_by pu (fst r) sock m p e
         | _ => False
         end) /\
      (forall x k, In (x, k) sx -> reexported pu (fst r) sock x) /\
      (forall p, p <> socket ->
         (forall k, nth_error plugs k = Some p -> forall i, In i imps -> forall e, ~ In (k, e) (sup i)) ->
         not_instantiated (fst r) p)
  | PPanic _ => False
  end.

Definition is_inst (nd : node) : Prop := exists sat, nk nd = NInst sat.

Lemma pkg_desc_same u s s' id : pkgs s' = pkgs s -> pkg_desc u s' id = pkg_desc u s id.
Proof. intros E. unfold pkg_desc, get_pkg. rewrite E. reflexivity. Qed.

Section State.
  Variable u : universe.
  Variable sock : nat.             (* the socket instantiation *)
  Variable sp : pkgid.             (* the socket package *)
  Variable sd : pkgdesc.
  Variable PD : pkgid -> option pkgdesc.   (* the (fixed) package table *)
  Hypothesis PD_sp : PD sp = Some sd.
  Let imps := pd_imports sd.

  Definition arg_e (a i : nat) : edge := {| esrc := a; etgt := sock; ek := EArg i |}.
  Definition alias_e (n a xi : nat) : edge := {| esrc := n; etgt := a; ek := EAlias xi |}.

  Record Good (s : gstate) : Prop := {
    G_free : free_nodes s = [];
    G_pd : forall id, pkg_desc u s id = PD id;
    G_live : forall n, n < length (nodes s) -> exists nd, get_node s n = Some nd;
    G_bound : forall e, In e (edges s) -> esrc e < length (nodes s) /\ etgt e < length (nodes s);
    G_shape : forall e, In e (edges s) ->
                (exists a i, e = arg_e a i) \/ (exists n a xi, e = alias_e n a xi /\ a <> sock);
    G_sock : exists nd sat, get_node s sock = Some nd /\ nk nd = NInst sat /\ npkg nd = Some sp /\ nitem nd = pd_inst sd /\
               (forall i, In i sat <-> exists a, In (arg_e a i) (edges s));
    G_arg_uniq : forall a a' i, In (arg_e a i) (edges s) -> In (arg_e a' i) (edges s) -> a = a';
    G_alias_uniq : forall n n' a xi xi', In (alias_e n a xi) (edges s) -> In (alias_e n' a xi') (edges s) ->
                     n = n' /\ xi = xi';
    (* [plug] defines no type: [export] never renames *)
    G_nodef : forall n nd, get_node s n = Some nd -> nk nd <> NDef
  }.

  (** nodes are only added; the static attributes of a node never change *)
  Definition NP (s s' : gstate) : Prop :=
    forall n nd, get_node s n = Some nd ->
      exists nd', get_node s' n = Some nd' /\ nitem nd' = nitem nd /\ npkg nd' = npkg nd /\ (is_inst nd -> is_inst nd').

  Lemma NP_refl s : NP s s.
  Proof. intros n nd G. exists nd. auto. Qed.

  Lemma NP_trans s1 s2 s3 : NP s1 s2 -> NP s2 s3 -> NP s1 s3.
  Proof.
    intros A B n nd G. destruct (A _ _ G) as (nd2 & G2 & I2 & P2 & S2).
    destruct (B _ _ G2) as (nd3 & G3 & I3 & P3 & S3). exists nd3. repeat split; try congruence. auto.
  Qed.

  Lemma sock_lt s : Good s -> sock < length (nodes s).
  Proof. intros g. destruct (G_sock s g) as (nd & sat & G & _). eapply get_node_lt; eauto. Qed.

  Lemma add_node_ok s nd : Good s -> nk nd <> NDef ->
    exists s1, add_node s nd = (s1, length (nodes s)) /\ Good s1 /\
               edges s1 = edges s /\ exports s1 = exports s /\ length (nodes s1) = S (length (nodes s)) /\
               (forall n, get_node s1 n = if n =? length (nodes s) then Some nd else get_node s n).
  Proof.
    intros g ND. unfold add_node. rewrite (G_free s g). eexists. split; [reflexivity|].
    set (s1 := {| nodes := nodes s ++ [Some nd]; free_nodes := []; edges := edges s; imports := imports s;
                  exports := exports s; defined := defined s; pkgs := pkgs s; free_pkgs := free_pkgs s |}).
    assert (GN : forall n, get_node s1 n = if n =? length (nodes s) then Some nd else get_node s n)
      by (intros n; apply getn_app_one).
    assert (El : length (nodes s1) = S (length (nodes s))) by (cbn; rewrite app_length, Nat.add_1_r; reflexivity).
    split; [|auto]. constructor; try rewrite El; cbn [s1 edges free_nodes].
    - reflexivity.
    - exact (G_pd s g).
    - intros n L. rewrite GN. destruct (Nat.eqb_spec n (length (nodes s))); [eauto|]. apply (G_live s g). lia.
    - intros e I. destruct (G_bound s g e I). split; apply Nat.lt_lt_succ_r; assumption.
    - exact (G_shape s g).
    - destruct (G_sock s g) as (x & sat & G & R). exists x, sat. split; [|exact R].
      rewrite GN, (proj2 (Nat.eqb_neq _ _) (Nat.lt_neq _ _ (get_node_lt _ _ _ G))). exact G.
    - exact (G_arg_uniq s g).
    - exact (G_alias_uniq s g).
    - intros n x Gx. rewrite GN in Gx. destruct (n =? length (nodes s)); [injection Gx as <-; exact ND|].
      apply (G_nodef s g n x Gx).
  Qed.

  Lemma instantiate_ok s id pd : Good s -> PD id = Some pd ->
    exists s1, instantiate u s id = (s1, ONode (length (nodes s))) /\ Good s1 /\
               edges s1 = edges s /\ exports s1 = exports s /\ length (nodes s1) = S (length (nodes s)) /\
               (forall n, get_node s1 n = if n =? length (nodes s)
                                          then Some (mk_node (NInst []) (pd_inst pd) (Some id)) else get_node s n).
  Proof.
    intros g P. unfold instantiate. rewrite (G_pd s g), P.
    destruct (add_node_ok s (mk_node (NInst []) (pd_inst pd) (Some id)) g) as (s1 & A & R); [discriminate|].
    rewrite A. exists s1. split; [reflexivity|exact R].
  Qed.

  Lemma in_outgoing s n e : In e (outgoing s n) <-> In e (edges s) /\ esrc e = n.
  Proof. unfold outgoing. rewrite filter_In, Nat.eqb_eq. tauto. Qed.
  Lemma in_incoming s n e : In e (incoming s n) <-> In e (edges s) /\ etgt e = n.
  Proof. unfold incoming. rewrite filter_In, Nat.eqb_eq. tauto. Qed.

  Lemma alias_ok s n nd ex e xi k : Good s ->
    get_node s n = Some nd -> u_inst_exports u (nitem nd) = Some ex -> get_full ex e 0 = Some (xi, k) ->
    (exists a, alias u s n e = (s, ONode a) /\ In (alias_e n a xi) (edges s)) \/
    (exists s2, alias u s n e = (s2, ONode (length (nodes s))) /\ Good s2 /\
                edges s2 = alias_e n (length (nodes s)) xi :: edges s /\ exports s2 = exports s /\
                length (nodes s2) = S (length (nodes s)) /\
                (forall m, get_node s2 m = if m =? length (nodes s) then Some (mk_node NAlias k (npkg nd)) else get_node s m)).
  Proof.
    intros g G X F. unfold alias. rewrite G, X, F.
    destruct (find (fun ed => match ek ed with EAlias i => i =? xi | _ => false end) (outgoing s n)) as [ed|] eqn:Fd.
    - left. apply find_some in Fd. destruct Fd as (Io & P). apply in_outgoing in Io. destruct Io as (Ie & Es).
      exists (etgt ed). split; [reflexivity|]. destruct ed as [a b c]. cbn in *. subst a.
      destruct c as [i|i|]; try discriminate. apply Nat.eqb_eq in P. subst i. exact Ie.
    - right. destruct (add_node_ok s (mk_node NAlias k (npkg nd)) g) as (s1 & A & g1 & Ee & Ex & El & GN); [discriminate|].
      rewrite A. set (len := length (nodes s)) in *.
      exists (add_edge s1 (alias_e n len xi)). split; [reflexivity|].
      pose proof (get_node_lt _ _ _ G) as Ln. pose proof (sock_lt s g) as Ls.
      assert (FRESH : forall e0, In e0 (edges s1) -> etgt e0 <> len).
      { intros e0 I0. rewrite Ee in I0. destruct (G_bound s g e0 I0) as (_ & Q). apply Nat.lt_neq, Q. }
      split; [|cbn [add_edge edges exports nodes]; rewrite Ee, Ex, El; repeat split; auto].
      constructor; cbn [add_edge free_nodes edges nodes].
      + exact (G_free s1 g1).
      + exact (G_pd s1 g1).
      + exact (G_live s1 g1).
      + intros e0 [<-|I0]; [cbn; lia|]. apply (G_bound s1 g1 e0 I0).
      + intros e0 [<-|I0]; [right; exists n, len, xi; split; [reflexivity|lia]|]. apply (G_shape s1 g1 e0 I0).
      + destruct (G_sock s1 g1) as (x & sat & Gs & K & Pk & It & S). exists x, sat. repeat split; auto.
        * intros Hi. apply S in Hi. destruct Hi as (a & Ia). exists a. right. exact Ia.
        * intros (a & [Ia|Ia]); [discriminate|]. apply S. exists a. exact Ia.
      + intros a a' i [Ia|Ia] [Ia'|Ia']; try discriminate. apply (G_arg_uniq s1 g1 a a' i Ia Ia').
      + intros n1 n2 a x1 x2 [I1|I1] [I2|I2].
        * injection I1 as <- <- <-. injection I2 as <- <-. auto.
        * injection I1 as <- <- <-. destruct (FRESH _ I2 eq_refl).
        * injection I2 as <- <- <-. destruct (FRESH _ I1 eq_refl).
        * apply (G_alias_uniq s1 g1 _ _ _ _ _ I1 I2).
      + exact (G_nodef s1 g1).
  Qed.

  Lemma incoming_sock_args s : Good s -> forall e, In e (incoming s sock) -> exists a i, e = arg_e a i.
  Proof.
    intros g e I. apply in_incoming in I. destruct I as (I & T).
    destruct (G_shape s g e I) as [(a & i & ->)|(n & a & xi & -> & NE)]; [eauto|]. cbn in T. congruence.
  Qed.

  Lemma scan_none es im a :
    (forall e, In e es -> exists a' i, e = arg_e a' i) -> (forall a', ~ In (arg_e a' im) es) ->
    scan_incoming es im a = ScanNone.
  Proof.
    intros A N. pose proof (scan_incoming_spec es im a) as Sp.
    destruct (scan_incoming es im a); [reflexivity| | |]; destruct Sp as (e & I & K);
      destruct (A e I) as (a' & i & ->); cbn in K.
    - destruct K as (K & _). injection K as ->. destruct (N a' I).
    - destruct K as (K & _). injection K as ->. destruct (N a' I).
    - destruct (K i eq_refl).
  Qed.

  Lemma scan_other es im a a' :
    (forall e, In e es -> exists a0 i, e = arg_e a0 i) -> In (arg_e a' im) es ->
    (forall a0, In (arg_e a0 im) es -> a0 = a') -> a' <> a ->
    scan_incoming es im a = ScanOther.
  Proof.
    intros A I U NE. pose proof (scan_incoming_spec es im a) as Sp.
    destruct (scan_incoming es im a); [| |reflexivity|].
    - destruct (Sp _ I) as (j & K & NEj). injection K as <-. destruct (NEj eq_refl).
    - destruct Sp as (e & Ie & K & Es). destruct (A e Ie) as (a0 & i & ->). cbn in K, Es. injection K as ->.
      subst a0. destruct (NE (eq_sym (U a Ie))).
    - destruct Sp as (e & Ie & K). destruct (A e Ie) as (a0 & i & ->). destruct (K i eq_refl).
  Qed.

  Lemma inst_imports_sock s nd : Good s -> npkg nd = Some sp -> inst_imports u s nd = Some imps.
  Proof. intros g P. unfold inst_imports. rewrite P, (G_pd s g), PD_sp. reflexivity. Qed.

  Lemma set_arg_busy s m a im t a' : Good s ->
    get_full imps m 0 = Some (im, t) -> In (arg_e a' im) (edges s) -> a' <> a ->
    set_arg u s sock m a = (s, OErr ArgumentAlreadyPassed).
  Proof.
    intros g F I NE. destruct (G_sock s g) as (nd & sat & G & K & P & _ & S).
    unfold set_arg. rewrite G, K, (inst_imports_sock s nd g P), F.
    rewrite (scan_other (incoming s sock) im a a'); auto.
    - apply incoming_sock_args; exact g.
    - apply in_incoming. auto.
    - intros a0 I0. apply in_incoming in I0. destruct I0 as (I0 & _). apply (G_arg_uniq s g a0 a' im I0 I).
  Qed.

  Lemma set_arg_ok s m a an im t : Good s ->
    get_node s a = Some an -> get_full imps m 0 = Some (im, t) -> u_sub u (nitem an) t = true ->
    (forall a', ~ In (arg_e a' im) (edges s)) ->
    exists s3, set_arg u s sock m a = (s3, OUnit) /\ Good s3 /\ edges s3 = arg_e a im :: edges s /\
               exports s3 = exports s /\ length (nodes s3) = length (nodes s) /\ NP s s3.
  Proof.
    intros g Ga F Sb N. destruct (G_sock s g) as (nd & sat & G & K & P & It & S).
    unfold set_arg. rewrite G, K, (inst_imports_sock s nd g P), F.
    rewrite (scan_none (incoming s sock) im a); [|apply incoming_sock_args; exact g|
      intros a' I; apply in_incoming in I; destruct I as (I & _); exact (N a' I)].
    rewrite Ga, Sb. cbn [negb].
    set (s1 := add_edge s {| esrc := a; etgt := sock; ek := EArg im |}).
    unfold add_satisfied. change (get_node s1 sock) with (get_node s sock). rewrite G, K.
    assert (NS : existsb (Nat.eqb im) sat = false).
    { apply existsb_eqb_notIn. intros Ii. apply S in Ii. destruct Ii as (a' & Ia). exact (N a' Ia). }
    rewrite NS.
    set (nd' := {| nk := NInst (im :: sat); npkg := npkg nd; nitem := nitem nd; nname := nname nd; nexport := nexport nd |}).
    exists (set_node s1 sock (Some nd')). split; [reflexivity|].
    assert (GN : forall x, get_node (set_node s1 sock (Some nd')) x = if x =? sock then Some nd' else get_node s x).
    { intros x. apply (get_node_set_node s1 sock nd nd' x). exact G. }
    assert (LEN : length (nodes (set_node s1 sock (Some nd'))) = length (nodes s)).
    { cbn. apply length_set_nth. }
    assert (np : NP s (set_node s1 sock (Some nd'))).
    { intros x xd Gx. rewrite GN. destruct (Nat.eqb_spec x sock) as [->|NEx].
      - rewrite G in Gx. injection Gx as <-. exists nd'. repeat split. intros _. exists (im :: sat). reflexivity.
      - exists xd. auto. }
    pose proof (get_node_lt _ _ _ Ga) as La. pose proof (sock_lt s g) as Ls.
    split; [|repeat split; auto].
    constructor; cbn [set_node add_edge free_nodes edges]; fold (arg_e a im).
    - apply (G_free s g).
    - intros i. rewrite <- (G_pd s g i). apply pkg_desc_same. reflexivity.
    - intros x L. rewrite LEN in L. rewrite GN. destruct (x =? sock); [eauto|]. apply (G_live s g x L).
    - rewrite LEN. intros e [<-|I]; [cbn; lia|]. apply (G_bound s g e I).
    - intros e [<-|I]; [left; exists a, im; reflexivity|]. apply (G_shape s g e I).
    - exists nd', (im :: sat). rewrite GN, Nat.eqb_refl. repeat split; auto.
      + intros [<-|Ii]; [exists a; left; reflexivity|]. apply S in Ii. destruct Ii as (a' & Ia). exists a'. right. exact Ia.
      + intros (a' & [Ia|Ia]); [injection Ia as _ <-; left; reflexivity|]. right. apply S. eauto.
    - intros a1 a2 i [I1|I1] [I2|I2].
      + injection I1 as <- <-. injection I2 as <-. reflexivity.
      + injection I1 as <- <-. destruct (N a2 I2).
      + injection I2 as <- <-. destruct (N a1 I1).
      + apply (G_arg_uniq s g a1 a2 i I1 I2).
    - intros n1 n2 a0 x1 x2 [I1|I1] [I2|I2]; try discriminate. apply (G_alias_uniq s g _ _ _ _ _ I1 I2).
    - intros x xd Gx. rewrite GN in Gx. destruct (x =? sock); [injection Gx as <-; discriminate|].
      apply (G_nodef s g x xd Gx).
  Qed.

  Lemma export_ok s a nd x : Good s ->
    get_node s a = Some nd -> alist_get N.eqb (exports s) x = None -> u_export_name_ok u x = true ->
    exists s', export_ u s a x = (s', OUnit) /\ Good s' /\ edges s' = edges s /\
               exports s' = exports s ++ [(x, a)] /\ length (nodes s') = length (nodes s) /\ NP s s'.
  Proof.
    intros g G A Ok.
    assert (ER : exports_renamed s a = exports s).
    { unfold exports_renamed. rewrite G. pose proof (G_nodef s g a nd G) as ND. destruct (nk nd); auto. now contradiction ND. }
    unfold export_. rewrite A, Ok. cbn [negb]. unfold update_node. rewrite G, ER.
    set (nd' := {| nk := nk nd; npkg := npkg nd; nitem := nitem nd; nname := nname nd; nexport := Some x |}).
    set (s1 := set_node s a (Some nd')).
    exists (with_maps s1 (imports s1) (exports s1 ++ [(x, a)]) (defined s1)). split; [reflexivity|].
    assert (GN : forall y, get_node (with_maps s1 (imports s1) (exports s1 ++ [(x, a)]) (defined s1)) y
                           = if y =? a then Some nd' else get_node s y).
    { intros y. apply (get_node_set_node s a nd nd' y G). }
    assert (LEN : length (nodes s1) = length (nodes s)) by (cbn; apply length_set_nth).
    assert (np : NP s (with_maps s1 (imports s1) (exports s1 ++ [(x, a)]) (defined s1))).
    { intros y yd Gy. rewrite GN. destruct (Nat.eqb_spec y a) as [->|NE].
      - rewrite G in Gy. injection Gy as <-. exists nd'. repeat split. intros (sat & K). exists sat. exact K.
      - exists yd. auto. }
    split; [|repeat split; auto].
    constructor; cbn [with_maps set_node free_nodes edges nodes].
    - apply (G_free s g).
    - intros i. rewrite <- (G_pd s g i). apply pkg_desc_same. reflexivity.
    - intros y L. rewrite LEN in L. rewrite GN. destruct (y =? a); [eauto|]. apply (G_live s g y L).
    - rewrite LEN. apply (G_bound s g).
    - apply (G_shape s g).
    - destruct (G_sock s g) as (sn & sat & Gs & K & P & It & S). destruct (np _ _ Gs) as (sn' & Gs' & _ & P' & _).
      rewrite GN in Gs'. destruct (Nat.eqb_spec sock a) as [<-|NE].
      + rewrite G in Gs. injection Gs as ->. exists nd', sat. rewrite GN, Nat.eqb_refl. repeat split; auto; apply S.
      + exists sn, sat. rewrite GN. destruct (Nat.eqb_spec sock a); [congruence|]. repeat split; auto; apply S.
    - apply (G_arg_uniq s g).
    - apply (G_alias_uniq s g).
    - intros y yd Gy. rewrite GN in Gy. destruct (y =? a); [injection Gy as <-; cbn [nd' nk]; apply (G_nodef s g a nd G)|].
      apply (G_nodef s g y yd Gy).
  Qed.

  Definition Mok (exps : list item) (em : name * name) : Prop :=
    exists xi ke im t, get_full exps (fst em) 0 = Some (xi, ke) /\ get_full imps (snd em) 0 = Some (im, t) /\
                       u_sub u ke t = true.

  (** the pair (export [e] of an instantiation of [p], socket import [m]) is wired in [s] *)
  Definition Wired (s : gstate) (p : pkgid) (pd : pkgdesc) (exps : list item) (e m : name) : Prop :=
    exists im t a n xi ke nd,
      get_full imps m 0 = Some (im, t) /\ get_full exps e 0 = Some (xi, ke) /\
      In (arg_e a im) (edges s) /\ In (alias_e n a xi) (edges s) /\
      get_node s n = Some nd /\ is_inst nd /\ npkg nd = Some p /\ nitem nd = pd_inst pd.

  Definition Step (P : pkgid -> Prop) (s s' : gstate) : Prop :=
    NP s s' /\ length (nodes s) <= length (nodes s') /\ exports s' = exports s /\ incl (edges s) (edges s') /\
    (forall n nd', get_node s' n = Some nd' -> length (nodes s) <= n -> exists p, npkg nd' = Some p /\ P p).

  Lemma Step_refl P s : Step P s s.
  Proof.
    split; [apply NP_refl|]. split; [lia|]. split; [reflexivity|]. split; [apply incl_refl|].
    intros n nd G L. apply get_node_lt in G. lia.
  Qed.

  Lemma Step_trans P s1 s2 s3 : Good s2 -> Step P s1 s2 -> Step P s2 s3 -> Step P s1 s3.
  Proof.
    intros g (N1 & L1 & X1 & I1 & W1) (N2 & L2 & X2 & I2 & W2).
    split; [eapply NP_trans; eauto|]. split; [lia|]. split; [congruence|]. split; [eapply incl_tran; eauto|].
    intros n nd G L. destruct (le_lt_dec (length (nodes s2)) n) as [Ge|Lt]; [apply (W2 n nd G Ge)|].
    destruct (G_live s2 g n Lt) as (nd2 & G2). destruct (N2 _ _ G2) as (nd3 & G3 & _ & P3 & _).
    rewrite G in G3. injection G3 as <-. rewrite P3. apply (W1 n nd2 G2 L).
  Qed.

  Lemma Step_weaken (P Q : pkgid -> Prop) s s' : (forall p, P p -> Q p) -> Step P s s' -> Step Q s s'.
  Proof.
    intros PQ (N & L & X & I & W). repeat split; auto. intros n nd G Ln.
    destruct (W n nd G Ln) as (p & E & Pp). eauto.
  Qed.

  Lemma Step_push (P : pkgid -> Prop) s s' x p :
    (forall m, get_node s' m = if m =? length (nodes s) then Some x else get_node s m) ->
    length (nodes s') = S (length (nodes s)) -> exports s' = exports s -> incl (edges s) (edges s') ->
    npkg x = Some p -> P p -> Step P s s'.
  Proof.
    intros GN L X I Px Pp. split.
    - intros n nd G. rewrite GN. pose proof (get_node_lt _ _ _ G). destruct (Nat.eqb_spec n (length (nodes s))); [lia|].
      exists nd. auto.
    - split; [lia|]. split; [exact X|]. split; [exact I|].
      intros n nd G Ln. rewrite GN in G. destruct (Nat.eqb_spec n (length (nodes s))).
      + injection G as <-. eauto.
      + apply get_node_lt in G. lia.
  Qed.

  Lemma Wired_mono s s' p pd exps e m : NP s s' -> incl (edges s) (edges s') ->
    Wired s p pd exps e m -> Wired s' p pd exps e m.
  Proof.
    intros N I (im & t & a & n & xi & ke & nd & F1 & F2 & E1 & E2 & G & Is & P & It).
    destruct (N _ _ G) as (nd' & G' & It' & P' & Is').
    exists im, t, a, n, xi, ke, nd'. repeat split; auto; congruence.
  Qed.

  Lemma get_full_inj {B} (l : list (name * B)) k1 k2 j v1 v2 :
    get_full l k1 0 = Some (j, v1) -> get_full l k2 0 = Some (j, v2) -> k1 = k2.
  Proof.
    intros A B0. apply get_full_nth in A, B0. congruence.
  Qed.

  Definition wire_ok (s : gstate) (p : pkgid) (pd : pkgdesc) (exps : list item) (l : list (name * name)) (s' : gstate) : Prop :=
    Good s' /\
    (forall e m, In (e, m) l -> Wired s' p pd exps e m) /\
    (forall e m im t a, In (e, m) l -> get_full imps m 0 = Some (im, t) -> ~ In (arg_e a im) (edges s)) /\
    (forall a i, In (arg_e a i) (edges s') ->
       In (arg_e a i) (edges s) \/ exists e m t, In (e, m) l /\ get_full imps m 0 = Some (i, t)).

  (** why an unfinished [wire] stopped: the import of a pair was supplied already in [s]
      (no two pairs of [l] aim at one import) *)
  Definition wire_fail (s : gstate) (l : list (name * name)) (o : plug_outcome) : Prop :=
    o = PGraphError ArgumentAlreadyPassed /\
    exists e m im t a, In (e, m) l /\ get_full imps m 0 = Some (im, t) /\ In (arg_e a im) (edges s).

  Lemma wire_ok_cons s s3 s' p pd exps e m r im t a n xi :
    get_full imps m 0 = Some (im, t) -> edges s3 = arg_e a im :: alias_e n a xi :: edges s ->
    (forall a', ~ In (arg_e a' im) (edges s)) -> Wired s3 p pd exps e m ->
    NP s3 s' -> incl (edges s3) (edges s') ->
    wire_ok s3 p pd exps r s' -> wire_ok s p pd exps ((e, m) :: r) s'.
  Proof.
    intros Fm E3 NoArg Wh NPs Inc (g' & WD & FR & AR). split; [exact g'|]. split; [|split].
    - intros e0 m0 [Q|Q]; [injection Q as <- <-; eapply Wired_mono; eauto|apply WD; exact Q].
    - intros e0 m0 im0 t0 a0 [Q|Q] F0.
      + injection Q as <- <-. rewrite Fm in F0. injection F0 as <- <-. apply NoArg.
      + intros I. apply (FR e0 m0 im0 t0 a0 Q F0). rewrite E3. right. right. exact I.
    - intros a0 i I. destruct (AR a0 i I) as [Q|(e0 & m0 & t0 & Q & F0)].
      + rewrite E3 in Q. destruct Q as [Q|[Q|Q]]; [|discriminate|left; exact Q].
        injection Q as _ <-. right. exists e, m, t. split; [left; reflexivity|exact Fm].
      + right. exists e0, m0, t0. split; [right; exact Q|exact F0].
  Qed.

  Lemma wire_fail_cons s s3 e m r im t a n xi o :
    get_full imps m 0 = Some (im, t) -> edges s3 = arg_e a im :: alias_e n a xi :: edges s ->
    ~ In m (map snd r) -> wire_fail s3 r o -> wire_fail s ((e, m) :: r) o.
  Proof.
    intros Fm E3 NIm (-> & e1 & m1 & im1 & t1 & a1 & I1 & F1 & Ia1). split; [reflexivity|].
    exists e1, m1, im1, t1, a1. split; [right; exact I1|]. split; [exact F1|].
    rewrite E3 in Ia1. destruct Ia1 as [Q|[Q|Q]]; [|discriminate|exact Q].
    (* the import just supplied is that of no later pair *)
    injection Q as _ <-. destruct NIm. rewrite (get_full_inj _ _ _ _ _ _ Fm F1). exact (in_map snd _ _ I1).
  Qed.

  Definition IS (s : gstate) (p : pkgid) (pd : pkgdesc) (exps : list item) (inst : option nat) (l : list (name * name)) : Prop :=
    match inst with
    | None => True
    | Some n => exists nd, get_node s n = Some nd /\ is_inst nd /\ npkg nd = Some p /\ nitem nd = pd_inst pd /\
                  forall a xi e ke, In (alias_e n a xi) (edges s) -> nth_error exps xi = Some (e, ke) -> ~ In e (map fst l)
    end.

  Lemma wire_step (P : pkgid -> Prop) p pd exps s inst e m r xi ke im t :
    PD p = Some pd -> u_inst_exports u (pd_inst pd) = Some exps -> P p ->
    Good s -> IS s p pd exps inst ((e, m) :: r) -> ~ In e (map fst r) ->
    get_full exps e 0 = Some (xi, ke) -> get_full imps m 0 = Some (im, t) -> u_sub u ke t = true ->
    (exists s2 a0, wire u s sock p inst ((e, m) :: r) = (s2, Some (PGraphError ArgumentAlreadyPassed)) /\
                   Step P s s2 /\ In (arg_e a0 im) (edges s)) \/
    (exists s3 n a, wire u s sock p inst ((e, m) :: r) = wire u s3 sock p (Some n) r /\
                    Good s3 /\ Step P s s3 /\ edges s3 = arg_e a im :: alias_e n a xi :: edges s /\
                    (forall a', ~ In (arg_e a' im) (edges s)) /\ IS s3 p pd exps (Some n) r /\
                    Wired s3 p pd exps e m).
  Proof.
    intros Pp Xp PP g is NIe Fe Fm Sb.
    assert (A1 : exists s1 n,
               (match inst with Some n0 => (s, ONode n0) | None => instantiate u s p end) = (s1, ONode n) /\
               Good s1 /\ Step P s s1 /\ edges s1 = edges s /\ IS s1 p pd exps (Some n) ((e, m) :: r)).
    { destruct inst as [n|].
      - exists s, n. split; [reflexivity|]. split; [exact g|]. split; [apply Step_refl|]. split; [reflexivity|exact is].
      - destruct (instantiate_ok s p pd g Pp) as (s1 & E1 & g1 & Ee & Ex & El & GN).
        exists s1, (length (nodes s)). split; [exact E1|]. split; [exact g1|].
        split; [eapply Step_push; eauto; [rewrite Ee; apply incl_refl|reflexivity]|].
        split; [exact Ee|]. exists (mk_node (NInst []) (pd_inst pd) (Some p)).
        rewrite GN, Nat.eqb_refl. repeat split; auto; [exists []; reflexivity|].
        intros a x e0 k0 I. rewrite Ee in I. destruct (G_bound s g _ I) as (Q & _). destruct (Nat.lt_irrefl _ Q). }
    destruct A1 as (s1 & n & E1 & g1 & St1 & Ee1 & ndn & Gn & Isn & Pn & Itn & AL).
    assert (Xn : u_inst_exports u (nitem ndn) = Some exps) by (rewrite Itn; exact Xp).
    pose proof (get_full_nth _ _ _ _ Fe) as Nx.
    destruct (alias_ok s1 n ndn exps e xi ke g1 Gn Xn Fe) as [(a & _ & Ia)|(s2 & E2 & g2 & Ee2 & Ex2 & El2 & GN2)].
    { exfalso. apply (AL a xi e ke Ia Nx). left. reflexivity. }
    set (a := length (nodes s1)) in *.
    assert (St2 : Step P s1 s2).
    { eapply Step_push; eauto. rewrite Ee2; apply incl_tl, incl_refl. }
    pose proof (Step_trans P s s1 s2 g1 St1 St2) as St02.
    assert (Ga : get_node s2 a = Some (mk_node NAlias ke (npkg ndn))) by (rewrite GN2, Nat.eqb_refl; reflexivity).
    assert (Gn2 : get_node s2 n = Some ndn).
    { rewrite GN2, (proj2 (Nat.eqb_neq n a)); [exact Gn|]. apply Nat.lt_neq. exact (get_node_lt _ _ _ Gn). }
    destruct (G_sock s2 g2) as (snd0 & sat & Gs & Ks & Ps & _ & Ss).
    destruct (in_dec Nat.eq_dec im sat) as [Busy|Free].
    - left. apply Ss in Busy. destruct Busy as (a0 & Ia0).
      assert (Ia0' : In (arg_e a0 im) (edges s1)).
      { rewrite Ee2 in Ia0. destruct Ia0 as [Q|Q]; [discriminate|exact Q]. }
      assert (NEa : a0 <> a).
      { destruct (G_bound s1 g1 _ Ia0') as (Q & _). apply Nat.lt_neq. exact Q. }
      exists s2, a0. split; [|split; [exact St02|rewrite <- Ee1; exact Ia0']].
      cbn [wire]. rewrite E1, E2, (set_arg_busy s2 m a im t a0 g2 Fm Ia0 NEa). reflexivity.
    - right.
      assert (NoArg : forall a', ~ In (arg_e a' im) (edges s2)).
      { intros a' I. apply Free. apply Ss. eauto. }
      destruct (set_arg_ok s2 m a _ im t g2 Ga Fm Sb NoArg) as (s3 & E3 & g3 & Ee3 & Ex3 & El3 & NP3).
      assert (St3 : Step P s2 s3).
      { split; [exact NP3|]. split; [rewrite El3; apply le_n|]. split; [exact Ex3|]. split; [rewrite Ee3; apply incl_tl, incl_refl|].
        intros x xd Gx Lx. apply get_node_lt in Gx. rewrite El3 in Gx. destruct (Nat.lt_irrefl _ (Nat.lt_le_trans _ _ _ Gx Lx)). }
      destruct (NP3 _ _ Gn2) as (nd3 & G3 & It3 & P3 & Is3).
      assert (E3' : edges s3 = arg_e a im :: alias_e n a xi :: edges s) by (rewrite Ee3, Ee2, Ee1; reflexivity).
      exists s3, n, a. split; [cbn [wire]; rewrite E1, E2, E3; reflexivity|]. split; [exact g3|].
      split; [exact (Step_trans P s s2 s3 g2 St02 St3)|]. split; [exact E3'|]. split; [|split].
      + intros a' I. apply (NoArg a'). rewrite Ee2. right. rewrite Ee1. exact I.
      + exists nd3. split; [exact G3|]. split; [auto|]. split; [congruence|]. split; [congruence|].
        intros a' x e0 k0 I Nx0. rewrite E3' in I. destruct I as [Q|[Q|Q]]; [discriminate| |].
        * injection Q as Q1 Q2. subst x. pose proof (eq_trans (eq_sym Nx0) Nx) as EQ. injection EQ as -> ->. exact NIe.
        * intros Q'. rewrite <- Ee1 in Q. apply (AL a' x e0 k0 Q Nx0). right. exact Q'.
      + exists im, t, a, n, xi, ke, nd3. rewrite E3'. repeat split; auto; try congruence; cbn; auto.
  Qed.

  (** [P] holds of the plug if it has anything to wire: the packages of which nodes appear *)
  Lemma wire_gen (P : pkgid -> Prop) p pd exps : PD p = Some pd -> u_inst_exports u (pd_inst pd) = Some exps ->
    forall l, (l <> [] -> P p) ->
    forall s inst s' r, Good s -> Forall (Mok exps) l -> NoDup (map fst l) -> NoDup (map snd l) -> IS s p pd exps inst l ->
      wire u s sock p inst l = (s', r) ->
      Step P s s' /\ match r with None => wire_ok s p pd exps l s' | Some o => wire_fail s l o end.
  Proof.
    intros Pp Xp. induction l as [|[e m] r IH]; intros PP s inst s' res g MO ND NDs is W.
    - cbn in W. injection W as <- <-. split; [apply Step_refl|]. split; [exact g|].
      repeat split; try (intros; contradiction). intros a i I. left. exact I.
    - apply Forall_cons_iff in MO. destruct MO as ((xi & ke & im & t & Fe & Fm & Sb) & MO'). cbn [fst snd] in Fe, Fm.
      cbn [map fst] in ND. apply NoDup_cons_iff in ND. destruct ND as (NIe & ND').
      cbn [map snd] in NDs. apply NoDup_cons_iff in NDs. destruct NDs as (NIm & NDs').
      assert (PP' : P p) by (apply PP; discriminate).
      destruct (wire_step P p pd exps s inst e m r xi ke im t Pp Xp PP' g is NIe Fe Fm Sb)
        as [(s2 & a0 & E & St & Ia0)|(s3 & n & a & E & g3 & St3 & E3 & NoArg & is3 & Wh)]; rewrite E in W.
      + injection W as <- <-. split; [exact St|]. split; [reflexivity|].
        exists e, m, im, t, a0. split; [left; reflexivity|]. split; [exact Fm|exact Ia0].
      + destruct (IH (fun _ => PP') s3 (Some n) s' res g3 MO' ND' NDs' is3 W) as (St & R).
        split; [exact (Step_trans P s s3 s' g3 St3 St)|].
        destruct St as (NPs & _ & _ & Inc & _). destruct res as [o|].
        * exact (wire_fail_cons s s3 e m r im t a n xi o Fm E3 NIm R).
        * exact (wire_ok_cons s s3 s' p pd exps e m r im t a n xi Fm E3 NoArg Wh NPs Inc R).
  Qed.

  Variable text : name -> str.
  Let pu : puniverse := {| pu_graph := u; pu_name_text := text |}.
  Let raw (exps : list item) := plug_matches text (u_sub u) imps exps.
  Let matches (exps : list item) := plug_pairs text (u_sub u) imps exps.
  Hypothesis imps_nodup : NoDup (map fst imps).

  Lemma matches_Mok exps : NoDup (map fst exps) -> Forall (Mok exps) (matches exps).
  Proof.
    intros ND. apply Forall_forall. intros [e m] I. apply unique_pairs_incl in I. apply in_plug_matches in I.
    destruct I as (ke & t & Ie & F & S). apply find_target_in in F. destruct F as (Im & _).
    destruct (get_full_in _ _ _ ND Ie) as (xi & Fx & _). destruct (get_full_in _ _ _ imps_nodup Im) as (im & Fi & _).
    exists xi, ke, im, t. auto.
  Qed.

  (** the exports of the raw pairs are those of a sublist of [exps] *)
  Lemma raw_nodup exps : NoDup (map fst exps) -> NoDup (map fst (raw exps)).
  Proof.
    intros ND.
    replace (map fst (raw exps)) with
      (map fst (filter (fun x : item => match find_target text imps (fst x) with
                                        | Some (_, t) => u_sub u (snd x) t
                                        | None => false end) exps)); [apply NoDup_map_filter; exact ND|].
    clear ND. unfold raw, plug_matches. induction exps as [|[e ke] r IH]; [reflexivity|].
    cbn [flat_map filter fst snd]. rewrite map_app, <- IH.
    destruct (find_target text imps e) as [[m t]|]; [destruct (u_sub u ke t)|]; reflexivity.
  Qed.

  Lemma matches_nodup exps : NoDup (map fst exps) -> NoDup (map fst (matches exps)).
  Proof.
    intros ND. apply (nodup_fst_of_snd (raw exps)); [apply raw_nodup; exact ND| |apply (proj1 (unique_pairs_spec _))].
    intros [e m] I. apply unique_pairs_incl. exact I.
  Qed.

  Definition PR (p : pkgid) (exps : list item) : Prop :=
    exists pd, PD p = Some pd /\ u_inst_exports u (pd_inst pd) = Some exps.

  (** the packages that contribute *)
  Definition Contrib (plugs : list pkgid) (pls : list (list item)) (p : pkgid) : Prop :=
    exists k exps, nth_error plugs k = Some p /\ nth_error pls k = Some exps /\ matches exps <> [].

  Definition Dup (pls : list (list item)) : Prop :=
    exists k1 k2 x1 x2 e1 e2 m, nth_error pls k1 = Some x1 /\ nth_error pls k2 = Some x2 /\
      In (e1, m) (matches x1) /\ In (e2, m) (matches x2) /\ (k1, e1) <> (k2, e2).

  Definition Taken (s : gstate) (pls : list (list item)) : Prop :=
    exists k x e m im t a, nth_error pls k = Some x /\ In (e, m) (matches x) /\
      get_full imps m 0 = Some (im, t) /\ In (arg_e a im) (edges s).

  Definition loop_ok (s : gstate) (plugs : list pkgid) (pls : list (list item)) (s' : gstate) : Prop :=
    Good s' /\
    (forall k p exps e m, nth_error plugs k = Some p -> nth_error pls k = Some exps -> In (e, m) (matches exps) ->
       exists pd, PD p = Some pd /\ Wired s' p pd exps e m) /\
    (forall k exps e m im t a, nth_error pls k = Some exps -> In (e, m) (matches exps) ->
       get_full imps m 0 = Some (im, t) -> ~ In (arg_e a im) (edges s)) /\
    (forall k1 k2 x1 x2 e1 e2 m, nth_error pls k1 = Some x1 -> nth_error pls k2 = Some x2 ->
       In (e1, m) (matches x1) -> In (e2, m) (matches x2) -> k1 = k2) /\
    (forall a i, In (arg_e a i) (edges s') ->
       In (arg_e a i) (edges s) \/
       exists k exps e m t, nth_error pls k = Some exps /\ In (e, m) (matches exps) /\ get_full imps m 0 = Some (i, t)).

  Definition loop_fail (s : gstate) (pls : list (list item)) (o : plug_outcome) : Prop :=
    o = PGraphError ArgumentAlreadyPassed /\ (Dup pls \/ Taken s pls).

  Lemma loop_fail_here s exps pls o : wire_fail s (matches exps) o -> loop_fail s (exps :: pls) o.
  Proof.
    intros (-> & e & m & im & t & a & Ie & Fm & Ia). split; [reflexivity|]. right. exists 0, exps, e, m, im, t, a. auto.
  Qed.

  Lemma loop_fail_later s s1 p pd exps pls o :
    wire_ok s p pd exps (matches exps) s1 -> loop_fail s1 pls o -> loop_fail s (exps :: pls) o.
  Proof.
    intros (_ & _ & _ & AR) (-> & [D|T]); (split; [reflexivity|]).
    - left. destruct D as (k1 & k2 & x1 & x2 & e1 & e2 & m & A & B & C & D & E).
      exists (S k1), (S k2), x1, x2, e1, e2, m. repeat split; auto. intros Q. apply E. congruence.
    - destruct T as (k & x & e & m & im & t & a & A & B & C & D).
      destruct (AR a im D) as [Q|(e0 & m0 & t0 & Q & F0)].
      + right. exists (S k), x, e, m, im, t, a. auto.
      + left. assert (m0 = m) as -> by (eapply get_full_inj; eauto).
        exists 0, (S k), exps, x, e0, e, m. repeat split; auto. discriminate.
  Qed.

  Lemma loop_ok_cons s s1 s' p pd exps plugs pls :
    PD p = Some pd -> wire_ok s p pd exps (matches exps) s1 -> incl (edges s) (edges s1) ->
    NP s1 s' -> incl (edges s1) (edges s') ->
    loop_ok s1 plugs pls s' -> loop_ok s (p :: plugs) (exps :: pls) s'.
  Proof.
    intros Pp (g1 & WD & FR & AR) Inc1 NPs Inc (g' & L1 & L2 & L3 & L4).
    split; [exact g'|]. split; [|split; [|split]].
    - intros [|k] q x e m A B C; cbn in A, B.
      + injection A as <-. injection B as <-. exists pd. split; [exact Pp|].
        eapply Wired_mono; [exact NPs|exact Inc|]. apply WD. exact C.
      + eapply L1; eauto.
    - intros [|k] x e m im t a B C Fm; cbn in B.
      + injection B as <-. eapply FR; eauto.
      + intros Q. apply (L2 k x e m im t a B C Fm). apply Inc1. exact Q.
    - (* a pair of the first plug and one of a later plug: the import was supplied when the later loop began *)
      assert (Cross : forall k2 x2 e1 e2 m, nth_error pls k2 = Some x2 -> In (e1, m) (matches exps) ->
                        In (e2, m) (matches x2) -> False).
      { intros k2 x2 e1 e2 m B C D. destruct (WD e1 m C) as (im & t & a & n & xi & ke & nd & Fm & _ & Ia & _).
        apply (L2 k2 x2 e2 m im t a B D Fm Ia). }
      intros [|k1] [|k2] x1 x2 e1 e2 m A B C D; cbn in A, B.
      + reflexivity.
      + injection A as <-. exfalso. eapply Cross; eauto.
      + injection B as <-. exfalso. eapply Cross; eauto.
      + f_equal. exact (L3 k1 k2 x1 x2 e1 e2 m A B C D).
    - intros a i I. destruct (L4 a i I) as [Q|(k & x & e & m & t & A & B & C)].
      + destruct (AR a i Q) as [Q'|(e & m & t & Q' & F0)]; [left; exact Q'|].
        right. exists 0, exps, e, m, t. auto.
      + right. exists (S k), x, e, m, t. auto.
  Qed.

  Lemma plug_loop_gen : forall plugs pls, Forall2 PR plugs pls -> Forall (fun exps => NoDup (map fst exps)) pls ->
    forall s s' r, Good s -> plug_loop pu s sock imps plugs = (s', r) ->
    Step (Contrib plugs pls) s s' /\
    match r with None => loop_ok s plugs pls s' | Some o => loop_fail s pls o end.
  Proof.
    induction 1 as [|p exps plugs pls (pd & Pp & Xp) F2 IH]; intros NDs s s' r g W.
    - cbn in W. injection W as <- <-. split; [apply Step_refl|]. split; [exact g|].
      split; [intros [|?]; intros; discriminate|]. split; [intros [|?]; intros; discriminate|].
      split; [intros [|?]; intros; discriminate|]. intros a i I. left. exact I.
    - apply Forall_cons_iff in NDs. destruct NDs as (NDx & NDs').
      cbn [plug_loop] in W. unfold world_exports in W. cbn [pu pu_graph pu_name_text] in W.
      rewrite (G_pd s g), Pp, Xp in W. fold (matches exps) in W.
      destruct (wire u s sock p None (matches exps)) as [s1 r1] eqn:W1.
      assert (Shift : forall q, Contrib plugs pls q -> Contrib (p :: plugs) (exps :: pls) q).
      { intros q (k & x & A & B & C). exists (S k), x. auto. }
      assert (Cp : matches exps <> [] -> Contrib (p :: plugs) (exps :: pls) p) by (intros NE; exists 0, exps; auto).
      destruct (wire_gen (Contrib (p :: plugs) (exps :: pls)) p pd exps Pp Xp (matches exps) Cp s None s1 r1 g
                  (matches_Mok exps NDx) (matches_nodup exps NDx) (proj1 (unique_pairs_spec _)) I W1) as (St1 & R1).
      destruct r1 as [o|].
      + injection W as <- <-. split; [exact St1|]. apply loop_fail_here. exact R1.
      + pose proof (proj1 R1) as g1. destruct (IH NDs' s1 s' r g1 W) as (St & R).
        split; [exact (Step_trans _ s s1 s' g1 St1 (Step_weaken _ _ s1 s' Shift St))|].
        destruct r as [o|].
        * exact (loop_fail_later s s1 p pd exps pls o R1 R).
        * destruct St as (NPs & _ & _ & Inc & _). destruct St1 as (_ & _ & _ & Inc1 & _).
          exact (loop_ok_cons s s1 s' p pd exps plugs pls Pp R1 Inc1 NPs Inc R).
  Qed.

  Lemma alias_ok' (P : pkgid -> Prop) s n nd ex e xi k p : Good s ->
    get_node s n = Some nd -> u_inst_exports u (nitem nd) = Some ex -> get_full ex e 0 = Some (xi, k) ->
    npkg nd = Some p -> P p ->
    exists s2 a an, alias u s n e = (s2, ONode a) /\ Good s2 /\ Step P s s2 /\ In (alias_e n a xi) (edges s2) /\
                 (forall a0 i, In (arg_e a0 i) (edges s2) -> In (arg_e a0 i) (edges s)) /\ get_node s2 a = Some an.
  Proof.
    intros g G X F Pn Pp.
    destruct (alias_ok s n nd ex e xi k g G X F) as [(a & E & Ia)|(s2 & E & g2 & Ee & Ex & El & GN)].
    - destruct (G_bound s g _ Ia) as (_ & La). cbn in La. destruct (G_live s g a La) as (an & Ga).
      exists s, a, an. split; [exact E|]. split; [exact g|]. split; [apply Step_refl|]. split; [exact Ia|]. split; [auto|exact Ga].
    - exists s2, (length (nodes s)), (mk_node NAlias k (npkg nd)). split; [exact E|]. split; [exact g2|].
      split; [eapply Step_push; eauto; rewrite Ee; apply incl_tl, incl_refl|].
      split; [rewrite Ee; left; reflexivity|]. split.
      + intros a0 i. rewrite Ee. intros [Q|Q]; [discriminate|exact Q].
      + rewrite GN, Nat.eqb_refl. reflexivity.
  Qed.

  Lemma alist_get_app_one {B} (l : list (name * B)) x a y :
    alist_get N.eqb (l ++ [(x, a)]) y =
    match alist_get N.eqb l y with Some v => Some v | None => if N.eqb x y then Some a else None end.
  Proof. induction l as [|[k v] l IH]; cbn; [reflexivity|]. destruct (N.eqb k y); auto. Qed.

  Variable sx : list item.
  Hypothesis sx_exports : u_inst_exports u (pd_inst sd) = Some sx.
  Hypothesis sx_nodup : NoDup (map fst sx).

  Lemma reexport_gen : forall names s s' r, Good s ->
    NoDup names ->
    (forall x, In x names -> In x (map fst sx) /\ u_export_name_ok u x = true /\ alist_get N.eqb (exports s) x = None) ->
    reexport u s sock names = (s', r) ->
    r = None /\ Good s' /\ NP s s' /\ incl (edges s) (edges s') /\
    (forall a i, In (arg_e a i) (edges s') -> In (arg_e a i) (edges s)) /\
    (forall n nd', get_node s' n = Some nd' -> length (nodes s) <= n -> npkg nd' = Some sp) /\
    (forall x, In x names -> exists a xi k, alist_get N.eqb (exports s') x = Some a /\
                                            In (alias_e sock a xi) (edges s') /\ nth_error sx xi = Some (x, k)) /\
    (forall z b, alist_get N.eqb (exports s) z = Some b -> alist_get N.eqb (exports s') z = Some b).
  Proof.
    induction names as [|x names IH]; intros s s' r g ND Hn W.
    - cbn in W. injection W as <- <-. split; [reflexivity|]. split; [exact g|]. split; [apply NP_refl|].
      split; [apply incl_refl|]. split; [auto|]. split; [|split; [intros x []|auto]].
      intros n nd G L. apply get_node_lt in G. lia.
    - inversion ND as [|? ? NIx ND']; subst. destruct (Hn x (or_introl eq_refl)) as (Ix & Okx & Ax).
      destruct (G_sock s g) as (nd & sat & Gs & Ks & Ps & It0 & _).
      apply in_map_iff in Ix. destruct Ix as ([x0 k] & Ex0 & Ix). cbn in Ex0. subst x0.
      destruct (get_full_in _ _ _ sx_nodup Ix) as (xi & Fx & Nx).
      assert (Xs : u_inst_exports u (nitem nd) = Some sx) by (rewrite It0; exact sx_exports).
      destruct (alias_ok' (fun p => p = sp) s sock nd sx x xi k sp g Gs Xs Fx Ps eq_refl)
        as (s2 & a & an & E2 & g2 & St2 & Ia & Args2 & Ga).
      cbn [reexport] in W. rewrite E2 in W.
      destruct St2 as (NP2 & L2 & X2 & Inc2 & New2).
      assert (Ax2 : alist_get N.eqb (exports s2) x = None) by (rewrite X2; exact Ax).
      destruct (export_ok s2 a an x g2 Ga Ax2 Okx) as (s3 & E3 & g3 & Ee3 & Ex3 & El3 & NP3).
      rewrite E3 in W.
      assert (Hn3 : forall y, In y names -> In y (map fst sx) /\ u_export_name_ok u y = true /\ alist_get N.eqb (exports s3) y = None).
      { intros y Iy. destruct (Hn y (or_intror Iy)) as (A & B & C). split; [exact A|]. split; [exact B|].
        rewrite Ex3, alist_get_app_one, X2, C. destruct (N.eqb_spec x y) as [->|NE]; [contradiction|reflexivity]. }
      destruct (IH s3 s' r g3 ND' Hn3 W) as (-> & g' & NP' & Inc' & Args' & New' & Ex' & Mono').
      split; [reflexivity|]. split; [exact g'|].
      split; [eapply NP_trans; [exact NP2|eapply NP_trans; [exact NP3|exact NP']]|].
      split; [eapply incl_tran; [exact Inc2|]; rewrite <- Ee3; exact Inc'|].
      split; [intros a0 i Q; apply Args2; rewrite <- Ee3; exact (Args' a0 i Q)|].
      split; [|split].
      + intros n nd' G L. destruct (le_lt_dec (length (nodes s3)) n) as [Ge|Lt]; [apply (New' n nd' G Ge)|].
        rewrite El3 in Lt. destruct (G_live s2 g2 n Lt) as (n2 & G2).
        destruct (NP3 _ _ G2) as (n3 & G3 & _ & P3 & _). destruct (NP' _ _ G3) as (n4 & G4 & _ & P4 & _).
        rewrite G in G4. injection G4 as <-. rewrite P4, P3.
        destruct (New2 n n2 G2 L) as (q & Q1 & Q2). congruence.
      + intros y [<-|Iy]; [|apply Ex'; exact Iy].
        exists a, xi, k. split; [|split; [apply Inc'; rewrite Ee3; exact Ia|exact Nx]].
        apply Mono'. rewrite Ex3, alist_get_app_one, X2, Ax, N.eqb_refl. reflexivity.
      + intros z b Az. apply Mono'. rewrite Ex3, alist_get_app_one, X2, Az. reflexivity.
  Qed.

  Lemma get_args_in s m a : Good s ->
    (In (m, a) (get_args u s sock) <-> exists im t, In (arg_e a im) (edges s) /\ nth_error imps im = Some (m, t)).
  Proof.
    intros g. destruct (G_sock s g) as (nd & sat & G & K & P & _).
    unfold get_args. rewrite G, K, (inst_imports_sock s nd g P). rewrite in_flat_map. split.
    - intros (e & Ie & Q). destruct (incoming_sock_args s g e Ie) as (a0 & i & ->). cbn in Q.
      destruct (nth_error imps i) as [[nm t]|] eqn:N; [|destruct Q]. destruct Q as [Q|[]]. injection Q as -> ->.
      apply in_incoming in Ie. exists i, t. tauto.
    - intros (im & t & I & N). exists (arg_e a im). split; [apply in_incoming; auto|]. cbn. rewrite N. left. reflexivity.
  Qed.

  Lemma alias_source_of s n a xi nd ex nm k : Good s -> In (alias_e n a xi) (edges s) ->
    get_node s n = Some nd -> u_inst_exports u (nitem nd) = Some ex -> nth_error ex xi = Some (nm, k) ->
    get_alias_source u s a = Some (n, nm).
  Proof.
    intros g I G X N. unfold get_alias_source.
    destruct (find (fun e => match ek e with EAlias _ => true | _ => false end) (incoming s a)) as [e0|] eqn:F.
    - apply find_some in F. destruct F as (I0 & K0). apply in_incoming in I0. destruct I0 as (I0 & T0).
      destruct (G_shape s g e0 I0) as [(a0 & i & ->)|(n' & a' & xi' & -> & _)]; [discriminate|].
      cbn in T0. subst a'. destruct (G_alias_uniq s g _ _ _ _ _ I0 I) as (-> & ->). cbn. rewrite G, X, N. reflexivity.
    - exfalso. assert (Q := find_none _ _ F (alias_e n a xi)). cbn in Q.
      assert (true = false); [|discriminate]. apply Q. apply in_incoming. auto.
  Qed.

  Lemma in_node_ids s n nd : get_node s n = Some nd -> In n (node_ids s).
  Proof.
    unfold get_node, node_ids, nodes_where. intros G. destruct (nth_error (nodes s) n) as [[x|]|] eqn:N; try discriminate.
    apply in_flat_map. exists (n, Some x). split; [apply combine_seq_In; rewrite Nat.sub_0_r; split; [apply Nat.le_0_l|exact N]|]. cbn. left. reflexivity.
  Qed.

  Lemma list_imports_in s i m t : Good s ->
    nth_error imps i = Some (m, t) -> (forall a, ~ In (arg_e a i) (edges s)) -> In (m, t, None) (list_imports u s).
  Proof.
    intros g N NA. destruct (G_sock s g) as (nd & sat & G & K & P & _ & S).
    unfold list_imports. apply in_or_app. left. apply in_flat_map.
    exists sock. split; [eapply in_node_ids; eauto|]. rewrite G, K, (inst_imports_sock s nd g P).
    apply in_flat_map. exists (i, (m, t)). split; [apply combine_seq_In; rewrite Nat.sub_0_r; split; [apply Nat.le_0_l|exact N]|]. cbn [fst snd].
    rewrite (proj2 (existsb_eqb_notIn i sat)); [left; reflexivity|].
    intros Q. apply S in Q. destruct Q as (a & Ia). exact (NA a Ia).
  Qed.

  Variable plugs : list pkgid.
  Variable pls : list (list item).
  Hypothesis tracks : tracks_distinct text (map fst imps).
  Hypothesis PRs : Forall2 PR plugs pls.
  Let sup := suppliers text (u_sub u) pls.

  Lemma sup_iff_pair k e m t : In (m, t) imps ->
    (In (k, e) (sup (m, t)) <-> exists exps, nth_error pls k = Some exps /\ In (e, m) (matches exps)).
  Proof.
    intros Im. unfold sup. rewrite in_suppliers.
    split; intros (exps & N & Q); exists exps; split; try exact N;
      apply (pair_iff_offer text (u_sub u) imps exps e m t imps_nodup tracks Im); exact Q.
  Qed.

  Lemma pair_sup k exps e m : nth_error pls k = Some exps -> In (e, m) (matches exps) ->
    exists t, In (m, t) imps /\ In (k, e) (sup (m, t)).
  Proof.
    intros N I. destruct (pair_target_is_import text (u_sub u) imps exps e m I) as (t & Im).
    exists t. split; [exact Im|]. apply (sup_iff_pair k e m t Im). eauto.
  Qed.

  Lemma loop_fail_ambiguous s o : edges s = [] -> loop_fail s pls o ->
    o = PGraphError ArgumentAlreadyPassed /\ exists i, In i imps /\ 2 <= length (sup i).
  Proof.
    intros E0 (-> & [D|T]).
    - split; [reflexivity|]. destruct D as (k1 & k2 & x1 & x2 & e1 & e2 & m & N1 & N2 & I1 & I2 & NE).
      destruct (pair_sup _ _ _ _ N1 I1) as (t & Im & S1). destruct (pair_sup _ _ _ _ N2 I2) as (t' & Im' & S2).
      rewrite (NoDup_keys_inj _ _ _ _ imps_nodup Im' Im) in S2. exists (m, t). split; [exact Im|].
      destruct (sup (m, t)) as [|a [|b r]]; [destruct S1| |apply le_n_S, le_n_S, Nat.le_0_l].
      exfalso. apply NE. destruct S1 as [<-|[]]. destruct S2 as [Q|[]]. exact Q.
    - exfalso. destruct T as (k & x & e & m & im & t & a & _ & _ & _ & I). rewrite E0 in I. destruct I.
  Qed.

  Lemma loop_ok_le1 s0 s1 i : loop_ok s0 plugs pls s1 -> In i imps -> length (sup i) <= 1.
  Proof.
    intros (_ & _ & _ & L3 & _) Im. destruct i as [m t]. apply suppliers_from_one. intros k1 k2 e1 e2 S1 S2.
    apply (sup_iff_pair _ _ _ _ Im) in S1, S2. destruct S1 as (x1 & N1 & I1). destruct S2 as (x2 & N2 & I2).
    exact (L3 _ _ _ _ _ _ _ N1 N2 I1 I2).
  Qed.

  Lemma loop_ok_args s0 s1 a i : edges s0 = [] -> loop_ok s0 plugs pls s1 -> In (arg_e a i) (edges s1) ->
    exists m t k e, get_full imps m 0 = Some (i, t) /\ In (m, t) imps /\ In (k, e) (sup (m, t)).
  Proof.
    intros E0 (_ & _ & _ & _ & L4) I.
    destruct (L4 a i I) as [Q|(k & exps & e & m & t & N & Ip & Fm)]; [rewrite E0 in Q; destruct Q|].
    destruct (pair_sup _ _ _ _ N Ip) as (t' & Im & S). exists m, t, k, e. split; [exact Fm|].
    pose proof (nth_error_In _ _ (get_full_nth _ _ _ _ Fm)) as Nm.
    rewrite (NoDup_keys_inj _ _ _ _ imps_nodup Nm Im). auto.
  Qed.

  Lemma loop_ok_wired s0 s1 k e m t : loop_ok s0 plugs pls s1 -> In (m, t) imps -> In (k, e) (sup (m, t)) ->
    exists p pd exps, nth_error plugs k = Some p /\ u_inst_exports u (pd_inst pd) = Some exps /\ Wired s1 p pd exps e m.
  Proof.
    intros (_ & L1 & _) Im S. apply (sup_iff_pair _ _ _ _ Im) in S. destruct S as (exps & N & I).
    destruct (Forall2_nth_right _ _ _ _ _ PRs N) as (p & Np & (pd0 & Ppd0 & Xpd0)).
    destruct (L1 _ _ _ _ _ Np N I) as (pd & Ppd & W). exists p, pd, exps.
    rewrite Ppd0 in Ppd. injection Ppd as <-. auto.
  Qed.

  Lemma loop_ok_no_args s0 s1 i : loop_ok s0 plugs pls s1 -> get_args u s1 sock = [] -> In i imps -> sup i = [].
  Proof.
    intros LK GA Im. destruct i as [m t]. destruct (sup (m, t)) as [|[k e] r] eqn:Sm; [reflexivity|]. exfalso.
    assert (Sk : In (k, e) (sup (m, t))) by (rewrite Sm; left; reflexivity).
    destruct (loop_ok_wired s0 s1 k e m t LK Im Sk) as (p & pd & exps & _ & _ & (im & t' & a & n & xi & ke & nd & Fm & _ & Ia & _)).
    assert (Q : In (m, a) (get_args u s1 sock)).
    { apply (get_args_in s1 m a (proj1 LK)). exists im, t'. split; [exact Ia|].
      exact (get_full_nth _ _ _ _ Fm). }
    rewrite GA in Q. destruct Q.
  Qed.

  Lemma loop_ok_some_arg s0 s1 m a : edges s0 = [] -> loop_ok s0 plugs pls s1 -> In (m, a) (get_args u s1 sock) ->
    exists i, In i imps /\ sup i <> [].
  Proof.
    intros E0 LK I0. apply (get_args_in s1 m a (proj1 LK)) in I0. destruct I0 as (im0 & t0 & Ia0 & _).
    destruct (loop_ok_args s0 s1 a im0 E0 LK Ia0) as (m' & t & k & e & _ & Im & S). exists (m', t). split; [exact Im|].
    intros Q. rewrite Q in S. destruct S.
  Qed.

  Lemma supplies_clause s0 s1 s2 m t : edges s0 = [] -> loop_ok s0 plugs pls s1 ->
    Good s2 -> NP s1 s2 -> incl (edges s1) (edges s2) ->
    (forall a i, In (arg_e a i) (edges s2) -> In (arg_e a i) (edges s1)) ->
    In (m, t) imps ->
    match sup (m, t) with
    | [] => stays_import u s2 sock m t
    | [(k, e)] => exists p, nth_error plugs k = Some p /\ supplied_by u s2 sock m p e
    | _ => False
    end.
  Proof.
    intros E0 LK g2 NP2 Inc2 Args2 Im. destruct (In_nth_error _ _ Im) as (im & Nm).
    pose proof (get_full_of_nth imps im m t imps_nodup Nm) as Fm.
    assert (ONLY : forall a', In (m, a') (get_args u s2 sock) -> In (arg_e a' im) (edges s2)).
    { intros a' Q. apply (get_args_in s2 m a' g2) in Q.
      destruct Q as (im' & t' & Ia' & N'). pose proof (get_full_of_nth imps im' m t' imps_nodup N') as Q.
      rewrite Fm in Q. injection Q as <- <-. exact Ia'. }
    pose proof (loop_ok_le1 s0 s1 _ LK Im) as Le. destruct (sup (m, t)) as [|[k e] [|b r]] eqn:Sm.
    - assert (NOARG : forall a, ~ In (arg_e a im) (edges s2)).
      { intros a Ia. apply Args2 in Ia. destruct (loop_ok_args s0 s1 a im E0 LK Ia) as (m' & t' & k & e & Fm' & Im' & S').
        assert (m' = m) as -> by (eapply get_full_inj; eauto).
        rewrite (NoDup_keys_inj _ _ _ _ imps_nodup Im' Im), Sm in S'. destruct S'. }
      split; [intros a Q; apply (NOARG a), ONLY, Q|exact (list_imports_in s2 im m t g2 Nm NOARG)].
    - assert (Sk : In (k, e) (sup (m, t))) by (rewrite Sm; left; reflexivity).
      destruct (loop_ok_wired s0 s1 k e m t LK Im Sk) as (p & pd & exps & Np & Xpd & W1).
      exists p. split; [exact Np|].
      apply (Wired_mono s1 s2 p pd exps e m NP2 Inc2) in W1.
      destruct W1 as (im' & t' & a & n & xi & ke & nd & Fm' & Fe & Ia & Il & Gn & (sat & Kn) & Pn & Itn).
      pose proof (eq_trans (eq_sym Fm) Fm') as EQ. injection EQ as <- <-.
      exists a, n, nd, sat. split; [|split; [|split; [|auto]]].
      + apply (get_args_in s2 m a g2). eauto.
      + intros a' Q. apply ONLY in Q. apply (G_arg_uniq s2 g2 a' a im Q Ia).
      + pose proof (get_full_nth _ _ _ _ Fe) as Nx.
        assert (Xp : u_inst_exports u (nitem nd) = Some exps) by (rewrite Itn; exact Xpd).
        exact (alias_source_of s2 n a xi nd exps e ke g2 Il Gn Xp Nx).
    - exact (Nat.nle_succ_0 _ (le_S_n _ _ Le)).
  Qed.

  Lemma idle_clause s0 s1 s2 p :
    (forall n, n < length (nodes s0) -> n = sock) ->
    Step (Contrib plugs pls) s0 s1 -> Good s1 -> NP s1 s2 ->
    (forall n nd', get_node s2 n = Some nd' -> length (nodes s1) <= n -> npkg nd' = Some sp) ->
    p <> sp ->
    (forall k, nth_error plugs k = Some p -> forall i, In i imps -> forall e, ~ In (k, e) (sup i)) ->
    not_instantiated s2 p.
  Proof.
    intros Only St1 g1 NP2 New2 NEp Idle n nd Gn Q.
    destruct (le_lt_dec (length (nodes s1)) n) as [Ge|Lt].
    - rewrite (New2 n nd Gn Ge) in Q. congruence.
    - destruct (G_live s1 g1 n Lt) as (n1 & G1). destruct (NP2 _ _ G1) as (n2 & G2 & _ & P2 & _).
      rewrite Gn in G2. injection G2 as <-. rewrite P2 in Q.
      destruct (le_lt_dec (length (nodes s0)) n) as [Ge0|Lt0].
      + destruct St1 as (_ & _ & _ & _ & New1). destruct (New1 n n1 G1 Ge0) as (q & Pq & (k & exps & Nk & Nx & NE)).
        pose proof (eq_trans (eq_sym Pq) Q) as EQ. injection EQ as ->.
        destruct (matches exps) as [|[e m] r] eqn:Me; [exact (NE eq_refl)|].
        assert (I : In (e, m) (matches exps)) by (rewrite Me; left; reflexivity).
        destruct (pair_sup _ _ _ _ Nx I) as (t & Im & Sk). exact (Idle k Nk (m, t) Im e Sk).
      + rewrite (Only n Lt0) in G1. destruct (G_sock s1 g1) as (y & _ & Gy & _ & Py & _).
        rewrite Gy in G1. injection G1 as <-. congruence.
  Qed.

  Lemma plug_rest s0 :
    Good s0 -> edges s0 = [] -> exports s0 = [] -> (forall n, n < length (nodes s0) -> n = sock) ->
    Forall (fun exps => NoDup (map fst exps)) pls -> Forall (fun x => u_export_name_ok u (fst x) = true) sx ->
    forall res,
      res = match plug_loop pu s0 sock imps plugs with
            | (s1, Some o) => (s1, o)
            | (s1, None) =>
                match get_args u s1 sock with
                | [] => (s1, PNoPlugHappened)
                | _ :: _ => match reexport u s1 sock (map fst sx) with
                            | (s2, None) => (s2, POk)
                            | (s2, Some o) => (s2, o)
                            end
                end
            end ->
      plug_result pu plugs sp sock imps sx pls res.
  Proof.
    intros g0 E0 X0 Only NDp OKx res ER. unfold plug_result, pu. cbn [pu_graph pu_name_text]. fold sup.
    destruct (plug_loop pu s0 sock imps plugs) as [s1 r1] eqn:LP.
    destruct (plug_loop_gen plugs pls PRs NDp s0 s1 r1 g0 LP) as (St1 & R1).
    destruct r1 as [o|].
    - subst res. cbn [fst snd]. destruct (loop_fail_ambiguous s0 o E0 R1) as (-> & A). split; [reflexivity|exact A].
    - pose proof (proj1 R1) as g1.
      destruct (get_args u s1 sock) as [|[m0 a0] rest] eqn:GA.
      + subst res. cbn [fst snd]. intros i. exact (loop_ok_no_args s0 s1 i R1 GA).
      + destruct (reexport u s1 sock (map fst sx)) as [s2 r2] eqn:RX.
        assert (Hn : forall x, In x (map fst sx) -> In x (map fst sx) /\ u_export_name_ok u x = true /\
                               alist_get N.eqb (exports s1) x = None).
        { intros x Ix. split; [exact Ix|]. destruct St1 as (_ & _ & -> & _). rewrite X0. split; [|reflexivity].
          apply in_map_iff in Ix. destruct Ix as (y & <- & Iy). rewrite Forall_forall in OKx. apply OKx. exact Iy. }
        destruct (reexport_gen (map fst sx) s1 s2 r2 g1 sx_nodup Hn RX)
          as (-> & g2 & NP2 & Inc2 & Args2 & New2 & Ex2 & _).
        subst res. cbn [fst snd]. split; [intros i; exact (loop_ok_le1 s0 s1 i R1)|].
        split; [apply (loop_ok_some_arg s0 s1 m0 a0 E0 R1); rewrite GA; left; reflexivity|].
        split; [|split].
        * intros m t. exact (supplies_clause s0 s1 s2 m t E0 R1 g2 NP2 Inc2 Args2).
        * intros x k Ix. destruct (Ex2 x (in_map fst _ _ Ix)) as (a & xi & k' & Ax & Ia & Nx).
          exists a. split; [exact Ax|].
          destruct (G_sock s2 g2) as (n2 & _ & G2 & _ & _ & It2 & _).
          assert (Xs : u_inst_exports u (nitem n2) = Some sx) by (rewrite It2; exact sx_exports).
          exact (alias_source_of s2 sock a xi n2 sx x k' g2 Ia G2 Xs Nx).
        * intros p. exact (idle_clause s0 s1 s2 p Only St1 g1 NP2 New2).
  Qed.
End State.

Theorem plug_master pu s plugs socket imps sx pls :
  plug_case pu s plugs socket imps sx pls -> socket_tracks_distinct pu imps ->
  plug_result pu plugs socket 0 imps sx pls (plug pu s plugs socket).
Proof.
  destruct pu as [u text]. unfold socket_tracks_distinct. cbn [pu_graph pu_name_text].
  intros ((Bn & Bf & Be & Bx) & ((sd & Psd & <- & Xsd) & F2) & (NDi & NDx & NDp & OKx)) H1.
  cbn [pu_graph pu_name_text] in *.
  (* the socket instantiation: node 0 of the graph [s0] *)
  remember (plug {| pu_graph := u; pu_name_text := text |} s plugs socket) as res eqn:ER.
  unfold plug in ER. cbn [pu_graph pu_name_text] in ER. rewrite Psd in ER. unfold instantiate in ER. rewrite Psd in ER.
  unfold add_node in ER. rewrite Bf, Bn, Be in ER. cbn [length app] in ER. rewrite Xsd in ER.
  set (nd0 := mk_node (NInst []) (pd_inst sd) (Some socket)) in ER.
  set (s0 := {| nodes := [Some nd0]; free_nodes := []; edges := []; imports := imports s; exports := exports s;
                defined := defined s; pkgs := pkgs s; free_pkgs := free_pkgs s |}) in ER.
  assert (g0 : Good u 0 socket sd (pkg_desc u s) s0).
  { constructor.
    - reflexivity.
    - intros id. apply pkg_desc_same. reflexivity.
    - intros [|n] L; [exists nd0; reflexivity|]. destruct (Nat.nle_succ_0 _ (le_S_n _ _ L)).
    - intros e [].
    - intros e [].
    - exists nd0, []. repeat split; auto; [intros []|intros (a & [])].
    - intros a a' i [].
    - intros n n' a xi xi' [].
    - intros [|n] x Gx; [injection Gx as <-; discriminate|]. destruct n; discriminate. }
  assert (PRs : Forall2 (PR u (pkg_desc u s)) plugs pls).
  { clear - F2. induction F2 as [|p x ps xs (pd & A & B) _ IH]; constructor; [exists pd; auto|exact IH]. }
  apply (plug_rest u 0 socket sd (pkg_desc u s) Psd text NDi sx Xsd NDx plugs pls H1 PRs s0 g0 eq_refl Bx); auto.
  intros [|n] L; [reflexivity|]. destruct (Nat.nle_succ_0 _ (le_S_n _ _ L)).
Qed.
