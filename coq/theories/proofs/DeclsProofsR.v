(** C05, part R: fuel sufficiency of [contains_borrow] ([cb_vt]) on arenas whose defined types only refer to
    older slots, and the exact outcome of [func_type] on a result type that contains a borrow. *)
From WacV Require Import Str Types Decls WitDenote
     DeclsProofsA DeclsProofsF DeclsProofsB DeclsProofsE.
From WacV Require Ast.

(** a value type refers to a defined slot below [n] of this collection (or to no defined slot) *)
Definition vbelow (t : types) (n : nat) (v : valtype) : Prop :=
  match v with VDefined j => id_tag j = t_tag t /\ (id_idx j < n)%nat | _ => True end.
Definition vbounded (t : types) (v : valtype) : Prop := vbelow t (length (t_defined t)) v.
(** creation order is a ranking of the defined arena *)
Definition def_ranked (t : types) : Prop :=
  forall i d, nth_error (t_defined t) i = Some d -> forall v, In v (def_children d) -> vbelow t i v.
(** the value types bound in a scope are in range *)
Definition scope_ok (t : types) (cur : scope) : Prop :=
  forall n v, assoc n cur = Some (TValue v) -> vbounded t v.

Lemma vbelow_le t n m v : (n <= m)%nat -> vbelow t n v -> vbelow t m v.
Proof. destruct v; cbn; auto. intros H [H1 H2]. split; [exact H1 | lia]. Qed.

Lemma any_o_total {A} (p : A -> option bool) l : (forall x, In x l -> p x <> None) -> any_o p l <> None.
Proof.
  induction l as [|x l IH]; intro H; [discriminate|]. rewrite any_o_cons.
  destruct (p x) as [[|]|] eqn:E; [discriminate | | exfalso; apply (H x); [now left | exact E]].
  apply IH. intros y Hy. apply H. now right.
Qed.
Lemma opt_o_total (C : valtype -> option bool) o : (forall v, In v (ov_list o) -> C v <> None) -> opt_o C o <> None.
Proof. destruct o as [v|]; cbn [opt_o ov_list]; [|discriminate]. intro H. apply H. now left. Qed.

Lemma cb_vt_total t : def_ranked t -> forall f n v,
  vbelow t n v -> (n <= length (t_defined t))%nat -> (n < f)%nat -> cb_vt f t v <> None.
Proof.
  intros Hr. induction f as [|f IH]; intros n v Hv Hn Hf; [lia|]. cbn [cb_vt].
  destruct v as [p|r|r|d]; try discriminate. destruct Hv as [Htag Hidx].
  assert (Hg : exists x, get_def t d = Some x /\ nth_error (t_defined t) (id_idx d) = Some x).
  { unfold get_def, lookup. rewrite Htag, N.eqb_refl. destruct (nth_error (t_defined t) (id_idx d)) as [x|] eqn:E; [eauto|].
    apply nth_error_None in E. lia. }
  destruct Hg as [x [-> Hnth]].
  assert (HC : forall v, In v (def_children x) -> cb_vt f t v <> None).
  { intros v Hin. apply (IH (id_idx d)); [apply (Hr _ _ Hnth _ Hin) | lia | lia]. }
  destruct x; cbn [def_children] in HC.
  - apply any_o_total. exact HC.
  - apply HC. now left.
  - apply HC. now left.
  - apply HC. now left.
  - assert (H1 : opt_o (cb_vt f t) ok <> None) by (apply opt_o_total; intros v Hin; apply HC, in_or_app; now left).
    assert (H2 : opt_o (cb_vt f t) err <> None) by (apply opt_o_total; intros v Hin; apply HC, in_or_app; now right).
    destruct (opt_o (cb_vt f t) ok) as [[|]|]; [discriminate | exact H2 | congruence].
  - apply any_o_total. intros kv Hin. apply opt_o_total. intros v Hv. apply HC. apply in_flat_map. eauto.
  - apply any_o_total. intros kv Hin. apply HC. now apply in_map.
  - discriminate.
  - discriminate.
  - apply HC. now left.
  - apply opt_o_total. exact HC.
  - apply opt_o_total. exact HC.
Qed.

Lemma cb_fuel_suffices t v : def_ranked t -> vbounded t v -> cb_vt (cb_fuel t) t v <> None.
Proof. intros Hr Hv. apply (cb_vt_total t Hr _ (length (t_defined t))); [exact Hv | lia | unfold cb_fuel; lia]. Qed.

Lemma vbounded_aext t t' v : aext t t' -> vbounded t v -> vbounded t' v.
Proof.
  intros [H0 [l H] _ _ _ _ _]. unfold vbounded. destruct v; cbn; auto. rewrite H0, H, app_length. intros [H1 H2]. split; [exact H1 | lia].
Qed.
Lemma scope_ok_aext {t t' cur} : aext t t' -> scope_ok t cur -> scope_ok t' cur.
Proof. intros Hx H n v Ha. eapply vbounded_aext; [exact Hx | eapply H; exact Ha]. Qed.

Lemma ranked_add_defined t d :
  def_ranked t -> (forall v, In v (def_children d) -> vbounded t v) -> def_ranked (fst (add_defined t d)).
Proof.
  intros Hr Hd i x Hnth v Hin. cbn [add_defined fst t_defined t_tag] in *.
  destruct (Nat.lt_ge_cases i (length (t_defined t))) as [Hlt|Hge].
  - rewrite nth_error_app1 in Hnth by exact Hlt. apply (Hr _ _ Hnth _ Hin).
  - rewrite nth_error_app2 in Hnth by exact Hge. destruct (i - length (t_defined t))%nat as [|k] eqn:Ek.
    + cbn in Hnth. injection Hnth as <-. eapply vbelow_le; [|apply Hd; exact Hin]. lia.
    + cbn in Hnth. destruct k; discriminate.
Qed.
Lemma ranked_def_rule {cur x t d} : (forall c, In c (def_children d) -> vbounded t c) ->
  def_rule (fun t => def_ranked t /\ scope_ok t cur) (fun t _ v => vbounded t v) x t d.
Proof.
  intros Hd [Hr Hs]. split; [split; [now apply ranked_add_defined | exact (scope_ok_aext (aext_add_defined t d) Hs)]|].
  unfold vbounded. cbn. rewrite app_length. cbn. split; [reflexivity | lia].
Qed.

Lemma orel_ov_list {A} (P : valtype -> Prop) (o : option A) ov :
  orel (fun _ => P) o ov -> forall c, In c (ov_list ov) -> P c.
Proof.
  destruct o, ov; cbn [orel ov_list]; try contradiction. intros H c [<-|[]]. exact H.
Qed.

Lemma ranked_rules cur : ty_rules cur (fun t => def_ranked t /\ scope_ok t cur) (fun t _ v => vbounded t v).
Proof.
  (* a leaf other than a value type taken from the scope refers to no defined slot *)
  constructor; try (intros; exact I).
  - intros t t' x v X. apply vbounded_aext, frame_aext, X.
  - intros t ts sp vs H. apply ranked_def_rule. cbn [def_children]. induction H as [|y v ts vs Hv _ IH]; intros c [].
    + now subst c.
    + now apply IH.
  - intros t y sp v Hv. apply ranked_def_rule. intros c [<-|[]]. exact Hv.
  - intros t y sp v Hv. apply ranked_def_rule. intros c [<-|[]]. exact Hv.
  - intros t o e sp ov ev Ho He. apply ranked_def_rule. cbn [def_children].
    intros c [Hin|Hin]%in_app_or; [exact (orel_ov_list _ _ _ Ho c Hin) | exact (orel_ov_list _ _ _ He c Hin)].
  - intros t i v [_ Hs] Ha. exact (Hs _ _ Ha).
Qed.

Lemma resolve_ty_ranked x cur t v t' :
  def_ranked t -> scope_ok t cur -> resolve_ty cur t x = DOk (v, t') -> def_ranked t' /\ vbounded t' v.
Proof. intros Hr Hs H. destruct (resolve_ty_run (ranked_rules cur) x _ _ H (conj Hr Hs)) as (_ & [Hr' _] & Hv). auto. Qed.

Lemma params_go_ranked : forall ps cur t acc ps' t',
  def_ranked t -> scope_ok t cur -> params_go cur t acc ps = DOk (ps', t') -> def_ranked t'.
Proof.
  induction ps as [|p r IH]; intros cur t acc ps' t' Hr Hs H.
  - cbn in H. now injection H as <- <-.
  - cbn [params_go] in H. dinv H as [[v t1] [E1 H]]. destruct (has _ acc); [discriminate|].
    destruct (resolve_ty_run (ranked_rules cur) _ _ _ E1 (conj Hr Hs)) as (_ & [Hr1 Hs1] & _). exact (IH _ _ _ _ _ Hr1 Hs1 H).
Qed.

Lemma borrow_rejected_ranked cur t e ps y k res v params t1 vr t2 :
  def_ranked t -> scope_ok t cur ->
  Renv t cur e -> den_ty e y = Some v -> has_borrow v = true -> (k = FMethod -> res <> None) ->
  params_go cur t (self_pre k res) ps = DOk (params, t1) -> resolve_ty cur t1 y = DOk (vr, t2) ->
  func_type cur t ps (Ast.RLScalar y) k res = DErr EBorrowInResult.
Proof.
  intros Hr Hs He Hv Hb Hk Hp Hy.
  destruct (borrow_rejected_exact He Hv Hb Hk Hp Hy) as [H|H]; [exact H|]. exfalso.
  pose proof (params_go_ranked _ _ _ _ _ _ Hr Hs Hp) as Hr1.
  destruct (params_go_frame Hp) as [[X1 _] _].
  destruct (resolve_ty_ranked _ _ _ _ _ Hr1 (scope_ok_aext X1 Hs) Hy) as [Hr2 Hv2].
  pose proof (cb_fuel_suffices _ _ Hr2 Hv2) as Hfuel.
  rewrite (func_type_scalar Hk Hp Hy) in H.
  destruct (cb_vt (cb_fuel t2) t2 vr) as [[|]|]; try discriminate. now apply Hfuel.
Qed.

Lemma ranked_empty : def_ranked empty_types.
Proof. intros i d H. destruct i; discriminate. Qed.
Lemma scope_ok_nil t : scope_ok t [].
Proof. intros n v H. discriminate. Qed.
