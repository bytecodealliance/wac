(** C06: the frame of the two removals: apart from the removed nodes nothing changes. The surviving nodes
    keep their package, kind, name and export name (an instantiation may lose satisfied indexes), the
    maps and the edge list keep exactly the entries whose nodes survive, the package table is untouched. *)
From Coq Require Import List Arith Bool NArith.
From WacV Require Import Graph GraphInv GraphPrims GraphRemove GraphUnreg.
Import ListNotations.

Definition nrel5 (a b : node) : Prop :=
  nitem b = nitem a /\ npkg b = npkg a /\ nname b = nname a /\ nexport b = nexport a /\ kclass (nk a) (nk b).

Lemma nrel5_refl a : nrel5 a a.
Proof. repeat split. apply kclass_refl. Qed.

Lemma nrel5_trans a b c : nrel5 a b -> nrel5 b c -> nrel5 a c.
Proof.
  intros (A1 & A2 & A3 & A4 & A5) (B1 & B2 & B3 & B4 & B5). repeat split; try congruence.
  destruct (nk a), (nk b), (nk c); cbn in *; auto; congruence.
Qed.

Lemma cleared_nrel5 l m a b : cleared l m a b -> nrel5 a b.
Proof. intros C. pose proof (cleared_kclass _ _ _ _ C). destruct C as (C1 & C2 & C3 & C4 & _). repeat split; auto. Qed.

Record Frame (s s' : gstate) : Prop := {
  fr_live : forall m, live s' m = true -> live s m = true;
  fr_nodes : forall m, live s' m = true -> orel nrel5 (get_node s m) (get_node s' m);
  fr_edges : forall e, In e (edges s') <-> In e (edges s) /\ live s' (esrc e) = true /\ live s' (etgt e) = true;
  fr_exports : forall x, In x (exports s') <-> In x (exports s) /\ live s' (snd x) = true;
  fr_imports : forall x, In x (imports s') <-> In x (imports s) /\ live s' (snd x) = true;
  fr_defined : forall x, In x (defined s') <-> In x (defined s) /\ live s' (snd x) = true;
  fr_pkgs : pkgs s' = pkgs s }.

Lemma Frame_refl u s : InvC u s -> Frame s s.
Proof.
  intros HI. destruct (maps_live u s HI) as (Mx & Mi & Md). constructor; auto.
  - intros m L. unfold live in L. destruct (get_node s m); [apply nrel5_refl|discriminate].
  - intros e. split; [|tauto]. intros H. split; auto. apply (eo_live _ _ (ic_edge _ _ HI) e H).
  - intros x. split; [auto|tauto].
  - intros x. split; [auto|tauto].
  - intros x. split; [auto|tauto].
Qed.

Lemma Frame_trans s s1 s2 : Frame s s1 -> Frame s1 s2 -> Frame s s2.
Proof.
  intros [A1 A2 A3 A4 A5 A6 A7] [B1 B2 B3 B4 B5 B6 B7]. constructor.
  - auto.
  - intros m L. specialize (B2 m L). specialize (A2 m (B1 m L)).
    destruct (get_node s m), (get_node s1 m), (get_node s2 m); cbn in *; try contradiction; auto.
    eapply nrel5_trans; eauto.
  - intros e. rewrite B3, A3. split; [tauto|]. intros (H1 & H2 & H3). repeat split; auto.
  - intros x. rewrite B4, A4. split; [tauto|]. intros (H1 & H2). repeat split; auto.
  - intros x. rewrite B5, A5. split; [tauto|]. intros (H1 & H2). repeat split; auto.
  - intros x. rewrite B6, A6. split; [tauto|]. intros (H1 & H2). repeat split; auto.
  - congruence.
Qed.

Lemma Purged_Frame u d l s s' : InvC u s -> Purged d l s s' -> pkgs s' = pkgs s -> Frame s s'.
Proof.
  intros HI R Ep. destruct (maps_live u s HI) as (Mx & Mi & Md).
  assert (Hl : forall m, live s' m = true <-> d m = false /\ live s m = true).
  { intros m. rewrite (Purged_live _ _ _ _ R). destruct (d m); [split; [discriminate|intros [? _]; discriminate]|tauto]. }
  constructor.
  - intros m L. now apply Hl in L.
  - intros m L. apply Hl in L as [Dm _]. pose proof (pu_nodes _ _ _ _ R m) as H. rewrite Dm in H.
    eapply orel_impl; [|exact H]. intros a b. apply cleared_nrel5.
  - intros e. rewrite (pu_edges _ _ _ _ R), filter_In, andb_true_iff, !negb_true_iff, !Hl.
    split; [|tauto]. intros (H1 & H2 & H3). destruct (eo_live _ _ (ic_edge _ _ HI) e H1) as [L1 L2].
    rewrite <- live_liveb in L1, L2. tauto.
  - intros x. rewrite (pu_exports _ _ _ _ R), Hl. split; [|tauto]. intros [H1 H2]. auto.
  - intros x. rewrite (pu_imports _ _ _ _ R), Hl. split; [|tauto]. intros [H1 H2]. auto.
  - intros x. rewrite (pu_defined _ _ _ _ R), Hl. split; [|tauto]. intros [H1 H2]. auto.
  - exact Ep.
Qed.

Lemma RemOne_Frame u s n s' : InvC u s -> RemOne s n s' -> Frame s s'.
Proof. intros HI [[l R] _ Ep]. exact (Purged_Frame u _ l s s' HI R Ep). Qed.

Lemma remove_frame u s n s' : Inv u s -> remove_node s n = (s', OUnit) -> Frame s s'.
Proof.
  intros H R. apply Inv_iff in H.
  apply (remove_node_rel u Frame (Frame_refl u) Frame_trans (fun s n s' H _ _ _ => RemOne_Frame u s n s' H) s n s' H R).
Qed.

Lemma unregister_frame s id s' :
  unregister s id = (s', OUnit) ->
  (forall m, live s' m = true <-> live s m = true /\ node_pkg_is s id m = false) /\
  (forall m, live s' m = true -> orel nrel5 (get_node s m) (get_node s' m)) /\
  (forall e, In e (edges s') <-> In e (edges s) /\ node_pkg_is s id (esrc e) = false /\ node_pkg_is s id (etgt e) = false) /\
  (forall x, In x (exports s') <-> In x (exports s) /\ node_pkg_is s id (snd x) = false) /\
  (forall x, In x (imports s') <-> In x (imports s) /\ node_pkg_is s id (snd x) = false) /\
  (forall x, In x (defined s') <-> In x (defined s) /\ node_pkg_is s id (snd x) = false) /\
  (forall id', fst id' <> fst id -> get_pkg s' id' = get_pkg s id').
Proof.
  intros R. destruct (unregister_unit s id s' R) as (sl & s3 & _ & _ & _ & Pu & Ep & _ & _ & ->).
  pose proof (Purged_live _ _ _ _ Pu) as Lv.
  cbn [with_pkgs edges imports exports defined].
  split; [|split; [|split; [|split; [|split; [|split]]]]].
  - intros m. change (live (with_pkgs s3 _ _) m) with (live s3 m). rewrite Lv.
    destruct (node_pkg_is s id m); [split; [discriminate|intros [_ ?]; discriminate]|tauto].
  - intros m. change (live (with_pkgs s3 _ _) m) with (live s3 m). rewrite Lv. pose proof (pu_nodes _ _ _ _ Pu m) as H.
    destruct (node_pkg_is s id m); [discriminate|]. intros _. eapply orel_impl; [|exact H]. intros a b. apply cleared_nrel5.
  - intros e. rewrite (pu_edges _ _ _ _ Pu), filter_In, andb_true_iff, !negb_true_iff. tauto.
  - exact (pu_exports _ _ _ _ Pu).
  - exact (pu_imports _ _ _ _ Pu).
  - exact (pu_defined _ _ _ _ Pu).
  - intros id' Hne. unfold get_pkg. cbn [with_pkgs pkgs]. rewrite nth_error_set_nth. apply Nat.eqb_neq in Hne. now rewrite Hne.
Qed.
