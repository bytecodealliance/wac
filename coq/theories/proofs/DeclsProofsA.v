(** C05, part A: infrastructure for the simulation between the declaration resolver ([Decls.v]) and the
    WIT denotation ([WitDenote.v]).

    - fuel-free relational views of [unfold_vt]/[res_name_of]/[unfold_func]/[unfold] with
      constructor-style introduction rules and the inversions that the later parts need;
    - arena extension [aext] and transport of every view along it;
    - the relations between scopes and environments ([rel_item], [Renv]) and between export lists and
      item lists ([Rexts]), all instances of one keyed pointwise relation [R2].

    Dependency order of the parts: A, F, B, C, D, E, R (F, the resolver alone, comes second). *)
From WacV Require Import Str StrFacts ListFacts Types CheckerEq CheckerValue CheckerProofs Decls WitDenote.
From WacV Require Ast.

Lemma dbind_ok {A B} (r : dres A) (f : A -> dres B) b :
  dbind r f = DOk b -> exists a, r = DOk a /\ f a = DOk b.
Proof. destruct r as [a| | | |]; cbn [dbind]; try discriminate. intro H. exists a. auto. Qed.

Tactic Notation "dinv" hyp(H) "as" simple_intropattern(p) :=
  apply dbind_ok in H as p; cbv beta iota in H.

Lemma dbind_ext {A B} (r : dres A) (f g : A -> dres B) : (forall a, f a = g a) -> dbind r f = dbind r g.
Proof. intro H. destruct r; cbn [dbind]; auto. Qed.

Lemma forall2_all_some {A B} (U : A -> option B) l l' :
  Forall2 (fun x y => U x = Some y) l l' -> all_some (map U l) = Some l'.
Proof.
  induction 1 as [|x y l l' Hxy _ IH]; cbn [map all_some]; [reflexivity|]. now rewrite Hxy, IH.
Qed.
Lemma all_some_app {A} (l1 l2 : list (option A)) r1 r2 :
  all_some l1 = Some r1 -> all_some l2 = Some r2 -> all_some (l1 ++ l2) = Some (r1 ++ r2).
Proof.
  revert r1. induction l1 as [|[x|] l1 IH]; intros r1; cbn [all_some app]; try discriminate.
  - intro H. injection H as <-. auto.
  - destruct (all_some l1) as [r|]; [|discriminate]. intros H H2. injection H as <-.
    now rewrite (IH _ eq_refl H2).
Qed.

Lemma forall2_map_snd {K A B} (U : A -> option B) (l : list (K * A)) l' :
  Forall2 (fun a b => fst a = fst b /\ U (snd a) = Some (snd b)) l l' -> map_snd U l = Some l'.
Proof.
  unfold map_snd. induction 1 as [|[k x] [k' y] l l' [Hk Hxy] _ IH]; cbn [map all_some fst snd] in *; [reflexivity|].
  subst k'. now rewrite Hxy, IH.
Qed.

(** a common fuel for a list of fuel-indexed facts *)
Section Collect.
  Context {A B : Type} (U : nat -> A -> option B).
  Hypothesis mono : forall f f' x y, (f <= f')%nat -> U f x = Some y -> U f' x = Some y.

  Lemma collect_list l l' :
    Forall2 (fun x y => exists f, U f x = Some y) l l' -> exists f, all_some (map (U f) l) = Some l'.
  Proof.
    induction 1 as [|x y l l' [f1 H1] _ [f2 IH]]; [exists O; reflexivity|].
    exists (Nat.max f1 f2). cbn [map all_some].
    rewrite (mono f1 _ x y (Nat.le_max_l _ _) H1).
    assert (He : ext_some (U f2) (U (Nat.max f1 f2))) by (intros a b; apply mono; apply Nat.le_max_r).
    now rewrite (all_some_map_ext _ _ _ _ He IH).
  Qed.
  Lemma collect_keyed {K} (l : list (K * A)) l' :
    Forall2 (fun a b => fst a = fst b /\ exists f, U f (snd a) = Some (snd b)) l l' -> exists f, map_snd (U f) l = Some l'.
  Proof.
    induction 1 as [|[k x] [k' y] l l' [Hk [f1 H1]] _ [f2 IH]]; [exists O; reflexivity|]. cbn [fst snd] in *. subst k'.
    exists (Nat.max f1 f2). apply forall2_map_snd. constructor.
    - cbn [fst snd]. split; [reflexivity|]. apply (mono f1); [apply Nat.le_max_l | exact H1].
    - apply map_snd_forall2. assert (He : ext_some (U f2) (U (Nat.max f1 f2))) by (intros a b; apply mono; apply Nat.le_max_r).
      apply (map_snd_ext _ _ _ _ He IH).
  Qed.
End Collect.

Definition uv (t : types) (v : valtype) (tr : vtree) : Prop := exists f, unfold_vt f t v = Some tr.
Definition un (t : types) (r : id) (n : str) : Prop := exists f, res_name_of f t r = Some n.
Definition uf (t : types) (i : id) (ft : ftree) : Prop := exists f, unfold_func f t i = Some ft.
Definition uk (t : types) (k : kind) (tr : tree) : Prop := exists f, unfold f t k = Some tr.

Definition uvo (t : types) (o : option valtype) (o' : option vtree) : Prop :=
  match o, o' with Some v, Some tr => uv t v tr | None, None => True | _, _ => False end.

Definition R2 {A B} (P : A -> B -> Prop) (l : list (str * A)) (l' : list (str * B)) : Prop :=
  Forall2 (fun a b => fst a = fst b /\ P (snd a) (snd b)) l l'.

Lemma R2_nil {A B} (P : A -> B -> Prop) : R2 P [] [].
Proof. constructor. Qed.
Lemma R2_cons {A B} (P : A -> B -> Prop) k x y l l' : P x y -> R2 P l l' -> R2 P ((k, x) :: l) ((k, y) :: l').
Proof. intros H1 H2. constructor; [cbn; auto | exact H2]. Qed.
Lemma R2_app {A B} (P : A -> B -> Prop) l1 l1' l2 l2' : R2 P l1 l1' -> R2 P l2 l2' -> R2 P (l1 ++ l2) (l1' ++ l2').
Proof. apply Forall2_app. Qed.
Lemma R2_snoc {A B} (P : A -> B -> Prop) k x y l l' : R2 P l l' -> P x y -> R2 P (l ++ [(k, x)]) (l' ++ [(k, y)]).
Proof. intros H1 H2. apply R2_app; [exact H1|]. apply R2_cons; [exact H2 | apply R2_nil]. Qed.
Lemma R2_mono {A B} (P Q : A -> B -> Prop) l l' : (forall x y, P x y -> Q x y) -> R2 P l l' -> R2 Q l l'.
Proof. intros H. induction 1 as [|a b l l' [Hk Hp] _ IH]; constructor; auto. Qed.
Lemma R2_keys {A B} (P : A -> B -> Prop) l l' : R2 P l l' -> map fst l = map fst l'.
Proof. induction 1 as [|a b l l' [Hk _] _ IH]; cbn [map]; [reflexivity | now rewrite Hk, IH]. Qed.
Lemma R2_assoc {A B} (P : A -> B -> Prop) l l' k : R2 P l l' ->
  match assoc k l, assoc k l' with Some x, Some y => P x y | None, None => True | _, _ => False end.
Proof.
  induction 1 as [|[k1 x] [k2 y] l l' [Hk Hp] _ IH]; cbn [assoc fst snd] in *; [exact I|]. subst k2.
  destruct (str_eqb k k1); [exact Hp | exact IH].
Qed.
Lemma R2_assoc_some {A B} {P : A -> B -> Prop} {l l' k x} : R2 P l l' -> assoc k l = Some x ->
  exists y, assoc k l' = Some y /\ P x y.
Proof.
  intros H E. pose proof (R2_assoc P l l' k H) as Ha. rewrite E in Ha.
  destruct (assoc k l') as [y|]; [eauto | contradiction].
Qed.
Lemma R2_assoc_none {A B} {P : A -> B -> Prop} {l l' k} : R2 P l l' -> assoc k l = None -> assoc k l' = None.
Proof.
  intros H E. pose proof (R2_assoc P l l' k H) as Ha. rewrite E in Ha.
  destruct (assoc k l') as [y|]; [contradiction | reflexivity].
Qed.
Lemma R2_has {A B} {P : A -> B -> Prop} {l l'} k : R2 P l l' -> has k l = bound k l'.
Proof.
  intros H. unfold has, bound. pose proof (R2_assoc P l l' k H) as Ha.
  destruct (assoc k l), (assoc k l'); auto; contradiction.
Qed.
Lemma R2_forall2 {A B} (P : A -> B -> Prop) l l' :
  R2 P l l' -> Forall2 (fun a b => fst a = fst b /\ P (snd a) (snd b)) l l'.
Proof. auto. Qed.

Notation Rexts t := (R2 (uk t)).
Notation uvf t := (R2 (uv t)).
Notation uvc t := (R2 (uvo t)).

Lemma uv_mono t : forall f f' x y, (f <= f')%nat -> unfold_vt f t x = Some y -> unfold_vt f' t x = Some y.
Proof. intros. eapply unfold_vt_mono; eauto. Qed.
Lemma uvo_mono t : forall f f' x y, (f <= f')%nat -> omap (unfold_vt f t) x = Some y -> omap (unfold_vt f' t) x = Some y.
Proof. intros f f' o o' Hle. apply omap_ext. intros x y. now apply uv_mono. Qed.
Lemma uk_mono t : forall f f' x y, (f <= f')%nat -> unfold f t x = Some y -> unfold f' t x = Some y.
Proof. intros. eapply unfold_mono; eauto. Qed.

Lemma uvo_omap {t o o'} : uvo t o o' -> exists f, omap (unfold_vt f t) o = Some o'.
Proof.
  destruct o as [v|], o' as [tr|]; cbn [uvo omap]; try contradiction.
  - intros [f H]. exists f. now rewrite H.
  - intros _. exists O. reflexivity.
Qed.
Lemma omap_uvo t f o o' : omap (unfold_vt f t) o = Some o' -> uvo t o o'.
Proof.
  destruct o as [v|]; cbn [omap].
  - destruct (unfold_vt f t v) as [y|] eqn:E; [|discriminate]. intro H. injection H as <-. exists f. exact E.
  - intro H. injection H as <-. exact I.
Qed.

Lemma uvs_collect {t l l'} : Forall2 (uv t) l l' -> exists f, all_some (map (unfold_vt f t) l) = Some l'.
Proof. apply (collect_list (fun f => unfold_vt f t)). apply uv_mono. Qed.
Lemma uvf_collect {t l l'} : uvf t l l' -> exists f, map_snd (unfold_vt f t) l = Some l'.
Proof. apply (collect_keyed (fun f => unfold_vt f t)). apply uv_mono. Qed.
Lemma uvc_collect {t l l'} : uvc t l l' -> exists f, map_snd (omap (unfold_vt f t)) l = Some l'.
Proof.
  intro H. apply (collect_keyed (fun f => omap (unfold_vt f t))); [apply uvo_mono|].
  eapply Forall2_impl; [|exact H]. cbv beta. intros a b [Hk Hp]. split; [exact Hk|]. now apply uvo_omap.
Qed.
Lemma Rexts_collect {t l l'} : Rexts t l l' -> exists f, map_snd (unfold f t) l = Some l'.
Proof. apply (collect_keyed (fun f => unfold f t)). apply uk_mono. Qed.

Lemma map_snd_uvf t f l l' : map_snd (unfold_vt f t) l = Some l' -> uvf t l l'.
Proof.
  intro H. apply map_snd_forall2 in H. eapply Forall2_impl; [|exact H].
  intros a b [Hk Hp]. split; [exact Hk | exists f; exact Hp].
Qed.
Lemma map_snd_uvc t f l l' : map_snd (omap (unfold_vt f t)) l = Some l' -> uvc t l l'.
Proof.
  intro H. apply map_snd_forall2 in H. eapply Forall2_impl; [|exact H].
  intros a b [Hk Hp]. split; [exact Hk | eapply omap_uvo; exact Hp].
Qed.
Lemma map_snd_Rexts t f l l' : map_snd (unfold f t) l = Some l' -> Rexts t l l'.
Proof.
  intro H. apply map_snd_forall2 in H. eapply Forall2_impl; [|exact H].
  intros a b [Hk Hp]. split; [exact Hk | exists f; exact Hp].
Qed.
Lemma all_some_uvs t f l l' : all_some (map (unfold_vt f t) l) = Some l' -> Forall2 (uv t) l l'.
Proof.
  intro H. apply all_some_forall2 in H. eapply Forall2_impl; [|exact H]. cbv beta. intros a b Hp. exists f. exact Hp.
Qed.

Lemma uv_prim t p : uv t (VPrim p) (VTPrim p).
Proof. exists 1%nat. reflexivity. Qed.
Lemma uv_borrow t r n : un t r n -> uv t (VBorrow r) (VTBorrow n).
Proof. intros [[|f] H]; [discriminate|]. exists (S f). cbn [unfold_vt]. now rewrite H. Qed.
Lemma uv_own t r n : un t r n -> uv t (VOwn r) (VTOwn n).
Proof. intros [[|f] H]; [discriminate|]. exists (S f). cbn [unfold_vt]. now rewrite H. Qed.

Lemma uv_list t d x tx : get_def t d = Some (DList x) -> uv t x tx -> uv t (VDefined d) (VTList tx).
Proof. intros E [f H]. exists (S f). cbn [unfold_vt]. now rewrite E, H. Qed.
Lemma uv_option t d x tx : get_def t d = Some (DOption x) -> uv t x tx -> uv t (VDefined d) (VTOption tx).
Proof. intros E [f H]. exists (S f). cbn [unfold_vt]. now rewrite E, H. Qed.
Lemma uv_alias t d x tx : get_def t d = Some (DAlias x) -> uv t x tx -> uv t (VDefined d) tx.
Proof. intros E [f H]. exists (S f). cbn [unfold_vt]. now rewrite E, H. Qed.
Lemma uv_tuple t d l l' : get_def t d = Some (DTuple l) -> Forall2 (uv t) l l' -> uv t (VDefined d) (VTTuple l').
Proof. intros E H. destruct (uvs_collect H) as [f Hf]. exists (S f). cbn [unfold_vt]. now rewrite E, Hf. Qed.
Lemma uv_result t d o e o' e' :
  get_def t d = Some (DResult o e) -> uvo t o o' -> uvo t e e' -> uv t (VDefined d) (VTResult o' e').
Proof.
  intros E Ho He. destruct (uvo_omap Ho) as [f1 H1]. destruct (uvo_omap He) as [f2 H2].
  exists (S (Nat.max f1 f2)). cbn [unfold_vt]. rewrite E.
  rewrite (uvo_mono t f1 _ _ _ (Nat.le_max_l _ _) H1), (uvo_mono t f2 _ _ _ (Nat.le_max_r _ _) H2). reflexivity.
Qed.
Lemma uv_variant t d c c' : get_def t d = Some (DVariant c) -> uvc t c c' -> uv t (VDefined d) (VTVariant c').
Proof. intros E H. destruct (uvc_collect H) as [f Hf]. exists (S f). cbn [unfold_vt]. now rewrite E, Hf. Qed.
Lemma uv_record t d c c' : get_def t d = Some (DRecord c) -> uvf t c c' -> uv t (VDefined d) (VTRecord c').
Proof. intros E H. destruct (uvf_collect H) as [f Hf]. exists (S f). cbn [unfold_vt]. now rewrite E, Hf. Qed.
Lemma uv_flags t d l : get_def t d = Some (DFlags l) -> uv t (VDefined d) (VTFlags l).
Proof. intros E. exists 1%nat. cbn [unfold_vt]. now rewrite E. Qed.
Lemma uv_enum t d l : get_def t d = Some (DEnum l) -> uv t (VDefined d) (VTEnum l).
Proof. intros E. exists 1%nat. cbn [unfold_vt]. now rewrite E. Qed.

Definition uv_def_shape (t : types) (x : deftype) (tr : vtree) : Prop :=
  match x with
  | DTuple l => exists l', tr = VTTuple l' /\ Forall2 (uv t) l l'
  | DList y => exists ty, tr = VTList ty /\ uv t y ty
  | DFsl y n => exists ty, tr = VTFsl ty n /\ uv t y ty
  | DOption y => exists ty, tr = VTOption ty /\ uv t y ty
  | DResult o e => exists o' e', tr = VTResult o' e' /\ uvo t o o' /\ uvo t e e'
  | DVariant c => exists c', tr = VTVariant c' /\ uvc t c c'
  | DRecord c => exists c', tr = VTRecord c' /\ uvf t c c'
  | DFlags l => tr = VTFlags l
  | DEnum l => tr = VTEnum l
  | DAlias y => uv t y tr
  | DStream o => exists o', tr = VTStream o' /\ uvo t o o'
  | DFuture o => exists o', tr = VTFuture o' /\ uvo t o o'
  end.
Lemma uv_def_inv t d x tr : get_def t d = Some x -> uv t (VDefined d) tr -> uv_def_shape t x tr.
Proof.
  intros E [[|f] H]; [discriminate|]. rewrite unfold_vt_eq in H. cbn [unfold_vt_body] in H. rewrite E in H.
  destruct x; cbn [uv_def_shape]; try (apply option_map_some in H as [y [E1 ->]]; exists y; split; [reflexivity|]).
  - eapply all_some_uvs; exact E1.
  - exists f; exact E1.
  - exists f; exact E1.
  - exists f; exact E1.
  - destruct (omap _ ok) as [o'|] eqn:E1; [|discriminate]. destruct (omap _ err) as [e'|] eqn:E2; [|discriminate].
    injection H as <-. do 2 eexists; split; [reflexivity|]. split; eapply omap_uvo; eassumption.
  - eapply map_snd_uvc; exact E1.
  - eapply map_snd_uvf; exact E1.
  - now injection H as <-.
  - now injection H as <-.
  - exists f. exact H.
  - eapply omap_uvo; exact E1.
  - eapply omap_uvo; exact E1.
Qed.
Lemma uv_prim_inv t p tr : uv t (VPrim p) tr -> tr = VTPrim p.
Proof. intros [[|f] H]; [discriminate|]. cbn in H. now injection H as <-. Qed.
Lemma uv_borrow_inv t r tr : uv t (VBorrow r) tr -> exists n, tr = VTBorrow n /\ un t r n.
Proof.
  intros [[|f] H]; [discriminate|]. rewrite unfold_vt_eq in H. apply option_map_some in H as [n [E ->]].
  exists n. split; [reflexivity | exists (S f); exact E].
Qed.
Lemma uv_own_inv t r tr : uv t (VOwn r) tr -> exists n, tr = VTOwn n /\ un t r n.
Proof.
  intros [[|f] H]; [discriminate|]. rewrite unfold_vt_eq in H. apply option_map_some in H as [n [E ->]].
  exists n. split; [reflexivity | exists (S f); exact E].
Qed.

Lemma un_def t r x : get_res t r = Some x -> res_alias x = None -> un t r (res_name x).
Proof. intros E Ha. exists 1%nat. cbn [res_name_of]. rewrite E. unfold res_source. now rewrite Ha. Qed.
Lemma un_alias t r x o s n : get_res t r = Some x -> res_alias x = Some (o, s) -> un t s n -> un t r n.
Proof. intros E Ha [f H]. exists (S f). cbn [res_name_of]. rewrite E. unfold res_source. now rewrite Ha. Qed.

Lemma uf_intro t i x ps r :
  get_func t i = Some x -> uvf t (f_params x) ps -> uvo t (f_result x) r -> uf t i (mkft ps r (f_async x)).
Proof.
  intros E Hp Hr. destruct (uvf_collect Hp) as [f1 H1]. destruct (uvo_omap Hr) as [f2 H2].
  exists (Nat.max f1 f2). unfold unfold_func. rewrite E.
  assert (He : ext_some (unfold_vt f1 t) (unfold_vt (Nat.max f1 f2) t)) by (intros a b; apply uv_mono; apply Nat.le_max_l).
  rewrite (map_snd_ext _ _ _ _ He H1), (uvo_mono t f2 _ _ _ (Nat.le_max_r _ _) H2). reflexivity.
Qed.
Lemma uf_inv t i ft : uf t i ft ->
  exists x, get_func t i = Some x /\ uvf t (f_params x) (ft_params ft) /\ uvo t (f_result x) (ft_result ft) /\ ft_async ft = f_async x.
Proof.
  intros [f H]. unfold unfold_func in H. destruct (get_func t i) as [x|]; [|discriminate]. exists x.
  destruct (map_snd _ (f_params x)) as [ps|] eqn:E1; [|discriminate].
  destruct (omap _ (f_result x)) as [r|] eqn:E2; [|discriminate]. injection H as <-. cbn.
  split; [reflexivity|]. split; [eapply map_snd_uvf; exact E1|]. split; [eapply omap_uvo; exact E2 | reflexivity].
Qed.

Lemma uk_tvalue t v tr : uv t v tr -> uk t (KType (TValue v)) (XTValue tr).
Proof. intros [[|f] H]; [discriminate|]. exists (S f). rewrite unfold_eq. cbn [unfold_body]. now rewrite H. Qed.
Lemma uk_tres t r n : un t r n -> uk t (KType (TResource r)) (XTRes n).
Proof. intros [[|f] H]; [discriminate|]. exists (S f). rewrite unfold_eq. cbn [unfold_body]. now rewrite H. Qed.
Lemma uk_tfunc t i ft : uf t i ft -> uk t (KType (TFunc i)) (XTFunc ft).
Proof.
  intros [f H]. exists (S f). rewrite unfold_eq. cbn [unfold_body]. now rewrite (unfold_func_S _ _ _ _ H).
Qed.
Lemma uk_func t i ft : uf t i ft -> uk t (KFunc i) (XFunc ft).
Proof.
  intros [f H]. exists (S f). rewrite unfold_eq. cbn [unfold_body]. now rewrite (unfold_func_S _ _ _ _ H).
Qed.
Lemma uk_inst t i x e : get_if t i = Some x -> Rexts t (i_exports x) e -> uk t (KInstance i) (XInst e).
Proof.
  intros E H. destruct (Rexts_collect H) as [f Hf]. exists (S f). rewrite unfold_eq. cbn [unfold_body].
  unfold unfold_inst. now rewrite E, Hf.
Qed.
Lemma uk_tinst t i x e : get_if t i = Some x -> Rexts t (i_exports x) e -> uk t (KType (TInterface i)) (XTInst e).
Proof.
  intros E H. destruct (Rexts_collect H) as [f Hf]. exists (S f). rewrite unfold_eq. cbn [unfold_body].
  unfold unfold_inst. now rewrite E, Hf.
Qed.
Lemma uk_tworld t w x i e :
  get_world t w = Some x -> Rexts t (w_imports x) i -> Rexts t (w_exports x) e -> uk t (KType (TWorld w)) (XTComp i e).
Proof.
  intros E Hi He. destruct (Rexts_collect Hi) as [f1 H1]. destruct (Rexts_collect He) as [f2 H2].
  exists (S (Nat.max f1 f2)). rewrite unfold_eq. cbn [unfold_body]. unfold unfold_comp. rewrite E.
  assert (He1 : ext_some (unfold f1 t) (unfold (Nat.max f1 f2) t)) by (intros a b; apply uk_mono; apply Nat.le_max_l).
  assert (He2 : ext_some (unfold f2 t) (unfold (Nat.max f1 f2) t)) by (intros a b; apply uk_mono; apply Nat.le_max_r).
  rewrite (map_snd_ext _ _ _ _ He1 H1), (map_snd_ext _ _ _ _ He2 H2). reflexivity.
Qed.

Lemma uk_tvalue_inv t v tr : uk t (KType (TValue v)) tr -> exists vt, tr = XTValue vt /\ uv t v vt.
Proof.
  intros [[|f] H]; [discriminate|]. rewrite unfold_eq in H. cbn [unfold_body] in H.
  apply option_map_some in H as [y [E ->]]. exists y. split; [reflexivity | exists (S f); exact E].
Qed.
Lemma uk_tres_inv t r tr : uk t (KType (TResource r)) tr -> exists n, tr = XTRes n /\ un t r n.
Proof.
  intros [[|f] H]; [discriminate|]. rewrite unfold_eq in H. cbn [unfold_body] in H.
  apply option_map_some in H as [y [E ->]]. exists y. split; [reflexivity | exists (S f); exact E].
Qed.

Record aext (t t' : types) : Prop := mkaext {
  ax_tag : t_tag t' = t_tag t;
  ax_def : exists l, t_defined t' = t_defined t ++ l;
  ax_res : exists l, t_resources t' = t_resources t ++ l;
  ax_func : exists l, t_funcs t' = t_funcs t ++ l;
  ax_if : exists l, t_interfaces t' = t_interfaces t ++ l;
  ax_world : exists l, t_worlds t' = t_worlds t ++ l;
  ax_mod : exists l, t_modules t' = t_modules t ++ l }.

Lemma aext_refl t : aext t t.
Proof. constructor; try reflexivity; exists []; now rewrite app_nil_r. Qed.
Lemma aext_trans a b c : aext a b -> aext b c -> aext a c.
Proof.
  intros [H0 [l1 H1] [l2 H2] [l3 H3] [l4 H4] [l5 H5] [l6 H6]] [G0 [m1 G1] [m2 G2] [m3 G3] [m4 G4] [m5 G5] [m6 G6]].
  constructor; [congruence | | | | | |].
  - exists (l1 ++ m1). now rewrite G1, H1, app_assoc.
  - exists (l2 ++ m2). now rewrite G2, H2, app_assoc.
  - exists (l3 ++ m3). now rewrite G3, H3, app_assoc.
  - exists (l4 ++ m4). now rewrite G4, H4, app_assoc.
  - exists (l5 ++ m5). now rewrite G5, H5, app_assoc.
  - exists (l6 ++ m6). now rewrite G6, H6, app_assoc.
Qed.

Lemma aext_add_defined t d : aext t (fst (add_defined t d)).
Proof. constructor; cbn; try reflexivity; try (exists []; now rewrite app_nil_r). now exists [d]. Qed.
Lemma aext_add_resource t d : aext t (fst (add_resource t d)).
Proof. constructor; cbn; try reflexivity; try (exists []; now rewrite app_nil_r). now exists [d]. Qed.
Lemma aext_add_func t d : aext t (fst (add_func t d)).
Proof. constructor; cbn; try reflexivity; try (exists []; now rewrite app_nil_r). now exists [d]. Qed.
Lemma aext_add_interface t d : aext t (fst (add_interface t d)).
Proof. constructor; cbn; try reflexivity; try (exists []; now rewrite app_nil_r). now exists [d]. Qed.
Lemma aext_add_world t d : aext t (fst (add_world t d)).
Proof. constructor; cbn; try reflexivity; try (exists []; now rewrite app_nil_r). now exists [d]. Qed.

Lemma lookup_app {A} tag (l l' : list A) i x : lookup tag l i = Some x -> lookup tag (l ++ l') i = Some x.
Proof.
  unfold lookup. destruct (id_tag i =? tag); [|discriminate]. intro H.
  rewrite nth_error_app1; [exact H|]. apply nth_error_Some. congruence.
Qed.

Lemma aext_get_def t t' i x : aext t t' -> get_def t i = Some x -> get_def t' i = Some x.
Proof. intros [H0 [l H] _ _ _ _ _]. unfold get_def. rewrite H0, H. apply lookup_app. Qed.
Lemma aext_get_res t t' i x : aext t t' -> get_res t i = Some x -> get_res t' i = Some x.
Proof. intros [H0 _ [l H] _ _ _ _]. unfold get_res. rewrite H0, H. apply lookup_app. Qed.
Lemma aext_get_func t t' i x : aext t t' -> get_func t i = Some x -> get_func t' i = Some x.
Proof. intros [H0 _ _ [l H] _ _ _]. unfold get_func. rewrite H0, H. apply lookup_app. Qed.
Lemma aext_get_if t t' i x : aext t t' -> get_if t i = Some x -> get_if t' i = Some x.
Proof. intros [H0 _ _ _ [l H] _ _]. unfold get_if. rewrite H0, H. apply lookup_app. Qed.
Lemma aext_get_world t t' i x : aext t t' -> get_world t i = Some x -> get_world t' i = Some x.
Proof. intros [H0 _ _ _ _ [l H] _]. unfold get_world. rewrite H0, H. apply lookup_app. Qed.
Lemma aext_get_mod t t' i x : aext t t' -> get_mod t i = Some x -> get_mod t' i = Some x.
Proof. intros [H0 _ _ _ _ _ [l H]]. unfold get_mod. rewrite H0, H. apply lookup_app. Qed.

Lemma get_def_new t d : get_def (fst (add_defined t d)) (snd (add_defined t d)) = Some d.
Proof. unfold get_def. cbn. apply lookup_new. Qed.
Lemma get_res_new t d : get_res (fst (add_resource t d)) (snd (add_resource t d)) = Some d.
Proof. unfold get_res. cbn. apply lookup_new. Qed.
Lemma get_func_new t d : get_func (fst (add_func t d)) (snd (add_func t d)) = Some d.
Proof. unfold get_func. cbn. apply lookup_new. Qed.
Lemma get_if_new t d : get_if (fst (add_interface t d)) (snd (add_interface t d)) = Some d.
Proof. unfold get_if. cbn. apply lookup_new. Qed.
Lemma get_world_new t d : get_world (fst (add_world t d)) (snd (add_world t d)) = Some d.
Proof. unfold get_world. cbn. apply lookup_new. Qed.

Lemma res_name_of_aext t t' : aext t t' -> forall f, ext_some (res_name_of f t) (res_name_of f t').
Proof.
  intros Hx. induction f as [|f IH]; intros r n; [discriminate|]. cbn [res_name_of].
  destruct (get_res t r) as [x|] eqn:E; [|discriminate]. rewrite (aext_get_res _ _ _ _ Hx E).
  destruct (res_source x); [apply IH | auto].
Qed.

Lemma unfold_vt_aext t t' : aext t t' -> forall f, ext_some (unfold_vt f t) (unfold_vt f t').
Proof.
  intros Hx. induction f as [|f IH]; intros v tr; [discriminate|].
  rewrite !unfold_vt_eq. apply unfold_vt_body_ext2; [exact IH | now apply res_name_of_aext |].
  intros d x. now apply aext_get_def.
Qed.
Lemma unfold_func_aext t t' : aext t t' -> forall f i ft, unfold_func f t i = Some ft -> unfold_func f t' i = Some ft.
Proof.
  intros Hx f i ft. unfold unfold_func. destruct (get_func t i) as [x|] eqn:E; [|discriminate].
  rewrite (aext_get_func _ _ _ _ Hx E).
  destruct (map_snd _ (f_params x)) as [ps|] eqn:E1; [|discriminate].
  destruct (omap _ (f_result x)) as [r|] eqn:E2; [|discriminate].
  pose proof (unfold_vt_aext t t' Hx f) as He.
  now rewrite (map_snd_ext _ _ _ _ He E1), (omap_ext _ _ _ _ He E2).
Qed.
Lemma unfold_aext t t' : aext t t' -> forall f, ext_some (unfold f t) (unfold f t').
Proof.
  intros Hx. induction f as [|f IH]; intros k tr; [discriminate|].
  rewrite !unfold_eq.
  assert (Hi : forall i e, unfold_inst (unfold f t) t i = Some e -> unfold_inst (unfold f t') t' i = Some e).
  { intros i e. unfold unfold_inst. destruct (get_if t i) as [x|] eqn:E; [|discriminate].
    rewrite (aext_get_if _ _ _ _ Hx E). now apply map_snd_ext. }
  assert (Hc : forall i e, unfold_comp (unfold f t) t i = Some e -> unfold_comp (unfold f t') t' i = Some e).
  { intros i e. unfold unfold_comp. destruct (get_world t i) as [x|] eqn:E; [|discriminate].
    rewrite (aext_get_world _ _ _ _ Hx E).
    destruct (map_snd (unfold f t) (w_imports x)) eqn:E1; [|discriminate].
    destruct (map_snd (unfold f t) (w_exports x)) eqn:E2; [|discriminate].
    now rewrite (map_snd_ext _ _ _ _ IH E1), (map_snd_ext _ _ _ _ IH E2). }
  unfold unfold_body. destruct k as [[r|i|v|i|w|m]|i|i|w|m|v]; apply option_map_ext; intro y; auto;
    try apply unfold_func_aext; try apply unfold_vt_aext; try apply res_name_of_aext; try apply aext_get_mod; auto.
Qed.

Lemma uv_aext t t' v tr : aext t t' -> uv t v tr -> uv t' v tr.
Proof. intros Hx [f H]. exists f. now apply (unfold_vt_aext t t' Hx). Qed.
Lemma un_aext {t t' r n} : aext t t' -> un t r n -> un t' r n.
Proof. intros Hx [f H]. exists f. now apply (res_name_of_aext t t' Hx). Qed.
Lemma uf_aext t t' i ft : aext t t' -> uf t i ft -> uf t' i ft.
Proof. intros Hx [f H]. exists f. now apply (unfold_func_aext t t' Hx). Qed.
Lemma uk_aext t t' k tr : aext t t' -> uk t k tr -> uk t' k tr.
Proof. intros Hx [f H]. exists f. now apply (unfold_aext t t' Hx). Qed.
Lemma uvo_aext t t' o o' : aext t t' -> uvo t o o' -> uvo t' o o'.
Proof. intros Hx. destruct o, o'; cbn; auto. now apply uv_aext. Qed.
Lemma uvf_aext t t' l l' : aext t t' -> uvf t l l' -> uvf t' l l'.
Proof. intros Hx. apply R2_mono. intros x y. now apply uv_aext. Qed.
Lemma uvc_aext t t' l l' : aext t t' -> uvc t l l' -> uvc t' l l'.
Proof. intros Hx. apply R2_mono. intros x y. now apply uvo_aext. Qed.
Lemma Rexts_aext {t t' l l'} : aext t t' -> Rexts t l l' -> Rexts t' l l'.
Proof. intros Hx. apply R2_mono. intros x y. now apply uk_aext. Qed.

Inductive rel_item (t : types) : ty -> sem -> Prop :=
| RI_val v tr : uv t v tr -> rel_item t (TValue v) (SVal tr)
| RI_res r n : un t r n -> rel_item t (TResource r) (SRes n)
| RI_func f ft : uf t f ft -> rel_item t (TFunc f) (SFunc ft)
| RI_if i x e : get_if t i = Some x -> Rexts t (i_exports x) e -> rel_item t (TInterface i) (SIface (i_id x) e)
| RI_world w x i e : get_world t w = Some x -> Rexts t (w_imports x) i -> Rexts t (w_exports x) e ->
                     rel_item t (TWorld w) (SWorld i e).

Notation Renv t := (R2 (rel_item t)).

Lemma rel_item_aext t t' x s : aext t t' -> rel_item t x s -> rel_item t' x s.
Proof.
  intros Hx [v tr H|r n H|f ft H|i y e H1 H2|w y i e H1 H2 H3].
  - constructor. now apply (uv_aext t).
  - constructor. now apply (un_aext Hx).
  - constructor. now apply (uf_aext t).
  - apply (RI_if t' i y e); [now apply (aext_get_if t) | now apply (Rexts_aext Hx)].
  - apply (RI_world t' w y i e); [now apply (aext_get_world t) | now apply (Rexts_aext Hx) | now apply (Rexts_aext Hx)].
Qed.
Lemma Renv_aext {t t' l l'} : aext t t' -> Renv t l l' -> Renv t' l l'.
Proof. intros Hx. apply R2_mono. intros x y. now apply rel_item_aext. Qed.

(** the tree of the type of a scope item is the tree of its denotation *)
Lemma rel_item_uk t x s : rel_item t x s -> uk t (KType x) (sem_tree s).
Proof.
  intros [v tr H|r n H|f ft H|i y e H1 H2|w y i e H1 H2 H3]; cbn [sem_tree].
  - now apply uk_tvalue.
  - now apply uk_tres.
  - now apply uk_tfunc.
  - now apply (uk_tinst t i y).
  - now apply (uk_tworld t w y).
Qed.

Lemma rel_item_inv t x s : rel_item t x s ->
  match x with
  | TValue v => exists tr, s = SVal tr /\ uv t v tr
  | TResource r => exists n, s = SRes n /\ un t r n
  | TFunc f => exists ft, s = SFunc ft /\ uf t f ft
  | TInterface i => exists y e, s = SIface (i_id y) e /\ get_if t i = Some y /\ Rexts t (i_exports y) e
  | TWorld w => exists y i e, s = SWorld i e /\ get_world t w = Some y /\ Rexts t (w_imports y) i /\ Rexts t (w_exports y) e
  | TModule _ => False
  end.
Proof. destruct 1; eauto 7. Qed.

Lemma lookup_in_ok sc i x : lookup_in sc i = DOk x -> assoc (nm i) sc = Some x.
Proof. unfold lookup_in. change (name_of i) with (nm i). destruct (assoc (nm i) sc); [|discriminate]. intro H. now injection H as <-. Qed.
Lemma lookup_in_sim {t sc e i x} : Renv t sc e -> lookup_in sc i = DOk x -> exists s, assoc (nm i) e = Some s /\ rel_item t x s.
Proof. intros He H. apply (R2_assoc_some He), lookup_in_ok, H. Qed.

Lemma name_of_nm i : name_of i = nm i.
Proof. reflexivity. Qed.

Lemma has_app {B} k (l1 l2 : list (str * B)) : has k (l1 ++ l2) = has k l1 || has k l2.
Proof.
  unfold has. induction l1 as [|[k' v] l1 IH]; cbn [app assoc]; [reflexivity|].
  destruct (str_eqb k k'); [reflexivity | exact IH].
Qed.
Lemma bound_app {B} k (l1 l2 : list (str * B)) : bound k (l1 ++ l2) = bound k l1 || bound k l2.
Proof. apply (has_app k l1 l2). Qed.
Lemma has_keys {B} k (l : list (str * B)) : has k l = existsb (str_eqb k) (map fst l).
Proof.
  unfold has. induction l as [|[k' v] l IH]; cbn [assoc map fst existsb]; [reflexivity|].
  destruct (str_eqb k k'); [reflexivity | exact IH].
Qed.
Lemma bound_keys {B} k (l : list (str * B)) : bound k l = existsb (str_eqb k) (map fst l).
Proof. apply (has_keys k l). Qed.
Lemma mem_existsb k l : mem k l = existsb (str_eqb k) l.
Proof. induction l as [|x l IH]; cbn [mem existsb]; [reflexivity | now rewrite IH]. Qed.
Lemma imap_set_fresh {B k} {v : B} {l} : has k l = false -> imap_set k v l = l ++ [(k, v)].
Proof.
  unfold has. induction l as [|[k' v'] l IH]; cbn [imap_set assoc app]; [reflexivity|].
  destruct (str_eqb k k'); [discriminate|]. intro H. now rewrite (IH H).
Qed.

Lemma existsb_app_single (p : str -> bool) l x : existsb p (l ++ [x]) = existsb p l || p x.
Proof. rewrite existsb_app. cbn [existsb]. now rewrite orb_false_r. Qed.
Lemma distinct_snoc l x : distinct (l ++ [x]) = distinct l && negb (existsb (str_eqb x) l).
Proof.
  induction l as [|y l IH]; cbn [app distinct existsb]; [reflexivity|].
  rewrite IH, existsb_app_single, (str_eqb_sym x y).
  destruct (existsb (str_eqb y) l), (str_eqb y x), (distinct l), (existsb (str_eqb x) l); reflexivity.
Qed.
Lemma distinct_app_disjoint l1 l2 :
  distinct l1 = true -> distinct l2 = true -> (forall k, In k l2 -> existsb (str_eqb k) l1 = false) ->
  distinct (l1 ++ l2) = true.
Proof.
  revert l1. induction l2 as [|x l2 IH]; intros l1 H1 H2 Hd; [now rewrite app_nil_r|].
  cbn [distinct] in H2. apply andb_true_iff in H2 as [Hx H2].
  change (l1 ++ x :: l2) with (l1 ++ [x] ++ l2). rewrite app_assoc. apply IH; [|exact H2|].
  - rewrite distinct_snoc, H1, (Hd x (or_introl eq_refl)). reflexivity.
  - intros k Hk. rewrite existsb_app_single, (Hd k (or_intror Hk)). cbn [orb].
    destruct (str_eqb k x) eqn:E; [|reflexivity]. apply str_eqb_eq in E as ->.
    apply negb_true_iff in Hx. assert (Hin : existsb (str_eqb x) l2 = true).
    { apply existsb_exists. exists x. split; [exact Hk | apply str_eqb_refl]. }
    congruence.
Qed.
