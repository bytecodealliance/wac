(** Lexer classes, part E: [relex_stable]. If [scan_token] produced a token of kind [k] with text
    [w] somewhere, then on [w ++ rest] it produces the same kind and length, provided [rest] satisfies
    the follow condition [follow_ok k w rest] of spec/LexClasses.v (one or two characters of
    lookahead). *)
From WacV Require Import Str Ord Token Lexer LexTables LexImpl LexSpec LexTablesProofs Semver Ast Parser LexClasses.
From WacV Require Import StrFacts ListFacts LexerSound LexerClassA LexerClassB LexerClassC LexerClassD.
From Coq Require Import Lia.
Local Open Scope nat_scope.

Section Relex.
Variable d : deviations.
Variable base : lexcfg.
Hypothesis Htab : tables_ok base.
Notation cfg := (cfg_with d base).
Notation au := (uppercase_words d).

Lemma seg_loop_zero c (Hc : is_sep c = true) fuel Y : length Y < fuel -> no_seg d c Y = true -> seg_loop fuel au c Y = 0.
Proof.
  intros Hf Hno. destruct (seg_loop_exact d c Hc [] Y fuel eq_refl) as [_ H]; [exact Hf|]. apply H; [exact Hno|congruence].
Qed.

Lemma no_seg_other c x r : (x =? c)%N = false -> no_seg d c (x :: r) = true.
Proof. intros H. cbn [no_seg]. now rewrite H. Qed.

Lemma id_not_dash w : id_b d w = true -> dash_ident_b d w = false.
Proof.
  intros Hi. destruct (dash_ident_b d w) eqn:E; [|reflexivity]. exfalso. unfold dash_ident_b in E.
  destruct (rev w) as [|c r] eqn:Er; [discriminate|]. apply andb_true_iff in E. destruct E as [Ec E]. apply N.eqb_eq in Ec. subst c.
  assert (Hw : w = rev r ++ [c_minus]) by (rewrite <- (rev_involutive w), Er; reflexivity).
  destruct (id_len_exact d (rev r) [c_minus] E) as [_ H1].
  assert (Hf : id_follow d (rev r) [c_minus] = true) by now apply id_follow_dangling_dash.
  specialize (H1 Hf). rewrite <- Hw in H1.
  destruct (id_len_exact d w [] Hi) as [H2 _]. rewrite app_nil_r in H2. rewrite Hw, app_length in H2. cbn [length] in H2.
  rewrite <- Hw in H2. lia.
Qed.

Lemma follow_ok_plain k w rest :
  special k = false -> follow_ok d k w rest = if is_symbol_kind k then symbol_follow w rest else word_follow d false w rest.
Proof. destruct k; try discriminate; intros _; reflexivity. Qed.

Lemma sym_key_unique x k k' : In (x, k) doc_symbols -> In (x, k') doc_symbols -> k = k'.
Proof.
  assert (H : forallb (fun kv => forallb (fun kv' => negb (str_eqb (fst kv) (fst kv')) || token_eqb (snd kv) (snd kv')) doc_symbols)
                doc_symbols = true) by (vm_compute; reflexivity).
  rewrite forallb_forall in H. intros H1 H2. specialize (H _ H1). rewrite forallb_forall in H. specialize (H _ H2).
  cbn [fst snd] in H. rewrite str_eqb_refl in H. cbn [negb orb] in H. now apply token_eqb_eq.
Qed.

(** [best_symbol] is determined by the set of rows when texts are keys. *)
Lemma best_symbol_complete tbl s x k :
  (forall y k1 k2, In (y, k1) tbl -> In (y, k2) tbl -> k1 = k2) ->
  In (x, k) tbl -> x <> [] -> starts_with x s = true ->
  (forall y k', In (y, k') tbl -> starts_with y s = true -> y <> [] -> length y <= length x) ->
  best_symbol tbl s = Some (k, length x).
Proof.
  intros Huniq Hin Hne Hs Hmax. destruct (best_symbol tbl s) as [[k' n']|] eqn:E.
  - destruct (best_symbol_spec _ _ _ _ E) as [(x' & Hin' & Hs' & Hne' & ->) Hmax'].
    pose proof (Hmax _ _ Hin' Hs' Hne') as H1. pose proof (Hmax' _ _ Hin Hs Hne) as H2.
    assert (Hl : length x' = length x) by lia.
    assert (Hx : x' = x).
    { rewrite <- (starts_with_firstn _ _ Hs'), <- (starts_with_firstn _ _ Hs), Hl. reflexivity. }
    subst x'. now rewrite (Huniq _ _ _ Hin' Hin).
  - exfalso. apply Hne. exact (best_symbol_none _ _ E _ _ Hin Hs).
Qed.

Lemma not_alpha_id_len c r : is_alpha c = false -> (c =? c_percent)%N = false -> id_len au (c :: r) = 0.
Proof.
  intros Ha Hp. apply id_len_zero. unfold starts_id. cbn [strip_percent]. rewrite Hp. cbn [starts_word].
  unfold is_alpha in Ha. apply orb_false_iff in Ha. destruct Ha as [-> ->]. now rewrite andb_false_r.
Qed.

Lemma kw_or_ident_special w : special (kw_or_ident_of w) = false \/ kw_or_ident_of w = TIdent.
Proof.
  unfold kw_or_ident_of. destruct (lookup_str w doc_keywords) as [k|] eqn:E; [|now right]. left.
  apply lookup_str_some in E. apply (kw_row d _ _ E).
Qed.

Lemma kw_or_ident_kw w : is_keyword_text w = false -> kw_or_ident_of w = TIdent.
Proof. unfold is_keyword_text, kw_or_ident_of. destruct (lookup_str w doc_keywords); [discriminate|reflexivity]. Qed.

Lemma kw_or_ident_not_ident w : kw_or_ident_of w <> TIdent -> is_keyword_text w = true.
Proof. unfold is_keyword_text, kw_or_ident_of. destruct (lookup_str w doc_keywords); [reflexivity|congruence]. Qed.

Lemma relex_word fuel w k rest :
  id_b d w = true -> (k = kw_or_ident_of w \/ (k = TIdent /\ keyword_colon d = true)) ->
  follow_ok d k w rest = true -> length (w ++ rest) < fuel ->
  scan_token cfg fuel (w ++ rest) = ScanTok k (length w).
Proof.
  intros Hi Hk Hfol Hf.
  (* reduce follow_ok to word_follow *)
  assert (Hwf : word_follow d (match k with TIdent => true | _ => false end) w rest = true /\
                (k = TIdent \/ (k = kw_or_ident_of w /\ k <> TIdent))).
  { destruct Hk as [Hk|[Hk Hkc]].
    - destruct (kw_or_ident_special w) as [Hsp|Hid].
      + rewrite <- Hk in Hsp. rewrite follow_ok_plain in Hfol by exact Hsp.
        assert (Hsym : is_symbol_kind k = false).
        { subst k. unfold kw_or_ident_of in *. destruct (lookup_str w doc_keywords) as [k|] eqn:E; [|discriminate].
          apply lookup_str_some in E. apply (kw_row d _ _ E). }
        rewrite Hsym in Hfol. split; [destruct k; try discriminate; exact Hfol|]. right. split; [exact Hk|]. intros ->. discriminate.
      + rewrite Hid in Hk. subst k. cbn [follow_ok] in Hfol. rewrite (id_not_dash _ Hi) in Hfol. split; [exact Hfol|now left].
    - subst k. cbn [follow_ok] in Hfol. rewrite (id_not_dash _ Hi) in Hfol. split; [exact Hfol|now left]. }
  destruct Hwf as [Hwf Hkind]. unfold word_follow in Hwf. apply andb_true_iff in Hwf. destruct Hwf as [Hidf Hwf].
  rewrite (scan_token_app d base Htab fuel w rest Hi Hidf). unfold scan_after.
  assert (Hres : forall is_ident, (negb is_ident || negb (is_keyword_text w)) = true ->
                 is_ident = (match k with TIdent => true | _ => false end) -> kw_or_ident_of w = k).
  { intros b Hb Hbk. destruct Hkind as [->|[Hk' Hne]].
    - subst b. cbn [negb orb] in Hb. apply negb_true_iff in Hb. now apply kw_or_ident_kw.
    - now symmetry. }
  rewrite app_length in Hf.
  destruct rest as [|c r].
  - cbn [head_is]. destruct fuel; [lia|]. cbn [seg_loop andb]. rewrite (Hres _ Hwf eq_refl). reflexivity.
  - cbn [head_is]. destruct (c =? c_minus)%N eqn:Em.
    + apply andb_true_iff in Hwf. destruct Hwf as [Hwf Hb]. apply andb_true_iff in Hwf. destruct Hwf as [Hdd Hz].
      apply negb_true_iff in Hdd, Hz. rewrite Hz, Hdd, (Hres _ Hb eq_refl). reflexivity.
    + destruct (c =? c_colon)%N eqn:Ec.
      * apply andb_true_iff in Hwf. destruct Hwf as [Hsi Hkw]. apply negb_true_iff in Hsi.
        rewrite seg_loop_zero; [|exact is_sep_colon|cbn [length] in *; lia|cbn [no_seg]; rewrite Ec, Hsi; reflexivity].
        cbn [andb]. destruct (keyword_colon d) eqn:Ekc.
        -- destruct Hkind as [->|[Hk' Hne]]; [reflexivity|]. exfalso.
           rewrite (kw_or_ident_not_ident w) in Hkw by congruence. destruct k; try congruence; discriminate.
        -- destruct Hkind as [->|[Hk' Hne]]; [|now rewrite <- Hk'].
           destruct (is_keyword_text w) eqn:Ekw; [discriminate|]. now rewrite kw_or_ident_kw.
      * rewrite seg_loop_zero; [|exact is_sep_colon|cbn [length] in *; lia|now apply no_seg_other].
        cbn [andb]. rewrite (Hres _ Hwf eq_refl). reflexivity.
Qed.

Lemma vtail_cases ver : vtail_b ver = true -> ver = [] \/ exists v, ver = c_atsign :: v /\ semver_b v = true.
Proof.
  destruct ver as [|c v]; [now left|]. cbn [vtail_b]. intros H. apply andb_true_iff in H. destruct H as [Hc H].
  apply N.eqb_eq in Hc. subst c. right. eauto.
Qed.

Lemma no_version_other c r : (c =? c_atsign)%N = false -> no_version (c :: r) = true.
Proof. intros H. cbn [no_version]. now rewrite H. Qed.

Lemma head_is_false c x r : (x =? c)%N = false -> head_is c (x :: r) = false.
Proof. intros H. exact H. Qed.

(** Stop conditions that [pkg_follow] provides after the core of a package name [a] (no version). *)
Lemma pkg_follow_stops path a rest :
  pkg_follow d path a rest = true -> nosep c_atsign a = true ->
  id_follow d a rest = true /\ no_seg d c_slash rest = true /\ no_version rest = true /\
  (path = false -> no_seg d c_colon rest = true /\
                   (pkg_separator_zone d && (head_is c_minus rest || head_is c_colon rest)) = false).
Proof.
  intros H Ha. unfold pkg_follow, split_version in H. rewrite (split_first_nosep _ _ Ha) in H.
  apply andb_true_iff in H. destruct H as [Hidf H]. split; [exact Hidf|].
  destruct rest as [|c r].
  { split; [reflexivity|split; [reflexivity|]]. intros _. split; [reflexivity|]. now rewrite andb_false_r. }
  destruct (c =? c_minus)%N eqn:Em.
  { apply N.eqb_eq in Em. subst c. split; [reflexivity|split; [reflexivity|]]. intros ->. cbn [orb] in H. split; [reflexivity|].
    cbn [head_is]. rewrite N.eqb_refl. cbn [orb]. apply negb_true_iff in H. now rewrite H. }
  destruct (c =? c_colon)%N eqn:Ec.
  { apply N.eqb_eq in Ec. subst c. split; [reflexivity|split; [reflexivity|]]. intros ->. cbn [orb] in H. apply andb_true_iff in H.
    destruct H as [H1 H2]. apply negb_true_iff in H1, H2. split.
    - cbn [no_seg]. rewrite N.eqb_refl, H1. reflexivity.
    - now rewrite H2. }
  destruct (c =? c_slash)%N eqn:Es.
  { apply N.eqb_eq in Es. subst c. apply negb_true_iff in H. split; [|split; [reflexivity|]].
    - cbn [no_seg]. rewrite N.eqb_refl, H. reflexivity.
    - intros _. split; [reflexivity|]. now rewrite andb_false_r. }
  destruct (c =? c_atsign)%N eqn:Ea.
  { apply N.eqb_eq in Ea. subst c. apply negb_true_iff in H. split; [reflexivity|split].
    - cbn [no_version]. rewrite N.eqb_refl, H. reflexivity.
    - intros _. split; [reflexivity|]. now rewrite andb_false_r. }
  split; [now apply no_seg_other|split; [now apply no_version_other|]]. intros _. split; [now apply no_seg_other|].
  cbn [head_is]. rewrite Em, Ec. now rewrite andb_false_r.
Qed.

Lemma pkg_follow_version path a v rest :
  nosep c_atsign a = true -> pkg_follow d path (a ++ c_atsign :: v) rest = semver_follow v rest.
Proof. intros Ha. unfold pkg_follow, split_version. now rewrite (split_first_app_sep _ _ _ Ha). Qed.

Lemma seg_loop_S fuel c segs Y n : segs <> [] -> seg_loop fuel au c Y = length (chain_text c segs) -> n = length (chain_text c segs) ->
  exists m, n = S m.
Proof. intros Hne _ ->. destruct segs as [|j segs]; [congruence|]. rewrite length_chain_cons. eauto. Qed.

(** Package names ([path = []]) and package paths. *)
Lemma relex_pkg fuel i segs path ver rest :
  let w := i ++ chain_text c_colon segs ++ chain_text c_slash path ++ ver in
  let is_path := match path with [] => false | _ :: _ => true end in
  id_b d i = true -> segs <> [] -> forallb (id_b d) segs = true -> forallb (id_b d) path = true -> vtail_b ver = true ->
  pkg_follow d is_path w rest = true -> length (w ++ rest) < fuel ->
  scan_token cfg fuel (w ++ rest) = ScanTok (if is_path then TPackagePath else TPackageName) (length w).
Proof.
  intros w is_path Hi Hne Hs Hp Hv Hfol Hf. subst w. set (cC := chain_text c_colon segs) in *. set (cP := chain_text c_slash path) in *.
  destruct (chain_head c_colon segs Hne) as (rC & HrC). fold cC in HrC.
  replace ((i ++ cC ++ cP ++ ver) ++ rest) with (i ++ cC ++ cP ++ ver ++ rest) in * by now rewrite <- !app_assoc.
  rewrite (scan_token_app d base Htab fuel i _ Hi) by (rewrite HrC; apply id_follow_sep; exact is_sep_colon).
  unfold scan_after. rewrite HrC at 1. cbn [app head_is].
  change (c_colon =? c_minus)%N with false. cbn iota.
  assert (Hnosep : nosep c_atsign ((i ++ cC) ++ cP) = true).
  { rewrite nosep_app. assert (H0 : nosep c_atsign (i ++ cC) = true) by (apply (core_nosep d); auto; exact is_sep_at).
    rewrite H0. apply (chain_nosep d c_slash c_atsign); auto. }
  (* what the follow condition says about the text after the last chain *)
  assert (Hlast : id_follow d ((i ++ cC) ++ cP) (ver ++ rest) = true /\ no_seg d c_slash (ver ++ rest) = true /\
                  vtail_stop ver rest = true /\
                  (is_path = false -> no_seg d c_colon (ver ++ rest) = true /\
                     (pkg_separator_zone d && (head_is c_minus (ver ++ rest) || head_is c_colon (ver ++ rest))) = false)).
  { destruct (vtail_cases _ Hv) as [->|(v & -> & Hsv)].
    - rewrite app_nil_r in Hfol. cbn [app].
      assert (Hfol' : pkg_follow d is_path ((i ++ cC) ++ cP) rest = true) by (rewrite <- !app_assoc; exact Hfol).
      destruct (pkg_follow_stops is_path ((i ++ cC) ++ cP) rest Hfol' Hnosep) as (H1 & H2 & H3 & H4). auto.
    - cbn [app]. repeat split; try reflexivity.
      + now apply id_follow_sep.
      + cbn [vtail_stop]. replace (i ++ cC ++ cP ++ c_atsign :: v) with (((i ++ cC) ++ cP) ++ c_atsign :: v) in Hfol by now rewrite <- !app_assoc.
        rewrite pkg_follow_version in Hfol by exact Hnosep. exact Hfol.
      + cbn [head_is]. now rewrite andb_false_r. }
  destruct Hlast as (L0 & L1 & L2 & L3).
  assert (LP : path <> [] -> id_follow d cP (ver ++ rest) = true).
  { intros Hpne. unfold cP. rewrite <- (id_follow_app_chain d c_slash (i ++ cC) path _ Hpne Hp). exact L0. }
  (* the chain of [: id] ends where [cP] begins *)
  assert (Hmid : no_seg d c_colon (cP ++ ver ++ rest) = true /\ id_follow d cC (cP ++ ver ++ rest) = true /\
                 (pkg_separator_zone d && (head_is c_minus (cP ++ ver ++ rest) || head_is c_colon (cP ++ ver ++ rest))) = false).
  { destruct path as [|p1 path'].
    - cbn [app]. destruct (L3 eq_refl) as [H5 H6]. change cP with (@nil N) in L0. rewrite app_nil_r in L0.
      unfold cC in *. rewrite id_follow_app_chain in L0; [auto|exact Hne|exact Hs].
    - destruct (chain_head c_slash (p1 :: path') ltac:(discriminate)) as (rP & HrP). fold cP in HrP. rewrite HrP. cbn [app].
      split; [now apply no_seg_other|split; [apply id_follow_sep; exact is_sep_slash|cbn [head_is]; now rewrite andb_false_r]]. }
  destruct Hmid as (M1 & M2 & M3).
  rewrite !app_length in Hf.
  destruct (seg_loop_exact d c_colon is_sep_colon segs (cP ++ ver ++ rest) fuel Hs) as [_ HexC].
  { fold cC. rewrite !app_length. lia. }
  fold cC in HexC. rewrite (HexC M1 (fun _ => M2)).
  destruct (length cC) as [|m] eqn:El; [rewrite HrC in El; discriminate|]. rewrite <- El, skipn_app_exact, M3.
  destruct (seg_loop_exact d c_slash is_sep_slash path (ver ++ rest) fuel Hp) as [_ HexP].
  { fold cP. rewrite !app_length. lia. }
  fold cP in HexP. rewrite (HexP L1 LP).
  destruct (version_tail_exact ver rest Hv) as [_ Hvt].
  destruct path as [|p1 path'].
  - change cP with (@nil N). cbn [length app]. rewrite (Hvt L2), !app_length. cbn [length]. f_equal. lia.
  - destruct (length cP) as [|m'] eqn:El'; [unfold cP in El'; rewrite length_chain_cons in El'; discriminate|].
    rewrite <- El', skipn_app_exact, (Hvt L2), !app_length. f_equal. lia.
Qed.

Theorem relex_stable_scan fuel s k n fuel' rest :
  length s < fuel -> scan_token cfg fuel s = ScanTok k n ->
  follow_ok d k (firstn n s) rest = true -> length (firstn n s ++ rest) < fuel' ->
  scan_token cfg fuel' (firstn n s ++ rest) = ScanTok k n.
Proof.
  intros Hf Hscan Hfol Hf'. destruct (id_len au s) as [|n0] eqn:En.
  - rewrite scan_token_unfold in Hscan. destruct s as [|c r]; [discriminate|]. destruct (c =? c_quote)%N eqn:Eq.
    + (* string *)
      apply N.eqb_eq in Eq. subst c. destruct (find_char c_quote r) as [m|] eqn:Ef; [|discriminate].
      inversion Hscan; subst k n. destruct (find_char_spec _ _ _ Ef) as (body & rest0 & -> & <- & Hb).
      change (firstn (S (S (length body))) (c_quote :: body ++ c_quote :: rest0))
        with (c_quote :: firstn (S (length body)) (body ++ c_quote :: rest0)).
      rewrite firstn_app_S. rewrite scan_token_unfold. cbn [app]. rewrite N.eqb_refl, <- app_assoc. cbn [app].
      now rewrite find_char_complete.
    + (* punctuation *)
      cbn [allow_upper cfg_with symbols] in Hscan. rewrite En in Hscan.
      destruct (best_symbol (symbols base) (c :: r)) as [[k' n']|] eqn:Eb; [|discriminate]. inversion Hscan; subst k' n'.
      destruct (best_symbol_spec _ _ _ _ Eb) as [(x & Hin & Hs & Hne & ->) _].
      rewrite (starts_with_firstn _ _ Hs) in *. pose proof Hin as Hin'. apply Htab in Hin'.
      destruct (sym_row d _ _ Hin') as (_ & Hsp & Hsym & c0 & r0 & -> & Ha & Hp & Hq).
      rewrite follow_ok_plain, Hsym in Hfol by exact Hsp.
      rewrite scan_token_unfold. cbn [app]. rewrite Hq. cbn [allow_upper cfg_with symbols]. rewrite (not_alpha_id_len _ _ Ha Hp).
      change (c0 :: r0 ++ rest) with ((c0 :: r0) ++ rest).
      rewrite (best_symbol_complete (symbols base) ((c0 :: r0) ++ rest) (c0 :: r0) k); auto.
      * intros y k1 k2 H1 H2. apply Htab in H1, H2. eapply sym_key_unique; eauto.
      * apply starts_with_app.
      * intros y k' Hy Hsy Hney. apply Htab in Hy. unfold symbol_follow in Hfol. rewrite forallb_forall in Hfol.
        specialize (Hfol _ Hy). cbn [fst] in Hfol. rewrite Hsy in Hfol. cbn [negb orb] in Hfol. now apply Nat.leb_le in Hfol.
  - destruct (scan_token_outcome d base Htab fuel s Hf) as (x & Hx & Hres); [congruence|]. rewrite Hscan in Hres.
    pose proof (shape_text d _ _ _ Hx) as Hs. pose proof (shape_text_tok d _ _ _ Hx) as Ht.
    destruct Hx as (_ & Hi & _ & Hst & HidsC & _ & _ & _ & HidsP & _ & _ & _ & Hv & _).
    destruct Hres as [Hdd Hz -> -> Hhd | -> Hw Hk | HneC HP -> -> | HneC HneP -> ->].
    + (* identifier with a dangling dash *)
      destruct (head_is_inv _ _ Hhd) as (r' & Er).
      assert (Hs' : s = sh_id x ++ c_minus :: r') by (rewrite Hs at 1; rewrite <- Er; reflexivity).
      rewrite Hs', firstn_app_S in *. cbn [follow_ok] in Hfol. rewrite (dash_ident_intro d _ Hi) in Hfol.
      apply negb_true_iff in Hfol. rewrite <- app_assoc in *. cbn [app] in *.
      rewrite (scan_token_app d base Htab fuel' _ _ Hi) by now apply id_follow_dangling_dash.
      unfold scan_after. cbn [head_is]. rewrite N.eqb_refl, Hz, Hdd. reflexivity.
    + (* identifier or keyword *)
      rewrite Hs, firstn_app_exact in *. now apply relex_word.
    + (* package name *)
      rewrite HP in Ht. change (chain_text c_slash []) with (@nil N) in Ht. cbn [app] in Ht.
      rewrite Ht, firstn_app_exact in *. now apply (relex_pkg fuel' (sh_id x) (sh_colon x) []).
    + (* package path *)
      rewrite Ht, firstn_app_exact in *.
      pose proof (relex_pkg fuel' (sh_id x) (sh_colon x) (sh_slash x) (sh_ver x) rest) as H. cbv zeta in H.
      destruct (sh_slash x) as [|p1 ps] eqn:EP; [congruence|]. now apply H.
Qed.

End Relex.
