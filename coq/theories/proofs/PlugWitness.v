(** Concrete witnesses for property C10: cases in which the export-first algorithm of plug.rs and
    the import-first reading of the property diverge.  Each is replayed on the real
    [wac_graph::plug] (corpus/C10/cases.txt). *)
From Coq Require Import String List Arith Bool NArith Lia.
From WacV Require Import Str StrLit Names NamesProofs Graph Plug PlugSpec PlugProofs.
Import ListNotations.
Local Open Scope nat_scope.

Lemma tracks_distinct_b_sound text l : tracks_distinct_b text l = true -> tracks_distinct text l.
Proof.
  induction l as [|a r IH]; cbn [tracks_distinct_b]; intros T x y Ix Iy C; [destruct Ix|].
  apply andb_prop in T. destruct T as (Ta & Tr). rewrite forallb_forall in Ta.
  assert (K : forall b, In b r -> compat (text a) (text b) = true -> a = b).
  { intros b Ib Cb. specialize (Ta b Ib). rewrite Cb in Ta. cbn in Ta. rewrite orb_false_r in Ta. apply N.eqb_eq. exact Ta. }
  destruct Ix as [<-|Ix], Iy as [<-|Iy].
  - reflexivity.
  - apply K; assumption.
  - symmetry. apply K; [assumption|]. rewrite compat_sym. exact C.
  - apply IH; assumption.
Qed.

(** names: 0 = a:b/c@0.2.0, 1 = a:b/c@0.2.1 (one track), 2 = out.  kinds: 0 = func(), 1 = func(a: u32)
    (unrelated), 100.. = instance types of the packages.  Package 0 is the socket (exports out: func()). *)
Definition w_text (n : name) : str :=
  match n with
  | 0%N => L"a:b/c@0.2.0"
  | 1%N => L"a:b/c@0.2.1"
  | _ => L"out"
  end.

Definition w_universe (simps p1 p2 : list item) : puniverse :=
  {| pu_graph :=
       {| u_inst_exports := fun k => match k with
                                     | 100%N => Some [(2%N, 0%N)]
                                     | 101%N => Some p1
                                     | 102%N => Some p2
                                     | _ => None end;
          u_pkgs := [ {| pd_inst := 100%N; pd_imports := simps |};
                      {| pd_inst := 101%N; pd_imports := [] |};
                      {| pd_inst := 102%N; pd_imports := [] |} ];
          u_tys := []; u_lkinds := [];
          u_sub := N.eqb;
          u_import_name_ok := fun _ => true;
          u_export_name_ok := fun _ => true |};
     pu_name_text := w_text |}.

Definition w_state (pu : puniverse) : gstate := register_all pu [0; 1; 2].
Definition w_socket : pkgid := (0, 0).
Definition w_p1 : pkgid := (1, 0).
Definition w_p2 : pkgid := (2, 0).

Ltac solve_nodup := repeat (apply NoDup_cons; [cbn; intuition discriminate|]); apply NoDup_nil.
Ltac solve_all_nodup := repeat (apply Forall_cons; [solve_nodup|]); apply Forall_nil.

Lemma w_case simps p1 p2 (plugs : list pkgid) (pls : list (list item)) :
  NoDup (map fst simps) -> Forall (fun exps => NoDup (map fst exps)) pls ->
  Forall2 (fun p exps => exists pd, pkg_desc (w_universe simps p1 p2) (w_state (w_universe simps p1 p2)) p = Some pd /\
                                    u_inst_exports (w_universe simps p1 p2) (pd_inst pd) = Some exps) plugs pls ->
  plug_case (w_universe simps p1 p2) (w_state (w_universe simps p1 p2)) plugs w_socket simps [(2%N, 0%N)] pls.
Proof.
  intros ND NDp F. split; [repeat split|]. split.
  - split; [|exact F]. eexists. split; [reflexivity|]. split; reflexivity.
  - split; [exact ND|]. split; [solve_nodup|]. split; [exact NDp|]. repeat constructor.
Qed.

(** ** 1. the socket imports two names on one track; the plug exports one of them.
       Import-first: both imports are offered the plug's export.  plug.rs: only the exact name. *)
Definition w1 := w_universe [(0%N, 0%N); (1%N, 0%N)] [(1%N, 0%N)] [].

Lemma w1_case : plug_case w1 (w_state w1) [w_p1] w_socket [(0%N, 0%N); (1%N, 0%N)] [(2%N, 0%N)] [[(1%N, 0%N)]].
Proof.
  apply w_case; [solve_nodup|solve_all_nodup|].
  constructor; [|constructor]. eexists. split; reflexivity.
Qed.


Lemma w1_diverges :
  snd (plug w1 (w_state w1) [w_p1] w_socket) = POk /\
  suppliers (pu_name_text w1) (u_sub w1) [[(1%N, 0%N)]] (0%N, 0%N) = [(0, 1%N)] /\
  forall a, ~ In (0%N, a) (get_args w1 (fst (plug w1 (w_state w1) [w_p1] w_socket)) 0).
Proof.
  split; [vm_compute; reflexivity|]. split; [vm_compute; reflexivity|].
  intros a. vm_compute. intros [E|[]]. discriminate.
Qed.

(** ** 2. an exact-name import of incompatible type shadows the compatible neighbour on its track *)
Definition w2 := w_universe [(0%N, 1%N); (1%N, 0%N)] [(0%N, 0%N)] [].

Lemma w2_case : plug_case w2 (w_state w2) [w_p1] w_socket [(0%N, 1%N); (1%N, 0%N)] [(2%N, 0%N)] [[(0%N, 0%N)]].
Proof.
  apply w_case; [solve_nodup|solve_all_nodup|].
  constructor; [|constructor]. eexists. split; reflexivity.
Qed.


Lemma w2_diverges :
  snd (plug w2 (w_state w2) [w_p1] w_socket) = PNoPlugHappened /\
  suppliers (pu_name_text w2) (u_sub w2) [[(0%N, 0%N)]] (1%N, 0%N) = [(0, 0%N)].
Proof. split; vm_compute; reflexivity. Qed.

(** ** 3. (historical, before repair 7db12e7) one plug exports two names on one track, both compatible
       with the one socket import: the raw export-first pairs target that import twice, and the
       unrepaired plug.rs failed with ArgumentAlreadyPassed on a single plug.  The repaired algorithm
       keeps one pair per import (exact name preferred) and the plug succeeds. *)
Definition w3 := w_universe [(0%N, 0%N)] [(0%N, 0%N); (1%N, 0%N)] [].

Lemma w3_case : plug_case w3 (w_state w3) [w_p1] w_socket [(0%N, 0%N)] [(2%N, 0%N)] [[(0%N, 0%N); (1%N, 0%N)]].
Proof.
  apply w_case; [solve_nodup|solve_all_nodup|].
  constructor; [|constructor]. eexists. split; reflexivity.
Qed.

Lemma w3_socket_tracks : socket_tracks_distinct w3 [(0%N, 0%N)].
Proof. apply tracks_distinct_b_sound. vm_compute. reflexivity. Qed.

Lemma w3_raw_pairs_collide :
  plug_matches (pu_name_text w3) (u_sub w3) [(0%N, 0%N)] [(0%N, 0%N); (1%N, 0%N)] = [(0%N, 0%N); (1%N, 0%N)] /\
  plug_pairs (pu_name_text w3) (u_sub w3) [(0%N, 0%N)] [(0%N, 0%N); (1%N, 0%N)] = [(0%N, 0%N)].
Proof. split; vm_compute; reflexivity. Qed.

Lemma w3_repaired :
  snd (plug w3 (w_state w3) [w_p1] w_socket) = POk /\
  suppliers (pu_name_text w3) (u_sub w3) [[(0%N, 0%N); (1%N, 0%N)]] (0%N, 0%N) = [(0, 0%N)].
Proof. split; vm_compute; reflexivity. Qed.

(** ** 4. two plugs, each exporting exactly one of the socket's two same-track imports: plug.rs
       wires both by exact name; read import-first, each import is offered by both plugs *)
Definition w4 := w_universe [(0%N, 0%N); (1%N, 0%N)] [(0%N, 0%N)] [(1%N, 0%N)].

Lemma w4_case : plug_case w4 (w_state w4) [w_p1; w_p2] w_socket [(0%N, 0%N); (1%N, 0%N)] [(2%N, 0%N)]
                          [[(0%N, 0%N)]; [(1%N, 0%N)]].
Proof.
  apply w_case; [solve_nodup|solve_all_nodup|].
  constructor; [|constructor; [|constructor]]; eexists; split; reflexivity.
Qed.


Lemma w4_diverges :
  snd (plug w4 (w_state w4) [w_p1; w_p2] w_socket) = POk /\
  length (suppliers (pu_name_text w4) (u_sub w4) [[(0%N, 0%N)]; [(1%N, 0%N)]] (0%N, 0%N)) = 2.
Proof. split; vm_compute; reflexivity. Qed.

(** the hypothesis really fails for the socket of [w1] (and of [w2], [w4]: the same two import names) *)
Lemma w1_not_socket_tracks : ~ socket_tracks_distinct w1 [(0%N, 0%N); (1%N, 0%N)].
Proof.
  intros T. assert (0%N = 1%N); [|discriminate].
  apply T; [left; reflexivity|right; left; reflexivity|vm_compute; reflexivity].
Qed.

(** ** 0. a case in which all hypotheses hold and the plug succeeds (non-vacuity):
       the socket imports a:b/c@0.2.0, the plug exports a:b/c@0.2.1 (semver fallback) *)
Definition w0 := w_universe [(0%N, 0%N)] [(1%N, 0%N)] [].

Lemma w0_case : plug_case w0 (w_state w0) [w_p1; w_p2] w_socket [(0%N, 0%N)] [(2%N, 0%N)] [[(1%N, 0%N)]; []].
Proof.
  apply w_case; [solve_nodup|solve_all_nodup|].
  constructor; [|constructor; [|constructor]]; eexists; split; reflexivity.
Qed.
Lemma w0_socket_tracks : socket_tracks_distinct w0 [(0%N, 0%N)].
Proof. apply tracks_distinct_b_sound. vm_compute. reflexivity. Qed.
Lemma w0_ok : snd (plug w0 (w_state w0) [w_p1; w_p2] w_socket) = POk /\
              suppliers (pu_name_text w0) (u_sub w0) [[(1%N, 0%N)]; []] (0%N, 0%N) = [(0, 1%N)].
Proof. split; vm_compute; reflexivity. Qed.
