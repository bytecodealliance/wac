(** [merge_interface] of a NESTED requirement of a contributor (interfaces possibly shared between several places: [SDen])
    into a tree-shaped interface of the aggregator ([Den]) computes the
    specification's recursive union ([union_with (tmerge_f n)], i.e. [tmerge]) of the two trees: same-named instance
    exports are merged recursively (the repaired branch of the aggregator), same-named leaves must be equal, new exports
    are copied.  The result is tree-shaped again, uses only interfaces it used before plus freshly appended ones, and
    everything outside the merged interface's tree is left alone ([MFrame]). *)
From Coq Require Import ZArith Lia.
From WacV Require Import Str Names Types Checker SubSpec CheckerEq CheckerValue CheckerProofs SubSpecProofs.
From WacV Require Import Aggregator AggregatorSpec AggregatorFrame AggregatorRemap AggregatorChecker AggregatorNames
     AggregatorCanonical AggregatorFlat AggregatorHistory AggregatorNestedSpec AggregatorNestedDen AggregatorNestedRemap StrFacts.

Lemma with_chk_same c : with_chk c (c_chk c) = c. Proof. destruct c; reflexivity. Qed.
(** a leaf kind against an instance (or the converse) is never accepted, and the memo is not consulted for it *)
Definition mismatch (a b : kind) : Prop :=
  (leafk a = true /\ exists j, b = KInstance j) \/ ((exists j, a = KInstance j) /\ leafk b = true).
Lemma mismatch_sym a b : mismatch a b -> mismatch b a.
Proof. unfold mismatch. tauto. Qed.
Lemma mismatch_pair tk sk y : mismatch sk tk -> nested_pair tk sk y = None.
Proof.
  intros [[L _]|[_ L]]; [now apply nested_pair_leaf|]. destruct tk as [[| | | | |]| | | | |]; try discriminate; reflexivity.
Qed.
Lemma is_subtype_mismatch cf s at_ a bt b r s' :
  (forall x y, In (x, y) (cache s) -> leafk x = true /\ leafk y = true) -> mismatch a b ->
  is_subtype cf s at_ a bt b = (r, s') -> is_ok r = false /\ s' = s.
Proof.
  intros Hc Hm H. destruct cf as [|f]; cbn [is_subtype] in H; [injection H as <- <-; auto|].
  destruct (cache_mem (a, b) (cache s)) eqn:Em.
  { apply cache_mem_in in Em. apply Hc in Em as [La Lb]. destruct Hm as [[_ [j ->]]|[[j ->] _]]; discriminate. }
  assert (X : exists r0, is_subtype_ (is_subtype f) (S f) s at_ a bt b = (r0, s) /\ r0 <> Ok tt).
  { destruct Hm as [[La [j ->]]|[[j ->] Lb]].
    - destruct a as [[| |v| | |]|i| | | |v]; try discriminate La; cbn [is_subtype_ lift]; eexists; (split; [reflexivity|apply mismatch_not_ok]).
    - destruct b as [[| |v| | |]|i| | | |v]; try discriminate Lb; cbn [is_subtype_ lift]; eexists; (split; [reflexivity|apply mismatch_not_ok]). }
  destruct X as [r0 [E N]]. rewrite E in H. destruct r0 as [[]| | |]; [contradiction| | |]; injection H as <- <-; auto.
Qed.

Section NMerge.
  Variable ord : list (str * id) -> list (str * id).
  Variable cf : nat.
  Variable Col : types -> Prop.
  Hypothesis Col_same : forall t1 t2, Col t1 -> Col t2 -> t_tag t1 = t_tag t2 -> t1 = t2.
  Variable tag0 : N.
  Hypothesis Col_tag : forall t, Col t -> t_tag t <> tag0.
  Variable t : types.
  Hypothesis Ct : Col t.
  Notation MI := (MInv Col tag0).

  Lemma MI_cache_leaf c : MI c -> forall x y, In (x, y) (cache (c_chk c)) -> leafk x = true /\ leafk y = true.
  Proof. intros I x y Hin. destruct (mi_cache _ _ _ I x y Hin) as [A [B _]]. auto. Qed.

  Lemma mismatch_rejected c sk tk (K1 K2 : M unit) r :
    MI c -> mismatch sk tk ->
    (r1 <-- sub_fa cf t sk tk ;;; if is_ok r1 then K1 else r2 <-- sub_af cf t tk sk ;;; must AEMismatchExport r2 ;;; K2) c <> AOk r.
  Proof.
    intros I Hm H. destruct r as [u0 c']. apply bindM_ok in H as [r1 [c1 [H1 H]]]. unfold sub_fa in H1.
    destruct (is_subtype cf (c_chk c) t sk (c_types c) tk) as [r0 s0] eqn:E. injection H1 as <- <-.
    destruct (is_subtype_mismatch _ _ _ _ _ _ _ _ (MI_cache_leaf c I) Hm E) as [Hr ->]. rewrite Hr, with_chk_same in H.
    apply bindM_ok in H as [r2 [c2 [H2 H]]]. unfold sub_af in H2.
    destruct (is_subtype cf (c_chk c) (c_types c) tk t sk) as [r3 s3] eqn:E2. injection H2 as <- <-.
    destruct (is_subtype_mismatch _ _ _ _ _ _ _ _ (MI_cache_leaf c I) (mismatch_sym _ _ Hm) E2) as [Hr2 _].
    apply bindM_ok in H as [u [c3 [H3 _]]]. destruct r3 as [[]| | |]; cbn [must is_ok] in *; discriminate.
  Qed.

  Record NLoop (d : nat) (c : core) (y : id) (oid : option str) (exs : list (str * kind)) (e : list (str * tree))
         (own : str -> list id) : Prop := {
    nl_inv : MI c;
    nl_get : get_if (c_types c) y = Some (mkif oid [] exs);
    nl_nodup : NoDup (map fst exs);
    nl_kids : kids (Den d (c_types c)) own exs e;
    nl_shaped : shaped y own (map fst exs) }.
  Definition rootids (y : id) (own : str -> list id) (exs : list (str * kind)) : list id := y :: flat_map own (map fst exs).

  Lemma NLoop_IDen d c y oid exs e own : NLoop d c y oid exs e own -> IDen d (c_types c) y oid e (rootids y own exs).
  Proof. intros [I G ND K Sh]. exists exs, own. auto. Qed.

  (** [upd_if existing (if_set_export name k')] on the root *)
  Lemma upd_export c1 y oid exs name k' c' :
    MI c1 -> get_if (c_types c1) y = Some (mkif oid [] exs) ->
    upd_if y (if_set_export name k') c1 = AOk (tt, c') ->
    MI c' /\ get_if (c_types c') y = Some (mkif oid [] (ins name k' exs)) /\ MFrame [y] c1 c' /\ c_remapped c' = c_remapped c1.
  Proof.
    intros I1 Hg H. rewrite (upd_if_ok _ _ _ _ _ Hg H). cbn [if_set_export i_id i_uses i_exports].
    set (T1 := c_types c1). set (T2 := t_with_interfaces T1 (set_nth (id_idx y) (mkif oid [] (ins name k' exs)) (t_interfaces T1))).
    assert (E2 : ext T1 T2) by apply ext_upd_if.
    split; [|split; [|split; [|reflexivity]]].
    - split; cbn [c_types c_remapped c_chk with_types].
      + apply (mi_tag _ _ _ I1).
      + intros a b Hx. eapply entry_ok_ext; [exact E2|]. now apply (mi_rinv _ _ _ I1).
      + eapply (CacheInv_ext Col c1); [exact E2 | reflexivity | apply (mi_cache _ _ _ I1)].
    - now apply (get_if_upd_same T1 _ _ _ Hg).
    - split; cbn [c_types c_imports c_ifaces with_types]; auto.
      + cbn [t_interfaces t_with_interfaces T2]. now rewrite set_nth_length.
      + intros j z Nj Hz. unfold T2. rewrite get_if_upd_other; [exact Hz|]. intros X. apply Nj. left.
        apply get_if_lt in Hz as [Tj _], Hg as [Ty _]. apply id_eq_of; congruence.
  Qed.

  (** copy the contributor's export and store it under [name] *)
  Lemma do_remap_n d f y name sk tb idb c c' oid exs :
    MI c -> get_if (c_types c) y = Some (mkif oid [] exs) -> SDen d t sk tb idb ->
    (k' <-- remap_item_kind ord cf f t sk ;;; upd_if y (if_set_export name k')) c = AOk (tt, c') ->
    exists k' ids1,
      MI c' /\ get_if (c_types c') y = Some (mkif oid [] (ins name k' exs)) /\
      Den d (c_types c') k' tb ids1 /\ newids c ids1 /\ MFrame [y] c c' /\ rm_frame idb c c'.
  Proof.
    intros I Hg HD H. apply bindM_ok in H as [k' [c1 [H1 H2]]].
    destruct (RK_all ord cf Col Col_same tag0 t Ct d f sk tb idb c k' c1 I HD H1) as [ids1 [D1 [I1 [E1 [F1 [N1 R1]]]]]].
    destruct (upd_export c1 y oid exs name k' c' I1 (AExt_get_if _ _ _ _ E1 Hg) H2) as [I' [Hg' [Fr2 Hrm]]].
    exists k', ids1. split; [exact I'|]. split; [exact Hg'|]. split; [|split; [exact N1|split]].
    - eapply Den_frame; [apply Fr2| |exact D1]. intros j z Hj. apply (mf_other _ _ _ Fr2). intros [<-|[]].
      pose proof (N1 _ Hj). apply get_if_lt in Hg. lia.
    - exact (MFrame_trans _ _ _ _ (MFrame_of_AExt _ _ _ E1 F1) Fr2).
    - intros j Nj. rewrite Hrm. apply R1. intros [].
  Qed.

  Definition ML (d : nat) : Prop := forall F y oid ea ids i oidb eb idsb c c',
    MI c -> IDen d (c_types c) y oid ea ids -> SIDen d t i oidb eb idsb ->
    merge_interface ord cf F y t i c = AOk (tt, c') ->
    exists em ids', (exists n, union_with (tmerge_f n) ea eb = Some em) /\
      IDen d (c_types c') y oid em ids' /\ MI c' /\ MFrame ids c c' /\ rm_frame idsb c c' /\
      (forall j, In j ids' -> In j ids \/ (length (t_interfaces (c_types c)) <= id_idx j)%nat).

  Lemma NLoop_same d c c2 y oid exs e own :
    c_types c2 = c_types c -> MI c2 -> NLoop d c y oid exs e own -> NLoop d c2 y oid exs e own.
  Proof. intros E I [_ G ND K Sh]. split; auto; rewrite E; auto. Qed.

  (** [touched]: the interfaces written to on the way - the root or interfaces of that export, so that the other exports
      denote what they did *)
  Lemma NLoop_set d c c' y oid exs e own name k' tr' ids' touched :
    NLoop d c y oid exs e own -> MI c' -> MFrame touched c c' ->
    (forall j, In j touched -> j = y \/ (In name (map fst exs) /\ In j (own name))) ->
    get_if (c_types c') y = Some (mkif oid [] (ins name k' exs)) ->
    Den d (c_types c') k' tr' ids' ->
    (forall j, In j ids' -> (In name (map fst exs) /\ In j (own name)) \/ (length (t_interfaces (c_types c)) <= id_idx j)%nat) ->
    NLoop d c' y oid (ins name k' exs) (ins name tr' e) (upd own name ids') /\
    MFrame (rootids y own exs) c c' /\
    (forall j, In j (rootids y (upd own name ids') (ins name k' exs)) ->
               In j (rootids y own exs) \/ (length (t_interfaces (c_types c)) <= id_idx j)%nat).
  Proof.
    intros L I' Fr Ht Hg' D' Hsub. destruct (nl_shaped _ _ _ _ _ _ _ L) as [Sh1 Sh2].
    destruct (get_if_lt _ _ _ (nl_get _ _ _ _ _ _ _ L)) as [_ Ly].
    assert (Hother : forall n, In n (map fst (ins name k' exs)) -> n <> name -> In n (map fst exs) /\ n <> name).
    { intros n Hn N. apply in_map_iff in Hn as [[n0 k0] [<- Hin]]. apply in_ins in Hin as [[-> _]|Hin]; [contradiction|].
      split; [|exact N]. change n0 with (fst (n0, k0)). now apply in_map. }
    split; [split|split].
    - exact I'.
    - exact Hg'.
    - apply nodup_keys_ins, (nl_nodup _ _ _ _ _ _ _ L).
    - apply (kids_ins (Den d (c_types c)) (Den d (c_types c')) own); [apply L|apply L| |now rewrite upd_same].
      intros n k tr Hin N Hd. assert (Hn : In n (map fst exs)) by (change n with (fst (n, k)); now apply in_map).
      rewrite upd_other by exact N. eapply Den_frame; [apply Fr| |exact Hd].
      intros j z Hj. apply (mf_other _ _ _ Fr). intros X. destruct (Ht j X) as [->|[Hname Hj']].
      + exact (Sh1 n Hn Hj).
      + exact (Sh2 n name j Hn Hname N Hj Hj').
    - split.
      + intros n Hn Hj. unfold upd in Hj. destruct (str_eqb n name) eqn:E.
        * destruct (Hsub y Hj) as [[Hin X]|X]; [exact (Sh1 name Hin X) | lia].
        * apply str_eqb_neq in E. exact (Sh1 n (proj1 (Hother n Hn E)) Hj).
      + apply (disj_upd (fun j => length (t_interfaces (c_types c)) <= id_idx j)%nat own (map fst exs) _ name name ids'); auto.
        intros n j Hn Hj X. destruct (IDen_lt _ _ _ _ _ _ (NLoop_IDen _ _ _ _ _ _ _ L) j) as [_ Lj]; [right; apply in_flat_own; eauto | lia].
    - eapply MFrame_weaken; [|exact Fr]. intros j Hj. destruct (Ht j Hj) as [->|[Hn Hj']]; [now left|].
      right. apply in_flat_own. eauto.
    - intros j [<-|Hj]; [left; now left|]. apply in_flat_own in Hj as [n [Hn Hj]]. unfold upd in Hj.
      destruct (str_eqb n name) eqn:E.
      + destruct (Hsub j Hj) as [[Hin X]|X]; [|now right]. left. right. apply in_flat_own. eauto.
      + apply str_eqb_neq in E. left. right. apply in_flat_own. exists n. split; [apply (Hother n Hn E)|exact Hj].
  Qed.

  (** one export of the contributor *)
  (* one statement for [d = 0] and [d = S d']: [HML] is used only below an instance export, where the depth is
     already known to be a successor *)
  Lemma nbody d (HML : forall d', d = S d' -> ML d') f y name sk tb idb c c' oid exs e own :
    NLoop d c y oid exs e own -> SDen d t sk tb idb ->
    merge_export_body ord cf f y t (name, sk) c = AOk (tt, c') ->
    exists exs' r own', NLoop d c' y oid exs' (ins name r e) own' /\
      (exists n, merged_at (tmerge_f n) e name tb = Some r) /\
      MFrame (rootids y own exs) c c' /\ rm_frame idb c c' /\
      (forall j, In j (rootids y own' exs') ->
                 In j (rootids y own exs) \/ (length (t_interfaces (c_types c)) <= id_idx j)%nat).
  Proof.
    intros L HD H. unfold merge_export_body in H.
    apply bindM_ok in H as [ex [c0 [H0 H]]]. unfold agg_if in H0. rewrite (nl_get _ _ _ _ _ _ _ L) in H0. cbn [idxM] in H0.
    apply ret_ok in H0 as [-> ->]. cbn [i_exports] in H.
    pose proof (nl_kids _ _ _ _ _ _ _ L) as K. pose proof (nl_inv _ _ _ _ _ _ _ L) as I.
    assert (Hy : forall j, In j [y] -> j = y \/ (In name (map fst exs) /\ In j (own name))) by (intros j [<-|[]]; now left).
    destruct (assoc name exs) as [tk|] eqn:Ea.
    2: { (* a new export *)
      destruct (do_remap_n d f y name sk tb idb c c' oid exs I (nl_get _ _ _ _ _ _ _ L) HD H) as [k' [ids1 [I' [Hg' [D1 [N1 [Fr Rm]]]]]]].
      destruct (NLoop_set d c c' y oid exs e own name k' tb ids1 [y] L I' Fr Hy Hg' D1 (fun j Hj => or_intror (N1 j Hj)))
        as [L' [Fr' Sub]].
      exists (ins name k' exs), tb, (upd own name ids1). split; [exact L'|]. split; [|auto].
      exists O. unfold merged_at. now rewrite (kids_assoc_none _ _ _ _ _ K Ea). }
    (* the export exists already *)
    destruct (kids_assoc _ _ _ _ _ _ K Ea) as [ta [Eta Dk]].
    assert (Hname : In name (map fst exs)) by (eapply assoc_in_keys; eauto).
    pose proof (Den_wt _ _ _ _ _ Dk) as Wta.
    destruct d as [|d']; [destruct Dk|]. cbn [DenG] in Dk, HD.
    destruct Dk as [[Lk Eown]|[y' [ea' [-> [-> IDk]]]]], HD as [[Ls ->]|[j' [eb' [-> [-> IDs]]]]].
    - (* leaf / leaf *)
      rewrite (nested_pair_leaf tk sk y (proj1 Ls)) in H.
      destruct (leaf_pair cf Col Col_same tag0 Col_tag t c c' sk tk tb ta _ Ct I (proj1 Ls) (proj1 Lk) (proj1 (proj2 Ls)) (proj1 (proj2 Lk)) H)
        as [-> [s [rm [I2 [Hrm Hc']]]]].
      set (c2 := with_remapped (with_chk c s) rm) in *.
      assert (L2 : NLoop (S d') c2 y oid exs e own) by (apply (NLoop_same (S d') c); auto).
      assert (Fr2 : MFrame (rootids y own exs) c c2).
      { eapply MFrame_trans; [apply MFrame_chk|apply MFrame_remapped]. }
      assert (Rm2 : rm_frame [] c c2) by (intros j _; apply Hrm).
      assert (Hstep : exists n, merged_at (tmerge_f n) e name ta = Some ta).
      { exists (S d'). unfold merged_at. rewrite Eta. apply (tmerge_f_idem (S d') (S d') ta Wta (le_n _)). }
      destruct Hc' as [->|H2].
      + (* the export stays *)
        exists exs, ta, own. split; [now rewrite (ins_same _ _ _ Eta)|]. split; [exact Hstep|].
        split; [exact Fr2|]. split; [|auto]. intros j _. apply Hrm.
      + (* the source is copied and replaces it *)
        destruct (do_remap_n (S d') f y name sk ta [] c2 c' oid exs I2 (nl_get _ _ _ _ _ _ _ L2) (or_introl (conj Ls eq_refl)) H2)
          as [k' [ids1 [I' [Hg' [D1 [N1 [Fr Rm]]]]]]].
        destruct (NLoop_set (S d') c2 c' y oid exs e own name k' ta ids1 [y] L2 I' Fr Hy Hg' D1 (fun j Hj => or_intror (N1 j Hj)))
          as [L' [Fr' Sub]].
        exists (ins name k' exs), ta, (upd own name ids1). split; [exact L'|]. split; [exact Hstep|].
        split; [exact (MFrame_trans _ _ _ _ Fr2 Fr')|]. split; [|exact Sub].
        intros j Nj. rewrite (Rm j (fun X => match X with end)). apply Hrm.
    - (* leaf target, instance source: rejected *)
      assert (Hm : mismatch (KInstance j') tk) by (right; split; [eauto|apply Lk]).
      rewrite (mismatch_pair _ _ y Hm) in H. destruct (mismatch_rejected c _ _ _ _ _ I Hm H).
    - (* instance target, leaf source: rejected *)
      assert (Hm : mismatch sk (KInstance y')) by (left; split; [apply Ls|eauto]).
      rewrite (mismatch_pair _ _ y Hm) in H. destruct (mismatch_rejected c _ _ _ _ _ I Hm H).
    - (* instance / instance: merged recursively *)
      assert (Hy'own : In y' (own name)) by (destruct IDk as [exs0 [own0 [_ [_ [_ [_ ->]]]]]]; now left).
      assert (Hj'idb : In j' idb) by (destruct IDs as [exs0 [own0 [_ [_ [_ [_ ->]]]]]]; now left).
      pose proof (proj1 (nl_shaped _ _ _ _ _ _ _ L) name Hname) as Ny'.
      assert (Ny : id_eqb y' y = false).
      { destruct (id_eqb y' y) eqn:E; auto. apply ideqb_eq in E. subst y'. contradiction. }
      cbn [nested_pair] in H. rewrite Ny in H.
      apply bindM_ok in H as [[] [c1 [H1 H]]].
      destruct (HML d' eq_refl f y' None ea' (own name) j' None eb' idb c c1 I IDk IDs H1)
        as [em' [ids2 [[n Hn] [ID2 [I1 [Fr1 [Rm1 Sub2]]]]]]].
      unfold remapped_set in H. injection H as <-. cbn [ty_of].
      set (c' := with_remapped c1 (rm_ins (TInterface j') (TInterface y') (c_remapped c1))).
      assert (I' : MI c').
      { split; cbn [c_types c_remapped c_chk with_remapped c']; [apply (mi_tag _ _ _ I1) | | apply (mi_cache _ _ _ I1)].
        apply RInv_set; [apply (mi_rinv _ _ _ I1)|]. exact Logic.I. }
      destruct (NLoop_set (S d') c c' y oid exs e own name (KInstance y') (XInst em') ids2 (own name) L I') as [L' [Fr' Sub]].
      + eapply MFrame_trans; [exact Fr1|apply MFrame_remapped].
      + intros j Hj. right. auto.
      + rewrite (ins_same _ _ _ Ea). apply (mf_other _ _ _ Fr1); [exact Ny' | apply L].
      + right. exists y', em'. auto.
      + intros j Hj. destruct (Sub2 j Hj); auto.
      + rewrite (ins_same _ _ _ Ea) in L', Sub.
        exists exs, (XInst em'), (upd own name ids2). split; [exact L'|]. split; [|split; [exact Fr'|split; [|exact Sub]]].
        * exists (S n). unfold merged_at. rewrite Eta. cbn [tmerge_f]. now rewrite Hn.
        * intros j Nj. cbn [c_remapped with_remapped c']. rewrite rm_get_ins_other; [now apply Rm1|].
          intros X. injection X as ->. contradiction.
  Qed.

  (** all exports of the contributor *)
  Lemma nloop d (HML : forall d', d = S d' -> ML d') f y oid : forall rest eb ownb c c' exs e own,
    NLoop d c y oid exs e own -> kids (SDen d t) ownb rest eb -> NoDup (map fst rest) ->
    forM (merge_export_body ord cf f y t) rest c = AOk (tt, c') ->
    exists exs' e' own', NLoop d c' y oid exs' e' own' /\ (exists n, union_with (tmerge_f n) e eb = Some e') /\
      MFrame (rootids y own exs) c c' /\ rm_frame (flat_map ownb (map fst rest)) c c' /\
      (forall j, In j (rootids y own' exs') ->
                 In j (rootids y own exs) \/ (length (t_interfaces (c_types c)) <= id_idx j)%nat).
  Proof.
    induction rest as [|[name sk] rest IH]; intros eb ownb c c' exs e own L K ND H; cbn [forM] in H.
    - apply ret_ok in H as [_ ->]. inversion K; subst. exists exs, e, own. split; auto. split; [exists O; reflexivity|].
      split; [apply MFrame_refl|]. split; [apply rm_frame_refl|auto].
    - inversion K as [|? [n' tb] ? eb0 [En Hk] K0]; subst. cbn [fst snd] in *. subst n'.
      cbn [map fst] in ND. inversion ND as [|? ? Hn ND']; subst.
      apply bindM_ok in H as [[] [c1 [H1 H]]].
      destruct (nbody d HML f y name sk tb (ownb name) c c1 oid exs e own L Hk H1)
        as [exs1 [r1 [own1 [L1 [[n1 U1] [Fr1 [Rm1 Sub1]]]]]]].
      destruct (IH eb0 ownb c1 c' exs1 (ins name r1 e) own1 L1 K0 ND' H)
        as [exs' [e' [own' [L' [[n2 U2] [Fr2 [Rm2 Sub2]]]]]]].
      exists exs', e', own'. split; auto. split; [|split; [|split]].
      + exists (Nat.max n1 n2). rewrite union_with_cons.
        rewrite (merged_at_ext (tmerge_f n1) (tmerge_f (Nat.max n1 n2))
                               (fun x1 y1 z1 E => tmerge_f_mono n1 x1 y1 z1 E _ (Nat.le_max_l n1 n2)) _ _ _ _ U1).
        eapply union_with_ext; [|exact U2]. intros x1 y1 z1 E. eapply tmerge_f_mono; [exact E|apply Nat.le_max_r].
      + exact (MFrame_trans_grow _ _ _ _ _ Fr1 Fr2 Sub1).
      + cbn [map fst flat_map]. eapply rm_frame_trans; eapply rm_frame_weaken; [| exact Rm1 | | exact Rm2];
          intros j Hj; apply in_or_app; auto.
      + intros j Hj. destruct (Sub2 j Hj) as [X|X]; [|right; pose proof (mf_len _ _ _ Fr1); lia].
        destruct (Sub1 j X); auto.
  Qed.

  Lemma ML_of d (HML : forall d', d = S d' -> ML d') : ML d.
  Proof.
    intros F y oid ea ids i oidb eb idsb c c' I [exs [own [Hg [ND [K [Sh ->]]]]]] [exsb [ownb [Hgb [NDb [Kb [_ ->]]]]]] H.
    destruct F as [|f]; [discriminate|]. rewrite merge_interface_S in H.
    apply bindM_ok in H as [[] [c1 [H1 H]]].
    assert (c1 = c) as ->.
    { destruct f as [|f]; [discriminate|]. cbn [merge_interface_used_types] in H1.
      apply bindM_ok in H1 as [src [c0 [H0 H1]]]. rewrite Hgb in H0. cbn [idxM] in H0. apply ret_ok in H0 as [-> ->].
      cbn [i_uses forM] in H1. now apply ret_ok in H1 as [_ ->]. }
    apply bindM_ok in H as [src [c0 [H0 H]]]. rewrite Hgb in H0. cbn [idxM] in H0. apply ret_ok in H0 as [-> ->].
    cbn [i_exports] in H.
    assert (L : NLoop d c y oid exs ea own) by (split; auto).
    destruct (nloop d HML f y oid exsb eb ownb c c' exs ea own L Kb NDb H) as [exs' [e' [own' [L' [U [Fr [Rm Sub]]]]]]].
    exists e', (rootids y own' exs'). split; [exact U|]. split; [now apply (NLoop_IDen d)|]. split; [apply L'|].
    split; [exact Fr|]. split; [|exact Sub]. eapply rm_frame_weaken; [|exact Rm]. intros j Hj. now right.
  Qed.

  Theorem ML_all : forall d, ML d.
  Proof using Col_same Col_tag Ct.
    induction d as [|d IH]; apply ML_of; intros d' E; [discriminate|]. injection E as <-. exact IH.
  Qed.
End NMerge.
