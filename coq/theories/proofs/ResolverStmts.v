(** C04: statements -- the name an import and an export get, what a spread export adds, duplicate names. *)
From Coq Require Import List Arith Bool NArith ListDec.
From WacV Require Import Str Token Lexer Semver Names Ast Graph Resolver LangSpec GraphInv GraphSteps ResolverProofs ResolverNew.
Import ListNotations.
Local Open Scope nat_scope.

Section Stmts.
  Variable u : runiverse.
  Variable self_name : str.

  (** C04 6a, duplicate name: a name that is already defined is rejected with [DuplicateName], and only then *)
  Theorem register_name_duplicate id n st :
    im_get (rs_scope st) (id_string id) <> None <->
    register_name u id n st = inr (FErr (EDuplicateName (id_string id) (off (id_span id)))).
  Proof.
    rewrite register_name_run. destruct (im_get (rs_scope st) (id_string id)) as [x|].
    - split; [reflexivity|discriminate].
    - split; [intros X; now contradiction X|].
      destruct (get_node (rs_g st) n) as [nd|]; [|discriminate]. destruct (nname nd); [discriminate|].
      destruct (set_name (rs_g st) n (ru_intern u (id_string id))) as [g' o]. destruct o; discriminate.
  Qed.

  Lemma export_ok (g : gstate) n e g' :
    export_ u g n e = (g', OUnit) ->
    alist_get N.eqb (exports g) e = None /\ u_export_name_ok u e = true /\
    exports g' = exports_renamed g n ++ [(e, n)] /\ get_node g n <> None.
  Proof.
    unfold export_. destruct (alist_get N.eqb (exports g) e); [discriminate|].
    destruct (u_export_name_ok u e); [|discriminate]. cbn [negb]. unfold update_node.
    destruct (get_node g n); [|discriminate]. intros [= <-]. cbn. repeat split; auto. discriminate.
  Qed.

  (** only a type definition is renamed by [export]; any other node keeps its earlier export names *)
  Lemma exports_renamed_nondef (g : gstate) n :
    (forall nd, get_node g n = Some nd -> nk nd <> NDef) -> exports_renamed g n = exports g.
  Proof.
    intros H. unfold exports_renamed. destruct (get_node g n) as [nd|]; auto.
    specialize (H nd eq_refl). destruct (nk nd); auto. now contradiction H.
  Qed.

  (** no alias edge leads to a type definition (every graph built through the API: the target of an
      alias edge is an alias node, C06 [reach_alias_inv]); boolean, so that it can be decided *)
  Definition alias_nondef_b (g : gstate) : bool :=
    forallb (fun ed => match ek ed with
                       | EAlias _ => match get_node g (etgt ed) with
                                     | Some nd => match nk nd with NDef => false | _ => true end
                                     | None => true
                                     end
                       | _ => true
                       end) (edges g).

  Lemma alias_nondef_spec g :
    alias_nondef_b g = true <->
    forall ed i nd, In ed (edges g) -> ek ed = EAlias i -> get_node g (etgt ed) = Some nd -> nk nd <> NDef.
  Proof.
    unfold alias_nondef_b. rewrite forallb_forall. split.
    - intros H ed i nd Hin K G. specialize (H ed Hin). rewrite K, G in H. intros E. rewrite E in H. discriminate.
    - intros H ed Hin. destruct (ek ed) as [i|j|] eqn:K; auto. destruct (get_node g (etgt ed)) as [nd|] eqn:G; auto.
      specialize (H ed i nd Hin K G). destruct (nk nd); try reflexivity. now contradiction H.
  Qed.

  Lemma alias_nondef_alias g item e g' n :
    nofree g -> alias_nondef_b g = true -> alias u g item e = (g', ONode n) ->
    alias_nondef_b g' = true /\ (forall nd, get_node g' n = Some nd -> nk nd <> NDef).
  Proof.
    intros [F Fp] AN. rewrite alias_nondef_spec in AN. unfold alias.
    destruct (get_node g item) as [nd0|]; [|discriminate].
    destruct (u_inst_exports u (nitem nd0)) as [ex|]; [|discriminate].
    destruct (get_full ex e 0) as [[index kind]|]; [|discriminate].
    destruct (find _ (outgoing g item)) as [ed|] eqn:Fd.
    - intros [= <- <-]. split; [now apply alias_nondef_spec|].
      apply find_some in Fd as [Hin K]. unfold outgoing in Hin. apply filter_In in Hin as [Hin _].
      destruct (ek ed) as [i|j|] eqn:Ke; try discriminate. intros nd G. exact (AN ed i nd Hin Ke G).
    - destruct (add_node g (mk_node NAlias kind (npkg nd0))) as [s1 idx] eqn:A.
      apply add_node_nofree in A as (-> & Hn & _ & He & _); auto. intros [= <- <-].
      assert (Gn : forall k, get_node (add_edge s1 {| esrc := item; etgt := length (nodes g); ek := EAlias index |}) k =
                     if k =? length (nodes g) then Some (mk_node NAlias kind (npkg nd0)) else get_node g k).
      { intros k. rewrite !get_node_getn. cbn [add_edge nodes]. rewrite Hn. apply getn_app_one. }
      split.
      + apply alias_nondef_spec. intros ed i nd Hin K G. rewrite Gn in G.
        destruct (Nat.eqb_spec (etgt ed) (length (nodes g))) as [E|E]; [injection G as <-; discriminate|].
        cbn [add_edge edges] in Hin. rewrite He in Hin. destruct Hin as [<-|Hin]; [now contradiction E|exact (AN ed i nd Hin K G)].
      + intros nd G. rewrite Gn, Nat.eqb_refl in G. injection G as <-. discriminate.
  Qed.

  Lemma alias_nondef_export g n e g' o :
    alias_nondef_b g = true -> export_ u g n e = (g', o) -> alias_nondef_b g' = true.
  Proof.
    intros AN H. replace g' with (fst (export_ u g n e)) by now rewrite H.
    destruct (export_spec u g n e) as [->|(nd & G & _ & ->)]; [exact AN|].
    rewrite alias_nondef_spec in *. intros ed i nd' Hin K G'.
    rewrite get_node_getn in G'. cbn [with_maps set_node nodes] in G'. rewrite (getn_set_live _ _ _ _ _ G) in G'.
    destruct (Nat.eqb_spec (etgt ed) n) as [E|E]; [|exact (AN ed i nd' Hin K G')].
    injection G' as <-. rewrite <- E in G. exact (AN ed i nd Hin K G).
  Qed.

  (** the local name equal to the export name is a type definition *)
  Definition defines (st : rstate) (nm : str) : bool :=
    match im_get (rs_scope st) nm with
    | Some (n, _) => match get_node (rs_g st) n with Some nd => match nk nd with NDef => true | _ => false end | None => false end
    | None => false
    end.

  Lemma export_item_unfold item nm at_ st :
    (forall n a, im_get (rs_scope st) nm = Some (n, a) -> get_node (rs_g st) n <> None) ->
    export_item u item nm at_ st =
      if defines st nm then inr (FErr (EExportConflict nm at_)) else
      match export_ u (rs_g st) item (ru_intern u nm) with
      | (g', OUnit) => inl (tt, {| rs_g := g'; rs_scope := rs_scope st |})
      | (_, OErr (ExportAlreadyExists _)) => inr (FErr (EDuplicateExternName XExport nm at_))
      | (_, OErr InvalidExportName) => inr (FErr (EInvalidExternName XExport nm at_))
      | (_, OPanic p) => inr (FPanic (RGraph p))
      | (_, _) => inr (FPanic RBadUniverse)
      end.
  Proof.
    intros Live.
    assert (Chk : match im_get (rs_scope st) nm with
                  | Some (n, _) =>
                      match get_node (rs_g st) n with
                      | None => inr (FPanic RNodeIndex)
                      | Some nd => match nk nd with NDef => inr (FErr (EExportConflict nm at_)) | _ => inl tt end
                      end
                  | None => inl tt
                  end = if defines st nm then inr (FErr (EExportConflict nm at_)) else inl tt).
    { unfold defines. destruct (im_get (rs_scope st) nm) as [[n a]|] eqn:E; [|reflexivity].
      specialize (Live n a eq_refl). destruct (get_node (rs_g st) n) as [nd|]; [|now contradiction Live].
      destruct (nk nd); reflexivity. }
    unfold export_item, bind at 1. unfold get_scope at 1. unfold bind at 1. unfold get_g at 1. rewrite Chk.
    destruct (defines st nm); [reflexivity|].
    unfold bind at 1, gop, bind at 1. unfold get_g at 1.
    destruct (export_ u (rs_g st) item (ru_intern u nm)) as [g' o]. unfold bind at 1, put_g at 1, ret at 1.
    destruct o as [| | |e|p]; try reflexivity. destruct e; reflexivity.
  Qed.

  (** C04 6a, conflicting export: an export whose name is already exported is rejected with [DuplicateExternName{export}],
      and only then (a name that is a type definition of the document is [ExportConflict]) *)
  Theorem export_item_conflict item nm at_ st :
    (forall n a, im_get (rs_scope st) nm = Some (n, a) -> get_node (rs_g st) n <> None) ->
    (export_item u item nm at_ st = inr (FErr (EDuplicateExternName XExport nm at_)) <->
     defines st nm = false /\ alist_get N.eqb (exports (rs_g st)) (ru_intern u nm) <> None).
  Proof.
    intros Live. rewrite export_item_unfold by exact Live. destruct (defines st nm); [split; [discriminate|intros [X _]; discriminate]|].
    unfold export_. destruct (alist_get N.eqb (exports (rs_g st)) (ru_intern u nm)) as [m|].
    - split; [intros _; split; [reflexivity|discriminate]|reflexivity].
    - split; [|intros [_ X]; now contradiction X].
      destruct (negb (u_export_name_ok u (ru_intern u nm))); [discriminate|].
      destruct (update_node (rs_g st) item _); discriminate.
  Qed.

  Lemma export_item_inl item nm at_ st st' :
    (forall n a, im_get (rs_scope st) nm = Some (n, a) -> get_node (rs_g st) n <> None) ->
    export_item u item nm at_ st = inl (tt, st') ->
    export_ u (rs_g st) item (ru_intern u nm) = (rs_g st', OUnit) /\ rs_scope st' = rs_scope st.
  Proof.
    intros Live. rewrite export_item_unfold by exact Live. destruct (defines st nm); [discriminate|].
    destruct (export_ u (rs_g st) item (ru_intern u nm)) as [g' o]. destruct o as [| | |e|p]; try discriminate.
    - intros [= <-]. auto.
    - destruct e; discriminate.
  Qed.

  Definition scope_live (st : rstate) : Prop :=
    forall nm n a, im_get (rs_scope st) nm = Some (n, a) -> get_node (rs_g st) n <> None.

  Lemma scope_live_frame st st' : scope_live st -> gframe (rs_g st) (rs_g st') -> rs_scope st' = rs_scope st -> scope_live st'.
  Proof.
    intros SL GF Sc nm n a L. rewrite Sc in L. specialize (SL nm n a L).
    destruct (get_node (rs_g st) n) as [nd|] eqn:G; [|now contradiction SL].
    destruct (gf_nodes _ _ GF n nd G) as (b & G' & _). congruence.
  Qed.

  (** C04 4a. Export names.  [export e;] exports the node of [e] under the inferred name; [export e as n;]
      under [n]; the diagnostic spans start at the expression / at the name. *)
  Theorem export_statement_name e opts st st' :
    nofree (rs_g st) -> scope_live st ->
    export_statement u self_name e opts st = inl (tt, st') ->
    match opts with
    | EONone =>
        exists item s1 nd nm,
          eval_expr u self_name e st = inl (item, s1) /\ get_node (rs_g s1) item = Some nd /\
          match instance_id u (nitem nd) with Some p => Some p | None => node_source u (rs_g s1) item end = Some nm /\
          export_ u (rs_g s1) item (ru_intern u nm) = (rs_g st', OUnit)
    | EORename n =>
        exists item s1,
          eval_expr u self_name e st = inl (item, s1) /\
          export_ u (rs_g s1) item (ru_intern u (extern_name_str n)) = (rs_g st', OUnit)
    | EOSpread _ => True
    end.
  Proof.
    intros NF SL H. unfold export_statement in H. apply bind_inl in H as (item & s1 & H1 & H).
    destruct (mframe_eval_expr u self_name e _ _ _ H1 NF) as [GF Sc].
    pose proof (scope_live_frame _ _ SL GF Sc) as SL1.
    destruct opts as [|sp|n]; auto.
    - apply bind_inl in H as (o & s2 & H2 & H). apply infer_export_name_spec in H2 as (-> & nd & G & ->).
      destruct (match instance_id u (nitem nd) with Some p => Some p | None => node_source u (rs_g s1) item end) as [nm|] eqn:E;
        [|discriminate].
      apply export_item_inl in H as [X _]; [|intros n a; apply SL1]. exists item, s1, nd, nm. auto.
    - apply export_item_inl in H as [X _]; [|intros m a; apply SL1]. exists item, s1. auto.
  Qed.

  (** "Items imported by a package path use the path as the name of the import"; otherwise the local
      name; [as] renames (an import whose type is a local name takes the package path associated
      with that item's type, if any) *)
  Definition import_name_of (st : rstate) (id : ident) (nm : option extern_name) (t : import_type) (name : str) : Prop :=
    match nm with
    | Some n => name = extern_name_str n
    | None =>
        match t with
        | ITPackage p => name = pp_string p
        | ITFunc _ | ITInterface _ => name = id_string id
        | ITIdent i =>
            exists n a nd, im_get (rs_scope st) (id_string i) = Some (n, a) /\ get_node (rs_g st) n = Some nd /\
              name = match ru_kind_id u (nitem nd) with Some s => s | None => id_string id end
        end
    end.

  Theorem import_statement_name id nm t st st' :
    import_statement u self_name id nm t st = inl (tt, st') ->
    exists name k s1 g2 n,
      import_name_of st id nm t name /\
      import_ u (rs_g s1) (ru_intern u name) (N.to_nat (ru_promote u k)) = (g2, ONode n) /\
      register_name u id n {| rs_g := g2; rs_scope := rs_scope s1 |} = inl (tt, st').
  Proof.
    unfold import_statement. intros H. apply bind_inl in H as ([name at_] & s0 & H0 & H).
    assert (N0 : import_name_of st id nm t name /\ s0 = st).
    { unfold import_name_of. destruct nm as [n|]; [apply ret_inl in H0 as [[= -> ->] ->]; auto|].
      destruct t as [p|f|items|i]; try (apply ret_inl in H0 as [[= -> ->] ->]; auto; fail).
      apply bind_inl in H0 as (n & s1 & H1 & H0). apply local_item_inl in H1 as (-> & a & L).
      apply bind_inl in H0 as (k & s2 & H2 & H0). apply kind_of_inl in H2 as (-> & nd & G & ->).
      destruct (ru_kind_id u (nitem nd)) eqn:KI; apply ret_inl in H0 as [[= -> ->] ->]; split; auto;
        exists n, a, nd; rewrite KI; auto. }
    destruct N0 as [N0 ->]. cbn [fst snd] in H.
    apply bind_inl in H as (k & s1 & H1 & H). apply bind_inl in H as (o & s2 & H2 & H).
    apply gop_inl in H2 as [H2 Sc2]. destruct o as [|n| |e|p]; try discriminate.
    - exists name, k, s1, (rs_g s2), n. split; auto. split; auto. rewrite <- Sc2. now destruct s2.
    - destruct e; discriminate.
  Qed.

  (** the names a spread export adds: those not yet exported, in the instance's export order *)
  Definition export_filter (g : gstate) (names : list str) : list str :=
    filter (fun nm => match alist_get N.eqb (exports g) (ru_intern u nm) with Some _ => false | None => true end) names.

  Lemma alist_get_snoc_other {B} (l : list (name * B)) k v k' :
    k' <> k -> alist_get N.eqb (l ++ [(k, v)]) k' = alist_get N.eqb l k'.
  Proof.
    intros Hne. induction l as [|[a b] l IH]; cbn.
    - destruct (N.eqb_spec k k'); congruence.
    - destruct (N.eqb a k'); auto.
  Qed.

  Definition is_instance_with (g : gstate) (item : nat) (ex : list (str * kid)) : Prop :=
    exists nd, get_node g item = Some nd /\ inst_exports u (nitem nd) = Some ex.

  Lemma is_instance_frame g g' item ex : is_instance_with g item ex -> gframe g g' -> is_instance_with g' item ex.
  Proof. intros (nd & G & IE) GF. destruct (gf_nodes _ _ GF item nd G) as (b & Gb & Ib & _). exists b. split; auto. now rewrite Ib. Qed.

  Lemma spread_exports_inl item ea da ex : forall names any st any' st',
    spread_exports u item ea da names any st = inl (any', st') ->
    nofree (rs_g st) -> scope_live st -> NoDup (map (ru_intern u) names) ->
    is_instance_with (rs_g st) item ex -> alias_nondef_b (rs_g st) = true ->
    exists adds : list (name * nat),
      exports (rs_g st') = exports (rs_g st) ++ adds /\
      map fst adds = map (ru_intern u) (export_filter (rs_g st) names) /\
      Forall (fun p => exists nm, fst p = ru_intern u nm /\ alias_witness u item nm (snd p)) adds /\
      any' = (any || negb (is_nil adds)) /\ rs_scope st' = rs_scope st /\ gframe (rs_g st) (rs_g st').
  Proof.
    induction names as [|nm r IH]; intros any st any' st' H NF SL ND II AN.
    - cbn in H. apply ret_inl in H as [-> ->]. exists []. rewrite app_nil_r, orb_false_r.
      pose proof (gframe_refl _ NF). auto 8.
    - cbn [map] in ND. inversion ND as [|? ? Hnot ND']; subst. cbn [spread_exports] in H.
      apply bind_inl in H as (g & s0 & Hg & H). apply get_g_inl in Hg as [-> ->].
      unfold export_filter. cbn [filter].
      destruct (alist_get N.eqb (exports (rs_g st)) (ru_intern u nm)) as [m|] eqn:AG; [now apply IH|].
      pose proof II as (nd & G & IE). unfold bind at 1 in H. rewrite alias_export_run, G, IE in H.
      destruct (has_key ex nm); [|discriminate].
      destruct (alias u (rs_g st) item (ru_intern u nm)) as [g1 o] eqn:A. destruct o; try discriminate.
      pose proof (alias_gframe u _ _ _ _ _ NF A) as GF1.
      apply bind_inl in H as ([] & s2 & H2 & H).
      pose proof (scope_live_frame st {| rs_g := g1; rs_scope := rs_scope st |} SL GF1 eq_refl) as SL1.
      apply export_item_inl in H2 as [X Sc2]; [|intros k b; apply SL1]. cbn [rs_g rs_scope] in X, Sc2.
      pose proof (gframe_trans _ _ _ GF1 (export_gframe u _ _ _ _ _ (gf_free _ _ GF1) X)) as GF2.
      destruct (alias_nondef_alias _ _ _ _ _ NF AN A) as [AN1 ND1].
      pose proof (alias_nondef_export _ _ _ _ _ AN1 X) as AN2.
      apply export_ok in X as (_ & _ & EX & _). rewrite (exports_renamed_nondef _ _ ND1) in EX.
      destruct (alias_same_nodes u _ _ _ _ _ NF A) as (_ & _ & EXa & _).
      pose proof (scope_live_frame _ _ SL GF2 Sc2) as SL2.
      apply IH in H as (adds & E2 & MF & FA & -> & Sc3 & GF3); auto.
      2:{ exact (gf_free _ _ GF2). }
      2:{ exact (is_instance_frame _ _ _ _ II GF2). }
      exists ((ru_intern u nm, n) :: adds).
      split; [rewrite E2, EX, EXa, <- app_assoc; reflexivity|].
      split; [|split; [|split; [|split]]].
      + cbn [map fst]. f_equal. rewrite MF. f_equal. unfold export_filter. apply filter_ext_in. intros x Hx.
        rewrite EX, EXa. rewrite alist_get_snoc_other; auto. intros E. apply Hnot. rewrite <- E. now apply in_map.
      + constructor; auto. exists nm. split; auto. exists (rs_g st), g1. exact A.
      + cbn. now rewrite orb_true_r.
      + congruence.
      + exact (gframe_trans _ _ _ GF2 GF3).
  Qed.

  (** C04 4b. Spread export: every export of the instance whose name is not yet exported is exported
      under its own name, as the alias of that export, in the instance's export order; the
      statement is rejected with [SpreadExportNoEffect] when that adds nothing, and with
      [NotAnInstance{Spread}] when the expression is not an instance. *)
  Theorem export_spread_spec e sp st st' :
    nofree (rs_g st) -> scope_live st ->
    export_statement u self_name e (EOSpread sp) st = inl (tt, st') ->
    exists item s1 ex adds,
      eval_expr u self_name e st = inl (item, s1) /\ is_instance_with (rs_g s1) item ex /\
      (NoDup (map (ru_intern u) (map fst ex)) -> alias_nondef_b (rs_g s1) = true ->
       exports (rs_g st') = exports (rs_g s1) ++ adds /\ adds <> [] /\
       map fst adds = map (ru_intern u) (export_filter (rs_g s1) (map fst ex)) /\
       Forall (fun p => exists nm, fst p = ru_intern u nm /\ alias_witness u item nm (snd p)) adds).
  Proof.
    intros NF SL H. unfold export_statement in H. apply bind_inl in H as (item & s1 & H1 & H).
    destruct (mframe_eval_expr u self_name e _ _ _ H1 NF) as [GF Sc].
    pose proof (scope_live_frame _ _ SL GF Sc) as SL1.
    apply bind_inl in H as (k & s2 & H2 & H). apply kind_of_inl in H2 as (-> & nd & G & ->).
    destruct (inst_exports u (nitem nd)) as [ex|] eqn:IE; [|discriminate].
    apply bind_inl in H as (any & s3 & H3 & H).
    assert (II : is_instance_with (rs_g s1) item ex) by (exists nd; auto).
    destruct (NoDup_decidable N.eq_decidable (map (ru_intern u) (map fst ex))) as [ND|NND].
    - destruct (alias_nondef_b (rs_g s1)) eqn:AN.
      + eapply spread_exports_inl in H3 as (adds & EX & MF & FA & -> & _); eauto; [|exact (gf_free _ _ GF)].
        cbn [orb] in H. destruct adds as [|a adds]; [discriminate|]. cbn in H. apply ret_inl in H as [_ ->].
        exists item, s1, ex, (a :: adds). split; auto. split; auto. intros _ _. repeat split; auto. discriminate.
      + exists item, s1, ex, []. split; auto. split; auto. intros _ X. congruence.
    - exists item, s1, ex, []. split; auto. split; auto. intros ND. contradiction.
  Qed.
End Stmts.
