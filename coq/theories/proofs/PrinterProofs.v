(** C13, token level: the tokens the (repaired) printer writes for a well-formed tree are derived by
    the grammar of spec/Grammar.v (under the flags the parser realises) as a tree that equals the
    original up to source positions and doc-comment line splitting; moreover printing that tree (from
    the printed text) issues the same commands, leaf texts included.

    Method: every printer function [p_X] produces a list of commands; [catoks] reads off the tokens
    (kind, text, doc comments before it). For a token list [ts] related to these tokens by [R]
    (same kind/text/docs, and each token's span is accurate in the printed text [src']) we build the
    derivation [g_X (ts) (rest) x'] by recursion on the tree, one lemma per node class. The parser
    then returns [x'] by the completeness theorem of C12. *)
From WacV Require Import Str Token Lexer LexTables LexImpl Semver Ast Parser Grammar ParserComb ParserProofs.
From WacV Require Import Printer PrintSpec PrinterText LexerSound.
From Coq Require Import Lia.
Local Open Scope nat_scope.

(** A command with its [source(span)] looked up. *)
Inductive rcmd : Set :=
| RTok (k : token) (text : option str)
| RSp | RDoc (l : str) | RIndent | RNewline | RRawNl | RInc | RDec.

Definition res1 (s : str) (c : cmd) : rcmd :=
  match c with
  | CTok k => RTok k (Some (fixed_text k))
  | CSrc k sp => RTok k (slice s sp)
  | CSp => RSp | CDoc l => RDoc l | CIndent => RIndent | CNewline => RNewline | CRawNl => RRawNl
  | CInc => RInc | CDec => RDec
  end.

(** The layout depends on the source only through the resolved commands. *)
Lemma layout_res s s' cs : forall cs' ind b,
  map (res1 s) cs = map (res1 s') cs' -> layout s ind b cs = layout s' ind b cs'.
Proof.
  induction cs as [|c cs IH]; intros [|c' cs'] ind b E; try discriminate E; [reflexivity|].
  injection E as E1 E2. pose proof (fun i b => IH cs' i b E2) as IH'.
  destruct c, c'; try discriminate E1; cbn [res1] in E1; cbn [layout]; rewrite ?IH'; try reflexivity;
    first [injection E1 as -> E1b; (rewrite E1b || rewrite <- E1b) | injection E1 as ->]; reflexivity.
Qed.

(** Tokens of the pieces = tokens of the commands (when no [source(span)] panics). *)
Lemma patoks_layout s cs ind b ps :
  layout s ind b cs = Some ps -> forall docs, patoks docs ps = catoks s docs cs.
Proof.
  revert cs ind b ps. apply (layout_ind s (fun _ _ cs ps => forall docs, patoks docs ps = catoks s docs cs));
    intros; cbn [patoks catoks]; try (f_equal; auto); auto.
  unfold slice_or_nil. now rewrite H.
Qed.

Section RoundTrip.
Variable src src' : str.
Let d := impl_flags.
Let fx := repaired.

(** A token of the re-lexed text [src'] and the token the printer meant to write. *)
Definition R (t : rtoken) (a : atok) : Prop := erase t = a /\ slice src' (tsp t) = Some (ttext t).

Lemma R_kind t k txt docs : R t (k, txt, docs) -> tk t = k.
Proof. intros [H _]. unfold erase in H. congruence. Qed.
Lemma R_text t k txt docs : R t (k, txt, docs) -> ttext t = txt.
Proof. intros [H _]. unfold erase in H. congruence. Qed.
Lemma R_docs t k txt docs : R t (k, txt, docs) -> map fst (tdocs t) = docs.
Proof. intros [H _]. unfold erase in H. congruence. Qed.
Lemma R_acc t a : R t a -> slice src' (tsp t) = Some (ttext t).
Proof. now intros [_ H]. Qed.

Lemma Forall2_cons_inv_r (l : list rtoken) a l' :
  Forall2 R l (a :: l') -> exists t ts, l = t :: ts /\ R t a /\ Forall2 R ts l'.
Proof. intros H. inversion H; subst. eauto. Qed.

Lemma tok_intro k t ts txt docs : R t (k, txt, docs) -> tok k (map LTok (t :: ts)) (map LTok ts) t.
Proof. intros H. split; [reflexivity|eapply R_kind; eauto]. Qed.

(** The round trip of one node: grammar relation [G], printer [pr], normaliser [snf]. [docs]: doc lines
    written before the node's first token. Only the one-token leaves are stated for any [docs]; every
    node is used with none pending ([rt1d]): a doc-bearing node prints its own doc lines and reads them
    back off its first token itself ([docs_back]), and every other node follows a token of the same
    production. *)
Definition rt1 {A} (G : drel A) (pr : A -> list cmd) (snf : A -> A) (x : A) : Prop :=
  forall docs rest ts, Forall2 R ts (catoks src docs (pr x ++ rest)) ->
  exists x' r, G (map LTok ts) (map LTok r) x' /\ Forall2 R r (catoks src [] rest) /\
               snf x' = snf x /\ map (res1 src') (pr x') = map (res1 src) (pr x).

Definition rt1d {A} (G : drel A) (pr : A -> list cmd) (snf : A -> A) (x : A) : Prop :=
  forall rest ts, Forall2 R ts (catoks src [] (pr x ++ rest)) ->
  exists x' r, G (map LTok ts) (map LTok r) x' /\ Forall2 R r (catoks src [] rest) /\
               snf x' = snf x /\ map (res1 src') (pr x') = map (res1 src) (pr x).

(** A constructor [C] that only wraps a sub-node: its grammar rule, what the printer and the
    normaliser do on it. *)
Lemma rt1d_wrap {A B} {G : drel A} {G' : drel B} {pr pr' snf snf'} (C : A -> B) x :
  rt1d G pr snf x -> (forall ts r a, G ts r a -> G' ts r (C a)) ->
  (forall a, pr' (C a) = pr a) -> (forall a, snf' (C a) = C (snf a)) -> rt1d G' pr' snf' (C x).
Proof.
  intros Hx HG Hpr Hsn rest ts H. rewrite Hpr in H. destruct (Hx _ _ H) as (x' & r & Hg & Hr & Hs & Hres).
  exists (C x'), r. rewrite !Hpr, !Hsn, Hs. auto.
Qed.

Tactic Notation "peel" hyp(H) "as" ident(t) ident(ts) ident(HR) :=
  apply Forall2_cons_inv_r in H; destruct H as (t & ts & -> & HR & H).

Ltac nrm H := repeat (progress (repeat (rewrite <- app_assoc in H); cbn [app catoks src_id src_str src_path] in H)).

Ltac tokg := first [ eapply tok_intro; eassumption | split; [reflexivity|eapply R_kind; eassumption] ].

Lemma leaf_ident i t docs :
  wf_ident src i -> R t (TIdent, slice_or_nil src (id_span i), docs) ->
  sn_ident (mk_ident t) = sn_ident i /\ slice src' (tsp t) = slice src (id_span i).
Proof.
  intros (txt & Hs & Hi) HR. pose proof (R_text _ _ _ _ HR) as Ht. pose proof (R_acc _ _ HR) as Ha.
  unfold slice_or_nil in Ht. rewrite Hs in Ht. split.
  - unfold sn_ident. f_equal. rewrite Hi. unfold mk_ident, tok_at. cbn [id_string ttext]. now rewrite Ht.
  - rewrite Ha, Hs. now f_equal.
Qed.

Lemma g_id_intro t ts docs txt :
  R t (TIdent, txt, docs) -> g_id (map LTok (t :: ts)) (map LTok ts) (mk_ident t).
Proof. intros H. exists t. split; [eapply tok_intro; eauto|reflexivity]. Qed.

Lemma leaf_strlit s t docs :
  wf_strlit src s -> R t (TString, slice_or_nil src (s_span s), docs) ->
  exists s', strlit_of t = Some s' /\ sn_strlit s' = sn_strlit s /\ slice src' (s_span s') = slice src (s_span s).
Proof.
  intros (txt & Hs & Hu) HR. pose proof (R_text _ _ _ _ HR) as Ht. pose proof (R_acc _ _ HR) as Ha.
  unfold slice_or_nil in Ht. rewrite Hs in Ht. unfold strlit_of. rewrite Ht, Hu.
  eexists. split; [reflexivity|]. split; [reflexivity|]. cbn [s_span]. rewrite Ha, Hs. now f_equal.
Qed.

Lemma version_of_text t1 t2 s v : version_of t1 s = inl v -> version_of t2 s = inl v.
Proof.
  unfold version_of. destruct (find_char c_atsign s); [|auto].
  destruct (parse_version _); [auto|discriminate].
Qed.

Lemma leaf_package_name p t docs :
  wf_package_name src p -> R t (TPackageName, slice_or_nil src (pn_span p), docs) ->
  exists p', package_name_of t = LeafOk p' /\ sn_package_name p' = sn_package_name p /\
             slice src' (pn_span p') = slice src (pn_span p).
Proof.
  intros (txt & Hs & Hp) HR. pose proof (R_text _ _ _ _ HR) as Ht. pose proof (R_acc _ _ HR) as Ha.
  unfold slice_or_nil in Ht. rewrite Hs in Ht. unfold package_name_of in *. cbn [ttext tok_at] in Hp.
  rewrite Ht. destruct (version_of (tok_at TPackageName (pn_span p) txt) txt) as [v|e] eqn:Ev; [|discriminate].
  rewrite (version_of_text _ t _ _ Ev). inversion Hp; subst. eexists. split; [reflexivity|].
  split; [reflexivity|]. cbn [pn_span tok_at tsp]. rewrite Ha, Hs. now f_equal.
Qed.

Lemma leaf_package_path p t docs :
  wf_package_path src p -> R t (TPackagePath, slice_or_nil src (pp_span p), docs) ->
  exists p', package_path_of t = LeafOk p' /\ sn_package_path p' = sn_package_path p /\
             slice src' (pp_span p') = slice src (pp_span p).
Proof.
  intros (txt & Hs & Hp) HR. pose proof (R_text _ _ _ _ HR) as Ht. pose proof (R_acc _ _ HR) as Ha.
  unfold slice_or_nil in Ht. rewrite Hs in Ht. unfold package_path_of in *. cbn [ttext tok_at] in Hp.
  rewrite Ht. destruct (find_char c_slash txt); [|discriminate].
  destruct (version_of (tok_at TPackagePath (pp_span p) txt) txt) as [v|e] eqn:Ev; [|discriminate].
  rewrite (version_of_text _ t _ _ Ev). inversion Hp; subst. eexists. split; [reflexivity|].
  split; [reflexivity|]. cbn [pp_span tok_at tsp]. rewrite Ha, Hs. now f_equal.
Qed.

(** A one-token leaf: the token's text is copied from the source, and [leaf] reads the node off it. *)
Lemma rt_leaf {A} k (leaf : rtoken -> A -> Prop) (sp : A -> span) snf x :
  (forall t docs, R t (k, slice_or_nil src (sp x), docs) ->
     exists x', leaf t x' /\ snf x' = snf x /\ slice src' (sp x') = slice src (sp x)) ->
  rt1 (fun ts r x => exists t, tok k ts r t /\ leaf t x) (fun x => [CSrc k (sp x)]) snf x.
Proof.
  intros Hl docs rest ts H. cbn [app catoks] in H. peel H as t ts0 HR.
  destruct (Hl _ _ HR) as (x' & H0 & H1 & H2).
  exists x', ts0. split; [exists t; split; [tokg|exact H0]|]. split; [exact H|]. split; [exact H1|].
  cbn [map res1]. now rewrite H2.
Qed.

Lemma rt_ident i : wf_ident src i -> rt1 g_id (fun i => [src_id i]) sn_ident i.
Proof.
  intros Hwf. apply (rt_leaf TIdent (fun t i => i = mk_ident t) id_span sn_ident).
  intros t docs HR. exists (mk_ident t). split; [reflexivity|exact (leaf_ident _ _ _ Hwf HR)].
Qed.

Lemma rt_strlit s : wf_strlit src s -> rt1 g_string (fun s => [src_str s]) sn_strlit s.
Proof.
  intros Hwf. exact (rt_leaf TString (fun t s => strlit_of t = Some s) s_span sn_strlit s (fun t docs => leaf_strlit s t docs Hwf)).
Qed.

Lemma rt_package_path p : wf_package_path src p -> rt1 g_package_path (fun p => [src_path p]) sn_package_path p.
Proof.
  intros Hwf. exact (rt_leaf TPackagePath (fun t p => package_path_of t = LeafOk p) pp_span sn_package_path p
                       (fun t docs => leaf_package_path p t docs Hwf)).
Qed.

Lemma rt_package_name p :
  wf_package_name src p -> rt1 g_package_name (fun p => [CSrc TPackageName (pn_span p)]) sn_package_name p.
Proof.
  intros Hwf. exact (rt_leaf TPackageName (fun t p => package_name_of t = LeafOk p) pn_span sn_package_name p
                       (fun t docs => leaf_package_name p t docs Hwf)).
Qed.

Lemma comma_sep_true_cons {A} (pr : A -> list cmd) x l : comma_sep pr true (x :: l) = pr x ++ comma_sep pr false l.
Proof. reflexivity. Qed.
Lemma comma_sep_false_cons {A} (pr : A -> list cmd) x l :
  comma_sep pr false (x :: l) = CTok TComma :: CSp :: pr x ++ comma_sep pr false l.
Proof. reflexivity. Qed.

(** [x, y, z] (no trailing comma) *)
Lemma rt_comma_sep {A} (G : drel A) (pr : A -> list cmd) (snf : A -> A) l :
  Forall (rt1d G pr snf) l -> rt1d (fun ts r l' => seplist G ts r (l', false)) (comma_sep pr true) (map snf) l.
Proof.
  destruct l as [|x l].
  { intros _ rest ts H. exists [], ts. split; [constructor|]. split; [exact H|]. split; reflexivity. }
  revert x. induction l as [|y l IH]; intros x Hall rest ts H; inversion Hall as [|? ? Hx Hl]; subst.
  - rewrite comma_sep_true_cons in H. cbn [comma_sep] in H. rewrite app_nil_r in H.
    destruct (Hx _ _ H) as (x' & r & Hg & Hr & Hsn & Hres).
    exists [x'], r. split; [now apply sl_one|]. split; [exact Hr|].
    split; [cbn; now rewrite Hsn|]. cbn [comma_sep app]. rewrite !app_nil_r. exact Hres.
  - rewrite comma_sep_true_cons, comma_sep_false_cons, <- app_assoc in H.
    destruct (Hx _ _ H) as (x' & r1 & Hg & Hr & Hsn & Hres). cbn [app catoks] in Hr. peel Hr as t ts0 HR.
    change (pr y ++ comma_sep pr false l) with (comma_sep pr true (y :: l)) in Hr.
    destruct (IH y Hl _ _ Hr) as (items' & r & Hg2 & Hr2 & Hsn2 & Hres2).
    destruct items' as [|y' l']; [discriminate Hsn2|].
    exists (x' :: y' :: l'), r. split; [eapply sl_cons; [exact Hg|eapply tok_intro; eauto|exact Hg2|discriminate]|].
    split; [exact Hr2|]. split; [cbn [map] in *; congruence|].
    rewrite !comma_sep_true_cons, !comma_sep_false_cons, !map_app. cbn [map]. rewrite !map_app.
    rewrite Hres. f_equal. f_equal. f_equal.
    rewrite !comma_sep_true_cons, !map_app in Hres2. exact Hres2.
Qed.

Lemma All_mp {A} (P Q : A -> Prop) l : Forall (fun x => P x -> Q x) l -> All P l -> Forall Q l.
Proof. induction 1 as [|x l Hx _ IH]; cbn; [constructor|]. intros [H1 H2]. constructor; auto. Qed.

Lemma All_Forall {A} (P Q : A -> Prop) l : (forall x, P x -> Q x) -> All P l -> Forall Q l.
Proof. intros H. apply All_mp, Forall_forall. auto. Qed.

(** [res_cbn] pushes [map (res1 _)] through the commands written out in a printer function; [fin_res]
    then closes the equation of resolved commands from those of the sub-nodes. *)
Ltac res_cbn :=
  cbn [map res1 src_id src_str src_path app mk_ident id_span nt_id nt_ty ft_params ft_results vc_docs vc_id vc_ty
               fd_docs fd_id fd_ty fl_docs fl_id ec_docs ec_id ui_id ui_as u_docs u_path u_items ii_from ii_to
               pd_package pd_targets doc_docs doc_directive doc_statements].
Ltac fin_res := res_cbn; repeat (progress rewrite ?map_app; res_cbn); congruence.

Lemma prim_of_prim_token p : prim_of_token (prim_token p) = Some p.
Proof. destruct p; reflexivity. Qed.

Lemma p_ty_tuple tys sp :
  p_ty (TyTuple tys sp) = CTok TTupleKeyword :: CTok TOpenAngle :: comma_sep p_ty true tys ++ [CTok TCloseAngle].
Proof.
  cbn [p_ty app]. do 3 f_equal. generalize true.
  induction tys as [|x l IH]; intros b; cbn [comma_sep]; [reflexivity|]. now rewrite IH.
Qed.

(** [kw<body>] *)
Lemma rt_angle {B} kw (Gb : drel B) prb snb (C : B -> span -> ty) b :
  rt1d Gb prb snb b ->
  (forall ts r1 r2 r3 r k o c b, tok kw ts r1 k -> tok TOpenAngle r1 r2 o -> Gb r2 r3 b -> tok TCloseAngle r3 r c ->
     g_type d ts r (C b (span_join (tsp k) (tsp c)))) ->
  (forall b sp, p_ty (C b sp) = CTok kw :: CTok TOpenAngle :: prb b ++ [CTok TCloseAngle]) ->
  (forall b sp, sn_ty (C b sp) = C (snb b) span0) ->
  forall sp, rt1d (g_type d) p_ty sn_ty (C b sp).
Proof.
  intros Hb HG Hpr Hsn sp rest ts H. rewrite Hpr in H. nrm H. peel H as k r0 Hk. peel H as oa r1 Hoa.
  destruct (Hb _ _ H) as (b' & r2 & Hg & Hr & Hsnb & Hres). nrm Hr. peel Hr as ca r3 Hca.
  exists (C b' (span_join (tsp k) (tsp ca))), r3. split; [eapply HG; [tokg|tokg|exact Hg|tokg]|].
  split; [exact Hr|]. split; [rewrite !Hsn; congruence|]. rewrite !Hpr. fin_res.
Qed.

Lemma rt_ty t : wf_ty src t -> rt1d (g_type d) p_ty sn_ty t.
Proof.
  induction t as [p sp|tys sp IH|t sp IH|t sp IH|ok err sp IHok IHerr|i sp|t sp IH|i] using ty_ind'; intros Hwf.
  - (* primitive *)
    intros rest ts H. cbn [p_ty] in H. nrm H. peel H as kw r0 Hkw. exists (TyPrim p (tsp kw)), r0.
    split; [eapply gt_prim; [reflexivity|]; rewrite (R_kind _ _ _ _ Hkw); apply prim_of_prim_token|].
    split; [exact H|]. split; reflexivity.
  - (* tuple *)
    intros rest ts H. destruct Hwf as [Hne Hall].
    rewrite p_ty_tuple in H. cbn [app catoks] in H. peel H as kw r0 Hkw. peel H as oa r1 Hoa. nrm H.
    destruct (rt_comma_sep _ _ _ tys (All_mp _ _ _ IH (proj1 (fix_All _ _) Hall)) _ _ H) as (tys' & r2 & Hg & Hr & Hsn & Hres).
    nrm Hr. peel Hr as ca r3 Hca.
    exists (TyTuple tys' (span_join (tsp kw) (tsp ca))), r3. split.
    { eapply gt_tuple; [tokg|tokg|apply seplist_g_types; exact Hg| |tokg].
      intros ->. destruct tys; [congruence|discriminate Hsn]. }
    split; [exact Hr|]. split; [cbn [sn_ty]; now rewrite Hsn|].
    rewrite !p_ty_tuple. cbn [map res1]. rewrite !map_app. now rewrite Hres.
  - exact (rt_angle TListKeyword _ _ _ TyList t (IH Hwf) (gt_list d) (fun _ _ => eq_refl) (fun _ _ => eq_refl) sp).
  - exact (rt_angle TOptionKeyword _ _ _ TyOption t (IH Hwf) (gt_option d) (fun _ _ => eq_refl) (fun _ _ => eq_refl) sp).
  - (* result *)
    destruct Hwf as [Hwok Hwerr]. destruct ok as [ok|], err as [err|]; cbn [optP] in *.
    + intros rest ts H. cbn [p_ty] in H. nrm H. peel H as kw r0 Hkw. peel H as oa r1 Hoa. nrm H.
      destruct (IHok Hwok _ _ H) as (ok' & r2 & Hg & Hr & Hsn & Hres). nrm Hr. peel Hr as cm r3 Hcm.
      destruct (IHerr Hwerr _ _ Hr) as (err' & r4 & Hg2 & Hr2 & Hsn2 & Hres2). nrm Hr2.
      peel Hr2 as ca r5 Hca.
      exists (TyResult (Some ok') (Some err') (span_join (tsp kw) (tsp ca))), r5.
      split; [eapply gt_result_both; [tokg|tokg|exact Hg|tokg|exact Hg2|tokg]|].
      split; [exact Hr2|]. split; [cbn [sn_ty option_map]; now rewrite Hsn, Hsn2|]. cbn [p_ty]. fin_res.
    + exact (rt_angle TResultKeyword _ _ _ (fun t => TyResult (Some t) None) ok (IHok Hwok) (gt_result_ok d)
               (fun _ _ => eq_refl) (fun _ _ => eq_refl) sp).
    + intros rest ts H. cbn [p_ty] in H. nrm H.
      peel H as kw r0 Hkw. peel H as oa r1 Hoa. peel H as us r2 Hus. peel H as cm r3 Hcm. nrm H.
      destruct (IHerr Hwerr _ _ H) as (err' & r4 & Hg & Hr & Hsn & Hres). nrm Hr. peel Hr as ca r5 Hca.
      exists (TyResult None (Some err') (span_join (tsp kw) (tsp ca))), r5.
      split; [eapply gt_result_err; [tokg|tokg|tokg|tokg|exact Hg|tokg]|].
      split; [exact Hr|]. split; [cbn [sn_ty option_map]; now rewrite Hsn|]. cbn [p_ty]. fin_res.
    + intros rest ts H. cbn [p_ty] in H. nrm H. peel H as kw r0 Hkw.
      exists (TyResult None None (tsp kw)), r0. split; [eapply gt_result; tokg|].
      split; [exact H|]. split; reflexivity.
  - exact (rt_angle TBorrowKeyword _ _ _ TyBorrow i (rt_ident i Hwf []) (gt_borrow d) (fun _ _ => eq_refl) (fun _ _ => eq_refl) sp).
  - (* borrow<type>: not a tree of the implementation *)
    destruct Hwf.
  - apply (rt1d_wrap TyIdent i (rt_ident i Hwf []) (gt_id d)); reflexivity.
Qed.

(** [ kw x]?, as the printer writes an optional clause after an identifier or a name. *)
Definition p_opt {A} (k : token) (pr : A -> list cmd) (o : option A) : list cmd :=
  match o with Some x => [CSp; CTok k; CSp] ++ pr x | None => [] end.

Lemma rt_opt {A} k (G : drel A) pr snf (wf : A -> Prop) o :
  (forall x, wf x -> rt1d G pr snf x) -> match o with Some x => wf x | None => True end ->
  rt1d (opt k G) (p_opt k pr) (option_map snf) o.
Proof.
  intros HG Hwf rest ts H. destruct o as [x|]; cbn [p_opt] in H.
  - nrm H. peel H as kt r0 Hk. destruct (HG x Hwf _ _ H) as (x' & r & Hg & Hr & Hsn & Hres).
    exists (Some x'), r. split; [eapply opt_some; [tokg|exact Hg]|]. split; [exact Hr|].
    split; [cbn [option_map]; congruence|]. cbn [p_opt]. fin_res.
  - exists None, ts. split; [constructor|]. split; [exact H|]. split; reflexivity.
Qed.

Lemma rt_named_type n : wf_named_type src n -> rt1d (g_named_type d) p_named_type sn_named_type n.
Proof.
  destruct n as [i t]. intros [Hi Ht] rest ts H. cbn [nt_id nt_ty] in *. unfold p_named_type in H. cbn [nt_id nt_ty] in H. nrm H.
  peel H as it r0 Hit. peel H as co r1 Hco.
  destruct (leaf_ident _ _ _ Hi Hit) as [H1 H2].
  destruct (rt_ty _ Ht _ _ H) as (t' & r2 & Hg & Hr & Hsn & Hres).
  exists {| nt_id := mk_ident it; nt_ty := t' |}, r2. split.
  { exists (map LTok (co :: r1)), (map LTok r1), (mk_ident it), co, t'.
    split; [eapply g_id_intro; eauto|]. split; [tokg|]. split; [exact Hg|reflexivity]. }
  split; [exact Hr|]. split; [unfold sn_named_type; cbn; congruence|]. unfold p_named_type. fin_res.
Qed.

Lemma rt_params ps :
  All (wf_named_type src) ps -> rt1d (g_params d) p_named_types (map sn_named_type) ps.
Proof.
  intros Hps. apply (rt1d_wrap (fun l => l) ps (rt_comma_sep _ _ _ ps (All_Forall _ _ _ rt_named_type Hps))); [|reflexivity..].
  intros ts r l Hg. exists false. exact Hg.
Qed.

Lemma rt_func_type f : wf_func_type src f -> rt1d (g_func_type d) p_func_type sn_func_type f.
Proof.
  destruct f as [ps res]. intros [Hps Hres] rest ts H. cbn [ft_params ft_results] in *.
  unfold p_func_type in H. cbn [ft_params ft_results] in H. nrm H.
  peel H as kw r0 Hkw. peel H as op r1 Hop.
  destruct (rt_params _ Hps _ _ H) as (ps' & r2 & Hg & Hr & Hsn & Hrs). nrm Hr. peel Hr as cp r3 Hcp.
  destruct res as [|t|rs]; [| |destruct Hres].
  - (* no results *)
    cbn [app] in Hr.
    exists {| ft_params := ps'; ft_results := RLEmpty |}, r3. split.
    { do 4 eexists. exists kw, op, cp, ps', None.
      split; [tokg|]. split; [tokg|]. split; [exact Hg|]. split; [tokg|]. split; [constructor|reflexivity]. }
    split; [exact Hr|]. split; [unfold sn_func_type; cbn; congruence|]. unfold p_func_type. fin_res.
  - (* scalar result *)
    nrm Hr. peel Hr as ar r4 Har.
    destruct (rt_ty _ Hres _ _ Hr) as (t' & r5 & Hg2 & Hr2 & Hsn2 & Hrs2).
    exists {| ft_params := ps'; ft_results := RLScalar t' |}, r5. split.
    { do 4 eexists. exists kw, op, cp, ps', (Some (RLScalar t')).
      split; [tokg|]. split; [tokg|]. split; [exact Hg|]. split; [tokg|].
      split; [eapply opt_some; [tokg|apply gr_scalar; exact Hg2]|reflexivity]. }
    split; [exact Hr2|]. split; [unfold sn_func_type; cbn; congruence|]. unfold p_func_type. fin_res.
Qed.

(** The doc lines the repaired printer writes = the specification's normal form. *)
Definition printed_lines (ds : list doc) : list str := flat_map (fun dc => doc_lines_of fx (fst dc)) ds.

Lemma printed_lines_norm ds : printed_lines ds = doc_norm ds.
Proof. unfold printed_lines, doc_norm. apply flat_map_ext. intros a. apply doc_lines_repaired. Qed.

Lemma p_docs_flat ds : p_docs fx ds = map CDoc (printed_lines ds).
Proof.
  unfold p_docs, printed_lines. induction ds as [|a ds IH]; [reflexivity|].
  cbn [flat_map]. now rewrite map_app, IH.
Qed.

Lemma catoks_docs ds docs rest :
  catoks src docs (p_docs fx ds ++ rest) = catoks src (docs ++ map doc_of_line (printed_lines ds)) rest.
Proof.
  rewrite p_docs_flat. generalize (printed_lines ds) as L. intros L. revert docs.
  induction L as [|l L IH]; intros docs; cbn [map app catoks]; [now rewrite app_nil_r|].
  rewrite IH, <- app_assoc. reflexivity.
Qed.

Lemma res1_docs a b ds : map (res1 a) (p_docs fx ds) = map (res1 b) (p_docs fx ds).
Proof. rewrite p_docs_flat. induction (printed_lines ds) as [|l L IH]; [reflexivity|]. cbn. now rewrite IH. Qed.

Lemma doc_norm_map ds : doc_norm ds = flat_map doc_norm_text (map fst ds).
Proof. unfold doc_norm. induction ds as [|a ds IH]; [reflexivity|]. cbn. now rewrite IH. Qed.

(** The docs a token carries after the printed doc lines of [ds] are [ds] again, up to [sn_docs]. *)
Lemma docs_back t0 k txt ds :
  R t0 (k, txt, map doc_of_line (printed_lines ds)) ->
  sn_docs (tdocs t0) = sn_docs ds /\ map (res1 src') (p_docs fx (tdocs t0)) = map (res1 src) (p_docs fx ds).
Proof.
  intros HR. apply R_docs in HR.
  assert (E : doc_norm (tdocs t0) = doc_norm ds).
  { rewrite (doc_norm_map (tdocs t0)), HR, printed_lines_norm. rewrite (doc_norm_map ds) at 1.
    rewrite doc_norm_lines_fix; [symmetry; apply doc_norm_map|apply doc_norm_flat_elems]. }
  split; [unfold sn_docs; now rewrite E|]. rewrite !p_docs_flat, !printed_lines_norm, E, <- printed_lines_norm, <- p_docs_flat.
  apply res1_docs.
Qed.

(** [x, y, z,] -- every item followed by a comma (and a line feed) *)
Lemma rt_comma_lines {A} (G : drel A) (pr : A -> list cmd) (snf : A -> A) l :
  Forall (rt1d G pr snf) l -> l <> [] ->
  rt1d (fun ts r l' => seplist G ts r (l', true)) (comma_lines pr) (map snf) l.
Proof.
  unfold comma_lines. induction 1 as [|x l Hx Hl IH]; intros Hne rest ts H; [congruence|].
  cbn [flat_map] in H. nrm H.
  destruct (Hx _ _ H) as (x' & r1 & Hg & Hr & Hsn & Hres). nrm Hr. peel Hr as cm r2 Hcm.
  destruct l as [|y l].
  - exists [x'], r2. split; [eapply sl_trail; [exact Hg|tokg]|]. split; [exact Hr|].
    split; [cbn; now rewrite Hsn|]. cbn [flat_map]. rewrite !app_nil_r, !map_app. now rewrite Hres.
  - destruct (IH ltac:(discriminate) _ _ Hr) as (items' & r & Hg2 & Hr2 & Hsn2 & Hres2).
    destruct items' as [|y' l']; [discriminate Hsn2|].
    exists (x' :: y' :: l'), r. split; [eapply sl_cons; [exact Hg|tokg|exact Hg2|discriminate]|].
    split; [exact Hr2|]. split; [cbn [map] in *; congruence|].
    cbn [flat_map] in *. rewrite !map_app in *. rewrite Hres, Hres2. reflexivity.
Qed.

(** items separated by blank lines *)
Lemma rt_spaced {A} (G : drel A) (pr : A -> list cmd) (snf : A -> A) l :
  Forall (rt1d G pr snf) l -> forall first, rt1d (many G) (spaced pr first) (map snf) l.
Proof.
  induction 1 as [|x l Hx Hl IH]; intros first rest ts H.
  - exists [], ts. split; [constructor|]. split; [exact H|]. split; reflexivity.
  - cbn [spaced] in H. assert (H' : Forall2 R ts (catoks src [] (pr x ++ CNewline :: spaced pr false l ++ rest))).
    { destruct first; nrm H; exact H. }
    destruct (Hx _ _ H') as (x' & r1 & Hg & Hr & Hsn & Hres). nrm Hr.
    destruct (IH false _ _ Hr) as (items' & r & Hg2 & Hr2 & Hsn2 & Hres2).
    exists (x' :: items'), r. split; [econstructor; eauto|]. split; [exact Hr2|].
    split; [cbn [map]; now rewrite Hsn, Hsn2|]. cbn [spaced]. rewrite !map_app. rewrite Hres, Hres2. destruct first; reflexivity.
Qed.

Ltac dstep H := rewrite catoks_docs in H; cbn [app catoks src_id src_str src_path] in H.

Lemma rt_variant_case c :
  (wf_ident src (vc_id c) /\ match vc_ty c with Some t => wf_ty src t | None => True end) ->
  rt1d (g_variant_case d) (fun c => CIndent :: p_variant_case fx c) sn_variant_case c.
Proof.
  destruct c as [dcs i oty]. cbn [vc_id vc_ty]. intros [Hi Hty] rest ts H.
  unfold p_variant_case in H. cbn [vc_docs vc_id vc_ty] in H. nrm H. dstep H. peel H as it r0 Hit.
  destruct (leaf_ident _ _ _ Hi Hit) as [H1 H2]. destruct (docs_back _ _ _ _ Hit) as [D1 D2].
  destruct oty as [t|].
  - nrm H. peel H as op r1 Hop. destruct (rt_ty _ Hty _ _ H) as (t' & r2 & Hg & Hr & Hsn & Hres).
    nrm Hr. peel Hr as cp r3 Hcp.
    exists {| vc_docs := tdocs it; vc_id := mk_ident it; vc_ty := Some t' |}, r3. split.
    { exists (map LTok (op :: r1)), (mk_ident it), (Some t'). split; [eapply g_id_intro; eauto|]. split; [|reflexivity].
      eapply opt_some; [tokg|]. do 2 eexists. split; [exact Hg|tokg]. }
    split; [exact Hr|]. split; [unfold sn_variant_case; cbn [vc_docs vc_id vc_ty option_map]; congruence|].
    unfold p_variant_case. fin_res.
  - nrm H.
    exists {| vc_docs := tdocs it; vc_id := mk_ident it; vc_ty := None |}, r0. split.
    { exists (map LTok r0), (mk_ident it), None. split; [eapply g_id_intro; eauto|]. split; [constructor|reflexivity]. }
    split; [exact H|]. split; [unfold sn_variant_case; cbn [vc_docs vc_id vc_ty option_map]; congruence|].
    unfold p_variant_case. fin_res.
Qed.

Lemma rt_field f :
  (wf_ident src (fd_id f) /\ wf_ty src (fd_ty f)) -> rt1d (g_field d) (p_field fx) sn_field f.
Proof.
  destruct f as [dcs i t]. cbn [fd_id fd_ty]. intros [Hi Ht] rest ts H.
  unfold p_field in H. cbn [fd_docs fd_id fd_ty] in H. nrm H. dstep H. peel H as it r0 Hit. peel H as co r1 Hco.
  destruct (leaf_ident _ _ _ Hi Hit) as [H1 H2]. destruct (docs_back _ _ _ _ Hit) as [D1 D2].
  destruct (rt_ty _ Ht _ _ H) as (t' & r2 & Hg & Hr & Hsn & Hres).
  exists {| fd_docs := tdocs it; fd_id := mk_ident it; fd_ty := t' |}, r2. split.
  { exists {| nt_id := mk_ident it; nt_ty := t' |}. split; [|reflexivity].
    exists (map LTok (co :: r1)), (map LTok r1), (mk_ident it), co, t'.
    split; [eapply g_id_intro; eauto|]. split; [tokg|]. split; [exact Hg|reflexivity]. }
  split; [exact Hr|]. split; [unfold sn_field; cbn [fd_docs fd_id fd_ty]; congruence|]. unfold p_field. fin_res.
Qed.

Lemma rt_flag f : wf_ident src (fl_id f) -> rt1d g_flag (p_flag fx) sn_flag f.
Proof.
  destruct f as [dcs i]. cbn [fl_id]. intros Hi rest ts H.
  unfold p_flag in H. cbn [fl_docs fl_id] in H. nrm H. dstep H. peel H as it r0 Hit.
  destruct (leaf_ident _ _ _ Hi Hit) as [H1 H2]. destruct (docs_back _ _ _ _ Hit) as [D1 D2].
  exists {| fl_docs := tdocs it; fl_id := mk_ident it |}, r0. split.
  { exists (mk_ident it). split; [eapply g_id_intro; eauto|reflexivity]. }
  split; [exact H|]. split; [unfold sn_flag; cbn [fl_docs fl_id]; congruence|]. unfold p_flag. fin_res.
Qed.

Lemma rt_enum_case c : wf_ident src (ec_id c) -> rt1d g_enum_case (p_enum_case fx) sn_enum_case c.
Proof.
  destruct c as [dcs i]. cbn [ec_id]. intros Hi rest ts H.
  unfold p_enum_case in H. cbn [ec_docs ec_id] in H. nrm H. dstep H. peel H as it r0 Hit.
  destruct (leaf_ident _ _ _ Hi Hit) as [H1 H2]. destruct (docs_back _ _ _ _ Hit) as [D1 D2].
  exists {| ec_docs := tdocs it; ec_id := mk_ident it |}, r0. split.
  { exists (mk_ident it). split; [eapply g_id_intro; eauto|reflexivity]. }
  split; [exact H|]. split; [unfold sn_enum_case; cbn [ec_docs ec_id]; congruence|]. unfold p_enum_case. fin_res.
Qed.

(** [kw id { item, item, }]: one of variant, record, flags, enum. *)
Lemma rt_braced {A} kwk (item : drel A) (pr : A -> list cmd) (snf : A -> A)
    (mk : list doc -> ident -> list A -> item_type_decl) dcs i l :
  (forall ts r x, g_braced kwk item mk ts r x -> g_type_decl d ts r x) ->
  (forall dcs i l, p_item_type_decl fx (mk dcs i l) = p_block fx dcs kwk i (comma_lines pr l)) ->
  (forall dcs i l, sn_item_type_decl (mk dcs i l) = mk (sn_docs dcs) (sn_ident i) (map snf l)) ->
  wf_ident src i -> l <> [] -> Forall (rt1d item pr snf) l ->
  rt1d (g_type_decl d) (p_item_type_decl fx) sn_item_type_decl (mk dcs i l).
Proof.
  intros HG Hpr Hsnf Hi Hne Hall rest ts H. rewrite Hpr in H. unfold p_block in H. nrm H. dstep H.
  peel H as k0 r0 Hk0. peel H as it r1 Hit. peel H as ob r2 Hob.
  destruct (leaf_ident _ _ _ Hi Hit) as [H1 H2]. destruct (docs_back _ _ _ _ Hk0) as [D1 D2].
  destruct (rt_comma_lines item pr snf l Hall Hne _ _ H) as (l' & r3 & Hg & Hr & Hsn & Hres).
  nrm Hr. peel Hr as cb r4 Hcb.
  exists (mk (tdocs k0) (mk_ident it) l'), r4. split.
  { apply HG.
    exists (map LTok (it :: ob :: r2)), (map LTok (ob :: r2)), (map LTok r2), (map LTok (cb :: r4)), k0, (mk_ident it), ob, cb, l', true.
    split; [tokg|]. split; [eapply g_id_intro; eauto|]. split; [tokg|]. split; [exact Hg|]. split; [intros ->; destruct l; [congruence|discriminate Hsn]|].
    split; [tokg|reflexivity]. }
  split; [exact Hr|]. split; [rewrite !Hsnf; congruence|]. rewrite !Hpr. unfold p_block. fin_res.
Qed.

Lemma rt_type_alias dcs i k :
  wf_ident src i -> match k with TAFunc f => wf_func_type src f | TAType t => wf_ty src t end ->
  rt1d (g_type_decl d) (p_item_type_decl fx) sn_item_type_decl (DAlias dcs i k).
Proof.
  intros Hi Hk rest ts H. cbn [p_item_type_decl] in H. nrm H. dstep H.
  peel H as k0 r0 Hk0. peel H as it r1 Hit. peel H as eq r2 Heq.
  destruct (leaf_ident _ _ _ Hi Hit) as [H1 H2]. destruct (docs_back _ _ _ _ Hk0) as [D1 D2].
  destruct k as [f|t].
  - destruct (rt_func_type _ Hk _ _ H) as (f' & r3 & Hg & Hr & Hsn & Hres). nrm Hr. peel Hr as sc r4 Hsc.
    exists (DAlias (tdocs k0) (mk_ident it) (TAFunc f')), r4.
    split; [eapply gd_alias_func; [tokg|eapply g_id_intro; eauto|tokg|exact Hg|tokg]|].
    split; [exact Hr|]. split; [cbn [sn_item_type_decl]; congruence|]. cbn [p_item_type_decl]. fin_res.
  - destruct (rt_ty _ Hk _ _ H) as (t' & r3 & Hg & Hr & Hsn & Hres). nrm Hr. peel Hr as sc r4 Hsc.
    exists (DAlias (tdocs k0) (mk_ident it) (TAType t')), r4.
    split; [eapply gd_alias_type; [tokg|eapply g_id_intro; eauto|tokg|exact Hg|tokg]|].
    split; [exact Hr|]. split; [cbn [sn_item_type_decl]; congruence|]. cbn [p_item_type_decl]. fin_res.
Qed.

(** type-decl: every [item_type_decl] except resources *)
Lemma rt_type_decl x :
  is_resource x = false -> wf_item_type_decl src x ->
  rt1d (g_type_decl d) (p_item_type_decl fx) sn_item_type_decl x.
Proof.
  destruct x as [dcs i ms|dcs i cs|dcs i fs|dcs i fs|dcs i cs|dcs i k]; intros Hnr Hwf; [discriminate| | | | |].
  - destruct Hwf as (Hi & Hne & Hall).
    exact (rt_braced TVariantKeyword _ (fun c => CIndent :: p_variant_case fx c) sn_variant_case DVariant dcs i cs (gd_variant d)
             (fun _ _ _ => eq_refl) (fun _ _ _ => eq_refl) Hi Hne (All_Forall _ _ _ rt_variant_case Hall)).
  - destruct Hwf as (Hi & Hne & Hall).
    exact (rt_braced TRecordKeyword _ (p_field fx) sn_field DRecord dcs i fs (gd_record d)
             (fun _ _ _ => eq_refl) (fun _ _ _ => eq_refl) Hi Hne (All_Forall _ _ _ rt_field Hall)).
  - destruct Hwf as (Hi & Hne & Hall).
    exact (rt_braced TFlagsKeyword _ (p_flag fx) sn_flag DFlags dcs i fs (gd_flags d)
             (fun _ _ _ => eq_refl) (fun _ _ _ => eq_refl) Hi Hne (All_Forall _ _ _ rt_flag Hall)).
  - destruct Hwf as (Hi & Hne & Hall).
    exact (rt_braced TEnumKeyword _ (p_enum_case fx) sn_enum_case DEnum dcs i cs (gd_enum d)
             (fun _ _ _ => eq_refl) (fun _ _ _ => eq_refl) Hi Hne (All_Forall _ _ _ rt_enum_case Hall)).
  - destruct Hwf as [Hi Hk]. exact (rt_type_alias dcs i k Hi Hk).
Qed.

Lemma rt_resource_method m :
  wf_resource_method src m -> rt1d (g_resource_item d) (p_resource_method fx) sn_resource_method m.
Proof.
  destruct m as [dcs sp ps|dcs i st f]; intros Hwf rest ts H; cbn [p_resource_method] in H; nrm H; dstep H.
  - peel H as k0 r0 Hk0. peel H as op r1 Hop. destruct (docs_back _ _ _ _ Hk0) as [D1 D2].
    destruct (rt_params _ Hwf _ _ H) as (ps' & r2 & Hg & Hr & Hsn & Hres). nrm Hr.
    peel Hr as cp r3 Hcp. peel Hr as sc r4 Hsc.
    exists (RMConstructor (tdocs k0) (tsp k0) ps'), r4.
    split; [eapply gri_constructor; [tokg|tokg|exact Hg|tokg|tokg]|].
    split; [exact Hr|]. split; [cbn [sn_resource_method]; congruence|]. cbn [p_resource_method]. fin_res.
  - destruct Hwf as [Hi Hf]. peel H as it r0 Hit. peel H as co r1 Hco.
    destruct (leaf_ident _ _ _ Hi Hit) as [H1 H2]. destruct (docs_back _ _ _ _ Hit) as [D1 D2].
    destruct st.
    + nrm H. peel H as stk r2 Hstk.
      destruct (rt_func_type _ Hf _ _ H) as (f' & r3 & Hg & Hr & Hsn & Hres). nrm Hr. peel Hr as sc r4 Hsc.
      exists (RMMethod (tdocs it) (mk_ident it) true f'), r4. split.
      { eapply (gri_method d (map LTok (it :: co :: stk :: r2)) _ _ _ _ _ (mk_ident it) co (Some tt) f' sc);
          [eapply g_id_intro; eauto|tokg|eapply opt_some; [tokg|reflexivity]|exact Hg|tokg]. }
      split; [exact Hr|]. split; [cbn [sn_resource_method]; congruence|]. cbn [p_resource_method]. fin_res.
    + nrm H.
      destruct (rt_func_type _ Hf _ _ H) as (f' & r3 & Hg & Hr & Hsn & Hres). nrm Hr. peel Hr as sc r4 Hsc.
      exists (RMMethod (tdocs it) (mk_ident it) false f'), r4. split.
      { eapply (gri_method d (map LTok (it :: co :: r1)) _ _ _ _ _ (mk_ident it) co None f' sc);
          [eapply g_id_intro; eauto|tokg|constructor|exact Hg|tokg]. }
      split; [exact Hr|]. split; [cbn [sn_resource_method]; congruence|]. cbn [p_resource_method]. fin_res.
Qed.

Lemma rt_item_type_decl x :
  wf_item_type_decl src x -> rt1d (g_item_type_decl d) (p_item_type_decl fx) sn_item_type_decl x.
Proof.
  intros Hwf. destruct (is_resource x) eqn:E.
  - destruct x as [dcs i ms| | | | |]; try discriminate E. destruct Hwf as [Hi Hms]. intros rest ts H.
    cbn [p_item_type_decl] in H. unfold p_block in H. nrm H. dstep H.
    peel H as k0 r0 Hk0. peel H as it r1 Hit. peel H as ob r2 Hob.
    destruct (leaf_ident _ _ _ Hi Hit) as [H1 H2]. destruct (docs_back _ _ _ _ Hk0) as [D1 D2].
    destruct (rt_spaced (g_resource_item d) (p_resource_method fx) sn_resource_method ms
                (All_Forall _ _ _ rt_resource_method Hms) true _ _ H) as (ms' & r3 & Hg & Hr & Hsn & Hres).
    nrm Hr. peel Hr as cb r4 Hcb.
    exists (DResource (tdocs k0) (mk_ident it) ms'), r4.
    split; [eapply gi_resource_body; [tokg|eapply g_id_intro; eauto|tokg|exact Hg|tokg]|].
    split; [exact Hr|]. split; [cbn [sn_item_type_decl]; congruence|].
    cbn [p_item_type_decl]. unfold p_block. fin_res.
  - apply (rt1d_wrap (fun y => y) x (rt_type_decl x E Hwf) (gi_type_decl d)); reflexivity.
Qed.

Lemma rt_use_item u :
  (wf_ident src (ui_id u) /\ match ui_as u with Some a => wf_ident src a | None => True end) ->
  rt1d g_use_item p_use_item sn_use_item u.
Proof.
  destruct u as [i oa]. cbn [ui_id ui_as]. intros [Hi Ha] rest ts H.
  unfold p_use_item in H. cbn [ui_id ui_as] in H. nrm H. peel H as it r0 Hit.
  destruct (leaf_ident _ _ _ Hi Hit) as [H1 H2].
  destruct (rt_opt TAsKeyword g_id (fun i => [src_id i]) sn_ident _ oa (fun i Hw => rt_ident i Hw []) Ha _ _ H)
    as (oa' & r & Hgo & Hr & Hsno & Hreso). unfold p_opt in Hreso. cbn [app src_id] in Hreso.
  exists {| ui_id := mk_ident it; ui_as := oa' |}, r. split.
  { exists (map LTok r0), (mk_ident it), oa'. split; [eapply g_id_intro; eauto|]. split; [exact Hgo|reflexivity]. }
  split; [exact Hr|]. split; [unfold sn_use_item; cbn [ui_id ui_as]; congruence|]. unfold p_use_item. fin_res.
Qed.

Lemma rt_use_path p :
  match p with UPPackage q => wf_package_path src q | UPIdent i => wf_ident src i end ->
  rt1d g_use_path p_use_path sn_use_path p.
Proof.
  destruct p as [q|i]; intros Hwf.
  - apply (rt1d_wrap UPPackage q (rt_package_path q Hwf []) gup_package); reflexivity.
  - apply (rt1d_wrap UPIdent i (rt_ident i Hwf []) gup_id); reflexivity.
Qed.

Lemma rt_use u : wf_use src u -> rt1d (g_use d) (p_use fx) sn_use u.
Proof.
  destruct u as [dcs pth items]. intros [Hp Hitems] rest ts H. cbn [u_path u_items] in *.
  unfold p_use in H. cbn [u_docs u_path u_items] in H. nrm H. dstep H. peel H as k0 r0 Hk0.
  destruct (docs_back _ _ _ _ Hk0) as [D1 D2].
  destruct (rt_use_path _ Hp _ _ H) as (pth' & r1 & Hgp & Hr & Hsnp & Hresp). nrm Hr. peel Hr as dt r2 Hdt. peel Hr as ob r3 Hob.
  destruct (rt_comma_sep g_use_item p_use_item sn_use_item items (All_Forall _ _ _ rt_use_item Hitems) _ _ Hr)
    as (items' & r4 & Hg & Hr2 & Hsn & Hres).
  nrm Hr2. peel Hr2 as cb r5 Hcb. peel Hr2 as sc r6 Hsc.
  exists {| u_docs := tdocs k0; u_path := pth'; u_items := items' |}, r6. split.
  { do 6 eexists. exists k0, pth', dt, ob, cb, sc, items', false.
    split; [tokg|]. split; [exact Hgp|]. split; [tokg|]. split; [tokg|]. split; [exact Hg|].
    split; [right; reflexivity|]. split; [tokg|]. split; [tokg|reflexivity]. }
  split; [exact Hr2|]. split; [unfold sn_use; cbn [u_docs u_path u_items]; congruence|]. unfold p_use. fin_res.
Qed.

Lemma rt_func_type_ref t :
  match t with FRFunc f => wf_func_type src f | FRIdent j => wf_ident src j end ->
  rt1d (g_func_type_ref d) p_func_type_ref sn_func_type_ref t.
Proof.
  destruct t as [f|j]; intros Hwf.
  - apply (rt1d_wrap FRFunc f (rt_func_type f Hwf) (gfr_func d)); reflexivity.
  - apply (rt1d_wrap FRIdent j (rt_ident j Hwf []) (gfr_id d)); reflexivity.
Qed.

Lemma rt_interface_item it : wf_interface_item src it -> rt1d (g_interface_item d) (p_interface_item fx) sn_interface_item it.
Proof.
  destruct it as [u|x|dcs i t]; intros Hwf.
  - apply (rt1d_wrap IIUse u (rt_use u Hwf) (gii_use d)); reflexivity.
  - apply (rt1d_wrap IIType x (rt_item_type_decl x Hwf) (gii_type d)); reflexivity.
  - intros rest ts H. cbn [p_interface_item] in H. destruct Hwf as [Hi Ht]. nrm H. dstep H. peel H as itk r0 Hit. peel H as co r1 Hco.
    destruct (leaf_ident _ _ _ Hi Hit) as [H1 H2]. destruct (docs_back _ _ _ _ Hit) as [D1 D2].
    destruct (rt_func_type_ref _ Ht _ _ H) as (t' & r2 & Hg & Hr & Hsn & Hres). nrm Hr. peel Hr as sc r3 Hsc.
    exists (IIExport (tdocs itk) (mk_ident itk) t'), r3.
    split; [eapply gii_export; [eapply g_id_intro; eauto|tokg|exact Hg|tokg]|].
    split; [exact Hr|]. split; [cbn [sn_interface_item]; congruence|]. cbn [p_interface_item]. fin_res.
Qed.

(** [{ item* }] *)
Lemma rt_interface_body items :
  All (wf_interface_item src) items ->
  forall rest ts,
    Forall2 R ts (catoks src [] (CTok TOpenBrace :: p_items (p_interface_item fx) items ++ rest)) ->
    exists items' r, g_interface_body d (map LTok ts) (map LTok r) items' /\ Forall2 R r (catoks src [] rest) /\
                     map sn_interface_item items' = map sn_interface_item items /\
                     map (res1 src') (p_items (p_interface_item fx) items') =
                     map (res1 src) (p_items (p_interface_item fx) items).
Proof.
  intros Hall rest ts H. unfold p_items in H. nrm H. peel H as ob r0 Hob.
  destruct (rt_spaced (g_interface_item d) (p_interface_item fx) sn_interface_item items
              (All_Forall _ _ _ rt_interface_item Hall) true _ _ H) as (items' & r1 & Hg & Hr & Hsn & Hres).
  nrm Hr. peel Hr as cb r2 Hcb.
  exists items', r2. split; [do 2 eexists; exists ob, cb; split; [tokg|]; split; [exact Hg|tokg]|].
  split; [exact Hr|]. split; [exact Hsn|]. unfold p_items. fin_res.
Qed.

Lemma rt_inline_interface items :
  All (wf_interface_item src) items ->
  rt1d (g_inline_interface d) (p_inline_interface fx) (map sn_interface_item) items.
Proof.
  intros Hall rest ts H. unfold p_inline_interface in H. nrm H. peel H as k0 r0 Hk0.
  destruct (rt_interface_body _ Hall _ _ H) as (items' & r & Hg & Hr & Hsn & Hres).
  exists items', r. split; [do 1 eexists; exists k0; split; [tokg|exact Hg]|]. split; [exact Hr|]. split; [exact Hsn|].
  unfold p_inline_interface. fin_res.
Qed.

Lemma rt_extern_type t : wf_extern_type src t -> rt1d (g_extern_type d) (p_extern_type fx) sn_extern_type t.
Proof.
  destruct t as [i|f|items]; intros Hwf.
  - apply (rt1d_wrap ETIdent i (rt_ident i Hwf []) (get_id d)); reflexivity.
  - apply (rt1d_wrap ETFunc f (rt_func_type f Hwf) (get_func d)); reflexivity.
  - apply (rt1d_wrap ETInterface items (rt_inline_interface items Hwf) (get_interface d)); reflexivity.
Qed.

Lemma rt_world_item_path p :
  wf_world_item_path src p -> rt1d (g_world_item_path d) (p_world_item_path fx) sn_world_item_path p.
Proof.
  destruct p as [i t|pp|i]; intros Hwf.
  - intros rest ts H. cbn [p_world_item_path] in H. nrm H.
    destruct Hwf as [Hi Ht]. peel H as it r0 Hit. peel H as co r1 Hco.
    destruct (leaf_ident _ _ _ Hi Hit) as [E1 E2].
    destruct (rt_extern_type _ Ht _ _ H) as (t' & r & Hg & Hr & Hsn & Hres).
    exists (WPNamed (mk_ident it) t'), r. split; [eapply gwp_named; [eapply g_id_intro; eauto|tokg|exact Hg]|].
    split; [exact Hr|]. split; [cbn [sn_world_item_path]; congruence|]. cbn [p_world_item_path]. fin_res.
  - apply (rt1d_wrap WPPackage pp (rt_package_path pp Hwf []) (gwp_package d)); reflexivity.
  - apply (rt1d_wrap WPIdent i (rt_ident i Hwf []) (gwp_id d)); reflexivity.
Qed.

Lemma rt_include_item it :
  (wf_ident src (ii_from it) /\ wf_ident src (ii_to it)) -> rt1d g_include_item p_include_item sn_include_item it.
Proof.
  destruct it as [a b]. cbn [ii_from ii_to]. intros [Ha Hb] rest ts H.
  unfold p_include_item in H. cbn [ii_from ii_to] in H. nrm H.
  peel H as ta r0 Hta. peel H as ask r1 Hask. peel H as tb r2 Htb.
  destruct (leaf_ident _ _ _ Ha Hta) as [E1 E2]. destruct (leaf_ident _ _ _ Hb Htb) as [E3 E4].
  exists {| ii_from := mk_ident ta; ii_to := mk_ident tb |}, r2. split.
  { do 2 eexists. exists (mk_ident ta), ask, (mk_ident tb). split; [eapply g_id_intro; eauto|]. split; [tokg|].
    split; [eapply g_id_intro; eauto|reflexivity]. }
  split; [exact H|]. split; [unfold sn_include_item; cbn [ii_from ii_to]; congruence|]. unfold p_include_item. fin_res.
Qed.

Lemma rt_world_ref w :
  match w with WRIdent i => wf_ident src i | WRPackage p => wf_package_path src p end ->
  rt1d g_world_ref p_world_ref sn_world_ref w.
Proof.
  destruct w as [i|p]; intros Hwf.
  - apply (rt1d_wrap WRIdent i (rt_ident i Hwf []) gwr_id); reflexivity.
  - apply (rt1d_wrap WRPackage p (rt_package_path p Hwf []) gwr_package); reflexivity.
Qed.

Lemma rt_world_item w : wf_world_item src w -> rt1d (g_world_item d) (p_world_item fx) sn_world_item w.
Proof.
  destruct w as [u|x|dcs p|dcs p|dcs wr items]; intros Hwf;
    [apply (rt1d_wrap WIUse u (rt_use u Hwf) (gwi_use d)); reflexivity
    |apply (rt1d_wrap WIType x (rt_item_type_decl x Hwf) (gwi_type d)); reflexivity| | |];
    intros rest ts H; cbn [p_world_item] in H.
  - nrm H. dstep H. peel H as k0 r0 Hk0. destruct (docs_back _ _ _ _ Hk0) as [D1 D2].
    destruct (rt_world_item_path _ Hwf _ _ H) as (p' & r1 & Hg & Hr & Hsn & Hres). nrm Hr. peel Hr as sc r2 Hsc.
    exists (WIImport (tdocs k0) p'), r2. split; [eapply gwi_import; [tokg|exact Hg|tokg]|]. split; [exact Hr|].
    split; [cbn [sn_world_item]; congruence|]. cbn [p_world_item]. fin_res.
  - nrm H. dstep H. peel H as k0 r0 Hk0. destruct (docs_back _ _ _ _ Hk0) as [D1 D2].
    destruct (rt_world_item_path _ Hwf _ _ H) as (p' & r1 & Hg & Hr & Hsn & Hres). nrm Hr. peel Hr as sc r2 Hsc.
    exists (WIExport (tdocs k0) p'), r2. split; [eapply gwi_export; [tokg|exact Hg|tokg]|]. split; [exact Hr|].
    split; [cbn [sn_world_item]; congruence|]. cbn [p_world_item]. fin_res.
  - destruct Hwf as [Hw Hitems]. nrm H. dstep H. peel H as k0 r0 Hk0. destruct (docs_back _ _ _ _ Hk0) as [D1 D2].
    destruct (rt_world_ref _ Hw _ _ H) as (wr' & r1 & Hgw & Hr & Hsnw & Hresw).
    destruct items as [|x l].
    + nrm Hr. peel Hr as sc r2 Hsc.
      exists (WIInclude (tdocs k0) wr' []), r2. split.
      { eapply (gwi_include d (map LTok (k0 :: r0)) _ _ _ _ k0 wr' None sc); [tokg|exact Hgw|constructor|tokg]. }
      split; [exact Hr|]. split; [cbn [sn_world_item]; congruence|]. cbn [p_world_item]. fin_res.
    + nrm Hr. peel Hr as wk r2 Hwk. peel Hr as ob r3 Hob.
      destruct (rt_comma_lines g_include_item p_include_item sn_include_item (x :: l)
                  (All_Forall _ _ _ rt_include_item Hitems) ltac:(discriminate) _ _ Hr) as (l' & r4 & Hg & Hr2 & Hsn & Hres).
      destruct l' as [|x' l']; [discriminate Hsn|].
      nrm Hr2. peel Hr2 as cb r5 Hcb. peel Hr2 as sc r6 Hsc.
      exists (WIInclude (tdocs k0) wr' (x' :: l')), r6. split.
      { eapply (gwi_include d (map LTok (k0 :: r0)) _ _ _ _ k0 wr' (Some (x' :: l')) sc); [tokg|exact Hgw| |tokg].
        eapply opt_some; [tokg|]. do 2 eexists. exists ob, cb, true. split; [tokg|]. split; [exact Hg|].
        split; [left; discriminate|tokg]. }
      split; [exact Hr2|]. split; [cbn [sn_world_item]; congruence|]. cbn [p_world_item]. fin_res.
Qed.

Lemma rt_type_statement t : wf_type_statement src t -> rt1d (g_type_statement d) (p_type_statement fx) sn_type_statement t.
Proof.
  destruct t as [dcs i items|dcs i items|x]; intros Hwf;
    [| |destruct Hwf as [Hnr Hx]; apply (rt1d_wrap TSType x (rt_type_decl x Hnr Hx) (gts_type d)); reflexivity];
    intros rest ts H; cbn [p_type_statement] in H.
  - destruct Hwf as [Hi Hitems]. nrm H. dstep H. peel H as k0 r0 Hk0. peel H as it r1 Hit.
    destruct (leaf_ident _ _ _ Hi Hit) as [H1 H2]. destruct (docs_back _ _ _ _ Hk0) as [D1 D2].
    destruct (rt_interface_body _ Hitems _ _ H) as (items' & r & Hg & Hr & Hsn & Hres).
    exists (TSInterface (tdocs k0) (mk_ident it) items'), r.
    split; [eapply gts_interface; [tokg|eapply g_id_intro; eauto|exact Hg]|]. split; [exact Hr|].
    split; [cbn [sn_type_statement]; congruence|]. cbn [p_type_statement]. fin_res.
  - destruct Hwf as [Hi Hitems]. unfold p_items in H. nrm H. dstep H. peel H as k0 r0 Hk0. peel H as it r1 Hit. peel H as ob r2 Hob.
    destruct (leaf_ident _ _ _ Hi Hit) as [H1 H2]. destruct (docs_back _ _ _ _ Hk0) as [D1 D2].
    destruct (rt_spaced (g_world_item d) (p_world_item fx) sn_world_item items
                (All_Forall _ _ _ rt_world_item Hitems) true _ _ H) as (items' & r3 & Hg & Hr & Hsn & Hres).
    nrm Hr. peel Hr as cb r4 Hcb.
    exists (TSWorld (tdocs k0) (mk_ident it) items'), r4.
    split; [eapply gts_world; [tokg|eapply g_id_intro; eauto|tokg|exact Hg|tokg]|]. split; [exact Hr|].
    split; [cbn [sn_type_statement]; congruence|]. cbn [p_type_statement]. unfold p_items. fin_res.
Qed.

Lemma rt_postfix p : wf_postfix src p -> rt1d g_postfix p_postfix sn_postfix p.
Proof.
  destruct p as [sp i|sp s0]; intros Hwf rest ts H; cbn [p_postfix] in H; nrm H.
  - peel H as dt r0 Hdt. peel H as it r1 Hit. destruct (leaf_ident _ _ _ Hwf Hit) as [E1 E2].
    exists (PAccess (span_join (tsp dt) (id_span (mk_ident it))) (mk_ident it)), r1.
    split; [eapply gpf_access; [tokg|eapply g_id_intro; eauto]|]. split; [exact H|].
    split; [cbn [sn_postfix]; congruence|]. cbn [p_postfix]. fin_res.
  - peel H as ob r0 Hob. peel H as st r1 Hst. peel H as cb r2 Hcb.
    destruct (leaf_strlit _ _ _ Hwf Hst) as (s' & E0 & E1 & E2).
    exists (PNamedAccess (span_join (tsp ob) (tsp cb)) s'), r2.
    split; [eapply gpf_named; [tokg|exists st; split; [tokg|exact E0]|tokg]|]. split; [exact H|].
    split; [cbn [sn_postfix]; congruence|]. cbn [p_postfix]. fin_res.
Qed.

Lemma rt_postfixes post :
  All (wf_postfix src) post -> rt1d (many g_postfix) (flat_map p_postfix) (map sn_postfix) post.
Proof.
  induction post as [|p post IH]; intros Hall rest ts H.
  - exists [], ts. split; [constructor|]. split; [exact H|]. split; reflexivity.
  - destruct Hall as [Hp Hall]. cbn [flat_map] in H. nrm H.
    destruct (rt_postfix _ Hp _ _ H) as (p' & r1 & Hg & Hr & Hsn & Hres).
    destruct (IH Hall _ _ Hr) as (post' & r & Hg2 & Hr2 & Hsn2 & Hres2).
    exists (p' :: post'), r. split; [econstructor; eauto|]. split; [exact Hr2|].
    split; [cbn [map]; congruence|]. cbn [flat_map]. rewrite !map_app. congruence.
Qed.

(** One argument without its separator, one argument line, the argument lines of [new_expr]. *)
Definition p_arg0 (a : inst_arg) : list cmd :=
  match a with
  | AInferred i => [src_id i]
  | ASpread i => [CTok TEllipsis; src_id i]
  | ANamed n x => p_arg_name n ++ [CTok TColon; CSp] ++ p_expr fx x
  | AFill _ => [CTok TEllipsis]
  end.
Definition p_arg_line (a : inst_arg) (last : bool) : list cmd :=
  p_arg0 a ++ (if is_fill a && last then [] else [CTok TComma]).
Definition nil_args (l : list inst_arg) : bool := match l with [] => true | _ => false end.
Fixpoint p_args (l : list inst_arg) : list cmd :=
  match l with
  | [] => []
  | a :: r => CIndent :: p_arg_line a (nil_args r) ++ CNewline :: p_args r
  end.

Lemma p_args_cons a r : p_args (a :: r) = CIndent :: p_arg_line a (nil_args r) ++ CNewline :: p_args r.
Proof. reflexivity. Qed.

Definition p_new_args (args : list inst_arg) : list cmd :=
  match args with
  | [] => [CTok TCloseBrace]
  | [AFill _] => [CSp; CTok TEllipsis; CSp; CTok TCloseBrace]
  | _ => [CNewline; CInc] ++ p_args args ++ [CDec; CIndent; CTok TCloseBrace]
  end.

Lemma p_new_eq sp pkg args :
  p_primary fx (PNew sp pkg args) =
  [CTok TNewKeyword; CSp; CSrc TPackageName (pn_span pkg); CSp; CTok TOpenBrace] ++ p_new_args args.
Proof.
  cbn [p_primary]. f_equal.
  assert (E : forall l,
    (fix go (l : list inst_arg) : list cmd :=
       match l with
       | [] => []
       | a :: r =>
           [CIndent] ++
           match a with
           | AFill _ => CTok TEllipsis ::
                        (if fx_fill_comma fx then match r with [] => [] | _ :: _ => [CTok TComma] end else [])
           | _ => p_arg fx a
           end ++ [CNewline] ++ go r
       end) l = p_args l).
  { induction l as [|a r IH]; [reflexivity|]. rewrite IH. cbn [p_args app]. f_equal. unfold p_arg_line.
    destruct a; cbn [p_arg p_arg0 is_fill andb app fx_fill_comma fx repaired]; repeat (progress (rewrite <- ?app_assoc; cbn [app])); try reflexivity.
    destruct r; reflexivity. }
  rewrite E. unfold p_new_args. destruct args as [|a [|b l]]; [reflexivity| |]; destruct a; reflexivity.
Qed.

Lemma sn_new_eq sp pkg args : sn_primary (PNew sp pkg args) = PNew span0 (sn_package_name pkg) (map sn_arg args).
Proof. reflexivity. Qed.

Lemma sn_arg_fill a' a : sn_arg a' = sn_arg a -> is_fill a' = is_fill a.
Proof. destruct a', a; cbn; intros E; try reflexivity; discriminate E. Qed.

Lemma map_sn_nil_args l' l : map sn_arg l' = map sn_arg l -> nil_args l' = nil_args l.
Proof. destruct l', l; cbn; intros E; try reflexivity; discriminate E. Qed.

Lemma rt_args l : forall a,
  Forall (rt1d (g_arg d) p_arg0 sn_arg) (a :: l) ->
  rt1d (fun ts r l' => exists tr, seplist (g_arg d) ts r (l', tr)) p_args (map sn_arg) (a :: l).
Proof.
  induction l as [|b l IH]; intros a Hall rest ts H; inversion Hall as [|? ? Ha Hl]; subst;
    rewrite p_args_cons in H; unfold p_arg_line in H; cbn [nil_args] in H.
  - (* last argument *)
    destruct (is_fill a) eqn:Ef; cbn [andb p_args] in H; nrm H.
    + destruct (Ha _ _ H) as (a' & r1 & Hg & Hr & Hsn & Hres). nrm Hr.
      exists [a'], r1. split; [exists false; apply sl_one; exact Hg|]. split; [exact Hr|].
      split; [cbn [map]; congruence|]. cbn [p_args nil_args]. unfold p_arg_line.
      rewrite (sn_arg_fill _ _ Hsn), Ef. cbn [andb]. fin_res.
    + destruct (Ha _ _ H) as (a' & r1 & Hg & Hr & Hsn & Hres). nrm Hr. peel Hr as cm r2 Hcm.
      exists [a'], r2. split; [exists true; eapply sl_trail; [exact Hg|tokg]|]. split; [exact Hr|].
      split; [cbn [map]; congruence|]. cbn [p_args nil_args]. unfold p_arg_line.
      rewrite (sn_arg_fill _ _ Hsn), Ef. cbn [andb]. fin_res.
  - rewrite andb_false_r in H. nrm H.
    destruct (Ha _ _ H) as (a' & r1 & Hg & Hr & Hsn & Hres). nrm Hr. peel Hr as cm r2 Hcm.
    destruct (IH b Hl _ _ Hr) as (l' & r & (tr & Hg2) & Hr2 & Hsn2 & Hres2).
    destruct l' as [|b' l']; [discriminate Hsn2|].
    exists (a' :: b' :: l'), r. split; [exists tr; eapply sl_cons; [exact Hg|tokg|exact Hg2|discriminate]|].
    split; [exact Hr2|]. split; [cbn [map] in *; congruence|].
    rewrite (p_args_cons a'), (p_args_cons a). unfold p_arg_line. cbn [nil_args]. rewrite !andb_false_r. fin_res.
Qed.

(** Unless the only argument is the fill, the arguments stand on lines of their own. *)
Lemma p_new_args_lines a l :
  is_fill a && nil_args l = false ->
  p_new_args (a :: l) = [CNewline; CInc] ++ p_args (a :: l) ++ [CDec; CIndent; CTok TCloseBrace].
Proof. destruct a, l; try reflexivity; discriminate. Qed.

(** The arguments of [new] up to and including the closing brace. *)
Lemma rt_new_args args :
  Forall (rt1d (g_arg d) p_arg0 sn_arg) args ->
  rt1d (fun ts r l' => exists tr r4 cb, g_args d ts r4 (l', tr) /\ tok TCloseBrace r4 r cb) p_new_args (map sn_arg) args.
Proof.
  intros Hf rest ts H. destruct args as [|a l]; [|destruct (is_fill a && nil_args l) eqn:E].
  - cbn [p_new_args app] in H. peel H as cb r4 Hcb. exists [], r4.
    split; [exists false, (map LTok (cb :: r4)), cb; split; [constructor|tokg]|]. split; [exact H|]. split; reflexivity.
  - destruct a as [| | |fsp], l; try discriminate E. cbn [p_new_args app] in H. peel H as el r3 Hel. peel H as cb r4 Hcb.
    exists [AFill (tsp el)], r4. split; [|split; [exact H|split; reflexivity]].
    exists false, (map LTok (cb :: r4)), cb. split; [apply ga_one, gar_fill; tokg|tokg].
  - rewrite (p_new_args_lines _ _ E) in H. nrm H.
    destruct (rt_args l a Hf _ _ H) as (l' & r3 & (tr & Hg) & Hr & Hsn & Hres). nrm Hr. peel Hr as cb r4 Hcb.
    destruct l' as [|a' l']; [discriminate Hsn|]. injection Hsn as Hsa Hsl.
    exists (a' :: l'), r4. split; [exists tr, (map LTok (cb :: r4)), cb; split; [apply seplist_g_args; exact Hg|tokg]|].
    split; [exact Hr|]. split; [cbn [map]; congruence|].
    rewrite (p_new_args_lines a), (p_new_args_lines a') by (rewrite ?(sn_arg_fill _ _ Hsa), ?(map_sn_nil_args _ _ Hsl); exact E).
    fin_res.
Qed.

Lemma rt_arg_name n :
  match n with ANIdent i => wf_ident src i | ANString s => wf_strlit src s end ->
  rt1d g_arg_name p_arg_name sn_arg_name n.
Proof.
  destruct n as [i|s0]; intros Hwf.
  - apply (rt1d_wrap ANIdent i (rt_ident i Hwf []) gan_id); reflexivity.
  - apply (rt1d_wrap ANString s0 (rt_strlit s0 Hwf []) gan_string); reflexivity.
Qed.

Lemma rt_expr_all :
  (forall x, wf_expr src x -> rt1d (g_expr d) (p_expr fx) sn_expr x).
Proof.
  apply (expr_ind' (fun x => wf_expr src x -> rt1d (g_expr d) (p_expr fx) sn_expr x)
                   (fun p => wf_primary src p -> rt1d (g_primary d) (p_primary fx) sn_primary p)
                   (fun a => wf_arg src a -> rt1d (g_arg d) p_arg0 sn_arg a)).
  - (* expr *)
    intros sp p post IHp [Hp Hpost] rest ts H. cbn [p_expr] in H. nrm H.
    destruct (IHp Hp _ _ H) as (p' & r1 & Hg & Hr & Hsn & Hres).
    destruct (rt_postfixes _ Hpost _ _ Hr) as (post' & r & Hg2 & Hr2 & Hsn2 & Hres2).
    exists (mk_expr p' post'), r. split; [econstructor; eauto|]. split; [exact Hr2|].
    split; [unfold mk_expr; cbn [sn_expr]; congruence|]. unfold mk_expr. cbn [p_expr]. rewrite !map_app. congruence.
  - (* new *)
    intros sp pkg args IHargs [Hpkg Hargs] rest ts H. apply fix_All in Hargs.
    rewrite p_new_eq in H. nrm H. peel H as k0 r0 Hk0. peel H as pt r1 Hpt. peel H as ob r2 Hob.
    destruct (leaf_package_name _ _ _ Hpkg Hpt) as (pkg' & E0 & E1 & E2).
    destruct (rt_new_args args (All_mp _ _ _ IHargs Hargs) _ _ H) as (args' & r4 & (tr & r3 & cb & Hg & Hcb) & Hr & Hsn & Hres).
    exists (PNew (span_join (tsp k0) (tsp cb)) pkg' args'), r4. split.
    { eapply gp_new; [tokg|exists pt; split; [tokg|exact E0]|tokg|exact Hg|apply args_ok_impl|exact Hcb]. }
    split; [exact Hr|]. split; [rewrite !sn_new_eq; congruence|]. rewrite !p_new_eq. fin_res.
  - (* nested *)
    intros sp x IHx Hwf rest ts H. cbn [p_primary] in H. nrm H. peel H as op r0 Hop.
    destruct (IHx Hwf _ _ H) as (x' & r1 & Hg & Hr & Hsn & Hres). nrm Hr. peel Hr as cp r2 Hcp.
    exists (PNested (span_join (tsp op) (tsp cp)) x'), r2. split; [eapply gp_nested; [tokg|exact Hg|tokg]|].
    split; [exact Hr|]. split; [cbn [sn_primary]; congruence|]. cbn [p_primary]. fin_res.
  - (* identifier *)
    intros i Hwf. apply (rt1d_wrap PIdent i (rt_ident i Hwf []) (gp_id d)); reflexivity.
  - (* inferred *)
    intros i Hwf. apply (rt1d_wrap AInferred i (rt_ident i Hwf []) (gar_inferred d)); reflexivity.
  - (* spread *)
    intros i Hwf rest ts H. cbn [p_arg0] in H. nrm H. peel H as el r0 Hel. peel H as it r1 Hit.
    destruct (leaf_ident _ _ _ Hwf Hit) as [E1 E2].
    exists (ASpread (mk_ident it)), r1. split; [eapply gar_spread; [tokg|eapply g_id_intro; eauto]|]. split; [exact H|].
    split; [cbn [sn_arg]; congruence|]. cbn [p_arg0]. fin_res.
  - (* named *)
    intros n x IHx [Hn Hx] rest ts H. cbn [p_arg0] in H. nrm H.
    destruct (rt_arg_name _ Hn _ _ H) as (n' & r0 & Hgn & Hr & Hsnn & Hresn). nrm Hr. peel Hr as co r1 Hco.
    destruct (IHx Hx _ _ Hr) as (x' & r2 & Hg & Hr2 & Hsn & Hres).
    exists (ANamed n' x'), r2. split; [eapply gar_named; [exact Hgn|tokg|exact Hg]|]. split; [exact Hr2|].
    split; [cbn [sn_arg]; congruence|]. cbn [p_arg0]. fin_res.
  - (* fill *)
    intros sp _ rest ts H. cbn [p_arg0] in H. nrm H. peel H as el r0 Hel.
    exists (AFill (tsp el)), r0. split; [apply gar_fill; tokg|]. split; [exact H|]. split; reflexivity.
Qed.

Lemma rt_extern_name n : wf_extern_name src n -> rt1d g_extern_name p_extern_name sn_extern_name n.
Proof.
  destruct n as [i|s0]; intros Hwf.
  - apply (rt1d_wrap ENIdent i (rt_ident i Hwf []) gen_id); reflexivity.
  - apply (rt1d_wrap ENString s0 (rt_strlit s0 Hwf []) gen_string); reflexivity.
Qed.

Lemma rt_import_type t :
  match t with
  | ITPackage p => wf_package_path src p
  | ITFunc f => wf_func_type src f
  | ITInterface items => All (wf_interface_item src) items
  | ITIdent j => wf_ident src j
  end -> rt1d (g_import_type d) (p_import_type fx) sn_import_type t.
Proof.
  destruct t as [pp|f|items|j]; intros Hwf.
  - apply (rt1d_wrap ITPackage pp (rt_package_path pp Hwf []) (git_package d)); reflexivity.
  - apply (rt1d_wrap ITFunc f (rt_func_type f Hwf) (git_func d)); reflexivity.
  - apply (rt1d_wrap ITInterface items (rt_inline_interface items Hwf) (git_interface d)); reflexivity.
  - apply (rt1d_wrap ITIdent j (rt_ident j Hwf []) (git_id d)); reflexivity.
Qed.

Definition p_export_options (o : export_options) : list cmd :=
  match o with
  | EONone => []
  | EOSpread _ => [CTok TEllipsis]
  | EORename n => [CSp; CTok TAsKeyword; CSp] ++ p_extern_name n
  end.

Lemma rt_export_options o :
  match o with EORename n => wf_extern_name src n | _ => True end ->
  rt1d g_export_options p_export_options sn_export_options o.
Proof.
  destruct o as [|osp|n]; intros Ho rest ts H; cbn [p_export_options] in H; nrm H.
  - exists EONone, ts. split; [constructor|]. split; [exact H|]. split; reflexivity.
  - peel H as el r Hel. exists (EOSpread (tsp el)), r. split; [apply geo_spread; tokg|]. split; [exact H|].
    split; reflexivity.
  - peel H as ask r0 Hask. destruct (rt_extern_name _ Ho _ _ H) as (n' & r & Hgn & Hr & Hsnn & Hresn).
    exists (EORename n'), r. split; [eapply geo_rename; [tokg|exact Hgn]|]. split; [exact Hr|].
    split; [cbn [sn_export_options]; congruence|]. cbn [p_export_options]. fin_res.
Qed.

Lemma rt_statement st : wf_statement src st -> rt1d (g_statement d) (p_statement fx) sn_statement st.
Proof.
  destruct st as [dcs i name t|t|dcs i x|dcs x o]; intros Hwf;
    [|apply (rt1d_wrap SType t (rt_type_statement t Hwf) (gs_type d)); reflexivity| |];
    intros rest ts H; cbn [p_statement] in H.
  - (* import *)
    destruct Hwf as (Hi & Hname & Ht). nrm H. dstep H. peel H as k0 r0 Hk0. peel H as it r1 Hit.
    destruct (leaf_ident _ _ _ Hi Hit) as [H1 H2]. destruct (docs_back _ _ _ _ Hk0) as [D1 D2].
    destruct (rt_opt TAsKeyword g_extern_name p_extern_name sn_extern_name _ name rt_extern_name Hname _ _ H)
      as (name' & r2 & Hgn & Hr & Hsnn & Hresn). unfold p_opt in Hresn. cbn [app] in Hresn. peel Hr as co r3 Hco.
    destruct (rt_import_type _ Ht _ _ Hr) as (t' & r4 & Hg & Hr2 & Hsn & Hres). nrm Hr2. peel Hr2 as sc r5 Hsc.
    exists (SImport (tdocs k0) (mk_ident it) name' t'), r5.
    split; [eapply gs_import; [tokg|eapply g_id_intro; eauto|exact Hgn|tokg|exact Hg|tokg]|].
    split; [exact Hr2|]. split; [cbn [sn_statement]; congruence|]. cbn [p_statement]. fin_res.
  - (* let *)
    destruct Hwf as [Hi Hx]. nrm H. dstep H. peel H as k0 r0 Hk0. peel H as it r1 Hit. peel H as eq r2 Heq.
    destruct (leaf_ident _ _ _ Hi Hit) as [H1 H2]. destruct (docs_back _ _ _ _ Hk0) as [D1 D2].
    destruct (rt_expr_all _ Hx _ _ H) as (x' & r3 & Hg & Hr & Hsn & Hres). nrm Hr. peel Hr as sc r4 Hsc.
    exists (SLet (tdocs k0) (mk_ident it) x'), r4.
    split; [eapply gs_let; [tokg|eapply g_id_intro; eauto|tokg|exact Hg|tokg]|].
    split; [exact Hr|]. split; [cbn [sn_statement]; congruence|]. cbn [p_statement]. fin_res.
  - (* export *)
    destruct Hwf as [Hx Ho]. nrm H. dstep H. peel H as k0 r0 Hk0. destruct (docs_back _ _ _ _ Hk0) as [D1 D2].
    destruct (rt_expr_all _ Hx _ _ H) as (x' & r1 & Hg & Hr & Hsn & Hres).
    destruct (rt_export_options o Ho _ _ Hr) as (o' & r2 & Hgo & Hr2 & Hsno & Hreso).
    unfold p_export_options in Hreso. cbn [app] in Hreso. peel Hr2 as sc r3 Hsc.
    exists (SExport (tdocs k0) x' o'), r3.
    split; [eapply gs_export; [tokg|exact Hg|exact Hgo|tokg]|].
    split; [exact Hr2|]. split; [cbn [sn_statement]; congruence|]. cbn [p_statement]. fin_res.
Qed.

Theorem rt_document doc :
  wf_document src doc ->
  forall ts, Forall2 R ts (catoks src [] (p_document fx doc)) ->
  exists doc', g_document d (map LTok ts) [] doc' /\ sn doc' = sn doc /\
               map (res1 src') (p_document fx doc') = map (res1 src) (p_document fx doc).
Proof.
  destruct doc as [dcs [pkg tg] stmts]. intros (Hpkg & Htg & Hst) ts H. cbn [doc_directive pd_package pd_targets doc_statements] in *.
  unfold p_document, p_directive in H. cbn [doc_docs doc_directive doc_statements pd_package pd_targets] in H.
  rewrite <- (app_nil_r (spaced _ _ _)) in H. nrm H. dstep H.
  peel H as k0 r0 Hk0. peel H as pt r1 Hpt. destruct (docs_back _ _ _ _ Hk0) as [D1 D2].
  destruct (leaf_package_name _ _ _ Hpkg Hpt) as (pkg' & E0 & E1 & E2).
  cbn [fx_targets_keyword fx repaired] in H.
  destruct (rt_opt TTargetsKeyword g_package_path (fun p => [src_path p]) sn_package_path _ tg (fun p Hp => rt_package_path p Hp []) Htg _ _ H)
    as (tg' & r2 & Hgt & Hr & Hsnt & Hrest). unfold p_opt in Hrest. cbn [app src_path] in Hrest. peel Hr as sc r3 Hsc. nrm Hr.
  destruct (rt_spaced (g_statement d) (p_statement fx) sn_statement stmts
              (All_Forall _ _ _ rt_statement Hst) true _ _ Hr) as (stmts' & r4 & Hg & Hr2 & Hsn & Hres).
  cbn [catoks] in Hr2. inversion Hr2; subst.
  exists {| doc_docs := tdocs k0; doc_directive := {| pd_package := pkg'; pd_targets := tg' |}; doc_statements := stmts' |}.
  split.
  { exists (map LTok r3), {| pd_package := pkg'; pd_targets := tg' |}, stmts'. split; [|split; [exact Hg|reflexivity]].
    do 3 eexists. exists k0, pkg', tg', sc. split; [tokg|]. split; [exists pt; split; [tokg|exact E0]|].
    split; [exact Hgt|]. split; [tokg|reflexivity]. }
  split.
  { unfold sn, sn_directive. cbn [doc_docs doc_directive doc_statements pd_package pd_targets]. congruence. }
  unfold p_document, p_directive. cbn [fx_targets_keyword fx repaired]. fin_res.
Qed.

End RoundTrip.

Lemma erase_tokens_of_pieces ps : forall o docs,
  map erase (tokens_of_pieces o docs ps) = patoks (map fst docs) ps.
Proof.
  induction ps as [|p ps IH]; intros o docs; [reflexivity|].
  destruct p; cbn [tokens_of_pieces patoks map].
  - unfold erase at 1. cbn [tk ttext tdocs]. f_equal. apply (IH _ []).
  - apply IH.
  - rewrite IH, map_app. reflexivity.
Qed.

Lemma tokens_of_pieces_accurate ps : forall pre docs,
  Forall (fun t => slice (pre ++ text_of ps) (tsp t) = Some (ttext t)) (tokens_of_pieces (byte_len pre) docs ps).
Proof.
  induction ps as [|p ps IH]; intros pre docs; [constructor|].
  destruct p as [k t|s|l]; cbn [tokens_of_pieces text_of flat_map piece_text].
  - constructor.
    + cbn [tsp ttext]. apply slice_at.
    + rewrite <- byte_len_app. rewrite app_assoc. apply IH.
  - rewrite <- byte_len_app. rewrite app_assoc. apply IH.
  - replace (byte_len pre + byte_len (doc_prefix ++ l) + 1)%N with (byte_len (pre ++ doc_prefix ++ l ++ [c_nl])).
    + rewrite <- !app_assoc. rewrite (app_assoc pre), (app_assoc (pre ++ doc_prefix)), (app_assoc ((pre ++ doc_prefix) ++ l)).
      rewrite <- (app_assoc pre doc_prefix), <- (app_assoc pre (doc_prefix ++ l)), <- (app_assoc doc_prefix l). apply IH.
    + rewrite !byte_len_app. cbn [byte_len]. change (utf8_len c_nl) with 1%N. lia.
Qed.

Lemma Forall2_of_map {A B} (f : A -> B) (P : A -> Prop) l l' :
  map f l = l' -> Forall P l -> Forall2 (fun a b => f a = b /\ P a) l l'.
Proof.
  intros <- H. induction H as [|a l Ha _ IH]; cbn; constructor; auto.
Qed.

Lemma pieces_R src cs ps :
  layout src 0 false cs = Some ps ->
  Forall2 (R (text_of ps)) (tokens_of_pieces 0 [] ps) (catoks src [] cs).
Proof.
  intros H. unfold R. apply Forall2_of_map.
  - rewrite erase_tokens_of_pieces. cbn [map]. eapply patoks_layout; eauto.
  - exact (tokens_of_pieces_accurate ps [] []).
Qed.

(** Token level: for a well-formed tree, the tokens written by the repaired printer are derived by
    the grammar as a document [sn]-equal to the original, and printing that document out of the printed
    text gives the same pieces. *)
Theorem print_tokens_roundtrip_derivation src doc ps :
  wf_document src doc -> print_pieces repaired src doc = Some ps ->
  exists doc', g_document impl_flags (items_of_pieces ps) [] doc' /\ sn doc' = sn doc /\
               print_pieces repaired (text_of ps) doc' = Some ps.
Proof.
  intros Hwf Hp. unfold print_pieces in *.
  destruct (rt_document src (text_of ps) doc Hwf _ (pieces_R _ _ _ Hp)) as (doc' & Hg & Hsn & Hres).
  exists doc'. split; [exact Hg|]. split; [exact Hsn|].
  rewrite (layout_res _ _ _ _ 0 false Hres). exact Hp.
Qed.

(** ... and the parser, under any environment with the implementation's flags and enough fuel, returns
    that document (completeness, C12). *)
Theorem print_tokens_roundtrip_parser src doc ps e :
  wf_document src doc -> print_pieces repaired src doc = Some ps ->
  dv e = impl_flags -> length (items_of_pieces ps) < fuel e ->
  exists doc', parse_document_items e (items_of_pieces ps) = POk doc' [] /\ sn doc' = sn doc /\
               print_pieces repaired (text_of ps) doc' = Some ps.
Proof.
  intros Hwf Hp Hd Hf. destruct (print_tokens_roundtrip_derivation _ _ _ Hwf Hp) as (doc' & Hg & Hsn & Hid).
  exists doc'. split; [|auto]. apply parse_document_items_complete; [rewrite Hd; exact Hg|exact Hf].
Qed.

Lemma slice_or_nil_some src sp t : slice src sp = Some t -> slice_or_nil src sp = t.
Proof. unfold slice_or_nil. now intros ->. Qed.

(** Text level, given that the printed text lexes to the tokens the printer meant ([render_lex] for
    this document): the round trip and the idempotence of formatting. *)
Theorem roundtrip_of_render_lex src doc ps :
  wf_document src doc -> print_pieces repaired src doc = Some ps ->
  lex impl_cfg (text_of ps) = items_of_pieces ps ->
  RoundTrip repaired src doc /\ Idempotent repaired src doc.
Proof.
  intros Hwf Hp Hlex.
  assert (Hprint : print repaired src doc = Some (text_of ps)) by (unfold print; now rewrite Hp).
  set (e := {| dv := impl_flags; cx := mk_ctx (text_of ps) (items_of_pieces ps);
               fuel := S (length (items_of_pieces ps)) |}).
  destruct (print_tokens_roundtrip_parser src doc ps e Hwf Hp eq_refl (Nat.lt_succ_diag_r _)) as (doc' & Hparse & Hsn & Hid).
  assert (Hre : reparse (text_of ps) = POk doc' []).
  { unfold reparse, parse_document. change (cfg_with impl_flags impl_cfg) with impl_cfg. rewrite Hlex. exact Hparse. }
  split.
  - exists (text_of ps), doc'. auto.
  - intros text d' Ht Hd'. rewrite Hprint in Ht. inversion Ht; subst text. rewrite Hre in Hd'. inversion Hd'; subst d'.
    unfold print. now rewrite Hid.
Qed.
