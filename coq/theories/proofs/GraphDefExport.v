(** C06/C01: a type definition is exported under exactly ONE name, the one its node records.
    [export] RENAMES a definition (the previous name leaves the export map), so in every graph built
    through the API the entries of the export map that designate a definition are exactly its
    [nexport] field. History invariant [DefExp]; consequence [ValidEncInv.DefsSingle] (two entries of one
    definition carry the same name), which gives the field [ei_def_single] of [EncInv] (C01 [defs_single_reachable]). *)
From Coq Require Import List Arith Bool NArith.
From WacV Require Import Graph GraphInv GraphPrims GraphSteps GraphRemove GraphUnreg GraphTheorems GraphFrame.
Import ListNotations.

Definition DefExp (s : gstate) : Prop :=
  forall nm n nd, In (nm, n) (exports s) -> get_node s n = Some nd -> nk nd = NDef -> nexport nd = Some nm.

Lemma def_exp_single s nm nm' n nd :
  DefExp s -> In (nm, n) (exports s) -> In (nm', n) (exports s) -> get_node s n = Some nd -> nk nd = NDef -> nm' = nm.
Proof.
  intros H H1 H2 G K. pose proof (H nm n nd H1 G K) as E1. pose proof (H nm' n nd H2 G K) as E2. congruence.
Qed.

(** the generic step: the export map only loses entries, a definition of the new state is a definition
    of the old state with the same export name *)
Record DX (s s' : gstate) : Prop := {
  dx_exports : forall x, In x (exports s') -> In x (exports s);
  dx_nodes : forall m b, get_node s' m = Some b -> nk b = NDef ->
             exists a, get_node s m = Some a /\ nk a = NDef /\ nexport a = nexport b }.

Lemma def_exp_dx s s' : DefExp s -> DX s s' -> DefExp s'.
Proof.
  intros H [X N] nm n nd Hin G K. destruct (N n nd G K) as (a & Ga & Ka & Ea). rewrite <- Ea. eapply H; eauto.
Qed.

Lemma DX_refl s : DX s s.
Proof. constructor; eauto. Qed.

Lemma Quiet_DX s s' : Quiet s s' -> DX s s'.
Proof.
  intros Q. constructor; [apply Q|]. intros m b G K. destruct (get_node s m) as [a|] eqn:Ga.
  - destruct (qu_old _ _ Q m a b Ga G) as [(_ & _ & C) E]. exists a. rewrite K in C. apply kclass_def in C. tauto.
  - now destruct (qu_new _ _ Q m b Ga G).
Qed.

Lemma alias_dx u s n e : InvC u s -> DX s (fst (alias u s n e)).
Proof.
  intros HI. destruct (alias_spec u s n e) as [->|(nd & ex & index & kind & s1 & idx & _ & _ & _ & A & ->)]; [apply DX_refl|].
  apply add_node_spec in A as ([Fd Fu] & _ & _ & _ & X & _); [|apply HI]. constructor; cbn [add_edge exports].
  - intros x. now rewrite X.
  - intros m b G Kb. rewrite get_node_getn in *. cbn in G. rewrite Fu in G.
    destruct (Nat.eqb_spec m idx) as [->|_]; [injection G as <-; discriminate|eauto].
Qed.

Lemma DX_frame s s' :
  (forall x, In x (exports s') -> In x (exports s)) ->
  (forall m, live s' m = true -> orel nrel5 (get_node s m) (get_node s' m)) -> DX s s'.
Proof.
  intros Ex Nd. constructor; auto.
  intros m b G K. assert (Lm : live s' m = true) by (unfold live; now rewrite G).
  specialize (Nd m Lm). rewrite G in Nd. destruct (get_node s m) as [a|]; [|contradiction].
  destruct Nd as (_ & _ & _ & E & C). exists a. repeat split; auto. rewrite K in C. now apply (kclass_def _ _ C).
Qed.

Lemma remove_node_dx u s n : Inv u s -> DX s (fst (remove_node s n)).
Proof.
  intros HI. destruct (remove_node_cases s n) as [->|R]; [apply DX_refl|].
  destruct (remove_frame u s n _ HI R) as [_ Nd _ Ex _ _ _]. apply DX_frame; auto. intros x Hx. now apply Ex in Hx.
Qed.

Lemma unregister_dx s id : DX s (fst (unregister s id)).
Proof.
  destruct (unregister_cases s id) as [->|R]; [apply DX_refl|].
  destruct (unregister_frame s id _ R) as (_ & Nd & _ & Ex & _). apply DX_frame; auto. intros x Hx. now apply Ex in Hx.
Qed.

(** [define_type]: the new definition enters the map under the name its node records *)
Lemma define_type_def_exp u s nm t : InvC u s -> DefExp s -> DefExp (fst (define_type u s nm t)).
Proof.
  intros HI H. destruct (define_type_spec u s nm t) as [->|(td & s1 & idx & new & _ & _ & _ & A & _ & ->)]; [exact H|].
  apply add_node_spec in A as ([Fd Fu] & _ & _ & _ & X0 & _); [|apply HI].
  intros nm' n x Hin G K. cbn in Hin. rewrite get_node_getn in G. cbn in G. rewrite Fu in G. rewrite X0 in Hin.
  apply in_app_or in Hin as [Hin|[[= <- <-]|[]]].
  - assert (L : liveb (nodes s) n = true) by (eapply xo_live; [apply HI|exact Hin]).
    destruct (Nat.eqb_spec n idx) as [->|_].
    + apply liveb_true in L as [y L]. congruence.
    + eapply H; eauto.
  - rewrite Nat.eqb_refl in G. injection G as <-. reflexivity.
Qed.

(** [export]: the definition's previous name leaves the map, the new one is recorded in the node *)
Lemma export_def_exp u s n e : InvC u s -> DefExp s -> DefExp (fst (export_ u s n e)).
Proof.
  intros HI H. destruct (export_spec u s n e) as [->|(nd & G & _ & ->)]; [exact H|].
  pose proof (xo_keys _ _ (ic_ex _ _ HI)) as ND.
  intros nm m x Hin Gm K. cbn [with_maps exports] in Hin. rewrite get_node_getn in Gm. cbn [with_maps set_node nodes] in Gm.
  rewrite get_node_getn in G. erewrite getn_set_live in Gm by eauto.
  apply in_app_or in Hin as [Hin|[[= <- <-]|[]]].
  - unfold exports_renamed in Hin. rewrite get_node_getn, G in Hin.
    destruct (Nat.eqb_spec m n) as [->|Hne].
    + injection Gm as <-. cbn [nk] in K. rewrite K in Hin. exfalso.
      destruct (nexport nd) as [previous|] eqn:Ex.
      * apply shift_remove_In_iff in Hin as [Hin Hk]; auto. cbn in Hk.
        pose proof (H nm n nd Hin G K) as E'. congruence.
      * pose proof (H nm n nd Hin G K) as E'. congruence.
    + assert (Hin' : In (nm, m) (exports s)).
      { destruct (nk nd); auto. destruct (nexport nd); auto. eapply shift_remove_In; eauto. }
      eapply H; eauto.
  - rewrite Nat.eqb_refl in Gm. injection Gm as <-. reflexivity.
Qed.

Lemma step_def_exp : forall u s o, Inv u s -> DefExp s -> DefExp (fst (step u s o)).
Proof.
  intros u s o HI H. pose proof (proj1 (Inv_iff u s) HI) as HC.
  destruct (quiet_op o) eqn:Q; [eapply def_exp_dx; eauto using Quiet_DX, step_quiet|].
  destruct o; try discriminate; cbn [step].
  - eapply def_exp_dx; eauto using unregister_dx.
  - now apply define_type_def_exp.
  - eapply def_exp_dx; eauto using alias_dx.
  - now apply export_def_exp.
  - eapply def_exp_dx; eauto using remove_node_dx.
Qed.

Lemma reach_def_exp : forall u ops, DefExp (run u ops).
Proof. intros u. apply (run_ind u); [intros nm n nd []|intros s o; apply step_def_exp]. Qed.

Theorem definition_export_exact : forall u ops nm n nd,
  get_node (run u ops) n = Some nd -> nk nd = NDef ->
  (In (nm, n) (exports (run u ops)) <-> nexport nd = Some nm).
Proof.
  intros u ops nm n nd G K. split.
  - intros Hin. eapply reach_def_exp; eauto.
  - intros E. eapply inv_node_export; eauto. apply reach_inv.
Qed.

Lemma export_map_after : forall u s n e nd,
  Inv u s -> get_node s n = Some nd -> snd (step u s (Export n e)) = OUnit ->
  exports (fst (step u s (Export n e))) =
    match nk nd, nexport nd with
    | NDef, Some previous => filter (fun p => negb (N.eqb (fst p) previous)) (exports s)
    | _, _ => exports s
    end ++ [(e, n)].
Proof.
  intros u s n e nd HI G. cbn [step]. unfold export_. destruct (alist_get N.eqb (exports s) e); [discriminate|].
  destruct (negb (u_export_name_ok u e)); [discriminate|]. unfold update_node. rewrite G. intros _. cbn [fst with_maps exports].
  unfold exports_renamed. rewrite G. destruct (nk nd); auto. destruct (nexport nd); auto.
  rewrite shift_remove_filter; auto. apply (inv_exports_keys _ _ HI).
Qed.
