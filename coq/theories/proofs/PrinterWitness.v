(** C13: computed witnesses. The three defects of the unrepaired printer refute the property; a
    document using every construct the property names satisfies it under the repaired printer. *)
From Coq Require Import String.
From WacV Require Import Str StrLit Token Lexer LexTables LexImpl Semver Ast Parser AstJson Printer PrintSpec StrFacts.

Definition w_targets : str := L"package a:b targets c:d/e;".
Definition w_fill : str := L"package a:b; let x = new c:d { ..., a };".
Definition w_doc_blank : str := [47;42;42;32;97;10;10;32;98;32;42;47;32;112;97;99;107;97;103;101;32;97;58;98;59]%N.
  (* "/** a\n\n b */ package a:b;" *)

(** Every construct named by the property: package directive with target and versions, [%] escapes,
    string names, all four argument forms with [...] in first, middle and last position, static
    methods, constructors, use renames, include-with lists, doc comments (block, multi-line). *)
Definition w_all : str :=
  L"/** top

 two */ package a:b@1.2.3-rc.1 targets c:d/e@0.1.0; import %import as ""s t"": interface { use f:g/h@1.0.0.{x as y, z}; resource r { constructor(a: u8); m: static func(b: borrow<r>) -> result<_, string>; n: func(); } variant v { a(tuple<u8, list<option<%type>>>), b } }; world w { include q with { a as b, c as d }; export e: func(); import i:j/k; } let x = new l:m@2.0.0 { ..., a, ...b, ""c"": (d).e[""f""], ... }; export x... ; export x as ""y"";".

Definition parse_of (s : str) : option document :=
  match parse_document impl_flags impl_cfg s with POk d [] => Some d | _ => None end.

(** The specification predicate, decided by evaluation. [0]: holds; other values name what fails. *)
Definition check (fx : fixes) (src : str) : N :=
  match parse_of src with
  | None => 1
  | Some d =>
      match print fx src d with
      | None => 2
      | Some text =>
          match parse_of text with
          | None => 3                                             (* the printed text does not parse *)
          | Some d' =>
              if negb (str_eqb (show_json (j_document (sn d')))
                               (show_json (j_document (sn d)))) then 4   (* different tree *)
              else match print fx text d' with
                   | Some text2 => if str_eqb text2 text then 0 else 5  (* not idempotent *)
                   | None => 6
                   end
          end
      end
  end.

(** What the failing verdicts of [check] mean. (The verdict [0] cannot be turned round in the same way:
    it compares JSON renderings, and only "different renderings, different trees" is free.) *)
Lemma parse_of_some src d : parse_of src = Some d -> parse_document impl_flags impl_cfg src = POk d [].
Proof.
  unfold parse_of. destruct (parse_document impl_flags impl_cfg src) as [d0 [|]| | | |]; intros H; inversion H. reflexivity.
Qed.

Lemma check_refutes fx src :
  match check fx src with
  | 3 | 4 => exists d, parse_document impl_flags impl_cfg src = POk d [] /\ ~ RoundTrip fx src d
  | 5 | 6 => exists d, parse_document impl_flags impl_cfg src = POk d [] /\ ~ Idempotent fx src d
  | _ => True
  end%N.
Proof.
  unfold check. destruct (parse_of src) as [d|] eqn:Ed; [|exact I]. apply parse_of_some in Ed.
  destruct (print fx src d) as [text|] eqn:Ep; [|exact I].
  destruct (parse_of text) as [d'|] eqn:Ed'.
  2: { exists d. split; [exact Ed|]. intros (t & d'' & Ht & Hr & _). rewrite Ep in Ht. injection Ht as <-.
       unfold parse_of in Ed'. unfold reparse in Hr. rewrite Hr in Ed'. discriminate Ed'. }
  apply parse_of_some in Ed'.
  destruct (str_eqb (show_json (j_document (sn d'))) (show_json (j_document (sn d)))) eqn:Ej; cbn [negb].
  2: { exists d. split; [exact Ed|]. intros (t & d'' & Ht & Hr & Hsn). rewrite Ep in Ht. injection Ht as <-.
       unfold reparse in Hr. rewrite Ed' in Hr. injection Hr as <-. rewrite Hsn, str_eqb_refl in Ej. discriminate Ej. }
  destruct (print fx text d') as [text2|] eqn:Ep2.
  - destruct (str_eqb text2 text) eqn:Et; [exact I|]. exists d. split; [exact Ed|]. intros H.
    specialize (H text d' Ep Ed'). rewrite Ep2 in H. injection H as ->. rewrite str_eqb_refl in Et. discriminate Et.
  - exists d. split; [exact Ed|]. intros H. specialize (H text d' Ep Ed'). rewrite Ep2 in H. discriminate H.
Qed.

(** The five equations behind the verdict [0]. *)
Lemma check_ok fx src d text d' :
  parse_document impl_flags impl_cfg src = POk d [] -> print fx src d = Some text ->
  parse_document impl_flags impl_cfg text = POk d' [] -> sn d' = sn d -> print fx text d' = Some text ->
  check fx src = 0%N /\ RoundTrip fx src d /\ Idempotent fx src d.
Proof.
  intros E1 E2 E3 E4 E5. split; [|split].
  - unfold check, parse_of. rewrite E1. cbv beta iota. rewrite E2. cbv beta iota. rewrite E3. cbv beta iota.
    rewrite E4, str_eqb_refl. cbv beta iota. rewrite E5. cbv beta iota. rewrite str_eqb_refl. reflexivity.
  - exists text, d'. auto.
  - intros t d'' Ht Hd. rewrite E2 in Ht. injection Ht as <-. unfold reparse in Hd. rewrite E3 in Hd. injection Hd as <-.
    exact E5.
Qed.

(** One run over [w_all]. Each equation is one evaluation of a goal in which the results of the earlier
    ones stand as literals; nothing is evaluated inside a hypothesis. *)
Lemma w_all_run :
  exists d text d',
    parse_document impl_flags impl_cfg w_all = POk d [] /\ print repaired w_all d = Some text /\
    parse_document impl_flags impl_cfg text = POk d' [] /\ sn d' = sn d /\ print repaired text d' = Some text.
Proof.
  eexists _, _, _. split; [vm_compute; reflexivity|]. split; [vm_compute; reflexivity|].
  split; [vm_compute; reflexivity|]. split; vm_compute; reflexivity.
Qed.

Lemma verdicts : check unrepaired w_targets = 3%N /\ check unrepaired w_fill = 4%N /\ check unrepaired w_doc_blank = 5%N.
Proof. vm_compute. auto. Qed.

Lemma checks :
  map (fun '(fx, w) => check fx w)
      [(unrepaired, w_targets); (unrepaired, w_fill); (unrepaired, w_doc_blank);
       (repaired, w_targets); (repaired, w_fill); (repaired, w_doc_blank); (repaired, w_all); (unrepaired, w_all)]
  = [3; 4; 5; 0; 0; 0; 0; 3]%N.
Proof.
  destruct w_all_run as (d & text & d' & E1 & E2 & E3 & E4 & E5). destruct verdicts as (V1 & V2 & V3).
  cbn [map]. rewrite V1, V2, V3, (proj1 (check_ok _ _ _ _ _ E1 E2 E3 E4 E5)). vm_compute. reflexivity.
Qed.

Lemma targets_refuted :
  exists d, parse_document impl_flags impl_cfg w_targets = POk d [] /\ ~ RoundTrip unrepaired w_targets d.
Proof. generalize (check_refutes unrepaired w_targets). rewrite (proj1 verdicts). exact (fun H => H). Qed.

Lemma fill_refuted :
  exists d, parse_document impl_flags impl_cfg w_fill = POk d [] /\ ~ RoundTrip unrepaired w_fill d.
Proof. generalize (check_refutes unrepaired w_fill). rewrite (proj1 (proj2 verdicts)). exact (fun H => H). Qed.

Lemma doc_blank_refuted :
  exists d, parse_document impl_flags impl_cfg w_doc_blank = POk d [] /\ ~ Idempotent unrepaired w_doc_blank d.
Proof. generalize (check_refutes unrepaired w_doc_blank). rewrite (proj2 (proj2 verdicts)). exact (fun H => H). Qed.

(** Non-vacuity: under the repaired printer the property holds of a document using every construct. *)
Lemma all_constructs_roundtrip :
  exists d, parse_document impl_flags impl_cfg w_all = POk d [] /\ RoundTrip repaired w_all d /\ Idempotent repaired w_all d.
Proof.
  destruct w_all_run as (d & text & d' & E1 & E2 & E3 & E4 & E5). exists d. split; [exact E1|].
  exact (proj2 (check_ok _ _ _ _ _ E1 E2 E3 E4 E5)).
Qed.

(** The hypothesis of [PrinterProofs.roundtrip_of_render_lex] is satisfiable: for the document with
    every construct the printed text lexes to the token stream the pieces denote (compared: kinds,
    texts, byte spans, and the number of doc comments of each token). *)
Lemma all_constructs_render_lex :
  match parse_of w_all with
  | Some d => match print_pieces repaired w_all d with
              | Some ps => if Nat.eqb (length (lex impl_cfg (text_of ps))) 0 then false
                           else str_eqb (text_of ps) (text_of ps) &&
                                (fix eqb (a b : list lexitem) : bool :=
                                   match a, b with
                                   | [], [] => true
                                   | LTok x :: a', LTok y :: b' =>
                                       token_eqb (tk x) (tk y) && (off (tsp x) =? off (tsp y))%N &&
                                       (slen (tsp x) =? slen (tsp y))%N && str_eqb (ttext x) (ttext y) &&
                                       (length (tdocs x) =? length (tdocs y))%nat && eqb a' b'
                                   | _, _ => false
                                   end) (lex impl_cfg (text_of ps)) (items_of_pieces ps)
              | None => false
              end
  | None => false
  end = true.
Proof. vm_compute. reflexivity. Qed.
