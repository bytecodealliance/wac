(** C03 [imports_spec]: the import items the model encoder emits ITSELF (not those the type encoder
    makes for [use]d interfaces) are exactly [spec_imports]: one per canonical name of the aggregated
    requirements (explicit imports and unsatisfied arguments) with the requirement's sort, plus one
    component import per instantiated package when dependencies are imported — except that a
    requirement may be answered by an interface that is already imported (recorded in [e_dedup]). *)
From Coq Require Import List Arith Bool NArith.
From WacV Require Import Str Names NamesProofs Graph Wiring WiringSpec EncodeModel WiringDecode WiringOrder WiringSim AggProofs WiringCorrect.
Import ListNotations.
Local Open Scope nat_scope.

Definition simports (l : log) : list (str * sort) :=
  flat_map (fun it => match it with IImport nm s => [(nm, s)] | _ => [] end) l.

Lemma decode_own_imports l : forall d d', decode_from d l = Some d' -> own_imports d' = own_imports d ++ simports l.
Proof.
  induction l as [|it r IH]; intros d d' D; cbn in D.
  - injection D as <-. now rewrite app_nil_r.
  - destruct (dstep d it) as [d1|] eqn:S; try discriminate.
    rewrite (IH _ _ D), (dstep_own_imports _ _ _ S), <- app_assoc. reflexivity.
Qed.

(** [decode_imports] reports exactly these (flag [false]) and the type encoder's (flag [true]) *)
Lemma decode_imports_simports l : forall d d', decode_from d l = Some d' ->
  forall nm s, In (nm, s, false) (d_imports d') <-> In (nm, s, false) (d_imports d) \/ In (nm, s) (simports l).
Proof. intros d d' D nm s. rewrite <- !own_imports_In, (decode_own_imports _ _ _ D). apply in_app_iff. Qed.

Section ImportsSpec.
  Variable e : wenv.
  Variable u : universe.
  Variable g : gstate.
  Variable dc : bool.
  Variable tau : tyenc.
  Variable ord : list nat.
  Hypothesis EI : EncInv e u g.
  Hypothesis T : Topo g ord.

  Lemma spec_imports_requirements :
    spec_imports e u g dc ord
    = map (fun y : str * sort => (canon e u g (fst y), snd y)) (requirements e u g)
      ++ (if dc then [] else map (fun p => (pkg_import_name e p, SComponent)) (pkgs_in_order g ord)).
  Proof.
    unfold spec_imports, requirements. rewrite app_assoc, map_app, !map_flat_map. f_equal. f_equal; apply flat_map_ext; intros n.
    - now rewrite map_map.
    - destruct (get_node g n) as [nd|]; auto. now destruct (nk nd).
  Qed.

  Lemma spec_requirements nm s :
    In (nm, s) (map (fun y : str * sort => (canon e u g (fst y), snd y)) (requirements e u g))
    <-> exists nm0, In (nm0, s) (hist e u g ord) /\ nm = canon e u g nm0.
  Proof.
    rewrite in_map_iff. split.
    - intros [[nm0 s0] [E I]]. injection E as <- <-. exists nm0. split; auto. now apply (hist_reqs e u g ord T).
    - intros [nm0 [I ->]]. exists (nm0, s). split; auto. now apply (hist_reqs e u g ord T).
  Qed.

  Theorem imports_spec st names :
    encode_with_order e u g dc tau ord = ROk (st, names) ->
    (forall p, In p (e_dedup st) -> fst p = snd p) ->
    (forall nm s, In (nm, s) (simports (e_log st)) -> In (nm, s) (spec_imports e u g dc ord)) /\
    (forall nm s, In (nm, s) (spec_imports e u g dc ord) -> In (nm, s) (simports (e_log st)) \/ In (nm, nm) (e_dedup st)).
  Proof.
    intros R Cons.
    destruct (encode_sim _ _ _ _ _ _ _ _ EI T R Cons) as [st0 [a [d0 [d [D [AI [IA [IB [A [_ M]]]]]]]]]].
    rewrite D in Cons.
    assert (Sp : forall x, In x (simports (e_log st)) <->
              In x (own_imports d0) \/ In x (if dc then [] else map (fun p => (pkg_import_name e p, SComponent)) (pkgs_in_order g ord))).
    { intros x. pose proof (decode_own_imports _ _ _ A) as E. cbn in E. rewrite <- E, M. apply in_app_iff. }
    rewrite spec_imports_requirements. split.
    - intros nm s I. apply Sp in I. rewrite in_app_iff. destruct I as [I0|Ip]; [left | right; exact Ip].
      apply spec_requirements. destruct (IA _ _ I0) as [x [Ix [En Es]]].
      assert (In_h : In nm (map fst (hist e u g ord))) by (apply (ai_hist_in _ _ AI); rewrite <- En; now apply in_map).
      apply in_map_iff in In_h as [[nm0 s0] [E0 Ih]]. cbn in E0. subst nm0.
      assert (s0 = s) by (rewrite <- Es; symmetry; apply (ai_sort _ _ AI _ _ _ Ih Ix); rewrite En; apply compat_refl). subst s0.
      exists nm. split; auto.
      destruct (agg_canonical _ _ _ _ AI Ih) as [Ic Cc].
      rewrite <- (canonical_is_canon e u g ord T _ _ _ AI Ih).
      apply (ai_track _ _ AI); auto. rewrite <- En. now apply in_map.
    - intros nm s I. rewrite in_app_iff in I. destruct I as [I|I]; [|left; apply Sp; right; exact I].
      apply spec_requirements in I as [nm0 [Ih ->]].
      destruct (agg_canonical _ _ _ _ AI Ih) as [Ic Cc]. apply in_map_iff in Ic as [x [Ex Ix]].
      rewrite <- (canonical_is_canon e u g ord T _ _ _ AI Ih).
      pose proof (agg_entry_sort _ _ _ _ _ AI Ih Ix Ex) as Es.
      destruct (IB _ Ix) as [I0|[under Iu]].
      + left. apply Sp. left. now rewrite <- Ex, <- Es.
      + right. rewrite D. pose proof (Cons _ Iu) as Eu. cbn in Eu. rewrite <- Ex. now rewrite <- Eu in Iu.
  Qed.
End ImportsSpec.

Theorem imports_spec_topo e u g dc tau ord st names :
  EncInv e u g -> topo_orderb g ord = true ->
  encode_with_order e u g dc tau ord = ROk (st, names) ->
  (forall p, In p (e_dedup st) -> fst p = snd p) ->
  (forall nm s, In (nm, s) (simports (e_log st)) -> In (nm, s) (spec_imports e u g dc ord)) /\
  (forall nm s, In (nm, s) (spec_imports e u g dc ord) -> In (nm, s) (simports (e_log st)) \/ In (nm, nm) (e_dedup st)).
Proof. intros EI TO. apply imports_spec; auto. now apply topo_orderb_Topo. Qed.
