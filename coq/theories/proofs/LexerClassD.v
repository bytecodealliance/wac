(** Lexer classes, part D: [lex_token_classes] (every token's text is in the class of its kind),
    [lex_no_fuel_item] (no out-of-fuel / panic item; the unmodelled item only inside the zone), both by
    [lex_items]: every item of [lex] comes from a call of [scan_token] at a token start. *)
From WacV Require Import Str Ord Token Lexer LexTables LexImpl LexSpec LexTablesProofs Semver Ast Parser LexClasses.
From WacV Require Import ListFacts LexerProofs LexerSound LexerClassA LexerClassB LexerClassC.
From Coq Require Import Lia.
Local Open Scope nat_scope.

Lemma starts_with_firstn x : forall s, starts_with x s = true -> firstn (length x) s = x.
Proof.
  induction x as [|a x IH]; intros s; [reflexivity|]. destruct s as [|b s]; cbn [starts_with]; [discriminate|].
  intros H. apply andb_true_iff in H. destruct H as [Hab H]. apply N.eqb_eq in Hab. subst b. cbn [length firstn]. now rewrite IH.
Qed.

Lemma starts_with_app x rest : starts_with x (x ++ rest) = true.
Proof. induction x as [|a x IH]; [reflexivity|]. cbn [app starts_with]. now rewrite N.eqb_refl, IH. Qed.

Section Classes.
Variable d : deviations.
Variable base : lexcfg.
Hypothesis Htab : tables_ok base.
Notation cfg := (cfg_with d base).
Notation au := (uppercase_words d).

Lemma kw_or_ident_class w : id_b d w = true -> token_class d (kw_or_ident_of w) w = true.
Proof.
  intros Hi. unfold kw_or_ident_of. destruct (lookup_str w doc_keywords) as [k|] eqn:E.
  - apply lookup_str_some in E. apply (kw_row d _ _ E).
  - cbn [token_class]. unfold is_keyword_text. rewrite E, Hi. cbn [negb]. now rewrite orb_true_r.
Qed.

Lemma head_is_inv c s : head_is c s = true -> exists r, s = c :: r.
Proof. destruct s as [|x r]; cbn [head_is]; [discriminate|]. intros H. apply N.eqb_eq in H. subst. eauto. Qed.

Lemma dash_ident_intro w : id_b d w = true -> dash_ident_b d (w ++ [c_minus]) = true.
Proof. intros H. unfold dash_ident_b. rewrite rev_unit, N.eqb_refl, rev_involutive. exact H. Qed.

Lemma shape_text fuel s x : shape_ok d fuel s x ->
  s = sh_id x ++ chain_text c_colon (sh_colon x) ++ chain_text c_slash (sh_slash x) ++ sh_ver x ++ sh_rest x.
Proof. intros (-> & _). reflexivity. Qed.

Lemma shape_text_tok fuel s x : shape_ok d fuel s x ->
  s = (sh_id x ++ chain_text c_colon (sh_colon x) ++ chain_text c_slash (sh_slash x) ++ sh_ver x) ++ sh_rest x.
Proof. intros H. rewrite (shape_text _ _ _ H) at 1. now rewrite <- !app_assoc. Qed.

Lemma produced_class fuel s x k n : shape_ok d fuel s x -> produced d x k n -> token_class d k (firstn n s) = true.
Proof.
  intros Hx Hp. pose proof (shape_text _ _ _ Hx) as Hs. pose proof (shape_text_tok _ _ _ Hx) as Ht.
  destruct Hx as (_ & Hi & _ & _ & HidsC & _ & _ & _ & HidsP & _ & _ & _ & Hv & _).
  destruct Hp as [Hdd _ -> -> Hhd | -> _ Hk | HneC HP -> -> | HneC HneP -> ->].
  - destruct (head_is_inv _ _ Hhd) as (r' & Er). unfold after_id in Er. rewrite Hs at 1.
    replace (chain_text c_colon (sh_colon x) ++ chain_text c_slash (sh_slash x) ++ sh_ver x ++ sh_rest x) with (c_minus :: r')
      by (rewrite <- Er; unfold after_colon; reflexivity).
    rewrite firstn_app_S. cbn [token_class]. rewrite Hdd, dash_ident_intro by exact Hi. now rewrite orb_true_r.
  - rewrite Hs, firstn_app_exact. destruct Hk as [->|[-> Hkc]]; [now apply kw_or_ident_class|].
    cbn [token_class]. now rewrite Hi, Hkc.
  - rewrite HP in Ht. change (chain_text c_slash []) with (@nil N) in Ht. cbn [app] in Ht.
    rewrite Ht, firstn_app_exact. cbn [token_class rule_class]. now apply pkg_name_intro.
  - rewrite Ht, firstn_app_exact. cbn [token_class rule_class]. now apply pkg_path_intro.
Qed.

Theorem scan_token_class fuel s k n :
  length s < fuel -> scan_token cfg fuel s = ScanTok k n -> token_class d k (firstn n s) = true.
Proof.
  intros Hf. destruct (id_len au s) as [|n0] eqn:En.
  - rewrite scan_token_unfold. destruct s as [|c r]; [discriminate|]. destruct (c =? c_quote)%N eqn:Eq.
    + apply N.eqb_eq in Eq. subst c. destruct (find_char c_quote r) as [m|] eqn:Ef; [|discriminate].
      intros H; inversion H; subst k n. destruct (find_char_spec _ _ _ Ef) as (body & rest & -> & <- & Hb).
      change (firstn (S (S (length body))) (c_quote :: body ++ c_quote :: rest))
        with (c_quote :: firstn (S (length body)) (body ++ c_quote :: rest)).
      rewrite firstn_app_S. cbn [token_class rule_class]. now apply string_b_intro.
    + cbn [allow_upper cfg_with symbols]. rewrite En. destruct (best_symbol (symbols base) (c :: r)) as [[k' n']|] eqn:Eb; [|discriminate].
      intros H; inversion H; subst k' n'. destruct (best_symbol_spec _ _ _ _ Eb) as [(x & Hin & Hs & Hne & ->) _].
      rewrite (starts_with_firstn _ _ Hs). apply Htab in Hin. apply (sym_row d _ _ Hin).
  - destruct (scan_token_outcome d base Htab fuel s Hf) as (x & Hx & Ho); [congruence|]. intros H. rewrite H in Ho.
    exact (produced_class fuel s x k n Hx Ho).
Qed.

Lemma word_stop_dash up r : word_stop d up (c_minus :: r) = true -> starts_word d r = false.
Proof.
  cbn [word_stop]. intros H. apply andb_true_iff in H. destruct H as [_ H]. apply negb_true_iff in H.
  rewrite N.eqb_refl in H. exact H.
Qed.

Lemma seq_In_1 n len : 1 <= n <= len -> In n (seq 1 len).
Proof. intros H. apply in_seq. lia. Qed.

Theorem scan_token_unmodelled fuel s :
  length s < fuel -> scan_token cfg fuel s = ScanUnmodelled -> pkg_separator_zone d = true /\ unmodelled_at d s = true.
Proof.
  intros Hf. destruct (id_len au s) as [|n0] eqn:En.
  { rewrite scan_token_unfold. destruct s as [|c r]; [discriminate|]. destruct (c =? c_quote)%N.
    - destruct (find_char c_quote r); discriminate.
    - cbn [allow_upper cfg_with symbols]. rewrite En. destruct (best_symbol (symbols base) (c :: r)) as [[k' n']|]; discriminate. }
  destruct (scan_token_outcome d base Htab fuel s Hf) as (x & Hx & Ho); [congruence|]. intros Hsc. rewrite Hsc in Ho.
  destruct Ho as [Ez Ho]. split; [exact Ez|]. pose proof (shape_text _ _ _ Hx) as Hs.
  destruct Hx as (_ & Hi & _ & Hst & HidsC & _ & HnoC & HfolC & _).
  pose proof (id_b_not_nil d _ Hi) as Hne. assert (Hl1 : 1 <= length (sh_id x)) by (destruct (sh_id x); [congruence|cbn; lia]).
  destruct Ho as [[Ehd Ekp]|[HneC Ehd2]].
  - (* a prefix of a keyword before a dangling dash *)
    destruct (head_is_inv _ _ Ehd) as (r' & Er). unfold unmodelled_at. apply existsb_exists. exists (length (sh_id x)).
    assert (Hs' : s = sh_id x ++ c_minus :: r') by (rewrite Hs at 1; rewrite <- Er; reflexivity).
    split.
    + apply seq_In_1. rewrite Hs', app_length. cbn [length]. lia.
    + rewrite Hs', firstn_app_exact, skipn_app_exact, Hi, Ekp. cbn [dangling_dash_at andb]. rewrite N.eqb_refl.
      unfold id_follow in Hst. rewrite Er in Hst. rewrite (word_stop_dash _ _ Hst). now rewrite orb_true_r.
  - (* a package name before a dangling separator *)
    set (p := sh_id x ++ chain_text c_colon (sh_colon x)).
    assert (Hs' : s = p ++ after_colon x) by (rewrite Hs at 1; unfold p, after_colon; now rewrite <- app_assoc).
    assert (Hac : exists c r', after_colon x = c :: r' /\ dangling_sep d (c :: r') = true).
    { apply orb_true_iff in Ehd2. destruct Ehd2 as [E|E]; destruct (head_is_inv _ _ E) as (r' & Er); rewrite Er in *.
      - exists c_minus, r'. split; [reflexivity|]. cbn [dangling_sep]. rewrite N.eqb_refl. specialize (HfolC HneC).
        unfold id_follow in HfolC. rewrite (word_stop_dash _ _ HfolC). reflexivity.
      - exists c_colon, r'. split; [reflexivity|]. cbn [dangling_sep]. cbn [no_seg] in HnoC. rewrite N.eqb_refl in *.
        cbn [andb] in *. rewrite HnoC. now rewrite orb_true_r. }
    destruct Hac as (c & r' & Er & Hdang).
    unfold unmodelled_at. apply existsb_exists. exists (length p). split.
    + apply seq_In_1. rewrite Hs', Er, !app_length. unfold p. rewrite app_length. cbn [length]. lia.
    + rewrite Hs', firstn_app_exact, skipn_app_exact, Er, Hdang. unfold p. rewrite pkg_core_intro; auto.
Qed.

End Classes.

(** A text at which a token starts: no white space, no comment opener. *)
Definition at_token (s : str) : bool :=
  match s with
  | c :: r => negb (is_ws c) &&
              negb ((c =? c_slash)%N && match r with c2 :: _ => (c2 =? c_slash)%N || (c2 =? c_star)%N | [] => false end)
  | [] => false
  end.

Lemma skip_gap_at_token fuel : forall o s alive docs o' s' docs',
  skip_gap fuel o s alive docs = GapOk o' s' docs' -> s' = [] \/ at_token s' = true.
Proof.
  induction fuel as [|f IH]; intros o s alive docs o' s' docs'; cbn [skip_gap]; [discriminate|].
  destruct s as [|c r]; [intros H; inversion H; now left|].
  destruct (is_ws c) eqn:Ews; [apply IH|].
  destruct (c =? c_slash)%N eqn:Esl.
  2:{ intros H; inversion H; subst. right. cbn [at_token]. now rewrite Ews, Esl. }
  destruct r as [|c2 r2].
  { intros H; inversion H; subst. right. cbn [at_token]. now rewrite Ews, Esl. }
  destruct (c2 =? c_slash)%N eqn:E2.
  { destruct (push_doc alive docs _ o); [apply IH|discriminate]. }
  destruct (c2 =? c_star)%N eqn:E3.
  { destruct (block_comment_length r2); [|discriminate]. destruct (push_doc alive docs _ o); [apply IH|discriminate]. }
  intros H; inversion H; subst. right. cbn [at_token]. now rewrite Ews, Esl, E2, E3.
Qed.

(** A property of the items that holds for the results of [scan_token] holds for every item of
    [lex]. The position of each item: [pre] is the source text before the remaining input [s1], at
    which [scan_token] was called (after a gap was skipped); the error of the screening and the
    unterminated comment are covered by the last premise. *)
Lemma lex_items cfg (P : str -> str -> lexitem -> Prop) src :
  (forall pre s1 fuel k n t, length s1 < fuel -> at_token s1 = true -> scan_token cfg fuel s1 = ScanTok k n ->
     tk t = k -> ttext t = firstn n s1 -> off (tsp t) = byte_len pre -> slen (tsp t) = byte_len (firstn n s1) ->
     P pre s1 (LTok t)) ->
  (forall pre s1 fuel e n, length s1 < fuel -> scan_token cfg fuel s1 = ScanErr e n ->
     P pre s1 (LErr e {| off := byte_len pre; slen := n |})) ->
  (forall pre s1 fuel, length s1 < fuel -> scan_token cfg fuel s1 = ScanUnmodelled ->
     P pre s1 (LUnmodelled {| off := byte_len pre; slen := 0 |})) ->
  (forall pre rest e sp, off sp = byte_len pre -> P pre rest (LErr e sp)) ->
  Forall (fun it => exists pre s1, src = pre ++ s1 /\ P pre s1 it) (lex cfg src).
Proof.
  intros Htok Herr Hun Hgap.
  assert (Hloop : forall fuel o s pre0, length s < fuel -> o = byte_len pre0 ->
            Forall (fun it => exists pre s1, pre0 ++ s = pre ++ s1 /\ P pre s1 it) (lex_loop fuel cfg o s)).
  { induction fuel as [|f IH]; intros o s pre0 Hf Ho; [lia|]. cbn [lex_loop].
    pose proof (skip_gap_spec (S f) o s true []) as Hgs.
    destruct (skip_gap (S f) o s true []) as [o1 s1 docs|e sp| |] eqn:Eg; cbn [gap_spec] in Hgs; [| |contradiction|lia].
    - pose proof (skip_gap_at_token _ _ _ _ _ _ _ _ Eg) as Hat. destruct Hgs as (g & -> & _ & -> & _).
      destruct s1 as [|c1 r1]; [constructor|]. destruct Hat as [Hat|Hat]; [discriminate|].
      rewrite app_length in Hf. rewrite app_assoc.
      replace (o + byte_len g)%N with (byte_len (pre0 ++ g)) by (rewrite byte_len_app; now subst).
      destruct (scan_token cfg (S f) (c1 :: r1)) as [k n|e n|] eqn:Es.
      + constructor.
        * exists (pre0 ++ g), (c1 :: r1). split; [reflexivity|]. apply (Htok _ _ (S f) k n); auto. lia.
        * pose proof (scan_token_bound _ _ _ _ _ Es) as [Hn1 Hn2].
          specialize (IH (byte_len (pre0 ++ g) + byte_len (firstn n (c1 :: r1)))%N (skipn n (c1 :: r1))
                         ((pre0 ++ g) ++ firstn n (c1 :: r1))).
          rewrite <- (app_assoc (pre0 ++ g)), firstn_skipn in IH. apply IH; [rewrite skipn_length; lia|symmetry; apply byte_len_app].
      + constructor; [|constructor]. exists (pre0 ++ g), (c1 :: r1). split; [reflexivity|]. apply (Herr _ _ (S f)); [lia|exact Es].
      + constructor; [|constructor]. exists (pre0 ++ g), (c1 :: r1). split; [reflexivity|]. apply (Hun _ _ (S f)); [lia|exact Es].
    - destruct Hgs as (g & rest & -> & _ & ->). constructor; [|constructor]. exists (pre0 ++ g), rest.
      split; [apply app_assoc|]. apply Hgap. cbn [off]. rewrite byte_len_app. now subst. }
  unfold lex. destruct (screen cfg src) as [[e sp]|] eqn:Es.
  - constructor; [|constructor]. unfold screen in Es. apply screen_from_some in Es.
    destruct Es as (pre & c & post & -> & _ & _ & ->). exists pre, (c :: post). split; [reflexivity|]. now apply Hgap.
  - apply (Hloop _ 0%N src []); [lia|reflexivity].
Qed.

(** Whatever the configuration, [lex] neither runs out of the fuel it gives itself nor reaches the
    [unwrap] of the doc-comment scanner. *)
Lemma lex_never_fuel_panic cfg src : ~ In LFuel (lex cfg src) /\ ~ In LPanic (lex cfg src).
Proof.
  assert (H : Forall (fun it => it <> LFuel /\ it <> LPanic) (lex cfg src)).
  { eapply Forall_impl; [|apply (lex_items cfg (fun _ _ it => it <> LFuel /\ it <> LPanic)); intros; split; discriminate].
    intros it (_ & _ & _ & Hp). exact Hp. }
  rewrite Forall_forall in H. split; intros Hin; destruct (H _ Hin); congruence.
Qed.

Lemma In_tails (pre s : str) : In s (tails (pre ++ s)).
Proof.
  induction pre as [|c pre IH]; cbn [app].
  - destruct s; cbn [tails]; now left.
  - cbn [tails]. now right.
Qed.

Section Lex.
Variable d : deviations.
Variable base : lexcfg.
Hypothesis Htab : tables_ok base.
Notation cfg := (cfg_with d base).

Theorem lex_token_classes_proof src :
  Forall (fun it => match it with LTok t => token_class d (tk t) (ttext t) = true | _ => True end) (lex cfg src).
Proof.
  eapply Forall_impl;
    [|apply (lex_items cfg (fun _ _ it => match it with LTok t => token_class d (tk t) (ttext t) = true | _ => True end))].
  - intros it (pre & s1 & _ & Hp). exact Hp.
  - intros pre s1 fuel k n t Hf _ Hs <- ->; intros; eapply scan_token_class; eauto.
  - intros; exact I.
  - intros; exact I.
  - intros; exact I.
Qed.

Theorem lex_no_fuel_item_proof src :
  ~ In LFuel (lex cfg src) /\ ~ In LPanic (lex cfg src) /\
  (forall sp, In (LUnmodelled sp) (lex cfg src) ->
     pkg_separator_zone d = true /\
     exists pre s1, src = pre ++ s1 /\ sp = {| off := byte_len pre; slen := 0 |} /\ unmodelled_at d s1 = true) /\
  (unmodelled_zone d src = false -> forall sp, ~ In (LUnmodelled sp) (lex cfg src)).
Proof.
  assert (Hmain : Forall (fun it => match it with
                    | LUnmodelled sp => pkg_separator_zone d = true /\
                        exists pre s1, src = pre ++ s1 /\ sp = {| off := byte_len pre; slen := 0 |} /\ unmodelled_at d s1 = true
                    | _ => True end) (lex cfg src)).
  { eapply Forall_impl;
      [|apply (lex_items cfg (fun pre s1 it => match it with
                    | LUnmodelled sp => pkg_separator_zone d = true /\ sp = {| off := byte_len pre; slen := 0 |} /\ unmodelled_at d s1 = true
                    | _ => True end))].
    - intros it (pre & s1 & He & Hp). destruct it; auto.
      destruct Hp as (Hz & Hsp & Hu). split; [exact Hz|]. exists pre, s1. auto.
    - intros; exact I.
    - intros; exact I.
    - intros pre s1 fuel Hf Hs. destruct (scan_token_unmodelled d base Htab fuel s1 Hf Hs). auto.
    - intros; exact I. }
  rewrite Forall_forall in Hmain. split; [|split; [|split]].
  - apply lex_never_fuel_panic.
  - apply lex_never_fuel_panic.
  - intros sp H. exact (Hmain _ H).
  - intros Hz sp H. destruct (Hmain _ H) as (Hf & pre & s1 & -> & _ & Hu). unfold unmodelled_zone in Hz.
    rewrite Hf in Hz. cbn [andb] in Hz.
    assert (existsb (unmodelled_at d) (tails (pre ++ s1)) = true) by (apply existsb_exists; exists s1; split; [apply In_tails|exact Hu]).
    congruence.
Qed.

End Lex.
