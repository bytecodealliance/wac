(** C06: the theorems about whole operations and whole histories, assembled from
    [GraphSteps]/[GraphRemove]/[GraphUnreg]. *)
From Coq Require Import List Arith Bool NArith.
From WacV Require Import Graph GraphInv GraphSteps GraphRemove GraphUnreg GraphFrame.
Import ListNotations.

Lemma step_invC u s o : InvC u s -> InvC u (fst (step u s o)).
Proof.
  intros H. destruct o; cbn [step].
  - now apply register_inv.
  - now apply unregister_inv.
  - now apply define_type_inv.
  - now apply import_inv.
  - now apply instantiate_inv.
  - now apply alias_inv.
  - now apply set_arg_inv.
  - now apply unset_arg_inv.
  - now apply export_inv.
  - now apply unexport_inv.
  - now apply set_name_inv.
  - now apply remove_node_inv.
Qed.

Lemma step_inv u s o : Inv u s -> Inv u (fst (step u s o)).
Proof. rewrite !Inv_iff. apply step_invC. Qed.

Lemma run_app u ops o : run u (ops ++ [o]) = fst (step u (run u ops) o).
Proof. unfold run. now rewrite fold_left_app. Qed.

Lemma reach_inv u ops : Inv u (run u ops).
Proof.
  unfold run. generalize (inv_empty u). generalize empty_graph.
  induction ops as [|o ops IH]; intros s H; cbn; auto. apply IH. now apply step_inv.
Qed.

Lemma run_ind u (P : gstate -> Prop) :
  P empty_graph -> (forall s o, Inv u s -> P s -> P (fst (step u s o))) -> forall ops, P (run u ops).
Proof.
  intros H0 Hs ops. induction ops as [|o ops IH] using rev_ind; [exact H0|].
  rewrite run_app. apply Hs; [apply reach_inv|exact IH].
Qed.

Lemma step_explained u s o : InvC u s -> (forall n, o <> RemoveNode n) -> explained u s o (snd (step u s o)).
Proof.
  intros H Hr. destruct o; cbn [step].
  - now apply register_panic.
  - now apply unregister_panic.
  - apply define_type_panic.
  - apply import_panic.
  - apply instantiate_panic.
  - apply alias_panic.
  - now apply set_arg_panic.
  - now apply unset_arg_panic.
  - apply export_panic.
  - now apply unexport_panic.
  - apply set_name_panic.
  - now contradiction (Hr n).
Qed.

Lemma step_ok u s o : InvC u s -> ok_outcome (snd (step u s o)).
Proof.
  intros H. destruct o; try (eapply explained_ok, step_explained; [exact H|discriminate]).
  now apply (remove_node_ok u).
Qed.

Lemma step_no_bookkeeping_panic u s o :
  Inv u s ->
  snd (step u s o) <> OPanic PSatInsert /\ snd (step u s o) <> OPanic PSatRemove /\
  snd (step u s o) <> OPanic PNotInstantiation /\ snd (step u s o) <> OPanic PUnexpectedEdge /\
  snd (step u s o) <> OPanic PDeadNodeInMap /\ snd (step u s o) <> OPanic PExportMissing /\
  snd (step u s o) <> OPanic PImportMissing /\ snd (step u s o) <> OPanic PDefinedMissing.
Proof.
  intros H. apply Inv_iff in H. pose proof (step_ok u s o H) as K.
  repeat split; intros E; apply K in E; discriminate.
Qed.

Lemma step_panics_classified u s o p :
  Inv u s -> snd (step u s o) = OPanic p ->
  p = PInvalidNodeId \/ p = PInvalidPackageId \/ p = PBadUniverse \/ p = POutOfFuel.
Proof.
  intros H E. apply Inv_iff in H. apply (step_ok u s o H) in E. destruct p; try discriminate; auto.
Qed.

Lemma remove_no_trace u s n s' :
  Inv u s -> remove_node s n = (s', OUnit) ->
  live s' n = false /\ (forall e, In e (edges s') -> esrc e <> n /\ etgt e <> n) /\
  (forall nm, ~ In (nm, n) (exports s')) /\ (forall nm, ~ In (nm, n) (imports s')) /\
  (forall t, ~ In (t, n) (defined s')).
Proof.
  intros H R. apply Inv_iff in H. destruct (remove_node_gone u s n s' H R) as (_ & G & _). exact G.
Qed.

Lemma remove_only_removes u s n s' :
  Inv u s -> remove_node s n = (s', OUnit) ->
  (forall m, live s' m = true -> live s m = true) /\ (forall e, In e (edges s') -> In e (edges s)).
Proof.
  intros H R. apply Inv_iff in H. destruct (remove_node_gone u s n s' H R) as (_ & _ & G). exact G.
Qed.

Lemma node_pkg_is_true s id n :
  node_pkg_is s id n = true <-> exists nd, get_node s n = Some nd /\ npkg nd = Some id.
Proof.
  unfold node_pkg_is. destruct (get_node s n) as [nd|].
  - rewrite pkg_eqb_true. split; [eauto|]. now intros [x [[= <-] H]].
  - split; [discriminate|]. intros [x [H _]]. discriminate.
Qed.

Lemma unregister_no_trace u s id s' :
  Inv u s -> unregister s id = (s', OUnit) ->
  get_pkg s' id = None /\
  forall n nd, get_node s n = Some nd -> npkg nd = Some id ->
    live s' n = false /\ (forall e, In e (edges s') -> esrc e <> n /\ etgt e <> n) /\
    (forall nm, ~ In (nm, n) (exports s')) /\ (forall nm, ~ In (nm, n) (imports s')) /\
    (forall t, ~ In (t, n) (defined s')).
Proof.
  intros H R. apply Inv_iff in H. pose proof (unregister_inv u s id H) as I'. rewrite R in I'. split.
  { destruct (unregister_unit s id s' R) as (sl & s3 & Sl & _ & _ & _ & _ & _ & _ & ->).
    unfold get_pkg. cbn [with_pkgs pkgs]. rewrite nth_error_set_nth, Nat.eqb_refl.
    assert (Li : fst id <? length (pkgs s) = true) by (apply Nat.ltb_lt, nth_error_Some; congruence).
    rewrite Li. cbn [ps_gen ps_pkg]. destruct (S (ps_gen sl) =? snd id); reflexivity. }
  destruct (unregister_frame s id s' R) as (Fl & _). intros n nd Gn K. apply (dead_gone u s' n I').
  destruct (live s' n) eqn:L; auto. apply Fl in L as [_ L].
  rewrite (proj2 (node_pkg_is_true s id n)) in L by eauto. discriminate.
Qed.

Lemma unregister_only_removes u s id s' :
  Inv u s -> unregister s id = (s', OUnit) -> forall m, live s' m = true -> live s m = true.
Proof.
  intros _ R m L. destruct (unregister_frame s id s' R) as (Fl & _). now apply Fl in L.
Qed.
