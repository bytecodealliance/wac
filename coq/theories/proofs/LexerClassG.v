(** Lexer classes, part G: what props/C12.v exports. [lex_longest_proof] (all flags);
    [lex_munch_proof] (with [dangling_dash] and [keyword_colon] off every token text is a lexeme of its
    own rule and no Ident is a keyword) and its two refutations under the implementation's flags
    ([dash_refuted], [kwcolon_refuted]); [relex_lex_proof] ([relex_stable] for [lex]);
    [scan_token_unmodelled_iff] (the unmodelled answer of [scan_token] is exactly the zone). *)
From WacV Require Import Str Ord Token Lexer LexTables LexImpl LexSpec LexTablesProofs Semver Ast Parser LexClasses.
From WacV Require Import ListFacts LexerSound LexerClassA LexerClassB LexerClassC LexerClassD LexerClassE LexerClassF.
From Coq Require Import Lia.
Local Open Scope nat_scope.

Section Lex.
Variable d : deviations.
Variable base : lexcfg.
Hypothesis Htab : tables_ok base.
Notation cfg := (cfg_with d base).

(** Every token of the stream was produced by a call of [scan_token] at some remaining input. *)
Lemma lex_tokens_scanned src :
  Forall (fun it => match it with
                    | LTok t => exists pre s1 fuel, src = pre ++ s1 /\ off (tsp t) = byte_len pre /\ length s1 < fuel /\
                                  at_token s1 = true /\ scan_token cfg fuel s1 = ScanTok (tk t) (length (ttext t)) /\
                                  ttext t = firstn (length (ttext t)) s1
                    | _ => True end) (lex cfg src).
Proof.
  eapply Forall_impl;
    [|apply (lex_items cfg (fun pre s1 it => match it with
                    | LTok t => exists fuel, off (tsp t) = byte_len pre /\ length s1 < fuel /\ at_token s1 = true /\
                                  scan_token cfg fuel s1 = ScanTok (tk t) (length (ttext t)) /\
                                  ttext t = firstn (length (ttext t)) s1
                    | _ => True end))].
  - intros it (pre & s1 & He & Hp). destruct it; auto.
    destruct Hp as (fuel & Hp). exists pre, s1, fuel. intuition.
  - intros pre s1 fuel k n t Hf Hat Hs <- Htx Ho _. exists fuel. destruct (scan_token_bound _ _ _ _ _ Hs) as [_ Hn].
    rewrite Htx, (firstn_length_le s1 Hn). auto 10.
  - intros; exact I.
  - intros; exact I.
  - intros; exact I.
Qed.

Theorem lex_longest_proof src :
  Forall (fun it => match it with
                    | LTok t => exists pre s1, src = pre ++ s1 /\ off (tsp t) = byte_len pre /\
                                  ttext t = firstn (length (ttext t)) s1 /\
                                  forall m k', length (ttext t) < m <= length s1 -> rule_class d k' (firstn m s1) = false
                    | _ => True end) (lex cfg src).
Proof.
  eapply Forall_impl; [|apply lex_tokens_scanned]. intros it H. destruct it as [t| | | |]; auto.
  destruct H as (pre & s1 & fuel & -> & Ho & Hf & _ & Hs & Ht). exists pre, s1. repeat split; auto.
  intros m k' [Hm1 Hm2]. eapply scan_token_longest; eauto.
Qed.

Theorem lex_munch_proof src :
  dangling_dash d = false -> keyword_colon d = false ->
  Forall (fun it => match it with
                    | LTok t => rule_class d (tk t) (ttext t) = true /\ (tk t = TIdent -> is_keyword_text (ttext t) = false)
                    | _ => True end) (lex cfg src).
Proof.
  intros Hdd Hkc. eapply Forall_impl; [|apply (lex_token_classes_proof d base Htab)]. intros it H.
  destruct it as [t| | | |]; auto. destruct (tk t) eqn:Ek; cbn [token_class rule_class] in *; (split; [|try discriminate]); auto.
  - rewrite Hdd, Hkc in H. cbn [andb orb] in H. rewrite orb_false_r in H. apply andb_true_iff in H. tauto.
  - intros _. rewrite Hdd, Hkc in H. cbn [andb orb] in H. rewrite orb_false_r in H. apply andb_true_iff in H.
    destruct H as [_ H]. now apply negb_true_iff in H.
Qed.

Lemma skip_gap_at f o s alive docs : at_token s = true -> skip_gap (S f) o s alive docs = GapOk o s docs.
Proof.
  destruct s as [|c r]; [discriminate|]. cbn [at_token skip_gap]. intros H. apply andb_true_iff in H. destruct H as [Hw H].
  apply negb_true_iff in Hw, H. rewrite Hw. destruct (c =? c_slash)%N; [|reflexivity]. cbn [andb] in H.
  destruct r as [|c2 r2]; [reflexivity|]. apply orb_false_iff in H. destruct H as [-> ->]. reflexivity.
Qed.

Theorem relex_lex_proof src t rest :
  In (LTok t) (lex cfg src) ->
  follow_ok d (tk t) (ttext t) rest = true -> at_token (ttext t ++ rest) = true ->
  screen cfg (ttext t ++ rest) = None ->
  exists tl, lex cfg (ttext t ++ rest) =
             LTok {| tk := tk t; tsp := {| off := 0; slen := byte_len (ttext t) |}; ttext := ttext t; tdocs := [] |} :: tl.
Proof.
  intros Hin Hfol Hat Hsc. pose proof (lex_tokens_scanned src) as H. rewrite Forall_forall in H. specialize (H _ Hin).
  destruct H as (pre & s1 & fuel & _ & _ & Hf & _ & Hs & Ht).
  set (w := ttext t) in *. set (F := S (length (w ++ rest))).
  assert (Hre : scan_token cfg (S F) (w ++ rest) = ScanTok (tk t) (length w)).
  { rewrite Ht at 1. apply (relex_stable_scan d base Htab fuel s1 (tk t) _ (S F) rest Hf Hs); [now rewrite <- Ht|rewrite <- Ht; unfold F; lia]. }
  unfold lex. rewrite Hsc. fold F. cbn [lex_loop]. rewrite (skip_gap_at F 0%N (w ++ rest) true [] Hat).
  destruct (w ++ rest) as [|c r] eqn:Ew; [discriminate|]. rewrite Hre. rewrite <- Ew, firstn_app_exact. eexists. reflexivity.
Qed.

End Lex.

(** At a token start [scan_token] answers "unmodelled" if AND only if the flag [pkg_separator_zone] is
    set and the remaining input satisfies [unmodelled_at]. *)
Section Zone.
Variable d : deviations.
Variable base : lexcfg.
Hypothesis Htab : tables_ok base.
Notation cfg := (cfg_with d base).
Notation au := (uppercase_words d).

Lemma scan_token_in_zone fuel s :
  length s < fuel -> pkg_separator_zone d = true -> unmodelled_at d s = true -> scan_token cfg fuel s = ScanUnmodelled.
Proof.
  intros Hf Hz Hu. unfold unmodelled_at in Hu. apply existsb_exists in Hu. destruct Hu as (n & Hn & Hu).
  apply in_seq in Hn. set (p := firstn n s) in *. set (r := skipn n s) in *.
  assert (Hs : s = p ++ r) by (symmetry; apply firstn_skipn).
  apply orb_true_iff in Hu. destruct Hu as [Hu|Hu].
  - (* a package name followed by a dangling separator *)
    apply andb_true_iff in Hu. destruct Hu as [Hcore Hd].
    destruct (pkg_core_inv d _ Hcore) as (i & segs & Hp & Hi & Hne & Hids).
    destruct (chain_head c_colon segs Hne) as (rC & HrC).
    assert (Hs' : s = i ++ chain_text c_colon segs ++ r) by (rewrite Hs, Hp, <- app_assoc; reflexivity).
    rewrite Hs', (scan_token_app d base Htab fuel i _ Hi) by (rewrite HrC; apply id_follow_sep; exact is_sep_colon).
    unfold scan_after. rewrite HrC at 1. cbn [app head_is].
    change (c_colon =? c_minus)%N with false. cbn iota.
    destruct r as [|c r']; [discriminate|]. cbn [dangling_sep] in Hd.
    assert (Hstop : no_seg d c_colon (c :: r') = true /\ id_follow d (chain_text c_colon segs) (c :: r') = true /\
                    (head_is c_minus (c :: r') || head_is c_colon (c :: r')) = true).
    { apply orb_true_iff in Hd. destruct Hd as [Hd|Hd]; apply andb_true_iff in Hd; destruct Hd as [Hc Hd];
        apply N.eqb_eq in Hc; subst c; apply negb_true_iff in Hd.
      - repeat split; [now apply id_follow_dangling_dash].
      - repeat split.
        + cbn [no_seg]. now rewrite N.eqb_refl, Hd.
        + apply id_follow_sep. exact is_sep_colon. }
    destruct Hstop as (S1 & S2 & S3).
    destruct (seg_loop_exact d c_colon is_sep_colon segs (c :: r') fuel Hids) as [_ Hex].
    { rewrite Hs', !app_length in Hf. rewrite app_length. lia. }
    rewrite (Hex S1 (fun _ => S2)). destruct (length (chain_text c_colon segs)) as [|m] eqn:El; [rewrite HrC in El; discriminate|].
    rewrite <- El, skipn_app_exact, Hz, S3. reflexivity.
  - (* a keyword prefix followed by a dangling dash *)
    apply andb_true_iff in Hu. destruct Hu as [Hu Hd]. apply andb_true_iff in Hu. destruct Hu as [Hi Hkp].
    destruct r as [|c r']; [discriminate|]. cbn [dangling_dash_at] in Hd. apply andb_true_iff in Hd. destruct Hd as [Hc Hd].
    apply N.eqb_eq in Hc. subst c. apply negb_true_iff in Hd.
    rewrite Hs, (scan_token_app d base Htab fuel p _ Hi) by now apply id_follow_dangling_dash.
    unfold scan_after. cbn [head_is]. rewrite N.eqb_refl, Hz, Hkp. reflexivity.
Qed.

Theorem scan_token_unmodelled_iff fuel s :
  length s < fuel ->
  (scan_token cfg fuel s = ScanUnmodelled <-> pkg_separator_zone d = true /\ unmodelled_at d s = true).
Proof.
  intros Hf. split.
  - now apply scan_token_unmodelled.
  - intros [Hz Hu]. now apply scan_token_in_zone.
Qed.

End Zone.

(** [foo-] *)
Lemma dash_refuted :
  exists src t, In (LTok t) (lex impl_cfg src) /\ tk t = TIdent /\
                forallb (fun k => negb (rule_class impl_flags k (ttext t))) all_tokens = true /\
                rule_class impl_flags TIdent (firstn 3 (ttext t)) = true.
Proof.
  exists [102; 111; 111; 45]%N. eexists. split; [vm_compute; left; reflexivity|].
  repeat split; vm_compute; reflexivity.
Qed.

(** [record:] *)
Lemma kwcolon_refuted :
  exists src t, In (LTok t) (lex impl_cfg src) /\ tk t = TIdent /\ rule_class impl_flags TRecordKeyword (ttext t) = true.
Proof.
  exists [114; 101; 99; 111; 114; 100; 58]%N. eexists. split; [vm_compute; left; reflexivity|].
  repeat split; vm_compute; reflexivity.
Qed.
