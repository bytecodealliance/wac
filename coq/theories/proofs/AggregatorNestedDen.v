(** NESTED instance requirements: the denotation of an interface of a collection as a tree.

    [DenG Sh d T k tr ids]: in collection [T] the kind [k] denotes the nested-flat tree [tr] (AggregatorNestedSpec.wt), using
    the interfaces [ids] of [T]:
      - a leaf kind (function, value, value type) denotes its resource-free tree and uses no interface;
      - [KInstance y] where [T[y]] is an ANONYMOUS interface without uses and with pairwise different export names
        denotes [XInst e], [e] the trees of the exports in their order; it uses [y] and what the exports use.
    [Sh] is a side condition on how the interfaces may be shared:
      - [Den]  = [DenG shaped]: each interface is used ONCE ([shaped]: [y] is not below itself, no interface is below two
        exports).  This is what the aggregator's own collection looks like (ownership: a merge below one export leaves
        every other export alone);
      - [SDen] = [DenG anyshape]: no condition - a contributor may mention one interface in several places (the repaired
        aggregator copies an anonymous interface once per mention).
    [IDenG Sh d T y oid e ids] ([IDen] / [SIDen]): the same for the root interface [y] of a requirement, whose identifier
    [oid] is free.  [d] bounds the nesting depth (everything is by induction on it).
    Then the frame conditions: [AExt] (a copy: every arena grows at its end) and [MFrame ids] (a merge: the interfaces
    [ids] are rewritten in place, new ones appended, the rest untouched). *)
From Coq Require Import ZArith Lia.
From WacV Require Import Str Names Types Checker SubSpec CheckerEq CheckerValue CheckerProofs SubSpecProofs.
From WacV Require Import Aggregator AggregatorSpec AggregatorFrame AggregatorRemap AggregatorChecker AggregatorNames
     AggregatorFlat AggregatorNestedSpec StrFacts.

Definition leaf_den (T : types) (k : kind) (tr : tree) : Prop := leafk k = true /\ UnfK T k tr /\ resfree tr = true.

(** the exports, in order; [own n] = the interfaces used below the export named [n] *)
Definition kids (P : kind -> tree -> list id -> Prop) (own : str -> list id)
           (exs : list (str * kind)) (e : list (str * tree)) : Prop :=
  Forall2 (fun nk nt => fst nk = fst nt /\ P (snd nk) (snd nt) (own (fst nk))) exs e.

Definition shape := id -> (str -> list id) -> list str -> Prop.
Definition shaped : shape := fun y own names =>
  (forall n, In n names -> ~ In y (own n)) /\
  (forall n m j, In n names -> In m names -> n <> m -> In j (own n) -> ~ In j (own m)).
Definition anyshape : shape := fun _ _ _ => True.

(** [IDenG] with the denotation [P] of the exports left open, so that [DenG] can be a Fixpoint on [d] *)
Definition IDenP (Sh : shape) (P : kind -> tree -> list id -> Prop) (T : types) (y : id) (oid : option str)
           (e : list (str * tree)) (ids : list id) : Prop :=
  exists exs own, get_if T y = Some (mkif oid [] exs) /\ NoDup (map fst exs) /\ kids P own exs e /\
                  Sh y own (map fst exs) /\ ids = y :: flat_map own (map fst exs).

Fixpoint DenG (Sh : shape) (d : nat) (T : types) (k : kind) (tr : tree) (ids : list id) : Prop :=
  match d with
  | O => False
  | S d' => (leaf_den T k tr /\ ids = []) \/
            (exists y e, k = KInstance y /\ tr = XInst e /\ IDenP Sh (DenG Sh d' T) T y None e ids)
  end.
Definition IDenG (Sh : shape) (d : nat) (T : types) := IDenP Sh (DenG Sh d T) T.
(** the aggregator's side: every interface has one parent *)
Notation Den := (DenG shaped).
Notation IDen := (IDenG shaped).
(** a contributor's side: interfaces may be shared *)
Notation SDen := (DenG anyshape).
Notation SIDen := (IDenG anyshape).

Definition upd (own : str -> list id) (n : str) (v : list id) : str -> list id :=
  fun m => if str_eqb m n then v else own m.
Lemma upd_same own n v : upd own n v n = v. Proof. unfold upd. now rewrite str_eqb_refl. Qed.
Lemma upd_other own n v m : m <> n -> upd own n v m = own m.
Proof. intros N. unfold upd. destruct (str_eqb m n) eqn:E; auto. apply str_eqb_eq in E. contradiction. Qed.

Definition disj_on (own : str -> list id) (names : list str) : Prop :=
  forall n m j, In n names -> In m names -> n <> m -> In j (own n) -> ~ In j (own m).
Lemma disj_upd (fresh : id -> Prop) own names names' key old ids' :
  disj_on own names ->
  (forall n, In n names' -> n <> key -> In n names /\ n <> old) ->
  (forall j, In j ids' -> (In old names /\ In j (own old)) \/ fresh j) ->
  (forall n j, In n names -> In j (own n) -> ~ fresh j) ->
  disj_on (upd own key ids') names'.
Proof.
  intros D Hnames Hids Hold n m j Hn Hm Nnm Hjn Hjm. unfold upd in Hjn, Hjm.
  destruct (str_eqb n key) eqn:En, (str_eqb m key) eqn:Em.
  - apply str_eqb_eq in En, Em. congruence.
  - apply str_eqb_neq in Em. destruct (Hnames m Hm Em) as [Hm' No]. destruct (Hids j Hjn) as [[Ho Hjo]|F].
    + exact (D old m j Ho Hm' (not_eq_sym No) Hjo Hjm).
    + exact (Hold m j Hm' Hjm F).
  - apply str_eqb_neq in En. destruct (Hnames n Hn En) as [Hn' No]. destruct (Hids j Hjm) as [[Ho Hjo]|F].
    + exact (D n old j Hn' Ho No Hjn Hjo).
    + exact (Hold n j Hn' Hjn F).
  - apply str_eqb_neq in En, Em. destruct (Hnames n Hn En) as [Hn' _], (Hnames m Hm Em) as [Hm' _].
    exact (D n m j Hn' Hm' Nnm Hjn Hjm).
Qed.

Lemma kids_keys P own exs e : kids P own exs e -> map fst e = map fst exs.
Proof. induction 1 as [|[n k] [n' tr] exs e [E _] _ IH]; cbn [map fst] in *; congruence. Qed.
Lemma kids_impl (P Q : kind -> tree -> list id -> Prop) own own' exs e :
  (forall n k tr, In (n, k) exs -> P k tr (own n) -> Q k tr (own' n)) -> kids P own exs e -> kids Q own' exs e.
Proof.
  intros H K. induction K as [|[n k] [n' tr] exs e [E Hk] _ IH]; constructor.
  - cbn [fst snd] in *. split; auto. apply (H n k tr); auto. now left.
  - apply IH. intros n0 k0 tr0 Hin. apply H. now right.
Qed.
Lemma kids_assoc P own exs e n k : kids P own exs e -> assoc n exs = Some k ->
  exists tr, assoc n e = Some tr /\ P k tr (own n).
Proof.
  induction 1 as [|[n1 k1] [n2 tr] exs e [E Hk] _ IH]; cbn [assoc]; [discriminate|]. cbn [fst snd] in *. subst n2.
  destruct (str_eqb n n1) eqn:En.
  - apply str_eqb_eq in En. subst n1. intros X. injection X as <-. eauto.
  - exact IH.
Qed.
Lemma kids_assoc_none P own exs e n : kids P own exs e -> assoc n exs = None -> assoc n e = None.
Proof. intros K H. apply assoc_none_keys. rewrite (kids_keys _ _ _ _ K). now apply assoc_none_keys. Qed.
Lemma kids_in P own exs e n tr : kids P own exs e -> In (n, tr) e -> exists k, In (n, k) exs /\ P k tr (own n).
Proof.
  induction 1 as [|[n1 k1] [n2 tr2] exs e [E Hk] _ IH]; [intros []|]. cbn [fst snd] in *. subst n2. intros [X|X].
  - injection X as <- <-. exists k1. split; [now left|auto].
  - destruct (IH X) as [k [Hin Hp]]. exists k. split; [now right|auto].
Qed.
Lemma kids_in_l P own exs e n k : kids P own exs e -> In (n, k) exs -> exists tr, P k tr (own n).
Proof.
  induction 1 as [|[n1 k1] [n2 tr] exs e [E Hk] _ IH]; [intros []|]. cbn [fst snd] in *.
  intros [X|X]; [injection X as -> ->; eauto | now apply IH].
Qed.
Lemma kids_ins (P Q : kind -> tree -> list id -> Prop) own own' exs e name k' tr' :
  NoDup (map fst exs) -> kids P own exs e ->
  (forall n k tr, In (n, k) exs -> n <> name -> P k tr (own n) -> Q k tr (own' n)) ->
  Q k' tr' (own' name) -> kids Q own' (ins name k' exs) (ins name tr' e).
Proof.
  intros ND K. revert ND. induction K as [|[n1 k1] [n2 tr] exs e [E Hk] K' IH]; cbn [map fst ins]; intros ND Hoth Hq.
  { constructor; [cbn [fst snd]; auto|constructor]. }
  cbn [fst snd] in *. subst n2. inversion ND as [|? ? Hn ND']; subst. destruct (str_eqb name n1) eqn:En.
  - apply str_eqb_eq in En. subst n1. constructor; [cbn [fst snd]; auto|].
    apply (kids_impl P Q own own' exs e); [|exact K']. intros n0 k0 tr0 Hin Hp. apply (Hoth n0 k0 tr0); auto; [now right|].
    intros ->. apply Hn. change name with (fst (name, k0)). now apply in_map.
  - constructor.
    + cbn [fst snd]. split; auto. apply (Hoth n1 k1 tr); auto; [now left|]. intros ->. rewrite str_eqb_refl in En. discriminate.
    + apply IH; auto. intros n0 k0 tr0 Hin. apply Hoth. now right.
Qed.

Section Shape.
  Context {Sh : shape}.

Lemma Den_inst d T y tr ids : DenG Sh (S d) T (KInstance y) tr ids -> exists e, tr = XInst e /\ IDenG Sh d T y None e ids.
Proof. cbn [DenG]. intros [[[L _] _]|[y0 [e [E [-> H]]]]]; [discriminate|]. injection E as <-. eauto. Qed.
Lemma Den_leaf d T k tr ids : leafk k = true -> DenG Sh d T k tr ids -> leaf_den T k tr /\ ids = [].
Proof.
  destruct d as [|d]; [intros _ []|]. cbn [DenG]. intros L [H|[y [e [-> _]]]]; [exact H | discriminate].
Qed.

Lemma leaf_den_tree T k tr : leaf_den T k tr -> leaf_tree tr.
Proof.
  intros [L [U R]]. apply (UnfK_leaf_inv _ _ _ L) in U. destruct k as [[| |v| | |]|i| | | |v]; try discriminate L;
    destruct U as [x [-> _]]; exact R.
Qed.
Lemma Den_wt T : forall d k tr ids, DenG Sh d T k tr ids -> wt d tr.
Proof.
  induction d as [|d IH]; intros k tr ids H; [destruct H|]. cbn [DenG wt] in *.
  destruct H as [[H _]|[y [e [-> [-> [exs [own [Hg [ND [K [S0 ->]]]]]]]]]]]; [left; eapply leaf_den_tree; eauto|].
  right. exists e. split; auto. split; [now rewrite (kids_keys _ _ _ _ K)|].
  intros n x Hin. destruct (kids_in _ _ _ _ _ _ K Hin) as [k [_ Hk]]. eapply IH; eauto.
Qed.
Lemma IDen_wt T d y oid e ids : IDenG Sh d T y oid e ids -> wt (S d) (XInst e).
Proof.
  intros [exs [own [Hg [ND [K [S0 ->]]]]]]. apply wt_inst. split; [now rewrite (kids_keys _ _ _ _ K)|].
  intros n x Hin. destruct (kids_in _ _ _ _ _ _ K Hin) as [k [_ Hk]]. eapply Den_wt; eauto.
Qed.

(** the tree is the one [unfold] computes *)
Lemma kids_unfold (P : kind -> tree -> list id -> Prop) T own exs e :
  (forall n k tr, In (n, k) exs -> P k tr (own n) -> UnfK T k tr) -> kids P own exs e ->
  exists g, map_snd (unfold g T) exs = Some e.
Proof.
  intros HP K. induction K as [|[n k] [n' tr] exs e [E Hk] _ IH]; [exists O; reflexivity|]. cbn [fst snd] in *. subst n'.
  destruct IH as [g1 H1]; [intros n0 k0 tr0 Hin; apply HP; now right|].
  destruct (HP n k tr (or_introl eq_refl) Hk) as [g2 H2].
  pose proof (map_snd_ext (unfold g1 T) (unfold (Nat.max g1 g2) T) exs e (fun x y => unfold_mono g1 _ T x y (Nat.le_max_l g1 g2)) H1) as X.
  exists (Nat.max g1 g2). unfold map_snd in *. cbn [map all_some fst snd].
  now rewrite (unfold_mono g2 _ _ _ _ (Nat.le_max_r g1 g2) H2), X.
Qed.
Lemma Den_unf T : forall d k tr ids, DenG Sh d T k tr ids -> UnfK T k tr.
Proof.
  induction d as [|d IH]; intros k tr ids H; [destruct H|]. cbn [DenG] in H.
  destruct H as [[[_ [U _]] _]|[y [e [-> [-> [exs [own [Hg [ND [K [S0 ->]]]]]]]]]]]; [exact U|].
  destruct (kids_unfold _ T own exs e (fun n k tr _ H => IH k tr _ H) K) as [g Hg'].
  exists (S g). cbn [unfold]. rewrite Hg. cbn [i_exports]. now rewrite Hg'.
Qed.
Lemma IDen_unf T d y oid e ids : IDenG Sh d T y oid e ids -> UnfK T (KInstance y) (XInst e).
Proof.
  intros [exs [own [Hg [ND [K [S0 ->]]]]]].
  destruct (kids_unfold _ T own exs e (fun n k tr _ H => Den_unf T d k tr _ H) K) as [g Hg'].
  exists (S g). cbn [unfold]. rewrite Hg. cbn [i_exports]. now rewrite Hg'.
Qed.

Lemma in_flat_own (own : str -> list id) names j : In j (flat_map own names) <-> exists n, In n names /\ In j (own n).
Proof. apply in_flat_map. Qed.
Lemma IDenP_ids P T y oid e ids j : IDenP Sh P T y oid e ids -> In j ids -> j = y \/ exists k tr ids0, P k tr ids0 /\ In j ids0.
Proof.
  intros [exs [own [Hg [ND [K [S0 ->]]]]]] [<-|Hj]; [now left|]. right. apply in_flat_own in Hj as [n [Hn Hj]].
  apply in_map_iff in Hn as [[n0 k0] [<- Hin]]. cbn [fst] in Hj.
  destruct (kids_assoc _ _ _ _ _ _ K (in_assoc _ _ _ ND Hin)) as [tr0 [_ Hk]]. eauto.
Qed.
Lemma IDen_root T d y oid e ids : IDenG Sh d T y oid e ids -> In y ids /\ exists x, get_if T y = Some x /\ i_id x = oid.
Proof. intros [exs [own [Hg [_ [_ [_ ->]]]]]]. split; [now left|]. eexists. split; [exact Hg|reflexivity]. Qed.
Definition anon_in (T : types) (j : id) : Prop := exists x, get_if T j = Some x /\ i_id x = None.
Lemma Den_anon T : forall d k tr ids, DenG Sh d T k tr ids -> forall j, In j ids -> anon_in T j.
Proof.
  induction d as [|d IH]; intros k tr ids H j Hj; [destruct H|]. cbn [DenG] in H.
  destruct H as [[_ ->]|[y [e [-> [-> H]]]]]; [destruct Hj|].
  destruct (IDenP_ids _ _ _ _ _ _ _ H Hj) as [->|[k0 [tr0 [ids0 [Hk Hj0]]]]]; [apply (IDen_root T d _ _ _ _ H) | eapply IH; eauto].
Qed.
Lemma IDen_anon T d y oid e ids : IDenG Sh d T y oid e ids -> forall j, In j ids -> j = y \/ anon_in T j.
Proof.
  intros H j Hj. destruct (IDenP_ids _ _ _ _ _ _ _ H Hj) as [->|[k0 [tr0 [ids0 [Hk Hj0]]]]]; [now left|]. right. eapply Den_anon; eauto.
Qed.
Lemma get_if_lt T j z : get_if T j = Some z -> id_tag j = t_tag T /\ (id_idx j < length (t_interfaces T))%nat.
Proof.
  unfold get_if, lookup. destruct (id_tag j =? t_tag T) eqn:E; [|discriminate]. intros H. split; [now apply N.eqb_eq|].
  apply nth_error_Some. congruence.
Qed.
Lemma Den_lt T d k tr ids : DenG Sh d T k tr ids ->
  forall j, In j ids -> id_tag j = t_tag T /\ (id_idx j < length (t_interfaces T))%nat.
Proof. intros H j Hj. destruct (Den_anon T d k tr ids H j Hj) as [x [Hx _]]. exact (get_if_lt _ _ _ Hx). Qed.
Lemma IDen_lt T d y oid e ids : IDenG Sh d T y oid e ids ->
  forall j, In j ids -> id_tag j = t_tag T /\ (id_idx j < length (t_interfaces T))%nat.
Proof.
  intros H j Hj. destruct (IDen_anon T d y oid e ids H j Hj) as [->|[x [Hx _]]]; [|exact (get_if_lt _ _ _ Hx)].
  destruct (IDen_root T d _ _ _ _ H) as [_ [x [Hx _]]]. exact (get_if_lt _ _ _ Hx).
Qed.

Lemma leaf_den_ext T T' k tr : ext T T' -> leaf_den T k tr -> leaf_den T' k tr.
Proof. intros E [L [U R]]. split; auto. split; auto. eapply UnfK_leaf_ext; eauto. Qed.
End Shape.

Lemma Den_transfer (Sh Sh' : shape) T T' : (forall y own names, Sh y own names -> Sh' y own names) -> ext T T' ->
  forall d d' k tr ids, (d <= d')%nat -> (forall j z, In j ids -> get_if T j = Some z -> get_if T' j = Some z) ->
  DenG Sh d T k tr ids -> DenG Sh' d' T' k tr ids.
Proof.
  intros HS E. induction d as [|d IH]; intros d' k tr ids L Hsame H; [destruct H|]. destruct d' as [|d']; [lia|]. cbn [DenG] in *.
  destruct H as [[H ->]|[y [e [-> [-> [exs [own [Hg [ND [K [S0 ->]]]]]]]]]]]; [left; split; auto; eapply leaf_den_ext; eauto|].
  right. exists y, e. split; auto. split; auto. exists exs, own. split; [apply Hsame; auto; now left|]. split; [exact ND|].
  split; [|split; [apply HS, S0|reflexivity]].
  eapply kids_impl; [|exact K]. intros n k tr Hin Hk. apply IH; auto; [lia|]. intros j z Hj. apply Hsame. right.
  apply in_flat_own. exists n. split; auto. change n with (fst (n, k)). now apply in_map.
Qed.
Lemma IDen_transfer (Sh Sh' : shape) T T' d d' y oid e ids :
  (forall y own names, Sh y own names -> Sh' y own names) -> ext T T' -> (d <= d')%nat ->
  (forall j z, In j ids -> get_if T j = Some z -> get_if T' j = Some z) -> IDenG Sh d T y oid e ids -> IDenG Sh' d' T' y oid e ids.
Proof.
  intros HS E L Hsame [exs [own [Hg [ND [K [S0 ->]]]]]]. exists exs, own. split; [apply Hsame; auto; now left|]. split; [exact ND|].
  split; [|split; [apply HS, S0|reflexivity]].
  eapply kids_impl; [|exact K]. intros n k tr Hin Hk. eapply Den_transfer; eauto. intros j z Hj. apply Hsame. right.
  apply in_flat_own. exists n. split; auto. change n with (fst (n, k)). now apply in_map.
Qed.

Lemma IDen_mono {Sh} T d d' y oid e ids : (d <= d')%nat -> IDenG Sh d T y oid e ids -> IDenG Sh d' T y oid e ids.
Proof. intros L H. eapply IDen_transfer; [| | exact L | | exact H]; auto using ext_refl. Qed.
Lemma Den_frame {Sh} T T' : ext T T' -> forall d k tr ids,
  (forall j z, In j ids -> get_if T j = Some z -> get_if T' j = Some z) -> DenG Sh d T k tr ids -> DenG Sh d T' k tr ids.
Proof. intros E d k tr ids Hs H. eapply Den_transfer; [| exact E | apply le_n | exact Hs | exact H]; auto. Qed.
Lemma IDen_frame {Sh} T T' d y oid e ids : ext T T' ->
  (forall j z, In j ids -> get_if T j = Some z -> get_if T' j = Some z) -> IDenG Sh d T y oid e ids -> IDenG Sh d T' y oid e ids.
Proof. intros E Hs H. eapply IDen_transfer; [| exact E | apply le_n | exact Hs | exact H]; auto. Qed.
(** a tree-shaped requirement is in particular a requirement *)
Lemma Den_SDen T d k tr ids : Den d T k tr ids -> SDen d T k tr ids.
Proof. intros H. eapply Den_transfer; [| apply ext_refl | apply le_n | | exact H]; [exact (fun _ _ _ _ => I) | auto]. Qed.
Lemma IDen_SIDen T d y oid e ids : IDen d T y oid e ids -> SIDen d T y oid e ids.
Proof. intros H. eapply IDen_transfer; [| apply ext_refl | apply le_n | | exact H]; [exact (fun _ _ _ _ => I) | auto]. Qed.

Definition newids (c : core) (ids : list id) : Prop :=
  forall j, In j ids -> (length (t_interfaces (c_types c)) <= id_idx j)%nat.
(** only the entries of [idsb] in the interface part of the remap table may change *)
Definition rm_frame (idsb : list id) (c c' : core) : Prop :=
  forall j, ~ In j idsb -> rm_get (TInterface j) (c_remapped c') = rm_get (TInterface j) (c_remapped c).
Lemma rm_frame_refl idsb c : rm_frame idsb c c. Proof. intros j _. reflexivity. Qed.
Lemma rm_frame_trans idsb a b c : rm_frame idsb a b -> rm_frame idsb b c -> rm_frame idsb a c.
Proof. intros H1 H2 j N. rewrite (H2 j N). now apply H1. Qed.
Lemma rm_frame_weaken (ids ids' : list id) c c' : (forall j, In j ids -> In j ids') -> rm_frame ids c c' -> rm_frame ids' c c'.
Proof. intros H F j N. apply F. intros X. apply N. now apply H. Qed.

(** a copy: every arena grows at its end *)
Record AExt (c c' : core) : Prop := {
  ax_types : ext (c_types c) (c_types c');
  ax_ifp : prefix (t_interfaces (c_types c)) (t_interfaces (c_types c'));
  ax_imports : c_imports c' = c_imports c;
  ax_chk : c_chk c' = c_chk c }.
Lemma AExt_refl c : AExt c c. Proof. split; auto using ext_refl, prefix_refl. Qed.
Lemma AExt_trans a b c : AExt a b -> AExt b c -> AExt a c.
Proof. intros [A1 A2 A3 A4] [B1 B2 B3 B4]. split; eauto using ext_trans, prefix_trans; congruence. Qed.
Lemma AExt_of_Ext c c' : Ext c c' -> AExt c c'.
Proof. intros E. split; try apply E. rewrite (x_if _ _ E). apply prefix_refl. Qed.
Lemma AExt_get_if c c' j z : AExt c c' -> get_if (c_types c) j = Some z -> get_if (c_types c') j = Some z.
Proof. intros E. unfold get_if. rewrite (ext_tag _ _ (ax_types _ _ E)). apply lookup_prefix. apply E. Qed.
Lemma AExt_len c c' : AExt c c' -> (length (t_interfaces (c_types c)) <= length (t_interfaces (c_types c')))%nat.
Proof. intros E. destruct (ax_ifp _ _ E) as [r ->]. rewrite app_length. lia. Qed.

(** a merge into the interfaces [ids]: they are updated in place, new ones are appended, the others stay *)
Record MFrame (ids : list id) (c c' : core) : Prop := {
  mf_types : ext (c_types c) (c_types c');
  mf_len : (length (t_interfaces (c_types c)) <= length (t_interfaces (c_types c')))%nat;
  mf_imports : c_imports c' = c_imports c;
  mf_ifaces : c_ifaces c' = c_ifaces c;
  mf_other : forall j z, ~ In j ids -> get_if (c_types c) j = Some z -> get_if (c_types c') j = Some z }.
Lemma MFrame_refl ids c : MFrame ids c c. Proof. split; auto using ext_refl. Qed.
(** the second merge may also touch interfaces that the first one appended *)
Lemma MFrame_trans_grow ids ids' a b c : MFrame ids a b -> MFrame ids' b c ->
  (forall j, In j ids' -> In j ids \/ (length (t_interfaces (c_types a)) <= id_idx j)%nat) -> MFrame ids a c.
Proof.
  intros [A1 A2 A3 A4 A5] [B1 B2 B3 B4 B5] Hsub. split; eauto using ext_trans; try congruence; [lia|].
  intros j z Nj Hz. apply B5; [|apply A5; auto]. intros X. destruct (Hsub j X) as [Y|Y]; [contradiction|].
  apply get_if_lt in Hz. lia.
Qed.
Lemma MFrame_trans ids a b c : MFrame ids a b -> MFrame ids b c -> MFrame ids a c.
Proof. intros H1 H2. exact (MFrame_trans_grow ids ids a b c H1 H2 (fun j H => or_introl H)). Qed.
Lemma MFrame_weaken (ids ids' : list id) c c' : (forall j, In j ids -> In j ids') -> MFrame ids c c' -> MFrame ids' c c'.
Proof. intros H [A1 A2 A3 A4 A5]. split; [exact A1|exact A2|exact A3|exact A4|]. intros j z N. apply A5. intros X. apply N. now apply H. Qed.
Lemma MFrame_of_AExt ids c c' : AExt c c' -> c_ifaces c' = c_ifaces c -> MFrame ids c c'.
Proof.
  intros E Hi. split; try apply E; auto.
  - now apply AExt_len.
  - intros j z _. now apply AExt_get_if.
Qed.
Lemma MFrame_chk ids c s : MFrame ids c (with_chk c s).
Proof. split; cbn [c_types c_imports c_ifaces with_chk]; auto using ext_refl. Qed.
Lemma MFrame_remapped ids c r : MFrame ids c (with_remapped c r).
Proof. split; cbn [c_types c_imports c_ifaces with_remapped]; auto using ext_refl. Qed.
