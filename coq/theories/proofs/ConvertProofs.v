(** Basic facts about the model of [Package::from_bytes] (model/Convert.v): inversion of the outcome monad, the
    judgement [keeps] that the invariants of the converter share, lookups, and [convert_lists_exactly] (here
    [lists_exactly_holds]): the world of the package lists exactly the imports and exports, and the instance type is
    the export list. *)
From Coq Require Import Lia.
From WacV Require Import Str StrFacts ListFacts Types CheckerEq Convert ConvertSpec.
Set Warnings "-unused-intro-pattern".

Lemma bind_ok {A B} (x : cres A) (f : A -> cres B) r :
  bind x f = COk r -> exists a, x = COk a /\ f a = COk r.
Proof. destruct x; cbn [bind]; try discriminate. eauto. Qed.

Tactic Notation "inv_bind" hyp(H) "as" simple_intropattern(p) ident(Hx) :=
  apply bind_ok in H; destruct H as [p [Hx H]].

Section Keeps.
  Variable I : cstate -> Prop.
  Variable T : cstate -> cstate -> Prop.
  Definition keeps {R} (F : cstate -> cres (R * cstate)) : Prop :=
    forall s r s', I s -> F s = COk (r, s') -> I s' /\ T s s'.
  Definition keeps1 (F : cstate -> cres cstate) : Prop :=
    forall s s', I s -> F s = COk s' -> I s' /\ T s s'.

  Hypothesis T_refl : forall s, T s s.
  Hypothesis T_trans : forall a b c, T a b -> T b c -> T a c.

  Lemma mapM_keeps {A B} (f : A -> cstate -> cres (B * cstate)) : forall l,
    (forall a, In a l -> keeps (f a)) -> keeps (mapM f l).
  Proof.
    induction l as [|a l IH]; intros Hf s r s' Hi H; cbn [mapM] in H.
    - injection H as <- <-. auto.
    - inv_bind H as [y s1] H1. inv_bind H as [ys s2] H2. injection H as <- <-.
      destruct (Hf a (or_introl eq_refl) s y s1 Hi H1) as [I1 T1].
      destruct (IH (fun x Hx => Hf x (or_intror Hx)) s1 ys s2 I1 H2) as [I2 T2]. eauto.
  Qed.
  Lemma optM_keeps {A B} (f : A -> cstate -> cres (B * cstate)) o :
    (forall a, o = Some a -> keeps (f a)) -> keeps (optM f o).
  Proof.
    intros Hf s r s' Hi H. destruct o as [a|]; cbn [optM] in H.
    - inv_bind H as [y s1] H1. injection H as <- <-. exact (Hf a eq_refl s y s1 Hi H1).
    - injection H as <- <-. auto.
  Qed.
  Lemma named_keeps {K A B} (f : A -> cstate -> cres (B * cstate)) (kv : K * A) :
    keeps (f (snd kv)) -> keeps (named f kv).
  Proof. intros Hf s r s' Hi H. unfold named in H. inv_bind H as [y s1] H1. injection H as <- <-. exact (Hf s y s1 Hi H1). Qed.

  Lemma collect_keeps (f : str -> vent -> cstate -> cres (kind * cstate)) : forall l acc,
    (forall n e, In (n, e) l -> keeps (f n e)) -> keeps (collect f l acc).
  Proof.
    induction l as [|[n e] l IH]; intros acc Hf s r s' Hi H; cbn [collect] in H.
    - injection H as <- <-. auto.
    - inv_bind H as [k s1] H1. destruct (Hf n e (or_introl eq_refl) s k s1 Hi H1) as [I1 T1].
      destruct (IH _ (fun n' e' Hx => Hf n' e' (or_intror Hx)) s1 r s' I1 H) as [I2 T2]. eauto.
  Qed.
End Keeps.

Lemma keeps_weaken I (T T' : cstate -> cstate -> Prop) {R} (F : cstate -> cres (R * cstate)) :
  (forall s s', T s s' -> T' s s') -> keeps I T F -> keeps I T' F.
Proof. intros HT HF s r s' Hi H. destruct (HF s r s' Hi H). auto. Qed.

Lemma str_eqb_neq a b : str_eqb a b = false -> a <> b.
Proof. apply StrFacts.str_eqb_neq. Qed.

Lemma nth_error_app_some {A} (l r : list A) i x : nth_error l i = Some x -> nth_error (l ++ r) i = Some x.
Proof. intro H. rewrite nth_error_app1; [assumption|]. apply nth_error_Some. congruence. Qed.

Lemma nassoc_in {B} k (l : list (nat * B)) v : nassoc k l = Some v -> In (k, v) l.
Proof.
  induction l as [|[k' v'] l IH]; cbn [nassoc]; [discriminate|].
  destruct (Nat.eqb k k') eqn:E; [apply Nat.eqb_eq in E; intro H; injection H as <-; subst; now left | right; auto].
Qed.
Lemma nassoc_none_notin {B} k (l : list (nat * B)) : nassoc k l = None -> ~ In k (map fst l).
Proof.
  induction l as [|[k' v] l IH]; cbn [nassoc map fst In]; [tauto|].
  destruct (Nat.eqb k k') eqn:E; [discriminate|]. apply Nat.eqb_neq in E. intros H [H1|H1]; [congruence | now apply IH].
Qed.
Lemma nassoc_app_notin {B} k (a b : list (nat * B)) : ~ In k (map fst a) -> nassoc k (a ++ b) = nassoc k b.
Proof.
  induction a as [|[k' v] a IH]; cbn [app nassoc map fst In]; [reflexivity|]. intro H.
  destruct (Nat.eqb k k') eqn:E; [apply Nat.eqb_eq in E; subst; tauto | apply IH; tauto].
Qed.
Lemma nassoc_app_none {B} k (a b : list (nat * B)) : nassoc k (a ++ b) = None -> nassoc k b = None.
Proof.
  induction a as [|[k' v] a IH]; cbn [app nassoc]; [auto|]. destruct (Nat.eqb k k'); [discriminate | exact IH].
Qed.

Lemma imap_insert_fresh {B} k (v : B) l : ~ In k (map fst l) -> imap_insert k v l = l ++ [(k, v)].
Proof.
  induction l as [|[k' v'] l IH]; cbn [imap_insert map fst In app]; [reflexivity|].
  intro H. destruct (str_eqb k k') eqn:E.
  - apply str_eqb_eq in E. subst. tauto.
  - rewrite IH; [reflexivity | tauto].
Qed.

Lemma entity_kind_ok hf f g n e s k s' :
  c_entity hf f g n e s = COk (k, s') -> ent_kind_ok g e k = true.
Proof.
  destruct f as [|f]; [discriminate|]. cbn [c_entity]. unfold entity_body.
  destruct e as [m|v|v|rf cr|i|c]; intro H; inv_bind H as [x s1] Ha; injection H as <- _; try reflexivity.
  cbn [ent_kind_ok]. unfold ty_body in Ha.
  destruct (node_of g cr) as [[d|a ps r|ex|im ex|r|m]|]; try discriminate;
    inv_bind Ha as [y s2] Hb; injection Ha as <- _; reflexivity.
Qed.

Lemma collect_spec hf f g : forall l acc s m s',
  NoDup (map fst l) -> (forall n, In n (map fst l) -> ~ In n (map fst acc)) ->
  collect (c_entity hf f g) l acc s = COk (m, s') ->
  exists new, m = acc ++ new /\ items_agree g l new.
Proof.
  induction l as [|[n e] l IH]; intros acc s m s' Hnd Hfresh H; cbn [collect] in H.
  - injection H as <- _. exists []. split; [now rewrite app_nil_r | constructor].
  - inv_bind H as [k s1] Ha. cbn [map fst] in Hnd, Hfresh. inversion Hnd as [|? ? Hn Hnd']; subst.
    rewrite imap_insert_fresh in H by (apply Hfresh; now left).
    apply IH in H; [|assumption|].
    + destruct H as [new [-> Hag]]. exists ((n, k) :: new). split; [now rewrite <- app_assoc|].
      constructor; [|assumption]. cbn [fst snd]. split; [reflexivity|]. eapply entity_kind_ok; eassumption.
    + intros x Hx. rewrite map_app, in_app_iff. cbn [map fst In]. intros [Hin|[<-|[]]]; [|contradiction].
      eapply Hfresh; [right; eassumption | assumption].
Qed.

Theorem lists_exactly_holds hf f g t0 p t :
  NoDup (map fst (vg_imports g)) -> NoDup (map fst (vg_exports g)) ->
  from_graph hf f g t0 = COk (p, t) -> lists_exactly g t p.
Proof.
  intros Hi He H. unfold from_graph in H. inv_bind H as [[imports exports] s2] Hc. unfold conv_items in Hc.
  inv_bind Hc as [imports' s1] Ha. inv_bind Hc as [exports' s2'] Ha0. injection Hc as -> -> ->.
  apply collect_spec in Ha; [|assumption|intros ? ? []]. destruct Ha as [im [-> Him]].
  apply collect_spec in Ha0; [|assumption|intros ? ? []]. destruct Ha0 as [ex [-> Hex]].
  cbn [app] in H. unfold add_world, add_if in H. cbn [t_tag t_worlds t_interfaces] in H.
  set (W := mkworld None [] im ex) in *.
  match type of H with match ?X with _ => _ end = _ => assert (EW : X = Some W) end.
  { unfold get_world. cbn [t_tag t_worlds]. apply lookup_new. }
  rewrite EW in H. cbn [w_exports W] in H.
  destruct (find_definitions _ _ ex []) as [defs|]; [|discriminate].
  injection H as <- <-. cbn [pk_ty pk_instance].
  exists W, (mkif None [] ex). repeat split; try assumption.
  unfold get_if. cbn [t_tag t_interfaces]. apply lookup_new.
Qed.

(** the boolean form evaluated by the correspondence driver is sound for the declarative one *)
Lemma items_agree_b_sound g : forall l m, items_agree_b g l m = true -> items_agree g l m.
Proof.
  induction l as [|a l IH]; intros [|b m]; cbn [items_agree_b]; try discriminate; [constructor|].
  intro H. apply andb_prop in H as [H H3]. apply andb_prop in H as [H1 H2].
  constructor; [|now apply IH]. split; [now apply str_eqb_eq | assumption].
Qed.
