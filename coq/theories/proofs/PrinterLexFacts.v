(** C13: facts about the C12 lexer model needed to re-lex printed text: screening as a per-character
    predicate; every token the lexer returns was produced by [scan_token] on a suffix of the source
    with enough fuel, and the characters of its doc comments are characters of the source. *)
From WacV Require Import Str Token Lexer LexTables LexImpl LexerProofs LexerSound Semver Ast Parser Printer PrintSpec PrinterText.
From Coq Require Import Lia.
Local Open Scope nat_scope.

Definition okc (cfg : lexcfg) (c : N) : Prop := arm_verdict (arms cfg) c = None.

Lemma screen_none cfg s : screen cfg s = None <-> Forall (okc cfg) s.
Proof. rewrite Forall_forall. apply screen_from_none. Qed.

Lemma parse_ok_screen d base src doc r : parse_document d base src = POk doc r -> screen (cfg_with d base) src = None.
Proof.
  unfold parse_document, lex. destruct (screen (cfg_with d base) src) as [[e sp]|]; [|reflexivity].
  cbn. discriminate.
Qed.

Section Origin.
Variable cfg : lexcfg.
Variable src : str.   (* the whole source *)

(** The token was cut by [scan_token] out of some text [s1], with fuel above the length of [s1]; the
    characters of its doc comments are source characters. *)
Definition tokfact (t : rtoken) : Prop :=
  (exists F s1 n, scan_token cfg F s1 = ScanTok (tk t) n /\ ttext t = firstn n s1 /\ length s1 < F) /\
  Forall (fun dc => incl (fst dc) src) (tdocs t).

Definition itemfact (it : lexitem) : Prop := match it with LTok t => tokfact t | _ => True end.

Lemma incl_skipn {A} n (l : list A) : incl (skipn n l) l.
Proof. intros x H. rewrite <- (firstn_skipn n l). apply in_or_app. now right. Qed.
Lemma incl_firstn {A} n (l : list A) : incl (firstn n l) l.
Proof. intros x H. rewrite <- (firstn_skipn n l). apply in_or_app. now left. Qed.

Lemma incl_trim s : incl (trim s) s.
Proof. intros x H. now apply In_trim. Qed.

Lemma strip_suffix2_incl a b s x : strip_suffix2 a b s = Some x -> incl x s.
Proof.
  unfold strip_suffix2. destruct (rev s) as [|y [|x0 r0]] eqn:E; try discriminate.
  destruct ((x0 =? a)%N && (y =? b)%N); [|discriminate]. intros H; inversion H; subst.
  intros z Hz. apply in_rev in Hz. apply in_rev. rewrite E. now do 2 right.
Qed.

(** [doc_of_comment] matches on the first three characters as numerals; a character that is none of
    the numerals takes the default branch. Stated for an arbitrary match of that form, so that the
    binary digits are walked with small terms in the branches. *)
Ltac other_numeral :=
  intros; match goal with |- match ?c with _ => _ end = _ =>
    let p := fresh "p" in destruct c as [|p]; [reflexivity|]; do 6 (destruct p as [p|p|]; try reflexivity); congruence end.
Lemma match_slash {A} (a d : A) (c : N) : c <> 47%N -> match c with 47%N => a | _ => d end = d.
Proof. other_numeral. Qed.
Lemma match_star {A} (a d : A) (c : N) : c <> 42%N -> match c with 42%N => a | _ => d end = d.
Proof. other_numeral. Qed.
Lemma match_slash_star {A} (a b d : A) (c : N) :
  c <> 47%N -> c <> 42%N -> match c with 47%N => a | 42%N => b | _ => d end = d.
Proof. other_numeral. Qed.

Lemma doc_of_comment_shape c d :
  doc_of_comment c = Some (Some d) ->
  exists r, (c = 47 :: 47 :: 47 :: r /\ d = trim r)%N \/
            (c = 47 :: 42 :: 42 :: r /\ exists b, strip_suffix2 c_star c_slash r = Some b /\ d = trim b)%N.
Proof.
  unfold doc_of_comment. destruct c as [|c1 l]; [discriminate|].
  destruct (N.eq_dec c1 47) as [->|H1]; [|rewrite match_slash by exact H1; discriminate].
  destruct l as [|c2 l]; [discriminate|].
  destruct (N.eq_dec c2 47) as [->|H2].
  - destruct l as [|c3 r]; [discriminate|].
    destruct (N.eq_dec c3 47) as [->|H3]; [|rewrite match_slash by exact H3; discriminate].
    intros H. exists r. left. inversion H. auto.
  - destruct (N.eq_dec c2 42) as [->|H2']; [|rewrite match_slash_star by assumption; discriminate].
    destruct l as [|c3 r]; [discriminate|].
    destruct (N.eq_dec c3 42) as [->|H3]; [|rewrite match_star by exact H3; discriminate].
    intros H. exists r. right. split; [reflexivity|].
    assert (Hs : match strip_suffix2 c_star c_slash r with Some b => Some (Some (trim b)) | None => None end = Some (Some d)).
    { destruct r as [|c4 r4]; [exact H|]. destruct (N.eq_dec c4 47) as [->|H4]; [destruct r4; [discriminate H|exact H]|].
      rewrite match_slash in H by exact H4. exact H. }
    destruct (strip_suffix2 c_star c_slash r) as [b|]; inversion Hs. eauto.
Qed.

Lemma doc_of_comment_incl c d : doc_of_comment c = Some (Some d) -> incl d c.
Proof.
  intros H. destruct (doc_of_comment_shape _ _ H) as (r & [(-> & ->)|(-> & b & Hb & ->)]);
    intros x Hx; apply In_trim in Hx; do 3 right; [exact Hx|eapply strip_suffix2_incl; eauto].
Qed.

Lemma push_doc_incl alive docs text o docs' :
  push_doc alive docs text o = Some docs' -> incl text src ->
  Forall (fun dc => incl (fst dc) src) docs -> Forall (fun dc => incl (fst dc) src) docs'.
Proof.
  unfold push_doc. destruct alive; [|intros H; inversion H; auto].
  destruct (doc_of_comment text) as [[d|]|] eqn:E; intros H Ht Hd; inversion H; subst; auto.
  apply Forall_app. split; [exact Hd|]. constructor; [|constructor]. cbn [fst].
  intros x Hx. apply Ht. eapply doc_of_comment_incl; eauto.
Qed.

Lemma skip_gap_docs f : forall o s alive docs o1 s1 docs1,
  skip_gap f o s alive docs = GapOk o1 s1 docs1 -> incl s src ->
  Forall (fun dc => incl (fst dc) src) docs -> Forall (fun dc => incl (fst dc) src) docs1.
Proof.
  induction f as [|f IH]; intros o s alive docs o1 s1 docs1; cbn [skip_gap]; [discriminate|].
  destruct s as [|c r]; [intros H; inversion H; subst; auto|].
  intros H Hs Hd.
  assert (Hr : incl r src) by (intros x Hx; apply Hs; now right).
  destruct (is_ws c); [exact (IH _ _ _ _ _ _ _ H Hr Hd)|].
  destruct (c =? c_slash)%N; [|inversion H; subst; auto].
  destruct r as [|c2 r2]; [inversion H; subst; auto|].
  assert (Hr2 : incl r2 src) by (intros x Hx; apply Hr; now right).
  destruct (c2 =? c_slash)%N.
  { set (n := run_len (fun x => negb (x =? c_nl)%N) r2) in *.
    destruct (push_doc alive docs (c :: c2 :: firstn n r2) o) as [docs'|] eqn:Ep; [|discriminate H].
    apply (IH _ _ _ _ _ _ _ H); [intros x Hx; apply Hr2; eapply incl_skipn; eauto|].
    apply (push_doc_incl _ _ _ _ _ Ep); [|exact Hd].
    intros x [<-|[<-|Hx]]; [apply Hs; now left|apply Hs; right; now left|apply Hr2; eapply incl_firstn; eauto]. }
  destruct (c2 =? c_star)%N; [|inversion H; subst; auto].
  destruct (block_comment_length r2) as [n|]; [|discriminate H].
  destruct (push_doc alive docs (firstn n (c :: c2 :: r2)) o) as [docs'|] eqn:Ep; [|discriminate H].
  apply (IH _ _ _ _ _ _ _ H); [intros x Hx; apply Hs; eapply incl_skipn; eauto|].
  apply (push_doc_incl _ _ _ _ _ Ep); [|exact Hd]. intros x Hx. apply Hs. eapply incl_firstn; eauto.
Qed.

Lemma lex_loop_facts fuel : forall o s, length s < fuel -> incl s src -> Forall itemfact (lex_loop fuel cfg o s).
Proof.
  induction fuel as [|f IH]; intros o s Hl Hs; [lia|]. cbn [lex_loop].
  destruct (skip_gap (S f) o s true []) as [o1 s1 docs| | |] eqn:Eg; try (constructor; [exact I|constructor]).
  pose proof (skip_gap_docs _ _ _ _ _ _ _ _ Eg Hs (Forall_nil _)) as Hd.
  destruct (skip_gap_ok _ _ _ _ _ _ _ _ Eg) as (g & -> & _). rewrite app_length in Hl.
  destruct s1 as [|c1 r1]; [constructor|].
  destruct (scan_token cfg (S f) (c1 :: r1)) as [k n|e n|] eqn:Es; try (constructor; [exact I|constructor]).
  destruct (scan_token_bound _ _ _ _ _ Es) as [Hn _].
  constructor.
  - split; [|exact Hd]. exists (S f), (c1 :: r1), n. cbn [tk ttext]. repeat split; auto. lia.
  - apply IH.
    + rewrite skipn_length. cbn [length] in *. lia.
    + intros x Hx. apply Hs, in_or_app. right. eapply incl_skipn; eauto.
Qed.

Lemma lex_facts : Forall itemfact (lex cfg src).
Proof.
  unfold lex. destruct (screen cfg src) as [[e sp]|]; [constructor; [exact I|constructor]|].
  apply lex_loop_facts; [lia|apply incl_refl].
Qed.

End Origin.
