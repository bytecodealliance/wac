(** C05, part C: resources, item declarations, [use], interface bodies. *)
From WacV Require Import Str StrFacts Types Decls WitDenote DeclsProofsA DeclsProofsF DeclsProofsB.
From WacV Require Ast.

(** the state of a body against the denotation's body *)
Definition Rloc (l : loc) (b : body) : Prop :=
  Renv (l_types l) (l_cur l) (b_env b) /\ Rexts (l_types l) (l_exts l) (b_items b).

Lemma kmap_member m : kmap (member_fkind m) = member_kind m.
Proof. destruct m as [docs sp ps|docs i [|] ft]; reflexivity. Qed.
Lemma den_member_eq e r m :
  den_member e r m = option_map (fun f => (member_name r (member_key m) (member_kind m), XFunc f))
                                (den_func e (member_kind m) r (member_params m) (member_results m)).
Proof. destruct m as [docs sp ps|docs i [|] ft]; reflexivity. Qed.

Lemma methods_go_sim : forall ms cur rname r names exts t e items exts' t',
  Renv t cur e -> un t r rname -> Rexts t exts items ->
  methods_go cur rname r names exts t ms = DOk (exts', t') ->
  aext t t' /\ exists fs, all_some (map (den_member e rname) ms) = Some fs /\ Rexts t' exts' (items ++ fs) /\
    (forall k, In k (map member_key ms) -> mem k names = false) /\ distinct (map member_key ms) = true.
Proof.
  induction ms as [|m rest IH]; intros cur rname r names exts t e items exts' t' He Hr Hx H.
  - cbn in H. injection H as <- <-. split; [apply aext_refl|]. exists []. rewrite app_nil_r.
    split; [reflexivity|]. split; [exact Hx|]. split; [intros k []| reflexivity].
  - destruct (methods_go_step H) as (f & t1 & Em & Ef & Eh & H1).
    assert (Hres : forall r0, Some r = Some r0 -> un t r0 rname) by (intros r0 Hr0; now injection Hr0 as <-).
    destruct (func_type_sim He Hres Ef) as [X1 [ft [D1 U1]]].
    rewrite kmap_member in D1. set (en := method_name rname (member_key m) (member_fkind m)) in *.
    assert (Hx1 : Rexts t1 (exts ++ [(en, KFunc f)]) (items ++ [(en, XFunc ft)])).
    { apply R2_snoc; [eapply Rexts_aext; eassumption | now apply uk_func]. }
    destruct (IH _ _ _ _ _ _ _ _ _ _ (Renv_aext X1 He) (un_aext X1 Hr) Hx1 H1) as [X2 [fs [D2 [U2 [Hk Hd]]]]].
    split; [eapply aext_trans; eassumption|]. exists ((en, XFunc ft) :: fs). cbn [map all_some].
    rewrite den_member_eq, D1, D2. cbn [option_map]. rewrite <- method_name_kind.
    split; [reflexivity|]. rewrite <- app_assoc in U2. cbn [app] in U2. split; [exact U2|].
    assert (Hk' : forall k, In k (map member_key rest) -> mem k names = false /\ str_eqb k (member_key m) = false).
    { intros k Hin. specialize (Hk k Hin). cbn [mem] in Hk. apply orb_false_iff in Hk. tauto. }
    split.
    + intros k [<-|Hin]; [exact Em | apply (Hk' k Hin)].
    + cbn [distinct]. rewrite Hd, andb_true_r. apply negb_true_iff.
      destruct (existsb (str_eqb (member_key m)) (map member_key rest)) eqn:Ex; [|reflexivity].
      apply existsb_exists in Ex as [k [Hin Heq]]. apply str_eqb_eq in Heq. subst k.
      destruct (Hk' _ Hin) as [_ Hne]. rewrite str_eqb_refl in Hne. discriminate.
Qed.

Lemma fresh_true {A} {P : A -> sem -> Prop} {Q : kind -> tree -> Prop} {n} {cur : list (str * A)} {env exts items} :
  R2 P cur env -> R2 Q exts items -> has n cur = false -> has n exts = false -> fresh n (mkbody env items) = true.
Proof.
  intros H1 H2 E1 E2. unfold fresh. cbn [b_env b_items].
  now rewrite <- (R2_has n H1), <- (R2_has n H2), E1, E2.
Qed.

Lemma resource_decl_sim dup l b docs i ms l' :
  Rloc l b -> resource_decl dup l i ms = DOk l' ->
  aext (l_types l) (l_types l') /\ exists b', den_decl b (Ast.DResource docs i ms) = Some b' /\ Rloc l' b'.
Proof.
  intros [He Hx] H. rewrite resource_decl_eq in H.
  set (nr := mkres (nm i) None) in *. set (t1 := fst (add_resource (l_types l) nr)) in *.
  set (r := snd (add_resource (l_types l) nr)) in *.
  dinv H as [cur1 [E1 H]]. apply register_ok in E1 as [Eh1 ->].
  destruct (has (nm i) (l_exts l)) eqn:Eh2; [discriminate|]. dinv H as [[exts t2] [E2 H]]. injection H as <-.
  cbn [l_types l_cur l_exts].
  assert (X0 : aext (l_types l) t1) by apply (aext_add_resource (l_types l) nr).
  assert (Hr : un t1 r (nm i)).
  { apply (un_def t1 r nr); [apply get_res_new | reflexivity]. }
  assert (He1 : Renv t1 ((nm i, TResource r) :: l_cur l) ((nm i, SRes (nm i)) :: b_env b)).
  { apply R2_cons; [now constructor | eapply Renv_aext; eassumption]. }
  assert (Hx1 : Rexts t1 (l_exts l ++ [(nm i, KType (TResource r))]) (b_items b ++ [(nm i, XTRes (nm i))])).
  { apply R2_snoc; [eapply Rexts_aext; eassumption | now apply uk_tres]. }
  destruct (methods_go_sim _ _ _ _ _ _ _ _ _ _ _ He1 Hr Hx1 E2) as [X2 [fs [D2 [U2 [_ Hd]]]]].
  split; [eapply aext_trans; eassumption|].
  exists (mkbody ((nm i, SRes (nm i)) :: b_env b) (b_items b ++ (nm i, XTRes (nm i)) :: fs)). split.
  - cbn [den_decl]. cbv zeta. destruct b as [env items]. cbn [b_env b_items] in *.
    rewrite (fresh_true He Hx Eh1 Eh2). cbn [negb]. rewrite Hd. cbn [negb]. rewrite D2. reflexivity.
  - split; cbn [l_types l_cur l_exts b_env b_items].
    + eapply Renv_aext; eassumption.
    + rewrite <- app_assoc in U2. exact U2.
Qed.

Definition den_item_plain (b : body) (d : Ast.item_type_decl) : option body :=
  match den_plain (b_env b) d with
  | Some s => if fresh (dname d) b then Some (mkbody ((dname d, s) :: b_env b) (b_items b ++ [(dname d, sem_tree s)]))
              else None
  | None => None
  end.

Lemma item_plain_sim dup l b d l' :
  Rloc l b -> item_plain dup l d = DOk l' ->
  aext (l_types l) (l_types l') /\ exists b', den_item_plain b d = Some b' /\ Rloc l' b'.
Proof.
  intros [He Hx] H. unfold item_plain in H. dinv H as [[x t1] [E1 H]]. dinv H as [cur1 [E2 H]].
  apply register_ok in E2 as [Eh1 ->]. destruct (has (decl_name d) (l_exts l)) eqn:Eh2; [discriminate|]. injection H as <-.
  rewrite decl_name_dname in *. cbn [l_types l_cur l_exts].
  destruct (plain_decl_sim He E1) as [X1 [s [D1 U1]]]. split; [exact X1|].
  unfold den_item_plain. rewrite D1. destruct b as [env items]. cbn [b_env b_items] in *.
  rewrite (fresh_true He Hx Eh1 Eh2). eexists. split; [reflexivity|].
  split; cbn [l_types l_cur l_exts b_env b_items].
  - apply R2_cons; [exact U1 | eapply Renv_aext; eassumption].
  - apply R2_snoc; [eapply Rexts_aext; eassumption | now apply rel_item_uk].
Qed.

Lemma den_decl_plain b d : is_resource d = false -> den_decl b d = den_item_plain b d.
Proof. destruct d; [discriminate | reflexivity ..]. Qed.

Lemma item_type_decl_sim {dup l b d l'} :
  Rloc l b -> item_type_decl dup l d = DOk l' ->
  aext (l_types l) (l_types l') /\ exists b', den_decl b d = Some b' /\ Rloc l' b'.
Proof.
  intros Hl H. destruct (is_resource d) eqn:Er.
  - destruct (is_resource_inv Er) as (docs & i & ms & ->). eapply resource_decl_sim; eassumption.
  - rewrite (item_type_decl_plain _ _ _ Er) in H. rewrite (den_decl_plain _ _ Er). eapply item_plain_sim; eassumption.
Qed.

Lemma use_items_sim iface x src : forall items l b l',
  get_if (l_types l) iface = Some x -> Rexts (l_types l) (i_exports x) src -> Rloc l b ->
  use_items iface l items = DOk l' ->
  l_types l' = l_types l /\ exists b', den_use_items src b items = Some b' /\ Rloc l' b'.
Proof.
  induction items as [|it rest IH]; intros l b l' Hg Hs Hl H.
  - cbn in H. injection H as <-. split; [reflexivity|]. exists b. auto.
  - destruct (use_items_step Hg H) as [y [Ea [Hu [Eh2 [Eh1 H1]]]]].
    destruct (R2_assoc_some Hs Ea) as [tr0 [As Hk]]. destruct Hl as [He Hx].
    assert (Hsem : exists s, used_sem tr0 = Some s /\ rel_item (l_types l) y s).
    { destruct Hu as [[r ->]|[v ->]].
      - destruct (uk_tres_inv _ _ _ Hk) as [n [-> Hn]]. exists (SRes n). split; [reflexivity | now constructor].
      - destruct (uk_tvalue_inv _ _ _ Hk) as [vt [-> Hv]]. exists (SVal vt). split; [reflexivity | now constructor]. }
    destruct Hsem as [s [Us Ry]]. destruct b as [env items]. cbn [b_env b_items] in *.
    assert (R0 : Rloc (mkloc ((use_local it, y) :: l_cur l) (imap_set (use_local it) (use_rec iface it) (l_uses l))
                             (l_exts l ++ [(use_local it, KType y)]) (l_types l))
                      (mkbody ((use_local it, s) :: env) (items ++ [(use_local it, tr0)]))).
    { split; cbn [l_types l_cur l_exts b_env b_items].
      - apply R2_cons; assumption.
      - apply R2_snoc; assumption. }
    pose proof (fun hg hs => IH _ _ _ hg hs R0 H1) as IH1. destruct (IH1 Hg Hs) as [Ht [b' [D1 R1]]].
    cbn [l_types] in Ht. split; [exact Ht|]. exists b'. split; [|exact R1].
    cbn [den_use_items]. fold (use_local it). rewrite As, Us.
    rewrite (fresh_true He Hx Eh1 Eh2). exact D1.
Qed.

Definition Rpk (t : types) (pkgs : pkgtab) (penv : penv_t) : Prop :=
  pk_own pkgs = pe_own penv /\ Renv t (pk_ext pkgs) (pe_ext penv).
Lemma Rpk_aext {t t' pkgs penv} : aext t t' -> Rpk t pkgs penv -> Rpk t' pkgs penv.
Proof. intros Hx [H1 H2]. split; [exact H1 | eapply Renv_aext; eassumption]. Qed.

(** a path that names an interface or a world (or a component) is a one-segment local path or an external one,
    and denotes the related item *)
Lemma path_item_sim {t root pkgs genv penv pp k} :
  flat t -> Renv t root genv -> Rpk t pkgs penv -> path_item root pkgs t pp = DOk k -> leafk k = false ->
  exists x s, k = KType x /\ den_path genv penv pp = Some s /\ rel_item t x s.
Proof.
  intros Hf Hg [Ho Hp] H Hl. unfold den_path. rewrite <- Ho.
  destruct (path_item_cases _ _ _ _ _ Hf H) as [[Eo [Hn [x [Ea ->]]]]|[[Eo Hk]|[Eo [x [Ea ->]]]]].
  - rewrite Eo, Hn. destruct (R2_assoc_some Hg Ea) as [s [As Hs]]. eauto.
  - congruence.
  - rewrite Eo. destruct (R2_assoc_some Hp Ea) as [s [As Hs]]. eauto.
Qed.

Definition use_src_sem (genv : env) (penv : penv_t) (p : Ast.use_path) : option sem :=
  match p with
  | Ast.UPPackage pp => den_path genv penv pp
  | Ast.UPIdent i => assoc (nm i) genv
  end.

Lemma use_source_sim {t root pkgs genv penv p iface} :
  flat t -> Renv t root genv -> Rpk t pkgs penv -> use_source root pkgs t p = DOk iface ->
  exists x src, use_src_sem genv penv p = Some (SIface (i_id x) src) /\ get_if t iface = Some x /\ Rexts t (i_exports x) src.
Proof.
  intros Hf Hg Hp H. destruct p as [pp|i]; cbn [use_source use_src_sem] in *.
  - dinv H as [k [E1 H]]. destruct k as [[r|f|v|i|w|m]|f|i|w|m|v]; try discriminate. injection H as <-.
    destruct (path_item_sim Hf Hg Hp E1 eq_refl) as [x [s [Ek [Ds Hs]]]]. injection Ek as <-.
    apply rel_item_inv in Hs as (y & ee & -> & G & Hx). eauto.
  - dinv H as [it [E1 H]]. destruct (lookup_in_sim Hg E1) as [s [As Hs]]. apply rel_item_inv in Hs.
    destruct it; try discriminate. injection H as <-. destruct Hs as (y & ee & -> & G & Hx). eauto.
Qed.

Lemma den_use_eq genv penv b u :
  den_use genv penv b u = match use_src_sem genv penv (Ast.u_path u) with
                          | Some (SIface _ src) => den_use_items src b (Ast.u_items u)
                          | _ => None
                          end.
Proof. reflexivity. Qed.

Lemma use_type_sim {root pkgs genv penv l b u l'} :
  flat (l_types l) -> Renv (l_types l) root genv -> Rpk (l_types l) pkgs penv -> Rloc l b ->
  use_type root pkgs l u = DOk l' ->
  l_types l' = l_types l /\ exists b', den_use genv penv b u = Some b' /\ Rloc l' b'.
Proof.
  intros Hf Hg Hp Hl H. unfold use_type in H. dinv H as [iface [E1 H]].
  destruct (use_source_sim Hf Hg Hp E1) as [x [src [Ds [G Hs]]]].
  rewrite den_use_eq, Ds. eapply use_items_sim; eassumption.
Qed.

Lemma interface_item_step_sim {root pkgs genv penv l b it l1} :
  flat (l_types l) -> Renv (l_types l) root genv -> Rpk (l_types l) pkgs penv -> Rloc l b ->
  interface_item_step root pkgs l it = DOk l1 ->
  aext (l_types l) (l_types l1) /\ exists b1, Rloc l1 b1 /\
    forall rest, den_iface_items genv penv b (it :: rest) = den_iface_items genv penv b1 rest.
Proof.
  intros Hf Hg Hp Hl E1. destruct it as [u|d|docs i r]; cbn [interface_item_step den_iface_items] in *.
  - destruct (use_type_sim Hf Hg Hp Hl E1) as [Ht [b1 [D1 R1]]]. rewrite Ht, D1. split; [apply aext_refl | eauto].
  - destruct (item_type_decl_sim Hl E1) as [X1 [b1 [D1 R1]]]. rewrite D1. eauto.
  - destruct Hl as [He Hx]. dinv E1 as [[f t1] [E0 E1]].
    destruct (has (nm i) (l_exts l)) eqn:Eh; [discriminate|]. injection E1 as <-. cbn [l_types].
    destruct (func_type_ref_sim He E0) as [X1 [ft [D1 U1]]]. split; [exact X1|].
    rewrite D1, <- (R2_has (nm i) Hx), Eh. eexists. split; [|reflexivity].
    split; cbn [l_types l_cur l_exts b_env b_items].
    + eapply Renv_aext; eassumption.
    + apply R2_snoc; [eapply Rexts_aext; eassumption | now apply uk_func].
Qed.

Lemma interface_items_sim root pkgs genv penv : forall items l b l',
  flat (l_types l) -> Renv (l_types l) root genv -> Rpk (l_types l) pkgs penv -> Rloc l b ->
  interface_items root pkgs l items = DOk l' ->
  aext (l_types l) (l_types l') /\ exists b', den_iface_items genv penv b items = Some b' /\ Rloc l' b'.
Proof.
  induction items as [|it rest IH]; intros l b l' Hf Hg Hp Hl H.
  - cbn in H. injection H as <-. split; [apply aext_refl|]. exists b. auto.
  - rewrite interface_items_cons in H. dinv H as [l1 [E1 H]].
    destruct (interface_item_step_sim Hf Hg Hp Hl E1) as [X1 [b1 [R1 D1]]].
    destruct (interface_item_step_frame E1) as [F1 _].
    destruct (IH _ _ _ (flat_frame F1 Hf) (Renv_aext X1 Hg) (Rpk_aext X1 Hp) R1 H) as [X2 [b' [D2 R2']]].
    split; [eapply aext_trans; eassumption|]. exists b'. split; [|exact R2']. rewrite D1. exact D2.
Qed.

Lemma interface_body_sim {root pkgs genv penv t idn items i t'} :
  flat t -> Renv t root genv -> Rpk t pkgs penv -> interface_body root pkgs t idn items = DOk (i, t') ->
  aext t t' /\ exists e, den_iface genv penv items = Some e /\ rel_item t' (TInterface i) (SIface idn e) /\
                         exists x, get_if t' i = Some x /\ i_id x = idn /\ Rexts t' (i_exports x) e.
Proof.
  intros Hf Hg Hp H. unfold interface_body in H. dinv H as [l [E1 H]].
  destruct (interface_items_sim root pkgs genv penv items (mkloc [] [] [] t) (mkbody [] []) l Hf Hg Hp) as [X1 [b' [D1 [_ Rx]]]];
    [split; apply R2_nil | exact E1 |]. cbn [l_types] in X1.
  set (x := mkif idn (l_uses l) (l_exts l)) in *. unfold add_interface in H. injection H as <- <-.
  assert (X2 : aext (l_types l) (fst (add_interface (l_types l) x))) by apply aext_add_interface.
  split; [eapply aext_trans; eassumption|]. exists (b_items b'). unfold den_iface. rewrite D1. split; [reflexivity|].
  assert (G : get_if (fst (add_interface (l_types l) x)) (snd (add_interface (l_types l) x)) = Some x) by apply get_if_new.
  assert (Rx' : Rexts (fst (add_interface (l_types l) x)) (i_exports x) (b_items b')).
  { eapply Rexts_aext; [exact X2 | exact Rx]. }
  split.
  - apply (RI_if _ _ x _ G Rx').
  - exists x. auto.
Qed.
