(** Which panics the conversion can raise.

    On a well-typed validator graph ([ConvertSpec.wt_graph_b]: reference sorts, unique item names) the conversion never
    indexes an arena out of range, never finds an entry of the wrong kind in its cache and never inserts an item twice:
    [PBadIndex], [PInvalidCached], [PDupItem] are impossible.  What remains is
      [PDupOwner]          [use_or_own]'s [assert!(prev.is_none())]  (finding F1), and
      [PExpectedResource]  a handle [own r] / [borrow r] whose resource has not been converted. *)
From WacV Require Import Str StrFacts Types CheckerEq Convert ConvertSpec ConvertProofs ConvertFrame ConvertCache ConvertIds.
Set Warnings "-unused-intro-pattern".

Definition mild {A} (x : cres A) : Prop :=
  match x with CPanic PInvalidCached | CPanic PBadIndex | CPanic PDupItem => False | _ => True end.
Lemma mild_bind {A B} (x : cres A) (f : A -> cres B) : mild x -> (forall a, x = COk a -> mild (f a)) -> mild (bind x f).
Proof. destruct x; cbn [bind]; intros H1 H2; auto. Qed.
Lemma mild_ok {A} (a : A) : mild (COk a).
Proof. exact I. Qed.

Lemma nodup_names_sound l : nodup_names l = true -> NoDup l.
Proof.
  induction l as [|x l IH]; cbn [nodup_names]; [constructor|]. intro H. apply andb_prop in H as [H1 H2].
  constructor; [|auto]. intro Hin. apply negb_true_iff in H1. assert (existsb (str_eqb x) l = true); [|congruence].
  apply existsb_exists. exists x. split; [exact Hin | apply str_eqb_refl].
Qed.
(** Conversions leave every slot they did not allocate alone -- unconditionally. *)
Section Frame.
  Variable g : vgraph.
  Definition fr_ok {R} (F : cstate -> cres (R * cstate)) : Prop :=
    forall s r s', F s = COk (r, s') -> agree [] (cs_types s) (cs_types s').

  Lemma c_module_fr v : fr_ok (c_module g v).
  Proof.
    intros s r s' H. destruct (c_module_run _ _ _ _ _ H) as [[_ ->]|[mt [_ [_ [_ ->]]]]]; [apply agree_refl | apply (agree_add_mod (cs_types s))].
  Qed.
  Lemma c_resource_fr hf name v : fr_ok (c_resource hf g name v).
  Proof.
    intros s r s' H.
    destruct (c_resource_run _ _ _ _ _ _ _ H) as [[_ ->]|[rid [rr [_ [_ [_ [[src [ownr [_ [_ ->]]]]|[_ [_ ->]]]]]]]]];
      [apply agree_refl | apply (agree_add_res (cs_types s)) | apply (agree_add_res (cs_types s))].
  Qed.

  Definition open_of (s0 : cstate) : list slot :=
    [(true, length (t_interfaces (cs_types s0))); (false, length (t_worlds (cs_types s0)))].
  Lemma agree_fresh s0 t1 t2 : agree [] (cs_types s0) t1 -> agree (open_of s0) t1 t2 -> agree [] (cs_types s0) t2.
  Proof.
    intros A B. apply (agree_open (open_of s0) [] _ t1); [|exact A|now rewrite app_nil_r].
    intros b i [E|[E|[]]]; injection E as <- <-; apply Nat.le_refl.
  Qed.

  Theorem c_entity_fr hf fuel n e : fr_ok (c_entity hf fuel g n e).
  Proof.
    intros s r s' H.
    assert (K : forall s0 O (F : cstate -> cres cstate),
              (forall s s', F s = COk s' -> agree O (cs_types s) (cs_types s')) -> (forall x, In x O -> In x (open_of s0)) ->
              keeps1 (fun _ => True) (fun a b => agree (open_of s0) (cs_types a) (cs_types b)) F).
    { intros s0 O F HF HO a b _ Ha. split; [exact I|]. eapply agree_weaken; [exact HO | exact (HF a b Ha)]. }
    refine (proj2 (c_entity_walk g hf (fun _ => True) (fun _ s0 a b => agree (open_of s0) (cs_types a) (cs_types b))
                     (fun _ a b => agree [] (cs_types a) (cs_types b)) (fun _ _ _ => True)
                     _ _ _ _ _ _ _ _ _ _ _ _ _ _ _ _ _ _ _ fuel n e (fun a b => agree [] (cs_types a) (cs_types b)) _ _ s r s' I H)).
    - intros; apply agree_refl.
    - intros v s0 a b c. apply agree_trans.
    - intros; apply agree_refl.
    - intros v nd c s0 a b _ _. apply agree_nil.
    - intros v s0 a dd x s1 _ A H1. destruct (mk_def_run _ _ _ _ H1) as [_ ->]. split; [exact I|]. split; [|exact I].
      eapply agree_trans; [exact A|]. apply agree_nil, agree_add_def.
    - intros; split; exact I.
    - intros d nd a s1 x _ _ _ _ A _. split; [exact I|]. exact (agree_fresh a _ _ (agree_refl _ _) A).
    - intros v a ps r0 a0 s2 ft f t _ _ _ _ A Ea. split; [exact I|]. apply (agree_fresh a0 _ _ (agree_refl _ _)).
      eapply agree_trans; [exact A|]. replace t with (snd (add_func (cs_types s2) ft)) by now rewrite Ea. apply agree_nil, agree_add_func.
    - intros v a b c _ Ha. split; [exact I | exact (c_module_fr v a b c Ha)].
    - intros nm v a b c _ Ha. split; [exact I | exact (c_resource_fr hf nm v a b c Ha)].
    - intros v s0 vn ow nm rf cr. apply (K s0 []); [|intros x []]. intros a b Ha. exact (proj1 (use_or_own_frame _ _ _ _ _ _ _ _ _ Ha)).
    - intros v s0 me k. apply (K s0 []); [|intros x []]. intros a b Ha. exact (proj1 (reset_self_owner_frame _ _ _ _ Ha)).
    - intros v s0 x me t nm k Ea. apply (K s0 [(true, id_idx me)]).
      + intros a b Ha. exact (proj1 (sv_put _ _ _ (if_slot me) _ _ _ _ Ha)).
      + unfold add_if in Ea. injection Ea as <- _. intros y [<-|[]]. now left.
    - intros v s0 x me t nm k Ea. apply (K s0 [(false, id_idx me)]).
      + intros a b Ha. exact (proj1 (sv_put _ _ _ (imports_slot me) _ _ _ _ Ha)).
      + unfold add_world in Ea. injection Ea as <- _. intros y [<-|[]]. right. now left.
    - intros v s0 x me t nm k Ea. apply (K s0 [(false, id_idx me)]).
      + intros a b Ha. exact (proj1 (sv_put _ _ _ (exports_slot me) _ _ _ _ Ha)).
      + unfold add_world in Ea. injection Ea as <- _. intros y [<-|[]]. right. now left.
    - intros; exact I.
    - intros; exact I.
    - intros v ex a nm me t s1 _ _ _ Ea _ A. split; [exact I|]. apply (agree_fresh a t); [|exact A].
      replace t with (snd (add_if (cs_types a) (mkif (iface_id_of nm) [] []))) by now rewrite Ea. apply agree_add_if.
    - intros v im ex a nm me t s1 _ _ _ Ea _ A. split; [exact I|]. apply (agree_fresh a t); [|exact A].
      replace t with (snd (add_world (cs_types a) (mkworld (iface_id_of nm) [] [] []))) by now rewrite Ea. apply agree_add_world.
    - intros; apply agree_refl.
    - intros c a b _ A. exact A.
  Qed.
End Frame.

Section Progress.
  Variable g : vgraph.
  Hypothesis WT : wt_graph_b g = true.

  Lemma wt_node_of v n : node_of g v = Some n -> wt_node g n = true.
  Proof.
    unfold node_of. destruct (nth_error (vg_nodes g) v) as [[n' p]|] eqn:E; [|discriminate]. intro H. injection H as <-.
    unfold wt_graph_b in WT. apply andb_prop in WT as [W _]. apply andb_prop in W as [W _].
    rewrite forallb_forall in W. exact (W _ (nth_error_In _ _ E)).
  Qed.

  Definition pg {R} (F : cstate -> cres (R * cstate)) : Prop := forall s, ids_inv g s -> mild (F s).

  Lemma mapM_pg {A B} (f : A -> cstate -> cres (B * cstate)) : forall l,
    (forall a, In a l -> pg (f a)) -> (forall a, id_ok g (f a)) -> pg (mapM f l).
  Proof.
    induction l as [|a l IH]; intros Hp Hi s I; cbn [mapM]; [exact Logic.I|].
    apply mild_bind; [apply Hp; [now left | exact I]|]. intros [y s1] H1.
    apply mild_bind; [|intros [ys s2] _; exact Logic.I]. apply IH; [intros x Hx; apply Hp; now right | exact Hi|].
    exact (proj1 (Hi a _ _ _ I H1)).
  Qed.
  Lemma optM_pg {A B} (f : A -> cstate -> cres (B * cstate)) o : (forall a, o = Some a -> pg (f a)) -> pg (optM f o).
  Proof.
    intros Hp s I. destruct o as [a|]; cbn [optM]; [|exact Logic.I]. apply mild_bind; [now apply Hp|]. intros [y s1] _. exact Logic.I.
  Qed.
  Lemma named_pg {K A B} (f : A -> cstate -> cres (B * cstate)) (kv : K * A) : pg (f (snd kv)) -> pg (named f kv).
  Proof. intros Hp s I. unfold named. apply mild_bind; [now apply Hp|]. intros [y s1] _. exact Logic.I. Qed.

  Lemma hit_kind s v e : ids_inv g s -> nassoc v (cs_cache s) = Some e -> node_matches (node_of g v) e.
  Proof. intros I H. exact (iv_kind _ _ I _ _ (nassoc_in _ _ _ H)). Qed.

  Section DefBody.
    Variable R : vid -> cstate -> cres (valtype * cstate).
    Hypothesis HRp : forall d, is_def g d = true -> pg (R d).
    Hypothesis HRi : forall d, id_ok g (R d).

    Lemma val_body_pg v : wt_val g v = true -> pg (val_body R v).
    Proof. intros W. destruct v as [p|d]; cbn [val_body]; [intros s _; exact Logic.I | now apply HRp]. Qed.
    Lemma mk_def_pg d s : mild (mk_def d s).
    Proof. exact Logic.I. Qed.

    Lemma defined_body_pg d : is_def g d = true -> pg (defined_body R g d).
    Proof.
      intros Hd s I. unfold defined_body. unfold is_def in Hd.
      destruct (node_of g d) as [[nd| | | | | ]|] eqn:En; try discriminate.
      destruct (nassoc d (cs_cache s)) as [e|] eqn:Ec.
      { pose proof (hit_kind _ _ _ I Ec) as K. rewrite En in K. destruct e as [[ | |x| | | ]|]; try contradiction. exact Logic.I. }
      pose proof (wt_node_of _ _ En) as W. cbn [wt_node] in W.
      apply mild_bind; [|intros [v s1] _; exact Logic.I].
      assert (VI : forall v, id_ok g (val_body R v)) by (intro v; apply val_body_keeps; [apply adv_refl | intros c _; apply HRi]).
      destruct nd as [p|fs|cs|x|k x|x n|l|l|l|x|o e|r0|r0|o|o]; cbn [wt_def] in W; try exact Logic.I.
      - apply mild_bind; [|intros [a s0] _; exact Logic.I]. apply mapM_pg; [|intro a; apply named_keeps, VI|exact I].
        intros a Ha. apply named_pg. apply val_body_pg. rewrite forallb_forall in W. exact (W a Ha).
      - apply mild_bind; [|intros [a s0] _; exact Logic.I]. apply mapM_pg; [|intro a; apply named_keeps, optM_keeps; [apply adv_refl | intros; apply VI]|exact I].
        intros a Ha. apply named_pg. apply optM_pg. intros y Hy. apply val_body_pg. rewrite forallb_forall in W. specialize (W a Ha).
        cbn beta in W. rewrite Hy in W. exact W.
      - apply mild_bind; [|intros [a s0] _; exact Logic.I]. now apply val_body_pg.
      - apply mild_bind; [|intros [a s0] _; exact Logic.I]. now apply val_body_pg.
      - apply mild_bind; [|intros [a s0] _; exact Logic.I]. apply mapM_pg; [|exact VI|exact I].
        intros a Ha. apply val_body_pg. rewrite forallb_forall in W. exact (W a Ha).
      - apply mild_bind; [|intros [a s0] _; exact Logic.I]. now apply val_body_pg.
      - apply andb_prop in W as [W1 W2]. apply mild_bind.
        + apply optM_pg; [|exact I]. intros y ->. now apply val_body_pg.
        + intros [a s0] H0. apply mild_bind; [|intros [b s00] _; exact Logic.I]. apply optM_pg.
          * intros y ->. now apply val_body_pg.
          * exact (proj1 (optM_keeps _ _ adv_refl _ o (fun a _ => VI a) _ _ _ I H0)).
      - unfold res_of_cache. destruct (nassoc r0 (cs_cache s)) as [[|]|]; exact Logic.I.
      - unfold res_of_cache. destruct (nassoc r0 (cs_cache s)) as [[|]|]; exact Logic.I.
      - apply mild_bind; [|intros [a s0] _; exact Logic.I]. apply optM_pg; [|exact I]. intros y ->. now apply val_body_pg.
      - apply mild_bind; [|intros [a s0] _; exact Logic.I]. apply optM_pg; [|exact I]. intros y ->. now apply val_body_pg.
    Qed.
  End DefBody.

  Lemma c_defined_pg : forall fuel d, is_def g d = true -> pg (c_defined fuel g d).
  Proof.
    induction fuel as [|f IH]; intros d Hd; [intros s _; exact Logic.I|]. cbn [c_defined].
    apply defined_body_pg; [exact IH | apply c_defined_id | exact Hd].
  Qed.
  Lemma c_val_pg fuel v : wt_val g v = true -> pg (c_val fuel g v).
  Proof. intro W. unfold c_val. apply val_body_pg; [intros d Hd; now apply c_defined_pg | exact W]. Qed.

  Lemma c_func_pg fuel v : is_func g v = true -> pg (c_func fuel g v).
  Proof.
    intros Hv s I. unfold c_func. unfold is_func in Hv.
    destruct (node_of g v) as [[ |a ps r0| | | | ]|] eqn:En; try discriminate.
    destruct (nassoc v (cs_cache s)) as [e|] eqn:Ec.
    { pose proof (hit_kind _ _ _ I Ec) as K. rewrite En in K. destruct e as [[ |f0| | | | ]|]; try contradiction. exact Logic.I. }
    pose proof (wt_node_of _ _ En) as W. cbn [wt_node] in W. apply andb_prop in W as [W1 W2].
    apply mild_bind.
    - apply mapM_pg; [|intro x; apply named_keeps, c_val_id|exact I]. intros x Hx. apply named_pg. apply c_val_pg.
      rewrite forallb_forall in W1. exact (W1 x Hx).
    - intros [ps' s1] H1. apply mild_bind; [|intros [r' s2] _; exact Logic.I]. apply optM_pg.
      + intros y ->. now apply c_val_pg.
      + exact (proj1 (mapM_keeps _ _ adv_refl adv_trans _ ps (fun x _ => named_keeps _ _ _ x (c_val_id g fuel _)) _ _ _ I H1)).
  Qed.
  Lemma c_module_pg v : is_mod g v = true -> pg (c_module g v).
  Proof.
    intros Hv s I. unfold c_module. unfold is_mod in Hv.
    destruct (node_of g v) as [[ | | | | |mt]|] eqn:En; try discriminate.
    destruct (nassoc v (cs_cache s)) as [e|] eqn:Ec.
    { pose proof (hit_kind _ _ _ I Ec) as K. rewrite En in K. destruct e as [[ | | | | |m0]|]; try contradiction. exact Logic.I. }
    destruct mt; exact Logic.I.
  Qed.
  Lemma c_resource_pg hf name v : is_res g v = true -> pg (c_resource hf g name v).
  Proof.
    intros Hv s I. unfold c_resource. unfold is_res in Hv.
    destruct (node_of g v) as [[ | | | |rid| ]|] eqn:En; try discriminate.
    destruct (nassoc v (cs_cache s)) as [e|] eqn:Ec.
    { pose proof (hit_kind _ _ _ I Ec) as K. rewrite En in K. destruct e as [|r0]; try contradiction. exact Logic.I. }
    destruct (nassoc rid (cs_resmap s)); [|exact Logic.I]. destruct (find_owner hf g (cs_owners s) v); exact Logic.I.
  Qed.

  (** a converted resource is in range *)
  Lemma c_resource_valid hf name v s r s' : ids_inv g s -> c_resource hf g name v s = COk (r, s') -> get_res (cs_types s') r <> None.
  Proof.
    intros I H. destruct (c_resource_id g hf name v _ _ _ I H) as [I' _].
    pose proof (c_resource_fills g hf name v _ _ _ H) as F. apply nassoc_in in F.
    pose proof (iv_valid _ _ I' _ _ F) as V. unfold valid_ent in V. cbn [ent_slot arena_len] in V. destruct V as [V1 V2].
    unfold get_res, lookup. rewrite V1, N.eqb_refl. apply nth_error_Some. exact V2.
  Qed.

  Definition kind_ok (t : types) (k : kind) : Prop :=
    match k with KType (TResource r) => get_res t r <> None | _ => True end.

  Lemma use_or_own_mild hf vn ow name rf cr s :
    (match ow with OwIface me => get_if (cs_types s) me <> None | OwWorld me => get_world (cs_types s) me <> None end) ->
    mild (use_or_own hf g vn ow name rf cr s).
  Proof.
    intros Hs. unfold use_or_own. destruct (find_owner hf g (cs_owners s) rf) as [[[other orig]|]|]; [| |exact Logic.I].
    - apply mild_bind; [|intros; exact Logic.I]. destruct other as [i|w]; [|exact Logic.I].
      destruct (owner_eqb ow (OwIface i)); [exact Logic.I|]. destruct ow as [me|me].
      + destruct (get_if (cs_types s) me) as [x|] eqn:Ex; [|contradiction]. unfold upd_if. rewrite Ex. exact Logic.I.
      + destruct (get_world (cs_types s) me) as [x|] eqn:Ex; [|contradiction]. unfold upd_world. rewrite Ex. exact Logic.I.
    - destruct (nassoc cr (cs_owners s)); exact Logic.I.
  Qed.
  Lemma reset_self_owner_mild me k s : kind_ok (cs_types s) k -> mild (reset_self_owner me k s).
  Proof.
    intros Hk. unfold reset_self_owner. destruct k as [[res| | | | | ]| | | | | ]; try exact Logic.I. cbn [kind_ok] in Hk.
    destruct (get_res (cs_types s) res) as [r|] eqn:Er; [|contradiction].
    destruct (res_alias r) as [[[o|] src]|]; try exact Logic.I. destruct (id_eqb o me); [|exact Logic.I].
    unfold upd_res. rewrite Er. exact Logic.I.
  Qed.

  Section Bodies.
    Variable hf : nat.
    Variable E : str -> vent -> cstate -> cres (kind * cstate).
    Hypothesis HEp : forall n e, wt_ent g e = true -> pg (E n e).
    Hypothesis HEi : forall n e, id_ok g (E n e).
    Hypothesis HEf : forall n e, fr_ok (E n e).
    Hypothesis HEk : forall n e s k s', ids_inv g s -> E n e s = COk (k, s') -> kind_ok (cs_types s') k.

    (** the loop raises none of the three panics: the slot exists, and the names of the items it holds are those of
        the items converted so far, so a well-typed item list never inserts a name twice *)
    Section Loop.
      Context {X : Type}.
      Variables (sl : slot) (mid : str -> vent -> kind -> cstate -> cres cstate) (put : str -> kind -> cstate -> cres cstate)
                (view : types -> option (list (str * kind) * X)).
      Hypothesis Hmid : forall n e k s s', mid n e k s = COk s' -> agree [] (cs_types s) (cs_types s') /\ tables_kept s s'.
      Hypothesis Hmild : forall n e k s v, kind_ok (cs_types s) k -> view (cs_types s) = Some v -> mild (mid n e k s).
      Hypothesis SV : slot_view sl put view.

      Lemma item_loop_pg : forall l s m x,
        ids_inv g s -> view (cs_types s) = Some (m, x) -> NoDup (map fst m ++ map fst l) ->
        forallb (fun kv => wt_ent g (snd kv)) l = true -> mild (item_loop E mid put l s).
      Proof.
        induction l as [|[n e] l IH]; intros s m x I Hx Hnd Hw; cbn [item_loop]; [exact Logic.I|].
        cbn [forallb snd] in Hw. apply andb_prop in Hw as [We Wl].
        apply mild_bind; [now apply HEp|]. intros [k s1] H1.
        destruct (HEi _ _ _ _ _ I H1) as [I1 _].
        pose proof (sv_keep _ _ _ SV _ _ _ (HEf _ _ _ _ _ H1) Hx) as Hx1.
        apply mild_bind; [exact (Hmild n e k s1 _ (HEk _ _ _ _ _ I H1) Hx1)|]. intros s2 H2.
        pose proof (Hmid _ _ _ _ _ H2) as F2. pose proof (frame_inv g _ _ _ F2 I1) as I2.
        pose proof (sv_keep _ _ _ SV _ _ _ (proj1 F2) Hx1) as Hx2.
        assert (Hfresh : assoc n m = None).
        { apply assoc_none. cbn [map fst] in Hnd. intro Hin. apply (NoDup_remove_2 _ _ _ Hnd). apply in_or_app. now left. }
        apply mild_bind; [destruct (sv_fresh _ _ _ SV n k s2 m x Hx2 Hfresh) as [s3 ->]; exact Logic.I|].
        intros s3 H3. destruct (sv_put _ _ _ SV _ _ _ _ H3) as [A3 [K3 [m' [x' [Hy [_ Hx3]]]]]]. rewrite Hx2 in Hy. injection Hy as <- <-.
        apply (IH s3 _ x (frame_inv g _ _ _ (conj A3 K3) I2) Hx3); [|exact Wl].
        rewrite map_app. cbn [map fst]. rewrite <- app_assoc. exact Hnd.
      Qed.

      Lemma item_loop_run : forall l s s' m x,
        ids_inv g s -> view (cs_types s) = Some (m, x) -> item_loop E mid put l s = COk s' ->
        ids_inv g s' /\ exists m', view (cs_types s') = Some (m', x).
      Proof.
        induction l as [|[n e] l IH]; intros s s' m x I Hx H; cbn [item_loop] in H; [injection H as <-; eauto|].
        inv_bind H as [k s1] H1. inv_bind H as s2 H2. inv_bind H as s3 H3.
        destruct (HEi _ _ _ _ _ I H1) as [I1 _]. pose proof (Hmid _ _ _ _ _ H2) as F2.
        pose proof (sv_keep _ _ _ SV _ _ _ (proj1 F2) (sv_keep _ _ _ SV _ _ _ (HEf _ _ _ _ _ H1) Hx)) as Hx2.
        destruct (sv_put _ _ _ SV _ _ _ _ H3) as [A3 [K3 [m' [x' [Hy [_ Hx3]]]]]]. rewrite Hx2 in Hy. injection Hy as <- <-.
        exact (IH s3 s' _ x (frame_inv g _ _ _ (conj A3 K3) (frame_inv g _ _ _ F2 I1)) Hx3 H).
      Qed.
    End Loop.

    Lemma own_if_mild vn me n e k s v : kind_ok (cs_types s) k -> if_view me (cs_types s) = Some v -> mild (own_if hf g vn me n e k s).
    Proof.
      intros K Hv. unfold own_if. destruct e as [ | | |rf cr| | ]; try exact Logic.I.
      apply mild_bind; [apply use_or_own_mild; unfold if_view in Hv; intro G; rewrite G in Hv; discriminate|].
      intros sa Ha. apply reset_self_owner_mild. destruct (use_or_own_frame _ _ _ _ _ _ _ _ _ Ha) as [Aa _].
      destruct k as [[res| | | | | ]| | | | | ]; try exact Logic.I. cbn [kind_ok] in *.
      destruct (get_res (cs_types s) res) as [r|] eqn:Er; [|contradiction].
      destruct (agree_get_res _ _ _ Aa _ _ Er) as [r' [-> _]]. discriminate.
    Qed.
    Lemma own_world_mild vn me n e k s v : kind_ok (cs_types s) k -> imports_view me (cs_types s) = Some v -> mild (own_world hf g vn me n e k s).
    Proof.
      intros _ Hv. unfold own_world. destruct e as [ | | |rf cr| | ]; try exact Logic.I.
      apply use_or_own_mild. unfold imports_view in Hv. intro G. rewrite G in Hv. discriminate.
    Qed.

    Lemma instance_body_pg name v : is_inst g v = true -> pg (instance_body hf g E name v).
    Proof.
      intros Hv s I. unfold instance_body. unfold is_inst in Hv.
      destruct (node_of g v) as [[ | |exports| | | ]|] eqn:En; try discriminate.
      destruct (nassoc v (cs_cache s)) as [e|] eqn:Ec.
      { pose proof (hit_kind _ _ _ I Ec) as K. rewrite En in K. destruct e as [[ | | |i0| | ]|]; try contradiction. exact Logic.I. }
      pose proof (wt_node_of _ _ En) as W. cbn [wt_node] in W. unfold wt_items in W. apply andb_prop in W as [W1 W2].
      unfold add_if. apply mild_bind; [|intros; exact Logic.I]. rewrite inst_loop_eq.
      set (t0 := mktypes _ _ _ _ _ _ _). set (me := mkid _ _).
      assert (A0 : agree [] (cs_types s) t0) by apply (agree_add_if (cs_types s) (mkif (iface_id_of name) [] [])).
      pose proof (frame_inv g [] s (with_types s t0) (conj A0 (conj eq_refl eq_refl)) I) as I0.
      apply (item_loop_pg _ _ _ _ (own_if_frame hf g v me) (own_if_mild v me) (if_slot me) exports _ [] tt I0); [| |exact W1].
      - unfold if_view, get_if, t0, me. cbn [cs_types with_types t_tag t_interfaces]. now rewrite lookup_new.
      - cbn [map app]. now apply nodup_names_sound.
    Qed.

    Lemma component_body_pg name v : is_comp g v = true -> pg (component_body hf g E name v).
    Proof.
      intros Hv s I. unfold component_body. unfold is_comp in Hv.
      destruct (node_of g v) as [[ | | |imports exports| | ]|] eqn:En; try discriminate.
      destruct (nassoc v (cs_cache s)) as [e|] eqn:Ec.
      { pose proof (hit_kind _ _ _ I Ec) as K. rewrite En in K. destruct e as [[ | | | |w0| ]|]; try contradiction. exact Logic.I. }
      pose proof (wt_node_of _ _ En) as W. cbn [wt_node] in W. apply andb_prop in W as [Wi We].
      unfold wt_items in Wi, We. apply andb_prop in Wi as [Wi1 Wi2]. apply andb_prop in We as [We1 We2].
      unfold add_world. set (t0 := mktypes _ _ _ _ _ _ _). set (me := mkid _ _).
      assert (A0 : agree [] (cs_types s) t0) by apply (agree_add_world (cs_types s) (mkworld (iface_id_of name) [] [] [])).
      pose proof (frame_inv g [] s (with_types s t0) (conj A0 (conj eq_refl eq_refl)) I) as I0.
      assert (G0 : imports_view me (cs_types (with_types s t0)) = Some ([], [])).
      { unfold imports_view, get_world, t0, me. cbn [cs_types with_types t_tag t_worlds]. now rewrite lookup_new. }
      apply mild_bind.
      { rewrite comp_imports_eq.
        apply (item_loop_pg _ _ _ _ (own_world_frame hf g v me) (own_world_mild v me) (imports_slot me) imports _ [] [] I0 G0); [|exact Wi1].
        cbn [map app]. now apply nodup_names_sound. }
      intros s1 H1. rewrite comp_imports_eq in H1. apply mild_bind; [|intros; exact Logic.I]. rewrite comp_exports_eq.
      destruct (item_loop_run _ _ _ _ (own_world_frame hf g v me) (imports_slot me) _ _ _ _ _ I0 G0 H1) as [I1 [m1 V1]].
      assert (G1 : exports_view me (cs_types s1) = Some ([], m1)).
      { unfold imports_view in V1. unfold exports_view. destruct (get_world (cs_types s1) me) as [x1|]; [|discriminate].
        cbn [option_map] in *. injection V1 as <- ->. reflexivity. }
      apply (item_loop_pg _ _ _ _ own_none_frame (fun _ _ _ _ _ _ _ => Logic.I) (exports_slot me) exports s1 [] _ I1 G1); [|exact We1].
      cbn [map app]. now apply nodup_names_sound.
    Qed.

    Lemma entity_body_pg n e : wt_ent g e = true -> pg (entity_body hf g E n e).
    Proof.
      intros W s I. unfold entity_body. destruct e as [m|v|v|rf cr|i|c]; cbn [wt_ent] in W.
      - apply mild_bind; [now apply c_module_pg | intros [x s1] _; exact Logic.I].
      - apply mild_bind; [now apply c_func_pg | intros [x s1] _; exact Logic.I].
      - apply mild_bind; [now apply c_val_pg | intros [x s1] _; exact Logic.I].
      - apply mild_bind; [|intros [x s1] _; exact Logic.I]. unfold ty_body.
        destruct (node_of g cr) as [[d|a ps r0|ex|im ex|rid|mm]|] eqn:En; try discriminate.
        + apply mild_bind; [apply c_defined_pg; [unfold is_def; now rewrite En | exact I] | intros [y s2] _; exact Logic.I].
        + apply mild_bind; [apply c_func_pg; [unfold is_func; now rewrite En | exact I] | intros [y s2] _; exact Logic.I].
        + apply mild_bind; [apply instance_body_pg; [unfold is_inst; now rewrite En | exact I] | intros [y s2] _; exact Logic.I].
        + apply mild_bind; [apply component_body_pg; [unfold is_comp; now rewrite En | exact I] | intros [y s2] _; exact Logic.I].
        + apply mild_bind; [apply c_resource_pg; [unfold is_res; now rewrite En | exact I] | intros [y s2] _; exact Logic.I].
      - apply mild_bind; [now apply instance_body_pg | intros [x s1] _; exact Logic.I].
      - apply mild_bind; [now apply component_body_pg | intros [x s1] _; exact Logic.I].
    Qed.

    (** the resource of a converted resource item is in range *)
    Lemma entity_body_kind n e s k s' : ids_inv g s -> entity_body hf g E n e s = COk (k, s') -> kind_ok (cs_types s') k.
    Proof.
      intros I H. unfold entity_body in H. destruct e as [m|v|v|rf cr|i|c]; inv_bind H as [x s1] H1; injection H as <- <-; try exact Logic.I.
      unfold ty_body in H1. destruct (node_of g cr) as [[d|a ps r0|ex|im ex|rid|mm]|]; try discriminate;
        inv_bind H1 as [y s2] H2; injection H1 as <- <-; try exact Logic.I.
      cbn [kind_ok]. eapply c_resource_valid; eassumption.
    Qed.
  End Bodies.

  Lemma c_entity_all hf : forall fuel,
    (forall n e, wt_ent g e = true -> pg (c_entity hf fuel g n e)) /\
    (forall n e s k s', ids_inv g s -> c_entity hf fuel g n e s = COk (k, s') -> kind_ok (cs_types s') k).
  Proof.
    induction fuel as [|f [IH1 IH2]]; [split; [intros n e _ s _; exact Logic.I | intros n e s k s' _ H; discriminate]|].
    cbn [c_entity]. split.
    - intros n e W. apply entity_body_pg; auto; [apply c_entity_id | apply c_entity_fr].
    - intros n e s k s'. apply entity_body_kind.
  Qed.

  Lemma collect_pg hf fuel : forall l acc s, ids_inv g s -> forallb (fun kv => wt_ent g (snd kv)) l = true ->
    mild (collect (c_entity hf fuel g) l acc s).
  Proof.
    induction l as [|[n e] l IH]; intros acc s I W; cbn [collect]; [exact Logic.I|].
    cbn [forallb snd] in W. apply andb_prop in W as [We Wl].
    apply mild_bind; [apply (proj1 (c_entity_all hf fuel)); assumption|]. intros [k s1] H1.
    apply IH; [exact (proj1 (c_entity_id g hf fuel n e _ _ _ I H1)) | exact Wl].
  Qed.

  (** the two loops of [from_bytes] raise none of [PBadIndex], [PInvalidCached], [PDupItem] *)
  Theorem conv_items_mild hf fuel t0 : mild (conv_items hf fuel g t0).
  Proof.
    unfold conv_items. pose proof WT as W0. unfold wt_graph_b in W0. apply andb_prop in W0 as [W W3]. apply andb_prop in W as [_ W2].
    assert (I0 : ids_inv g (cs_init t0)) by (constructor; cbn; intros; try contradiction; discriminate).
    apply mild_bind; [now apply collect_pg|]. intros [im s1] H1.
    apply mild_bind; [|intros [ex s2] _; exact Logic.I]. apply collect_pg; [|exact W3].
    eapply collect_id; [exact I0 | exact H1].
  Qed.
End Progress.
