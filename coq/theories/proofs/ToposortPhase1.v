(** C02: what the first phase of the model of [toposort] computes.
    - [phase1_perm], [phase1_none_self_loop], [phase1_fuel]: on a graph whose edges have live endpoints
      ([EdgesLive]; from the C06 invariant) the phase ends either at
      a self loop or with a duplicate-free enumeration of exactly the live nodes; the model's fuel
      [dfs_fuel] suffices (more fuel changes nothing: the fuel exit of [dfs_loop] is never taken);
    - [phase1_topo]: if the edge relation has no cycle the enumeration places every edge's source
      before its target and the self loop exit is not taken. *)
From Coq Require Import List Arith Bool NArith Lia Permutation Relation_Operators.
From WacV Require Import Str Graph Wiring WiringSpec EncodeModel GraphInv ToposortDfs.
Import ListNotations.
Local Open Scope nat_scope.

(** paths and cycles of the edge relation (all three edge kinds) *)
Definition gedge (g : gstate) (a b : nat) : Prop := In b (succs g a).
Definition reach (g : gstate) : nat -> nat -> Prop := clos_trans nat (gedge g).
Definition has_cycle (g : gstate) : Prop := exists n, reach g n n.
Definition RankedBy (g : gstate) (rk : nat -> nat) : Prop := forall e, In e (edges g) -> rk (esrc e) < rk (etgt e).

Lemma reach_rank g rk : RankedBy g rk -> forall a b, reach g a b -> rk a < rk b.
Proof.
  intros HR a b H. induction H as [a b H|a b c _ IH1 _ IH2]; [|lia].
  apply succs_edge in H as [e [I [<- <-]]]. now apply HR.
Qed.

Lemma ranked_no_cycle g rk : RankedBy g rk -> ~ has_cycle g.
Proof. intros HR [n H]. apply (reach_rank g rk HR) in H. lia. Qed.

Lemma self_loop_cycle g : has_self_loop g -> has_cycle g.
Proof. intros [e [I E]]. exists (esrc e). apply t_step. apply succs_edge. exists e. auto. Qed.

(** the finish stack is closed under successors, successors first *)
Inductive TopoFin (g : gstate) : list nat -> Prop :=
  | TF_nil : TopoFin g []
  | TF_cons x l : TopoFin g l -> (forall t, In t (succs g x) -> In t l) -> TopoFin g (x :: l).

Lemma TopoFin_closed g l : TopoFin g l -> forall s t, In s l -> In t (succs g s) -> In t l.
Proof.
  induction 1 as [|x l T IH C]; intros s t Hs Ht; [destruct Hs|].
  destruct Hs as [<-|Hs]; right; eauto.
Qed.

Lemma index_of_cons_eq x l : index_of x (x :: l) = 0.
Proof. cbn. now rewrite Nat.eqb_refl. Qed.
Lemma index_of_cons_ne x y l : x <> y -> index_of y (x :: l) = S (index_of y l).
Proof. intros H. cbn. apply Nat.eqb_neq in H. now rewrite H. Qed.

Lemma TopoFin_index g l : TopoFin g l -> NoDup l ->
  forall s t, In s l -> In t (succs g s) -> index_of s l < index_of t l.
Proof.
  induction 1 as [|x l T IH C]; intros ND s t Hs Ht; [destruct Hs|].
  inversion ND as [|? ? Nx ND']; subst.
  destruct Hs as [<-|Hs].
  - rewrite index_of_cons_eq. apply C in Ht.
    rewrite index_of_cons_ne by (intros ->; contradiction). lia.
  - assert (In t l) by (eapply TopoFin_closed; eauto).
    rewrite !index_of_cons_ne by (intros ->; contradiction).
    specialize (IH ND' s t Hs Ht). lia.
Qed.

Lemma NoDup_nodupb l : NoDup l -> nodupb l = true.
Proof.
  induction 1 as [|x l N _ IH]; cbn; auto.
  rewrite IH, andb_true_r. apply negb_true_iff. now apply existsb_eqb_notIn.
Qed.

Lemma topo_orderb_edges g ord :
  NoDup ord -> (forall n, In n ord <-> In n (node_ids g)) ->
  (forall e, In e (edges g) -> index_of (esrc e) ord < index_of (etgt e) ord) -> topo_orderb g ord = true.
Proof.
  intros ND Iff E. unfold topo_orderb. rewrite !andb_true_iff. repeat split.
  - now apply NoDup_nodupb.
  - apply forallb_forall. intros n Hn. apply existsb_eqb_In. now apply Iff.
  - apply forallb_forall. intros n Hn. apply node_ids_live_iff. now apply Iff.
  - apply forallb_forall. intros e He. unfold precedes. apply Nat.ltb_lt. now apply E.
Qed.

Lemma topo_orderb_intro g ord :
  (forall e, In e (edges g) -> live g (esrc e) = true /\ live g (etgt e) = true) ->
  NoDup ord -> (forall n, In n ord <-> In n (node_ids g)) -> TopoFin g ord -> topo_orderb g ord = true.
Proof.
  intros EL ND Iff T. apply topo_orderb_edges; auto. intros e He. apply (TopoFin_index g ord T ND).
  - apply Iff, node_ids_live_iff. now apply EL.
  - apply succs_edge. eauto.
Qed.

(** the outer loop with an explicit fuel parameter *)
Definition d_init : dfs := {| df_disc := []; df_fin := []; df_out := [] |}.

Definition topo_step (g : gstate) (f : nat) (acc : option dfs) (i : nat) : option dfs :=
  match acc with
  | None => None
  | Some d => if memn i (df_disc d) then Some d else dfs_loop g f [i] d
  end.

Definition topo_fold (g : gstate) (f : nat) : option dfs := fold_left (topo_step g f) (rev (node_ids g)) (Some d_init).

Definition topo_phase1_fuel (g : gstate) (f : nat) : option (list nat) :=
  match topo_fold g f with Some d => Some (df_out d) | None => None end.

Lemma topo_phase1_eq g : topo_phase1 g = topo_phase1_fuel g (dfs_fuel g).
Proof. reflexivity. Qed.

Lemma topo_step_none g f l : fold_left (topo_step g f) l None = None.
Proof. induction l; cbn; auto. Qed.

Section Phase1.
  Variable g : gstate.
  Hypothesis EL : forall e, In e (edges g) -> live g (esrc e) = true /\ live g (etgt e) = true.
  (** the part of the invariant that speaks about paths *)
  Record RInv (st : list nat) (d : dfs) : Prop := {
    (** everything above the active entry of a grey node is a proper descendant of it *)
    ri_above : forall y w, grey d y -> In w (before y st) -> reach g y w;
    (** unless a cycle was met, the finish stack is successor-closed *)
    ri_topo : has_cycle g \/ TopoFin g (df_out d) }.

  Lemma RInv_finish R nx rest d : DInv g R (nx :: rest) d -> RInv (nx :: rest) d -> grey d nx ->
    RInv (nx :: rest) (finish nx d).
  Proof.
    intros I Rr Gn. constructor; cbn [finish df_out].
    - intros y w [Dy Fy]. apply (ri_above _ _ Rr). split; [exact Dy|]. intros H. apply Fy. now right.
    - destruct (ri_topo _ _ Rr) as [C|T]; [now left|].
      destruct (Forall_Exists_dec (fun t => In t (df_fin d)) (fun t => in_dec Nat.eq_dec t (df_fin d)) (succs g nx))
        as [A|A].
      + right. constructor; [exact T|]. rewrite <- (di_out _ _ _ _ I). now apply Forall_forall.
      + (* a successor that is not finished is grey and below: a back edge *)
        left. apply Exists_exists in A as [t [Ht Ft]].
        destruct (di_succ _ _ _ _ I nx t Gn Ht) as [Dt|Bt]; [|rewrite before_cons_eq in Bt; destruct Bt].
        destruct (Nat.eq_dec nx t) as [<-|Ne].
        * exists nx. now apply t_step.
        * exists t. apply t_trans with nx; [|now apply t_step].
          apply (ri_above _ _ Rr t nx (conj Dt Ft)). rewrite before_cons_ne by exact Ne. now left.
  Qed.

  Lemma RInv_pop nx rest d : RInv (nx :: rest) d -> In nx (df_fin d) -> RInv rest d.
  Proof.
    intros Rr Fn. constructor; [|apply Rr].
    intros y w Gy Hw. apply (ri_above _ _ Rr y w Gy).
    rewrite before_cons_ne by (intros ->; destruct Gy; contradiction). now right.
  Qed.

  Lemma dfs_step_rinv R nx rest d : DInv g R (nx :: rest) d -> RInv (nx :: rest) d ->
    match dfs_step g nx rest d with
    | None => True
    | Some (st', d') => RInv st' d'
    end.
  Proof.
    intros I Rr. unfold dfs_step.
    destruct (memn nx (df_disc d)) eqn:Dn.
    - apply memn_In in Dn. destruct (memn nx (df_fin d)) eqn:Fn.
      + apply memn_In in Fn. exact (RInv_pop nx rest d Rr Fn).
      + apply memn_notIn in Fn. apply (RInv_pop nx); [apply (RInv_finish R); [exact I|exact Rr|now split] | now left].
    - apply memn_notIn in Dn.
      destruct (memn nx (succs g nx)) eqn:Sl; [exact Logic.I|].
      set (pu := pushed (nx :: df_disc d) (succs g nx)).
      pose proof (fun x => pushed_cons_In x nx (df_disc d) (succs g nx)) as Pu. fold pu in Pu.
      constructor; cbn [df_out]; [|apply Rr].
      intros y w [Dy Fy] Hw. cbn [df_disc df_fin] in *.
      destruct Dy as [<-|Dy].
      + rewrite before_app_notin in Hw by (intros H'; apply Pu in H'; tauto).
        rewrite before_cons_eq, app_nil_r in Hw. apply Pu in Hw as [Hw _]. now apply t_step.
      + assert (Gy : grey d y) by (split; auto).
        assert (Ne : nx <> y) by (intros ->; contradiction).
        rewrite before_app_notin in Hw by (intros H'; apply Pu in H'; tauto).
        assert (Hn : reach g y nx).
        { apply (ri_above _ _ Rr y nx Gy). rewrite before_cons_ne by exact Ne. now left. }
        apply in_app_or in Hw as [Hw|Hw].
        * apply Pu in Hw as [Hw _]. apply t_trans with nx; auto. now apply t_step.
        * now apply (ri_above _ _ Rr y w Gy).
  Qed.

  Definition FullInv (R st : list nat) (d : dfs) : Prop := DInv g R st d /\ RInv st d.

  Lemma full_loop R f st d : FullInv R st d -> dfs_mu g st d <= f ->
    (forall f', f <= f' -> dfs_loop g f' st d = dfs_loop g f st d) /\
    match dfs_loop g f st d with None => has_self_loop g | Some d' => FullInv R [] d' end.
  Proof.
    apply (dfs_loop_rule g (FullInv R) (has_self_loop g) (dfs_mu g)).
    - intros nx rest d0. unfold dfs_mu. cbn [length]. lia.
    - intros nx rest d0 [I Rr]. pose proof (dfs_step_inv g EL R nx rest d0 I) as S1.
      destruct (dfs_step g nx rest d0) as [[st' d']|] eqn:E; auto.
      destruct S1 as [I' Hlt]. split; auto. split; auto.
      pose proof (dfs_step_rinv R nx rest d0 I Rr) as S2. now rewrite E in S2.
  Qed.

  (** a round from [i] takes [R := i :: df_disc d]: at the end [di_req] on the empty stack says [i] and all
      earlier discoveries are discovered, which is the [incl] of [OInv] *)
  Lemma FullInv_start R d i : FullInv R [] d -> live g i = true -> FullInv (i :: df_disc d) [i] d.
  Proof.
    intros [I Rr] Li. split.
    - constructor; try apply I.
      + intros x Gx. destruct (di_grey_st _ _ _ _ I x Gx).
      + intros x [<-|[]]. exact Li.
      + intros x t Gx. destruct (di_grey_st _ _ _ _ I x Gx).
      + intros x [<-|Hx]; [right; now left | now left].
    - constructor; [|apply Rr].
      intros y w Gy. destruct (di_grey_st _ _ _ _ I y Gy).
  Qed.

  Lemma FullInv_weaken R st d : FullInv R st d -> FullInv [] st d.
  Proof. intros [I Rr]. split; auto. constructor; try apply I. intros x []. Qed.

  Definition OInv (seen : list nat) (d : dfs) : Prop := FullInv [] [] d /\ incl seen (df_disc d).

  Lemma topo_step_inv seen d i f : dfs_fuel g <= f -> OInv seen d -> live g i = true ->
    topo_step g f (Some d) i = topo_step g (dfs_fuel g) (Some d) i /\
    match topo_step g (dfs_fuel g) (Some d) i with None => has_self_loop g | Some d1 => OInv (i :: seen) d1 end.
  Proof.
    intros Hf [F S] Li. cbn [topo_step]. destruct (memn i (df_disc d)) eqn:Di.
    - apply memn_In in Di. split; [reflexivity|]. split; auto. intros x [<-|Hx]; auto.
    - pose proof (FullInv_start [] d i F Li) as F0.
      destruct (full_loop _ (dfs_fuel g) [i] d F0 (dfs_mu_bound g i d)) as [Hfu Hres].
      split; [exact (Hfu f Hf)|]. destruct (dfs_loop g (dfs_fuel g) [i] d) as [d1|]; [|exact Hres].
      split; [eapply FullInv_weaken; eauto|]. destruct Hres as [I1 _]. intros x Hx.
      assert (Hr : In x (i :: df_disc d)) by (destruct Hx as [<-|Hx]; [now left | right; auto]).
      destruct (di_req _ _ _ _ I1 x Hr) as [H|[]]. exact H.
  Qed.

  Lemma outer_loop : forall l seen d f, dfs_fuel g <= f -> OInv seen d -> (forall i, In i l -> live g i = true) ->
    fold_left (topo_step g f) l (Some d) = fold_left (topo_step g (dfs_fuel g)) l (Some d) /\
    match fold_left (topo_step g (dfs_fuel g)) l (Some d) with
    | None => has_self_loop g
    | Some d' => OInv (rev l ++ seen) d'
    end.
  Proof.
    induction l as [|i l IH]; intros seen d f Hf O Hl; cbn [fold_left rev]; [split; auto|].
    destruct (topo_step_inv seen d i f Hf O (Hl i (or_introl eq_refl))) as [E O1]. rewrite E.
    destruct (topo_step g (dfs_fuel g) (Some d) i) as [d1|]; [|rewrite !topo_step_none; auto].
    rewrite <- app_assoc. apply IH; auto. intros j Hj. apply Hl. now right.
  Qed.

  Lemma FullInv_init : FullInv [] [] d_init.
  Proof.
    split.
    - constructor; cbn [d_init df_disc df_fin df_out]; auto; try (now constructor).
      + intros x [].
      + intros x [[] _].
      + intros x t [[] _].
    - constructor; cbn; [intros y w [[] _] | right; constructor].
  Qed.

  Lemma topo_fold_spec f : dfs_fuel g <= f ->
    topo_fold g f = topo_fold g (dfs_fuel g) /\
    match topo_fold g (dfs_fuel g) with
    | None => has_self_loop g
    | Some d => FullInv [] [] d /\ forall x, In x (node_ids g) -> In x (df_disc d)
    end.
  Proof.
    intros Hf. unfold topo_fold.
    destruct (outer_loop (rev (node_ids g)) [] d_init f Hf) as [A B].
    - split; [apply FullInv_init | intros x []].
    - intros i Hi. apply in_rev in Hi. now apply node_ids_live_iff.
    - split; auto. now rewrite rev_involutive, app_nil_r in B.
  Qed.

  Lemma phase1_fuel f : dfs_fuel g <= f -> topo_phase1_fuel g f = topo_phase1 g.
  Proof. intros Hf. rewrite topo_phase1_eq. unfold topo_phase1_fuel. now rewrite (proj1 (topo_fold_spec f Hf)). Qed.

  Lemma phase1_result :
    match topo_phase1 g with
    | None => has_self_loop g
    | Some ord => NoDup ord /\ (forall n, In n ord <-> In n (node_ids g)) /\ (has_cycle g \/ TopoFin g ord) /\
                  (forall n, In n ord -> ~ In n (succs g n))
    end.
  Proof.
    rewrite topo_phase1_eq. unfold topo_phase1_fuel.
    destruct (topo_fold_spec (dfs_fuel g) (le_n _)) as [_ B].
    destruct (topo_fold g (dfs_fuel g)) as [d|]; auto. destruct B as [[I Rr] All].
    split; [apply I|]. split; [|split].
    - intros n. split.
      + intros Hn. apply node_ids_live_iff. apply (di_live_disc _ _ _ _ I). apply (di_fin_disc _ _ _ _ I).
        now rewrite (di_out _ _ _ _ I).
      + intros Hn. eapply DInv_nil_disc_fin; eauto.
    - apply Rr.
    - intros n Hn. apply (di_noself _ _ _ _ I). apply (di_fin_disc _ _ _ _ I). now rewrite (di_out _ _ _ _ I).
  Qed.
End Phase1.

Definition EdgesLive (g : gstate) : Prop :=
  forall e, In e (edges g) -> live g (esrc e) = true /\ live g (etgt e) = true.

Lemma phase1_perm g ord : EdgesLive g ->
  topo_phase1 g = Some ord -> Permutation ord (node_ids g) /\ NoDup ord.
Proof.
  intros EL E. pose proof (phase1_result g EL) as H. rewrite E in H.
  destruct H as [ND [Iff _]]. split; auto. apply NoDup_Permutation; auto. apply node_ids_nodup.
Qed.

Lemma phase1_none_self_loop g : EdgesLive g ->
  topo_phase1 g = None -> exists e, In e (edges g) /\ esrc e = etgt e.
Proof. intros EL E. pose proof (phase1_result g EL) as H. now rewrite E in H. Qed.

Lemma phase1_topo g : EdgesLive g -> ~ has_cycle g ->
  exists ord, topo_phase1 g = Some ord /\ topo_orderb g ord = true.
Proof.
  intros EL NC. pose proof (phase1_result g EL) as H.
  destruct (topo_phase1 g) as [ord|].
  - destruct H as [ND [Iff [[C|T] _]]]; [contradiction|]. exists ord. split; auto. apply topo_orderb_intro; auto.
  - exfalso. apply NC. now apply self_loop_cycle.
Qed.
