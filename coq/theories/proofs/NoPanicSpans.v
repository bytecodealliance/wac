(** C14: every source location carried by a node of the AST ([*_spans], one function per AST type,
    field by field as in [Ast.v]) and by a parse error, and the nesting depth of expressions
    ([rec_depth], used by [depth_unbounded]). *)
From WacV Require Import Str Token Lexer Semver Ast Parser NoPanicLexer.
From Coq Require Import Lia.
Local Open Scope nat_scope.

Definition docs_spans (d : list doc) : list span := map snd d.
Definition ident_spans (i : ident) : list span := [id_span i].
Definition strlit_spans (s : strlit) : list span := [s_span s].
Definition pkgname_spans (p : package_name) : list span := [pn_span p].
Definition pkgpath_spans (p : package_path) : list span := [pp_span p].
Definition opt_spans {A} (f : A -> list span) (o : option A) : list span :=
  match o with Some a => f a | None => [] end.

Fixpoint ty_spans (t : ty) : list span :=
  match t with
  | TyPrim _ sp => [sp]
  | TyTuple ts sp => sp :: flat_map ty_spans ts
  | TyList t sp | TyOption t sp | TyBorrowTy t sp => sp :: ty_spans t
  | TyResult ok err sp =>
      sp :: (match ok with Some t => ty_spans t | None => [] end)
         ++ (match err with Some t => ty_spans t | None => [] end)
  | TyBorrow id sp => sp :: ident_spans id
  | TyIdent id => ident_spans id
  end.

Definition named_type_spans (n : named_type) : list span := ident_spans (nt_id n) ++ ty_spans (nt_ty n).

Definition result_list_spans (r : result_list) : list span :=
  match r with RLEmpty => [] | RLScalar t => ty_spans t | RLNamed rs => flat_map named_type_spans rs end.

Definition func_type_spans (f : func_type) : list span :=
  flat_map named_type_spans (ft_params f) ++ result_list_spans (ft_results f).

Definition extern_name_spans (n : extern_name) : list span :=
  match n with ENIdent i => ident_spans i | ENString s => strlit_spans s end.

Definition variant_case_spans (v : variant_case) : list span :=
  docs_spans (vc_docs v) ++ ident_spans (vc_id v) ++ opt_spans ty_spans (vc_ty v).
Definition field_spans (f : field) : list span := docs_spans (fd_docs f) ++ ident_spans (fd_id f) ++ ty_spans (fd_ty f).
Definition flag_spans (f : flag) : list span := docs_spans (fl_docs f) ++ ident_spans (fl_id f).
Definition enum_case_spans (c : enum_case) : list span := docs_spans (ec_docs c) ++ ident_spans (ec_id c).

Definition resource_method_spans (m : resource_method) : list span :=
  match m with
  | RMConstructor docs sp params => docs_spans docs ++ sp :: flat_map named_type_spans params
  | RMMethod docs id _ t => docs_spans docs ++ ident_spans id ++ func_type_spans t
  end.

Definition alias_kind_spans (k : type_alias_kind) : list span :=
  match k with TAFunc f => func_type_spans f | TAType t => ty_spans t end.

Definition item_type_decl_spans (d : item_type_decl) : list span :=
  match d with
  | DResource docs id ms => docs_spans docs ++ ident_spans id ++ flat_map resource_method_spans ms
  | DVariant docs id cs => docs_spans docs ++ ident_spans id ++ flat_map variant_case_spans cs
  | DRecord docs id fs => docs_spans docs ++ ident_spans id ++ flat_map field_spans fs
  | DFlags docs id fs => docs_spans docs ++ ident_spans id ++ flat_map flag_spans fs
  | DEnum docs id cs => docs_spans docs ++ ident_spans id ++ flat_map enum_case_spans cs
  | DAlias docs id k => docs_spans docs ++ ident_spans id ++ alias_kind_spans k
  end.

Definition func_type_ref_spans (r : func_type_ref) : list span :=
  match r with FRFunc f => func_type_spans f | FRIdent i => ident_spans i end.

Definition use_path_spans (p : use_path) : list span :=
  match p with UPPackage p => pkgpath_spans p | UPIdent i => ident_spans i end.
Definition use_item_spans (u : use_item) : list span := ident_spans (ui_id u) ++ opt_spans ident_spans (ui_as u).
Definition use_decl_spans (u : use_decl) : list span :=
  docs_spans (u_docs u) ++ use_path_spans (u_path u) ++ flat_map use_item_spans (u_items u).

Definition interface_item_spans (i : interface_item) : list span :=
  match i with
  | IIUse u => use_decl_spans u
  | IIType d => item_type_decl_spans d
  | IIExport docs id t => docs_spans docs ++ ident_spans id ++ func_type_ref_spans t
  end.

Definition extern_type_spans (t : extern_type) : list span :=
  match t with
  | ETIdent i => ident_spans i
  | ETFunc f => func_type_spans f
  | ETInterface items => flat_map interface_item_spans items
  end.

Definition world_item_path_spans (p : world_item_path) : list span :=
  match p with
  | WPNamed id t => ident_spans id ++ extern_type_spans t
  | WPPackage p => pkgpath_spans p
  | WPIdent i => ident_spans i
  end.

Definition world_ref_spans (w : world_ref) : list span :=
  match w with WRIdent i => ident_spans i | WRPackage p => pkgpath_spans p end.
Definition include_item_spans (i : include_item) : list span := ident_spans (ii_from i) ++ ident_spans (ii_to i).

Definition world_item_spans (w : world_item) : list span :=
  match w with
  | WIUse u => use_decl_spans u
  | WIType d => item_type_decl_spans d
  | WIImport docs p | WIExport docs p => docs_spans docs ++ world_item_path_spans p
  | WIInclude docs w items => docs_spans docs ++ world_ref_spans w ++ flat_map include_item_spans items
  end.

Definition type_statement_spans (t : type_statement) : list span :=
  match t with
  | TSInterface docs id items => docs_spans docs ++ ident_spans id ++ flat_map interface_item_spans items
  | TSWorld docs id items => docs_spans docs ++ ident_spans id ++ flat_map world_item_spans items
  | TSType d => item_type_decl_spans d
  end.

Definition import_type_spans (t : import_type) : list span :=
  match t with
  | ITPackage p => pkgpath_spans p
  | ITFunc f => func_type_spans f
  | ITInterface items => flat_map interface_item_spans items
  | ITIdent i => ident_spans i
  end.

Definition arg_name_spans (n : arg_name) : list span :=
  match n with ANIdent i => ident_spans i | ANString s => strlit_spans s end.

Definition postfix_spans (p : postfix_expr) : list span :=
  match p with PAccess sp id => sp :: ident_spans id | PNamedAccess sp s => sp :: strlit_spans s end.

Fixpoint expr_spans (x : expr) : list span :=
  match x with Expr sp p post => sp :: primary_spans p ++ flat_map postfix_spans post end
with primary_spans (p : primary_expr) : list span :=
  match p with
  | PNew sp pkg args => sp :: pkgname_spans pkg ++ flat_map arg_spans args
  | PNested sp inner => sp :: expr_spans inner
  | PIdent i => ident_spans i
  end
with arg_spans (a : inst_arg) : list span :=
  match a with
  | AInferred i | ASpread i => ident_spans i
  | ANamed n x => arg_name_spans n ++ expr_spans x
  | AFill sp => [sp]
  end.

Definition export_options_spans (o : export_options) : list span :=
  match o with EONone => [] | EOSpread sp => [sp] | EORename n => extern_name_spans n end.

Definition statement_spans (s : statement) : list span :=
  match s with
  | SImport docs id name t =>
      docs_spans docs ++ ident_spans id ++ opt_spans extern_name_spans name ++ import_type_spans t
  | SType t => type_statement_spans t
  | SLet docs id x => docs_spans docs ++ ident_spans id ++ expr_spans x
  | SExport docs x o => docs_spans docs ++ expr_spans x ++ export_options_spans o
  end.

Definition directive_spans (d : package_directive) : list span :=
  pkgname_spans (pd_package d) ++ opt_spans pkgpath_spans (pd_targets d).

(** Every span of a document: doc comments, identifiers, strings, package names and paths, and the
    spans of compound nodes. *)
Definition document_spans (d : document) : list span :=
  docs_spans (doc_docs d) ++ directive_spans (doc_directive d) ++ flat_map statement_spans (doc_statements d).

(** The span an error carries ([None]: the documented-grammar restriction marker, which has none). *)
Definition perror_span (e : perror) : option span :=
  match e with
  | PE_Lexer _ sp | PE_Expected _ _ sp | PE_EmptyType _ sp | PE_InvalidVersion _ sp => Some sp
  | PE_DocRestriction _ => None
  end.

(** An error reported at the end of the input (the rule of [Lexer::span]). *)
Definition at_end_of_input (e : perror) : bool :=
  match e with PE_Expected _ None _ => true | _ => false end.

Definition list_max (l : list nat) : nat := fold_right Nat.max 0 l.

(** Depth of nested value types = depth of the recursion of [Type::parse] that built the node. *)
Fixpoint ty_depth (t : ty) : nat :=
  match t with
  | TyPrim _ _ | TyBorrow _ _ | TyIdent _ => 1
  | TyTuple ts _ => S (list_max (map ty_depth ts))
  | TyList t _ | TyOption t _ | TyBorrowTy t _ => S (ty_depth t)
  | TyResult ok err _ =>
      S (Nat.max (match ok with Some t => ty_depth t | None => 0 end)
                 (match err with Some t => ty_depth t | None => 0 end))
  end.

(** Depth of nested expressions = depth of the recursion of [Expr::parse]. *)
Fixpoint expr_depth (x : expr) : nat :=
  match x with Expr _ p _ => primary_depth p end
with primary_depth (p : primary_expr) : nat :=
  match p with
  | PNew _ _ args => S (list_max (map arg_depth args))
  | PNested _ inner => S (expr_depth inner)
  | PIdent _ => 1
  end
with arg_depth (a : inst_arg) : nat :=
  match a with ANamed _ x => expr_depth x | _ => 0 end.

Definition statement_depth (s : statement) : nat :=
  match s with
  | SLet _ _ x | SExport _ x _ => expr_depth x
  | SType (TSType (DAlias _ _ (TAType t))) => ty_depth t
  | _ => 0
  end.

(** Lower bound on the recursion depth the parser reached while building the document (only two
    shapes are counted: expressions, which [depth_unbounded] uses, and aliased value types, which no
    theorem uses). *)
Definition rec_depth (r : pres document) : nat :=
  match r with
  | POk d _ => list_max (map statement_depth (doc_statements d))
  | _ => 0
  end.
