(** C14: the one slice of the parser that [Parser.v] models as a total function instead of an explicit
    panic outcome -- [&s[slash + 1..at]] in [PackagePath::parse] ([ast/import.rs]) -- cannot panic on a
    token the lexer produced: in the text of a package-path token the first [/] comes at least two
    characters before the first [@] (if any), because the token is [id (: id)+ (/ id)+ (@ semver)?] and
    identifiers contain neither character. *)
From WacV Require Import Str Token Lexer LexTables LexImpl LexerSound NoPanicLexer.
From Coq Require Import ZArith ZifyBool ZifyN Lia.
Local Open Scope nat_scope.

Section Class.
(** [Q]: a property of every character an identifier can contain. *)
Variable Q : N -> Prop.
Hypothesis Qid : forall c, lower_cont c = true \/ upper_cont c = true \/ c = c_minus \/ c = c_percent -> Q c.

Lemma Qlower c : is_lower c = true -> Q c.
Proof. intros H. apply Qid. left. unfold lower_cont. now rewrite H. Qed.
Lemma Qupper c : is_upper c = true -> Q c.
Proof. intros H. apply Qid. right. left. unfold upper_cont. now rewrite H. Qed.

Lemma id_tail_len_class au : forall k s up, length s <= k -> Forall Q (firstn (id_tail_len au up s) s).
Proof.
  induction k as [|k IH]; intros s up Hk; destruct s as [|c r]; cbn [id_tail_len firstn]; try constructor.
  { cbn in Hk. lia. }
  cbn [length] in Hk.
  destruct (if up then upper_cont c else lower_cont c) eqn:Ec.
  { cbn [firstn]. constructor; [apply Qid; destruct up; auto|]. apply IH. lia. }
  destruct (c =? c_minus)%N eqn:Em; [|constructor]. apply N.eqb_eq in Em. subst c.
  destruct r as [|c2 r2]; [constructor|]. cbn [length] in Hk.
  destruct (is_lower c2) eqn:El.
  { cbn [firstn]. constructor; [apply Qid; auto|]. constructor; [now apply Qlower|]. apply IH. lia. }
  destruct (au && is_upper c2) eqn:Eu; [|constructor].
  apply andb_true_iff in Eu. destruct Eu as [_ Eu].
  cbn [firstn]. constructor; [apply Qid; auto|]. constructor; [now apply Qupper|]. apply IH. lia.
Qed.

Lemma words_len_class au s : Forall Q (firstn (words_len au s) s).
Proof.
  destruct s as [|c r]; cbn [words_len firstn]; [constructor|].
  destruct (is_lower c) eqn:El.
  { cbn [firstn]. constructor; [now apply Qlower|]. eapply id_tail_len_class. apply le_n. }
  destruct (au && is_upper c) eqn:Eu; [|constructor]. apply andb_true_iff in Eu. destruct Eu as [_ Eu].
  cbn [firstn]. constructor; [now apply Qupper|]. eapply id_tail_len_class. apply le_n.
Qed.

Lemma id_len_class au s : Forall Q (firstn (id_len au s) s).
Proof.
  destruct s as [|c r]; cbn [id_len firstn]; [constructor|]. destruct (c =? c_percent)%N eqn:E.
  - apply N.eqb_eq in E. subst c. pose proof (words_len_class au r) as H.
    destruct (words_len au r) as [|n]; [constructor|]. cbn [firstn]. constructor; [apply Qid; auto|exact H].
  - apply (words_len_class au (c :: r)).
Qed.

Lemma seg_loop_class fuel au sep : Q sep -> forall s, Forall Q (firstn (seg_loop fuel au sep s) s).
Proof.
  intros Hsep. induction fuel as [|f IH]; intros s; cbn [seg_loop]; [constructor|].
  destruct s as [|c r]; [constructor|]. destruct (c =? sep)%N eqn:E; [|constructor]. apply N.eqb_eq in E. subst c.
  pose proof (id_len_class au r) as Hid. destruct (id_len au r) as [|n]; [constructor|].
  change (S (S n) + seg_loop f au sep (skipn (S n) r)) with (S (S n + seg_loop f au sep (skipn (S n) r))).
  cbn [firstn]. constructor; [exact Hsep|]. rewrite firstn_add. apply Forall_app. split; [exact Hid|apply IH].
Qed.
End Class.

Lemma seg_loop_two fuel au sep s m : seg_loop fuel au sep s = S m -> 1 <= m.
Proof.
  destruct fuel as [|f]; cbn [seg_loop]; [discriminate|]. destruct s as [|c r]; [discriminate|].
  destruct (c =? sep)%N; [|discriminate]. destruct (id_len au r); [discriminate|]. cbn. lia.
Qed.

Lemma find_char_skip c : forall a b, Forall (fun x => x <> c) a ->
  find_char c (a ++ b) = match find_char c b with Some n => Some (length a + n) | None => None end.
Proof.
  induction a as [|x a IH]; intros b Ha; cbn [app find_char length plus]; [now destruct (find_char c b)|].
  inversion Ha; subst. destruct (x =? c)%N eqn:E; [apply N.eqb_eq in E; congruence|].
  rewrite (IH b) by assumption. now destruct (find_char c b).
Qed.

Lemma find_char_none c s : Forall (fun x => x <> c) s -> find_char c s = None.
Proof.
  induction 1 as [|x s Hx _ IH]; cbn [find_char]; [reflexivity|].
  destruct (x =? c)%N eqn:E; [apply N.eqb_eq in E; congruence|]. now rewrite IH.
Qed.

(** What [PackagePath::parse] needs from the text of its token. *)
Definition path_slices_ok (text : str) : Prop :=
  exists slash, find_char c_slash text = Some slash /\
    match find_char c_atsign text with Some at_ => S (S slash) <= at_ | None => True end.

Lemma id_char_facts c :
  (lower_cont c = true \/ upper_cont c = true \/ c = c_minus \/ c = c_percent) -> c <> c_slash /\ c <> c_atsign.
Proof.
  unfold lower_cont, upper_cont, is_lower, is_upper, is_digit, c_minus, c_percent, c_slash, c_atsign. lia.
Qed.

Lemma scan_token_path cfg fuel s n :
  scan_token cfg fuel s = ScanTok TPackagePath n -> tables_sane cfg = true -> path_slices_ok (firstn n s).
Proof.
  intros H Hsane. unfold scan_token in H. destruct s as [|c r]; [discriminate|].
  destruct (c =? c_quote)%N; [destruct (find_char c_quote r); discriminate|].
  set (Q1 := fun x : N => x <> c_slash /\ x <> c_atsign).
  set (Q2 := fun x : N => x <> c_atsign).
  pose proof (id_len_class Q1 id_char_facts (allow_upper cfg) (c :: r)) as Hid.
  assert (Hkw : forall key, (match lookup_str key (keywords cfg) with Some k0 => k0 | None => TIdent end) <> TPackagePath).
  { intros key E. destruct (lookup_str key (keywords cfg)) as [k0|] eqn:El; [|discriminate]. subst k0.
    pose proof (sane_not_special cfg TPackagePath Hsane (or_introl (lookup_str_in _ _ _ El))). discriminate. }
  destruct (id_len (allow_upper cfg) (c :: r)) as [|n0] eqn:Eid.
  { destruct (best_symbol (symbols cfg) (c :: r)) as [[k' n']|] eqn:Eb; [|discriminate]. inversion H; subst.
    pose proof (sane_not_special cfg TPackagePath Hsane (or_intror (best_symbol_in _ _ _ _ Eb))). discriminate. }
  set (rest1 := skipn (S n0) (c :: r)) in *.
  destruct (head_is c_minus rest1).
  { destruct (q_pkgzone cfg && is_kw_prefix (firstn (S n0) (c :: r)) (keywords cfg)); [discriminate|].
    destruct (q_dash cfg); inversion H. now apply Hkw in H1. }
  pose proof (seg_loop_class Q1 id_char_facts fuel (allow_upper cfg) c_colon
                ltac:(unfold Q1, c_colon, c_slash, c_atsign; lia) rest1) as Hs2.
  destruct (seg_loop fuel (allow_upper cfg) c_colon rest1) as [|m2] eqn:Es2.
  { destruct (head_is c_colon rest1 && q_kwcolon cfg); inversion H. now apply Hkw in H1. }
  set (pkg := S n0 + S m2) in *. set (after := skipn pkg (c :: r)) in *.
  assert (Hpkg : Forall Q1 (firstn pkg (c :: r))).
  { unfold pkg. rewrite firstn_add. apply Forall_app. split; [exact Hid|exact Hs2]. }
  destruct (q_pkgzone cfg && (head_is c_minus after || head_is c_colon after)); [discriminate|].
  pose proof (seg_loop_class Q2 (fun x Hx => proj2 (id_char_facts x Hx)) fuel (allow_upper cfg) c_slash
                ltac:(unfold Q2, c_slash, c_atsign; lia) after) as Hs3.
  destruct (seg_loop fuel (allow_upper cfg) c_slash after) as [|m3] eqn:Es3; [discriminate|].
  pose proof (seg_loop_two _ _ _ _ _ Es3) as Hm3.
  destruct (seg_loop_head _ _ _ _ _ Es3) as (rr & Hafter).
  set (v := version_tail_len (skipn (pkg + S m3) (c :: r))) in *.
  assert (Hn : n = pkg + S m3 + v) by (inversion H; reflexivity). subst n.
  (* the three parts of the text *)
  rewrite firstn_add, firstn_add. fold after.
  set (A := firstn pkg (c :: r)) in *. set (B := firstn (S m3) after) in *.
  set (C := firstn v (skipn (pkg + S m3) (c :: r))).
  pose proof (seg_loop_le fuel (allow_upper cfg) c_slash after) as Hle. rewrite Es3 in Hle.
  assert (HlenB : length B = S m3) by (unfold B; now apply firstn_length_le).
  assert (HlenA : length A = pkg).
  { unfold A. apply firstn_length_le. unfold after in Hle. rewrite skipn_length in Hle. lia. }
  assert (HB : exists B', B = c_slash :: B') by (unfold B; rewrite Hafter; cbn [firstn]; eauto).
  destruct HB as (B' & HB).
  exists pkg. split.
  - rewrite <- app_assoc, find_char_skip by (eapply Forall_impl; [|exact Hpkg]; unfold Q1; tauto).
    rewrite HB. cbn [app find_char]. rewrite N.eqb_refl. now rewrite HlenA, Nat.add_0_r.
  - rewrite <- app_assoc, find_char_skip by (eapply Forall_impl; [|exact Hpkg]; unfold Q1; tauto).
    rewrite find_char_skip by exact Hs3.
    destruct (find_char c_atsign C) as [k|]; [|exact I]. rewrite HlenA, HlenB. lia.
Qed.

Lemma lex_loop_paths cfg (Hsane : tables_sane cfg = true) fuel : forall o s,
  Forall (fun it => match it with LTok t => tk t = TPackagePath -> path_slices_ok (ttext t) | _ => True end)
         (lex_loop fuel cfg o s).
Proof.
  induction fuel as [|f IH]; intros o s; cbn [lex_loop]; [repeat constructor|].
  destruct (skip_gap (S f) o s true []) as [o1 s1 docs|e sp| |]; try (repeat constructor).
  destruct s1 as [|c1 r1]; [constructor|].
  destruct (scan_token cfg (S f) (c1 :: r1)) as [k n|e n|] eqn:Es; try (repeat constructor).
  - cbn [tk ttext]. intros ->. now apply (scan_token_path _ _ _ _ Es).
  - apply IH.
Qed.

Lemma package_path_slice_never_panics_lemma src t :
  In (LTok t) (lex impl_cfg src) -> tk t = TPackagePath -> path_slices_ok (ttext t).
Proof.
  intros Hin Hk. unfold lex in Hin. destruct (screen impl_cfg src) as [[e sp]|].
  - destruct Hin as [Hin|[]]. discriminate.
  - pose proof (lex_loop_paths impl_cfg impl_tables_sane (S (S (length src))) 0%N src) as H.
    rewrite Forall_forall in H. now apply (H _ Hin).
Qed.
