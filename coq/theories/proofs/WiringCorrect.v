(** [wiring_correct]: for EVERY topological emission order and EVERY behaviour of the type encoder,
    the log emitted by the model encoder decodes to the wiring the composition graph specifies.
    After the import phase ([encode_imports]) the decoded log binds every explicit import node and every
    implicit argument to the import named for the canonical (highest) name of its track, provided no
    import request was answered by a differently named import (interface-id de-duplication, a known
    finding of the real code). *)
From Coq Require Import List Arith Bool NArith Permutation.
From WacV Require Import Str StrFacts Ord Semver Names NamesProofs Graph Wiring WiringSpec EncodeModel
  WiringDecode EncodeBasics WiringOrder WiringSim AggProofs ToposortDfs.
Import ListNotations.
Local Open Scope nat_scope.
Arguments node_prov : simpl never.
Arguments node_sort : simpl never.
Arguments cnt : simpl never.
Arguments nat_assoc : simpl never.

Lemma reg_lookup_in i reg v : reg_lookup i reg = Some v -> exists k, In (k, v) reg.
Proof.
  induction reg as [|[k w] r IH]; cbn; try discriminate.
  destruct (compat k i); [intros H; injection H as <-; eauto | intros H; apply IH in H as [k' ?]; eauto].
Qed.

Section Imports.
  Variable e : wenv.
  Variable u : universe.
  Variable g : gstate.
  Variable dc : bool.
  Variable tau : tyenc.
  Variable ord : list nat.
  Hypothesis T : Topo g ord.

  Notation ns := (node_sort e g).
  Notation np := (node_prov e u g ord).
  Notation import_nodes := (filter (is_import g) ord).

  Definition req_hist (np0 : nat * (name * kid)) : str * sort := (nstr e (fst (snd np0)), we_sort e (snd (snd np0))).
  Definition imp_name (n : nat) : name :=
    match get_node g n with Some nd => match nk nd with NImport nm => nm | _ => 0%N end | None => 0%N end.
  Definition imp_hist (n : nat) : str * sort := (nstr e (imp_name n), ns n).
  Definition hist : list (str * sort) := map req_hist (implicit_requests u g) ++ map imp_hist import_nodes.

  Lemma is_import_true n : is_import g n = true -> exists nd, get_node g n = Some nd /\ nk nd = NImport (imp_name n).
  Proof.
    unfold is_import, imp_name. destruct (get_node g n) as [nd|]; try discriminate.
    destruct (nk nd) eqn:K; try discriminate. intros _. exists nd. auto.
  Qed.

  Lemma resolve_implicit_ok a0 impl :
    resolve_implicit e u g = ROk (a0, impl) ->
    AggInv a0 (map req_hist (implicit_requests u g)) /\
    impl = map (fun np0 : nat * (name * kid) => (fst (snd np0), snd (snd np0), fst np0)) (implicit_requests u g).
  Proof.
    unfold resolve_implicit. intros F.
    apply (fold_ok_ind _ (fun pre s => AggInv (fst s) (map req_hist pre) /\
             snd s = map (fun np0 : nat * (name * kid) => (fst (snd np0), snd (snd np0), fst np0)) pre) _ _ _ (fun _ _ => eq_refl) F).
    - split; [apply agg_inv_empty | reflexivity].
    - intros pre [n [nm k]] post [a im] [a1 im1] _ [AI Ei] R. cbn in *.
      destruct (alist_get N.eqb (imports g) nm); try discriminate.
      destruct (agg_add a (nstr e nm) (we_sort e k) (we_iid e k)) as [a'|] eqn:A; try discriminate.
      injection R as <- <-. rewrite !map_app. cbn. split.
      + eapply agg_add_inv; eauto.
      + now rewrite Ei.
  Qed.

  Lemma resolve_explicit_ok a0 a expl :
    AggInv a0 (map req_hist (implicit_requests u g)) ->
    resolve_explicit e g a0 import_nodes = ROk (a, expl) ->
    AggInv a hist /\ expl = map (fun n => (nstr e (imp_name n), n)) import_nodes.
  Proof.
    intros AI0 F. unfold resolve_explicit in F.
    apply (fold_ok_ind _ (fun pre s => AggInv (fst s) (map req_hist (implicit_requests u g) ++ map imp_hist pre) /\
             snd s = map (fun n => (nstr e (imp_name n), n)) pre) _ _ _ (fun _ _ => eq_refl) F).
    - cbn. rewrite app_nil_r. auto.
    - intros pre n post [a1 ex1] [a2 ex2] El [AI Ee] R. cbn in *.
      assert (In_n : In n import_nodes) by (rewrite El; apply in_or_app; cbn; auto).
      apply filter_In in In_n as [_ Im]. destruct (is_import_true _ Im) as [nd [G K]].
      rewrite G, K in R.
      destruct (agg_add a1 _ _ _) as [a'|] eqn:A; try discriminate. injection R as <- <-.
      rewrite !map_app. cbn. split.
      + rewrite app_assoc. eapply agg_add_inv; [exact AI|]. unfold node_sort. rewrite G. exact A.
      + now rewrite Ee.
  Qed.

  (** the history of the aggregator read off the graph: an entry per unsatisfied argument of a node, then an
      entry per import node *)
  Definition requirements : list (str * sort) :=
    flat_map (fun n => map (fun p : name * kid => (nstr e (fst p), we_sort e (snd p))) (unsat_args u g n)) (node_ids g)
    ++ flat_map (fun n => match get_node g n with
                          | Some nd => match nk nd with NImport nm => [(nstr e nm, we_sort e (nitem nd))] | _ => [] end
                          | None => [] end) (node_ids g).

  Lemma hist_reqs x : In x hist <-> In x requirements.
  Proof.
    unfold hist, requirements. rewrite !in_app_iff.
    assert (A : map req_hist (implicit_requests u g)
                = flat_map (fun n => map (fun p : name * kid => (nstr e (fst p), we_sort e (snd p))) (unsat_args u g n)) (node_ids g)).
    { unfold implicit_requests. rewrite map_flat_map, flat_map_filter_nil.
      - apply flat_map_ext. intros n. now rewrite map_map.
      - intros n Hn. unfold is_inst in Hn. unfold unsat_args. destruct (get_node g n) as [nd|]; auto. now destruct (nk nd). }
    assert (B : In x (map imp_hist import_nodes) <->
                In x (flat_map (fun n => match get_node g n with
                                         | Some nd => match nk nd with NImport nm => [(nstr e nm, we_sort e (nitem nd))] | _ => [] end
                                         | None => [] end) (node_ids g))).
    { rewrite in_map_iff, in_flat_map. split.
      - intros [n [E I]]. apply filter_In in I as [Io Im]. destruct (is_import_true _ Im) as [nd [G K]].
        exists n. split; [apply node_ids_live_iff; now apply (to_live _ _ T)|].
        rewrite G, K. left. rewrite <- E. unfold imp_hist, node_sort. now rewrite G.
      - intros [n [I H]]. destruct (get_node g n) as [nd|] eqn:G; [|destruct H].
        destruct (nk nd) eqn:K; try destruct H as [H|[]]; try destruct H.
        exists n. split.
        + unfold imp_hist, imp_name, node_sort. now rewrite G, K.
        + apply filter_In. split; [now apply (to_all _ _ T)|]. unfold is_import. now rewrite G, K. }
    rewrite A. tauto.
  Qed.

  Lemma hist_names_set x : In x (map fst hist) <-> In x (all_import_names e u g).
  Proof.
    assert (E : all_import_names e u g = map fst requirements).
    { unfold all_import_names, requirements. rewrite map_app, !map_flat_map. f_equal; apply flat_map_ext; intros n.
      - now rewrite map_map.
      - destruct (get_node g n) as [nd|]; auto. now destruct (nk nd). }
    rewrite E, !in_map_iff. now setoid_rewrite hist_reqs.
  Qed.

  Lemma canonical_is_canon a nm s : AggInv a hist -> In (nm, s) hist -> canonical_name a nm = canon e u g nm.
  Proof.
    intros AI I. rewrite (agg_canon_eq _ _ _ _ AI I). unfold canon. apply canon_in_set, hist_names_set.
  Qed.

  (** invariant of the loop emitting the imports: [pre] the aggregated entries handled so far, [enc] the
      name -> (sort, index) table built for them; an entry of [enc] is bound to an import under its own
      name or under the name recorded in [e_dedup]; the log's own imports are the entries of [pre] not
      answered through [e_dedup] *)
  Record AInv (pre : list aentry) (st : est) (enc : list (str * (sort * nat))) (d : dstate) : Prop := {
    av_dec : decode_from d_init (e_log st) = Some d;
    av_struct : d_insts d = [] /\ d_exports d = [] /\ d_comps d = [];
    av_fields : e_nidx st = [] /\ e_pkgs st = [] /\ e_impl st = [];
    av_reg : forall k idx under, In (k, (idx, under)) (e_reg st) -> look (d_sp d) SInstance idx = Some (PImp under);
    av_enc : forall nm s idx, In (nm, (s, idx)) enc ->
             exists under, look (d_sp d) s idx = Some (PImp under) /\ (under = nm \/ In (nm, under) (e_dedup st));
    av_dom : forall x, In x pre -> exists idx, str_assoc (ae_name x) enc = Some (ae_sort x, idx);
    av_own : forall nm s, In (nm, s) (own_imports d) -> exists x, In x pre /\ ae_name x = nm /\ ae_sort x = s;
    av_all : forall x, In x pre ->
             In (ae_name x, ae_sort x) (own_imports d) \/ exists under, In (ae_name x, under) (e_dedup st) }.

  Definition fresh_import (st : est) (x : aentry) (st1 : est) (idx : nat) : Prop :=
    exists st' ty, run_ty tau st (TImport (ae_name x) (ae_sort x)) = ROk (st', ty) /\ idx = cnt (ae_sort x) (e_log st') /\
      e_log st1 = e_log st' ++ [IImport (ae_name x) (ae_sort x)] /\ e_nidx st1 = e_nidx st' /\ e_pkgs st1 = e_pkgs st' /\
      e_impl st1 = e_impl st' /\ e_dedup st1 = e_dedup st' /\
      (e_reg st1 = e_reg st' \/ exists i, ae_sort x = SInstance /\ e_reg st1 = (i, (idx, ae_name x)) :: e_reg st').

  Lemma import_cases st x st1 idx :
    import_ tau st x = ROk (st1, idx) ->
    (exists i under, ae_sort x = SInstance /\ In (i, (idx, under)) (e_reg st) /\
       st1 = {| e_log := e_log st; e_nidx := e_nidx st; e_pkgs := e_pkgs st; e_reg := e_reg st; e_impl := e_impl st;
                e_dedup := e_dedup st ++ [(ae_name x, under)] |}) \/
    fresh_import st x st1 idx.
  Proof.
    intros R. unfold import_ in R. cbv zeta in R. set (fresh := bind (run_ty tau st _) _) in R.
    assert (Fresh : fresh = ROk (st1, idx) -> fresh_import st x st1 idx).
    { intros Rf. apply bind_ok in Rf as [[st' ty] [Rt Rf]]. exists st', ty. split; [exact Rt|].
      injection Rf as <- <-. split; [reflexivity|].
      destruct (ae_sort x); destruct (ae_iid x); cbn; repeat split; eauto. }
    clearbody fresh.
    destruct (ae_sort x) eqn:Esx; try (right; apply Fresh; exact R).
    destruct (ae_iid x) as [i|]; [|right; apply Fresh; exact R].
    destruct (reg_lookup i (e_reg st)) as [[ix under]|] eqn:RL; [|right; apply Fresh; exact R].
    injection R as <- <-. apply reg_lookup_in in RL as [k Ik]. left. exists k, under. auto.
  Qed.

  Lemma import_step pre st enc d x st1 idx :
    AInv pre st enc d -> ~ In (ae_name x) (map ae_name pre) ->
    import_ tau st x = ROk (st1, idx) ->
    exists d1, AInv (pre ++ [x]) st1 ((ae_name x, (ae_sort x, idx)) :: enc) d1.
  Proof.
    intros [A [S1 [S2 S3]] [F1 [F2 F3]] RG EN DM OW AL] Nx R.
    assert (DM' : forall enc0 y, In y pre -> exists i, str_assoc (ae_name y) ((ae_name x, enc0) :: enc) = Some (ae_sort y, i)).
    { intros enc0 y Iy. cbn. destruct (str_eqb (ae_name x) (ae_name y)) eqn:E; auto.
      apply str_eqb_eq in E. exfalso. apply Nx. rewrite E. now apply in_map. }
    apply import_cases in R as [[i [under [Esx [Ik ->]]]] | [st' [ty [Rt [-> [L [N [P [I [Dd Rg]]]]]]]]]].
    - exists d. constructor; cbn; auto.
      + intros nm s i0 [E|Ie].
        * injection E as <- <- <-. exists under. rewrite Esx. split; [eapply RG; eauto|]. right. apply in_or_app. right. cbn. auto.
        * destruct (EN _ _ _ Ie) as [un [Lu Hu]]. exists un. split; auto. destruct Hu; auto. right. apply in_or_app. auto.
      + intros y Iy. apply in_app_or in Iy as [Iy|[<-|[]]]; [now apply DM'|]. exists idx. cbn. now rewrite str_eqb_refl.
      + intros nm s Io. destruct (OW _ _ Io) as [y [? ?]]. exists y. split; auto. apply in_or_app. auto.
      + intros y Iy. apply in_app_or in Iy as [Iy|[<-|[]]].
        * destruct (AL _ Iy) as [?|[un ?]]; auto. right. exists un. apply in_or_app. auto.
        * right. exists under. apply in_or_app. right. cbn. auto.
    - destruct (run_ty_decode _ _ _ _ _ _ A Rt) as [d' [A' [X' [[T1 [T2 T3]] [T4 TR]]]]].
      apply run_ty_inv in Rt as [its [_ [_ [N0 [P0 [I0 [D0 _]]]]]]].
      set (sx := ae_sort x) in *. set (nx := ae_name x) in *.
      set (d1 := {| d_sp := push (d_sp d') sx (PImp nx); d_insts := d_insts d'; d_exports := d_exports d'; d_comps := d_comps d';
                    d_imports := d_imports d' ++ [(nx, sx, false)] |}).
      assert (Lnew : look (d_sp d1) sx (cnt sx (e_log st')) = Some (PImp nx)).
      { rewrite <- (decode_length _ _ sx A'). cbn. apply look_push_new. }
      assert (X1 : sp_ext (d_sp d) (d_sp d1)) by (eapply sp_ext_trans; [exact X' | apply sp_ext_push]).
      assert (Own : own_imports d1 = own_imports d ++ [(nx, sx)]).
      { rewrite <- T4. unfold own_imports. cbn. now rewrite flat_map_app. }
      assert (Old : forall k i un, In (k, (i, un)) (e_reg st') -> look (d_sp d1) SInstance i = Some (PImp un)).
      { intros k i un Ik. destruct (TR _ _ _ Ik) as [Io|Ln]; [eapply sp_ext_look; [exact X1 | eauto] | cbn; now apply look_push_old]. }
      exists d1. constructor.
      + rewrite L, (decode_from_snoc _ _ _ _ A'). reflexivity.
      + cbn. rewrite T1, T2, T3. auto.
      + rewrite N, P, I, N0, P0, I0. auto.
      + intros k i un Ik. destruct Rg as [Rg|[i0 [Es Rg]]]; rewrite Rg in Ik; [eauto|].
        destruct Ik as [E|Ik]; [|eauto]. injection E as <- <- <-. rewrite <- Es. exact Lnew.
      + intros nm s i [E|Ie].
        * injection E as <- <- <-. exists nx. split; auto.
        * destruct (EN _ _ _ Ie) as [un [Lu Hu]]. exists un. split; [eapply sp_ext_look; eauto|].
          destruct Hu; auto. right. rewrite Dd, D0. auto.
      + intros y Iy. apply in_app_or in Iy as [Iy|[<-|[]]]; [now apply DM'|].
        exists (cnt sx (e_log st')). cbn. fold nx. now rewrite str_eqb_refl.
      + intros nm s Io. rewrite Own in Io. apply in_app_or in Io as [Io|[E|[]]].
        * destruct (OW _ _ Io) as [y [? ?]]. exists y. split; auto. apply in_or_app; auto.
        * injection E as <- <-. exists x. split; auto. apply in_or_app. right. cbn. auto.
      + intros y Iy. rewrite Own, Dd, D0. apply in_app_or in Iy as [Iy|[<-|[]]].
        * destruct (AL _ Iy) as [?|?]; auto. left. apply in_or_app. auto.
        * left. apply in_or_app. right. cbn. auto.
  Qed.

  Lemma NoDup_partition {A B} (f : A -> B) (p : A -> bool) l :
    NoDup (map f l) -> NoDup (map f (filter p l ++ filter (fun x => negb (p x)) l)).
  Proof.
    induction l as [|x r IH]; cbn; intros N; [constructor|]. inversion N as [|? ? Nx Nr]; subst.
    specialize (IH Nr).
    assert (Hin : forall q, In (f x) (map f (filter q r)) -> In (f x) (map f r)).
    { intros q I. apply in_map_iff in I as [y [E I]]. apply filter_In in I as [I _]. rewrite <- E. now apply in_map. }
    destruct (p x); cbn.
    - constructor; auto. rewrite map_app, in_app_iff. intros [I|I]; apply Hin in I; auto.
    - rewrite map_app in *. cbn. apply (Permutation_NoDup (Permutation_middle _ _ _)). constructor; auto.
      rewrite in_app_iff. intros [I|I]; apply Hin in I; auto.
  Qed.

  Lemma flat_map_select {X} (n : nat) (F : nat -> list X) M :
    NoDup M -> flat_map (fun m => if m =? n then F m else []) M = if existsb (Nat.eqb n) M then F n else [].
  Proof.
    induction M as [|m r IH]; cbn; intros N; auto. inversion N as [|? ? Nm Nr]; subst.
    rewrite (IH Nr). destruct (m =? n) eqn:E.
    - apply Nat.eqb_eq in E. subst m. rewrite Nat.eqb_refl. cbn.
      rewrite (proj2 (GraphInv.existsb_eqb_notIn n r) Nm), app_nil_r. reflexivity.
    - rewrite Nat.eqb_sym, E. cbn. reflexivity.
  Qed.

  Definition Rimp (a : agg) (encoded : list (str * (sort * nat))) (p : name * kid * nat) (q : nat * arg) : Prop :=
    let '(nm, _, node) := p in let '(node', (nm', s, idx)) := q in
    node' = node /\ nm' = nstr e nm /\ str_assoc (canonical_name a (nstr e nm)) encoded = Some (s, idx).

  Definition exp_arg (r : nat * (name * kid)) : parg :=
    (nstr e (fst (snd r)), we_sort e (snd (snd r)), PImp (canon e u g (nstr e (fst (snd r))))).

  Lemma implicit_args_select n :
    flat_map (fun r : nat * (name * kid) => if fst r =? n then [exp_arg r] else []) (implicit_requests u g)
    = implicit_args e u g n.
  Proof.
    unfold implicit_requests.
    assert (FF : forall {A B C} (F : B -> list C) (G : A -> list B) (M : list A),
                 flat_map F (flat_map G M) = flat_map (fun m => flat_map F (G m)) M).
    { intros A B C F G M. induction M as [|m r IH]; cbn; auto. now rewrite flat_map_app, IH. }
    rewrite FF.
    assert (E : forall m, flat_map (fun r : nat * (name * kid) => if fst r =? n then [exp_arg r] else [])
                                   (map (fun p => (m, p)) (unsat_args u g m))
                          = if m =? n then implicit_args e u g m else []).
    { intros m. unfold implicit_args. induction (unsat_args u g m) as [|p r IH]; cbn; [now destruct (m =? n)|].
      rewrite IH. destruct (m =? n); reflexivity. }
    rewrite (flat_map_ext _ _ E).
    rewrite (flat_map_select n (implicit_args e u g)).
    2:{ apply NoDup_filter, node_ids_nodup. }
    destruct (existsb (Nat.eqb n) (filter (is_inst g) (node_ids g))) eqn:X; auto.
    (* a node that is not a live instantiation has no unsatisfied arguments *)
    unfold implicit_args, unsat_args. destruct (get_node g n) as [nd|] eqn:G; auto.
    destruct (nk nd) eqn:K; auto. exfalso.
    assert (I : In n (filter (is_inst g) (node_ids g))).
    { apply filter_In. split; [apply node_ids_live_iff; unfold live; now rewrite G | unfold is_inst; now rewrite G, K]. }
    rewrite (proj2 (GraphInv.existsb_eqb_In n _) I) in X. discriminate.
  Qed.

  Theorem encode_imports_ok st0 :
    encode_imports e u g tau est_init import_nodes = ROk st0 ->
    exists a d0, AggInv a hist /\ decode_from d_init (e_log st0) = Some d0 /\
      (forall nm s, In (nm, s) (own_imports d0) -> exists x, In x (a_imps a) /\ ae_name x = nm /\ ae_sort x = s) /\
      (forall x, In x (a_imps a) ->
         In (ae_name x, ae_sort x) (own_imports d0) \/ exists under, In (ae_name x, under) (e_dedup st0)) /\
      ((forall p, In p (e_dedup st0) -> fst p = snd p) -> LInv e u g dc ord (own_imports d0) [] st0 d0).
  Proof.
    intros R. unfold encode_imports in R.
    apply bind_ok in R as [[a0 impl] [R1 R]]. apply bind_ok in R as [[a expl] [R2 R]].
    apply bind_ok in R as [[st1 encoded] [R3 R]]. apply bind_ok in R as [st2 [R4 R5]].
    destruct (resolve_implicit_ok _ _ R1) as [AI0 Eimpl]. destruct (resolve_explicit_ok _ _ _ AI0 R2) as [AI Eexpl].
    set (order := filter is_instance_entry (a_imps a) ++ filter (fun x => negb (is_instance_entry x)) (a_imps a)) in *.
    assert (Nord : NoDup (map ae_name order)) by (apply NoDup_partition, (ai_nodup _ _ AI)).
    assert (Iord : forall x, In x (a_imps a) <-> In x order).
    { intros x. unfold order. rewrite in_app_iff, !filter_In. destruct (is_instance_entry x); cbn; tauto. }
    assert (E3 : exists d1, AInv order st1 encoded d1).
    { apply (fold_ok_ind _ (fun pre s => exists d, AInv pre (fst s) (snd s) d) _ _ _ (fun _ _ => eq_refl) R3).
      - exists d_init. constructor; cbn; auto; try tauto; intros; tauto.
      - intros pre x post [st enc] [st' enc'] El [d AV] Rs. cbn [bind] in Rs.
        apply bind_ok in Rs as [[st'' idx] [Ri Rs]]. injection Rs as <- <-. cbn.
        eapply import_step; eauto.
        rewrite El, map_app in Nord. cbn in Nord. apply NoDup_remove_2 in Nord. intros I. apply Nord. apply in_or_app. auto. }
    destruct E3 as [d1 [A1 [S1 [S2 S3]] [F1 [F2 F3]] RG EN DM OW AL]].
    assert (E4 : e_log st2 = e_log st1 /\ e_nidx st2 = [] /\ e_pkgs st2 = [] /\ e_dedup st2 = e_dedup st1 /\
                 Forall2 (Rimp a encoded) impl (e_impl st2)).
    { (* the invariant is the assertion, read as a predicate of the list and the state *)
      pattern impl, st2. apply (fold_ok_ind _ _ _ _ _ (fun _ _ => eq_refl) R4).
      - rewrite F3. repeat split; auto.
      - intros pre [[nm k] node] post st st' _ [L [N [P [D FA]]]] Rs. cbn [bind] in Rs.
        destruct (str_assoc (canonical_name a (nstr e nm)) encoded) as [[s idx]|] eqn:SA; try discriminate.
        injection Rs as <-. cbn. repeat split; auto. apply Forall2_app; auto. constructor; [|constructor]. cbn. auto. }
    destruct E4 as [L2 [N2 [P2 [D2 FA2]]]].
    assert (E5 : e_log st0 = e_log st1 /\ e_pkgs st0 = [] /\ e_impl st0 = e_impl st2 /\ e_dedup st0 = e_dedup st1 /\
                 forall n idx, In (n, idx) (e_nidx st0) ->
                   exists nm s, In (nm, n) expl /\ str_assoc (canonical_name a nm) encoded = Some (s, idx)).
    { pattern expl, st0. apply (fold_ok_ind _ _ _ _ _ (fun _ _ => eq_refl) R5).
      - rewrite N2. repeat split; auto. intros n idx [].
      - intros pre [nm n] post st st' _ [L [P [I [D NX]]]] Rs. cbn [bind fst snd] in Rs.
        destruct (str_assoc (canonical_name a nm) encoded) as [[s idx]|] eqn:SA; try discriminate.
        injection Rs as <-. cbn. repeat split; auto. intros m i [E|Im].
        + injection E as <- <-. exists nm, s. split; auto. apply in_or_app. right. cbn. auto.
        + destruct (NX _ _ Im) as [nm' [s' [? ?]]]. exists nm', s'. split; auto. apply in_or_app. auto. }
    destruct E5 as [L0 [P0 [I0 [D0 NX0]]]].
    exists a, d1. split; [exact AI|]. split; [now rewrite L0|].
    split; [intros nm s Io; destruct (OW _ _ Io) as [x [Ix ?]]; exists x; split; auto; now apply Iord|].
    split; [intros x Ix; rewrite D0; apply AL; now apply Iord|]. intros Cons.
    assert (EL : forall nm s0 s idx, In (nm, s0) hist -> str_assoc (canonical_name a nm) encoded = Some (s, idx) ->
                 s = s0 /\ look (d_sp d1) s idx = Some (PImp (canon e u g nm))).
    { intros nm s0 s idx Ih SA.
      destruct (agg_canonical _ _ _ _ AI Ih) as [Ic _]. apply in_map_iff in Ic as [x [Ex Ix]].
      destruct (DM x (proj1 (Iord x) Ix)) as [i' Hx]. rewrite Ex, SA in Hx. injection Hx as -> ->.
      split; [eapply agg_entry_sort; eauto|].
      apply str_assoc_some in SA. destruct (EN _ _ _ SA) as [under [Lu Hu]].
      assert (under = canonical_name a nm).
      { destruct Hu as [?|Hu]; auto. rewrite <- D0 in Hu. apply Cons in Hu. cbn in Hu. congruence. }
      subst under. now rewrite <- (canonical_is_canon _ _ _ AI Ih). }
    constructor.
    - now rewrite L0.
    - intros n idx Hn. apply nat_assoc_in in Hn. destruct (NX0 _ _ Hn) as [nm [s [Ie SA]]].
      rewrite Eexpl in Ie. apply in_map_iff in Ie as [n' [E In_n]]. injection E as <- <-.
      pose proof In_n as In_n'. apply filter_In in In_n' as [Io Im]. destruct (is_import_true _ Im) as [nd [G K]].
      split; auto.
      assert (Ih : In (imp_hist n') hist) by (unfold hist; apply in_or_app; right; now apply in_map).
      destruct (EL _ _ _ _ Ih SA) as [-> Lk].
      rewrite (node_prov_import e u g ord n' nd _ G K). exact Lk.
    - intros n. unfold impl_of. rewrite I0, <- implicit_args_select.
      assert (G : forall reqs l,
                Forall2 (Rimp a encoded) (map (fun np0 : nat * (name * kid) => (fst (snd np0), snd (snd np0), fst np0)) reqs) l ->
                (forall r, In r reqs -> In (req_hist r) hist) ->
                look_args (d_sp d1) (flat_map (fun p : nat * arg => if fst p =? n then [snd p] else []) l)
                = Some (flat_map (fun r : nat * (name * kid) => if fst r =? n then [exp_arg r] else []) reqs)).
      { induction reqs as [|[m [nm k]] r IH]; intros l FA Hh; inversion FA as [|p q ps qs Rpq FAr]; subst; cbn; auto.
        destruct q as [m' [[nm' s] idx]]. cbn in Rpq. destruct Rpq as [-> [-> SA]].
        assert (Ih : In (req_hist (m, (nm, k))) hist) by (apply Hh; cbn; auto).
        destruct (EL _ _ _ _ Ih SA) as [Es Lk]. cbn in Es. subst s.
        rewrite look_args_app, (IH _ FAr) by (intros; apply Hh; cbn; auto).
        cbn [fst snd]. destruct (m =? n); cbn; auto. cbn in Lk. unfold look in *. now rewrite Lk. }
      rewrite Eimpl in FA2. apply G; auto.
      intros r Ir. unfold hist. apply in_or_app. left. now apply in_map.
    - now rewrite S1.
    - now rewrite S2.
    - constructor.
      + intros pid ci Hp. rewrite P0 in Hp. discriminate.
      + intros p [].
      + rewrite S3. cbn. now destruct dc.
      + cbn. destruct dc; now rewrite app_nil_r.
  Qed.
End Imports.

(** The record of answered import requests is complete after the import phase, so the side condition on
    the final state is the one the import phase needs. *)
Lemma encode_sim e u g dc tau ord st names :
  EncInv e u g -> Topo g ord ->
  encode_with_order e u g dc tau ord = ROk (st, names) ->
  (forall p, In p (e_dedup st) -> fst p = snd p) ->
  exists st0 a d0 d,
    e_dedup st = e_dedup st0 /\ AggInv a (hist e u g ord) /\
    (forall nm s, In (nm, s) (own_imports d0) -> exists x, In x (a_imps a) /\ ae_name x = nm /\ ae_sort x = s) /\
    (forall x, In x (a_imps a) ->
       In (ae_name x, ae_sort x) (own_imports d0) \/ exists under, In (ae_name x, under) (e_dedup st0)) /\
    decode_from d_init (e_log st) = Some d /\
    option_map (erase_defs (def_names e g)) (decode_wiring names (e_log st)) = Some (wiring_spec e u g dc ord) /\
    own_imports d = own_imports d0 ++ (if dc then [] else map (fun p => (pkg_import_name e p, SComponent)) (pkgs_in_order g ord)).
Proof.
  intros EI T R Cons. rewrite encode_with_order_eq in R. apply bind_ok in R as [st0 [R0 R]].
  pose proof (later_dedup _ _ _ _ _ _ _ _ _ R) as D. rewrite D in Cons.
  destruct (encode_imports_ok e u g dc tau ord T st0 R0) as [a [d0 [AI [A0 [OW [AL L0]]]]]].
  destruct (later_phases_ok e u g dc tau ord EI T _ _ _ _ _ (L0 Cons) R) as [d [A [W M]]].
  exists st0, a, d0, d. repeat (split; [assumption|]). assumption.
Qed.

Theorem wiring_correct e u g dc tau ord st names :
  EncInv e u g -> topo_orderb g ord = true ->
  encode_with_order e u g dc tau ord = ROk (st, names) ->
  (forall p, In p (e_dedup st) -> fst p = snd p) ->
  option_map (erase_defs (def_names e g)) (decode_wiring names (e_log st)) = Some (wiring_spec e u g dc ord).
Proof.
  intros EI TO R Cons. apply topo_orderb_Topo in TO.
  destruct (encode_sim _ _ _ _ _ _ _ _ EI TO R Cons) as [st0 [a [d0 [d [_ [_ [_ [_ [_ [W _]]]]]]]]]]. exact W.
Qed.

Lemma nodup_nat_NoDup l : NoDup (nodup_nat l).
Proof.
  induction l as [|x r IH]; cbn; constructor.
  - intros I. apply filter_In in I as [_ H]. rewrite Nat.eqb_refl in H. discriminate.
  - now apply NoDup_filter.
Qed.

(** each instantiated package is embedded exactly once, in order of first use; nothing else is embedded *)
Theorem each_package_once e u g dc tau ord st names w :
  EncInv e u g -> topo_orderb g ord = true ->
  encode_with_order e u g dc tau ord = ROk (st, names) ->
  (forall p, In p (e_dedup st) -> fst p = snd p) ->
  decode_wiring names (e_log st) = Some w ->
  w_comps w = (if dc then map (we_digest e) (pkgs_in_order g ord) else []) /\
  NoDup (pkgs_in_order g ord) /\
  (forall p, In p (pkgs_in_order g ord) <-> exists n, In n ord /\ is_inst g n = true /\ node_pkg g n = Some p).
Proof.
  intros EI TO R Cons D.
  pose proof (wiring_correct _ _ _ _ _ _ _ _ EI TO R Cons) as W. rewrite D in W. cbn [option_map] in W. injection W as _ _ Wc _.
  repeat split.
  - exact Wc.
  - apply nodup_nat_NoDup.
  - unfold pkgs_in_order. rewrite nodup_nat_In, in_flat_map. intros [n [I H]]. apply filter_In in I as [I Hi].
    exists n. repeat split; auto. destruct (node_pkg g n); cbn in H; [destruct H as [->|[]]; auto | destruct H].
  - intros [n [I [Hi Hp]]]. unfold pkgs_in_order. rewrite nodup_nat_In, in_flat_map. exists n. split.
    + apply filter_In. auto.
    + rewrite Hp. cbn. auto.
Qed.

Definition export_sig (x : parg) : str * sort := (fst (fst x), snd (fst x)).

(** C03: the exported names and sorts are exactly the designated export names (which include every
    type definition's name), each with the sort of the designated node *)
Theorem exports_spec e u g dc tau ord st names w :
  EncInv e u g -> topo_orderb g ord = true ->
  encode_with_order e u g dc tau ord = ROk (st, names) ->
  (forall p, In p (e_dedup st) -> fst p = snd p) ->
  decode_wiring names (e_log st) = Some w ->
  (forall n, In n ord -> is_def g n = true -> exists nm, In (nm, n) (exports g)) ->
  (forall nm n, In (nm, n) (exports g) -> live g n = true) ->
  forall nm s, In (nm, s) (map export_sig (w_exports w)) <-> In (nm, s) (spec_export_names e g).
Proof.
  intros EI TO R Cons D E1 E2 nm s.
  pose proof (wiring_correct _ _ _ _ _ _ _ _ EI TO R Cons) as W. rewrite D in W. cbn [option_map] in W. injection W as _ We _ _.
  apply topo_orderb_Topo in TO as T.
  assert (P : map export_sig (w_exports w) = map export_sig (spec_exports e u g ord)).
  { rewrite <- We, map_map. apply map_ext. intros [[n0 s0] p0]. cbn. now destruct (sort_eqb s0 SType && str_mem n0 (def_names e g)). }
  assert (DS : forall nm0 n, In (nm0, n) (exports g) -> is_def g n = true -> (nstr e nm0, node_sort e g n) = (def_name e g n, SType)).
  { intros nm0 n I0 Dn. rewrite (ei_def_single _ _ _ EI _ _ I0 Dn).
    destruct (proj1 (is_def_true g n) Dn) as [nd [G K]]. unfold node_sort. now rewrite G, (ei_def_node _ _ _ EI _ _ G K). }
  rewrite P. unfold spec_exports, spec_export_names. rewrite map_app, in_app_iff, !in_map_iff. split.
  - intros [[x [Ex Ix]]|[x [Ex Ix]]].
    + apply in_map_iff in Ix as [n [En In_n]]. subst x. cbn in Ex. injection Ex as <- <-.
      apply filter_In in In_n as [Io Dn]. destruct (E1 _ Io Dn) as [nm0 I0]. exists (nm0, n). split; [now apply DS | exact I0].
    + apply in_flat_map in Ix as [[nm0 n] [I0 Hx]]. cbn in Hx.
      destruct (is_def g n && str_eqb (nstr e nm0) (def_name e g n)); [destruct Hx|]. destruct Hx as [<-|[]].
      cbn in Ex. injection Ex as <- <-. exists (nm0, n). auto.
  - intros [[nm0 n] [Ex I0]]. cbn in Ex. injection Ex as <- <-.
    destruct (is_def g n) eqn:Dn.
    + left. exists (def_name e g n, SType, PDef). split.
      * symmetry. now apply DS.
      * apply in_map_iff. exists n. split; auto. apply filter_In. split; auto.
        apply (to_all _ _ T). apply node_ids_live_iff. eauto.
    + right. exists (nstr e nm0, node_sort e g n, node_prov e u g ord n). split; auto.
      apply in_flat_map. exists (nm0, n). split; auto. cbn. rewrite Dn. cbn. auto.
Qed.
