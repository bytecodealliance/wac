(** The walk of the converter shared by its invariants, and the invariant of the conversion cache.

    Most results about the converter have one shape: an invariant [I] of its state and a relation [T] between the
    states before and after, such that every successful conversion [keeps I T] ([ConvertProofs]).  [Section Walk]
    goes through the interpreter once and reduces this, for all conversion functions, to the primitive state changes:
    allocation, cache insertion, [use_or_own], the self-ownership reset, the insertion of an item.

    [convert_cache_consistent] (here [entity_later] and [entity_twice]): the conversion cache is consulted first and filled last, is never overwritten, and
    so the same validator identifier is converted to the same [wac_types] identifier at any later time.
    "Never overwritten" needs the validator's type graph to be well founded (a type does not contain itself): a rank
    function [rk] that decreases along every reference.  wasmparser's types are finite trees; this is part of the
    well-formedness assumed of the oracle.

    Fuel: on such a graph, with [pk] decreasing along every [peel_alias] link and fuel above the ranks, no conversion
    returns the out-of-fuel outcome: the fuel parameters of the model are an artefact, not a behaviour. *)
From Coq Require Import Lia.
From WacV Require Import Str Types Convert ConvertSpec ConvertProofs ConvertFrame.
Set Warnings "-unused-intro-pattern".

Definition val_refs (v : vval) : list vid := match v with WRef d => [d] | WPrim _ => [] end.
Definition oval_refs (o : option vval) : list vid := match o with Some v => val_refs v | None => [] end.
Definition def_refs (d : vdef) : list vid :=
  match d with
  | WDRecord fs => flat_map (fun kv => val_refs (snd kv)) fs
  | WDVariant cs => flat_map (fun kv => oval_refs (snd kv)) cs
  | WDList v | WDFsl v _ | WDOption v => val_refs v
  | WDTuple l => flat_map val_refs l
  | WDResult o e => oval_refs o ++ oval_refs e
  | WDFuture o | WDStream o => oval_refs o
  | WDMap k v => val_refs k ++ val_refs v
  | WDPrim _ | WDFlags _ | WDEnum _ | WDOwn _ | WDBorrow _ => []
  end.
Definition ent_refs (e : vent) : list vid :=
  match e with
  | EModule m => [m] | EFunc f => [f] | EValue v => val_refs v | EType _ cr => [cr] | EInstance i => [i] | EComponent c => [c]
  end.
Definition node_refs (n : vnode) : list vid :=
  match n with
  | NDef d => def_refs d
  | NFunc _ ps r => flat_map (fun kv => val_refs (snd kv)) ps ++ oval_refs r
  | NInst ex => flat_map (fun kv => ent_refs (snd kv)) ex
  | NComp im ex => flat_map (fun kv => ent_refs (snd kv)) im ++ flat_map (fun kv => ent_refs (snd kv)) ex
  | NRes _ | NMod _ => []
  end.
Definition ranked (g : vgraph) (rk : vid -> nat) : Prop :=
  forall v n, node_of g v = Some n -> forall c, In c (node_refs n) -> (rk c < rk v)%nat.

Lemma val_body_keeps I (T : cstate -> cstate -> Prop) R v : (forall s, T s s) -> (forall c, In c (val_refs v) -> keeps I T (R c)) -> keeps I T (val_body R v).
Proof.
  intros Tr HR. destruct v as [p|d]; cbn [val_body]; [|apply HR; now left]. intros s r s' Hi H. injection H as <- <-. auto.
Qed.

(** While node [v] is being converted, from state [s0] on, the states are related by [Tin v s0]; the whole conversion
    of [v] is a [Tout v] step.  The two differ because the result enters the cache last, and because the slot of an
    instance or component type is open in between.  [D s0 s1 x]: what is known of a defined type's value [x] when it
    is about to enter the cache. *)
Section Walk.
  Variable g : vgraph.
  Variable hf : nat.
  Variable I : cstate -> Prop.
  Variable Tin : vid -> cstate -> cstate -> cstate -> Prop.
  Variable Tout : vid -> cstate -> cstate -> Prop.
  Variable D : cstate -> cstate -> valtype -> Prop.

  Hypothesis Tin_refl : forall v s0 s, Tin v s0 s s.
  Hypothesis Tin_trans : forall v s0 a b c, Tin v s0 a b -> Tin v s0 b c -> Tin v s0 a c.
  Hypothesis Tout_refl : forall v s, Tout v s s.
  Hypothesis Tchild : forall v n c s0 s s', node_of g v = Some n -> In c (node_refs n) -> Tout c s s' -> Tin v s0 s s'.

  Hypothesis Hmk : forall v s0 s dd x s1,
    I s -> Tin v s0 s0 s -> mk_def dd s = COk (x, s1) -> I s1 /\ Tin v s0 s0 s1 /\ D s0 s1 x.
  Hypothesis Hhandle : forall s r, I s -> D s s (VOwn r) /\ D s s (VBorrow r).
  Hypothesis Hput_def : forall d nd s s1 x,
    I s -> nassoc d (cs_cache s) = None -> node_of g d = Some (NDef nd) -> I s1 -> Tin d s s s1 -> D s s1 x ->
    I (cache_put s1 d (EnType (TValue x))) /\ Tout d s (cache_put s1 d (EnType (TValue x))).
  Hypothesis Hput_func : forall v a ps r s s2 ft f t,
    I s -> nassoc v (cs_cache s) = None -> node_of g v = Some (NFunc a ps r) -> I s2 -> Tin v s s s2 ->
    add_func (cs_types s2) ft = (f, t) ->
    I (cache_put (with_types s2 t) v (EnType (TFunc f))) /\ Tout v s (cache_put (with_types s2 t) v (EnType (TFunc f))).
  Hypothesis Hmod : forall v, keeps I (Tout v) (c_module g v).
  Hypothesis Hres : forall n v, keeps I (Tout v) (c_resource hf g n v).
  Hypothesis Huse : forall v s0 vn ow n rf cr, keeps1 I (Tin v s0) (use_or_own hf g vn ow n rf cr).
  Hypothesis Hreset : forall v s0 me k, keeps1 I (Tin v s0) (reset_self_owner me k).
  Hypothesis Hput_if : forall v s0 x me t n k,
    add_if (cs_types s0) x = (me, t) -> keeps1 I (Tin v s0) (put_if_export me n k).
  Hypothesis Hput_wi : forall v s0 x me t n k,
    add_world (cs_types s0) x = (me, t) -> keeps1 I (Tin v s0) (put_world_import me n k).
  Hypothesis Hput_we : forall v s0 x me t n k,
    add_world (cs_types s0) x = (me, t) -> keeps1 I (Tin v s0) (put_world_export me n k).
  Hypothesis Hopen_if : forall s name me t,
    I s -> add_if (cs_types s) (mkif (iface_id_of name) [] []) = (me, t) -> I (with_types s t).
  Hypothesis Hopen_world : forall s name me t,
    I s -> add_world (cs_types s) (mkworld (iface_id_of name) [] [] []) = (me, t) -> I (with_types s t).
  Hypothesis Hclose_if : forall v ex s name me t s1,
    I s -> nassoc v (cs_cache s) = None -> node_of g v = Some (NInst ex) ->
    add_if (cs_types s) (mkif (iface_id_of name) [] []) = (me, t) -> I s1 -> Tin v s (with_types s t) s1 ->
    I (cache_put s1 v (EnType (TInterface me))) /\ Tout v s (cache_put s1 v (EnType (TInterface me))).
  Hypothesis Hclose_world : forall v im ex s name me t s1,
    I s -> nassoc v (cs_cache s) = None -> node_of g v = Some (NComp im ex) ->
    add_world (cs_types s) (mkworld (iface_id_of name) [] [] []) = (me, t) -> I s1 -> Tin v s (with_types s t) s1 ->
    I (cache_put s1 v (EnType (TWorld me))) /\ Tout v s (cache_put s1 v (EnType (TWorld me))).

  Lemma defined_body_walk R d :
    (forall nd c s0, node_of g d = Some (NDef nd) -> In c (def_refs nd) -> keeps I (Tin d s0) (R c)) ->
    keeps I (Tout d) (defined_body R g d).
  Proof.
    intros HR s r s' Hi H. unfold defined_body in H.
    destruct (nassoc d (cs_cache s)) as [[[ | |x| | | ]|]|] eqn:Ec; try discriminate.
    { injection H as <- <-. auto. }
    destruct (node_of g d) as [[nd| | | | | ]|] eqn:En; try discriminate.
    inv_bind H as [v s1] H1. injection H as <- <-.
    assert (X : I s1 /\ Tin d s s s1 /\ D s s1 v); [|destruct X as [I1 [T1 D1]]; eapply Hput_def; eassumption].
    pose proof (Tin_refl d s) as Tr. pose proof (Tin_trans d s) as Tt. specialize (HR nd). set (T := Tin d s) in *.
    assert (HV : forall w, (forall c, In c (val_refs w) -> In c (def_refs nd)) -> keeps I T (val_body R w)).
    { intros w Hw. apply val_body_keeps; [exact Tr|]. intros c Hc. apply HR; auto. }
    assert (K : forall A (F : cstate -> cres (A * cstate)) (G : A -> deftype), keeps I T F ->
                ('(a, s2) <- F s ;; mk_def (G a) s2) = COk (v, s1) -> I s1 /\ T s s1 /\ D s s1 v).
    { intros A F G HF E. inv_bind E as [a s2] E1. destruct (HF s a s2 Hi E1) as [I2 T2]. eapply Hmk; eassumption. }
    destruct nd as [p|fs|cs|x|k x|x n|l|l|l|x|o e|r0|r0|o|o]; cbn [def_refs] in HV; try discriminate.
    - eapply Hmk; [exact Hi | apply Tr | exact H1].
    - refine (K _ (mapM (named (val_body R)) fs) DRecord _ H1). apply mapM_keeps; [exact Tr | exact Tt|].
      intros a Ha. apply named_keeps, HV. intros c Hc. apply in_flat_map. eauto.
    - refine (K _ (mapM (named (optM (val_body R))) cs) DVariant _ H1). apply mapM_keeps; [exact Tr | exact Tt|].
      intros a Ha. apply named_keeps, optM_keeps; [exact Tr|]. intros y Hy. apply HV. intros c Hc.
      apply in_flat_map. exists a. split; [exact Ha|]. rewrite Hy. exact Hc.
    - exact (K _ (val_body R x) DList (HV x (fun c Hc => Hc)) H1).
    - exact (K _ (val_body R x) (fun y => DFsl y n) (HV x (fun c Hc => Hc)) H1).
    - refine (K _ (mapM (val_body R) l) DTuple _ H1). apply mapM_keeps; [exact Tr | exact Tt|].
      intros a Ha. apply HV. intros c Hc. apply in_flat_map. eauto.
    - eapply Hmk; [exact Hi | apply Tr | exact H1].
    - eapply Hmk; [exact Hi | apply Tr | exact H1].
    - exact (K _ (val_body R x) DOption (HV x (fun c Hc => Hc)) H1).
    - inv_bind H1 as [o' s2] H2. inv_bind H1 as [e' s3] H3.
      destruct (optM_keeps I T Tr (val_body R) o) with (s := s) (r := o') (s' := s2) as [I2 T2]; [|exact Hi|exact H2|].
      { intros y ->. apply HV. intros c Hc. apply in_or_app. now left. }
      destruct (optM_keeps I T Tr (val_body R) e) with (s := s2) (r := e') (s' := s3) as [I3 T3]; [|exact I2|exact H3|].
      { intros y ->. apply HV. intros c Hc. apply in_or_app. now right. }
      eapply Hmk; [exact I3 | exact (Tt _ _ _ T2 T3) | exact H1].
    - inv_bind H1 as x0 H0. injection H1 as <- <-. split; [exact Hi|]. split; [apply Tr | now apply Hhandle].
    - inv_bind H1 as x0 H0. injection H1 as <- <-. split; [exact Hi|]. split; [apply Tr | now apply Hhandle].
    - refine (K _ (optM (val_body R) o) DFuture _ H1). apply optM_keeps; [exact Tr|]. intros y ->. now apply HV.
    - refine (K _ (optM (val_body R) o) DStream _ H1). apply optM_keeps; [exact Tr|]. intros y ->. now apply HV.
  Qed.

  Lemma c_defined_walk : forall fuel d, keeps I (Tout d) (c_defined fuel g d).
  Proof.
    induction fuel as [|f IH]; intros d; [intros s r s' _ H; discriminate|]. cbn [c_defined]. apply defined_body_walk.
    intros nd c s0 En Hc. eapply keeps_weaken; [|apply IH]. intros a b. now apply (Tchild d (NDef nd)).
  Qed.
  Lemma c_val_walk fuel v (T : cstate -> cstate -> Prop) :
    (forall s, T s s) -> (forall c s s', In c (val_refs v) -> Tout c s s' -> T s s') -> keeps I T (c_val fuel g v).
  Proof.
    intros Tr Hc. apply val_body_keeps; [exact Tr|]. intros c Hin. eapply keeps_weaken; [|apply c_defined_walk]. eauto.
  Qed.

  Lemma c_func_walk fuel v : keeps I (Tout v) (c_func fuel g v).
  Proof.
    intros s r s' Hi H. unfold c_func in H.
    destruct (nassoc v (cs_cache s)) as [[[ |f0| | | | ]|]|] eqn:Ec; try discriminate.
    { injection H as <- <-. auto. }
    destruct (node_of g v) as [[ |a ps r0| | | | ]|] eqn:En; try discriminate.
    inv_bind H as [ps' s1] H1. inv_bind H as [r' s2] H2.
    assert (HV : forall w, (forall c, In c (val_refs w) -> In c (node_refs (NFunc a ps r0))) -> keeps I (Tin v s) (c_val fuel g w)).
    { intros w Hw. apply c_val_walk; [apply Tin_refl|]. intros c x y Hc. apply (Tchild v _ c s x y En). auto. }
    cbn [node_refs] in HV.
    destruct (mapM_keeps I _ (Tin_refl v s) (Tin_trans v s) (named (c_val fuel g)) ps) with (s := s) (r := ps') (s' := s1)
      as [I1 T1]; [|exact Hi|exact H1|].
    { intros x Hx. apply named_keeps, HV. intros c Hc. apply in_or_app. left. apply in_flat_map. eauto. }
    destruct (optM_keeps I _ (Tin_refl v s) (c_val fuel g) r0) with (s := s1) (r := r') (s' := s2) as [I2 T2]; [|exact I1|exact H2|].
    { intros y ->. apply HV. intros c Hc. apply in_or_app. now right. }
    destruct (add_func (cs_types s2) (mkfunc ps' r' a)) as [f t] eqn:Ea. injection H as <- <-.
    eapply Hput_func; eauto.
  Qed.

  Lemma own_if_walk v s0 vn me n e k : keeps1 I (Tin v s0) (own_if hf g vn me n e k).
  Proof.
    intros s s' Hi H. unfold own_if in H. destruct e as [ | | |rf cr| | ]; try (injection H as <-; auto).
    inv_bind H as sa Ha. destruct (Huse v s0 _ _ _ _ _ _ _ Hi Ha) as [Ia Ta]. destruct (Hreset v s0 _ _ _ _ Ia H). eauto.
  Qed.
  Lemma own_world_walk v s0 vn me n e k : keeps1 I (Tin v s0) (own_world hf g vn me n e k).
  Proof. intros s s' Hi H. unfold own_world in H. destruct e; try (injection H as <-; auto). exact (Huse _ _ _ _ _ _ _ _ _ Hi H). Qed.
  Lemma own_none_walk v s0 n e k : keeps1 I (Tin v s0) (own_none n e k).
  Proof. intros s s' Hi H. injection H as <-. auto. Qed.

  Section Bodies.
    Variable E : str -> vent -> cstate -> cres (kind * cstate).
    Hypothesis item_walk : forall n e v s0,
      (forall c s s', In c (ent_refs e) -> Tout c s s' -> Tin v s0 s s') -> keeps I (Tin v s0) (E n e).

    Lemma item_loop_walk v s0 mid put :
      (forall n e k, keeps1 I (Tin v s0) (mid n e k)) -> (forall n k, keeps1 I (Tin v s0) (put n k)) -> forall l,
      (forall a c s s', In a l -> In c (ent_refs (snd a)) -> Tout c s s' -> Tin v s0 s s') ->
      keeps1 I (Tin v s0) (item_loop E mid put l).
    Proof.
      intros Hm Hp. induction l as [|[n e] l IH]; intros Hl s s' Hi H; cbn [item_loop] in H; [injection H as <-; auto|].
      inv_bind H as [k s1] H1. inv_bind H as s2 H2. inv_bind H as s3 H3.
      destruct (item_walk n e v s0 (fun c a b => Hl (n, e) c a b (or_introl eq_refl)) s k s1 Hi H1) as [I1 T1].
      destruct (Hm n e k s1 s2 I1 H2) as [I2 T2]. destruct (Hp n k s2 s3 I2 H3) as [I3 T3].
      destruct (IH (fun a c p q Ha => Hl a c p q (or_intror Ha)) s3 s' I3 H) as [I4 T4]. eauto 6.
    Qed.

    Lemma instance_body_walk name v : keeps I (Tout v) (instance_body hf g E name v).
    Proof.
      intros s r s' Hi H. unfold instance_body in H.
      destruct (nassoc v (cs_cache s)) as [[[ | | |i0| | ]|]|] eqn:Ec; try discriminate.
      { injection H as <- <-. auto. }
      destruct (node_of g v) as [[ | |exports| | | ]|] eqn:En; try discriminate.
      destruct (add_if (cs_types s) (mkif (iface_id_of name) [] [])) as [me t] eqn:Ea.
      inv_bind H as s1 H1. injection H as <- <-. rewrite inst_loop_eq in H1.
      destruct (item_loop_walk v s _ _ (own_if_walk v s v me) (fun n k => Hput_if v s _ me t n k Ea) exports) with (s := with_types s t) (s' := s1) as [I1 T1];
        [|eapply Hopen_if; eassumption|exact H1|eapply Hclose_if; eassumption].
      intros a c p q Ha Hc. apply (Tchild v _ c s p q En). cbn [node_refs]. apply in_flat_map. eauto.
    Qed.
    Lemma component_body_walk name v : keeps I (Tout v) (component_body hf g E name v).
    Proof.
      intros s r s' Hi H. unfold component_body in H.
      destruct (nassoc v (cs_cache s)) as [[[ | | | |w0| ]|]|] eqn:Ec; try discriminate.
      { injection H as <- <-. auto. }
      destruct (node_of g v) as [[ | | |imports exports| | ]|] eqn:En; try discriminate.
      destruct (add_world (cs_types s) (mkworld (iface_id_of name) [] [] [])) as [me t] eqn:Ea.
      inv_bind H as s1 H1. inv_bind H as s2 H2. injection H as <- <-. rewrite comp_imports_eq in H1. rewrite comp_exports_eq in H2.
      destruct (item_loop_walk v s _ _ (own_world_walk v s v me) (fun n k => Hput_wi v s _ me t n k Ea) imports) with (s := with_types s t) (s' := s1) as [I1 T1];
        [|eapply Hopen_world; eassumption|exact H1|].
      { intros a c p q Ha Hc. apply (Tchild v _ c s p q En). cbn [node_refs]. apply in_or_app. left. apply in_flat_map. eauto. }
      destruct (item_loop_walk v s _ _ (own_none_walk v s) (fun n k => Hput_we v s _ me t n k Ea) exports) with (s := s1) (s' := s2) as [I2 T2]; [|exact I1|exact H2|].
      { intros a c p q Ha Hc. apply (Tchild v _ c s p q En). cbn [node_refs]. apply in_or_app. right. apply in_flat_map. eauto. }
      eapply Hclose_world; eauto.
    Qed.

    Lemma entity_body_walk n e (T : cstate -> cstate -> Prop) :
      (forall s, T s s) -> (forall c s s', In c (ent_refs e) -> Tout c s s' -> T s s') -> keeps I T (entity_body hf g E n e).
    Proof.
      intros Tr Hc s r s' Hi H. unfold entity_body in H.
      assert (W : forall v R (F : cstate -> cres (R * cstate)) y s1,
                  In v (ent_refs e) -> keeps I (Tout v) F -> F s = COk (y, s1) -> I s1 /\ T s s1).
      { intros v R F y s1 Hv HF Ha. destruct (HF s y s1 Hi Ha). eauto. }
      destruct e as [m|v|v|rf cr|i|c]; cbn [ent_refs] in W; inv_bind H as [x s1] H1; injection H as <- <-.
      - exact (W m _ _ _ _ (or_introl eq_refl) (Hmod m) H1).
      - exact (W v _ _ _ _ (or_introl eq_refl) (c_func_walk hf v) H1).
      - exact (c_val_walk hf v T Tr Hc _ _ _ Hi H1).
      - unfold ty_body in H1. destruct (node_of g cr) as [[d|a ps r0|ex|im ex|rid|mm]|]; try discriminate;
          inv_bind H1 as [y s2] H2; injection H1 as <- <-.
        + exact (W cr _ _ _ _ (or_introl eq_refl) (c_defined_walk hf cr) H2).
        + exact (W cr _ _ _ _ (or_introl eq_refl) (c_func_walk hf cr) H2).
        + exact (W cr _ _ _ _ (or_introl eq_refl) (instance_body_walk None cr) H2).
        + exact (W cr _ _ _ _ (or_introl eq_refl) (component_body_walk None cr) H2).
        + exact (W cr _ _ _ _ (or_introl eq_refl) (Hres n cr) H2).
      - exact (W i _ _ _ _ (or_introl eq_refl) (instance_body_walk (Some n) i) H1).
      - exact (W c _ _ _ _ (or_introl eq_refl) (component_body_walk (Some n) c) H1).
    Qed.
  End Bodies.

  Theorem c_entity_walk : forall fuel n e (T : cstate -> cstate -> Prop),
    (forall s, T s s) -> (forall c s s', In c (ent_refs e) -> Tout c s s' -> T s s') -> keeps I T (c_entity hf fuel g n e).
  Proof.
    induction fuel as [|f IH]; intros n e T Tr Hc; [intros s r s' _ H; discriminate|].
    cbn [c_entity]. apply entity_body_walk; [|exact Tr | exact Hc]. intros n' e' v s0. apply IH, Tin_refl.
  Qed.
End Walk.

Lemma NoDup_app_disjoint {A} (a b : list A) x : NoDup (a ++ b) -> In x a -> In x b -> False.
Proof.
  induction a as [|y a IH]; intros Hnd Ha Hb; [destruct Ha|]. cbn [app] in Hnd. inversion Hnd as [|? ? Hy Hnd']; subst.
  destruct Ha as [->|Ha]; [apply Hy; apply in_or_app; now right | now apply IH].
Qed.

Section Cache.
  Variable g : vgraph.
  Variable rk : vid -> nat.
  Hypothesis HR : ranked g rk.

  Definition keys (s : cstate) : list vid := map fst (cs_cache s).
  Definition inv (s : cstate) : Prop := NoDup (keys s).
  (** the cache of [s'] is the cache of [s] with new entries in front, all for identifiers of rank below [V] *)
  Definition grow (V : nat) (s s' : cstate) : Prop :=
    exists new, cs_cache s' = new ++ cs_cache s /\ Forall (fun k => (rk k < V)%nat) (map fst new).

  Lemma grow_refl V s : grow V s s.
  Proof. exists []. split; [reflexivity | constructor]. Qed.
  Lemma grow_trans V s1 s2 s3 : grow V s1 s2 -> grow V s2 s3 -> grow V s1 s3.
  Proof.
    intros [n1 [E1 F1]] [n2 [E2 F2]]. exists (n2 ++ n1). split; [rewrite E2, E1; now rewrite app_assoc|].
    rewrite map_app. apply Forall_app. auto.
  Qed.
  Lemma grow_mono V V' s s' : (V <= V')%nat -> grow V s s' -> grow V' s s'.
  Proof. intros Hle [n [E F]]. exists n. split; [exact E|]. eapply Forall_impl; [|exact F]. cbn. intros; lia. Qed.

  Lemma cache_kept V s s' : cs_cache s' = cs_cache s -> inv s -> inv s' /\ grow V s s'.
  Proof. intros E Hi. split; [unfold inv, keys; now rewrite E | exists []; split; [exact E | constructor]]. Qed.

  (** every earlier entry is retained unchanged *)
  Definition later (s s' : cstate) : Prop := forall v x, nassoc v (cs_cache s) = Some x -> nassoc v (cs_cache s') = Some x.
  Lemma grow_later V s s' : inv s' -> grow V s s' -> later s s'.
  Proof.
    intros Hi [n [E F]] v x Hv. rewrite E. rewrite nassoc_app_notin; [exact Hv|].
    unfold inv, keys in Hi. rewrite E, map_app in Hi. intro Hin.
    apply nassoc_in, (in_map fst) in Hv. exact (NoDup_app_disjoint _ _ _ Hi Hin Hv).
  Qed.

  (** filling the cache after a miss *)
  Lemma put_ok v e s0 s1 :
    nassoc v (cs_cache s0) = None -> inv s1 -> grow (rk v) s0 s1 ->
    inv (cache_put s1 v e) /\ grow (S (rk v)) s0 (cache_put s1 v e).
  Proof.
    intros Hmiss I1 [n [E F]]. split.
    - unfold inv, keys, cache_put. cbn [cs_cache map fst]. constructor; [|exact I1].
      rewrite E, map_app. intro Hin. apply in_app_or in Hin as [Hin|Hin].
      + rewrite Forall_forall in F. specialize (F _ Hin). lia.
      + exact (nassoc_none_notin _ _ Hmiss Hin).
    - exists ((v, e) :: n). unfold cache_put. cbn [cs_cache]. split; [now rewrite E|].
      cbn [map fst]. constructor; [lia|]. eapply Forall_impl; [|exact F]. cbn. intros; lia.
  Qed.
  Lemma alloc_put_ok v e s0 s1 t :
    nassoc v (cs_cache s0) = None -> inv s1 -> grow (rk v) s0 s1 ->
    inv (cache_put (with_types s1 t) v e) /\ grow (S (rk v)) s0 (cache_put (with_types s1 t) v e).
  Proof. intros Hm I1 G1. now apply (put_ok v e s0 (with_types s1 t)). Qed.

  Lemma c_module_ck v : keeps inv (grow (S (rk v))) (c_module g v).
  Proof.
    intros s r s' Hi H. destruct (c_module_run _ _ _ _ _ H) as [[_ ->]|[mt [Ec [_ [_ ->]]]]].
    - split; [exact Hi | apply grow_refl].
    - apply alloc_put_ok; [exact Ec | exact Hi | apply grow_refl].
  Qed.
  Lemma c_resource_ck hf name v : keeps inv (grow (S (rk v))) (c_resource hf g name v).
  Proof.
    intros s r s' Hi H.
    destruct (c_resource_run _ _ _ _ _ _ _ H) as [[_ ->]|[rid [rr [Ec [_ [_ [[src [ownr [_ [_ ->]]]]|[_ [_ ->]]]]]]]]].
    - split; [exact Hi | apply grow_refl].
    - apply alloc_put_ok; [exact Ec | exact Hi | apply grow_refl].
    - exact (put_ok v _ s (mkcs _ (cs_cache s) ((rid, _) :: cs_resmap s) (cs_owners s) (cs_log s)) Ec Hi (grow_refl _ _)).
  Qed.

  (** the cache invariant is an instance of the walk: only the insertions touch the cache *)
  Theorem c_entity_ck hf fuel n e V :
    (forall c, In c (ent_refs e) -> (rk c < V)%nat) -> keeps inv (grow V) (c_entity hf fuel g n e).
  Proof.
    intros Hc.
    assert (K : forall V (F : cstate -> cres cstate), (forall s s', F s = COk s' -> cs_cache s' = cs_cache s) -> keeps1 inv (grow V) F).
    { intros V' F HF s s' Hi H. apply cache_kept; [exact (HF s s' H) | exact Hi]. }
    apply (c_entity_walk g hf inv (fun v _ => grow (rk v)) (fun v => grow (S (rk v))) (fun _ _ _ => True)).
    - intros; apply grow_refl.
    - intros v s0 a b c. apply grow_trans.
    - intros; apply grow_refl.
    - intros v nd c s0 s s' En Hin. apply grow_mono. exact (HR v nd En c Hin).
    - intros v s0 s dd x s1 Hi G H. destruct (mk_def_run _ _ _ _ H) as [_ ->].
      destruct (cache_kept (rk v) s (with_types s (snd (add_def (cs_types s) dd))) eq_refl Hi) as [I1 G1].
      split; [exact I1|]. split; [eapply grow_trans; eassumption | exact I].
    - intros; split; exact I.
    - intros d nd s s1 x Hi Hm _ I1 G1 _. now apply put_ok.
    - intros v a ps r s s2 ft f t Hi Hm _ I2 G2 _. now apply alloc_put_ok.
    - exact c_module_ck.
    - exact (c_resource_ck hf).
    - intros v s0 vn ow nm rf cr. apply K. intros s s' H. exact (proj1 (proj2 (use_or_own_frame _ _ _ _ _ _ _ _ _ H))).
    - intros v s0 me k. apply K. intros s s' H. exact (proj1 (proj2 (reset_self_owner_frame _ _ _ _ H))).
    - intros v s0 x me t nm k _. apply K. intros s s' H. exact (proj1 (proj1 (proj2 (sv_put _ _ _ (if_slot me) _ _ _ _ H)))).
    - intros v s0 x me t nm k _. apply K. intros s s' H. exact (proj1 (proj1 (proj2 (sv_put _ _ _ (imports_slot me) _ _ _ _ H)))).
    - intros v s0 x me t nm k _. apply K. intros s s' H. exact (proj1 (proj1 (proj2 (sv_put _ _ _ (exports_slot me) _ _ _ _ H)))).
    - intros s nm me t Hi _. exact Hi.
    - intros s nm me t Hi _. exact Hi.
    - intros v ex s nm me t s1 Hi Hm _ _ I1 G1. now apply (put_ok v _ s s1).
    - intros v im ex s nm me t s1 Hi Hm _ _ I1 G1. now apply (put_ok v _ s s1).
    - intros; apply grow_refl.
    - intros c s s' Hin. apply grow_mono. specialize (Hc c Hin). lia.
  Qed.

  (** every conversion step keeps all earlier cache entries *)
  Theorem entity_later hf fuel n e s k s' : inv s -> c_entity hf fuel g n e s = COk (k, s') -> inv s' /\ later s s'.
  Proof.
    intros Hi H.
    set (V := S (list_max (map rk (ent_refs e)))).
    destruct (c_entity_ck hf fuel n e V) with (s := s) (r := k) (s' := s') as [I G]; [|exact Hi|exact H|].
    - intros c Hc. unfold V. pose proof (list_max_le (map rk (ent_refs e)) (list_max (map rk (ent_refs e)))) as [Hle _].
      specialize (Hle (Nat.le_refl _)). rewrite Forall_forall in Hle. specialize (Hle (rk c) (in_map rk _ _ Hc)). lia.
    - split; [exact I | eapply grow_later; eassumption].
  Qed.

  (** a conversion fills the cache with its result ... *)
  Lemma cache_put_hit s v e : nassoc v (cs_cache (cache_put s v e)) = Some e.
  Proof. unfold cache_put. cbn [cs_cache nassoc]. now rewrite Nat.eqb_refl. Qed.
  Lemma c_func_fills hf v s i s' : c_func hf g v s = COk (i, s') -> nassoc v (cs_cache s') = Some (EnType (TFunc i)).
  Proof.
    unfold c_func. destruct (nassoc v (cs_cache s)) as [[[ |f0| | | | ]|]|] eqn:Ec; try discriminate.
    { intro H. injection H as <- <-. exact Ec. }
    destruct (node_of g v) as [[ |a ps r0| | | | ]|]; try discriminate.
    intro H. inv_bind H as [ps' s1] H1. inv_bind H as [r' s2] H2. unfold add_func in H. injection H as <- <-. apply cache_put_hit.
  Qed.
  Lemma c_defined_fills fuel d s x s' :
    c_defined fuel g d s = COk (x, s') -> nassoc d (cs_cache s') = Some (EnType (TValue x)).
  Proof.
    destruct fuel as [|f]; [discriminate|]. cbn [c_defined]. unfold defined_body.
    destruct (nassoc d (cs_cache s)) as [[[ | |y| | | ]|]|] eqn:Ec; try discriminate.
    { intro H. injection H as <- <-. exact Ec. }
    destruct (node_of g d) as [[nd| | | | | ]|]; try discriminate.
    intro H. inv_bind H as [v s1] H1. injection H as <- <-. apply cache_put_hit.
  Qed.
  (** ... and a later conversion of the same identifier returns it without touching the state *)
  Lemma c_func_hit hf v s i : nassoc v (cs_cache s) = Some (EnType (TFunc i)) -> c_func hf g v s = COk (i, s).
  Proof. intro H. unfold c_func. now rewrite H. Qed.
  Lemma c_defined_hit fuel d s x : nassoc d (cs_cache s) = Some (EnType (TValue x)) -> c_defined (S fuel) g d s = COk (x, s).
  Proof. intro H. cbn [c_defined]. unfold defined_body. now rewrite H. Qed.

  (** the same validator identifier is converted to the same wac identifier at any later time *)
  Theorem func_twice hf v s i s1 s2 :
    c_func hf g v s = COk (i, s1) -> later s1 s2 -> c_func hf g v s2 = COk (i, s2).
  Proof. intros H L. apply c_func_hit. apply L. eapply c_func_fills. exact H. Qed.
  Theorem defined_twice fuel fuel' d s x s1 s2 :
    c_defined fuel g d s = COk (x, s1) -> later s1 s2 -> c_defined (S fuel') g d s2 = COk (x, s2).
  Proof. intros H L. apply c_defined_hit. apply L. eapply c_defined_fills. exact H. Qed.

  (** the same for every kind of entity: what a conversion returned is what any later conversion of the same
      validator entity returns, and the later conversion changes nothing *)
  Lemma c_module_fills v s i s' : c_module g v s = COk (i, s') -> nassoc v (cs_cache s') = Some (EnType (TModule i)).
  Proof. intro H. destruct (c_module_run _ _ _ _ _ H) as [[Ec ->]|[mt [_ [_ [_ ->]]]]]; [exact Ec | apply cache_put_hit]. Qed.
  Lemma c_resource_fills hf name v s i s' : c_resource hf g name v s = COk (i, s') -> nassoc v (cs_cache s') = Some (EnRes i).
  Proof.
    intro H. destruct (c_resource_run _ _ _ _ _ _ _ H) as [[Ec ->]|[rid [rr [_ [_ [_ [[src [ownr [_ [_ ->]]]]|[_ [_ ->]]]]]]]]];
      [exact Ec | apply cache_put_hit | apply cache_put_hit].
  Qed.
  Lemma instance_body_fills hf E name v s i s' :
    instance_body hf g E name v s = COk (i, s') -> nassoc v (cs_cache s') = Some (EnType (TInterface i)).
  Proof.
    unfold instance_body. destruct (nassoc v (cs_cache s)) as [[[ | | |i0| | ]|]|] eqn:Ec; try discriminate.
    { intro H. injection H as <- <-. exact Ec. }
    destruct (node_of g v) as [[ | |exports| | | ]|]; try discriminate.
    unfold add_if. intro H. inv_bind H as s1 H1. injection H as <- <-. apply cache_put_hit.
  Qed.
  Lemma component_body_fills hf E name v s i s' :
    component_body hf g E name v s = COk (i, s') -> nassoc v (cs_cache s') = Some (EnType (TWorld i)).
  Proof.
    unfold component_body. destruct (nassoc v (cs_cache s)) as [[[ | | | |w0| ]|]|] eqn:Ec; try discriminate.
    { intro H. injection H as <- <-. exact Ec. }
    destruct (node_of g v) as [[ | | |imports exports| | ]|]; try discriminate.
    unfold add_world. intro H. inv_bind H as s1 H1. inv_bind H as s2 H2. injection H as <- <-. apply cache_put_hit.
  Qed.

  Theorem entity_twice hf fuel fuel' n n' e s k s1 s2 :
    c_entity (S hf) fuel g n e s = COk (k, s1) -> later s1 s2 ->
    c_entity (S hf) (S fuel') g n' e s2 = COk (k, s2).
  Proof.
    destruct fuel as [|f]; [discriminate|]. cbn [c_entity]. unfold entity_body. intros H L.
    destruct e as [m|v|v|rf cr|i|c].
    - inv_bind H as [x s0] H1. injection H as <- <-. apply c_module_fills in H1. apply L in H1.
      unfold c_module. rewrite H1. reflexivity.
    - inv_bind H as [x s0] H1. injection H as <- <-. apply c_func_fills in H1. apply L in H1.
      unfold c_func. rewrite H1. reflexivity.
    - inv_bind H as [x s0] H1. injection H as <- <-. unfold c_val in *. destruct v as [p|d]; cbn [val_body] in *.
      + injection H1 as <- <-. reflexivity.
      + apply c_defined_fills in H1. apply L in H1. cbn [c_defined]. unfold defined_body. rewrite H1. reflexivity.
    - inv_bind H as [x s0] H1. injection H as <- <-. unfold ty_body in *.
      destruct (node_of g cr) as [[d|a ps r0|ex|im ex|rid|mm]|] eqn:En; try discriminate;
        inv_bind H1 as [y s3] H2; injection H1 as <- <-.
      + apply c_defined_fills in H2. apply L in H2. cbn [c_defined]. unfold defined_body. rewrite H2. reflexivity.
      + apply c_func_fills in H2. apply L in H2. unfold c_func. rewrite H2. reflexivity.
      + apply instance_body_fills in H2. apply L in H2. unfold instance_body. rewrite H2. reflexivity.
      + apply component_body_fills in H2. apply L in H2. unfold component_body. rewrite H2. reflexivity.
      + apply c_resource_fills in H2. apply L in H2. unfold c_resource. rewrite H2. reflexivity.
    - inv_bind H as [x s0] H1. injection H as <- <-. apply instance_body_fills in H1. apply L in H1.
      unfold instance_body. rewrite H1. reflexivity.
    - inv_bind H as [x s0] H1. injection H as <- <-. apply component_body_fills in H1. apply L in H1.
      unfold component_body. rewrite H1. reflexivity.
  Qed.
End Cache.

Definition noof {A} (x : cres A) : Prop := x <> COutOfFuel.

Lemma noof_bind {A B} (x : cres A) (f : A -> cres B) : noof x -> (forall a, x = COk a -> noof (f a)) -> noof (bind x f).
Proof. unfold noof. destruct x; cbn [bind]; intros H1 H2; try discriminate; [now apply H2 | congruence]. Qed.
Lemma noof_ok {A} (a : A) : noof (COk a).
Proof. discriminate. Qed.

Lemma mapM_noof {A B} (f : A -> cstate -> cres (B * cstate)) : forall l,
  (forall a, In a l -> forall s, noof (f a s)) -> forall s, noof (mapM f l s).
Proof.
  induction l as [|a l IH]; intros H s; cbn [mapM]; [apply noof_ok|].
  apply noof_bind; [apply H; now left|]. intros [y s1] _. apply noof_bind; [apply IH; intros; apply H; now right|].
  intros [ys s2] _. apply noof_ok.
Qed.
Lemma optM_noof {A B} (f : A -> cstate -> cres (B * cstate)) o :
  (forall a, o = Some a -> forall s, noof (f a s)) -> forall s, noof (optM f o s).
Proof.
  intros H s. destruct o as [a|]; cbn [optM]; [|apply noof_ok]. apply noof_bind; [now apply H|]. intros [y s1] _. apply noof_ok.
Qed.
Lemma named_noof {K A B} (f : A -> cstate -> cres (B * cstate)) (kv : K * A) :
  (forall s, noof (f (snd kv) s)) -> forall s, noof (named f kv s).
Proof. intros H s. unfold named. apply noof_bind; [apply H|]. intros [y s1] _. apply noof_ok. Qed.

Section Total.
  Variable g : vgraph.
  Variables rk pk : vid -> nat.
  Hypothesis HR : ranked g rk.
  Hypothesis HP : forall v p, peel_of g v = Some p -> (pk p < pk v)%nat.

  Lemma find_owner_fuel ow : forall fuel v, (pk v < fuel)%nat -> find_owner fuel g ow v <> None.
  Proof.
    induction fuel as [|f IH]; intros v Hv; [lia|]. cbn [find_owner]. destruct (nassoc v ow); [discriminate|].
    destruct (peel_of g v) as [p|] eqn:E; [|discriminate]. apply IH. specialize (HP v p E). lia.
  Qed.

  Lemma mk_def_noof d s : noof (mk_def d s).
  Proof. unfold mk_def, add_def. apply noof_ok. Qed.

  Lemma val_body_noof R v : (forall c, In c (val_refs v) -> forall s, noof (R c s)) -> forall s, noof (val_body R v s).
  Proof. intros H s. destruct v as [p|d]; cbn [val_body]; [apply noof_ok | apply H; now left]. Qed.

  Lemma defined_body_noof R d :
    (forall c, (rk c < rk d)%nat -> forall s, noof (R c s)) -> forall s, noof (defined_body R g d s).
  Proof.
    intros H s. unfold defined_body. destruct (nassoc d (cs_cache s)) as [[[ | |x| | | ]|]|]; try discriminate.
    destruct (node_of g d) as [[nd| | | | | ]|] eqn:En; try discriminate.
    assert (Hch : forall c, In c (def_refs nd) -> forall s, noof (R c s)) by (intros c Hc; apply H; exact (HR d _ En c Hc)).
    apply noof_bind; [|intros [v s1] _; apply noof_ok].
    destruct nd as [p|fs|cs|x|k x|x n|l|l|l|x|o e|r0|r0|o|o]; cbn [def_refs] in Hch; try apply mk_def_noof; try discriminate.
    - apply noof_bind; [|intros [a s0] _; apply mk_def_noof]. apply mapM_noof. intros a Ha. apply named_noof.
      apply val_body_noof. intros c Hc. apply Hch. apply in_flat_map. eauto.
    - apply noof_bind; [|intros [a s0] _; apply mk_def_noof]. apply mapM_noof. intros a Ha. apply named_noof.
      apply optM_noof. intros y Hy. apply val_body_noof. intros c Hc. apply Hch. apply in_flat_map. exists a. split; [exact Ha|].
      rewrite Hy. exact Hc.
    - apply noof_bind; [|intros [a s0] _; apply mk_def_noof]. now apply val_body_noof.
    - apply noof_bind; [|intros [a s0] _; apply mk_def_noof]. now apply val_body_noof.
    - apply noof_bind; [|intros [a s0] _; apply mk_def_noof]. apply mapM_noof. intros a Ha.
      apply val_body_noof. intros c Hc. apply Hch. apply in_flat_map. eauto.
    - apply noof_bind; [|intros [a s0] _; apply mk_def_noof]. now apply val_body_noof.
    - apply noof_bind.
      + apply optM_noof. intros y ->. apply val_body_noof. intros c Hc. apply Hch. apply in_or_app. now left.
      + intros [a s0] _. apply noof_bind; [|intros [b s00] _; apply mk_def_noof].
        apply optM_noof. intros y ->. apply val_body_noof. intros c Hc. apply Hch. apply in_or_app. now right.
    - unfold res_of_cache. destruct (nassoc r0 (cs_cache s)) as [[|]|]; cbn [bind]; discriminate.
    - unfold res_of_cache. destruct (nassoc r0 (cs_cache s)) as [[|]|]; cbn [bind]; discriminate.
    - apply noof_bind; [|intros [a s0] _; apply mk_def_noof]. apply optM_noof. intros y ->. now apply val_body_noof.
    - apply noof_bind; [|intros [a s0] _; apply mk_def_noof]. apply optM_noof. intros y ->. now apply val_body_noof.
  Qed.

  Lemma c_defined_noof : forall fuel d, (rk d < fuel)%nat -> forall s, noof (c_defined fuel g d s).
  Proof.
    induction fuel as [|f IH]; intros d Hd s; [lia|]. cbn [c_defined]. apply defined_body_noof. intros c Hc. apply IH. lia.
  Qed.
  Lemma c_val_noof fuel v : (forall c, In c (val_refs v) -> (rk c < fuel)%nat) -> forall s, noof (c_val fuel g v s).
  Proof. intros H. unfold c_val. apply val_body_noof. intros c Hc. apply c_defined_noof. now apply H. Qed.

  Lemma c_func_noof fuel v : (rk v < fuel)%nat -> forall s, noof (c_func fuel g v s).
  Proof.
    intros Hv s. unfold c_func. destruct (nassoc v (cs_cache s)) as [[[ |f0| | | | ]|]|]; try discriminate.
    destruct (node_of g v) as [[ |a ps r0| | | | ]|] eqn:En; try discriminate.
    assert (Hch : forall c, In c (node_refs (NFunc a ps r0)) -> (rk c < fuel)%nat) by (intros c Hc; specialize (HR v _ En c Hc); lia).
    cbn [node_refs] in Hch.
    apply noof_bind.
    - apply mapM_noof. intros x Hx. apply named_noof. apply c_val_noof. intros c Hc. apply Hch. apply in_or_app. left.
      apply in_flat_map. eauto.
    - intros [ps' s1] _. apply noof_bind.
      + apply optM_noof. intros y ->. apply c_val_noof. intros c Hc. apply Hch. apply in_or_app. now right.
      + intros [r' s2] _. unfold add_func. apply noof_ok.
  Qed.
  Lemma c_module_noof v s : noof (c_module g v s).
  Proof.
    unfold c_module. destruct (nassoc v (cs_cache s)) as [[[ | | | | |m0]|]|]; try discriminate.
    destruct (node_of g v) as [[ | | | | |[mt|]]|]; try discriminate.
  Qed.
  Lemma c_resource_noof hf name v s : (pk v < hf)%nat -> noof (c_resource hf g name v s).
  Proof.
    intro Hv. unfold c_resource. destruct (nassoc v (cs_cache s)) as [[|r0]|]; try discriminate.
    destruct (node_of g v) as [[ | | | |rid| ]|]; try discriminate.
    destruct (nassoc rid (cs_resmap s)); [|discriminate].
    destruct (find_owner hf g (cs_owners s) v) eqn:E; [discriminate|]. exfalso. exact (find_owner_fuel _ _ _ Hv E).
  Qed.
  Lemma use_or_own_noof hf vn ow name rf cr s : (pk rf < hf)%nat -> use_or_own hf g vn ow name rf cr s <> COutOfFuel.
  Proof.
    intro Hv. unfold use_or_own. destruct (find_owner hf g (cs_owners s) rf) as [[[other orig]|]|] eqn:E.
    - apply noof_bind; [|intros; discriminate].
      destruct other as [i|w]; [|discriminate]. destruct (owner_eqb ow (OwIface i)); [discriminate|].
      destruct ow as [me|me]; [destruct (upd_if _ _ _)|destruct (upd_world _ _ _)]; discriminate.
    - destruct (nassoc cr (cs_owners s)); discriminate.
    - exfalso. exact (find_owner_fuel _ _ _ Hv E).
  Qed.
  Lemma reset_self_owner_noof me k s : reset_self_owner me k s <> COutOfFuel.
  Proof.
    unfold reset_self_owner. destruct k as [[res| | | | | ]| | | | | ]; try discriminate.
    destruct (get_res (cs_types s) res) as [r|]; [|discriminate]. destruct (res_alias r) as [[[o|] src]|]; try discriminate.
    destruct (id_eqb o me); [|discriminate]. destruct (upd_res _ _ _); discriminate.
  Qed.
  Lemma put_if_export_noof me n k s : put_if_export me n k s <> COutOfFuel.
  Proof.
    unfold put_if_export. destruct (get_if _ _); [|discriminate]. destruct (assoc _ _); [discriminate|]. destruct (upd_if _ _ _); discriminate.
  Qed.
  Lemma put_world_import_noof me n k s : put_world_import me n k s <> COutOfFuel.
  Proof.
    unfold put_world_import. destruct (get_world _ _); [|discriminate]. destruct (assoc _ _); [discriminate|]. destruct (upd_world _ _ _); discriminate.
  Qed.
  Lemma put_world_export_noof me n k s : put_world_export me n k s <> COutOfFuel.
  Proof.
    unfold put_world_export. destruct (get_world _ _); [|discriminate]. destruct (assoc _ _); [discriminate|]. destruct (upd_world _ _ _); discriminate.
  Qed.

  Section Bodies.
    Variable hf : nat.
    Hypothesis Hhr : forall v, (rk v < hf)%nat.
    Hypothesis Hhp : forall v, (pk v < hf)%nat.
    Variable E : str -> vent -> cstate -> cres (kind * cstate).
    Variable V : nat.
    Hypothesis HE : forall n e, (forall c, In c (ent_refs e) -> (S (rk c) < V)%nat) -> forall s, noof (E n e s).

    Lemma item_loop_noof mid put : (forall n e k s, noof (mid n e k s)) -> (forall n k s, noof (put n k s)) ->
      forall l, (forall a c, In a l -> In c (ent_refs (snd a)) -> (S (rk c) < V)%nat) -> forall s, noof (item_loop E mid put l s).
    Proof.
      intros Hm Hp. induction l as [|[n e] l IH]; intros Hl s; cbn [item_loop]; [apply noof_ok|].
      apply noof_bind; [apply HE; intros c Hc; exact (Hl (n, e) c (or_introl eq_refl) Hc)|]. intros [k s1] _.
      apply noof_bind; [apply Hm|]. intros s2 _. apply noof_bind; [apply Hp|]. intros s3 _. apply IH. intros a c Ha. apply Hl. now right.
    Qed.
    Lemma own_if_noof vn me n e k s : noof (own_if hf g vn me n e k s).
    Proof.
      unfold own_if. destruct e as [ | | |rf cr| | ]; try apply noof_ok. apply noof_bind; [apply use_or_own_noof; apply Hhp|].
      intros sa _. apply reset_self_owner_noof.
    Qed.
    Lemma own_world_noof vn me n e k s : noof (own_world hf g vn me n e k s).
    Proof. unfold own_world. destruct e as [ | | |rf cr| | ]; try apply noof_ok. apply use_or_own_noof; apply Hhp. Qed.

    Lemma instance_body_noof name v : (rk v < V)%nat -> forall s, noof (instance_body hf g E name v s).
    Proof.
      intros Hv s. unfold instance_body. destruct (nassoc v (cs_cache s)) as [[[ | | |i0| | ]|]|]; try discriminate.
      destruct (node_of g v) as [[ | |exports| | | ]|] eqn:En; try discriminate.
      unfold add_if. apply noof_bind; [|intros; apply noof_ok]. rewrite inst_loop_eq. apply item_loop_noof; [apply own_if_noof | apply put_if_export_noof|].
      intros a c Ha Hc. assert (rk c < rk v)%nat; [|lia]. apply (HR v _ En). cbn [node_refs]. apply in_flat_map. eauto.
    Qed.
    Lemma component_body_noof name v : (rk v < V)%nat -> forall s, noof (component_body hf g E name v s).
    Proof.
      intros Hv s. unfold component_body. destruct (nassoc v (cs_cache s)) as [[[ | | | |w0| ]|]|]; try discriminate.
      destruct (node_of g v) as [[ | | |imports exports| | ]|] eqn:En; try discriminate.
      unfold add_world. apply noof_bind.
      - rewrite comp_imports_eq. apply item_loop_noof; [apply own_world_noof | apply put_world_import_noof|]. intros a c Ha Hc. assert (rk c < rk v)%nat; [|lia]. apply (HR v _ En). cbn [node_refs].
        apply in_or_app. left. apply in_flat_map. eauto.
      - intros s1 _. apply noof_bind; [|intros; apply noof_ok]. rewrite comp_exports_eq. apply item_loop_noof; [intros; apply noof_ok | apply put_world_export_noof|].
        intros a c Ha Hc. assert (rk c < rk v)%nat; [|lia]. apply (HR v _ En). cbn [node_refs].
        apply in_or_app. right. apply in_flat_map. eauto.
    Qed.

    Lemma entity_body_noof n e : (forall c, In c (ent_refs e) -> (rk c < V)%nat) -> forall s, noof (entity_body hf g E n e s).
    Proof.
      intros Hc s. unfold entity_body. destruct e as [m|v|v|rf cr|i|c]; cbn [ent_refs] in Hc.
      - apply noof_bind; [apply c_module_noof | intros [x s1] _; apply noof_ok].
      - apply noof_bind; [apply c_func_noof; apply Hhr | intros [x s1] _; apply noof_ok].
      - apply noof_bind; [apply c_val_noof; intros; apply Hhr | intros [x s1] _; apply noof_ok].
      - apply noof_bind; [|intros [x s1] _; apply noof_ok]. unfold ty_body.
        destruct (node_of g cr) as [[d|a ps r0|ex|im ex|rid|mm]|]; try discriminate.
        + apply noof_bind; [apply c_defined_noof; apply Hhr | intros [y s2] _; apply noof_ok].
        + apply noof_bind; [apply c_func_noof; apply Hhr | intros [y s2] _; apply noof_ok].
        + apply noof_bind; [apply instance_body_noof; apply Hc; now left | intros [y s2] _; apply noof_ok].
        + apply noof_bind; [apply component_body_noof; apply Hc; now left | intros [y s2] _; apply noof_ok].
        + apply noof_bind; [apply c_resource_noof; apply Hhp | intros [y s2] _; apply noof_ok].
      - apply noof_bind; [apply instance_body_noof; apply Hc; now left | intros [y s2] _; apply noof_ok].
      - apply noof_bind; [apply component_body_noof; apply Hc; now left | intros [y s2] _; apply noof_ok].
    Qed.
  End Bodies.

  Lemma c_entity_noof hf : (forall v, (rk v < hf)%nat) -> (forall v, (pk v < hf)%nat) ->
    forall fuel n e, (0 < fuel)%nat -> (forall c, In c (ent_refs e) -> (S (rk c) < fuel)%nat) -> forall s, noof (c_entity hf fuel g n e s).
  Proof.
    intros Hhr Hhp. induction fuel as [|f IH]; intros n e Hpos Hc s; [lia|].
    cbn [c_entity]. destruct f as [|f'].
    - (* fuel 1: only entities without nested instance / component types *)
      unfold entity_body. destruct e as [m|v|v|rf cr|i|c]; cbn [ent_refs] in Hc;
        try (exfalso; specialize (Hc _ (or_introl eq_refl)); lia).
      apply noof_bind; [apply c_val_noof; intros; apply Hhr | intros [x s1] _; apply noof_ok].
    - apply (entity_body_noof hf Hhr Hhp (c_entity hf (S f') g) (S f')).
      + intros n' e' Hc' s'. apply IH; [lia | exact Hc'].
      + intros c Hin. specialize (Hc c Hin). lia.
  Qed.

  (** the two loops of [from_bytes] *)
  Lemma collect_noof hf fuel : (forall v, (rk v < hf)%nat) -> (forall v, (pk v < hf)%nat) -> (forall v, (S (rk v) < fuel)%nat) ->
    forall l acc s, noof (collect (c_entity hf fuel g) l acc s).
  Proof.
    intros Hhr Hhp Hf. induction l as [|[n e] l IH]; intros acc s; cbn [collect]; [apply noof_ok|].
    apply noof_bind; [apply c_entity_noof; auto; specialize (Hf 0%nat); lia|]. intros [k s1] _. apply IH.
  Qed.
  Theorem conv_items_noof hf fuel t0 :
    (forall v, (rk v < hf)%nat) -> (forall v, (pk v < hf)%nat) -> (forall v, (S (rk v) < fuel)%nat) ->
    conv_items hf fuel g t0 <> COutOfFuel.
  Proof.
    intros Hhr Hhp Hf. unfold conv_items. apply noof_bind; [now apply collect_noof|]. intros [im s1] _.
    apply noof_bind; [now apply collect_noof|]. intros [ex s2] _. apply noof_ok.
  Qed.
End Total.
