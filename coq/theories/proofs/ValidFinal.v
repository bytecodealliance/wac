(** C01: the pieces put together for graphs reachable through the API ([run u ops]) and for the output of the
    model encoder. *)
From Coq Require Import List Arith Bool NArith Lia Permutation.
From WacV Require Import Str Graph Wiring WiringSpec EncodeModel ValidSpec GraphInv GraphTheorems GraphAlias
  WiringDecode WiringOrder WiringSim WiringCorrect ValidArgs ValidEncInv ValidComplete StrFacts.
Import ListNotations.
Local Open Scope nat_scope.

Lemma args_checked_b_spec u g : args_checked_b u g = true <-> ArgsChecked u g.
Proof.
  unfold args_checked_b, ArgsChecked. rewrite forallb_forall. split.
  - intros H ed i Hed K. specialize (H ed Hed). unfold edge_checked_b in H. rewrite K in H.
    destruct (get_node g (esrc ed)) as [sn|] eqn:G1; [|discriminate]. destruct (get_node g (etgt ed)) as [tn|] eqn:G2; [|discriminate].
    destruct (inst_imports u g tn) as [imps|] eqn:I; [|discriminate]. destruct (nth_error imps i) as [[nm k]|] eqn:N; [|discriminate].
    exists sn, tn, imps, nm, k. repeat split; auto.
  - intros H ed Hed. unfold edge_checked_b. destruct (ek ed) as [i|i|] eqn:K; auto.
    destruct (H ed i Hed K) as (sn & tn & imps & nm & k & G1 & G2 & I & N & S). now rewrite G1, G2, I, N.
Qed.

Lemma explicit_in_range u g n tn imps :
  ArgsChecked u g -> get_node g n = Some tn -> inst_imports u g tn = Some imps ->
  forall i, In i (explicit_idx g n) -> i < length imps.
Proof.
  intros A G I i Hi. apply explicit_idx_In in Hi as (ed & Hed & T & K).
  eapply (arg_index_in_range u g ed i tn imps); eauto. now rewrite T.
Qed.

Theorem idx_complete_checked u g n nd sat imps :
  Inv u g -> ArgsChecked u g ->
  get_node g n = Some nd -> nk nd = NInst sat -> inst_imports u g nd = Some imps ->
  Permutation (explicit_idx g n ++ implicit_idx sat (length imps)) (seq 0 (length imps)) /\
  (forall i, In i (explicit_idx g n) -> ~ In i (implicit_idx sat (length imps))).
Proof.
  intros HI A G K I. apply (idx_complete u g HI n nd sat (length imps) G K). eapply explicit_in_range; eauto.
Qed.

Theorem spec_inst_complete_checked e u g dc ord n nd sat imps :
  Inv u g -> ArgsChecked u g ->
  get_node g n = Some nd -> nk nd = NInst sat -> inst_imports u g nd = Some imps ->
  exists args, spec_inst e u g dc ord n = WInst (comp_prov e g dc n) args /\
    same_names (map arg_name args) (map (fun x : name * kid => nstr e (fst x)) imps).
Proof.
  intros HI A G K I. eapply spec_inst_complete; eauto. eapply explicit_in_range; eauto.
Qed.

(** distinct universe packages have distinct bytes and distinct component-import names *)
Definition PkgIdent (e : wenv) (u : universe) : Prop :=
  forall p q : nat, p < length (u_pkgs u) -> q < length (u_pkgs u) ->
    (we_digest e p = we_digest e q \/ pkg_import_name e p = pkg_import_name e q) -> p = q.

Lemma pkg_of_prov_found e u (dc : bool) p :
  PkgIdent e u -> p < length (u_pkgs u) ->
  pkg_of_prov e (length (u_pkgs u)) (if dc then PComp (we_digest e p) else PImp (pkg_import_name e p)) = Some p.
Proof.
  intros PI Lp. unfold pkg_of_prov.
  destruct (find _ (seq 0 (length (u_pkgs u)))) as [q|] eqn:Fd.
  - apply find_some in Fd as [Hq Fq]. apply in_seq in Hq. f_equal. symmetry. apply PI; auto; try lia.
    destruct dc; [left; now apply N.eqb_eq in Fq | right; now apply str_eqb_eq in Fq].
  - exfalso. assert (Hp : In p (seq 0 (length (u_pkgs u)))) by (apply in_seq; lia).
    pose proof (find_none _ _ Fd p Hp) as X. cbn in X.
    destruct dc; [rewrite N.eqb_refl in X | rewrite str_eqb_refl in X]; discriminate.
Qed.

Lemma spec_inst_item_complete e u g dc ord n :
  Inv u g -> ArgsChecked u g -> PkgIdent e u -> is_inst g n = true ->
  inst_item_complete e u (spec_inst e u g dc ord n) = true.
Proof.
  intros HI A PI In_n. apply (is_inst_true g n) in In_n as (nd & sat & G & K).
  destruct (inv_inst_pkg _ _ HI n nd sat G K) as (id & pd & P & PD).
  assert (I : inst_imports u g nd = Some (pd_imports pd)) by (unfold inst_imports; now rewrite P, PD).
  destruct (spec_inst_complete_checked e u g dc ord n nd sat (pd_imports pd) HI A G K I) as (args & E & S).
  rewrite E. unfold inst_item_complete, comp_prov, node_pkg. rewrite G, P.
  unfold pkg_desc in PD. destruct (get_pkg g id) as [p|] eqn:GP; [|discriminate].
  assert (Lp : p < length (u_pkgs u)) by (apply nth_error_Some; congruence).
  rewrite (pkg_of_prov_found e u dc p PI Lp). unfold import_names. rewrite PD. now apply same_namesb_spec.
Qed.

Theorem encoded_instantiations_complete e u g dc tau ord st names w :
  EncInv e u g -> Inv u g -> ArgsChecked u g -> PkgIdent e u ->
  topo_orderb g ord = true ->
  encode_with_order e u g dc tau ord = ROk (st, names) ->
  (forall p, In p (e_dedup st) -> fst p = snd p) ->
  decode_wiring names (e_log st) = Some w ->
  w_insts w = map (spec_inst e u g dc ord) (filter (is_inst g) ord) /\ inst_complete_b e u w = true.
Proof.
  intros EI HI A PI TO R Cons D.
  pose proof (wiring_correct _ _ _ _ _ _ _ _ EI TO R Cons) as W. rewrite D in W. cbn [option_map] in W. injection W as Wi _ _ _.
  cbn in Wi. split; [exact Wi|]. unfold inst_complete_b. rewrite Wi. apply forallb_forall. intros wi Hwi.
  apply in_map_iff in Hwi as (n & <- & Hn). apply filter_In in Hn as [_ Hn]. now apply spec_inst_item_complete.
Qed.

(** C03: the exports of the output are exactly the export map, for every reachable graph *)
Theorem exports_spec_reachable e u ops dc tau ord st names w :
  UnivOK e u ->
  topo_orderb (run u ops) ord = true ->
  encode_with_order e u (run u ops) dc tau ord = ROk (st, names) ->
  (forall p, In p (e_dedup st) -> fst p = snd p) ->
  decode_wiring names (e_log st) = Some w ->
  forall nm s, In (nm, s) (map export_sig (w_exports w)) <-> In (nm, s) (spec_export_names e (run u ops)).
Proof.
  intros UO TO R Cons D. set (g := run u ops) in *.
  pose proof (reach_inv u ops) as HI. pose proof (reach_kind_inv u ops) as KI.
  pose proof (enc_inv_reachable e u ops UO) as EI. fold g in HI, KI, EI.
  apply (exports_spec e u g dc tau ord st names w EI TO R Cons D).
  - intros n _ Dn. apply (is_def_true g n) in Dn as (nd & G & K).
    destruct (ki_def _ _ KI n nd G K) as (_ & Ne). destruct (nexport nd) as [nm|] eqn:X; [|congruence].
    exists nm. exact (inv_node_export _ _ HI n nd nm G X).
  - apply (inv_exports_live _ _ HI).
Qed.

(** the modelled causes of a late failure do not occur for reachable graphs *)
Theorem no_late_failure_reachable e u ops dc tau ord st names :
  UnivOK e u -> PkgIdent e u ->
  topo_orderb (run u ops) ord = true ->
  encode_with_order e u (run u ops) dc tau ord = ROk (st, names) ->
  (forall p, In p (e_dedup st) -> fst p = snd p) ->
  exists w,
    decode_wiring names (e_log st) = Some w /\
    log_in_scope [] (e_log st) = true /\
    inst_complete_b e u w = true /\
    args_checked_b u (run u ops) = true /\
    (forall nm s, In (nm, s) (map export_sig (w_exports w)) <-> In (nm, s) (spec_export_names e (run u ops))) /\
    (forall nm n, In (nm, n) (exports (run u ops)) -> live (run u ops) n = true).
Proof.
  intros UO PI TO R Cons. set (g := run u ops) in *.
  pose proof (reach_inv u ops) as HI. pose proof (reach_args_checked u ops) as A.
  pose proof (enc_inv_reachable e u ops UO) as EI. fold g in HI, A, EI.
  pose proof (wiring_correct _ _ _ _ _ _ _ _ EI TO R Cons) as W.
  destruct (decode_wiring names (e_log st)) as [w|] eqn:D; [|discriminate]. exists w.
  split; [reflexivity|]. split; [exact (decode_scoped _ _ _ D)|].
  split; [exact (proj2 (encoded_instantiations_complete _ _ _ _ _ _ _ _ _ EI HI A PI TO R Cons D))|].
  split; [now apply args_checked_b_spec|].
  split; [exact (exports_spec_reachable e u ops dc tau ord st names w UO TO R Cons D) | apply (inv_exports_live _ _ HI)].
Qed.
