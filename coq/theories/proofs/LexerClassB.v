(** Lexer classes, part B: the segment scanner [seg_loop] (a chain of [sep id]), the version scanners
    [semver_len] / [version_tail_len], and the split/join lemmas that connect the classes of
    spec/LexClasses.v (defined by splitting a text at its separators) with concatenations.
    [_sound] here is [_scan] of part A. *)
From WacV Require Import Str Token Lexer LexSpec Semver Ast Parser LexClasses StrFacts LexerSound LexerClassA ListFacts.
From Coq Require Import Lia.
Local Open Scope nat_scope.

Definition nosep (c : N) (w : str) : bool := forallb (fun x => negb (x =? c)%N) w.

(** [sep w1 sep w2 ...] *)
Definition chain_text (c : N) (segs : list str) : str := concat (map (cons c) segs).

Lemma chain_text_cons c i segs : chain_text c (i :: segs) = c :: i ++ chain_text c segs.
Proof. reflexivity. Qed.

Lemma chain_head c segs : segs <> [] -> exists r, chain_text c segs = c :: r.
Proof. destruct segs as [|j segs]; [congruence|]. intros _. rewrite chain_text_cons. eauto. Qed.

Lemma chain_len_pos c segs : segs <> [] -> 0 < length (chain_text c segs).
Proof. intros H. destruct (chain_head c segs H) as (r & ->). cbn. lia. Qed.

Lemma nosep_app c a b : nosep c (a ++ b) = nosep c a && nosep c b.
Proof. apply forallb_app. Qed.

Lemma split_on_nosep c w : nosep c w = true -> split_on c w = [w].
Proof.
  induction w as [|x w IH]; [reflexivity|]. cbn [nosep forallb split_on]. intros H. apply andb_true_iff in H.
  destruct H as [Hx H]. apply negb_true_iff in Hx. rewrite Hx, (IH H). reflexivity.
Qed.

Lemma split_on_app_sep c a b : nosep c a = true -> split_on c (a ++ c :: b) = a :: split_on c b.
Proof.
  induction a as [|x a IH]; cbn [app nosep forallb split_on].
  - intros _. now rewrite N.eqb_refl.
  - intros H. apply andb_true_iff in H. destruct H as [Hx H]. apply negb_true_iff in Hx. rewrite Hx, (IH H). reflexivity.
Qed.

Lemma split_on_chain c : forall segs i,
  nosep c i = true -> forallb (nosep c) segs = true -> split_on c (i ++ chain_text c segs) = i :: segs.
Proof.
  induction segs as [|j segs IH]; intros i Hi Hs.
  - cbn [chain_text map concat]. rewrite app_nil_r. now apply split_on_nosep.
  - rewrite chain_text_cons. cbn [forallb] in Hs. apply andb_true_iff in Hs. destruct Hs as [Hj Hs].
    rewrite split_on_app_sep by assumption. now rewrite IH.
Qed.

Lemma split_on_join c : forall s, exists i segs,
  split_on c s = i :: segs /\ s = i ++ chain_text c segs /\ nosep c i = true /\ forallb (nosep c) segs = true.
Proof.
  induction s as [|x s IH].
  - exists [], []. repeat split; reflexivity.
  - destruct IH as (i & segs & Hsp & Hs & Hi & Hsegs). cbn [split_on]. destruct (x =? c)%N eqn:E.
    + apply N.eqb_eq in E. subst x. exists [], (i :: segs). rewrite Hsp. repeat split.
      * rewrite chain_text_cons. cbn [app]. now rewrite <- Hs.
      * cbn [forallb]. now rewrite Hi, Hsegs.
    + rewrite Hsp. exists (x :: i), segs. repeat split; auto.
      * cbn [app]. now rewrite <- Hs.
      * cbn [nosep forallb]. rewrite E. cbn [negb andb]. exact Hi.
Qed.

Lemma chain_text_app c a b : chain_text c (a ++ b) = chain_text c a ++ chain_text c b.
Proof. unfold chain_text. now rewrite map_app, concat_app. Qed.

Lemma chain_text_nil_iff c segs : chain_text c segs = [] <-> segs = [].
Proof. destruct segs; [tauto|]. rewrite chain_text_cons. split; discriminate. Qed.

Lemma nosep_iff c w : nosep c w = true <-> ~ In c w.
Proof.
  induction w as [|x w IH]; cbn [nosep forallb In]; [tauto|]. fold (nosep c w).
  rewrite andb_true_iff, negb_true_iff, N.eqb_neq, IH. tauto.
Qed.

Lemma split_first_nosep c w : nosep c w = true -> split_first c w = None.
Proof. intros H. apply split_first_none, nosep_iff, H. Qed.

Lemma split_first_app_sep c a b : nosep c a = true -> split_first c (a ++ c :: b) = Some (a, b).
Proof. intros H. apply split_first_app, nosep_iff, H. Qed.

Lemma split_first_inv c w a b : split_first c w = Some (a, b) -> w = a ++ c :: b /\ nosep c a = true.
Proof. rewrite split_first_spec, nosep_iff. tauto. Qed.

Lemma split_first_none_nosep c w : split_first c w = None -> nosep c w = true.
Proof. intros H. apply nosep_iff, split_first_none, H. Qed.

Section Seg.
Variable d : deviations.
Notation au := (uppercase_words d).

(** Separators are not id characters. *)
Definition is_sep (c : N) : bool := negb (id_char c) && negb (c =? c_percent)%N.

Lemma id_nosep c w : is_sep c = true -> id_b d w = true -> nosep c w = true.
Proof.
  intros Hc H. apply id_b_chars in H. eapply forallb_impl; [|exact H]. cbn. intros x Hx.
  apply negb_true_iff, N.eqb_neq. intros ->. unfold is_sep in Hc. apply andb_true_iff in Hc. destruct Hc as [H1 H2].
  apply negb_true_iff in H1, H2. rewrite H1, H2 in Hx. discriminate.
Qed.

Lemma ids_nosep c segs : is_sep c = true -> forallb (id_b d) segs = true -> forallb (nosep c) segs = true.
Proof. intros Hc. apply forallb_impl. intros x. now apply id_nosep. Qed.

Lemma chain_nosep c c' segs :
  is_sep c' = true -> (c' =? c)%N = false -> forallb (id_b d) segs = true -> nosep c' (chain_text c segs) = true.
Proof.
  intros Hc Hne. induction segs as [|i segs IH]; [reflexivity|]. cbn [forallb]. intros H. apply andb_true_iff in H.
  destruct H as [Hi H]. rewrite chain_text_cons. cbn [nosep forallb]. rewrite N.eqb_sym, Hne. cbn [negb andb].
  change (nosep c' (i ++ chain_text c segs) = true). rewrite nosep_app, (id_nosep _ _ Hc Hi), (IH H). reflexivity.
Qed.

Lemma is_sep_not_cont up c : is_sep c = true -> cont_b up c = false.
Proof.
  unfold is_sep, id_char, is_alpha. intros H. apply andb_true_iff in H. destruct H as [H _]. apply negb_true_iff in H.
  apply orb_false_iff in H. destruct H as [H _]. apply orb_false_iff in H. destruct H as [H Hd]. apply orb_false_iff in H.
  destruct H as [Hu Hl]. destruct up; cbn [cont_b]; unfold upper_or_digit, lower_or_digit; now rewrite ?Hu, ?Hl, Hd.
Qed.

Lemma is_sep_not_minus c : is_sep c = true -> (c =? c_minus)%N = false.
Proof.
  unfold is_sep, id_char. intros H. apply andb_true_iff in H. destruct H as [H _]. apply negb_true_iff in H.
  apply orb_false_iff in H. now destruct H.
Qed.

(** After an id, a separator stops the id scanner. *)
Lemma id_follow_sep w c r : is_sep c = true -> id_follow d w (c :: r) = true.
Proof.
  intros Hc. unfold id_follow. cbn [word_stop].
  change (if last_case w false then upper_or_digit c else lower_or_digit c) with (cont_b (last_case w false) c).
  now rewrite (is_sep_not_cont _ _ Hc), (is_sep_not_minus _ Hc).
Qed.

(** ... and so does a dash that no word follows. *)
Lemma id_follow_dangling_dash w r : starts_word d r = false -> id_follow d w (c_minus :: r) = true.
Proof.
  intros H. unfold id_follow. cbn [word_stop].
  change (if last_case w false then upper_or_digit c_minus else lower_or_digit c_minus) with (cont_b (last_case w false) c_minus).
  now rewrite cont_b_minus, N.eqb_refl, H.
Qed.

Lemma last_case_app a b x : last_case (a ++ b) x = last_case b (last_case a x).
Proof. revert x. induction a as [|c a IH]; intros x; cbn [app last_case]; auto. Qed.

(** The case of the last letter does not depend on the default when there is a letter. *)
Lemma last_case_alpha w : forall x y, existsb is_alpha w = true -> last_case w x = last_case w y.
Proof.
  induction w as [|c w IH]; intros x y; cbn [existsb last_case]; [discriminate|].
  destruct (is_alpha c); [reflexivity|apply IH].
Qed.

Lemma id_has_alpha w : id_b d w = true -> existsb is_alpha w = true.
Proof.
  assert (Hs : forall s, starts_word d s = true -> existsb is_alpha s = true).
  { intros [|a s]; [discriminate|]. cbn [starts_word existsb]. unfold is_alpha. intros Ha. apply orb_true_iff in Ha.
    destruct Ha as [->|Ha]; [now rewrite orb_true_r|]. apply andb_true_iff in Ha. destruct Ha as [_ ->]. reflexivity. }
  unfold id_b. intros H. apply kebab_starts, Hs in H. destruct w as [|c r]; [discriminate|]. cbn [strip_percent existsb] in *.
  destruct (c =? c_percent)%N; [rewrite H; apply orb_true_r|exact H].
Qed.

Lemma chain_has_alpha c segs : segs <> [] -> forallb (id_b d) segs = true -> existsb is_alpha (chain_text c segs) = true.
Proof.
  destruct segs as [|i segs]; [congruence|]. intros _ H. cbn [forallb] in H. apply andb_true_iff in H. destruct H as [Hi _].
  rewrite chain_text_cons. cbn [existsb]. now rewrite existsb_app, (id_has_alpha _ Hi), !orb_true_r.
Qed.

Lemma id_follow_app_id a i rest : id_b d i = true -> id_follow d (a ++ i) rest = id_follow d i rest.
Proof. intros H. unfold id_follow. rewrite last_case_app. now rewrite (last_case_alpha i _ false (id_has_alpha _ H)). Qed.

Lemma id_follow_app_chain c a segs rest :
  segs <> [] -> forallb (id_b d) segs = true ->
  id_follow d (a ++ chain_text c segs) rest = id_follow d (chain_text c segs) rest.
Proof. intros Hne H. unfold id_follow. rewrite last_case_app. now rewrite (last_case_alpha _ _ false (chain_has_alpha c segs Hne H)). Qed.

(** [rest] does not start with [sep id]. *)
Definition no_seg (c : N) (rest : str) : bool :=
  match rest with x :: r => negb ((x =? c)%N && starts_id d r) | [] => true end.

Lemma length_chain_cons c i segs : length (chain_text c (i :: segs)) = S (length i + length (chain_text c segs)).
Proof. rewrite chain_text_cons. cbn [length]. now rewrite app_length. Qed.

Lemma seg_loop_sound c : forall fuel s, length s < fuel ->
  exists segs rest, s = chain_text c segs ++ rest /\ seg_loop fuel au c s = length (chain_text c segs) /\
                    forallb (id_b d) segs = true /\ no_seg c rest = true /\
                    (segs <> [] -> id_follow d (chain_text c segs) rest = true).
Proof.
  induction fuel as [|f IH]; intros s Hf; [lia|]. cbn [seg_loop]. destruct s as [|x r].
  { exists [], []. repeat split; auto; congruence. }
  destruct (x =? c)%N eqn:E.
  2:{ exists [], (x :: r). cbn [no_seg]. rewrite E. repeat split; auto; congruence. }
  apply N.eqb_eq in E. subst x.
  destruct (id_len au r) as [|n] eqn:En.
  { exists [], (c :: r). cbn [no_seg]. rewrite N.eqb_refl. apply id_len_zero in En. rewrite En. repeat split; auto; congruence. }
  pose proof (id_len_le au r) as Hle. rewrite En in Hle.
  destruct (id_len_scan d r) as [Hi Hst]; [congruence|]. rewrite En in Hi, Hst.
  cbn [length] in Hf. destruct (IH (skipn (S n) r)) as (segs & rest & Er1 & Hk & Hids & Hno & Hfol).
  { rewrite skipn_length. lia. }
  remember (firstn (S n) r) as i eqn:Ei.
  assert (Hli : length i = S n) by (rewrite Ei; now apply firstn_length_le).
  exists (i :: segs), rest. rewrite Hk, length_chain_cons, Hli, chain_text_cons. repeat split.
  - cbn [app]. now rewrite <- app_assoc, <- Er1, Ei, firstn_skipn.
  - cbn [forallb]. now rewrite Hi, Hids.
  - exact Hno.
  - intros _. destruct segs as [|j segs].
    + cbn [chain_text map concat app] in *. rewrite app_nil_r. change (c :: i) with ([c] ++ i).
      rewrite id_follow_app_id by exact Hi. now rewrite <- Er1.
    + change (c :: i ++ chain_text c (j :: segs)) with ((c :: i) ++ chain_text c (j :: segs)).
      rewrite id_follow_app_chain; [|discriminate|exact Hids]. apply Hfol. discriminate.
Qed.

Lemma seg_loop_exact c (Hc : is_sep c = true) : forall segs rest fuel,
  forallb (id_b d) segs = true -> length (chain_text c segs ++ rest) < fuel ->
  length (chain_text c segs) <= seg_loop fuel au c (chain_text c segs ++ rest) /\
  (no_seg c rest = true -> (segs <> [] -> id_follow d (chain_text c segs) rest = true) ->
   seg_loop fuel au c (chain_text c segs ++ rest) = length (chain_text c segs)).
Proof.
  induction segs as [|i segs IH]; intros rest fuel Hids Hf.
  - cbn [chain_text map concat app length]. split; [lia|]. intros Hno _. destruct fuel as [|f]; [reflexivity|].
    cbn [seg_loop]. destruct rest as [|x r]; [reflexivity|]. cbn [no_seg] in Hno. destruct (x =? c)%N; [|reflexivity].
    cbn [andb negb] in Hno. apply negb_true_iff in Hno. apply id_len_zero in Hno. now rewrite Hno.
  - cbn [forallb] in Hids. apply andb_true_iff in Hids. destruct Hids as [Hi Hids].
    rewrite length_chain_cons. rewrite chain_text_cons in *. cbn [app length] in Hf.
    destruct fuel as [|f]; [lia|]. cbn [app seg_loop]. rewrite N.eqb_refl. rewrite <- app_assoc in *.
    rewrite app_length in Hf.
    destruct (id_len_exact d i (chain_text c segs ++ rest) Hi) as [Hge Hex].
    pose proof (id_b_not_nil d i Hi) as Hne. assert (0 < length i) by (destruct i; [congruence|cbn; lia]).
    destruct segs as [|j segs].
    + (* last segment *)
      cbn [chain_text map concat app length] in *.
      destruct (id_len au (i ++ rest)) as [|n] eqn:En; [lia|]. split; [lia|].
      intros Hno Hfol. specialize (Hfol ltac:(discriminate)).
      change (c :: i ++ []) with ([c] ++ i ++ []) in Hfol. rewrite app_nil_r, id_follow_app_id in Hfol by exact Hi.
      specialize (Hex Hfol). rewrite Hex, skipn_app_exact.
      destruct (IH rest f eq_refl) as [_ H0]; [cbn [chain_text map concat app]; lia|].
      cbn [chain_text map concat app length] in H0. rewrite H0; [lia|exact Hno|congruence].
    + (* inner segment: a separator follows *)
      assert (Hexact : id_len au (i ++ chain_text c (j :: segs) ++ rest) = length i).
      { apply Hex. rewrite chain_text_cons. cbn [app]. now apply id_follow_sep. }
      rewrite Hexact. destruct (length i) as [|n] eqn:El; [lia|]. rewrite <- El, skipn_app_exact.
      destruct (IH rest f Hids) as [H1 H2]; [lia|]. split; [lia|]. intros Hno Hfol.
      rewrite H2; [lia|exact Hno|]. intros _. specialize (Hfol ltac:(discriminate)).
      change (c :: i ++ chain_text c (j :: segs)) with ((c :: i) ++ chain_text c (j :: segs)) in Hfol.
      rewrite id_follow_app_chain in Hfol; [exact Hfol|discriminate|exact Hids].
Qed.

End Seg.

Definition ne_vc (w : str) : bool := nonempty_all version_char w.

(** digits* ( '.' group )* *)
Definition num_b (s : str) : bool :=
  match split_on c_period s with
  | num :: groups => forallb is_digit num && forallb ne_vc groups
  | [] => false
  end.
(** group ( '.' group )* *)
Definition grp_b (s : str) : bool := forallb ne_vc (split_on c_period s).
(** inside a group ([ing]) or directly after the digits: the rest of the version *)
Definition vrest_b (ing : bool) (s : str) : bool :=
  match split_on c_period s with
  | seg :: groups => (if ing then forallb version_char seg else is_nil_str seg) && forallb ne_vc groups
  | [] => false
  end.

Lemma version_char_period : version_char c_period = false. Proof. reflexivity. Qed.
Lemma is_digit_period : is_digit c_period = false. Proof. reflexivity. Qed.

Lemma vrest_b_nil ing : vrest_b ing [] = true.
Proof. destruct ing; reflexivity. Qed.

Lemma grp_b_nil : grp_b [] = false. Proof. reflexivity. Qed.

Lemma vrest_b_cons ing c r :
  vrest_b ing (c :: r) = if (c =? c_period)%N then grp_b r else ing && version_char c && vrest_b ing r.
Proof.
  unfold vrest_b, grp_b. cbn [split_on]. destruct (c =? c_period)%N; [now destruct ing|].
  pose proof (split_on_nonempty c_period r). destruct (split_on c_period r) as [|seg segs]; [congruence|].
  destruct ing; cbn [forallb is_nil_str andb]; [now rewrite andb_assoc|reflexivity].
Qed.

Lemma grp_b_cons c r : grp_b (c :: r) = version_char c && vrest_b true r.
Proof.
  unfold vrest_b, grp_b. cbn [split_on]. destruct (c =? c_period)%N eqn:E.
  - apply N.eqb_eq in E. subst c. reflexivity.
  - pose proof (split_on_nonempty c_period r). destruct (split_on c_period r) as [|seg segs]; [congruence|].
    cbn [forallb ne_vc nonempty_all]. now rewrite andb_assoc.
Qed.

Lemma num_b_nil : num_b [] = true. Proof. reflexivity. Qed.

Lemma num_b_cons c r : num_b (c :: r) = if (c =? c_period)%N then grp_b r else is_digit c && num_b r.
Proof.
  unfold num_b, grp_b. cbn [split_on]. destruct (c =? c_period)%N; [reflexivity|].
  pose proof (split_on_nonempty c_period r). destruct (split_on c_period r) as [|seg segs]; [congruence|].
  cbn [forallb]. now rewrite andb_assoc.
Qed.

Lemma semver_b_cons c r : semver_b (c :: r) = is_digit c && num_b r.
Proof.
  unfold semver_b, num_b. cbn [split_on]. destruct (c =? c_period)%N eqn:E.
  - apply N.eqb_eq in E. subst c. reflexivity.
  - pose proof (split_on_nonempty c_period r). destruct (split_on c_period r) as [|seg segs]; [congruence|].
    cbn [nonempty_all forallb]. change (forallb (nonempty_all version_char) segs) with (forallb ne_vc segs).
    now rewrite andb_assoc.
Qed.

Lemma semver_b_nil : semver_b [] = false. Proof. reflexivity. Qed.

Lemma model_semver_char c : semver_char c = version_char c.
Proof. reflexivity. Qed.

(** One-pass form of [semver_len]. *)
Fixpoint num_len (s : str) : nat :=
  match s with c :: r => if is_digit c then S (num_len r) else semver_rest false s | [] => 0 end.

Lemma semver_len_num s : semver_len s = match s with c :: _ => if is_digit c then num_len s else 0 | [] => 0 end.
Proof.
  unfold semver_len. induction s as [|c r IH]; [reflexivity|]. cbn [run_len num_len]. destruct (is_digit c); [|reflexivity].
  destruct r as [|c2 r2]; [reflexivity|]. cbn [run_len] in *. destruct (is_digit c2) eqn:E2.
  - cbn [skipn] in *. rewrite <- IH. destruct (run_len is_digit r2); cbn [skipn]; lia.
  - cbn [skipn num_len]. now rewrite E2.
Qed.

(** in a group ([true]) or in the leading digits ([false]) at the end of the version [v] *)
Definition in_group (v : str) : bool := existsb (N.eqb c_period) v.

Definition vstop (ing : bool) (rest : str) : bool :=
  match rest with
  | [] => true
  | c :: r => negb (if ing then version_char c else is_digit c) &&
              negb ((c =? c_period)%N && match r with c2 :: _ => version_char c2 | [] => false end)
  end.

Lemma semver_follow_vstop v rest : semver_follow v rest = vstop (in_group v) rest.
Proof. reflexivity. Qed.

Lemma semver_rest_sound : forall s ing, vrest_b ing (firstn (semver_rest ing s) s) = true.
Proof.
  fix IH 1. intros s ing. destruct s as [|c r]; [apply vrest_b_nil|]. cbn [semver_rest]. change semver_char with version_char.
  destruct (ing && version_char c) eqn:E.
  - cbn [firstn]. rewrite vrest_b_cons. apply andb_true_iff in E. destruct E as [-> Ec].
    destruct (c =? c_period)%N eqn:Ep; [apply N.eqb_eq in Ep; subst c; discriminate|]. rewrite Ec. apply IH.
  - destruct (c =? c_period)%N eqn:Ep; [|apply vrest_b_nil]. destruct r as [|c2 r2]; [apply vrest_b_nil|].
    change semver_char with version_char. destruct (version_char c2) eqn:E2; [|apply vrest_b_nil].
    cbn [firstn]. rewrite vrest_b_cons, Ep, grp_b_cons, E2. apply IH.
Qed.

Lemma semver_rest_exact : forall w ing rest,
  vrest_b ing w = true ->
  length w <= semver_rest ing (w ++ rest) /\
  (vstop (ing || in_group w) rest = true -> semver_rest ing (w ++ rest) = length w).
Proof.
  fix IH 1. intros w ing rest Hw. destruct w as [|c r].
  - split; [cbn; lia|]. cbn [app length in_group existsb]. rewrite orb_false_r. destruct rest as [|x rest]; [reflexivity|].
    cbn [vstop semver_rest]. change semver_char with version_char. intros H. apply andb_true_iff in H. destruct H as [H1 H2].
    apply negb_true_iff in H1, H2. destruct ing.
    + rewrite H1. cbn [andb]. destruct (x =? c_period)%N; [|reflexivity]. cbn [andb] in H2.
      destruct rest as [|c2 r2]; [reflexivity|]. change semver_char with version_char. rewrite H2. reflexivity.
    + cbn [andb]. destruct (x =? c_period)%N; [|reflexivity]. cbn [andb] in H2.
      destruct rest as [|c2 r2]; [reflexivity|]. change semver_char with version_char. rewrite H2. reflexivity.
  - rewrite vrest_b_cons in Hw. cbn [app semver_rest length in_group existsb]. change semver_char with version_char.
    destruct (c =? c_period)%N eqn:Ep.
    + apply N.eqb_eq in Ep. subst c. rewrite version_char_period, andb_false_r. cbn [N.eqb Pos.eqb c_period].
      rewrite orb_true_r. destruct r as [|c2 r2]; [discriminate|]. rewrite grp_b_cons in Hw. apply andb_true_iff in Hw.
      destruct Hw as [H2 Hw]. cbn [app length]. change semver_char with version_char. rewrite H2. destruct (IH r2 true rest Hw) as [Ha Hb].
      split; [lia|]. intros Hs. cbn [orb] in Hb. now rewrite (Hb Hs).
    + apply andb_true_iff in Hw. destruct Hw as [Hc Hw]. rewrite Hc. apply andb_true_iff in Hc. destruct Hc as [-> _].
      destruct (IH r true rest Hw) as [Ha Hb]. split; [lia|]. cbn [orb] in *. intros Hs.
      now rewrite (Hb Hs).
Qed.

Lemma num_len_sound : forall s, num_b (firstn (num_len s) s) = true.
Proof.
  induction s as [|c r IH]; [reflexivity|]. cbn [num_len]. destruct (is_digit c) eqn:E.
  - cbn [firstn]. rewrite num_b_cons. destruct (c =? c_period)%N eqn:Ep; [apply N.eqb_eq in Ep; subst c; discriminate|].
    now rewrite E, IH.
  - pose proof (semver_rest_sound (c :: r) false) as H. remember (semver_rest false (c :: r)) as n eqn:En.
    destruct n as [|n]; [reflexivity|]. cbn [firstn] in *. rewrite vrest_b_cons in H. rewrite num_b_cons.
    destruct (c =? c_period)%N; [exact H|]. discriminate.
Qed.

Lemma num_len_exact : forall w rest,
  num_b w = true ->
  length w <= num_len (w ++ rest) /\ (vstop (in_group w) rest = true -> num_len (w ++ rest) = length w).
Proof.
  induction w as [|c r IH]; intros rest Hw.
  - split; [cbn; lia|]. cbn [app length in_group existsb]. destruct rest as [|x rest]; [reflexivity|].
    intros Hs. cbn [num_len]. cbn [vstop] in Hs. apply andb_true_iff in Hs. destruct Hs as [H1 H2]. apply negb_true_iff in H1.
    rewrite H1. destruct (semver_rest_exact [] false (x :: rest) eq_refl) as [_ H]. apply H.
    cbn [vstop in_group existsb orb]. rewrite H1, H2. reflexivity.
  - rewrite num_b_cons in Hw. cbn [app num_len length in_group existsb]. destruct (c =? c_period)%N eqn:Ep.
    + apply N.eqb_eq in Ep. subst c. rewrite is_digit_period.
      assert (Hv : vrest_b false (c_period :: r) = true) by (rewrite vrest_b_cons; exact Hw).
      destruct (semver_rest_exact (c_period :: r) false rest Hv) as [Ha Hb]. cbn [app length in_group existsb orb] in *.
      split; [exact Ha|]. exact Hb.
    + apply andb_true_iff in Hw. destruct Hw as [Hc Hw]. rewrite Hc. destruct (IH rest Hw) as [Ha Hb].
      split; [lia|]. rewrite (N.eqb_sym c_period c), Ep. cbn [orb]. intros Hs. now rewrite (Hb Hs).
Qed.

Lemma semver_len_sound s : semver_len s <> 0 -> semver_b (firstn (semver_len s) s) = true.
Proof.
  rewrite semver_len_num. destruct s as [|c r]; [congruence|]. destruct (is_digit c) eqn:E; [|congruence]. intros _.
  cbn [num_len]. rewrite E. cbn [firstn]. rewrite semver_b_cons, E. apply num_len_sound.
Qed.

Lemma semver_len_zero s : semver_len s = 0 <-> starts_version s = false.
Proof.
  rewrite semver_len_num. destruct s as [|c r]; cbn [starts_version]; [tauto|]. destruct (is_digit c) eqn:E; [|tauto].
  cbn [num_len]. rewrite E. split; [lia|discriminate].
Qed.

Lemma semver_len_exact v rest :
  semver_b v = true ->
  length v <= semver_len (v ++ rest) /\ (semver_follow v rest = true -> semver_len (v ++ rest) = length v).
Proof.
  rewrite semver_len_num. destruct v as [|c r]; [discriminate|]. rewrite semver_b_cons. intros H. apply andb_true_iff in H.
  destruct H as [Hc H]. cbn [app num_len length]. rewrite Hc. destruct (num_len_exact r rest H) as [Ha Hb].
  split; [lia|]. rewrite semver_follow_vstop. cbn [in_group existsb].
  destruct (c_period =? c)%N eqn:Ep; [apply N.eqb_eq in Ep; subst c; discriminate|]. cbn [orb]. intros Hs. now rewrite (Hb Hs).
Qed.

(** ('@' version)? *)
Definition vtail_b (w : str) : bool :=
  match w with [] => true | c :: v => (c =? c_atsign)%N && semver_b v end.

Definition no_version (rest : str) : bool :=
  match rest with c :: r => negb ((c =? c_atsign)%N && starts_version r) | [] => true end.

Definition vtail_stop (w rest : str) : bool :=
  match w with [] => no_version rest | _ :: v => semver_follow v rest end.

Lemma version_tail_sound s : vtail_b (firstn (version_tail_len s) s) = true.
Proof.
  destruct s as [|c r]; [reflexivity|]. cbn [version_tail_len]. destruct (c =? c_atsign)%N eqn:E; [|reflexivity].
  pose proof (semver_len_sound r) as H. destruct (semver_len r) as [|n]; [reflexivity|]. cbn [firstn vtail_b]. rewrite E.
  apply H. discriminate.
Qed.

Lemma version_tail_exact w rest :
  vtail_b w = true ->
  length w <= version_tail_len (w ++ rest) /\ (vtail_stop w rest = true -> version_tail_len (w ++ rest) = length w).
Proof.
  destruct w as [|c v]; cbn [vtail_b].
  - intros _. split; [cbn; lia|]. cbn [app length vtail_stop]. destruct rest as [|x r]; [reflexivity|].
    cbn [no_version version_tail_len]. destruct (x =? c_atsign)%N; [|reflexivity]. cbn [andb]. intros H.
    apply negb_true_iff in H. apply semver_len_zero in H. now rewrite H.
  - intros H. apply andb_true_iff in H. destruct H as [Hc H]. cbn [app version_tail_len length vtail_stop]. rewrite Hc.
    destruct (semver_len_exact v rest H) as [Ha Hb]. assert (0 < length v) by (destruct v; [discriminate|cbn; lia]).
    destruct (semver_len (v ++ rest)) as [|n] eqn:En; [lia|]. split; [lia|]. intros Hs. specialize (Hb Hs). lia.
Qed.

Lemma semver_b_nosep c v : version_char c = false -> (c =? c_period)%N = false -> semver_b v = true -> nosep c v = true.
Proof.
  intros Hc Hp H.
  assert (Hn : forall w, nonempty_all version_char w = true -> forallb version_char w = true) by (intros [|x w]; [discriminate|auto]).
  assert (Hv : forallb (fun x => version_char x || (x =? c_period)%N) v = true).
  { apply (split_on_forallb c_period version_char). unfold semver_b in H. destruct (split_on c_period v) as [|num groups]; [discriminate|].
    apply andb_true_iff in H. destruct H as [Hnum Hg]. apply andb_true_iff. split; [|exact (forallb_impl _ _ _ Hn Hg)].
    apply Hn. destruct num as [|x num]; [discriminate|]. eapply forallb_impl; [|exact Hnum]. intros y Hy. unfold version_char. now rewrite Hy. }
  eapply forallb_impl; [|exact Hv]. cbn. intros x Hx. apply negb_true_iff, N.eqb_neq. intros ->. rewrite Hc, Hp in Hx. discriminate.
Qed.
