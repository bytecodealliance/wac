(** C02: the emission order of the MODEL of [toposort] satisfies the hypothesis of [wiring_correct].
    The C02 statements over the C06 invariant [Inv], and the corollaries for the encoder model. *)
From Coq Require Import List Arith Bool NArith Lia Permutation Relation_Operators.
From WacV Require Import Str Graph Wiring WiringSpec EncodeModel GraphInv WiringDecode WiringOrder WiringSim WiringCorrect
  WiringWitness ToposortDfs ToposortPhase1 ToposortPhase2.
Import ListNotations.
Local Open Scope nat_scope.

Lemma Inv_edges_live u g : Inv u g -> EdgesLive g.
Proof. intros I e He. now apply (inv_edges_live u g I). Qed.

(** 1. phase one enumerates exactly the live nodes, once each; the model's fuel is sufficient (any larger
       fuel gives the same answer: the out-of-fuel exit of [dfs_loop] is never taken); its only failure is
       the self loop exit *)
Lemma toposort_phase1_perm u g : Inv u g ->
  (forall f, dfs_fuel g <= f -> topo_phase1_fuel g f = topo_phase1 g) /\
  (forall ord, topo_phase1 g = Some ord -> Permutation ord (node_ids g) /\ NoDup ord) /\
  (topo_phase1 g = None -> exists e, In e (edges g) /\ esrc e = etgt e).
Proof.
  intros I. pose proof (Inv_edges_live u g I) as EL. split; [|split].
  - intros f Hf. now apply phase1_fuel.
  - intros ord. now apply phase1_perm.
  - now apply phase1_none_self_loop.
Qed.

(** 2. on an acyclic graph (no path from a node to itself; in particular when some rank increases along
       every edge) the order is a topological order and the second phase, as coded, reports no cycle *)
Lemma toposort_acyclic_is_topo u g : Inv u g -> ~ has_cycle g ->
  exists ord, toposort g = Some ord /\ topo_orderb g ord = true /\ Topo g ord /\ toposort_full g = inl ord.
Proof.
  intros I NC. destruct (toposort_acyclic_some g (Inv_edges_live u g I) NC) as [ord [A [_ [B C]]]].
  exists ord. split; [exact A|]. split; [exact B|]. split; [now apply topo_orderb_Topo | exact C].
Qed.

Lemma toposort_ranked_is_topo u g rk : Inv u g -> RankedBy g rk ->
  exists ord, toposort g = Some ord /\ topo_orderb g ord = true /\ Topo g ord /\ toposort_full g = inl ord.
Proof. intros I HR. apply (toposort_acyclic_is_topo u g I). eapply ranked_no_cycle; eauto. Qed.

(** 3. success means: no cycle, and the order is a valid input of [wiring_correct]; a graph with a cycle
       yields the cycle error; the two-phase rendering of the code and the model's order check agree *)
Lemma toposort_cycle_detected u g : Inv u g ->
  (forall ord, toposort g = Some ord -> topo_orderb g ord = true /\ ~ has_cycle g /\ RankedBy g (fun n => index_of n ord)) /\
  (toposort g = None <-> has_cycle g) /\
  toposort g = match toposort_full g with inl ord => Some ord | inr _ => None end.
Proof.
  intros I. pose proof (Inv_edges_live u g I) as EL. split; [|split].
  - intros ord H. pose proof (toposort_some_topo g ord H) as T. split; auto. split.
    + eapply toposort_some_acyclic; eauto.
    + now apply topo_order_ranked.
  - now apply toposort_none_iff_cycle.
  - now apply toposort_full_eq.
Qed.

(** 4. [wiring_correct] for the order the model of the code produces *)
Lemma wiring_correct_real_order e u g dc tau ord st names :
  Inv u g -> EncInv e u g -> toposort_full g = inl ord ->
  encode_with_order e u g dc tau ord = ROk (st, names) ->
  (forall p, In p (e_dedup st) -> fst p = snd p) ->
  option_map (erase_defs (def_names e g)) (decode_wiring names (e_log st)) = Some (wiring_spec e u g dc ord).
Proof.
  intros I EI F E D. pose proof (toposort_full_eq g (Inv_edges_live u g I)) as Q. rewrite F in Q.
  exact (wiring_correct e u g dc tau ord st names EI (toposort_some_topo g ord Q) E D).
Qed.

Lemma wiring_correct_encode_model e u g dc tau st names :
  Inv u g -> EncInv e u g ->
  encode_model e u g dc tau = ROk (st, names) ->
  (forall p, In p (e_dedup st) -> fst p = snd p) ->
  exists ord, toposort_full g = inl ord /\ Permutation ord (node_ids g) /\ ~ has_cycle g /\
    option_map (erase_defs (def_names e g)) (decode_wiring names (e_log st)) = Some (wiring_spec e u g dc ord).
Proof.
  intros I EI E D. pose proof (Inv_edges_live u g I) as EL. unfold encode_model in E.
  destruct (toposort g) as [ord|] eqn:T; [|discriminate]. exists ord.
  pose proof (toposort_some_acyclic g ord T) as NC.
  destruct (toposort_acyclic_some g EL NC) as [o [T' [P1 [B F]]]]. rewrite T in T'. injection T' as <-.
  split; [exact F|]. split; [exact (proj1 (phase1_perm g ord EL P1))|]. split; [exact NC|].
  exact (wiring_correct e u g dc tau ord st names EI B E D).
Qed.

Lemma encode_model_cycle e u g dc tau : Inv u g -> has_cycle g -> encode_model e u g dc tau = RErr ECycle.
Proof.
  intros I C. unfold encode_model.
  apply (toposort_none_iff_cycle g (Inv_edges_live u g I)) in C. now rewrite C.
Qed.

(** 5. "index order for independent nodes" (the comment on [toposort]) is FALSE of the faithful model
       (a witness through instantiations; the type-definition witness is
       [ToposortOrder.independent_nodes_index_order_refuted]):
       three instantiations 0, 1, 2 and an alias 3 of an export of 2 passed to 0. Nodes 0 and 1 are not
       connected in either direction, 0 < 1, and 1 is emitted first (the order is 1, 2, 3, 0).
       What does hold is proved for C16 in proofs/ToposortOrder.v (a node not reachable from any node of
       larger index precedes all nodes of larger index; forward-only graphs are emitted in index order). *)
Definition ops_index_order : list op :=
  [Register 0; Instantiate (0, 0); Instantiate (0, 0); Instantiate (0, 0); Alias 2 3%N; SetArg 0 0%N 3].

Lemma reach_first g a b : reach g a b -> succs g a <> [].
Proof. induction 1 as [a b H|]; auto. intros E. unfold gedge in H. rewrite E in H. destruct H. Qed.

Lemma index_order_refuted :
  exists ops a b ord, let g := run w_universe ops in
    toposort_full g = inl ord /\ live g a = true /\ live g b = true /\ a < b /\
    ~ reach g a b /\ ~ reach g b a /\ index_of b ord < index_of a ord.
Proof.
  exists ops_index_order, 0, 1, [1; 2; 3; 0]. cbv zeta.
  split; [vm_compute; reflexivity|]. split; [vm_compute; reflexivity|]. split; [vm_compute; reflexivity|].
  split; [lia|]. split; [|split].
  - intros H. apply reach_first in H. apply H. vm_compute. reflexivity.
  - intros H. apply reach_first in H. apply H. vm_compute. reflexivity.
  - vm_compute. lia.
Qed.

(** non-vacuity of the cycle clause: an instantiation that receives an alias of its own export as argument
    (reachable through the API); phase one succeeds, phase two as coded reports node 0 *)
Definition ops_cycle : list op := [Register 0; Instantiate (0, 0); Alias 0 3%N; SetArg 0 0%N 1].

Lemma cycle_instance :
  let g := run w_universe ops_cycle in
  has_cycle g /\ topo_phase1 g = Some [1; 0] /\ toposort_full g = inr (Some 0) /\ toposort g = None /\
  encode_model w_env w_universe g true w_tau = RErr ECycle.
Proof.
  cbv zeta. split; [|vm_compute; auto].
  exists 0. apply t_trans with 1; apply t_step; unfold gedge; vm_compute; auto.
Qed.
