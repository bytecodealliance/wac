(** C13: re-scanning a token text in a new context. If [scan_token] cut a text [t] out of some input,
    then run on [t] followed by a text that cannot continue it, it cuts [t] again with the same kind:
    this is [relex_stable] of C12 ([LexerClassE.relex_stable_scan]) with its follow condition
    [follow_ok] discharged for the characters the printer puts after a token. *)
From WacV Require Import LexClasses LexerSound LexerClassC LexerClassD LexerClassE.
From WacV Require Import Str Token Lexer LexTables LexImpl Semver Ast Parser Printer PrintSpec ListFacts TokenFacts.
From Coq Require Import Lia.
Local Open Scope nat_scope.

Definition head_not (c : N) (r : str) : Prop := match r with [] => True | x :: _ => x <> c end.

Lemma head_not_app (c : N) (p x : str) : p <> [] -> head_not c (p ++ x) <-> head_not c p.
Proof. destruct p; [congruence|]. reflexivity. Qed.

Lemma firstn_app_len {A} (a b : list A) : firstn (length a) (a ++ b) = a.
Proof. exact (firstn_app_exact a b). Qed.

Theorem rescan F s k n r' F' :
  length s < F -> scan_token impl_cfg F s = ScanTok k n ->
  follow_ok impl_flags k (firstn n s) r' = true -> length (firstn n s ++ r') < F' ->
  scan_token impl_cfg F' (firstn n s ++ r') = ScanTok k (length (firstn n s)).
Proof.
  intros HF H Hfol HF'. destruct (scan_token_bound _ _ _ _ _ H) as [_ Hn]. rewrite firstn_length_le by exact Hn.
  exact (relex_stable_scan impl_flags impl_cfg tables_ok_impl F s k n F' r' HF H Hfol HF').
Qed.

Definition alnum (c : N) : bool := is_lower c || is_upper c || is_digit c.

Lemma alnum_false c : alnum c = false -> is_lower c = false /\ is_upper c = false /\ is_digit c = false.
Proof. unfold alnum. intros H. apply orb_false_iff in H. destruct H as [H H3]. apply orb_false_iff in H. tauto. Qed.

Lemma id_follow_stop w c x : alnum c = false -> c <> c_minus -> id_follow impl_flags w (c :: x) = true.
Proof.
  intros Ha Hm. destruct (alnum_false c Ha) as (L & U & D). apply N.eqb_neq in Hm.
  unfold id_follow, word_stop, upper_or_digit, lower_or_digit. rewrite L, U, D, Hm. now destruct (last_case w false).
Qed.

(** An identifier not spelled like a keyword ends before anything but a letter, a digit, [-] and [:]. *)
Lemma follow_ident w c x :
  alnum c = false -> c <> c_minus -> c <> c_colon -> lookup_str w (keywords impl_cfg) = None ->
  follow_ok impl_flags TIdent w (c :: x) = true.
Proof.
  intros Ha Hm Hc Hk. cbn [follow_ok]. destruct (dash_ident_b impl_flags w).
  - destruct (alnum_false c Ha) as (L & U & _). cbn [starts_word]. now rewrite L, U, andb_false_r.
  - rewrite (lookup_keywords impl_cfg w tables_ok_impl) in Hk.
    unfold word_follow, is_keyword_text. rewrite (id_follow_stop w c x Ha Hm), Hk.
    apply N.eqb_neq in Hm, Hc. now rewrite Hm, Hc.
Qed.

(** Any identifier, keyword-spelled or not, ends before a colon that a blank or a line feed follows. *)
Lemma follow_ident_colon w c2 x : c2 = 32%N \/ c2 = 10%N -> follow_ok impl_flags TIdent w (c_colon :: c2 :: x) = true.
Proof.
  intros Hc2. cbn [follow_ok]. destruct (dash_ident_b impl_flags w); [reflexivity|].
  unfold word_follow. rewrite id_follow_stop by (reflexivity || discriminate).
  assert (Hs : starts_id impl_flags (c2 :: x) = false) by (destruct Hc2; subst c2; reflexivity).
  change ((c_colon =? c_minus)%N) with false. change ((c_colon =? c_colon)%N) with true. cbv iota. rewrite Hs.
  now destruct (is_keyword_text w).
Qed.

(** A package name or path ends before a character that continues neither an identifier nor a version
    and opens no further segment; before a period if no version character comes after it. *)
Lemma follow_pkg path w c x :
  alnum c = false -> c <> c_minus -> c <> 43%N -> c <> c_colon -> c <> c_slash -> c <> c_atsign ->
  (c = c_period -> match x with c2 :: _ => version_char c2 = false | [] => True end) ->
  pkg_follow impl_flags path w (c :: x) = true.
Proof.
  intros Ha Hm Hp Hc Hs Ht Hd. destruct (alnum_false c Ha) as (L & U & D). pose proof Hm as Hm'.
  apply N.eqb_neq in Hm', Hp, Hc, Hs, Ht.
  assert (Hv : version_char c = false).
  { unfold version_char, is_alpha. rewrite L, U, D. change 45%N with c_minus. now rewrite Hm', Hp. }
  unfold pkg_follow. destruct (split_version w) as [a [v|]].
  - unfold semver_follow. rewrite Hv, D. destruct (c =? c_period)%N eqn:E.
    + apply N.eqb_eq in E. specialize (Hd E). destruct x as [|c2 x2]; [now destruct (existsb _ v)|].
      rewrite Hd. now destruct (existsb _ v).
    + now destruct (existsb _ v).
  - now rewrite (id_follow_stop w c x Ha Hm), Hm', Hc, Hs, Ht.
Qed.

Definition is_kw (k : token) : bool := mem_tok k (map snd (keywords impl_cfg)).
Definition is_sym (k : token) : bool := mem_tok k (map snd (symbols impl_cfg)).

Definition src_kind (k : token) : bool :=
  match k with TIdent | TString | TPackageName | TPackagePath => true | _ => false end.

Lemma table_kinds_not_src k :
  In k (map snd (symbols impl_cfg)) \/ In k (map snd (keywords impl_cfg)) -> src_kind k = false.
Proof.
  assert (H : forallb (fun k => negb (src_kind k)) (map snd (symbols impl_cfg) ++ map snd (keywords impl_cfg)) = true)
    by (vm_compute; reflexivity).
  rewrite forallb_forall in H. intros Hin. apply negb_true_iff. apply H. apply in_or_app. exact Hin.
Qed.

(** Alone, the text of a keyword scans as that keyword. *)
Definition kw_scanb (k : token) : bool :=
  match scan_token impl_cfg (S (length (fixed_text k))) (fixed_text k) with
  | ScanTok k' n => token_eqb k' k && (n =? length (fixed_text k))
  | _ => false
  end.

Lemma kw_table k : is_kw k = true -> kw_scanb k = true /\ special k = false /\ is_symbol_kind k = false.
Proof.
  intros Hk.
  assert (H : forallb (fun k => negb (is_kw k) || (kw_scanb k && negb (special k) && negb (is_symbol_kind k))) all_tokens = true)
    by (vm_compute; reflexivity).
  apply forall_tokens with (k := k) in H. rewrite Hk in H. cbn [negb orb] in H.
  apply andb_true_iff in H. destruct H as [H H3]. apply andb_true_iff in H. destruct H as [H1 H2].
  apply negb_true_iff in H2, H3. auto.
Qed.

Theorem rescan_kw k c x F' :
  is_kw k = true -> alnum c = false -> c <> c_minus -> c <> c_colon -> length (fixed_text k ++ c :: x) < F' ->
  scan_token impl_cfg F' (fixed_text k ++ c :: x) = ScanTok k (length (fixed_text k)).
Proof.
  intros Hk Ha Hm Hc HF'. destruct (kw_table k Hk) as (Hs & Hsp & Hsym). unfold kw_scanb in Hs.
  set (t := fixed_text k) in *. destruct (scan_token impl_cfg (S (length t)) t) as [k' n| |] eqn:E; try discriminate Hs.
  apply andb_true_iff in Hs. destruct Hs as [Hk' Hn]. apply token_eqb_eq in Hk'. apply Nat.eqb_eq in Hn. subst k' n.
  pose proof (rescan (S (length t)) t k (length t) (c :: x) F' (Nat.lt_succ_diag_r _) E) as H. rewrite firstn_all in H.
  apply H; [|exact HF']. rewrite follow_ok_plain, Hsym by exact Hsp.
  unfold word_follow. rewrite (id_follow_stop t c x Ha Hm). apply N.eqb_neq in Hm, Hc. now rewrite Hm, Hc.
Qed.

Lemma scan_symbol_intro F s c x k n :
  s = c :: x -> c <> c_quote -> id_len true s = 0 -> best_symbol (symbols impl_cfg) s = Some (k, n) ->
  scan_token impl_cfg F s = ScanTok k n.
Proof.
  intros -> Hq Hi Hb. unfold scan_token. apply N.eqb_neq in Hq. rewrite Hq.
  change (allow_upper impl_cfg) with true. now rewrite Hi, Hb.
Qed.

(** Every symbol except [.] is re-scanned whatever follows; [.] when no [.] follows. *)
Theorem rescan_sym k r' F' :
  is_sym k = true -> (k = TDot -> head_not c_period r') ->
  scan_token impl_cfg F' (fixed_text k ++ r') = ScanTok k (length (fixed_text k)).
Proof.
  intros Hk Hdot.
  destruct k; try discriminate Hk;
    try (eapply scan_symbol_intro; [reflexivity|discriminate|apply (not_alpha_id_len impl_flags); reflexivity|];
         cbn; reflexivity).
  (* TDot *)
  specialize (Hdot eq_refl). eapply scan_symbol_intro; [reflexivity|discriminate|apply (not_alpha_id_len impl_flags); reflexivity|].
  destruct r' as [|c x]; [cbn; reflexivity|]. cbn [head_not] in Hdot.
  cbn. destruct c as [|q]; [reflexivity|]. destruct (Pos.eqb 46 q) eqn:E; [|reflexivity].
  apply Pos.eqb_eq in E. subst q. exfalso. apply Hdot. reflexivity.
Qed.
