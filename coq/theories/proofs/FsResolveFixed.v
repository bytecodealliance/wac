(** The REPAIRED file-system resolver model [resolve_one_fixed] (FsResolve.v) is the documented decision table [spec]
    for every well-formed key — no exception left — and coincides with the model as found outside the recorded
    deviation.  Then the loop over the keys of one call. *)
From WacV Require Import Str FsResolve FsSpec FsResolveProofs.

(** The path chosen by the repaired code, with its [in_place] flag, for every key. *)
Lemma select_path_fixed_eq wat fs cfg k :
  select_path_fixed wat fs cfg k =
  match applicable_override cfg k with
  | Some p => if is_file fs p then Some (p, true) else None
  | None => Some (if is_dir fs (base cfg k) then (base cfg k, true)
                  else (probe_suffixes (is_file fs) wat (base cfg k), false))
  end.
Proof.
  unfold select_path_fixed, applicable_override. cbv zeta. rewrite lookup_find, (model_base cfg k).
  destruct (option_map snd _) as [p|], (k_version k);
    try (destruct (is_dir fs (base cfg k)); reflexivity).
  destruct (is_file fs p); reflexivity.
Qed.

Section FixedProofs.
  Variable wat_parse : content -> option content.
  Variable wit_dir_encode : content -> option content.
  Variable wit_file_encode : content -> option content.

  Notation resolve_one := (resolve_one wat_parse wit_dir_encode wit_file_encode).
  Notation resolve_one_fixed := (resolve_one_fixed wat_parse wit_dir_encode wit_file_encode).
  Notation table := (table wat_parse wit_dir_encode wit_file_encode).
  Notation spec := (spec wat_parse wit_dir_encode wit_file_encode).
  Notation wit_package := (wit_package wit_dir_encode).
  Notation read_named_file := (read_named_file wat_parse wit_file_encode).

  Lemma fixed_override wat fs cfg k p :
    applicable_override cfg k = Some p ->
    resolve_one_fixed wat fs cfg k =
    match fs p with File c => read_named_file wat p c | _ => ErrResolution OverrideMissing end.
  Proof.
    intros Hov. unfold FsResolve.resolve_one_fixed. rewrite select_path_fixed_eq, Hov. unfold is_file.
    destruct (fs p) as [|c|c] eqn:Hp; try reflexivity. now apply load_fixed_file.
  Qed.

  Lemma fixed_dir_is_package wat fs cfg k c :
    applicable_override cfg k = None -> fs (base cfg k) = Dir c ->
    resolve_one_fixed wat fs cfg k = wit_package (base cfg k) c.
  Proof.
    intros Hov Hb. unfold FsResolve.resolve_one_fixed. rewrite select_path_fixed_eq, Hov. unfold is_dir.
    rewrite Hb. now apply load_fixed_dir.
  Qed.

  Lemma fixed_table wat fs cfg k :
    key_wf k -> resolve_one_fixed wat fs cfg k = table is_file false wat fs cfg k.
  Proof.
    intros Hwf. unfold FsResolveProofs.table. destruct (applicable_override cfg k) as [p|] eqn:Hov.
    - now apply fixed_override.
    - destruct (fs (base cfg k)) as [|c|c] eqn:Hb; try (now apply fixed_dir_is_package);
        unfold FsResolve.resolve_one_fixed; rewrite select_path_fixed_eq, Hov; unfold is_dir; rewrite Hb;
        now apply default_arm.
  Qed.

  Lemma table_spec wat fs cfg k : table is_file false wat fs cfg k = spec wat fs cfg k.
  Proof.
    unfold FsResolveProofs.table, FsSpec.spec, at_candidate, is_file.
    destruct (applicable_override cfg k); [reflexivity|].
    destruct (fs (base cfg k)); [| |reflexivity];
      (destruct wat; [destruct (fs (suffixed cfg k s_wat))|]; destruct (fs (suffixed cfg k s_wasm)); reflexivity).
  Qed.

  Lemma table_fixed wat fs cfg k :
    key_wf k -> resolve_one_fixed wat fs cfg k = spec wat fs cfg k.
  Proof. intros Hwf. rewrite (fixed_table wat fs cfg k Hwf). apply table_spec. Qed.

  (** Outside the recorded deviation the repair changes nothing. *)
  Lemma fixed_eq_found wat fs cfg k :
    key_wf k -> suffixed_dir_chosen wat fs cfg k = false ->
    resolve_one_fixed wat fs cfg k = resolve_one wat fs cfg k.
  Proof.
    intros Hwf Hdev. rewrite (table_fixed wat fs cfg k Hwf).
    symmetry. now apply (table_partial wat_parse wit_dir_encode wit_file_encode).
  Qed.

  (** Missing packages, in the property's own terms: no directory at B, no FILE at B".wat" (when text is enabled)
      and no FILE at B".wasm". *)
  Definition nothing_there (wat : bool) (fs : filesystem) (cfg : config) (k : key) : Prop :=
    applicable_override cfg k = None /\ is_dir fs (base cfg k) = false /\
    (wat = true -> is_file fs (suffixed cfg k s_wat) = false) /\ is_file fs (suffixed cfg k s_wasm) = false.

  Lemma fixed_missing wat fs cfg k :
    key_wf k -> nothing_there wat fs cfg k -> resolve_one_fixed wat fs cfg k = missing cfg.
  Proof.
    intros Hwf (Hov & Hb & Hw & Hs). rewrite (fixed_table wat fs cfg k Hwf), table_default by assumption.
    unfold at_candidate, is_file in *.
    destruct wat; [rewrite (Hw eq_refl)|]; destruct (fs (suffixed cfg k s_wasm)); try discriminate; reflexivity.
  Qed.

  Lemma fixed_not_found_iff wat fs cfg k :
    key_wf k ->
    (not_found (resolve_one_fixed wat fs cfg k) = true <-> nothing_there wat fs cfg k).
  Proof.
    intros Hwf. split.
    - rewrite (fixed_table wat fs cfg k Hwf).
      unfold FsResolveProofs.table, at_candidate, nothing_there, is_dir, is_file.
      destruct (applicable_override cfg k) as [p|].
      { destruct (fs p); [discriminate | now rewrite found_read_named_file | discriminate]. }
      destruct (fs (base cfg k)); [| |now rewrite found_wit_package];
        (destruct wat; cbn [andb]; [destruct (fs (suffixed cfg k s_wat))|]; destruct (fs (suffixed cfg k s_wasm));
         rewrite ?found_assembled; try discriminate; repeat split; auto; discriminate).
    - intros N. rewrite (fixed_missing wat fs cfg k Hwf N). apply not_found_missing.
  Qed.
End FixedProofs.

Section AllProofs.
  Variable wat_parse : content -> option content.
  Variable wit_dir_encode : content -> option content.
  Variable wit_file_encode : content -> option content.

  Notation resolve_one_fixed := (resolve_one_fixed wat_parse wit_dir_encode wit_file_encode).
  Notation resolve_all := (resolve_all wat_parse wit_dir_encode wit_file_encode).

  (** When no key fails, the call answers every key exactly as it would answer it alone. *)
  Lemma resolve_all_independent wat fs cfg ks :
    forallb (fun k => negb (is_failure (resolve_one_fixed wat fs cfg k))) ks = true ->
    resolve_all wat fs cfg ks = map (resolve_one_fixed wat fs cfg) ks.
  Proof.
    induction ks as [|k r IH]; cbn [forallb FsResolve.resolve_all map]; intros H; [reflexivity|].
    apply andb_prop in H. destruct H as [Hk Hr].
    destruct (is_failure (resolve_one_fixed wat fs cfg k)); [discriminate|]. now rewrite (IH Hr).
  Qed.

  (** When some key fails, the call stops at the FIRST such key: the keys before it are answered as if alone, and the
      error is that key's own error. *)
  Lemma resolve_all_first_failure wat fs cfg pre k post :
    forallb (fun k => negb (is_failure (resolve_one_fixed wat fs cfg k))) pre = true ->
    is_failure (resolve_one_fixed wat fs cfg k) = true ->
    resolve_all wat fs cfg (pre ++ k :: post) =
    map (resolve_one_fixed wat fs cfg) pre ++ [resolve_one_fixed wat fs cfg k].
  Proof.
    induction pre as [|p r IH]; cbn [forallb FsResolve.resolve_all map app]; intros H Hk.
    - now rewrite Hk.
    - apply andb_prop in H. destruct H as [Hp Hr].
      destruct (is_failure (resolve_one_fixed wat fs cfg p)); [discriminate|]. now rewrite (IH Hr Hk).
  Qed.

  (** The answer for a key does not depend on which other keys are requested with it, nor on their order, as long
      as the call gets to it: an outcome in the answer is the stand-alone outcome of the key at that position. *)
  Lemma resolve_all_nth wat fs cfg ks i o :
    nth_error (resolve_all wat fs cfg ks) i = Some o ->
    exists k, nth_error ks i = Some k /\ o = resolve_one_fixed wat fs cfg k.
  Proof.
    revert i. induction ks as [|k r IH]; intros i H; cbn [FsResolve.resolve_all] in H.
    - destruct i; discriminate.
    - destruct (is_failure (resolve_one_fixed wat fs cfg k)).
      + destruct i as [|i]; cbn in H; [injection H as <-; exists k; now split|]. destruct i; discriminate.
      + destruct i as [|i]; cbn in H; [injection H as <-; exists k; now split|]. now apply IH.
  Qed.
End AllProofs.
