(** names.rs: the compatibility relation is the semver-track relation. *)
From WacV Require Import Str StrFacts Ord Semver Names NamesSpec SemverProofs SemverText.

Lemma app_sep_inj c (b1 b2 x1 x2 : str) :
  ~ In c b1 -> ~ In c b2 -> b1 ++ c :: x1 = b2 ++ c :: x2 -> b1 = b2 /\ x1 = x2.
Proof.
  intros H1 H2 E.
  assert (split_first c (b1 ++ c :: x1) = Some (b1, x1)) as A by now apply split_first_app.
  rewrite E, split_first_app in A by auto. injection A as -> ->. auto.
Qed.

Lemma digits_no_dot ds : forallb is_digit ds = true -> ~ In c_dot ds.
Proof.
  intros F Hin. rewrite forallb_forall in F. apply F, is_digit_range in Hin. unfold c_dot in Hin. lia.
Qed.

Lemma canonical_digits ds : canonical ds -> forallb is_digit ds = true.
Proof. now intros [F _]. Qed.

Lemma canonical_zero : canonical [c_zero].
Proof. split; cbn; auto. Qed.

Lemma canonical_val0 ds : canonical ds -> dval 0 ds = 0 -> ds = [c_zero].
Proof. intros C E. apply canonical_inj; auto using canonical_zero. Qed.

(** key text of a (base, track) *)
Definition KeyRel (k base : str) (t : track) : Prop :=
  ~ In c_at base /\
  exists ds, canonical ds /\
    ((t = TMajor (dval 0 ds) /\ dval 0 ds <> 0 /\ k = base ++ c_at :: ds) \/
     (t = TMinor (dval 0 ds) /\ k = base ++ c_at :: c_zero :: c_dot :: ds)).

Lemma KeyRel_inj k b t k' b' t' :
  KeyRel k b t -> KeyRel k' b' t' -> (k = k' <-> (b = b' /\ t = t')).
Proof.
  intros [Hb [ds [C H]]] [Hb' [ds' [C' H']]].
  destruct H as [[-> [Hz ->]]|[-> ->]]; destruct H' as [[-> [Hz' ->]]|[-> ->]]; split.
  - intros E. apply app_sep_inj in E as [-> ->]; auto.
  - intros [-> E]. injection E as E. apply canonical_inj in E; auto. now subst.
  - intros E. apply app_sep_inj in E as [-> E]; auto. exfalso.
    apply canonical_digits in C. rewrite E in C. cbn in C. discriminate.
  - intros [_ E]. discriminate.
  - intros E. apply app_sep_inj in E as [-> E]; auto. exfalso.
    apply canonical_digits in C'. rewrite <- E in C'. cbn in C'. discriminate.
  - intros [_ E]. discriminate.
  - intros E. apply app_sep_inj in E as [-> E]; auto. injection E as ->. auto.
  - intros [-> E]. injection E as E. apply canonical_inj in E; auto. now subst.
Qed.

Lemma version_text_split1 dM dm dp v :
  canonical dM ->
  split_first c_dot (version_text dM dm dp v) =
  Some (dM, dm ++ c_dot :: dp ++ (if is_nil (pre v) then [] else c_dash :: pre v)
                            ++ (if is_nil (build v) then [] else c_plus :: build v)).
Proof.
  intros C. unfold version_text. apply split_first_app. apply digits_no_dot, canonical_digits, C.
Qed.

Lemma pos_ltb n : (0 <? n) = negb (n =? 0).
Proof. destruct n; reflexivity. Qed.

Lemma alt_key_track name :
  match alt_key name, name_track name with
  | Some (k, v), Some (base, t, v') => v = v' /\ KeyRel k base t
  | None, None => True
  | _, _ => False
  end.
Proof.
  unfold alt_key, name_track.
  destruct (split_first c_at name) as [[base vs]|] eqn:S; [|exact I].
  apply split_first_spec in S as [-> Hb].
  destruct (parse_version vs) as [v0|] eqn:P; [|exact I].
  apply parse_version_shape in P as P'.
  destruct P' as [dM [dm [dp [-> [CM [Cm [Cp [EM [Em Ep]]]]]]]]].
  unfold track_of. rewrite !pos_ltb.
  destruct (negb (is_nil (pre v0))); [exact I|].
  rewrite version_text_split1 by auto.
  destruct (N.eqb_spec (major v0) 0) as [Z|NZ]; cbn [negb].
  - destruct (N.eqb_spec (minor v0) 0) as [Zm|NZm]; cbn [negb]; [exact I|].
    rewrite split_first_app by (apply digits_no_dot, canonical_digits, Cm).
    split; [reflexivity|]. split; [exact Hb|]. exists dm. split; [exact Cm|]. right. rewrite <- Em. split; [reflexivity|].
    assert (dM = [c_zero]) as -> by (apply canonical_val0; auto; congruence). reflexivity.
  - split; [reflexivity|]. split; [exact Hb|]. exists dM. split; [exact CM|]. left. rewrite <- EM. auto.
Qed.

Lemma alt_key_sound name k v :
  alt_key name = Some (k, v) ->
  exists base t, name_track name = Some (base, t, v) /\ KeyRel k base t.
Proof.
  intros A. pose proof (alt_key_track name) as T. rewrite A in T.
  destruct (name_track name) as [[[b t] v']|]; [|destruct T]. destruct T as (-> & K). eauto.
Qed.

Lemma alt_key_none name : alt_key name = None -> name_track name = None.
Proof.
  intros A. pose proof (alt_key_track name) as T. rewrite A in T.
  destruct (name_track name) as [[[b t] v']|]; [destruct T|reflexivity].
Qed.

Lemma alt_key_version n k v : alt_key n = Some (k, v) -> version_of n = Some v.
Proof.
  intros A. apply alt_key_sound in A as [base [t [T _]]]. unfold version_of. now rewrite T.
Qed.

Lemma track_eqb_eq a b : track_eqb a b = true <-> a = b.
Proof.
  destruct a, b; cbn; split; try congruence; rewrite ?N.eqb_eq; try congruence.
  all: intros H; injection H; auto.
Qed.

Lemma bool_eq_iff (a b : bool) : (a = true <-> b = true) -> a = b.
Proof. destruct a, b; intuition congruence. Qed.

(** Keys coincide exactly when base and track do. *)
Lemma alt_key_same_track a b ka va kb vb :
  alt_key a = Some (ka, va) -> alt_key b = Some (kb, vb) -> str_eqb ka kb = same_track a b.
Proof.
  intros A B. apply alt_key_sound in A as [ba [ta [TA KA]]]. apply alt_key_sound in B as [bb [tb [TB KB]]].
  unfold same_track. rewrite TA, TB. apply bool_eq_iff.
  rewrite str_eqb_eq, andb_true_iff, str_eqb_eq, track_eqb_eq.
  apply (KeyRel_inj _ _ _ _ _ _ KA KB).
Qed.

Lemma compat_true_iff a b :
  compat a b = true <-> a = b \/ exists k va vb, alt_key a = Some (k, va) /\ alt_key b = Some (k, vb).
Proof.
  unfold compat. destruct (str_eqb_spec a b) as [E|NE]; [tauto|].
  destruct (alt_key a) as [[ka va]|]; [destruct (alt_key b) as [[kb vb]|]|]; [rewrite str_eqb_eq|..]; split;
    try discriminate; try (intros [E|(k & va' & vb' & A & B)]; [contradiction|congruence]).
  intros ->. right. eauto.
Qed.

Theorem compat_is_spec_b a b : compat a b = compat_spec_b a b.
Proof.
  unfold compat, compat_spec_b. destruct (str_eqb a b); auto. cbn.
  destruct (alt_key a) as [[ka va]|] eqn:A.
  - destruct (alt_key b) as [[kb vb]|] eqn:B.
    + eapply alt_key_same_track; eauto.
    + apply alt_key_none in B. unfold same_track. rewrite B. destruct (name_track a) as [[[? ?] ?]|]; auto.
  - apply alt_key_none in A. unfold same_track. now rewrite A.
Qed.

Lemma name_track_shape name base t v :
  name_track name = Some (base, t, v) ->
  exists r, name = base ++ [c_at] ++ r /\ ~ In c_at base /\ parse_version r = Some v /\ track_of v = Some t.
Proof.
  unfold name_track. destruct (split_first c_at name) as [[b vs]|] eqn:S; try discriminate.
  apply split_first_spec in S as [-> Hb].
  destruct (parse_version vs) as [v0|] eqn:P; try discriminate.
  destruct (track_of v0) eqn:T; try discriminate. intros H; injection H as <- <- <-.
  exists vs; auto.
Qed.

Lemma name_track_intro base r v t :
  ~ In c_at base -> parse_version r = Some v -> track_of v = Some t ->
  name_track (base ++ [c_at] ++ r) = Some (base, t, v).
Proof.
  intros Hb P T. unfold name_track. cbn. rewrite split_first_app by auto. now rewrite P, T.
Qed.

(** two names with one key and one version are one name: the key gives base and track, and the version its own text *)
Lemma same_track_same_version_name a b v :
  same_track a b = true -> version_of a = Some v -> version_of b = Some v -> a = b.
Proof.
  unfold same_track, version_of.
  destruct (name_track a) as [[[ba ta] va]|] eqn:A; try discriminate.
  destruct (name_track b) as [[[bb tb] vb]|] eqn:B; try discriminate.
  intros S E1 E2. injection E1 as ->. injection E2 as ->.
  apply andb_true_iff in S as [S _]. apply str_eqb_eq in S. subst bb.
  apply name_track_shape in A as [ra [-> [_ [Pa _]]]].
  apply name_track_shape in B as [rb [-> [_ [Pb _]]]].
  f_equal. f_equal. eapply parse_version_inj; eauto.
Qed.

Lemma alt_key_inj a b k v : alt_key a = Some (k, v) -> alt_key b = Some (k, v) -> a = b.
Proof.
  intros A B. pose proof (alt_key_same_track _ _ _ _ _ _ A B) as S. rewrite str_eqb_refl in S.
  apply alt_key_version in A, B. exact (same_track_same_version_name a b v (eq_sym S) A B).
Qed.

Theorem compat_spec_b_iff a b : compat_spec_b a b = true <-> Compat_spec a b.
Proof.
  unfold compat_spec_b, Compat_spec. rewrite orb_true_iff, str_eqb_eq. split.
  - intros [->|H]; auto. right. unfold same_track in H.
    destruct (name_track a) as [[[ba ta] va]|] eqn:A; try discriminate.
    destruct (name_track b) as [[[bb tb] vb]|] eqn:B; try discriminate.
    apply andb_true_iff in H as [H1 H2]. apply str_eqb_eq in H1. apply track_eqb_eq in H2. subst.
    apply name_track_shape in A as [ra [-> [Hb [Pa Ta]]]].
    apply name_track_shape in B as [rb [-> [_ [Pb Tb]]]].
    exists bb, ra, rb, va, vb, tb. auto 10.
  - intros [->|[base [ra [rb [va [vb [t [-> [-> [Hb [Pa [Pb [Ta Tb]]]]]]]]]]]]]; auto. right.
    unfold same_track.
    rewrite (name_track_intro _ _ _ _ Hb Pa Ta), (name_track_intro _ _ _ _ Hb Pb Tb).
    rewrite str_eqb_refl. cbn. now apply track_eqb_eq.
Qed.

Theorem compat_iff a b : compat a b = true <-> Compat_spec a b.
Proof. rewrite compat_is_spec_b. apply compat_spec_b_iff. Qed.

Lemma same_track_sym a b : same_track a b = same_track b a.
Proof.
  unfold same_track. destruct (name_track a) as [[[ba ta] va]|], (name_track b) as [[[bb tb] vb]|]; auto.
  apply bool_eq_iff. rewrite !andb_true_iff, !str_eqb_eq, !track_eqb_eq. split; intros [-> ->]; auto.
Qed.

Lemma same_track_trans a b c : same_track a b = true -> same_track b c = true -> same_track a c = true.
Proof.
  unfold same_track. destruct (name_track a) as [[[ba ta] va]|], (name_track b) as [[[bb tb] vb]|],
    (name_track c) as [[[bc tc] vc]|]; try discriminate.
  rewrite !andb_true_iff, !str_eqb_eq, !track_eqb_eq. intros [-> ->] [-> ->]. auto.
Qed.

Theorem compat_refl a : compat a a = true.
Proof. unfold compat. now rewrite str_eqb_refl. Qed.

Theorem compat_sym a b : compat a b = compat b a.
Proof.
  rewrite !compat_is_spec_b. unfold compat_spec_b. rewrite same_track_sym. f_equal.
  apply bool_eq_iff. rewrite !str_eqb_eq. intuition congruence.
Qed.

Theorem compat_trans a b c : compat a b = true -> compat b c = true -> compat a c = true.
Proof.
  rewrite !compat_is_spec_b. unfold compat_spec_b. rewrite !orb_true_iff, !str_eqb_eq.
  intros [->|H1] [->|H2]; auto. right. eapply same_track_trans; eauto.
Qed.

(** Only a name on a track (a release version other than 0.0.x) is on the track of another. *)
Lemma same_track_needs_track a b : same_track a b = true ->
  exists ba ta va, name_track a = Some (ba, ta, va).
Proof.
  unfold same_track. destruct (name_track a) as [[[ba ta] va]|]; try discriminate. eauto.
Qed.
