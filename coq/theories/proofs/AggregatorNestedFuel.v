(** Fuel of the nested merge / copy.  The Rust recursion of [merge_interface] / [remap_interface] over nested instance exports
    is modelled on explicit fuel.  This file bounds the fuel THAT recursion needs by the depth [d] of the contributor's
    requirement ([SDen]: interfaces may be shared between several places):

      with fuel  >= 2*d + L + 2  [merge_interface] (and with fuel >= 2*d + L [remap_item_kind]) of a nested requirement
      of depth [d] - whatever the state of the aggregator - can only answer "out of fuel" if
        - a LEAF of the contributor (function, value, value type) could not be copied with fuel >= L ([LeafOof L]), or
        - the SubtypeChecker, whose fuel [cf] is a separate parameter, answered OutOfFuel ([ChkOof]).

    i.e. the nested recursion itself never runs out.  (Both escape clauses are about flat, leaf-level work that the flat
    development has as well; [deep_run] in AggregatorNestedWitness.v runs a depth-3 history with fuel 60.) *)
From Coq Require Import ZArith Lia.
From WacV Require Import Str Names Types Checker SubSpec CheckerEq CheckerValue CheckerProofs.
From WacV Require Import Aggregator AggregatorSpec AggregatorFrame AggregatorRemap AggregatorChecker AggregatorNames
     AggregatorFlat AggregatorNestedSpec AggregatorNestedDen.

Section NFuel.
  Variable ord : list (str * id) -> list (str * id).
  Variable cf : nat.
  Variable t : types.
  Variable L : nat.

  Definition LeafOof : Prop :=
    exists F k tr c, (L <= F)%nat /\ leaf_den t k tr /\ remap_item_kind ord cf F t k c = AOof.
  Definition ChkOof : Prop :=
    exists s T a b, fst (is_subtype cf s t a T b) = OutOfFuel \/ fst (is_subtype cf s T b t a) = OutOfFuel.
  (** [m] runs out of fuel only through an escape [Esc] (which contains [LeafOof]; for merges also [ChkOof]) *)
  Variable Esc : Prop.
  Hypothesis HLeaf : LeafOof -> Esc.
  Definition okm {A} (m : M A) : Prop := forall c, m c = AOof -> Esc.

  Lemma okm_prim {A} (m : M A) : (forall c, m c <> AOof) -> okm m.
  Proof. intros H c E. exfalso. exact (H c E). Qed.
  Lemma okm_ret {A} (a : A) : okm (ret a). Proof. apply okm_prim. discriminate. Qed.
  Lemma okm_fail {A} e : okm (@fail A e). Proof. apply okm_prim. discriminate. Qed.
  Lemma okm_panic {A} : okm (@panic A). Proof. apply okm_prim. discriminate. Qed.
  Lemma okm_bind {A B} (m : M A) (k : A -> M B) : okm m -> (forall x, okm (k x)) -> okm (bindM m k).
  Proof.
    intros Hm Hk c H. unfold bindM in H. destruct (m c) as [[x c']| | |] eqn:E; try discriminate;
      [eapply Hk; eauto | eapply Hm; eauto].
  Qed.
  Lemma okm_fmap {A B} (m : M A) (g : A -> B) : okm m -> okm (x <-- m ;;; ret (g x)).
  Proof. intros H. apply okm_bind; [exact H|]. intros x. apply okm_ret. Qed.
  Lemma okm_bind_idxM {A B} (o : option A) (k : A -> M B) : (forall x, o = Some x -> okm (k x)) -> okm (bindM (idxM o) k).
  Proof.
    intros H c E. destruct o as [x|]; cbn [idxM] in E; [|discriminate]. unfold bindM, ret in E. exact (H x eq_refl c E).
  Qed.
  Lemma okm_bind_ret {A B} (a : A) (k : A -> M B) : okm (k a) -> okm (bindM (ret a) k).
  Proof. intros H c E. unfold bindM, ret in E. exact (H c E). Qed.
  Lemma okm_forM {A} (f : A -> M unit) l : (forall x, In x l -> okm (f x)) -> okm (forM f l).
  Proof.
    induction l as [|a l IH]; intros H; cbn [forM]; [apply okm_ret|].
    apply okm_bind; [apply H; now left|]. intros _. apply IH. intros; apply H; now right.
  Qed.
  Lemma okm_mapM {A B} (f : A -> M B) l : (forall x, In x l -> okm (f x)) -> okm (mapM f l).
  Proof.
    induction l as [|a l IH]; intros H; cbn [mapM]; [apply okm_ret|].
    apply okm_bind; [apply H; now left|]. intros y. apply okm_bind; [apply IH; intros; apply H; now right|].
    intros ys. apply okm_ret.
  Qed.

  Lemma okm_optM {A B} (f : A -> M B) o : (forall x, o = Some x -> okm (f x)) -> okm (optM f o).
  Proof. destruct o as [a|]; intros H; cbn [optM]; [|apply okm_ret]. apply okm_bind; [now apply H|]. intros y. apply okm_ret. Qed.

  Lemma okm_agg_if y : okm (agg_if y).
  Proof. apply okm_prim. intros c. unfold agg_if. destruct (get_if (c_types c) y); cbn [idxM]; discriminate. Qed.
  Lemma okm_upd_if y f : okm (upd_if y f).
  Proof. unfold upd_if. apply okm_bind; [apply okm_agg_if|]. intros x. apply okm_prim. discriminate. Qed.
  Lemma okm_remapped_get k : okm (remapped_get k). Proof. apply okm_prim. discriminate. Qed.
  Lemma okm_remapped_set k v : okm (remapped_set k v). Proof. apply okm_prim. discriminate. Qed.
  Lemma okm_remapped_new k v : okm (remapped_new k v).
  Proof. apply okm_prim. intros c. unfold remapped_new. destruct (rm_get k (c_remapped c)); discriminate. Qed.
  Lemma okm_add_if x : okm (add_if x). Proof. apply okm_prim. discriminate. Qed.
  Lemma okm_add_def d : okm (add_def d). Proof. apply okm_prim. discriminate. Qed.
  Lemma okm_add_func d : okm (add_func d). Proof. apply okm_prim. discriminate. Qed.
  Lemma okm_iface_new n y : okm (iface_new n y).
  Proof. apply okm_prim. intros c. unfold iface_new. destruct (has_key n (c_ifaces c)); discriminate. Qed.
  Lemma okm_iface_set n y : okm (iface_set n y). Proof. apply okm_prim. discriminate. Qed.
  Lemma okm_lookup_iface n : okm (lookup_iface ord n). Proof. apply okm_prim. discriminate. Qed.
  Lemma okm_sub_fa a b : okm (sub_fa cf t a b).
  Proof. apply okm_prim. intros c. unfold sub_fa. destruct (is_subtype cf (c_chk c) t a (c_types c) b). discriminate. Qed.

  (** the second check of a same-named export, whose verdict is turned into a result *)
  Lemma okm_sub_af_must {B} ctx tk sk (K : M B) : (ChkOof -> Esc) -> okm K -> okm (r2 <-- sub_af cf t tk sk ;;; must ctx r2 ;;; K).
  Proof.
    intros HChk HK c H. unfold bindM at 1 in H. unfold sub_af in H.
    destruct (is_subtype cf (c_chk c) (c_types c) tk t sk) as [r s'] eqn:E.
    destruct r as [[]| | |]; cbn [must] in H.
    - unfold bindM, ret in H. exact (HK _ H).
    - discriminate.
    - discriminate.
    - apply HChk. exists (c_chk c), (c_types c), sk, tk. right. now rewrite E.
  Qed.

  Definition RB (d : nat) : Prop := forall k tr ids, SDen d t k tr ids -> forall F, (2 * d + L <= F)%nat ->
    okm (remap_item_kind ord cf F t k).
  (* [oid = None]: below the root every interface of an [SDen] tree is anonymous *)
  Definition RIB (d : nat) : Prop := forall i e ids, SIDen d t i None e ids -> forall F, (2 * d + L + 1 <= F)%nat ->
    okm (remap_interface ord cf F t i).

  Lemma RIB_of_RB d : RB d -> RIB d.
  Proof.
    intros HK i e ids [exs [own [Hg [ND [K [Sh ->]]]]]] F HF. destruct F as [|f]; [lia|]. cbn [remap_interface].
    apply okm_bind_idxM. intros x Hx. rewrite Hg in Hx. injection Hx as <-. cbn [i_id i_uses i_exports].
    apply okm_bind_ret. apply okm_bind_ret.
    cbn [mapM]. apply okm_bind_ret.
    apply okm_bind.
    - apply okm_mapM. intros [n k] Hin. cbn [fst snd]. apply okm_fmap.
      destruct (kids_in_l _ _ _ _ _ _ K Hin) as [tr Hd]. apply (HK k tr _ Hd). lia.
    - intros es. apply okm_bind; [apply okm_add_if|]. intros y. apply okm_bind_ret. apply okm_ret.
  Qed.

  Lemma RB_0 : RB 0. Proof. intros k tr ids []. Qed.
  Lemma RB_S d : RIB d -> RB (S d).
  Proof.
    intros HI k tr ids HD F HF. cbn [DenG] in HD. destruct HD as [[LD ->]|[y0 [e [-> [-> HD]]]]].
    - intros c E. apply HLeaf. exists F, k, tr, c. split; [lia|auto].
    - destruct F as [|f]; [lia|]. cbn [remap_item_kind]. apply okm_fmap.
      apply (HI y0 e ids HD). lia.
  Qed.
  Theorem RB_all : forall d, RB d.
  Proof. induction d as [|d IH]; [apply RB_0 | apply RB_S, RIB_of_RB, IH]. Qed.
  Theorem RIB_all : forall d, RIB d.
  Proof. intros d. apply RIB_of_RB, RB_all. Qed.

  Definition MB (d : nat) : Prop := forall i oid e ids, SIDen d t i oid e ids -> forall F y, (2 * d + L + 2 <= F)%nat ->
    okm (merge_interface ord cf F y t i).

  Lemma nested_pair_some tk sk y target source : nested_pair tk sk y = Some (target, source) -> sk = KInstance source.
  Proof.
    unfold nested_pair. destruct tk; try discriminate. destruct sk; try discriminate. destruct (id_eqb _ _); [discriminate|].
    intros H. now injection H as _ <-.
  Qed.

  Hypothesis HChk : ChkOof -> Esc.
  (* one statement for [d = 0] and [d = S d']: [HMB] is used only below an instance export, where the depth is
     already known to be a successor *)
  Lemma MB_of d (HMB : forall d', d = S d' -> MB d') : MB d.
  Proof.
    intros i oid e ids [exs [own [Hg [ND [K [Sh ->]]]]]] F y HF. destruct F as [|f]; [lia|]. rewrite merge_interface_S.
    apply okm_bind.
    - destruct f as [|f]; [lia|]. cbn [merge_interface_used_types]. apply okm_bind_idxM. intros x Hx. rewrite Hg in Hx.
      injection Hx as <-. cbn [i_uses forM]. apply okm_ret.
    - intros _. apply okm_bind_idxM. intros x Hx. rewrite Hg in Hx. injection Hx as <-. cbn [i_exports].
      apply okm_forM. intros [name sk] Hin. unfold merge_export_body.
      destruct (kids_in_l _ _ _ _ _ _ K Hin) as [tb HD].
      assert (Hremap : okm (k' <-- remap_item_kind ord cf f t sk ;;; upd_if y (if_set_export name k'))).
      { apply okm_bind; [apply (RB_all d sk tb _ HD); lia | intros k'; apply okm_upd_if]. }
      apply okm_bind; [apply okm_agg_if|]. intros ex. destruct (assoc name (i_exports ex)) as [tk|]; [|exact Hremap].
      destruct (nested_pair tk sk y) as [[target source]|] eqn:Enp.
      + apply nested_pair_some in Enp. subst sk. destruct d as [|d']; [destruct HD|].
        apply Den_inst in HD as [eb [-> IDs]]. apply okm_bind; [|intros _; apply okm_remapped_set].
        apply (HMB d' eq_refl source None eb _ IDs). lia.
      + apply okm_bind; [apply okm_sub_fa|]. intros r1. destruct (is_ok r1).
        * destruct (replaceable (ty_of sk) (ty_of tk)); [apply okm_remapped_set | apply okm_ret].
        * apply okm_sub_af_must; [exact HChk|exact Hremap].
  Qed.
  Theorem MB_all : forall d, MB d.
  Proof. induction d as [|d IH]; apply MB_of; intros d' E; [discriminate|]. injection E as <-. exact IH. Qed.
End NFuel.

Theorem nested_merge_fuel_bound ord cf t L d i oid e ids :
  SIDen d t i oid e ids -> forall F y c, (2 * d + L + 2 <= F)%nat ->
  merge_interface ord cf F y t i c = AOof -> LeafOof ord cf t L \/ ChkOof cf t.
Proof.
  intros ID F y c HF H.
  exact (MB_all ord cf t L (LeafOof ord cf t L \/ ChkOof cf t) (fun X => or_introl X) (fun X => or_intror X) d i oid e ids ID F y HF c H).
Qed.
(** a copy does not consult the checker *)
Theorem nested_copy_fuel_bound ord cf t L d k tr ids :
  SDen d t k tr ids -> forall F c, (2 * d + L <= F)%nat ->
  remap_item_kind ord cf F t k c = AOof -> LeafOof ord cf t L.
Proof. intros HD F c HF H. exact (RB_all ord cf t L (LeafOof ord cf t L) (fun X => X) d k tr ids HD F HF c H). Qed.
