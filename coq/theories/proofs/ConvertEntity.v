(** [convert_tree_faithful_partial], part 2: instance types, component types, entities, the package
    ([tree_faithful_holds]). *)
From Coq Require Import Lia.
From WacV Require Import Str StrFacts ListFacts Types CheckerEq CheckerValue CheckerProofs Convert ConvertSpec ConvertProofs ConvertFrame ConvertTree.
Set Warnings "-unused-intro-pattern".

Section Entity.
  Variable g : vgraph.
  Variable hf : nat.

  Notation pre := (pre g).
  Notation fn_ok := (fn_ok g).

  Lemma cache_ok_weaken O O' s : (forall x, In x O -> In x O') -> cache_ok g O' s -> cache_ok g O s.
  Proof. intros Hs H v e Hv t' A. apply (H v e Hv). eapply agree_weaken; eassumption. Qed.

  (** entering the construction of a fresh interface / world slot *)
  Lemma pre_open b O s t1 :
    pre O s -> agree [] (cs_types s) t1 -> slots_ok [next_slot b (cs_types s)] t1 ->
    pre (next_slot b (cs_types s) :: O) (with_types s t1).
  Proof.
    intros [H1 H2] A Hl. split.
    - intros b' i [Heq|Hin]; [exact (Hl b' i (or_introl Heq))|]. eapply slots_ok_agree; [exact A | exact H1 | exact Hin].
    - intros v e Hv t' A'. apply (H2 v e Hv). eapply agree_open_next; eassumption.
  Qed.

  Definition item_ok (O : list slot) (t : types) (a : str * vent) (b : str * kind) : Prop :=
    fst a = fst b /\ rob O t (fun t' => den_ent g t' (snd a) (snd b)).
  Lemma items_step O t t1 l m : agree O t t1 -> Forall2 (item_ok O t) l m -> Forall2 (item_ok O t1) l m.
  Proof. intros A. apply Forall2_impl. intros a b [H1 H2]. split; [exact H1 | eapply rob_step; eassumption]. Qed.

  Lemma Forall2_snoc {A B} (R : A -> B -> Prop) l m a b : Forall2 R l m -> R a b -> Forall2 R (l ++ [a]) (m ++ [b]).
  Proof. intros H Hab. apply Forall2_app; [exact H | constructor; [exact Hab | constructor]]. Qed.

  (** the items of a finished slot denote the item list of the validator type *)
  Lemma items_refine O t t' (l : list (str * vent)) (m : list (str * kind)) fuel r :
    Forall2 (item_ok O t) l m -> agree O t t' -> map_snd (spec_tree fuel g) l = Some r ->
    exists F, map_snd (unfold F t') m = Some r.
  Proof.
    intros H A E.
    apply (map_snd_refine (fun f => spec_tree f g) (fun f => unfold f t') (mono_unfold t') fuel l m r); [|exact E].
    eapply Forall2_impl; [|exact H]. intros a b [H1 H2]. split; [exact H1 | exact (H2 t' A)].
  Qed.

  Section Bodies.
    Variable E : str -> vent -> cstate -> cres (kind * cstate).
    Hypothesis HE : forall n e, fn_ok (E n e) (fun t' k => den_ent g t' e k).

    Section Loop.
      Context {X : Type}.
      Variables (sl : slot) (mid : str -> vent -> kind -> cstate -> cres cstate) (put : str -> kind -> cstate -> cres cstate)
                (view : types -> option (list (str * kind) * X)).
      Hypothesis Hmid : forall n e k s s', mid n e k s = COk s' -> agree [] (cs_types s) (cs_types s') /\ tables_kept s s'.
      Hypothesis SV : slot_view sl put view.

      Lemma item_loop_ok O : forall l s s' done m x,
        pre (sl :: O) s -> view (cs_types s) = Some (m, x) -> Forall2 (item_ok (sl :: O) (cs_types s)) done m ->
        item_loop E mid put l s = COk s' ->
        agree [sl] (cs_types s) (cs_types s') /\ pre (sl :: O) s' /\
        exists m', view (cs_types s') = Some (m', x) /\ Forall2 (item_ok (sl :: O) (cs_types s')) (done ++ l) m'.
      Proof.
        set (O' := sl :: O).
        induction l as [|[n e] l IH]; intros s s' done m x Hp Hx Hd H; cbn [item_loop] in H.
        - injection H as <-. split; [apply agree_refl|]. split; [exact Hp|]. exists m. rewrite app_nil_r. auto.
        - inv_bind H as [k s1] H1. inv_bind H as s2 H2. inv_bind H as s3 H3.
          destruct (HE n e O' s k s1 Hp H1) as [A1 [P1 D1]].
          destruct (Hmid _ _ _ _ _ H2) as [A2 [C2 _]].
          assert (P2 : pre O' s2) by (eapply pre_step_nil; eassumption).
          pose proof (sv_keep _ _ _ SV _ _ _ A2 (sv_keep _ _ _ SV _ _ _ A1 Hx)) as Hx2.
          destruct (sv_put _ _ _ SV _ _ _ _ H3) as [A3 [[C3 _] [m2 [x2 [Hy [_ Hx3]]]]]]. rewrite Hx2 in Hy. injection Hy as <- <-.
          assert (A3' : agree O' (cs_types s2) (cs_types s3)).
          { eapply agree_weaken; [|exact A3]. intros y [<-|[]]. now left. }
          assert (P3 : pre O' s3) by (eapply pre_step; eassumption).
          pose proof (agree_nil_trans _ _ _ _ A2 A3') as A13.
          pose proof (agree_nil_trans _ _ _ _ A1 A13) as A03.
          assert (Hd3 : Forall2 (item_ok O' (cs_types s3)) (done ++ [(n, e)]) (m ++ [(n, k)])).
          { apply Forall2_snoc; [eapply items_step; eassumption|].
            unfold item_ok. cbn [fst snd]. split; [reflexivity|]. eapply rob_step; [exact A13 | exact D1]. }
          destruct (IH s3 s' (done ++ [(n, e)]) _ x P3 Hx3 Hd3 H) as [A4 [P4 [m4 [Hx4 Hd4]]]].
          split.
          { eapply agree_trans; [|exact A4]. eapply agree_trans; [apply agree_nil; exact A1|].
            exact (agree_nil_trans _ _ _ _ A2 A3). }
          split; [exact P4|]. exists m4. split; [exact Hx4|]. now rewrite <- app_assoc in Hd4.
      Qed.
    End Loop.

    Lemma instance_body_ok name v : fn_ok (instance_body hf g E name v) (fun t' i => den_inst g t' v i).
    Proof.
      intros O s r s' Hp H. unfold instance_body in H.
      destruct (nassoc v (cs_cache s)) as [[[ | | |i0| | ]|]|] eqn:Ec; try discriminate.
      { injection H as <- <-. split; [apply agree_refl|]. split; [assumption|]. exact (proj2 Hp _ _ Ec). }
      destruct (node_of g v) as [[ | |exports| | | ]|] eqn:En; try discriminate.
      unfold add_if in H. inv_bind H as s1 H1. injection H as <- <-. rewrite inst_loop_eq in H1.
      set (me := mkid (t_tag (cs_types s)) (length (t_interfaces (cs_types s)))) in *.
      set (t0 := mktypes _ _ _ _ _ _ _) in H1.
      assert (A0 : agree [] (cs_types s) t0) by apply (agree_add_if (cs_types s) (mkif (iface_id_of name) [] [])).
      assert (P0 : pre ((true, id_idx me) :: O) (with_types s t0)).
      { apply (pre_open true); [exact Hp | exact A0|]. intros b i [E0|[]]. injection E0 as <- <-. unfold t0. cbn [t_interfaces]. rewrite app_length. cbn. lia. }
      assert (G0 : if_view me (cs_types (with_types s t0)) = Some ([], tt)).
      { unfold if_view, get_if, t0, me. cbn [cs_types with_types t_tag t_interfaces]. now rewrite lookup_new. }
      destruct (item_loop_ok _ _ _ _ (own_if_frame hf g v me) (if_slot me) O exports _ s1 [] [] tt P0 G0 (Forall2_nil _) H1) as [A1 [P1 [m1 [V1 Hd1]]]].
      unfold if_view in V1. destruct (get_if (cs_types s1) me) as [x1|] eqn:Hx1; [|discriminate]. injection V1 as <-.
      cbn [app] in Hd1. cbn [cs_types with_types] in A1.
      assert (A01 : agree [] (cs_types s) (cs_types s1)) by exact (agree_open_next true [] _ _ _ A0 A1).
      assert (Hfresh : ~ In (true, id_idx me) O).
      { intro Hin. apply (proj1 Hp) in Hin. cbn [me id_idx] in Hin. lia. }
      assert (DD : rob O (cs_types s1) (fun t' => den_inst g t' v me)).
      { intros t' A' fuel l E0. unfold spec_inst in E0. rewrite En in E0.
        destruct (agree_get_if _ _ _ A' _ _ Hx1 Hfresh) as [x' [Hx' Ex']].
        destruct (items_refine ((true, id_idx me) :: O) (cs_types s1) t' exports (i_exports x1) fuel l Hd1) as [F HF]; [|exact E0|].
        { eapply agree_weaken; [|exact A']. intros y Hy. now right. }
        exists F. unfold unfold_inst. rewrite Hx', Ex'. exact HF. }
      split; [exact A01|]. split; [|exact DD].
      apply pre_put; [|exact DD]. split.
      - eapply slots_ok_agree; [exact A01 | exact (proj1 Hp)].
      - eapply cache_ok_weaken; [|exact (proj2 P1)]. intros y Hy. now right.
    Qed.

    Definition witem_ok (O : list slot) (t : types) := item_ok O t.

    Lemma component_body_ok name v : fn_ok (component_body hf g E name v) (fun t' w => den_comp g t' v w).
    Proof.
      intros O s r s' Hp H. unfold component_body in H.
      destruct (nassoc v (cs_cache s)) as [[[ | | | |w0| ]|]|] eqn:Ec; try discriminate.
      { injection H as <- <-. split; [apply agree_refl|]. split; [assumption|]. exact (proj2 Hp _ _ Ec). }
      destruct (node_of g v) as [[ | | |imports exports| | ]|] eqn:En; try discriminate.
      unfold add_world in H. inv_bind H as s1 H1. inv_bind H as s2 H2. injection H as <- <-.
      rewrite comp_imports_eq in H1. rewrite comp_exports_eq in H2.
      set (me := mkid (t_tag (cs_types s)) (length (t_worlds (cs_types s)))) in *.
      set (t0 := mktypes _ _ _ _ _ _ _) in H1.
      assert (A0 : agree [] (cs_types s) t0) by apply (agree_add_world (cs_types s) (mkworld (iface_id_of name) [] [] [])).
      assert (P0 : pre ((false, id_idx me) :: O) (with_types s t0)).
      { apply (pre_open false); [exact Hp | exact A0|]. intros b i [E0|[]]. injection E0 as <- <-. unfold t0. cbn [t_worlds]. rewrite app_length. cbn. lia. }
      assert (G0 : imports_view me (cs_types (with_types s t0)) = Some ([], [])).
      { unfold imports_view, get_world, t0, me. cbn [cs_types with_types t_tag t_worlds]. now rewrite lookup_new. }
      destruct (item_loop_ok _ _ _ _ (own_world_frame hf g v me) (imports_slot me) O imports _ s1 [] [] [] P0 G0 (Forall2_nil _) H1) as [A1 [P1 [mi [V1 Hd1]]]].
      cbn [app] in Hd1. cbn [cs_types with_types] in A1.
      unfold imports_view in V1. destruct (get_world (cs_types s1) me) as [x1|] eqn:Hx1; [|discriminate]. injection V1 as <- Ee1.
      assert (G1 : exports_view me (cs_types s1) = Some ([], w_imports x1)) by (unfold exports_view; rewrite Hx1; cbn [option_map]; now rewrite Ee1).
      destruct (item_loop_ok _ _ _ _ own_none_frame (exports_slot me) O exports s1 s2 [] [] _ P1 G1 (Forall2_nil _) H2) as [A2 [P2 [me2 [V2 Hd2]]]].
      cbn [app] in Hd2.
      unfold exports_view in V2. destruct (get_world (cs_types s2) me) as [x2|] eqn:Hx2; [|discriminate]. injection V2 as <- Ei2.
      assert (A12 : agree [(false, id_idx me)] t0 (cs_types s2)) by (eapply agree_trans; eassumption).
      assert (A02 : agree [] (cs_types s) (cs_types s2)) by exact (agree_open_next false [] _ _ _ A0 A12).
      assert (Hfresh : ~ In (false, id_idx me) O).
      { intro Hin. apply (proj1 Hp) in Hin. cbn [me id_idx] in Hin. lia. }
      assert (Hd1' : Forall2 (item_ok ((false, id_idx me) :: O) (cs_types s2)) imports (w_imports x2)).
      { rewrite Ei2. eapply items_step; [|exact Hd1]. eapply agree_weaken; [|exact A2]. intros y [<-|[]]. now left. }
      assert (DD : rob O (cs_types s2) (fun t' => den_comp g t' v me)).
      { intros t' A' fuel ie E0. unfold spec_comp in E0. rewrite En in E0.
        destruct (map_snd (spec_tree fuel g) imports) as [li|] eqn:Eli; [|discriminate].
        destruct (map_snd (spec_tree fuel g) exports) as [le|] eqn:Ele; [|discriminate]. injection E0 as <-.
        destruct (agree_get_world _ _ _ A' _ _ Hx2 Hfresh) as [x' [Hx' [Ei' Ee']]].
        assert (Aw : agree ((false, id_idx me) :: O) (cs_types s2) t').
        { eapply agree_weaken; [|exact A']. intros y Hy. now right. }
        destruct (items_refine _ _ t' imports (w_imports x2) fuel li Hd1' Aw Eli) as [F1 HF1].
        destruct (items_refine _ _ t' exports (w_exports x2) fuel le Hd2 Aw Ele) as [F2 HF2].
        exists (Nat.max F1 F2). unfold unfold_comp. rewrite Hx', Ei', Ee'.
        assert (He1 : ext_some (unfold F1 t') (unfold (Nat.max F1 F2) t')) by (intros a b; apply unfold_mono; apply Nat.le_max_l).
        assert (He2 : ext_some (unfold F2 t') (unfold (Nat.max F1 F2) t')) by (intros a b; apply unfold_mono; apply Nat.le_max_r).
        now rewrite (map_snd_ext _ _ _ _ He1 HF1), (map_snd_ext _ _ _ _ He2 HF2). }
      split; [exact A02|]. split; [|exact DD].
      apply pre_put; [|exact DD]. split.
      - eapply slots_ok_agree; [exact A02 | exact (proj1 Hp)].
      - eapply cache_ok_weaken; [|exact (proj2 P2)]. intros y Hy. now right.
    Qed.

    Lemma fn_ok_map {A B} (F : cstate -> cres (A * cstate)) (K : A -> B) (D : types -> A -> Prop) (D' : types -> B -> Prop) :
      fn_ok F D -> (forall t' a, D t' a -> D' t' (K a)) -> fn_ok (fun s => '(x, s1) <- F s ;; COk (K x, s1)) D'.
    Proof.
      intros HF HD O s r s' Hp H. inv_bind H as [x s1] H1. injection H as <- <-.
      destruct (HF O s x s1 Hp H1) as [A1 [P1 D1]]. split; [exact A1|]. split; [exact P1|]. intros t' A'. apply HD, D1, A'.
    Qed.

    Lemma den_ent_intro {Y} (C : Y -> tree) (sp : nat -> option Y) (un : nat -> option Y) t e k :
      (forall f, spec_tree_body (spec_tree f g) (S f) g e = option_map C (sp f)) ->
      (forall F, unfold_body (unfold F t) (S F) t k = option_map C (un F)) ->
      (forall f y, sp f = Some y -> exists F, un F = Some y) -> den_ent g t e k.
    Proof.
      intros Hs Hu H [|f] tr E0; [discriminate|]. cbn [spec_tree] in E0. rewrite Hs in E0.
      destruct (sp f) as [y|] eqn:Ey; [|discriminate]. destruct (H f y Ey) as [F HF]. exists (S F). now rewrite unfold_eq, Hu, HF.
    Qed.
    Lemma den_val_S t v x fuel y : den_val g t v x -> spec_vt fuel g v = Some y -> exists F, unfold_vt (S F) t x = Some y.
    Proof. intros D E0. destruct (D _ _ E0) as [F HF]. exists F. exact (unfold_vt_mono F (S F) _ _ _ (Nat.le_succ_diag_r F) HF). Qed.
    Lemma den_func_S t v i fuel y : den_func g t v i -> spec_ft fuel g v = Some y -> exists F, unfold_func (S F) t i = Some y.
    Proof. intros D E0. destruct (D _ _ E0) as [F HF]. exists F. exact (unfold_func_mono F (S F) _ _ _ (Nat.le_succ_diag_r F) HF). Qed.

    Lemma entity_body_ok n e : fn_ok (entity_body hf g E n e) (fun t' k => den_ent g t' e k).
    Proof.
      destruct e as [m|v|v|rf cr|i|c].
      - refine (fn_ok_map (c_module g m) KModule _ _ (c_module_ok g m) _). intros t x D.
        apply (den_ent_intro XMod (fun _ => spec_mod g m) (fun _ => get_mod t x)); try reflexivity. intros _ y Ey. exists 0%nat. exact (D y Ey).
      - refine (fn_ok_map (c_func hf g v) KFunc _ _ (c_func_ok g hf v) _). intros t x D.
        apply (den_ent_intro XFunc (fun f => spec_ft (S f) g v) (fun F => unfold_func (S F) t x)); try reflexivity. intros f y. now apply den_func_S.
      - refine (fn_ok_map (c_val hf g v) KValue _ _ (c_val_ok g hf v) _). intros t x D.
        apply (den_ent_intro XValue (fun f => spec_vt (S f) g v) (fun F => unfold_vt (S F) t x)); try reflexivity. intros f y. now apply den_val_S.
      - refine (fn_ok_map (ty_body hf g E n cr) KType (fun t y => den_ent g t (EType rf cr) (KType y)) _ _ (fun _ _ D => D)).
        unfold ty_body. destruct (node_of g cr) as [[d|a ps r0|ex|im ex|rid|mm]|] eqn:En; try (intros O s r s' _ H; discriminate).
        + refine (fn_ok_map (c_defined hf g cr) TValue _ _ (c_defined_ok g hf cr) _). intros t x D.
          apply (den_ent_intro XTValue (fun f => spec_vt (S f) g (WRef cr)) (fun F => unfold_vt (S F) t x)); try reflexivity.
          * intro f. cbn [spec_tree_body]. now rewrite En.
          * intros f y. now apply den_val_S.
        + refine (fn_ok_map (c_func hf g cr) TFunc _ _ (c_func_ok g hf cr) _). intros t x D.
          apply (den_ent_intro XTFunc (fun f => spec_ft (S f) g cr) (fun F => unfold_func (S F) t x)); try reflexivity.
          * intro f. cbn [spec_tree_body]. now rewrite En.
          * intros f y. now apply den_func_S.
        + refine (fn_ok_map (instance_body hf g E None cr) TInterface _ _ (instance_body_ok None cr) _). intros t x D.
          apply (den_ent_intro XTInst (fun f => spec_inst (spec_tree f g) g cr) (fun F => unfold_inst (unfold F t) t x)); try reflexivity.
          * intro f. cbn [spec_tree_body]. now rewrite En.
          * intros f y. apply D.
        + refine (fn_ok_map (component_body hf g E None cr) TWorld _ _ (component_body_ok None cr) _). intros t x D.
          apply (den_ent_intro (fun ie => XTComp (fst ie) (snd ie)) (fun f => spec_comp (spec_tree f g) g cr) (fun F => unfold_comp (unfold F t) t x));
            try reflexivity.
          * intro f. cbn [spec_tree_body]. now rewrite En.
          * intros f y. apply D.
        + refine (fn_ok_map (c_resource hf g n cr) TResource _ _ (c_resource_ok g hf n cr) _). intros t x _ [|f] tr E0; [discriminate|].
          cbn [spec_tree spec_tree_body] in E0. rewrite En in E0. discriminate.
      - refine (fn_ok_map (instance_body hf g E (Some n) i) KInstance _ _ (instance_body_ok (Some n) i) _). intros t x D.
        apply (den_ent_intro XInst (fun f => spec_inst (spec_tree f g) g i) (fun F => unfold_inst (unfold F t) t x)); try reflexivity. intros f y. apply D.
      - refine (fn_ok_map (component_body hf g E (Some n) c) KComponent _ _ (component_body_ok (Some n) c) _). intros t x D.
        apply (den_ent_intro (fun ie => XComp (fst ie) (snd ie)) (fun f => spec_comp (spec_tree f g) g c) (fun F => unfold_comp (unfold F t) t x));
          try reflexivity. intros f y. apply D.
    Qed.
  End Bodies.

  Lemma c_entity_ok : forall fuel n e, fn_ok (c_entity hf fuel g n e) (fun t' k => den_ent g t' e k).
  Proof.
    induction fuel as [|f IH]; intros n e; [intros O s r s' _ H; discriminate|].
    cbn [c_entity]. apply entity_body_ok. exact IH.
  Qed.

  Lemma collect_ok fuel : forall l acc s m s' done,
    NoDup (map fst l) -> (forall n, In n (map fst l) -> ~ In n (map fst acc)) ->
    pre [] s -> Forall2 (item_ok [] (cs_types s)) done acc ->
    collect (c_entity hf fuel g) l acc s = COk (m, s') ->
    agree [] (cs_types s) (cs_types s') /\ pre [] s' /\ Forall2 (item_ok [] (cs_types s')) (done ++ l) m.
  Proof.
    induction l as [|[n e] l IH]; intros acc s m s' done Hnd Hfresh Hp Hd H; cbn [collect] in H.
    - injection H as <- <-. split; [apply agree_refl|]. split; [exact Hp|]. now rewrite app_nil_r.
    - inv_bind H as [k s1] H1. cbn [map fst] in Hnd, Hfresh. inversion Hnd as [|? ? Hn Hnd']; subst.
      rewrite imap_insert_fresh in H by (apply Hfresh; now left).
      destruct (c_entity_ok fuel n e [] s k s1 Hp H1) as [A1 [P1 D1]].
      apply (IH _ _ _ _ (done ++ [(n, e)])) in H; [| exact Hnd' | | exact P1 |].
      + destruct H as [A2 [P2 D2]]. split; [eapply agree_trans; eassumption|]. split; [exact P2|].
        now rewrite <- app_assoc in D2.
      + intros x Hx. rewrite map_app, in_app_iff. cbn [map fst In]. intros [Hin|[<-|[]]]; [|contradiction].
        eapply Hfresh; [right; eassumption | assumption].
      + apply Forall2_snoc; [eapply items_step; [apply agree_nil; exact A1 | exact Hd]|]. unfold item_ok. cbn [fst snd]. split; [reflexivity | exact D1].
  Qed.

  Theorem tree_faithful_holds fuel t0 p t :
    NoDup (map fst (vg_imports g)) -> NoDup (map fst (vg_exports g)) ->
    from_graph hf fuel g t0 = COk (p, t) ->
    exists w, get_world t (pk_ty p) = Some w /\
      Forall2 (fun a b => fst a = fst b /\ tree_faithful g t (snd a) (snd b)) (vg_imports g) (w_imports w) /\
      Forall2 (fun a b => fst a = fst b /\ tree_faithful g t (snd a) (snd b)) (vg_exports g) (w_exports w).
  Proof.
    intros Hi He H. unfold from_graph in H. inv_bind H as [[imports exports] s2] Hc. unfold conv_items in Hc.
    inv_bind Hc as [imports' s1] H1. inv_bind Hc as [exports' s2'] H2. injection Hc as -> -> ->.
    assert (P0 : pre [] (cs_init t0)).
    { split; [intros b i []|]. intros v e Hv. discriminate. }
    destruct (collect_ok fuel _ [] _ _ _ [] Hi (fun _ _ F => F) P0 (Forall2_nil _) H1) as [A1 [P1 D1]].
    destruct (collect_ok fuel _ [] _ _ _ [] He (fun _ _ F => F) P1 (Forall2_nil _) H2) as [A2 [P2 D2]].
    cbn [app] in D1, D2. unfold add_world, add_if in H. cbn [t_tag t_worlds t_interfaces] in H.
    set (W := mkworld None [] imports exports) in *.
    match type of H with match ?X with _ => _ end = _ => assert (EW : X = Some W) end.
    { unfold get_world. cbn [t_tag t_worlds]. apply lookup_new. }
    rewrite EW in H. cbn [w_exports W] in H.
    destruct (find_definitions _ _ exports []) as [defs|]; [|discriminate].
    injection H as <- <-. cbn [pk_ty]. exists W. split; [exact EW|].
    match type of EW with get_world ?T _ = _ => set (tf := T) in * end.
    assert (Af : agree [] (cs_types s2) tf).
    { eapply agree_trans; [apply (agree_add_world (cs_types s2) W)|].
      apply (agree_add_if (snd (add_world (cs_types s2) W)) (mkif None [] exports)). }
    split.
    - eapply Forall2_impl; [|exact D1]. intros a b [Hn Hd]. split; [exact Hn|]. apply Hd.
      eapply agree_trans; eassumption.
    - eapply Forall2_impl; [|exact D2]. intros a b [Hn Hd]. split; [exact Hn|]. now apply Hd.
  Qed.
End Entity.

Lemma lists_exactly_b_sound g t p : lists_exactly_b g t p = true -> lists_exactly g t p.
Proof.
  unfold lists_exactly_b, lists_exactly.
  destruct (get_world t (pk_ty p)) as [w|]; [|discriminate]. destruct (get_if t (pk_instance p)) as [i|]; [|discriminate].
  intro H. apply andb_prop in H as [H H3]. apply andb_prop in H as [H1 H2].
  exists w, i. repeat split; try (apply items_agree_b_sound; assumption).
  unfold kitems_eqb in H3. apply (listeqb_eq _) in H3; [exact H3|].
  intros [n1 k1] [n2 k2]. cbn [fst snd]. split.
  - intro E. apply andb_prop in E as [E1 E2]. apply str_eqb_eq in E1. apply kindeqb_eq in E2. congruence.
  - intro E. injection E as -> ->. rewrite str_eqb_refl. cbn. now apply kindeqb_eq.
Qed.

