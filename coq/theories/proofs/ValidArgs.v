(** Argument edges are checked: in every reachable state an [EArg i] edge runs from a live node whose
    kind was accepted by the subtype oracle for the [i]-th import of the package of its (live) target.
    The frame [OpFrame u s s'] of one API operation, with one lemma per operation, carries the invariant across. *)
From Coq Require Import List Arith Bool NArith Lia.
From WacV Require Import Graph GraphInv GraphPrims GraphSteps GraphRemove GraphUnreg GraphTheorems GraphLive GraphAcyclic GraphRank GraphAlias GraphFrame.
Import ListNotations.

Definition ArgsChecked (u : universe) (s : gstate) : Prop :=
  forall e i, In e (edges s) -> ek e = EArg i ->
    exists sn tn imps nm k,
      get_node s (esrc e) = Some sn /\ get_node s (etgt e) = Some tn /\
      inst_imports u s tn = Some imps /\ nth_error imps i = Some (nm, k) /\
      u_sub u (nitem sn) k = true.

(** the body of [ArgsChecked] for one edge *)
Definition ArgOK (u : universe) (s : gstate) (e : edge) (i : nat) : Prop :=
  exists sn tn imps nm k,
    get_node s (esrc e) = Some sn /\ get_node s (etgt e) = Some tn /\
    inst_imports u s tn = Some imps /\ nth_error imps i = Some (nm, k) /\
    u_sub u (nitem sn) k = true.

Lemma ArgsChecked_ArgOK u s : ArgsChecked u s <-> (forall e i, In e (edges s) -> ek e = EArg i -> ArgOK u s e i).
Proof. reflexivity. Qed.

Lemma args_checked_empty : forall u, ArgsChecked u empty_graph.
Proof. intros u e i []. Qed.

Lemma inst_imports_eq u s s' a b :
  npkg b = npkg a -> (forall id, npkg a = Some id -> get_pkg s' id = get_pkg s id) ->
  inst_imports u s' b = inst_imports u s a.
Proof.
  intros P H. unfold inst_imports, pkg_desc. rewrite P. destruct (npkg a) as [id|]; auto.
  now rewrite (H id eq_refl).
Qed.

(** what a newly created node must look like *)
Definition newok (u : universe) (s : gstate) (b : node) : Prop :=
  match nk b with
  | NInst _ => exists id pd, npkg b = Some id /\ pkg_desc u s id = Some pd /\ nitem b = pd_inst pd
  | NDef => (exists t td, nth_error (u_tys u) t = Some td /\ nitem b = td_kind td) /\ nexport b <> None
  | _ => True
  end.

(** a surviving node keeps item, package and kind class, and a definition keeps an export name *)
Definition nrel4 (a b : node) : Prop :=
  nrel3 a b /\ (nk a = NDef -> nexport a <> None -> nexport b <> None).

Lemma nrel4_refl a : nrel4 a a.
Proof. split; [apply nrel3_refl|auto]. Qed.

Lemma nrel5_nrel4 a b : nrel5 a b -> nrel4 a b.
Proof. intros (A1 & A2 & A3 & A4 & A5). split; [repeat split; auto|]. intros _ H. now rewrite A4. Qed.

(** the occupied slots of the package table hold distinct packages *)
Definition PInjS (s : gstate) : Prop :=
  forall id1 id2 p, get_pkg s id1 = Some p -> get_pkg s id2 = Some p -> id1 = id2.

(** what one operation does to the nodes, the argument edges and the package table; [ArgsChecked] here and
    [ValidEncInv.KindInv] are both carried across such a frame *)
Record OpFrame (u : universe) (s s' : gstate) : Prop := {
  of_old : forall m a b, get_node s m = Some a -> get_node s' m = Some b -> nrel4 a b;
  of_new : forall m b, get_node s m = None -> get_node s' m = Some b -> newok u s b;
  of_pkgs : forall m b id, get_node s' m = Some b -> npkg b = Some id -> get_pkg s' id = get_pkg s id;
  of_inj : PInjS s -> PInjS s';
  of_args : forall e i, ek e = EArg i -> In e (edges s') -> In e (edges s) \/ ArgOK u s' e i }.

(** with the package table untouched the two clauses about it hold *)
Lemma pkgs_eq_frame s s' : pkgs s' = pkgs s ->
  (forall m (b : node) id, get_node s' m = Some b -> npkg b = Some id -> get_pkg s' id = get_pkg s id) /\ (PInjS s -> PInjS s').
Proof.
  intros Hp. assert (E : forall id, get_pkg s' id = get_pkg s id) by (intros id; unfold get_pkg; now rewrite Hp).
  split; [auto|]. intros J id1 id2 p. rewrite !E. apply J.
Qed.

Lemma OpFrame_refl u s : OpFrame u s s.
Proof.
  constructor; auto.
  - intros m a b G1 G2. rewrite G1 in G2. injection G2 as <-. apply nrel4_refl.
  - intros m b G1 G2. congruence.
Qed.

Lemma OpFrame_set_node u s s' n nd nd' :
  get_node s n = Some nd -> nrel4 nd nd' -> nodes s' = set_nth (nodes s) n (Some nd') -> pkgs s' = pkgs s ->
  (forall e i, ek e = EArg i -> In e (edges s') -> In e (edges s) \/ ArgOK u s' e i) -> OpFrame u s s'.
Proof.
  intros G R Hn Hp He. rewrite get_node_getn in G. destruct (pkgs_eq_frame s s' Hp) as [Hw Hj]. constructor; auto.
  - intros m a b G1 G2. rewrite get_node_getn in *. rewrite Hn in G2. erewrite getn_set_live in G2 by eauto.
    destruct (Nat.eqb_spec m n) as [->|_]; [congruence|]. rewrite G1 in G2. injection G2 as <-. apply nrel4_refl.
  - intros m b G1 G2. rewrite get_node_getn in *. rewrite Hn in G2. erewrite getn_set_live in G2 by eauto.
    destruct (Nat.eqb_spec m n) as [->|_]; congruence.
Qed.

Lemma OpFrame_add_node u s nd s1 idx s' :
  InvC u s -> add_node s nd = (s1, idx) -> newok u s nd -> nodes s' = nodes s1 -> pkgs s' = pkgs s1 ->
  (forall e i, ek e = EArg i -> In e (edges s') -> In e (edges s1)) -> OpFrame u s s'.
Proof.
  intros HI A K Hn Hp He. apply add_node_spec in A as ([Fd Fu] & _ & E1 & _ & _ & _ & Pk & _); [|apply HI].
  destruct (pkgs_eq_frame s s' (eq_trans Hp Pk)) as [Hw Hj]. constructor; auto.
  - intros m a b G1 G2. rewrite get_node_getn in *. rewrite Hn, Fu in G2.
    destruct (Nat.eqb_spec m idx) as [->|_]; [congruence|]. rewrite G1 in G2. injection G2 as <-. apply nrel4_refl.
  - intros m b G1 G2. rewrite get_node_getn in *. rewrite Hn, Fu in G2.
    destruct (Nat.eqb_spec m idx) as [->|_]; congruence.
  - intros e i Ke H. left. rewrite <- E1. eauto.
Qed.

Lemma import_frame u s nm k : InvC u s -> OpFrame u s (fst (import_ u s nm k)).
Proof.
  intros HI. destruct (import_spec u s nm k) as [->|(kd & s1 & idx & _ & A & ->)]; [apply OpFrame_refl|].
  eapply OpFrame_add_node; eauto; cbn; auto.
Qed.

Lemma instantiate_frame u s id : InvC u s -> OpFrame u s (fst (instantiate u s id)).
Proof.
  intros HI. destruct (instantiate_spec u s id) as [->|(pd & s1 & idx & Pd & A & ->)]; [apply OpFrame_refl|].
  eapply OpFrame_add_node; eauto; cbn; eauto.
Qed.

Lemma alias_frame u s n e : InvC u s -> OpFrame u s (fst (alias u s n e)).
Proof.
  intros HI. destruct (alias_spec u s n e) as [->|(nd & ex & index & kind & s1 & idx & _ & _ & _ & A & ->)]; [apply OpFrame_refl|].
  eapply OpFrame_add_node; eauto; cbn; auto.
  intros x i Kx [<-|H]; [discriminate|exact H].
Qed.

Lemma set_name_frame u s n nm : OpFrame u s (fst (set_name s n nm)).
Proof.
  destruct (set_name_spec s n nm) as [->|(nd & G & ->)]; [apply OpFrame_refl|].
  eapply OpFrame_set_node; [exact G| |reflexivity|reflexivity|auto]. split; [repeat split; apply kclass_refl|auto].
Qed.

Lemma export_frame u s n e : OpFrame u s (fst (export_ u s n e)).
Proof.
  destruct (export_spec u s n e) as [->|(nd & G & _ & ->)]; [apply OpFrame_refl|].
  eapply OpFrame_set_node; [exact G| |reflexivity|reflexivity|auto]. split; [repeat split; apply kclass_refl|].
  cbn. discriminate.
Qed.

(** only a node that is not a definition loses its export name *)
Lemma unexport_frame u s n : OpFrame u s (fst (unexport s n)).
Proof.
  destruct (unexport_spec s n) as [->|(nd & ex & G & K & _ & ->)]; [apply OpFrame_refl|].
  eapply OpFrame_set_node; [exact G| |reflexivity|reflexivity|auto]. split; [repeat split; apply kclass_refl|].
  intros Kd. now contradiction K.
Qed.

(** the one new edge of [set_arg] passed the oracle *)
Lemma set_arg_frame u s inst a arg : OpFrame u s (fst (set_arg u s inst a arg)).
Proof.
  unfold set_arg. destruct (get_node s inst) as [nd|] eqn:G; [|apply OpFrame_refl].
  destruct (nk nd) eqn:K; try apply OpFrame_refl.
  destruct (inst_imports u s nd) as [imps|] eqn:II; [|apply OpFrame_refl].
  destruct (get_full imps a 0) as [[index expected]|] eqn:Gf; [|apply OpFrame_refl].
  destruct (scan_incoming _ index arg); try apply OpFrame_refl.
  destruct (get_node s arg) as [an|] eqn:Ga; [|apply OpFrame_refl].
  destruct (u_sub u (nitem an) expected) eqn:Sub; cbn [negb]; [|apply OpFrame_refl].
  destruct (add_satisfied _ inst index) as [[s2|]|] eqn:AS; try apply OpFrame_refl. cbn [fst].
  unfold add_satisfied in AS. change (get_node (add_edge s _) inst) with (get_node s inst) in AS.
  rewrite G, K in AS. destruct (existsb _ sat); [discriminate|]. injection AS as <-.
  match goal with |- OpFrame u s (set_node ?s1 inst (Some ?x)) => set (nd' := x) in *; set (s2 := set_node s1 inst (Some x)) in * end.
  eapply OpFrame_set_node; [exact G| |reflexivity|reflexivity|].
  - split; [repeat split; cbn; now rewrite K|intros; congruence].
  - intros e i Ke [<-|He]; [right|left; exact He]. cbn [ek] in Ke. injection Ke as <-. unfold ArgOK. cbn [esrc etgt].
    assert (Hg : forall m, get_node s2 m = if m =? inst then Some nd' else get_node s m).
    { intros m. rewrite !get_node_getn. unfold s2. cbn [set_node add_edge nodes].
      rewrite get_node_getn in G. now erewrite getn_set_live by eauto. }
    apply get_full_nth in Gf as [_ Gf]. rewrite Nat.sub_0_r in Gf.
    assert (IIs : inst_imports u s2 nd' = Some imps) by (rewrite <- II; apply inst_imports_eq; reflexivity).
    destruct (Nat.eqb_spec arg inst) as [->|Hne].
    + rewrite G in Ga. injection Ga as <-.
      exists nd', nd', imps, a, expected. rewrite !Hg, Nat.eqb_refl. repeat split; auto.
    + exists an, nd', imps, a, expected. rewrite !Hg, Nat.eqb_refl. apply Nat.eqb_neq in Hne. rewrite Hne.
      repeat split; auto.
Qed.

Lemma unset_arg_frame u s inst a arg : OpFrame u s (fst (unset_arg u s inst a arg)).
Proof.
  destruct (unset_arg_spec u s inst a arg) as [->|(nd & sat & index & G & K & ->)]; [apply OpFrame_refl|].
  eapply OpFrame_set_node; [exact G| |reflexivity|reflexivity|].
  - split; [repeat split; cbn; now rewrite K|intros; congruence].
  - intros e i _ H. left. revert H. cbn. apply remove_first_In.
Qed.

(** the edges [define_type] adds are dependency edges *)
Lemma define_type_frame u s nm t : InvC u s -> OpFrame u s (fst (define_type u s nm t)).
Proof.
  intros HI. destruct (define_type_spec u s nm t) as [->|(td & s1 & idx & new & T & _ & _ & A & Hn & ->)]; [apply OpFrame_refl|].
  eapply OpFrame_add_node; eauto; cbn; [split; [eauto|discriminate]|].
  intros e i Ke H. apply in_app_or in H as [H|H]; [|exact H]. apply Hn in H as [Kd _]. congruence.
Qed.

Lemma remove_node_frame u s n : Inv u s -> OpFrame u s (fst (remove_node s n)).
Proof.
  intros HI. destruct (remove_node_cases s n) as [->|R]; [apply OpFrame_refl|]. set (s' := fst (remove_node s n)) in *.
  pose proof (remove_frame u s n s' HI R) as [L Nd F3 _ _ _ Pk]. destruct (pkgs_eq_frame s s' Pk) as [Hw Hj]. constructor; auto.
  - intros m a b G1 G2. assert (Lm : live s' m = true) by (unfold live; now rewrite G2).
    specialize (Nd m Lm). rewrite G1, G2 in Nd. now apply nrel5_nrel4.
  - intros m b G1 G2. assert (Lm : live s' m = true) by (unfold live; now rewrite G2).
    apply L in Lm. unfold live in Lm. rewrite G1 in Lm. discriminate.
  - intros e i _ He. left. now apply F3 in He.
Qed.

Definition PInj (pk : list pslot) : Prop :=
  forall i j si sj p, nth_error pk i = Some si -> nth_error pk j = Some sj ->
    ps_pkg si = Some p -> ps_pkg sj = Some p -> i = j.

Lemma PInjS_iff s : PInjS s <-> PInj (pkgs s).
Proof.
  split.
  - intros H i j si sj p Hi Hj Pi Pj. specialize (H (i, ps_gen si) (j, ps_gen sj) p). unfold get_pkg in H.
    cbn [fst snd] in H. rewrite Hi, Hj, !Nat.eqb_refl in H. specialize (H Pi Pj). now injection H.
  - intros H [i g] [j h] p. unfold get_pkg. cbn [fst snd].
    destruct (nth_error (pkgs s) i) as [si|] eqn:Hi; [|discriminate].
    destruct (nth_error (pkgs s) j) as [sj|] eqn:Hj; [|discriminate].
    destruct (Nat.eqb_spec (ps_gen si) g) as [Eg|_]; [|discriminate].
    destruct (Nat.eqb_spec (ps_gen sj) h) as [Eh|_]; [|discriminate].
    intros Pi Pj. assert (E : i = j) by (eapply H; eauto). subst j. rewrite Hi in Hj. injection Hj as <-. congruence.
Qed.

Lemma PInj_update pk pk' i :
  PInj pk -> (forall j, j <> i -> nth_error pk' j = nth_error pk j) ->
  (forall x p, nth_error pk' i = Some x -> ps_pkg x = Some p ->
     forall j sl, nth_error pk j = Some sl -> ps_pkg sl <> Some p) ->
  PInj pk'.
Proof.
  intros H Ho Hi a b sa sb p Ha Hb Pa Pb.
  destruct (Nat.eq_dec a i) as [->|Na], (Nat.eq_dec b i) as [->|Nb]; auto.
  - exfalso. rewrite (Ho b Nb) in Hb. exact (Hi sa p Ha Pa b sb Hb Pb).
  - exfalso. rewrite (Ho a Na) in Ha. exact (Hi sb p Hb Pb a sa Ha Pa).
  - rewrite (Ho a Na) in Ha. rewrite (Ho b Nb) in Hb. exact (H a b sa sb p Ha Hb Pa Pb).
Qed.

Lemma find_pkg_slot_None s p :
  find_pkg_slot s p = None -> forall i sl, nth_error (pkgs s) i = Some sl -> ps_pkg sl <> Some p.
Proof.
  unfold find_pkg_slot. generalize 0 as a. induction (pkgs s) as [|x l IH]; intros a H i sl Hn.
  - destruct i; discriminate.
  - cbn in H. destruct i; cbn in Hn.
    + injection Hn as ->. destruct (ps_pkg sl) as [q|]; [|discriminate].
      destruct (Nat.eqb_spec q p); [discriminate|congruence].
    + refine (IH (S a) _ i sl Hn). destruct (ps_pkg x) as [q|]; auto. destruct (q =? p); [discriminate|auto].
Qed.

Lemma nth_error_snoc_other {A} (l : list A) x j : j <> length l -> nth_error (l ++ [x]) j = nth_error l j.
Proof.
  intros H. destruct (Nat.lt_ge_cases j (length l)) as [L|L]; [now apply nth_error_app1|].
  rewrite nth_error_app2 by lia. destruct (j - length l) as [|k] eqn:E; [lia|]. cbn.
  assert (nth_error l j = None) as -> by (apply nth_error_None; lia). now destruct k.
Qed.

(** [register]: the slot of a live package is neither the appended nor a free slot *)
Lemma register_frame u s p : Inv u s -> OpFrame u s (fst (register u s p)).
Proof.
  intros HI. unfold register. destruct (find_pkg_slot s p) eqn:F; [apply OpFrame_refl|].
  pose proof (find_pkg_slot_None s p F) as Fn.
  assert (Gen : forall s', nodes s' = nodes s -> edges s' = edges s ->
                (forall id q, get_pkg s id = Some q -> get_pkg s' id = Some q) ->
                (PInj (pkgs s) -> PInj (pkgs s')) -> OpFrame u s s').
  { intros s' Hn He Hg Hj. constructor.
    - intros m a b G1 G2. unfold get_node in *. rewrite Hn in G2. rewrite G1 in G2. injection G2 as <-. apply nrel4_refl.
    - intros m b G1 G2. unfold get_node in *. rewrite Hn in G2. congruence.
    - intros m b id G Np. unfold get_node in G. rewrite Hn in G.
      destruct (inv_pkg_live _ _ HI m b id G Np) as [q Q]. rewrite Q. now apply Hg.
    - intros J. apply PInjS_iff, Hj. now apply PInjS_iff.
    - intros e i _. rewrite He. auto. }
  destruct (free_pkgs s) as [|i fp] eqn:Fp.
  - cbn [fst]. apply Gen; [reflexivity|reflexivity| |].
    + intros id q. rewrite !get_pkg_l_eq. cbn [with_pkgs pkgs]. apply get_pkg_l_app.
    + intros J. cbn [with_pkgs pkgs]. apply PInj_update with (pk := pkgs s) (i := length (pkgs s)); [exact J| |].
      * intros j Hj. now apply nth_error_snoc_other.
      * intros x q Hx Px j sl Hsl. rewrite nth_error_app2, Nat.sub_diag in Hx by lia. cbn in Hx.
        injection Hx as <-. cbn in Px. injection Px as <-. now apply (Fn j sl).
  - destruct (nth_error (pkgs s) i) as [sl|] eqn:Sl; [|apply OpFrame_refl]. cbn [fst]. apply Gen; [reflexivity|reflexivity| |].
    + intros id q Q. rewrite get_pkg_l_eq in *. cbn [with_pkgs pkgs]. rewrite get_pkg_l_set_other; auto. intros E.
      destruct (inv_free_pkgs _ _ HI i) as [sl' [Sl' N]]; [rewrite Fp; now left|].
      unfold get_pkg_l in Q. rewrite E, Sl' in Q. destruct (ps_gen sl' =? snd id); congruence.
    + intros J. cbn [with_pkgs pkgs]. apply PInj_update with (pk := pkgs s) (i := i); [exact J| |].
      * intros j Hj. rewrite nth_error_set_nth. apply Nat.eqb_neq in Hj. now rewrite Hj.
      * intros x q Hx Px j sl0 Hsl. rewrite nth_error_set_nth, Nat.eqb_refl in Hx.
        destruct (i <? length (pkgs s)); [|discriminate]. injection Hx as <-. cbn in Px. injection Px as <-.
        now apply (Fn j sl0).
Qed.

(** [unregister]: the nodes that survive do not instantiate the package that goes *)
Lemma unregister_opframe u s id : Inv u s -> OpFrame u s (fst (unregister s id)).
Proof.
  intros HI. destruct (unregister_cases s id) as [->|R]; [apply OpFrame_refl|]. set (s' := fst (unregister s id)) in *.
  destruct (unregister_frame s id s' R) as (Lv & Nd & F3 & _ & _ & _ & Pk).
  destruct (unregister_unit s id s' R) as (sl & s2 & Sl & Gen & _ & _ & _ & _ & _ & Es).
  pose proof (f_equal pkgs Es) as Ps. cbn [with_pkgs pkgs] in Ps.
  constructor.
  - intros m a b G1 G2. assert (Lm : live s' m = true) by (unfold live; now rewrite G2).
    specialize (Nd m Lm). rewrite G1, G2 in Nd. now apply nrel5_nrel4.
  - intros m b G1 G2. assert (Lm : live s' m = true) by (unfold live; now rewrite G2).
    apply Lv in Lm as [Lm _]. unfold live in Lm. rewrite G1 in Lm. discriminate.
  - intros m b id' G2 Np. apply Pk. intros E.
    assert (Lm : live s' m = true) by (unfold live; now rewrite G2).
    pose proof (Nd m Lm) as Nm. apply Lv in Lm as [Lm Npi]. apply live_get in Lm as [a Ga].
    rewrite Ga, G2 in Nm. destruct Nm as (_ & P1 & _).
    assert (Na : npkg a = Some id') by congruence.
    destruct (inv_pkg_live _ _ HI m a id' Ga Na) as [q Q]. unfold get_pkg in Q. rewrite E, Sl in Q.
    destruct (Nat.eqb_spec (ps_gen sl) (snd id')) as [Eg|_]; [|discriminate].
    assert (id' = id) by (destruct id, id'; cbn in *; congruence). subst id'.
    unfold node_pkg_is in Npi. rewrite Ga in Npi.
    assert (pkg_eqb (npkg a) (Some id) = true) by (now apply pkg_eqb_true). congruence.
  - intros J. apply PInjS_iff. rewrite Ps. apply PInj_update with (pk := pkgs s) (i := fst id).
    + now apply PInjS_iff.
    + intros j Hj. rewrite nth_error_set_nth. apply Nat.eqb_neq in Hj. now rewrite Hj.
    + intros x q Hx Px. rewrite nth_error_set_nth, Nat.eqb_refl in Hx.
      destruct (fst id <? length (pkgs s)); [|discriminate]. injection Hx as <-. discriminate Px.
  - intros e i _ He. left. now apply F3 in He.
Qed.

Lemma step_frame u s o : Inv u s -> OpFrame u s (fst (step u s o)).
Proof.
  intros HI. pose proof (proj1 (Inv_iff u s) HI) as HC.
  destruct o; cbn [step];
    auto using register_frame, unregister_opframe, define_type_frame, import_frame, instantiate_frame, alias_frame,
               set_arg_frame, unset_arg_frame, export_frame, unexport_frame, set_name_frame, remove_node_frame.
Qed.

(** an old edge stays checked: its ends survive with their items and packages, and the package of the target keeps its entry *)
Lemma Args_frame u s s' : ArgsChecked u s -> OpFrame u s s' -> InvC u s' -> ArgsChecked u s'.
Proof.
  intros A [D1 _ D3 _ D2] HI e i He K. change (ArgOK u s' e i).
  destruct (D2 e i K He) as [Ho|Hn]; [|exact Hn].
  destruct (eo_live _ _ (ic_edge _ _ HI) e He) as [L1 L2]. rewrite <- live_liveb in L1, L2.
  apply live_get in L1 as [sn' L1]. apply live_get in L2 as [tn' L2].
  destruct (A e i Ho K) as (sn & tn & imps & nm & k & G1 & G2 & II & N & S).
  destruct (D1 _ _ _ G1 L1) as [(I1 & _) _]. destruct (D1 _ _ _ G2 L2) as [(_ & P2 & _) _].
  exists sn', tn', imps, nm, k. split; [exact L1|split; [exact L2|split; [|split; [exact N|]]]].
  - rewrite <- II. apply inst_imports_eq; auto. intros id Np. apply (D3 _ tn' id L2). congruence.
  - now rewrite I1.
Qed.

Lemma step_args_checked : forall u s o, Inv u s -> ArgsChecked u s -> ArgsChecked u (fst (step u s o)).
Proof.
  intros u s o HI HA. exact (Args_frame _ _ _ HA (step_frame u s o HI) (step_invC u s o (proj1 (Inv_iff u s) HI))).
Qed.

Lemma reach_args_checked : forall u ops, ArgsChecked u (run u ops).
Proof.
  intros u ops. induction ops as [|o ops IH] using rev_ind; [apply args_checked_empty|].
  rewrite run_app. apply step_args_checked; auto. apply reach_inv.
Qed.

(** corollary used by C01: the index of an argument edge is in range *)
Lemma arg_index_in_range : forall u s e i tn imps,
  ArgsChecked u s -> In e (edges s) -> ek e = EArg i -> get_node s (etgt e) = Some tn ->
  inst_imports u s tn = Some imps -> i < length imps.
Proof.
  intros u s e i tn imps A He K G II.
  destruct (A e i He K) as (sn & tn' & imps' & nm & k & _ & G2 & II' & N & _).
  rewrite G in G2. injection G2 as <-. rewrite II in II'. injection II' as <-.
  apply nth_error_Some. congruence.
Qed.
