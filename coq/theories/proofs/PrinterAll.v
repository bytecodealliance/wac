(** C13: every command the (repaired) printer issues for a well-formed tree is harmless ([cmd_ok]): a
    [source(span)] copy is a valid slice of the source, a doc line is non-empty, trimmed and without a
    line feed. Hence the printer does not panic ([print_no_panic_wf]), and the blanks and doc lines it
    writes are what the lexer skips ([print_gaps_ok]: the [gaps_okb] premise of
    [PrinterLex.lex_of_pieces]). *)
From WacV Require Import Str Token Lexer LexTables LexImpl Semver Ast Parser AstInd Printer PrintSpec PrinterText PrinterProofs PrinterLex.
Local Open Scope nat_scope.

Definition cmd_ok (src : str) (c : cmd) : Prop :=
  match c with
  | CSrc _ sp => exists t, slice src sp = Some t
  | CDoc l => l <> [] /\ trimmed l /\ ~ In c_nl l
  | _ => True
  end.

Section AllCmds.
Variable src : str.
Let fx := repaired.

Lemma ok_id i : wf_ident src i -> cmd_ok src (src_id i).
Proof. intros (t & H & _). exists t. exact H. Qed.
Lemma ok_str s : wf_strlit src s -> cmd_ok src (src_str s).
Proof. intros (t & H & _). exists t. exact H. Qed.
Lemma ok_pn p : wf_package_name src p -> cmd_ok src (CSrc TPackageName (pn_span p)).
Proof. intros (t & H & _). exists t. exact H. Qed.
Lemma ok_pp p : wf_package_path src p -> cmd_ok src (src_path p).
Proof. intros (t & H & _). exists t. exact H. Qed.

Lemma all_docs ds : Forall (cmd_ok src) (p_docs fx ds).
Proof.
  apply Forall_flat_map, Forall_forall. intros dc _. apply Forall_map, Forall_forall. intros l Hl.
  unfold fx in Hl. rewrite doc_lines_repaired in Hl. exact (doc_norm_text_elems _ _ Hl).
Qed.

Create HintDb cmds.
Hint Resolve ok_id ok_str ok_pn ok_pp all_docs : cmds.

(** Splits a list of commands into its fixed commands (nothing to show), the copies of leaves and the
    commands of sub-nodes (hints [cmds], from the hypotheses at hand). What is left: one goal per sub-node whose [all_X] is
    not yet a [cmds] hint, and the case distinctions of the printer. *)
Ltac fa :=
  repeat first [ apply Forall_nil | exact I | solve [auto with cmds]
               | match goal with
                 | |- Forall _ (_ ++ _) => apply Forall_app_intro
                 | |- Forall _ (_ :: _) => apply Forall_cons
                 end ].

Lemma all_ty t : wf_ty src t -> Forall (cmd_ok src) (p_ty t).
Proof.
  induction t as [p sp|tys sp IH|t sp IH|t sp IH|ok err sp IHok IHerr|i sp|t sp IH|i] using ty_ind'; intros Hwf.
  - cbn [p_ty]. fa.
  - destruct Hwf as [_ Hall]. rewrite p_ty_tuple. fa. apply Forall_comma_sep; try exact I.
    exact (All_mp _ _ _ IH (proj1 (fix_All _ _) Hall)).
  - cbn [p_ty]. fa.
  - cbn [p_ty]. fa.
  - destruct Hwf as [H1 H2]. destruct ok, err; cbn [p_ty optP] in *; fa.
  - cbn [wf_ty] in Hwf. cbn [p_ty]. fa.
  - destruct Hwf.
  - cbn [wf_ty] in Hwf. cbn [p_ty]. fa.
Qed.
Hint Resolve all_ty : cmds.

Lemma all_named_type n : wf_named_type src n -> Forall (cmd_ok src) (p_named_type n).
Proof. intros [H1 H2]. unfold p_named_type. fa. Qed.

Lemma all_named_types l : All (wf_named_type src) l -> Forall (cmd_ok src) (p_named_types l).
Proof. intros H. apply Forall_comma_sep; try exact I. exact (All_Forall _ _ _ all_named_type H). Qed.
Hint Resolve all_named_types : cmds.

Lemma all_func_type f : wf_func_type src f -> Forall (cmd_ok src) (p_func_type f).
Proof. intros [H1 H2]. unfold p_func_type. fa. destruct (ft_results f); [constructor| |destruct H2]. fa. Qed.
Hint Resolve all_func_type : cmds.

Lemma all_variant_case c :
  (wf_ident src (vc_id c) /\ match vc_ty c with Some t => wf_ty src t | None => True end) ->
  Forall (cmd_ok src) (CIndent :: p_variant_case fx c).
Proof. intros [H1 H2]. unfold p_variant_case. fa. destruct (vc_ty c); fa. Qed.

Lemma all_resource_method m : wf_resource_method src m -> Forall (cmd_ok src) (p_resource_method fx m).
Proof.
  destruct m as [dcs sp ps|dcs i st f]; cbn [wf_resource_method p_resource_method].
  - intros H. fa.
  - intros [H1 H2]. fa. destruct st; fa.
Qed.

Lemma all_block dcs k i body :
  wf_ident src i -> Forall (cmd_ok src) body -> Forall (cmd_ok src) (p_block fx dcs k i body).
Proof. intros H1 H2. unfold p_block. fa. Qed.

Lemma all_item_type_decl x : wf_item_type_decl src x -> Forall (cmd_ok src) (p_item_type_decl fx x).
Proof.
  destruct x as [dcs i ms|dcs i cs|dcs i fs|dcs i fs|dcs i cs|dcs i k]; cbn [wf_item_type_decl p_item_type_decl].
  - intros [H1 H2]. apply all_block; [exact H1|]. apply Forall_spaced; [exact I|]. exact (All_Forall _ _ _ all_resource_method H2).
  - intros (H1 & _ & H2). apply all_block; [exact H1|]. apply Forall_comma_lines; try exact I. exact (All_Forall _ _ _ all_variant_case H2).
  - intros (H1 & _ & H2). apply all_block; [exact H1|]. apply Forall_comma_lines; try exact I. revert H2. apply All_Forall.
    intros f [Hf1 Hf2]. unfold p_field. fa.
  - intros (H1 & _ & H2). apply all_block; [exact H1|]. apply Forall_comma_lines; try exact I. revert H2. apply All_Forall.
    intros f Hf. unfold p_flag. fa.
  - intros (H1 & _ & H2). apply all_block; [exact H1|]. apply Forall_comma_lines; try exact I. revert H2. apply All_Forall.
    intros c Hc. unfold p_enum_case. fa.
  - intros [H1 H2]. fa. destruct k; fa.
Qed.
Hint Resolve all_item_type_decl : cmds.

Lemma all_use u : wf_use src u -> Forall (cmd_ok src) (p_use fx u).
Proof.
  intros [H1 H2]. unfold p_use. fa.
  - destruct (u_path u); cbn [p_use_path]; fa.
  - apply Forall_comma_sep; try exact I. revert H2. apply All_Forall. intros it [Hi Ha]. unfold p_use_item.
    fa. destruct (ui_as it); fa.
Qed.
Hint Resolve all_use : cmds.

Lemma all_interface_item it : wf_interface_item src it -> Forall (cmd_ok src) (p_interface_item fx it).
Proof.
  destruct it as [u|x|dcs i t]; cbn [wf_interface_item p_interface_item].
  - apply all_use.
  - apply all_item_type_decl.
  - intros [H1 H2]. fa. destruct t; cbn [p_func_type_ref]; fa.
Qed.

Lemma all_items {A} (pr : A -> list cmd) l :
  Forall (fun x => Forall (cmd_ok src) (pr x)) l -> Forall (cmd_ok src) (p_items pr l).
Proof. intros H. unfold p_items. fa. now apply Forall_spaced. Qed.

Lemma all_inline_interface items :
  All (wf_interface_item src) items -> Forall (cmd_ok src) (p_inline_interface fx items).
Proof. intros H. unfold p_inline_interface. fa. apply all_items. exact (All_Forall _ _ _ all_interface_item H). Qed.
Hint Resolve all_inline_interface : cmds.

Lemma all_extern_type t : wf_extern_type src t -> Forall (cmd_ok src) (p_extern_type fx t).
Proof. destruct t; cbn [wf_extern_type p_extern_type]; intros H; fa. Qed.
Hint Resolve all_extern_type : cmds.

Lemma all_world_item_path p : wf_world_item_path src p -> Forall (cmd_ok src) (p_world_item_path fx p).
Proof.
  destruct p; cbn [wf_world_item_path p_world_item_path src_id].
  - intros [H1 H2]. fa.
  - intros H. fa.
  - intros H. fa.
Qed.
Hint Resolve all_world_item_path : cmds.

Lemma all_world_item w : wf_world_item src w -> Forall (cmd_ok src) (p_world_item fx w).
Proof.
  destruct w as [u|x|dcs p|dcs p|dcs wr items]; cbn [wf_world_item p_world_item].
  - apply all_use.
  - apply all_item_type_decl.
  - intros H. fa.
  - intros H. fa.
  - intros [H1 H2]. fa.
    + destruct wr; cbn [p_world_ref src_id]; fa.
    + destruct items as [|x l]; fa. apply Forall_comma_lines; try exact I. revert H2. apply All_Forall.
      intros it [Ha Hb]. unfold p_include_item. fa.
Qed.

Lemma all_type_statement t : wf_type_statement src t -> Forall (cmd_ok src) (p_type_statement fx t).
Proof.
  destruct t as [dcs i items|dcs i items|x]; cbn [wf_type_statement p_type_statement].
  - intros [H1 H2]. fa. apply all_items. exact (All_Forall _ _ _ all_interface_item H2).
  - intros [H1 H2]. fa. apply all_items. exact (All_Forall _ _ _ all_world_item H2).
  - intros [_ H]. now apply all_item_type_decl.
Qed.

Lemma all_expr x : wf_expr src x -> Forall (cmd_ok src) (p_expr fx x).
Proof.
  revert x. apply (expr_ind' (fun x => wf_expr src x -> Forall (cmd_ok src) (p_expr fx x))
                     (fun p => wf_primary src p -> Forall (cmd_ok src) (p_primary fx p))
                     (fun a => wf_arg src a -> Forall (cmd_ok src) (p_arg0 a))).
  - intros sp p post IH [H1 H2]. cbn [p_expr]. fa. apply Forall_flat_map. revert H2. apply All_Forall.
    intros q Hq. destruct q; cbn [wf_postfix p_postfix] in *; fa.
  - intros sp pkg args IH [H1 H2]. rewrite p_new_eq. fa.
    pose proof (All_mp _ _ _ IH (proj1 (fix_All _ _) H2)) as Hf.
    assert (Hargs : Forall (cmd_ok src) (p_args args)).
    { clear -Hf. induction Hf as [|a l Ha _ IHl]; cbn [p_args]; [constructor|].
      unfold p_arg_line. fa. destruct (is_fill a && nil_args l)%bool; fa. }
    unfold p_new_args. destruct args as [|a [|b l]]; [fa| |fa].
    + destruct a; fa.
    + destruct a; fa.
  - intros sp x IH H. cbn [p_primary]. fa.
  - intros i H. cbn [wf_primary] in H. cbn [p_primary]. fa.
  - intros i H. cbn [wf_arg] in H. cbn [p_arg0]. fa.
  - intros i H. cbn [wf_arg] in H. cbn [p_arg0]. fa.
  - intros n x IH [H1 H2]. cbn [p_arg0]. fa.
    destruct n; cbn [p_arg_name]; fa.
  - intros sp _. cbn [p_arg0]. fa.
Qed.
Hint Resolve all_expr : cmds.

Lemma all_extern_name n : wf_extern_name src n -> Forall (cmd_ok src) (p_extern_name n).
Proof. destruct n; cbn [wf_extern_name p_extern_name]; intros H; fa. Qed.
Hint Resolve all_extern_name : cmds.

Lemma all_statement s : wf_statement src s -> Forall (cmd_ok src) (p_statement fx s).
Proof.
  destruct s as [dcs i name t|t|dcs i x|dcs x o]; cbn [wf_statement p_statement].
  - intros (H1 & H2 & H3). fa.
    + destruct name; fa.
    + destruct t; cbn [p_import_type]; fa.
  - apply all_type_statement.
  - intros [H1 H2]. fa.
  - intros [H1 H2]. fa. destruct o; fa.
Qed.

Theorem all_document doc : wf_document src doc -> Forall (cmd_ok src) (p_document fx doc).
Proof.
  intros (H1 & H2 & H3). unfold p_document, p_directive. fa.
  - destruct (pd_targets (doc_directive doc)); cbn [fx_targets_keyword fx repaired]; fa.
  - apply Forall_spaced; [exact I|]. exact (All_Forall _ _ _ all_statement H3).
Qed.

End AllCmds.

(** Nine cases of [layout], of which only the copy can fail. *)
Lemma layout_total src cs : Forall (cmd_ok src) cs -> forall ind b, exists ps, layout src ind b cs = Some ps.
Proof.
  induction 1 as [|c cs Hc _ IH]; intros ind b; [exists []; reflexivity|].
  destruct c; cbn [layout].
  - destruct (IH ind b) as (ps & ->). eauto.
  - destruct Hc as (t & ->). destruct (IH ind b) as (ps & ->). eauto.
  - destruct (IH ind b) as (ps & ->). eauto.
  - destruct (IH ind false) as (ps & ->). destruct b; eauto.
  - destruct b; [apply IH|]. destruct (IH ind true) as (ps & ->). eauto.
  - destruct (IH ind false) as (ps & ->). eauto.
  - destruct (IH ind b) as (ps & ->). eauto.
  - apply IH.
  - apply IH.
Qed.

Lemma existsb_nl_false l : ~ In c_nl l -> existsb (N.eqb c_nl) l = false.
Proof.
  induction l as [|c l IH]; [reflexivity|]. intros H. cbn [existsb].
  destruct (c_nl =? c)%N eqn:E; [apply N.eqb_eq in E; subst; exfalso; apply H; now left|].
  apply IH. intros H'. apply H. now right.
Qed.

(** The pieces the printer writes between tokens are blanks, line feeds and doc lines without a line
    feed inside. *)
Lemma layout_gaps src cs ind b ps :
  layout src ind b cs = Some ps -> Forall (cmd_ok src) cs -> gaps_okb ps = true.
Proof.
  assert (Hind : forall n, forallb ws_char (indent_text n) = true).
  { induction n as [|n IHn]; [reflexivity|]. cbn [indent_text]. rewrite forallb_app, IHn. reflexivity. }
  revert cs ind b ps. apply (layout_ind src (fun _ _ cs ps => Forall (cmd_ok src) cs -> gaps_okb ps = true));
    [reflexivity|..]; intros;
    match goal with Hc : Forall _ (_ :: _) |- _ => inversion Hc as [|? ? Hc1 Hc2]; subst end;
    cbn [gaps_okb forallb]; rewrite ?Hind; cbn [andb]; auto.
  (* the two cases of a doc line *)
  all: destruct Hc1 as (_ & _ & Hnl); rewrite (existsb_nl_false _ Hnl); auto.
Qed.

Theorem print_gaps_ok src doc ps :
  wf_document src doc -> print_pieces repaired src doc = Some ps -> gaps_okb ps = true.
Proof. intros Hwf Hp. exact (layout_gaps _ _ _ _ _ Hp (all_document src doc Hwf)). Qed.

Theorem print_no_panic_wf src doc : wf_document src doc -> exists ps, print_pieces repaired src doc = Some ps.
Proof. intros H. exact (layout_total _ _ (all_document src doc H) _ _). Qed.
