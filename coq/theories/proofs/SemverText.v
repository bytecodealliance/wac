(** Shape of accepted version texts: canonical decimal numerals, and text/record bijection. *)
From WacV Require Import Str Ord Semver SemverProofs.
Local Arguments N.mul : simpl never.
Local Arguments N.add : simpl never.
Local Arguments N.sub : simpl never.

Definition dval (acc : N) (ds : str) : N := fold_left (fun a d => a * 10 + (d - 48)) ds acc.

(** canonical numeral: "0", or digits not starting with '0' *)
Definition canonical (ds : str) : Prop :=
  forallb is_digit ds = true /\ (ds = [c_zero] \/ exists d r, ds = d :: r /\ d <> c_zero).

Definition not_digit_head (r : str) : Prop := match r with [] => True | c :: _ => is_digit c = false end.

Lemma is_digit_range c : is_digit c = true <-> 48 <= c <= 57.
Proof. unfold is_digit. rewrite andb_true_iff, !N.leb_le. reflexivity. Qed.

Lemma num_loop_pos v s n r :
  0 < v -> num_loop v true s = Some (n, r) ->
  exists ds, s = ds ++ r /\ forallb is_digit ds = true /\ not_digit_head r /\ n = dval v ds.
Proof.
  revert v. induction s as [|c s IH]; intros v Hv H; cbn in H.
  - injection H as <- <-. exists []; cbn; auto.
  - destruct (is_digit c) eqn:D.
    + rewrite (proj2 (N.eqb_neq v 0)) in H by lia. cbn in H.
      destruct (v * 10 + (c - 48) <=? u64_max) eqn:B; try discriminate.
      apply IH in H; [|lia]. destruct H as [ds [-> [F [Hr ->]]]].
      exists (c :: ds); cbn; rewrite D; auto.
    + injection H as <- <-. exists []; cbn; rewrite D; auto.
Qed.

Lemma numeric_identifier_shape s n r :
  numeric_identifier s = Some (n, r) ->
  exists ds, s = ds ++ r /\ canonical ds /\ not_digit_head r /\ n = dval 0 ds.
Proof.
  unfold numeric_identifier. destruct s as [|c s]; cbn; try discriminate.
  destruct (is_digit c) eqn:D; try discriminate.
  replace (0 * 10 + (c - 48)) with (c - 48) by lia.
  destruct (c - 48 <=? u64_max) eqn:B; try discriminate.
  apply is_digit_range in D as D'.
  destruct (N.eq_dec c 48) as [->|Hc].
  - (* "0": the next character must not be a digit *)
    cbn. destruct s as [|c2 s]; cbn.
    + intros H; injection H as <- <-. exists [c_zero]; repeat split; cbn; auto.
    + destruct (is_digit c2) eqn:D2; cbn; try discriminate.
      intros H; injection H as <- <-. exists [c_zero]; repeat split; cbn; auto.
  - intros H. apply num_loop_pos in H; [|lia].
    destruct H as [ds [-> [F [Hr ->]]]].
    exists (c :: ds). repeat split; auto.
    + cbn. rewrite D; auto.
    + right. exists c, ds; auto.
Qed.

(** least-significant-first evaluation *)
Fixpoint rval (l : str) : N := match l with [] => 0 | d :: r => (d - 48) + 10 * rval r end.

Lemma dval_app acc a b : dval acc (a ++ b) = dval (dval acc a) b.
Proof. unfold dval. apply fold_left_app. Qed.

Lemma dval_shift acc ds : dval acc ds = acc * 10 ^ (N.of_nat (length ds)) + dval 0 ds.
Proof.
  revert acc. induction ds as [|d ds IH]; intros acc.
  - cbn. lia.
  - cbn [dval fold_left length]. fold (dval (acc * 10 + (d - 48)) ds). fold (dval (0 * 10 + (d - 48)) ds).
    rewrite IH. rewrite (IH (0 * 10 + (d - 48))).
    rewrite Nat2N.inj_succ, N.pow_succ_r'. lia.
Qed.

Lemma dval_pos_ge ds d r : ds = d :: r -> forallb is_digit ds = true -> d <> c_zero ->
  10 ^ N.of_nat (length r) <= dval 0 ds.
Proof.
  intros -> F Hd. cbn in F. apply andb_true_iff in F as [D _]. apply is_digit_range in D.
  cbn [dval fold_left]. fold (dval (0 * 10 + (d - 48)) r). rewrite dval_shift.
  unfold c_zero in Hd. nia.
Qed.

Lemma dval_lt ds : forallb is_digit ds = true -> dval 0 ds < 10 ^ N.of_nat (length ds).
Proof.
  induction ds as [|d ds IH] using rev_ind; intros F.
  - cbn. lia.
  - rewrite forallb_app in F. apply andb_true_iff in F as [F1 F2]. cbn in F2.
    apply andb_true_iff in F2 as [D _]. apply is_digit_range in D.
    rewrite dval_app. cbn [dval fold_left]. specialize (IH F1).
    rewrite app_length. cbn [length]. rewrite Nat.add_1_r, Nat2N.inj_succ, N.pow_succ_r'. lia.
Qed.

Lemma canonical_inj a b : canonical a -> canonical b -> dval 0 a = dval 0 b -> a = b.
Proof.
  (* equal values force equal lengths, then digitwise equality *)
  assert (Hlen : forall a b, canonical a -> canonical b -> dval 0 a = dval 0 b -> (length a <= length b)%nat).
  { intros x y [Fx Cx] [Fy Cy] E.
    destruct Cx as [->|[d [r [-> Hd]]]].
    - destruct Cy as [->|[d' [r' [-> Hd']]]]; cbn; lia.
    - pose proof (dval_pos_ge _ d r eq_refl Fx Hd) as L.
      pose proof (dval_lt y Fy) as U. rewrite E in L.
      assert (10 ^ N.of_nat (length r) < 10 ^ N.of_nat (length y)) as P by lia.
      apply N.pow_lt_mono_r_iff in P; [|lia]. cbn [length]. lia. }
  intros Ca Cb E.
  assert (L : length a = length b) by (apply Nat.le_antisymm; apply Hlen; auto).
  destruct Ca as [Fa _], Cb as [Fb _]. clear Hlen.
  revert b Fb E L. induction a as [|x a IH] using rev_ind; intros b Fb E L.
  - destruct b; cbn in L; try discriminate; auto.
  - destruct b as [|y b _] using rev_ind; [rewrite app_length in L; cbn in L; lia|].
    rewrite !app_length in L. cbn in L.
    rewrite forallb_app in Fa, Fb. apply andb_true_iff in Fa as [Fa Dx], Fb as [Fb Dy]. cbn in Dx, Dy.
    apply andb_true_iff in Dx as [Dx _], Dy as [Dy _]. apply is_digit_range in Dx, Dy.
    rewrite !dval_app in E. cbn [dval fold_left] in E.
    fold (dval 0 a) in E. fold (dval 0 b) in E.
    assert (x = y /\ dval 0 a = dval 0 b) as [-> E'] by lia.
    f_equal. apply IH; auto. lia.
Qed.

(** [identifier] returns a split of its input. *)
Ltac solve_app := repeat (rewrite <- app_assoc); cbn [app]; rewrite ?app_nil_r; try reflexivity.

Lemma ident_loop_split is_pre acc seg nd s p r :
  ident_loop is_pre acc seg nd s = Some (p, r) ->
  acc ++ seg ++ s = p ++ r.
Proof.
  revert acc seg nd. induction s as [|c s IH]; intros acc seg nd H; cbn in H.
  - destruct seg as [|c0 seg'].
    + destruct acc; cbn in H; try discriminate. injection H as <- <-. reflexivity.
    + destruct (is_pre && _ && _ && _); try discriminate. injection H as <- <-. solve_app.
  - destruct (is_ident_nondigit c).
    + apply IH in H. rewrite <- H. solve_app.
    + destruct (is_digit c).
      * apply IH in H. rewrite <- H. solve_app.
      * destruct seg as [|c0 seg'].
        -- destruct acc; cbn in H; try discriminate.
           destruct (negb _); try discriminate. injection H as <- <-. solve_app.
        -- destruct (is_pre && _ && _ && _); try discriminate.
           destruct (c =? c_dot) eqn:E.
           ++ apply IH in H. apply N.eqb_eq in E; subst c. rewrite <- H. solve_app.
           ++ injection H as <- <-. solve_app.
Qed.

Lemma identifier_split is_pre s p r : identifier is_pre s = Some (p, r) -> s = p ++ r.
Proof. unfold identifier. intros H. apply ident_loop_split in H. exact H. Qed.

Definition version_text (dM dm dp : str) (v : version) : str :=
  dM ++ c_dot :: dm ++ c_dot :: dp
  ++ (if is_nil (pre v) then [] else c_dash :: pre v)
  ++ (if is_nil (build v) then [] else c_plus :: build v).

Lemma dot_inv s r : dot s = Some r -> s = c_dot :: r.
Proof.
  destruct s as [|c s]; cbn; try discriminate. destruct (c =? c_dot) eqn:E; try discriminate.
  apply N.eqb_eq in E. congruence.
Qed.

Lemma strip_prefix_inv c s r : strip_prefix c s = Some r -> s = c :: r.
Proof.
  destruct s as [|x s]; cbn; try discriminate. destruct (x =? c) eqn:E; try discriminate.
  apply N.eqb_eq in E. congruence.
Qed.

Lemma is_nil_true {A} (l : list A) : is_nil l = true -> l = [].
Proof. destruct l; cbn; congruence. Qed.

(** the optional "-pre" and "+build" parts of [parse_version] *)
Definition opt_ident (c : N) (b : bool) (text : str) : option (str * str) :=
  match strip_prefix c text with
  | Some text => match identifier b text with
                 | None => None
                 | Some (p, text) => if is_nil p then None else Some (p, text)
                 end
  | None => Some ([], text)
  end.

Lemma opt_ident_split c b text p rest :
  opt_ident c b text = Some (p, rest) -> text = (if is_nil p then [] else c :: p) ++ rest.
Proof.
  unfold opt_ident. destruct (strip_prefix c text) as [t|] eqn:S.
  - destruct (identifier b t) as [[p' t']|] eqn:I; try discriminate. destruct (is_nil p') eqn:Np; try discriminate.
    intros H; injection H as <- <-. rewrite Np. apply strip_prefix_inv in S. apply identifier_split in I. subst. reflexivity.
  - intros H; injection H as <- <-. reflexivity.
Qed.

Lemma parse_version_shape text v :
  parse_version text = Some v ->
  exists dM dm dp, text = version_text dM dm dp v /\
    canonical dM /\ canonical dm /\ canonical dp /\
    major v = dval 0 dM /\ minor v = dval 0 dm /\ patch v = dval 0 dp.
Proof.
  unfold parse_version. destruct (is_nil text) eqn:N0; try discriminate.
  destruct (numeric_identifier text) as [[maj t1]|] eqn:E1; try discriminate.
  destruct (dot t1) as [t2|] eqn:D1; try discriminate.
  destruct (numeric_identifier t2) as [[mi t3]|] eqn:E2; try discriminate.
  destruct (dot t3) as [t4|] eqn:D2; try discriminate.
  destruct (numeric_identifier t4) as [[pa t5]|] eqn:E3; try discriminate.
  apply numeric_identifier_shape in E1 as [dM [-> [CM [_ ->]]]].
  apply numeric_identifier_shape in E2 as [dm [-> [Cm [_ ->]]]].
  apply numeric_identifier_shape in E3 as [dp [-> [Cp [_ ->]]]].
  apply dot_inv in D1, D2. subst t1 t3.
  destruct (is_nil t5) eqn:N5.
  - intros H; injection H as <-. apply is_nil_true in N5; subst t5.
    exists dM, dm, dp. unfold version_text. cbn [pre build major minor patch is_nil app]. auto 10.
  - fold (opt_ident c_dash true t5).
    destruct (opt_ident c_dash true t5) as [[p t7]|] eqn:Q1; try discriminate.
    fold (opt_ident c_plus false t7).
    destruct (opt_ident c_plus false t7) as [[b t9]|] eqn:Q2; try discriminate.
    destruct (is_nil t9) eqn:N9; try discriminate. intros H; injection H as <-.
    apply opt_ident_split in Q1, Q2. apply is_nil_true in N9. subst t5 t7 t9.
    exists dM, dm, dp. unfold version_text. cbn [pre build major minor patch]. rewrite app_nil_r. auto 10.
Qed.

Theorem parse_version_inj t1 t2 v :
  parse_version t1 = Some v -> parse_version t2 = Some v -> t1 = t2.
Proof.
  intros H1 H2.
  apply parse_version_shape in H1 as [a1 [b1 [c1 [-> [A1 [B1 [C1 [M1 [m1 P1]]]]]]]]].
  apply parse_version_shape in H2 as [a2 [b2 [c2 [-> [A2 [B2 [C2 [M2 [m2 P2]]]]]]]]].
  assert (a1 = a2) by (apply canonical_inj; congruence).
  assert (b1 = b2) by (apply canonical_inj; congruence).
  assert (c1 = c2) by (apply canonical_inj; congruence).
  subst. reflexivity.
Qed.
