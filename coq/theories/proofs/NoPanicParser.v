(** C14, parser part: over a well-formed token stream (what [NoPanicLexer.lex_wf] provides) and with
    the fuel [Document::parse] gives itself, every [Parse] impl of the model returns a tree, an error or
    the not-modelled marker -- never one of the explicit panic outcomes ([unwrap] after a peek, the
    tuple [assert!], the string and package-path [unwrap]s, the final [assert!]) and never the
    out-of-fuel outcome; every span in a returned tree, and the span of every returned error that is
    not reported at the end of the input, lies inside the source on character boundaries.

    One predicate, [outcome], is pushed through every production: combinator lemmas for [bind],
    [parse_token], [parse_optional], [alt], [delimited], then one short proof per production. *)
From WacV Require Import Str Token Lexer Semver Ast Parser ParserComb LexerSound NoPanicLexer NoPanicSpans.
From Coq Require Import ZArith Lia.
Local Open Scope nat_scope.

Section Pass.

Variable src : str.
Variable e : env.
Hypothesis Hd : dv e = impl_flags.
(** [um = false]: the stream is known to contain no not-modelled marker (then the not-modelled outcome is
    excluded as well); [um = true]: no such knowledge. *)
Variable um : bool.

Notation ok := (span_ok src).
Definition item_ok (it : lexitem) : Prop :=
  item_wf src it /\ (um = false -> forall sp, it <> LUnmodelled sp).
Definition wf (ts : list lexitem) : Prop := Forall item_ok ts.

(** What a returned error must satisfy: a non-empty list of expected tokens (otherwise
    [Lookahead::error] hits [unreachable!]), a good span -- or, for an error reported at the end of the
    input, one of the two end-of-input spans of the environment ([NoPanicTop] shows that those of
    [mk_ctx] are good) --, and it is never the marker of a documented-grammar restriction (those do not
    exist under [impl_flags]). *)
Definition err_ok (x : perror) : Prop :=
  match x with
  | PE_Lexer _ sp | PE_EmptyType _ sp | PE_InvalidVersion _ sp => ok sp
  | PE_Expected at_ (Some _) sp => at_ <> [] /\ ok sp
  | PE_Expected at_ None sp => at_ <> [] /\ (sp = eof_tok (cx e) \/ sp = eof_la (cx e))
  | PE_DocRestriction _ => False
  end.

(** [P]: what the returned value satisfies; [L]: what is known of the length of the remaining stream
    (strictly shorter than the input = progress; this is what pays for the fuel). *)
Definition outcome {A} (P : A -> Prop) (L : nat -> Prop) (res : pres A) : Prop :=
  match res with
  | POk a r => P a /\ wf r /\ L (length r)
  | PErr x => err_ok x
  | PUnmodelled => um = true
  | PPanic _ | PFuel => False
  end.

Lemma outcome_weaken {A} (P P' : A -> Prop) (L L' : nat -> Prop) res :
  outcome P L res -> (forall a, P a -> P' a) -> (forall n, L n -> L' n) -> outcome P' L' res.
Proof. destruct res; cbn; intuition. Qed.

Lemma outcome_lt_le {A} (P : A -> Prop) k res :
  outcome P (fun n => n < k) res -> outcome P (fun n => n <= k) res.
Proof. intros H. eapply outcome_weaken; [exact H|auto|cbv beta; lia]. Qed.

Lemma bind_out {A B} (P1 : A -> Prop) (L1 : nat -> Prop) (P2 : B -> Prop) (L2 : nat -> Prop)
    (m : pres A) (k : A -> list lexitem -> pres B) :
  outcome P1 L1 m ->
  (forall a r, P1 a -> wf r -> L1 (length r) -> outcome P2 L2 (k a r)) ->
  outcome P2 L2 (m >>= k).
Proof. destruct m; cbn; intuition. Qed.

Lemma ok_join a b : ok a -> ok b -> ok (span_join a b).
Proof.
  intros [Ha1 Ha2] [Hb1 Hb2]. unfold span_join, span_end. split; cbn [off slen]; [exact Ha1|].
  destruct (N.le_gt_cases (off a) (off b + slen b)) as [H|H].
  - replace (off a + (off b + slen b - off a))%N with (off b + slen b)%N by lia. exact Hb2.
  - replace (off a + (off b + slen b - off a))%N with (off a) by lia. exact Ha1.
Qed.

Lemma Forall_flat_map {A} (f : A -> list span) (l : list A) :
  Forall (fun a => Forall ok (f a)) l -> Forall ok (flat_map f l).
Proof. induction 1; cbn; [constructor|]. apply Forall_app. auto. Qed.

Lemma Forall_last {A} (Q : A -> Prop) l d : Forall Q l -> l <> [] -> Q (last l d).
Proof.
  induction 1 as [|x l Hx Hl IH]; [congruence|]. intros _. destruct l as [|y l]; [exact Hx|].
  change (last (x :: y :: l) d) with (last (y :: l) d). apply IH. discriminate.
Qed.

Lemma wf_inv x r : wf (x :: r) -> item_ok x /\ wf r.
Proof. intros H. inversion H; subst. auto. Qed.

Lemma um_true sp : item_ok (LUnmodelled sp) -> um = true.
Proof. intros [_ H]. destruct um; [reflexivity|]. exfalso. now apply (H eq_refl sp). Qed.

(** Case analysis on the head of a well-formed stream; the impossible heads are discharged. *)
Ltac heads ts Hwf :=
  let t := fresh "t" in let r := fresh "r" in let Hi := fresh "Hi" in let Hr := fresh "Hwr" in
  let Hum := fresh "Hum" in
  destruct ts as [|[t|?le ?lsp|?usp| |] r];
  [ | apply wf_inv in Hwf; destruct Hwf as [[Hi _] Hr]
    | apply wf_inv in Hwf; destruct Hwf as [[Hi _] Hr]; cbn [item_wf] in Hi
    | apply wf_inv in Hwf; destruct Hwf as [Hi Hr]; pose proof (um_true _ Hi) as Hum
    | apply wf_inv in Hwf; destruct Hwf as [[Hi _] Hr]; cbn [item_wf] in Hi; contradiction
    | apply wf_inv in Hwf; destruct Hwf as [[Hi _] Hr]; cbn [item_wf] in Hi; contradiction ].

Definition tokP (k : token) (t : rtoken) : Prop := tk t = k /\ item_wf src (LTok t).

Lemma tokP_span k t : tokP k t -> ok (tsp t).
Proof. intros [_ H]. now apply item_wf_span in H. Qed.

Lemma tokP_docs k t : tokP k t -> Forall ok (docs_spans (tdocs t)).
Proof. intros [_ (_ & _ & _ & _ & H)]. exact H. Qed.

Lemma docs_of_ok ts : wf ts -> Forall ok (docs_spans (docs_of ts)).
Proof.
  intros H. destruct ts as [|[t| | | |] r]; cbn [docs_of docs_spans map]; try constructor.
  apply wf_inv in H. destruct H as [[(_ & _ & _ & _ & H) _] _]. exact H.
Qed.

Lemma stuck_out {A} (P : A -> Prop) L ts at_eof :
  wf ts -> (forall t r, ts <> LTok t :: r) -> err_ok at_eof -> outcome P L (stuck ts at_eof).
Proof.
  intros Hwf Hnt He. heads ts Hwf; cbn [stuck outcome err_ok]; auto.
Qed.

Lemma next_tok_out k ts :
  wf ts -> outcome (tokP k) (fun n => n < length ts) (next_tok e k ts).
Proof.
  intros Hwf. unfold next_tok. heads ts Hwf; cbn [stuck outcome err_ok]; auto; try discriminate;
    try (split; [discriminate|now left]).
  destruct (token_eqb (tk t) k) eqn:E; cbn [outcome err_ok length].
  - apply token_eqb_eq in E. split; [split; [exact E|exact Hi]|split; [exact Hwr|lia]].
  - split; [discriminate|now apply item_wf_span in Hi].
Qed.

Lemma parse_token_out k ts :
  wf ts -> outcome (fun sp => ok sp) (fun n => n < length ts) (parse_token e k ts).
Proof.
  intros Hwf. unfold parse_token. eapply bind_out; [now apply next_tok_out|].
  intros t r Ht Hr Hl. cbn [outcome]. split; [eapply tokP_span; eauto|split; [exact Hr|exact Hl]].
Qed.

Lemma la_fail_out {A} (P : A -> Prop) L attempts ts :
  wf ts -> attempts <> [] -> outcome P L (la_fail e attempts ts).
Proof.
  intros Hwf Hne. unfold la_fail. heads ts Hwf; cbn [stuck outcome err_ok]; auto;
    try (split; [exact Hne|now right]).
  split; [exact Hne|now apply item_wf_span in Hi].
Qed.

(** [parse_optional]: the callback runs on the stream after the optional token. *)
Lemma parse_optional_out {A} (P : A -> Prop) k (cb : parser A) ts :
  wf ts ->
  (forall r, wf r -> length r < length ts -> outcome P (fun n => n <= length r) (cb r)) ->
  outcome (fun o => match o with Some a => P a | None => True end) (fun n => n <= length ts)
          (parse_optional k cb ts).
Proof.
  intros Hwf Hcb. unfold parse_optional. pose proof Hwf as Hwf0.
  heads ts Hwf; cbn [stuck outcome err_ok length]; auto.
  destruct (token_eqb (tk t) k).
  - eapply bind_out; [apply Hcb; [exact Hwr|cbn; lia]|].
    intros a r' Pa Hr' Hl. cbn [outcome length] in *. split; [exact Pa|split; [exact Hr'|lia]].
  - cbn [outcome]. split; [exact I|split; [exact Hwf0|cbn [length]; lia]].
Qed.

(** [alt]: each branch is only entered on a token of its peek set. *)
Lemma alt_out {A} (P : A -> Prop) L (bs : list (list token * parser A)) ts :
  wf ts -> alt_attempts bs <> [] ->
  Forall (fun b => forall k, peek_kind ts = Some k -> mem_tok k (fst b) = true -> outcome P L (snd b ts)) bs ->
  outcome P L (alt e bs ts).
Proof.
  intros Hwf Hne Hbs. unfold alt. destruct (peek_kind ts) as [k|] eqn:Ek; [|now apply la_fail_out].
  destruct (alt_find k bs) as [p|] eqn:Ef; [|now apply la_fail_out].
  clear Hne. induction Hbs as [|[f q] bs Hb _ IH]; cbn [alt_find] in Ef; [discriminate|].
  destruct (mem_tok k f) eqn:Em.
  - inversion Ef; subst. now apply (Hb k).
  - now apply IH.
Qed.

(** A parser that is fine on every well-formed stream shorter than [b] (and than the fuel). [b] is the
    recursion fuel of the enclosing [parse_type_f]/[parse_expr_f]; non-recursive productions ignore it. *)
Definition goodB {A} (b : nat) (P : A -> Prop) (p : parser A) : Prop :=
  forall ts, wf ts -> length ts < b -> length ts < fuel e ->
  outcome P (fun n => n < length ts) (p ts).

(** The same, knowing the first token is in [first] (what [parse_delimited] has peeked). *)
Definition goodF {A} (b : nat) (first : list token) (P : A -> Prop) (p : parser A) : Prop :=
  forall ts, wf ts -> length ts < b -> length ts < fuel e ->
  forall k, peek_kind ts = Some k -> mem_tok k first = true ->
  outcome P (fun n => n < length ts) (p ts).

Lemma goodB_F {A} b first (P : A -> Prop) p : goodB b P p -> goodF b first P p.
Proof. intros H ts Hwf Hb Hf k _ _. now apply H. Qed.

Lemma delim_loop_out {A} (P : A -> Prop) b until commas first (p : parser A) :
  goodF b first P p ->
  forall n ts, wf ts -> length ts < n -> length ts < b -> length ts < fuel e ->
  outcome (fun x => Forall P (fst x)) (fun m => m <= length ts) (delim_loop n e until commas first p ts).
Proof.
  intros Hp. induction n as [|n IH]; intros ts Hwf Hn Hb Hf; [lia|]. cbn [delim_loop].
  destruct (peek_kind ts) as [k|] eqn:Ek; [|apply la_fail_out; [exact Hwf|discriminate]].
  destruct (token_eqb k until).
  { cbn [outcome fst]. split; [constructor|split; [exact Hwf|lia]]. }
  destruct (mem_tok k first) eqn:Em; [|apply la_fail_out; [exact Hwf|discriminate]].
  eapply bind_out; [apply (Hp ts Hwf Hb Hf k Ek Em)|].
  intros a r Pa Hr Hl. cbv beta in Hl.
  destruct (peek_kind r) as [k2|] eqn:Ek2; [|apply la_fail_out; [exact Hr|discriminate]].
  destruct (token_eqb k2 until).
  { cbn [outcome fst]. split; [constructor; [exact Pa|constructor]|split; [exact Hr|lia]]. }
  destruct commas.
  - eapply bind_out; [now apply parse_token_out|]. intros sp r1 _ Hr1 Hl1. cbv beta in Hl1.
    eapply bind_out; [apply (IH r1 Hr1); lia|]. intros [items tr] r2 Pi Hr2 Hl2. cbv beta in Hl2.
    cbn [outcome fst] in *. split; [constructor; [exact Pa|exact Pi]|split; [exact Hr2|lia]].
  - eapply bind_out; [apply (IH r Hr); lia|]. intros [items tr] r2 Pi Hr2 Hl2. cbv beta in Hl2.
    cbn [outcome fst] in *. split; [constructor; [exact Pa|exact Pi]|split; [exact Hr2|lia]].
Qed.

Lemma delimited_items_out {A} (P : A -> Prop) b until commas first (p : parser A) ts :
  goodF b first P p -> wf ts -> length ts < b -> length ts < fuel e ->
  outcome (Forall P) (fun m => m <= length ts) (delimited_items e until commas first p ts).
Proof.
  intros Hp Hwf Hb Hf. unfold delimited_items, delimited.
  eapply bind_out; [apply (delim_loop_out P b until commas first p Hp); auto|].
  intros [items tr] r Pi Hr Hl. cbn [outcome fst] in *. auto.
Qed.

(** Length side conditions: beta-reduce the [L (length r)] facts collected so far, then [lia]. *)
Ltac lenf :=
  repeat match goal with H : (fun _ : nat => _) _ |- _ => cbv beta in H end;
  cbn [length] in *; lia.

(** Sequencing step: [m >>= k] where [m]'s behaviour is given by lemma [lem]; the premises of [lem]
    are the well-formedness of the stream (in the context) and up to two length conditions. *)
Tactic Notation "gbindn" constr(lem) "as" ident(a) ident(r) ident(Pa) ident(Hr) ident(Hl) :=
  eapply bind_out;
  [ first [ eapply lem; [eassumption|lenf|lenf]
          | eapply lem; [eassumption|lenf]
          | eapply lem; eassumption
          | eapply lem ]
  | ];
  intros a r Pa Hr Hl; cbv beta in Hl.

Ltac gbind lem :=
  let a := fresh "a" in let r := fresh "r" in let Pa := fresh "Pa" in
  let Hr := fresh "Hwf" in let Hl := fresh "Hl" in
  gbindn lem as a r Pa Hr Hl.

(** Discharge [Forall ok (..spans..)] goals from the hypotheses collected so far. Two rounds of unfolding:
    the span function of a node exposes those of its parts. The goal holds because every span of the
    node built is the span of a token consumed ([tokP_span]/[tokP_docs]/[docs_of_ok]), a [span_join]
    of two such, or belongs to a subtree whose [Forall ok] fact is in the context. *)
Ltac spans :=
  do 2 (unfold ident_spans, strlit_spans, pkgname_spans, pkgpath_spans, opt_spans, named_type_spans,
       result_list_spans, func_type_spans, extern_name_spans, variant_case_spans, field_spans, flag_spans,
       enum_case_spans, resource_method_spans, alias_kind_spans, item_type_decl_spans, func_type_ref_spans,
       use_path_spans, use_item_spans, use_decl_spans, interface_item_spans, extern_type_spans,
       world_item_path_spans, world_ref_spans, include_item_spans, world_item_spans, type_statement_spans,
       import_type_spans, arg_name_spans, postfix_spans, export_options_spans, statement_spans,
       directive_spans, document_spans in *;
  cbn [ty_spans expr_spans primary_spans arg_spans
       id_span s_span pn_span pp_span nt_id nt_ty ft_params ft_results vc_docs vc_id vc_ty fd_docs fd_id fd_ty
       fl_docs fl_id ec_docs ec_id ui_id ui_as u_docs u_path u_items ii_from ii_to pd_package pd_targets
       doc_docs doc_directive doc_statements app] in *);
  repeat match goal with
         | |- _ => assumption
         | |- Forall _ (_ ++ _) => apply Forall_app; split
         | |- Forall _ (_ :: _) => constructor
         | |- Forall _ [] => constructor
         | |- Forall _ (flat_map _ _) => apply Forall_flat_map
         | |- ok (span_join _ _) => apply ok_join
         | H : Forall _ (_ ++ _) |- _ => apply Forall_app in H; destruct H
         | H : Forall _ (_ :: _) |- _ => apply Forall_cons_iff in H; destruct H
         | H : tokP _ ?t |- ok (tsp ?t) => exact (tokP_span _ _ H)
         | H : tokP _ ?t |- Forall ok (docs_spans (tdocs ?t)) => exact (tokP_docs _ _ H)
         | |- Forall ok (docs_spans (docs_of _)) => apply docs_of_ok; assumption
         end;
  auto.

(** Closing step: the production returns; what remains is the property of the tree ([gret]: a fact
    about its spans that [spans] finds). *)
Ltac gretP := cbn [outcome]; split; [|split; [assumption|lenf]].
Ltac gret := gretP; spans.

Lemma parse_ident_good : goodB (fuel e) (fun i => Forall ok (ident_spans i)) (parse_ident e).
Proof.
  intros ts Hwf _ Hf. unfold parse_ident. gbind next_tok_out. gret.
  unfold mk_ident. spans.
Qed.

Lemma parse_string_good : goodB (fuel e) (fun s => Forall ok (strlit_spans s)) (parse_string e).
Proof.
  intros ts Hwf _ Hf. unfold parse_string. gbind next_tok_out.
  destruct Pa as [Hk Hi]. pose proof Hi as (_ & _ & _ & Hshape & _). rewrite Hk in Hshape. cbn [text_shape] in Hshape.
  destruct Hshape as (body & Hb). unfold strlit_of, unquote. rewrite Hb. rewrite N.eqb_refl.
  rewrite rev_app_distr. cbn [rev app]. rewrite N.eqb_refl.
  gretP.
  cbn [strlit_spans s_span]. constructor; [|constructor]. now apply item_wf_span in Hi.
Qed.

Lemma find_char_firstn c : forall s n, find_char c s = Some n -> n < length s.
Proof. apply find_char_lt. Qed.

(** The span of an [InvalidVersion] error: from after the first [@] to the end of the token. *)
Lemma version_span_ok t at_ :
  item_wf src (LTok t) -> Forall ascii (ttext t) -> find_char c_atsign (ttext t) = Some at_ ->
  ok {| off := off (tsp t) + N.of_nat at_ + 1;
        slen := span_end (tsp t) - (off (tsp t) + N.of_nat at_ + 1) |}.
Proof.
  intros ((a & b & Hs & Ho) & Hl & _) Hasc Hf. apply find_char_lt in Hf.
  set (text := ttext t) in *.
  assert (Hsplit : text = firstn (S at_) text ++ skipn (S at_) text) by (symmetry; apply firstn_skipn).
  assert (Ha1 : Forall ascii (firstn (S at_) text)).
  { rewrite Hsplit in Hasc. apply Forall_app in Hasc. tauto. }
  assert (Hb1 : byte_len (firstn (S at_) text) = N.of_nat (S at_)).
  { rewrite (byte_len_ascii _ Ha1), firstn_length. f_equal. lia. }
  apply (span_ok_slice src (a ++ firstn (S at_) text) (skipn (S at_) text) b).
  - rewrite Hs, Hsplit at 1. now rewrite <- !app_assoc.
  - rewrite byte_len_app, Hb1, Ho. lia.
  - unfold span_end. rewrite Hl, Ho. rewrite Hsplit at 1. rewrite byte_len_app, Hb1. lia.
Qed.

Lemma version_of_out t :
  item_wf src (LTok t) -> Forall ascii (ttext t) ->
  match version_of t (ttext t) with inl _ => True | inr x => err_ok x end.
Proof.
  intros Hi Hasc. unfold version_of. destruct (find_char c_atsign (ttext t)) as [at_|] eqn:Ef; [|exact I].
  destruct (parse_version (skipn (S at_) (ttext t))); [exact I|]. cbn [err_ok]. now apply version_span_ok.
Qed.

Lemma parse_package_name_good : goodB (fuel e) (fun p => Forall ok (pkgname_spans p)) (parse_package_name e).
Proof.
  intros ts Hwf _ Hf. unfold parse_package_name. gbind next_tok_out.
  destruct Pa as [Hk Hi]. pose proof Hi as (_ & _ & _ & Hshape & _). rewrite Hk in Hshape. cbn [text_shape] in Hshape.
  unfold package_name_of. pose proof (version_of_out a Hi Hshape) as Hv.
  destruct (version_of a (ttext a)) as [ver|x]; cbn [of_leaf outcome]; [|exact Hv].
  split; [|split; [assumption|lenf]]. cbn [pkgname_spans pn_span]. constructor; [|constructor]. now apply item_wf_span in Hi.
Qed.

Lemma parse_package_path_good : goodB (fuel e) (fun p => Forall ok (pkgpath_spans p)) (parse_package_path e).
Proof.
  intros ts Hwf _ Hf. unfold parse_package_path. gbind next_tok_out.
  destruct Pa as [Hk Hi]. pose proof Hi as (_ & _ & _ & Hshape & _). rewrite Hk in Hshape. cbn [text_shape] in Hshape.
  destruct Hshape as [Hsl Hasc].
  unfold package_path_of. destruct (find_char c_slash (ttext a)) as [sl|]; [|congruence].
  pose proof (version_of_out a Hi Hasc) as Hv.
  destruct (version_of a (ttext a)) as [ver|x]; cbn [of_leaf outcome]; [|exact Hv].
  split; [|split; [assumption|lenf]]. cbn [pkgpath_spans pp_span]. constructor; [|constructor]. now apply item_wf_span in Hi.
Qed.

(** Branch lists of [alt]: one goal per branch. *)
Ltac galt :=
  apply alt_out; [eassumption|cbn; discriminate|];
  repeat (apply Forall_cons || apply Forall_nil); cbn [fst snd];
  let k := fresh "k" in let Ek := fresh "Ek" in let Em := fresh "Em" in intros k Ek Em.

(** [alt ... rs >>= k] with result predicate [P]: one goal per branch, then the continuation. *)
Ltac galtP P :=
  match goal with
  | |- outcome _ _ (bind (alt _ _ ?rs) _) =>
      eapply (bind_out P (fun n => n < length rs)); [galt|]
  end.

(** [parse_optional k cb rs >>= k'] with callback predicate [PA]: the callback goal, then the continuation. *)
Ltac goptP PA :=
  match goal with
  | |- outcome _ _ (bind (parse_optional _ _ ?rs) _) =>
      eapply (bind_out (fun o => match o with Some x => PA x | None => True end) (fun n => n <= length rs));
      [apply (parse_optional_out PA); [eassumption|]|]
  end.

(** [delimited_items ... p rs >>= k] where [lem : goodB (fuel e) PA p]. *)
Ltac gdelim PA lem :=
  eapply bind_out;
  [apply (delimited_items_out PA (fuel e)); [apply goodB_F, lem|eassumption|lenf|lenf]|];
  let a := fresh "items" in let r := fresh "r" in let Pa := fresh "Pitems" in
  let Hr := fresh "Hwf" in let Hl := fresh "Hl" in
  intros a r Pa Hr Hl; cbv beta in Hl.

Ltac kont a r Pa Hr Hl := intros a r Pa Hr Hl; cbv beta in Hl.

Lemma match_list_same {X Y} (l : list X) (y : Y) : match l with [] => y | _ :: _ => y end = y.
Proof. now destruct l. Qed.

Lemma parse_extern_name_good : goodB (fuel e) (fun n => Forall ok (extern_name_spans n)) (parse_extern_name e).
Proof.
  intros ts Hwf _ Hf. unfold parse_extern_name. galt.
  - gbind parse_ident_good. gret.
  - gbind parse_string_good. gret.
Qed.

Ltac lafail := apply la_fail_out; [eassumption|discriminate].

Notation Pty := (fun t : ty => Forall ok (ty_spans t)).

Lemma result_arg_good b (self : parser ty) :
  goodB b Pty self -> goodB b (fun o => Forall ok (opt_spans ty_spans o)) (result_arg self e).
Proof.
  intros Hs ts Hwf Hb Hf. unfold result_arg.
  destruct (peek_kind ts) as [k|] eqn:Ek; [|lafail].
  destruct (token_eqb k TUnderscore).
  - destruct (peek_kind_Some _ _ Ek) as (t & r & -> & _). apply wf_inv in Hwf. destruct Hwf as [_ Hr].
    cbn [any_tok bind outcome]. split; [constructor|split; [exact Hr|cbn [length]; lia]].
  - destruct (mem_tok k type_first); [|lafail]. gbind Hs. gret.
Qed.

Lemma type_step_good b (self : parser ty) : goodB b Pty self -> goodB (S b) Pty (type_step self e).
Proof.
  intros Hs ts Hwf Hb Hf. unfold type_step. pose proof Hwf as Hwf0.
  heads ts Hwf; try lafail.
  pose proof (item_wf_span _ _ Hi) as Hts.
  destruct (prim_of_token (tk t)) as [pr|] eqn:Ep.
  { gret. }
  destruct (tk t) eqn:Ek; try discriminate Ep; try lafail.
  - (* ident *) gretP. unfold mk_ident. spans.
  - (* tuple *)
    gbindn parse_token_out as sp1 r1 Psp1 Hr1 Hl1.
    destruct (peek_in type_first r1) eqn:Epk; [|lafail].
    pose proof (delimited_items_out Pty b TCloseAngle true type_first self r1 (goodB_F _ _ _ _ Hs) Hr1
                  ltac:(lenf) ltac:(lenf)) as Hdl.
    destruct (delimited_items e TCloseAngle true type_first self r1) as [tys r2| | | |] eqn:Ed;
      cbn [outcome bind] in *; auto.
    destruct Hdl as (Ptys & Hr2 & Hl2).
    destruct tys as [|ty0 tys].
    { exfalso. apply (delimited_items_ok (fun ts r a => self ts = POk a r)) in Ed; [|auto]. destruct Ed as ((tr & Hsl) & Hn).
      now apply (seplist_nonempty _ _ _ _ _ _ _ Hsl Epk Hn). }
    gbind parse_token_out. gret.
  - (* list *) unfold angle1. gbind parse_token_out. gbind Hs. gbind parse_token_out. gret.
  - (* option *) unfold angle1. gbind parse_token_out. gbind Hs. gbind parse_token_out. gret.
  - (* result *)
    goptP (fun x : option ty * option ty * span =>
             let '(o1, o2, sp) := x in Forall ok (opt_spans ty_spans o1) /\ Forall ok (opt_spans ty_spans o2) /\ ok sp).
    + intros r1 Hr1 Hl1. gbind (result_arg_good b self Hs). goptP (fun o : option ty => Forall ok (opt_spans ty_spans o)).
      { intros r3 Hr3 Hl3.
        eapply outcome_weaken; [apply (result_arg_good b self Hs); [assumption|lenf|lenf] | intros ? HH; exact HH | intros ? HH; lenf]. }
      kont err r3 Perr Hr3 Hl3. unfold result_shape_ok. rewrite Hd. cbn [result_underscore_forms impl_flags orb].
      gbind parse_token_out. gretP.
      split; [assumption|]. split; [destruct err as [x|]; [exact Perr|constructor]|]. spans.
    + kont res r5 Pres Hr5 Hl5. destruct res as [[[o1 o2] sp]|].
      * destruct Pres as (P1 & P2 & P3). gretP.
        cbn [ty_spans]. constructor; [exact P3|]. apply Forall_app. split.
        -- destruct o1; [exact P1|constructor].
        -- destruct o2; [exact P2|constructor].
      * gretP. cbn [ty_spans app]. constructor; [exact Hts|constructor].
  - (* borrow *)
    gbind parse_token_out. rewrite Hd. cbn [borrow_any_type impl_flags].
    gbind parse_ident_good. gbind parse_token_out. gret.
Qed.

Lemma parse_type_f_good : forall f, goodB f Pty (parse_type_f f e).
Proof.
  induction f as [|f IH]; [intros ts _ Hb; lia|]. cbn [parse_type_f]. now apply type_step_good.
Qed.

Lemma parse_type_good : goodB (fuel e) Pty (parse_type e).
Proof. apply parse_type_f_good. Qed.

Lemma parse_named_type_good :
  goodB (fuel e) (fun n => Forall ok (named_type_spans n)) (parse_named_type e).
Proof.
  intros ts Hwf _ Hf. unfold parse_named_type.
  gbind parse_ident_good. gbind parse_token_out. gbind parse_type_good. gret.
Qed.

Lemma parse_params_good until ts :
  wf ts -> length ts < fuel e ->
  outcome (Forall (fun n => Forall ok (named_type_spans n))) (fun m => m <= length ts) (parse_params e until ts).
Proof.
  intros Hwf Hf. unfold parse_params.
  apply (delimited_items_out _ (fuel e)); auto. apply goodB_F, parse_named_type_good.
Qed.

Lemma parse_result_list_good ts :
  wf ts -> length ts < fuel e ->
  outcome (fun x => Forall ok (result_list_spans x)) (fun m => m <= length ts) (parse_result_list e ts).
Proof.
  intros Hwf Hf. unfold parse_result_list.
  destruct (peek_in type_first ts).
  { apply outcome_lt_le. gbind parse_type_good. gret. }
  rewrite Hd. cbn [named_results arrow_empty_results impl_flags andb].
  gret.
Qed.

Lemma parse_func_type_good : goodB (fuel e) (fun f => Forall ok (func_type_spans f)) (parse_func_type e).
Proof.
  intros ts Hwf _ Hf. unfold parse_func_type.
  gbind parse_token_out. gbind parse_token_out. gbind parse_params_good. gbind parse_token_out.
  goptP (fun x => Forall ok (result_list_spans x)).
  { intros r4 Hr4 Hl4. apply parse_result_list_good; [assumption|lenf]. }
  kont res r4 Pres Hr4 Hl4. gretP.
  destruct res as [x|]; spans.
Qed.

Notation Pdecl := (fun d : item_type_decl => Forall ok (item_type_decl_spans d)).

Lemma parse_variant_case_good :
  goodB (fuel e) (fun v => Forall ok (variant_case_spans v)) (parse_variant_case e).
Proof.
  intros ts Hwf _ Hf. unfold parse_variant_case. cbv zeta.
  gbind parse_ident_good. goptP (fun t : ty => Forall ok (ty_spans t)).
  - intros r1 Hr1 Hl1. apply outcome_lt_le. gbind parse_type_good. gbind parse_token_out. gret.
  - kont t r4 Pt Hr4 Hl4. gretP. destruct t; spans.
Qed.

Lemma parse_field_good : goodB (fuel e) (fun f => Forall ok (field_spans f)) (parse_field e).
Proof. intros ts Hwf _ Hf. unfold parse_field. cbv zeta. gbind parse_named_type_good. gret. Qed.

Lemma parse_flag_good : goodB (fuel e) (fun f => Forall ok (flag_spans f)) (parse_flag e).
Proof. intros ts Hwf _ Hf. unfold parse_flag. cbv zeta. gbind parse_ident_good. gret. Qed.

Lemma parse_enum_case_good : goodB (fuel e) (fun f => Forall ok (enum_case_spans f)) (parse_enum_case e).
Proof. intros ts Hwf _ Hf. unfold parse_enum_case. cbv zeta. gbind parse_ident_good. gret. Qed.

Lemma braced_nonempty_good {A} kw which (item : parser A) mk (PA : A -> Prop) :
  goodB (fuel e) PA item ->
  (forall docs i items, Forall ok (docs_spans docs) -> Forall ok (ident_spans i) -> Forall PA items ->
                        Forall ok (item_type_decl_spans (mk docs i items))) ->
  goodB (fuel e) Pdecl (braced_nonempty e kw which item mk).
Proof.
  intros Hitem Hmk ts Hwf _ Hf. unfold braced_nonempty. cbv zeta.
  gbind parse_token_out. gbind parse_ident_good. gbind parse_token_out. gdelim PA Hitem.
  gbind parse_token_out. destruct items as [|x items].
  - cbn [outcome err_ok]. assumption.
  - gretP. apply Hmk; auto. now apply docs_of_ok.
Qed.

Lemma parse_type_alias_good : goodB (fuel e) Pdecl (parse_type_alias e).
Proof.
  intros ts Hwf _ Hf. unfold parse_type_alias. cbv zeta.
  gbind parse_token_out. gbind parse_ident_good. gbind parse_token_out.
  galtP (fun k : type_alias_kind => Forall ok (alias_kind_spans k)).
  - gbind parse_func_type_good. gret.
  - gbind parse_type_good. gret.
  - kont k r3 Pk Hr3 Hl3. gbind parse_token_out. gret.
Qed.

Lemma parse_constructor_good :
  goodB (fuel e) (fun m => Forall ok (resource_method_spans m)) (parse_constructor e).
Proof.
  intros ts Hwf _ Hf. unfold parse_constructor. cbv zeta.
  gbind parse_token_out. gbind parse_token_out. gbind parse_params_good. gbind parse_token_out.
  gbind parse_token_out. gret.
Qed.

Lemma parse_method_good :
  goodB (fuel e) (fun m => Forall ok (resource_method_spans m)) (parse_method e).
Proof.
  intros ts Hwf _ Hf. unfold parse_method. cbv zeta.
  gbind parse_ident_good. gbindn parse_token_out as sp1 r1 Psp1 Hr1 Hl1.
  destruct (peek_in [TStaticKeyword] r1) eqn:Es.
  - destruct (proj1 (peek_in_iff _ _) Es) as (t & r' & -> & _). apply wf_inv in Hr1. destruct Hr1 as [_ Hr'].
    cbn [any_tok bind]. gbind parse_func_type_good. gbind parse_token_out. gret.
  - cbn [bind]. gbind parse_func_type_good. gbind parse_token_out. gret.
Qed.

Lemma parse_resource_method_good :
  goodB (fuel e) (fun m => Forall ok (resource_method_spans m)) (parse_resource_method e).
Proof.
  intros ts Hwf _ Hf. unfold parse_resource_method. galt.
  - now apply parse_constructor_good.
  - now apply parse_method_good.
Qed.

Lemma parse_resource_decl_good : goodB (fuel e) Pdecl (parse_resource_decl e).
Proof.
  intros ts Hwf _ Hf. unfold parse_resource_decl. cbv zeta.
  gbind parse_token_out. gbind parse_ident_good.
  galtP (Forall (fun m => Forall ok (resource_method_spans m))).
  - destruct (peek_kind_Some _ _ Ek) as (t & r' & -> & _).
    match goal with H : wf (LTok t :: r') |- _ => apply wf_inv in H; destruct H as [_ Hr'] end.
    cbn [any_tok bind]. gret.
  - gbind parse_token_out.
    gdelim (fun m => Forall ok (resource_method_spans m)) parse_resource_method_good.
    gbind parse_token_out. gret.
  - kont ms r2 Pms Hr2 Hl2. gret.
Qed.

Lemma type_decl_branches_good ts :
  wf ts -> length ts < fuel e ->
  Forall (fun b => forall k, peek_kind ts = Some k -> mem_tok k (fst b) = true ->
                   outcome Pdecl (fun n => n < length ts) (snd b ts)) (type_decl_branches e).
Proof.
  intros Hwf Hf. repeat constructor; cbn [snd]; intros _ _ _.
  - apply (braced_nonempty_good _ _ _ _ (fun v => Forall ok (variant_case_spans v))); auto using parse_variant_case_good.
    intros. spans.
  - apply (braced_nonempty_good _ _ _ _ (fun v => Forall ok (field_spans v))); auto using parse_field_good. intros. spans.
  - apply (braced_nonempty_good _ _ _ _ (fun v => Forall ok (flag_spans v))); auto using parse_flag_good. intros. spans.
  - apply (braced_nonempty_good _ _ _ _ (fun v => Forall ok (enum_case_spans v))); auto using parse_enum_case_good.
    intros. spans.
  - now apply parse_type_alias_good.
Qed.

Lemma parse_type_decl_good : goodB (fuel e) Pdecl (parse_type_decl e).
Proof. intros ts Hwf _ Hf. apply alt_out; [assumption|discriminate|now apply type_decl_branches_good]. Qed.

Lemma parse_item_type_decl_good : goodB (fuel e) Pdecl (parse_item_type_decl e).
Proof.
  intros ts Hwf _ Hf. apply alt_out; [assumption|discriminate|].
  constructor; [|now apply type_decl_branches_good]. intros _ _ _. now apply parse_resource_decl_good.
Qed.

Lemma parse_use_path_good : goodB (fuel e) (fun p => Forall ok (use_path_spans p)) (parse_use_path e).
Proof.
  intros ts Hwf _ Hf. unfold parse_use_path. galt.
  - gbind parse_package_path_good. gret.
  - gbind parse_ident_good. gret.
Qed.

Lemma parse_use_item_good : goodB (fuel e) (fun u => Forall ok (use_item_spans u)) (parse_use_item e).
Proof.
  intros ts Hwf _ Hf. unfold parse_use_item. gbind parse_ident_good.
  goptP (fun i => Forall ok (ident_spans i)).
  - intros r1 Hr1 Hl1. apply outcome_lt_le. apply parse_ident_good; [assumption|lenf|lenf].
  - kont o r1 Po Hr1 Hl1. gretP. destruct o; spans.
Qed.

Lemma parse_use_good : goodB (fuel e) (fun u => Forall ok (use_decl_spans u)) (parse_use e).
Proof.
  intros ts Hwf _ Hf. unfold parse_use. cbv zeta.
  gbind parse_token_out. gbind parse_use_path_good. gbind parse_token_out. gbind parse_token_out.
  gdelim (fun u => Forall ok (use_item_spans u)) parse_use_item_good.
  rewrite Hd. cbn [empty_use_items impl_flags].
  rewrite match_list_same. cbn [bind].
  gbind parse_token_out. gbind parse_token_out. gret.
Qed.

Lemma parse_func_type_ref_good :
  goodB (fuel e) (fun r => Forall ok (func_type_ref_spans r)) (parse_func_type_ref e).
Proof.
  intros ts Hwf _ Hf. unfold parse_func_type_ref. galt.
  - gbind parse_func_type_good. gret.
  - gbind parse_ident_good. gret.
Qed.

Notation Pii := (fun i : interface_item => Forall ok (interface_item_spans i)).

Lemma parse_interface_export_good : goodB (fuel e) Pii (parse_interface_export e).
Proof.
  intros ts Hwf _ Hf. unfold parse_interface_export. cbv zeta.
  gbind parse_ident_good. gbind parse_token_out. gbind parse_func_type_ref_good. gbind parse_token_out. gret.
Qed.

Lemma parse_interface_item_good : goodB (fuel e) Pii (parse_interface_item e).
Proof.
  intros ts Hwf _ Hf. unfold parse_interface_item. galt.
  - gbind parse_use_good. gret.
  - now apply parse_interface_export_good.
  - gbind parse_item_type_decl_good. gret.
Qed.

Lemma parse_interface_body_good : goodB (fuel e) (Forall Pii) (parse_interface_body e).
Proof.
  intros ts Hwf _ Hf. unfold parse_interface_body.
  gbind parse_token_out. gdelim (fun i : interface_item => Forall ok (interface_item_spans i)) parse_interface_item_good. gbind parse_token_out.
  gret.
Qed.

Lemma parse_inline_interface_good : goodB (fuel e) (Forall Pii) (parse_inline_interface e).
Proof.
  intros ts Hwf _ Hf. unfold parse_inline_interface. gbind parse_token_out.
  eapply outcome_weaken; [apply parse_interface_body_good; [assumption|lenf|lenf] | intros ? HH; exact HH | intros ? HH; lenf].
Qed.

Notation Pts := (fun t : type_statement => Forall ok (type_statement_spans t)).

Lemma parse_interface_decl_good : goodB (fuel e) Pts (parse_interface_decl e).
Proof.
  intros ts Hwf _ Hf. unfold parse_interface_decl. cbv zeta.
  gbind parse_token_out. gbind parse_ident_good. gbind parse_interface_body_good. gret.
Qed.

Lemma parse_extern_type_good : goodB (fuel e) (fun t => Forall ok (extern_type_spans t)) (parse_extern_type e).
Proof.
  intros ts Hwf _ Hf. unfold parse_extern_type. galt.
  - gbind parse_ident_good. gret.
  - gbind parse_func_type_good. gret.
  - gbind parse_inline_interface_good. gret.
Qed.

Lemma parse_world_item_path_good :
  goodB (fuel e) (fun p => Forall ok (world_item_path_spans p)) (parse_world_item_path e).
Proof.
  intros ts Hwf _ Hf. unfold parse_world_item_path. galt.
  - gbind parse_package_path_good. gret.
  - destruct (is_colon (peek2_kind ts)).
    + gbind parse_ident_good. gbind parse_token_out. gbind parse_extern_type_good. gret.
    + gbind parse_ident_good. gret.
Qed.

Notation Pwi := (fun w : world_item => Forall ok (world_item_spans w)).

Lemma parse_world_port_good kw mk :
  (forall docs p, Forall ok (docs_spans docs) -> Forall ok (world_item_path_spans p) -> Pwi (mk docs p)) ->
  goodB (fuel e) Pwi (parse_world_port e kw mk).
Proof.
  intros Hmk ts Hwf _ Hf. unfold parse_world_port. cbv zeta.
  gbind parse_token_out. gbind parse_world_item_path_good. gbind parse_token_out.
  gretP. apply Hmk; auto. now apply docs_of_ok.
Qed.

Lemma parse_world_ref_good : goodB (fuel e) (fun w => Forall ok (world_ref_spans w)) (parse_world_ref e).
Proof.
  intros ts Hwf _ Hf. unfold parse_world_ref. galt.
  - gbind parse_package_path_good. gret.
  - gbind parse_ident_good. gret.
Qed.

Lemma parse_include_item_good :
  goodB (fuel e) (fun i => Forall ok (include_item_spans i)) (parse_include_item e).
Proof.
  intros ts Hwf _ Hf. unfold parse_include_item.
  gbind parse_ident_good. gbind parse_token_out. gbind parse_ident_good. gret.
Qed.

Lemma parse_world_include_good : goodB (fuel e) Pwi (parse_world_include e).
Proof.
  intros ts Hwf _ Hf. unfold parse_world_include. cbv zeta.
  gbind parse_token_out. gbind parse_world_ref_good.
  goptP (Forall (fun i => Forall ok (include_item_spans i))).
  - intros r2 Hr2 Hl2. apply outcome_lt_le. gbind parse_token_out.
    gdelim (fun i => Forall ok (include_item_spans i)) parse_include_item_good.
    rewrite Hd. cbn [empty_include_with impl_flags].
    rewrite match_list_same. cbn [bind]. gbind parse_token_out.
    gret.
  - kont w_ r6 Pw Hr6 Hl6. gbind parse_token_out. gretP.
    destruct w_; spans.
Qed.

Lemma parse_world_item_good : goodB (fuel e) Pwi (parse_world_item e).
Proof.
  intros ts Hwf _ Hf. unfold parse_world_item. galt.
  - gbind parse_use_good. gret.
  - apply parse_world_port_good; auto. intros. spans.
  - apply parse_world_port_good; auto. intros. spans.
  - now apply parse_world_include_good.
  - gbind parse_item_type_decl_good. gret.
Qed.

Lemma parse_world_decl_good : goodB (fuel e) Pts (parse_world_decl e).
Proof.
  intros ts Hwf _ Hf. unfold parse_world_decl. cbv zeta.
  gbind parse_token_out. gbind parse_ident_good. gbind parse_token_out.
  gdelim (fun w : world_item => Forall ok (world_item_spans w)) parse_world_item_good. gbind parse_token_out. gret.
Qed.

Lemma parse_type_statement_good : goodB (fuel e) Pts (parse_type_statement e).
Proof.
  intros ts Hwf _ Hf. unfold parse_type_statement. galt.
  - now apply parse_interface_decl_good.
  - now apply parse_world_decl_good.
  - gbind parse_type_decl_good. gret.
Qed.

Notation Pexpr := (fun x : expr => Forall ok (expr_spans x)).
Notation Ppost := (fun x : postfix_expr => Forall ok (postfix_spans x)).
Notation Parg := (fun a : inst_arg => Forall ok (arg_spans a)).

Lemma parse_arg_name_good : goodB (fuel e) (fun n => Forall ok (arg_name_spans n)) (parse_arg_name e).
Proof.
  intros ts Hwf _ Hf. unfold parse_arg_name. galt.
  - gbind parse_ident_good. gret.
  - gbind parse_string_good. gret.
Qed.

Lemma parse_inst_arg_good b (self : parser expr) : goodB b Pexpr self -> goodB b Parg (parse_inst_arg self e).
Proof.
  intros Hs ts Hwf Hb Hf. unfold parse_inst_arg.
  destruct (peek_kind ts) as [k|] eqn:Ek; [|lafail].
  destruct (token_eqb k TEllipsis).
  - destruct (peek_kind_Some _ _ Ek) as (t & r & -> & _). apply wf_inv in Hwf. destruct Hwf as [[Hi _] Hr].
    pose proof (item_wf_span _ _ Hi) as Hts. cbn [any_tok bind].
    destruct (peek_in [TComma; TCloseBrace] r).
    + gret.
    + gbind parse_ident_good. gret.
  - destruct (mem_tok k [TIdent; TString]); [|lafail].
    destruct (is_colon (peek2_kind ts)).
    + gbind parse_arg_name_good. gbind parse_token_out. gbind Hs. gret.
    + gbind parse_ident_good. gret.
Qed.

Lemma postfix_loop_good : forall n ts, wf ts -> length ts < n -> length ts < fuel e ->
  outcome (Forall Ppost) (fun m => m <= length ts) (postfix_loop n e ts).
Proof.
  induction n as [|n IH]; intros ts Hwf Hn Hf; [lia|]. cbn [postfix_loop].
  destruct (peek_kind ts) as [k|]; [|gret].
  destruct (token_eqb k TDot).
  { gbind parse_token_out. gbind parse_ident_good.
    gbindn IH as rest r2 Prest Hr2 Hl2.
    gret. }
  destruct (token_eqb k TOpenBracket).
  { gbind parse_token_out. gbind parse_string_good. gbind parse_token_out.
    gbindn IH as rest r3 Prest Hr3 Hl3.
    gret. }
  gret.
Qed.

Lemma primary_span_ok p : Forall ok (primary_spans p) -> ok (primary_span p).
Proof. destruct p; cbn [primary_spans primary_span ident_spans]; intros H; now inversion H. Qed.

Lemma postfix_span_ok x : Forall ok (postfix_spans x) -> ok (postfix_span x).
Proof. destruct x; cbn [postfix_spans postfix_span]; intros H; now inversion H. Qed.

Lemma mk_expr_ok p post :
  Forall ok (primary_spans p) -> Forall Ppost post -> Forall ok (expr_spans (mk_expr p post)).
Proof.
  intros Hp Hpost. unfold mk_expr. cbn [expr_spans]. constructor.
  - pose proof (primary_span_ok _ Hp) as Hs. destruct post as [|x post]; [exact Hs|].
    apply ok_join; [exact Hs|]. apply postfix_span_ok.
    apply (Forall_last Ppost); [exact Hpost|discriminate].
  - apply Forall_app. split; [exact Hp|now apply Forall_flat_map].
Qed.

Lemma primary_step_good b (self : parser expr) :
  goodB b Pexpr self -> goodB (S b) (fun p => Forall ok (primary_spans p)) (primary_step self e).
Proof.
  intros Hs ts Hwf Hb Hf. unfold primary_step. galt.
  - gbind parse_token_out. gbind parse_package_name_good. gbindn parse_token_out as sp2 r2 Psp2 Hr2 Hl2.
    unfold delimited.
    eapply bind_out;
      [apply (delim_loop_out Parg b TCloseBrace true inst_arg_first (parse_inst_arg self e)
                (goodB_F _ _ _ _ (parse_inst_arg_good b self Hs))); [eassumption|lenf|lenf|lenf]|].
    intros [args tr] r3 Pargs Hr3 Hl3. cbv beta in Hl3. cbn [fst] in Pargs.
    rewrite Hd, args_ok_impl. gbind parse_token_out. gret.
  - gbind parse_token_out. gbind Hs. gbind parse_token_out. gret.
  - gbind parse_ident_good. gret.
Qed.

Lemma expr_step_good b (self : parser expr) : goodB b Pexpr self -> goodB (S b) Pexpr (expr_step self e).
Proof.
  intros Hs ts Hwf Hb Hf. unfold expr_step.
  gbind (primary_step_good b self Hs).
  gbindn postfix_loop_good as post r1 Ppo Hr1 Hl1.
  gretP. now apply mk_expr_ok.
Qed.

Lemma parse_expr_f_good : forall f, goodB f Pexpr (parse_expr_f f e).
Proof.
  induction f as [|f IH]; [intros ts _ Hb; lia|]. cbn [parse_expr_f]. now apply expr_step_good.
Qed.

Lemma parse_expr_good : goodB (fuel e) Pexpr (parse_expr e).
Proof. apply parse_expr_f_good. Qed.

Notation Pstmt := (fun s : statement => Forall ok (statement_spans s)).

Lemma parse_import_type_good : goodB (fuel e) (fun t => Forall ok (import_type_spans t)) (parse_import_type e).
Proof.
  intros ts Hwf _ Hf. unfold parse_import_type. galt.
  - gbind parse_func_type_good. gret.
  - gbind parse_inline_interface_good. gret.
  - gbind parse_package_path_good. gret.
  - gbind parse_ident_good. gret.
Qed.

Lemma parse_import_statement_good : goodB (fuel e) Pstmt (parse_import_statement e).
Proof.
  intros ts Hwf _ Hf. unfold parse_import_statement. cbv zeta.
  gbind parse_token_out. gbind parse_ident_good.
  goptP (fun n => Forall ok (extern_name_spans n)).
  - intros r1 Hr1 Hl1. apply outcome_lt_le. apply parse_extern_name_good; [assumption|lenf|lenf].
  - kont name r2 Pn Hr2 Hl2. gbind parse_token_out. gbind parse_import_type_good. gbind parse_token_out.
    gretP. destruct name; spans.
Qed.

Lemma parse_let_statement_good : goodB (fuel e) Pstmt (parse_let_statement e).
Proof.
  intros ts Hwf _ Hf. unfold parse_let_statement. cbv zeta.
  gbind parse_token_out. gbind parse_ident_good. gbind parse_token_out. gbind parse_expr_good.
  gbind parse_token_out. gret.
Qed.

Lemma parse_export_options_good ts :
  wf ts -> length ts < fuel e ->
  outcome (fun o => Forall ok (export_options_spans o)) (fun m => m <= length ts) (parse_export_options e ts).
Proof.
  intros Hwf Hf. unfold parse_export_options.
  destruct (peek_in [TEllipsis] ts).
  { apply outcome_lt_le. gbind parse_token_out. gret. }
  destruct (peek_in [TAsKeyword] ts).
  { apply outcome_lt_le. gbind parse_token_out. gbind parse_extern_name_good. gret. }
  gret.
Qed.

Lemma parse_export_statement_good : goodB (fuel e) Pstmt (parse_export_statement e).
Proof.
  intros ts Hwf _ Hf. unfold parse_export_statement. cbv zeta.
  gbind parse_token_out. gbind parse_expr_good. gbind parse_export_options_good. gbind parse_token_out. gret.
Qed.

Lemma parse_statement_good : goodB (fuel e) Pstmt (parse_statement e).
Proof.
  intros ts Hwf _ Hf. unfold parse_statement. galt.
  - now apply parse_import_statement_good.
  - now apply parse_let_statement_good.
  - now apply parse_export_statement_good.
  - gbind parse_type_statement_good. gret.
Qed.

Lemma parse_directive_good : goodB (fuel e) (fun d => Forall ok (directive_spans d)) (parse_directive e).
Proof.
  intros ts Hwf _ Hf. unfold parse_directive.
  gbind parse_token_out. gbind parse_package_name_good.
  goptP (fun p => Forall ok (pkgpath_spans p)).
  - intros r1 Hr1 Hl1. apply outcome_lt_le. apply parse_package_path_good; [assumption|lenf|lenf].
  - kont t r2 Pt Hr2 Hl2. gbind parse_token_out. gretP.
    destruct t; spans.
Qed.

Lemma statements_loop_good : forall n ts, wf ts -> length ts < n -> length ts < fuel e ->
  outcome (Forall Pstmt) (fun m => m = 0) (statements_loop n e ts).
Proof.
  induction n as [|n IH]; intros ts Hwf Hn Hf; [lia|]. cbn [statements_loop].
  destruct ts as [|x ts']; [cbn [outcome length]; split; [constructor|split; [constructor|reflexivity]]|].
  set (ts := x :: ts') in *.
  gbind parse_statement_good.
  gbindn IH as rest r1 Prest Hr1 Hl1.
  cbn [outcome]. split; [constructor; assumption|split; [assumption|exact Hl1]].
Qed.

Lemma parse_document_items_good ts :
  wf ts -> length ts < fuel e ->
  outcome (fun d => Forall ok (document_spans d)) (fun m => m = 0) (parse_document_items e ts).
Proof.
  intros Hwf Hf. unfold parse_document_items. cbv zeta.
  gbind parse_directive_good.
  gbindn statements_loop_good as ss r1 Pss Hr1 Hl1.
  destruct r1 as [|y r1]; [|discriminate Hl1].
  cbn [outcome length]. split; [spans|split; [constructor|reflexivity]].
Qed.

End Pass.
