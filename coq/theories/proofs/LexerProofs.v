(** Screening ([detect_invalid_input]): first forbidden code point, byte offset, UTF-8 length. *)
From WacV Require Import Str Ord Token Lexer LexTables LexImpl LexSpec LexTablesProofs.
From Coq Require Import Lia.

Lemma screen_from_some a : forall s o e sp,
  screen_from a o s = Some (e, sp) <->
  exists pre c post, s = pre ++ c :: post /\ (forall x, In x pre -> arm_verdict a x = None) /\
                     arm_verdict a c = Some e /\ sp = {| off := o + byte_len pre; slen := utf8_len c |}.
Proof.
  induction s as [|c s IH]; intros o e sp; cbn [screen_from].
  - split; [discriminate|]. intros (pre & c & post & H & _). destruct pre; discriminate.
  - destruct (arm_verdict a c) as [e'|] eqn:E.
    + split.
      * intros H; inversion H; subst. exists [], c, s. cbn. repeat split; auto; try tauto. f_equal. lia.
      * intros (pre & c' & post & H & Hpre & Hc & ->). destruct pre as [|x pre].
        -- cbn in H. inversion H; subst. rewrite E in Hc. inversion Hc; subst. cbn. do 3 f_equal. lia.
        -- cbn in H. inversion H; subst. specialize (Hpre x (or_introl eq_refl)). congruence.
    + rewrite IH. split.
      * intros (pre & c' & post & -> & Hpre & Hc & ->). exists (c :: pre), c', post. cbn [app byte_len].
        repeat split; auto; [|f_equal; lia]. intros x [<-|Hx]; auto.
      * intros (pre & c' & post & H & Hpre & Hc & ->). destruct pre as [|x pre].
        -- cbn in H. inversion H; subst. congruence.
        -- cbn in H. inversion H; subst. exists pre, c', post. cbn [byte_len].
           repeat split; auto; [|f_equal; lia]. intros y Hy. apply Hpre. now right.
Qed.

Lemma screen_from_none a : forall s o,
  screen_from a o s = None <-> forall x, In x s -> arm_verdict a x = None.
Proof.
  induction s as [|c s IH]; intros o; cbn [screen_from].
  - split; auto. intros _ x [].
  - destruct (arm_verdict a c) eqn:E.
    + split; [discriminate|]. intros H. specialize (H c (or_introl eq_refl)). congruence.
    + rewrite IH. split.
      * intros H x [<-|Hx]; auto.
      * intros H x Hx. apply H. now right.
Qed.

(** The documented predicate (property C12): bidirectional overrides, deprecated code points, and
    control characters other than tab, LF, CR. *)
Definition doc_forbidden (c : N) : bool :=
  negb (mem_N c doc_allowed_controls) && (mem_N c doc_bidi || mem_N c doc_deprecated || is_control c).

Lemma mem_N_In c l : mem_N c l = true <-> In c l.
Proof.
  induction l as [|x l IH]; cbn [mem_N In]; [split; [discriminate|tauto]|].
  rewrite orb_true_iff, N.eqb_eq, IH. tauto.
Qed.

Lemma insert_N_In c x l : In x (insert_N c l) <-> x = c \/ In x l.
Proof.
  induction l as [|y l IH]; cbn; [intuition congruence|]. destruct (c <=? y); cbn; [intuition congruence|]. rewrite IH. intuition congruence.
Qed.

Lemma sort_N_In x l : In x (sort_N l) <-> In x l.
Proof. induction l as [|y l IH]; cbn; [tauto|]. rewrite insert_N_In, IH. intuition. Qed.

Lemma mem_N_sort c l : mem_N c (sort_N l) = mem_N c l.
Proof. apply eq_true_iff_eq. now rewrite !mem_N_In, sort_N_In. Qed.

Lemma arm_verdict_norm a c : arm_verdict (map norm_arm a) c = arm_verdict a c.
Proof.
  induction a as [|[cs|k cs|k|k|] a IH]; cbn [map norm_arm arm_verdict]; auto;
    try rewrite mem_N_sort; rewrite ?IH; reflexivity.
Qed.

(** The arms generated from [lexer.rs] decide exactly the documented predicate. *)
Lemma gen_verdict_documented c :
  (arm_verdict gen_screen_arms c = None <-> doc_forbidden c = false) /\
  (forall e, arm_verdict gen_screen_arms c = Some e ->
     e = (if mem_N c doc_bidi then DisallowedBidirectionalOverride c
          else if mem_N c doc_deprecated then DiscouragedUnicodeCodepoint c
          else DisallowedControlCode c)).
Proof.
  rewrite <- (arm_verdict_norm gen_screen_arms), screen_arms_eq, arm_verdict_norm.
  unfold doc_screen_arms, doc_forbidden. cbn [arm_verdict mk_screen_err].
  destruct (mem_N c doc_allowed_controls); cbn [negb andb].
  { split; [tauto|discriminate]. }
  destruct (mem_N c doc_bidi); cbn [orb].
  { split; [split; discriminate|]. intros e H; now inversion H. }
  destruct (mem_N c doc_deprecated); cbn [orb].
  { split; [split; discriminate|]. intros e H; now inversion H. }
  destruct (is_control c).
  { split; [split; discriminate|]. intros e H; now inversion H. }
  split; [tauto|discriminate].
Qed.

(** [screen_spec]: the screening of the implementation's configuration reports the first documented
    forbidden code point with its byte offset and UTF-8 length, and nothing iff there is none. *)
Lemma screen_spec_some src e sp :
  screen impl_cfg src = Some (e, sp) ->
  exists pre c post, src = pre ++ c :: post /\ forallb (fun x => negb (doc_forbidden x)) pre = true /\
                     doc_forbidden c = true /\ sp = {| off := byte_len pre; slen := utf8_len c |}.
Proof.
  unfold screen, impl_cfg. cbn [arms]. rewrite screen_from_some.
  intros (pre & c & post & -> & Hpre & Hc & ->). exists pre, c, post. repeat split.
  - apply forallb_forall. intros x Hx. apply Hpre in Hx. apply gen_verdict_documented in Hx. now rewrite Hx.
  - destruct (doc_forbidden c) eqn:E; auto. apply gen_verdict_documented in E. congruence.
Qed.

Lemma screen_spec_none src :
  screen impl_cfg src = None <-> forallb (fun x => negb (doc_forbidden x)) src = true.
Proof.
  unfold screen, impl_cfg. cbn [arms]. rewrite screen_from_none, forallb_forall. split.
  - intros H x Hx. apply H in Hx. apply gen_verdict_documented in Hx. now rewrite Hx.
  - intros H x Hx. apply H in Hx. apply gen_verdict_documented. now destruct (doc_forbidden x).
Qed.

Lemma screen_rejects src pre c post :
  src = pre ++ c :: post -> forallb (fun x => negb (doc_forbidden x)) pre = true -> doc_forbidden c = true ->
  exists e, screen impl_cfg src = Some (e, {| off := byte_len pre; slen := utf8_len c |}).
Proof.
  intros -> Hpre Hc. destruct (arm_verdict gen_screen_arms c) as [e|] eqn:E.
  - exists e. unfold screen, impl_cfg. cbn [arms]. apply screen_from_some. exists pre, c, post. repeat split; auto.
    intros x Hx. rewrite forallb_forall in Hpre. apply Hpre in Hx. apply gen_verdict_documented.
    now destruct (doc_forbidden x).
  - apply gen_verdict_documented in E. congruence.
Qed.
