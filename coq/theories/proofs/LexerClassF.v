(** Lexer classes, part F: [lex_longest] (maximal munch). For a token produced at the remaining
    input [s], no prefix of [s] longer than the token's text is a lexeme of ANY token rule. *)
From WacV Require Import Str Ord Token Lexer LexTables LexImpl LexSpec LexTablesProofs Semver Ast Parser LexClasses.
From WacV Require Import StrFacts ListFacts LexerSound LexerClassA LexerClassB LexerClassC LexerClassD LexerClassE.
From Coq Require Import Lia.
Local Open Scope nat_scope.

Section Longest.
Variable d : deviations.
Variable base : lexcfg.
Hypothesis Htab : tables_ok base.
Notation cfg := (cfg_with d base).
Notation au := (uppercase_words d).

Inductive lexeme (p : str) : Prop :=
| lx_id : id_b d p = true -> lexeme p
| lx_pkg i segs path ver : (* a package name ([path = []]) or a package path *)
    p = i ++ chain_text c_colon segs ++ chain_text c_slash path ++ ver -> id_b d i = true -> segs <> [] ->
    forallb (id_b d) segs = true -> forallb (id_b d) path = true -> vtail_b ver = true -> lexeme p
| lx_string : string_b p = true -> lexeme p
| lx_symbol k : In (p, k) doc_symbols -> lexeme p.

Lemma text_of_kind_In k : forall tbl x, text_of_kind k tbl = Some x -> In (x, k) tbl.
Proof.
  induction tbl as [|[y t] tbl IH]; intros x; cbn [text_of_kind]; [discriminate|]. destruct (token_eqb t k) eqn:E.
  - intros H; inversion H; subst. apply token_eqb_eq in E. subst. now left.
  - intros H. right. auto.
Qed.

Lemma tail_b_lower : forall r, forallb lower_or_digit r = true -> tail_b d false r = true.
Proof.
  induction r as [|c r IH]; [reflexivity|]. cbn [forallb]. intros H. apply andb_true_iff in H. destruct H as [Hc H].
  rewrite tail_b_cons. destruct (c =? c_minus)%N eqn:E; [apply N.eqb_eq in E; subst c; discriminate|].
  cbn [cont_b]. now rewrite Hc, IH.
Qed.

Lemma lower_word_id w : lower_word w = true -> id_b d w = true.
Proof.
  destruct w as [|c r]; [discriminate|]. cbn [lower_word]. intros H. apply andb_true_iff in H. destruct H as [Hc H].
  unfold id_b. cbn [strip_percent]. destruct (c =? c_percent)%N eqn:E; [apply N.eqb_eq in E; subst c; discriminate|].
  rewrite kebab_b_cons, Hc, tail_b_lower by exact H. reflexivity.
Qed.

Lemma rule_class_plain k p :
  special k = false -> rule_class d k p = match fixed_text k with Some x => str_eqb x p | None => false end.
Proof. destruct k; try discriminate; intros _; reflexivity. Qed.

Lemma rule_class_lexeme k p : rule_class d k p = true -> lexeme p.
Proof.
  destruct (special k) eqn:Esp.
  - destruct k; try discriminate Esp; cbn [rule_class]; intros H; try discriminate H.
    + now apply lx_id.
    + now apply lx_string.
    + destruct (pkg_name_inv d _ H) as (i & segs & ver & -> & Hi & Hne & Hs & Hv). now apply (lx_pkg _ i segs [] ver).
    + destruct (pkg_path_inv d _ H) as (i & segs & path & ver & -> & Hi & Hne & Hs & Hpne & Hp & Hv). eapply lx_pkg; eauto.
  - rewrite rule_class_plain by exact Esp. unfold fixed_text.
    destruct (text_of_kind k (doc_keywords ++ doc_symbols)) as [x|] eqn:E; [|discriminate]. intros H.
    apply str_eqb_eq in H. subst x. apply text_of_kind_In in E. apply in_app_or in E. destruct E as [E|E].
    + apply lx_id. apply lower_word_id. apply (kw_row d _ _ E).
    + eapply lx_symbol; eauto.
Qed.

(** First character of a lexeme that starts with an id. *)
Definition id_start_char (c : N) : bool := is_alpha c || (c =? c_percent)%N.

Lemma id_b_first i : id_b d i = true -> exists c r, i = c :: r /\ id_start_char c = true.
Proof.
  intros H. apply id_b_starts in H. unfold starts_id in H. destruct i as [|c r]; [discriminate|]. exists c, r. split; [reflexivity|].
  unfold id_start_char. cbn [strip_percent] in H. destruct (c =? c_percent)%N; [now rewrite orb_true_r|].
  cbn [starts_word] in H. unfold is_alpha. apply orb_true_iff in H. destruct H as [->|H]; [now rewrite orb_true_r|].
  apply andb_true_iff in H. destruct H as [_ ->]. reflexivity.
Qed.

Lemma string_b_first p : string_b p = true -> exists r, p = c_quote :: r.
Proof. intros H. destruct (string_b_inv _ H) as (body & -> & _). eauto. Qed.

Lemma lexeme_first p : lexeme p ->
  (exists i Z, p = i ++ Z /\ id_b d i = true) \/ string_b p = true \/ (exists k, In (p, k) doc_symbols).
Proof.
  intros [H|i segs path ver -> Hi _ _ _ _|H|k H].
  - left. exists p, []. now rewrite app_nil_r.
  - left. eauto.
  - right. now left.
  - right. right. eauto.
Qed.

Lemma firstn_prefix {A} m (s : list A) : exists tl, s = firstn m s ++ tl.
Proof. exists (skipn m s). symmetry. apply firstn_skipn. Qed.

Lemma firstn_starts_with x : forall s m, firstn m s = x -> starts_with x s = true.
Proof.
  induction x as [|a x IH]; intros s m H; [reflexivity|]. destruct m as [|m]; [discriminate|]. destruct s as [|b s]; [discriminate|].
  cbn [firstn] in H. inversion H; subst. cbn [starts_with]. rewrite N.eqb_refl. cbn [andb]. eapply IH; eauto.
Qed.

Lemma longest_string body rest0 m :
  nosep c_quote body = true -> S (S (length body)) < m -> m <= length (c_quote :: body ++ c_quote :: rest0) ->
  lexeme (firstn m (c_quote :: body ++ c_quote :: rest0)) -> False.
Proof.
  intros Hb Hm Hle Hlx.
  assert (Hp : exists t, firstn m (c_quote :: body ++ c_quote :: rest0) = c_quote :: body ++ c_quote :: t /\ t <> []).
  { destruct m as [|m]; [lia|]. cbn [firstn]. replace m with (length body + S (m - length body - 1)) by lia.
    rewrite firstn_add, firstn_app_exact, skipn_app_exact. cbn [firstn]. eexists. split; [reflexivity|].
    cbn [length] in Hle. rewrite app_length in Hle. cbn [length] in Hle.
    destruct rest0 as [|y rest0]; [cbn [length] in Hle; lia|]. replace (m - length body - 1) with (S (m - length body - 2)) by lia.
    discriminate. }
  destruct Hp as (t & Hp & Ht). rewrite Hp in Hlx. destruct (lexeme_first _ Hlx) as [(i & Z & He & Hi)|[Hs|(k & Hk)]].
  - destruct (id_b_first _ Hi) as (c & r & -> & Hc). cbn [app] in He. inversion He; subst c. discriminate.
  - destruct (string_b_inv _ Hs) as (body' & He' & Hb'). inversion He' as [He2].
    pose proof (find_char_complete c_quote body t Hb) as F1. rewrite He2 in F1.
    pose proof (find_char_complete c_quote body' [] Hb') as F2. rewrite F2 in F1. inversion F1 as [Hl].
    apply (f_equal (@length N)) in He2. rewrite !app_length in He2. cbn [length] in He2. destruct t; [congruence|cbn [length] in He2; lia].
  - destruct (sym_row d _ _ Hk) as (_ & _ & _ & c0 & r0 & Hc0 & _ & _ & Hq). inversion Hc0; subst c0. discriminate.
Qed.

Lemma longest_symbol s k n m :
  id_len au s = 0 -> (forall r, s <> c_quote :: r) -> best_symbol (symbols base) s = Some (k, n) ->
  n < m -> m <= length s -> lexeme (firstn m s) -> False.
Proof.
  intros Hid Hq Hb Hm Hle Hlx. destruct (firstn_prefix m s) as (tl & Hs).
  destruct (lexeme_first _ Hlx) as [(i & Z & He & Hi)|[Hq'|(k' & Hk)]].
  - pose proof (id_b_not_nil d _ Hi) as Hne. assert (Hfi : firstn (length i) s = i).
    { rewrite Hs, He, <- app_assoc. apply firstn_app_exact. }
    assert (Hli : length i <= length s).
    { rewrite Hs, He, !app_length. lia. }
    rewrite <- Hfi in Hi. pose proof (id_len_max d s (length i) Hli Hi) as H. rewrite Hid in H. destruct i; [congruence|cbn in H; lia].
  - destruct (string_b_first _ Hq') as (r & He). rewrite He in Hs. cbn [app] in Hs. exact (Hq _ Hs).
  - destruct (best_symbol_spec _ _ _ _ Hb) as [_ Hmax]. apply Htab in Hk.
    assert (Hsw : starts_with (firstn m s) s = true) by (eapply firstn_starts_with; reflexivity).
    assert (Hne : firstn m s <> []) by (destruct m; [lia|destruct s; [cbn in Hle; lia|discriminate]]).
    specialize (Hmax _ _ Hk Hsw Hne). rewrite firstn_length_le in Hmax; lia.
Qed.

(** two decompositions of the same text starting with an id followed by a separator *)
Lemma id_prefix_unique i c Z w Y :
  is_sep c = true -> id_b d i = true -> i ++ c :: Z = w ++ Y -> id_len au (w ++ Y) = length w -> i = w /\ c :: Z = Y.
Proof.
  intros Hc Hi He Hn. destruct (id_len_exact d i (c :: Z) Hi) as [_ H]. rewrite He, Hn in H.
  specialize (H (id_follow_sep d i c Z Hc)).
  assert (Hw : firstn (length w) (i ++ c :: Z) = firstn (length w) (w ++ Y)) by now rewrite He.
  rewrite firstn_app_exact, H, firstn_app_exact in Hw. subst i. apply app_inv_head in He. now split.
Qed.

(** The chain scanner on [chain ++ Y]: at least the chain; exactly the chain when a foreign separator follows. *)
Lemma seg_ge c (Hc : is_sep c = true) fuel segs Y :
  forallb (id_b d) segs = true -> length (chain_text c segs ++ Y) < fuel ->
  length (chain_text c segs) <= seg_loop fuel au c (chain_text c segs ++ Y).
Proof. intros Hs Hf. now destruct (seg_loop_exact d c Hc segs Y fuel Hs Hf). Qed.

Lemma seg_eq_sep c (Hc : is_sep c = true) fuel segs c' Y :
  forallb (id_b d) segs = true -> length (chain_text c segs ++ c' :: Y) < fuel -> is_sep c' = true -> (c' =? c)%N = false ->
  seg_loop fuel au c (chain_text c segs ++ c' :: Y) = length (chain_text c segs).
Proof.
  intros Hs Hf Hc' Hne. destruct (seg_loop_exact d c Hc segs (c' :: Y) fuel Hs Hf) as [_ H]. apply H.
  - now apply no_seg_other.
  - intros _. now apply id_follow_sep.
Qed.

(** A package token covers the whole shape. *)
Lemma produced_pkg x k n :
  produced d x k n -> sh_colon x <> [] -> head_is c_minus (after_id x) = false ->
  n = length (sh_id x) + length (chain_text c_colon (sh_colon x)) + length (chain_text c_slash (sh_slash x)) + length (sh_ver x).
Proof.
  intros [_ _ _ _ Hh|_ [Hw|Hw] _|_ HP _ ->|_ _ _ ->] HneC Hhd; try congruence.
  - rewrite HP, !app_length. cbn [chain_text map concat length]. lia.
  - rewrite !app_length. lia.
Qed.

(** What follows the chain of [: id] in a package lexeme: nothing, or a separator other than [:]. *)
Lemma pkg_tail_head path ver :
  vtail_b ver = true ->
  chain_text c_slash path ++ ver = [] \/
  exists c Y, chain_text c_slash path ++ ver = c :: Y /\ is_sep c = true /\ (c =? c_colon)%N = false.
Proof.
  intros Hv. destruct path as [|p1 path].
  - destruct (vtail_cases _ Hv) as [->|(v & -> & _)]; [now left|]. right. exists c_atsign, v. now split.
  - right. exists c_slash, ((p1 ++ chain_text c_slash path) ++ ver). now split.
Qed.

Lemma longest_shape fuel s x k n m :
  length s < fuel -> shape_ok d fuel s x -> produced d x k n -> n < m -> m <= length s -> lexeme (firstn m s) -> False.
Proof.
  intros Hf Hx Hprod Hm Hle Hlx.
  destruct Hx as (Hs0 & Hi & Hn1 & Hst & HidsC & HsC & HnoC & HfolC & HidsP & HsP & HnoP & HfolP & Hv & Hvl).
  destruct (firstn_prefix m s) as (tl & Hsm).
  assert (Hlm : length (firstn m s) = m) by (apply firstn_length_le; exact Hle).
  rewrite Hs0 in Hn1.
  destruct (id_b_first _ Hi) as (c1 & r1 & Hw1 & Hc1).
  inversion Hlx as [H|i segs path ver He Hi' Hne Hids Hpids Hver|H|k' H].
  - (* a longer id *)
    pose proof (id_len_max d s m Hle H) as Hmax. rewrite Hs0, Hn1 in Hmax.
    destruct Hprod as [_ _ _ -> _| -> _ _|_ _ _ ->|_ _ _ ->]; rewrite ?app_length in Hm; lia.
  - (* a longer package name or path: stage by stage, the scanner found at least as much, and as much
       where the lexeme goes on *)
    destruct (chain_head c_colon segs Hne) as (rC & HrC).
    assert (E1 : i ++ c_colon :: (rC ++ chain_text c_slash path ++ ver ++ tl) = sh_id x ++ after_id x).
    { rewrite <- Hs0, Hsm, He, HrC, <- !app_assoc. reflexivity. }
    destruct (id_prefix_unique _ _ _ _ _ is_sep_colon Hi' E1 Hn1) as [-> E2].
    assert (Haft : after_id x = chain_text c_colon segs ++ (chain_text c_slash path ++ ver) ++ tl).
    { rewrite <- E2, HrC, <- app_assoc. reflexivity. }
    assert (Hfa : length (after_id x) < fuel) by (rewrite Hs0, app_length in Hf; lia).
    assert (Hmlen : m = length (sh_id x) + length (chain_text c_colon segs) + length (chain_text c_slash path ++ ver)).
    { rewrite <- Hlm, He, !app_length. lia. }
    pose proof (seg_ge c_colon is_sep_colon fuel segs _ Hids ltac:(rewrite <- Haft; exact Hfa)) as Hge.
    rewrite <- Haft, HsC in Hge. pose proof (chain_len_pos c_colon segs Hne) as Hpos.
    assert (HneC : sh_colon x <> []) by (intros E; rewrite E in Hge; cbn in Hge; lia).
    assert (Hhd : head_is c_minus (after_id x) = false) by (rewrite Haft, HrC; reflexivity).
    pose proof (produced_pkg _ _ _ Hprod HneC Hhd) as Hn.
    destruct (pkg_tail_head path ver Hver) as [E|(c' & Y & E & Hc' & Hne')]; [rewrite E in Hmlen; cbn [length] in Hmlen; lia|].
    assert (HeqC : length (chain_text c_colon (sh_colon x)) = length (chain_text c_colon segs)).
    { rewrite <- HsC, Haft, E. rewrite Haft, E in Hfa. now apply seg_eq_sep. }
    assert (Hac : after_colon x = chain_text c_slash path ++ ver ++ tl).
    { unfold after_id in Haft. apply (f_equal (skipn (length (chain_text c_colon segs)))) in Haft.
      rewrite <- HeqC in Haft at 1. now rewrite !skipn_app_exact, <- app_assoc in Haft. }
    assert (Hfc : length (after_colon x) < fuel).
    { unfold after_id in Hfa. rewrite app_length in Hfa. lia. }
    pose proof (seg_ge c_slash is_sep_slash fuel path _ Hpids ltac:(rewrite <- Hac; exact Hfc)) as Hge2.
    rewrite <- Hac, HsP in Hge2. rewrite app_length in Hmlen.
    destruct (vtail_cases _ Hver) as [->|(v & -> & Hsv)]; [cbn [length] in Hmlen; lia|].
    assert (HeqP : length (chain_text c_slash (sh_slash x)) = length (chain_text c_slash path)).
    { rewrite <- HsP, Hac. rewrite Hac in Hfc. now apply seg_eq_sep. }
    assert (Has : after_slash x = c_atsign :: v ++ tl).
    { unfold after_colon in Hac. apply (f_equal (skipn (length (chain_text c_slash path)))) in Hac.
      rewrite <- HeqP in Hac at 1. now rewrite !skipn_app_exact in Hac. }
    rewrite Has in Hvl. destruct (version_tail_exact (c_atsign :: v) tl Hver) as [Hge3 _]. cbn [app] in Hge3. lia.
  - (* a string *)
    destruct (string_b_first _ H) as (r & Hr). rewrite Hr in Hsm. rewrite Hs0, Hw1 in Hsm. cbn [app] in Hsm.
    inversion Hsm; subst c1. discriminate.
  - (* punctuation *)
    destruct (sym_row d _ _ H) as (_ & _ & _ & c0 & r0 & Hc0 & Ha & Hp & _). rewrite Hc0 in Hsm. rewrite Hs0, Hw1 in Hsm. cbn [app] in Hsm.
    inversion Hsm; subst c1. unfold id_start_char in Hc1. now rewrite Ha, Hp in Hc1.
Qed.

Theorem scan_token_longest fuel s k n m k' :
  length s < fuel -> scan_token cfg fuel s = ScanTok k n -> n < m -> m <= length s -> rule_class d k' (firstn m s) = false.
Proof.
  intros Hf Hscan Hm Hle. destruct (rule_class d k' (firstn m s)) eqn:E; [|reflexivity]. exfalso.
  apply rule_class_lexeme in E. destruct (id_len au s) as [|n0] eqn:En.
  - rewrite scan_token_unfold in Hscan. destruct s as [|c r]; [discriminate|]. destruct (c =? c_quote)%N eqn:Eq.
    + apply N.eqb_eq in Eq. subst c. destruct (find_char c_quote r) as [j|] eqn:Ef; [|discriminate]. inversion Hscan; subst k n.
      destruct (find_char_spec _ _ _ Ef) as (body & rest0 & -> & <- & Hb). eapply longest_string; eauto.
    + cbn [allow_upper cfg_with symbols] in Hscan. rewrite En in Hscan.
      destruct (best_symbol (symbols base) (c :: r)) as [[k1 n1]|] eqn:Eb; [|discriminate]. inversion Hscan; subst k1 n1.
      eapply (longest_symbol (c :: r)); eauto. intros r' Hr'. inversion Hr'; subst c. discriminate.
  - destruct (scan_token_outcome d base Htab fuel s Hf) as (x & Hx & Hres); [congruence|]. rewrite Hscan in Hres.
    eapply longest_shape; eauto.
Qed.

End Longest.
