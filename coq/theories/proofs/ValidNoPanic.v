(** C01/C02 support: the MODEL of the structural encoder ([model/EncodeModel.v]) cannot reach its
    graph-consistency panics on a consistent composition graph. The panic sites that remain are the ones
    of the encoder's own index bookkeeping ([XNodeIndexMissing], [XDupNodeIndex], [XEncodedMissing]: they
    need the topological-order argument) and the [unwrap] of a failed merge of an explicit import. *)
From Coq Require Import List Arith Bool NArith.
From WacV Require Import Str Graph Wiring WiringSpec EncodeModel GraphInv GraphTheorems GraphAlias EncodeBasics WiringOrder WiringSim ValidArgs ValidEncInv.
Import ListNotations.
Local Open Scope nat_scope.

(** the panic sites that can only be reached when the index bookkeeping of the encoder fails (they need the
    topological-order argument and are NOT excluded here) *)
Definition bookkeeping_site (s : esite) : bool :=
  match s with XNodeIndexMissing | XDupNodeIndex | XEncodedMissing => true | _ => false end.

Lemma bind_err {A B} (r : res A) (f : A -> res B) er :
  bind r f = RErr er -> r = RErr er \/ exists a, r = ROk a /\ f a = RErr er.
Proof. destruct r as [a|e0]; cbn; intros H; [right; eauto | left; congruence]. Qed.

(** a fold whose step propagates errors fails either at the start or at one element, from an [ROk] state *)
Lemma fold_err_gen {S X} (g : res S -> X -> res S) l init er :
  fold_left g l init = RErr er ->
  (forall er' x, g (RErr er') x = RErr er') ->
  init = RErr er \/ exists s x, In x l /\ g (ROk s) x = RErr er.
Proof.
  intros H Hg. revert init H. induction l as [|a l IH]; intros init H; cbn in H.
  - now left.
  - apply IH in H as [H | (s & x & Hin & H)].
    + destruct init as [s0|e0].
      * right. exists s0, a. split; [now left | exact H].
      * left. now rewrite Hg in H.
    + right. exists s, x. split; [now right | exact H].
Qed.

Lemma fold_bind_err {S X} (f : S -> X -> res S) l init er :
  fold_left (fun acc x => bind acc (fun s => f s x)) l init = RErr er ->
  init = RErr er \/ exists s x, In x l /\ f s x = RErr er.
Proof. intros H. apply fold_err_gen in H; [exact H | intros; reflexivity]. Qed.

Lemma run_ty_err tau st rq er : run_ty tau st rq = RErr er -> er = EOracle.
Proof.
  unfold run_ty. destruct (tau (e_log st) rq) as [its idx]. destruct (ty_items_ok _ its); [discriminate|]. congruence.
Qed.

Lemma set_nidx_err st n idx er : set_nidx st n idx = RErr er -> er = EPanic XDupNodeIndex.
Proof. unfold set_nidx. destruct (nat_assoc n (e_nidx st)); [|discriminate]. congruence. Qed.

Lemma enc_definition_panic e tau st n nd s :
  nexport nd <> None -> enc_definition e tau st n nd = RErr (EPanic s) -> bookkeeping_site s = true.
Proof.
  intros Hx. unfold enc_definition. destruct (nexport nd) as [nm|]; [|congruence].
  intros H. apply bind_err in H as [H | ([st1 ty] & R & H)].
  - apply run_ty_err in H. discriminate.
  - cbv beta iota in H. destruct (negb _); [discriminate|]. apply set_nidx_err in H. injection H as E. subst. reflexivity.
Qed.

Lemma enc_instantiation_panic e u g dc tau st n nd sat s :
  Inv u g -> ArgsChecked u g -> get_node g n = Some nd -> nk nd = NInst sat ->
  enc_instantiation e u g dc tau st n nd = RErr (EPanic s) -> bookkeeping_site s = true.
Proof.
  intros HI HA G K. destruct (inv_inst_pkg _ _ HI n nd sat G K) as (id & pd & Np & Pd).
  assert (II : inst_imports u g nd = Some (pd_imports pd)) by (unfold inst_imports; now rewrite Np, Pd).
  unfold enc_instantiation. rewrite Np, II.
  unfold pkg_desc in Pd. destruct (get_pkg g id) as [p|] eqn:Gp; [|discriminate].
  intros H. apply bind_err in H as [H | ([st1 ci] & R1 & H)].
  - (* the component of the package *)
    destruct (pkg_assoc id (e_pkgs st)); [discriminate|].
    apply bind_err in H as [H | ([st1 ci] & R1 & H)]; [|cbv beta iota in H; discriminate].
    destruct dc; [discriminate|].
    apply bind_err in H as [H | ([st0 x] & R0 & H)]; [apply run_ty_err in H; discriminate | cbv beta iota in H; discriminate].
  - cbv beta iota in H. apply bind_err in H as [H | (args & R2 & H)].
    + (* the explicit arguments *)
      apply fold_err_gen in H; [|intros; reflexivity]. destruct H as [H | (l & ed & Hin & H)]; [discriminate|].
      cbn [bind] in H.
      unfold incoming in Hin. apply filter_In in Hin as [He T]. apply Nat.eqb_eq in T.
      assert (G' : get_node g (etgt ed) = Some nd) by (rewrite T; exact G).
      destruct (inv_inst_in_edges_only_args _ _ HI ed nd sat He G' K) as [i Ki].
      destruct (HA ed i He Ki) as (sn & tn & imps & nm & k & _ & G2 & II2 & N & _).
      rewrite G' in G2. injection G2 as <-. rewrite II in II2. injection II2 as <-.
      destruct (nat_assoc (esrc ed) (e_nidx st1)); [|injection H as E; subst; reflexivity].
      rewrite Ki, N in H. discriminate.
    + cbv beta zeta in H. apply set_nidx_err in H. injection H as E. subst. reflexivity.
Qed.

(** what [get_alias_source] answers is an export of the (live) source's instance kind *)
Lemma alias_source_data u g n src nm :
  get_alias_source u g n = Some (src, nm) ->
  exists sn ex k, get_node g src = Some sn /\ u_inst_exports u (nitem sn) = Some ex /\ alist_get N.eqb ex nm = Some k.
Proof.
  unfold get_alias_source. destruct (find _ (incoming g n)) as [e0|]; [|discriminate].
  destruct (ek e0) as [i|i|]; destruct (get_node g (esrc e0)) as [sn|] eqn:Gs; try discriminate.
  destruct (u_inst_exports u (nitem sn)) as [ex|] eqn:U; [|discriminate].
  destruct (nth_error ex i) as [[nm' k']|] eqn:N; [|discriminate].
  intros H. injection H as <- <-.
  destruct (alist_get N.eqb ex nm') as [k|] eqn:A.
  - exists sn, ex, k. auto.
  - exfalso. apply alist_get_None in A. apply A. apply nth_error_In in N. apply in_map_iff. exists (nm', k'). auto.
Qed.

Lemma enc_alias_panic e u g st n nd s :
  Inv u g -> AliasInv u g -> get_node g n = Some nd -> nk nd = NAlias ->
  enc_alias e u g st n = RErr (EPanic s) -> bookkeeping_site s = true.
Proof.
  intros HI HA G K. pose proof (alias_source_reflects u g n HI HA) as R. rewrite G, K in R.
  destruct R as (src & i & nm & A & _ & _).
  destruct (alias_source_data _ _ _ _ _ A) as (sn & ex & k & Gs & U & Ak).
  unfold enc_alias. rewrite A, Gs, U, Ak.
  destruct (nat_assoc src (e_nidx st)); [|intros H; injection H as E; subst; reflexivity].
  intros H. apply set_nidx_err in H. injection H as E. subst. reflexivity.
Qed.

(** One node: on a consistent graph, encoding a live non-import node never reaches XNoPackage, XUnexpectedEdge,
       XAliasNoSource, XAliasNotInstance, XDefNoName or XBadNode, whatever the encoder state and the type encoder *)
Theorem enc_node_panics_classified : forall e u g dc tau st n s,
  Inv u g -> AliasInv u g -> KindInv u g -> ArgsChecked u g ->
  live g n = true -> is_import g n = false ->
  enc_node e u g dc tau st n = RErr (EPanic s) -> bookkeeping_site s = true.
Proof.
  intros e u g dc tau st n s HI HA HK HC L Im. unfold enc_node.
  unfold live in L. unfold is_import in Im. destruct (get_node g n) as [nd|] eqn:G; [|discriminate].
  destruct (nk nd) as [|nm|sat|] eqn:K.
  - apply enc_definition_panic. exact (proj2 (ki_def _ _ HK n nd G K)).
  - discriminate.
  - eapply enc_instantiation_panic; eauto.
  - eapply enc_alias_panic; eauto.
Qed.

Lemma resolve_implicit_no_panic e u g s : resolve_implicit e u g <> RErr (EPanic s).
Proof.
  unfold resolve_implicit. intros H. apply fold_err_gen in H; [|intros; reflexivity].
  destruct H as [H | ([a impl] & [n p] & _ & H)]; [discriminate|]. cbn [bind] in H.
  destruct (alist_get N.eqb (imports g) (fst p)); [discriminate|].
  destruct (agg_add _ _ _ _); discriminate.
Qed.

Lemma resolve_explicit_panic e g a0 l s : resolve_explicit e g a0 l = RErr (EPanic s) -> s = XBadNode.
Proof.
  unfold resolve_explicit. intros H. apply fold_err_gen in H; [|intros; reflexivity].
  destruct H as [H | ([a ex] & n & _ & H)]; [discriminate|]. cbn [bind] in H.
  destruct (get_node g n) as [nd|]; [|congruence].
  destruct (nk nd); try discriminate. destruct (agg_add _ _ _ _); [discriminate|congruence].
Qed.

(** on live nodes, the panic of the second loop of [resolve_imports] is the [unwrap] of a failed merge of an
    explicit import (never the indexing of a dead node) *)
Lemma resolve_explicit_panic_is_merge e g a0 l s :
  (forall n, In n l -> live g n = true) ->
  resolve_explicit e g a0 l = RErr (EPanic s) ->
  exists a n nd nm, In n l /\ get_node g n = Some nd /\ nk nd = NImport nm /\
    agg_add a (nstr e nm) (we_sort e (nitem nd)) (we_iid e (nitem nd)) = AggKindMismatch.
Proof.
  intros HL. unfold resolve_explicit. intros H. apply fold_err_gen in H; [|intros; reflexivity].
  destruct H as [H | ([a ex] & n & Hin & H)]; [discriminate|]. cbn [bind] in H.
  specialize (HL n Hin). unfold live in HL.
  destruct (get_node g n) as [nd|] eqn:G; [|discriminate].
  destruct (nk nd) as [|nm| |] eqn:K; try discriminate.
  destruct (agg_add a _ _ _) eqn:Ag; [discriminate|].
  exists a, n, nd, nm. auto.
Qed.

Lemma import_err tau st a er : EncodeModel.import_ tau st a = RErr er -> er = EOracle.
Proof.
  unfold EncodeModel.import_. cbv zeta. intros H.
  destruct (ae_sort a); destruct (ae_iid a);
    try (destruct (reg_lookup _ _) as [[idx under]|]; [discriminate|]);
    (apply bind_err in H as [H | ([st1 x] & _ & H)]; [now apply run_ty_err in H | cbv beta iota in H; discriminate]).
Qed.

Lemma encode_imports_panic e u g tau st l s :
  encode_imports e u g tau st l = RErr (EPanic s) ->
  s = XEncodedMissing \/
  (s = XBadNode /\ exists a0 impl, resolve_implicit e u g = ROk (a0, impl) /\
     resolve_explicit e g a0 l = RErr (EPanic XBadNode)).
Proof.
  unfold encode_imports. intros H.
  apply bind_err in H as [H | ([a0 impl] & R0 & H)]; [now apply resolve_implicit_no_panic in H|].
  cbv beta iota in H. apply bind_err in H as [H | ([a expl] & R1 & H)].
  - right. pose proof (resolve_explicit_panic _ _ _ _ _ H) as ->. split; auto. exists a0, impl. auto.
  - left. cbv beta iota zeta in H. apply bind_err in H as [H | ([st1 encoded] & R2 & H)].
    + (* the imports themselves: only the type encoder can fail *)
      apply fold_err_gen in H; [|intros; reflexivity]. destruct H as [H | ([st' enc] & x & _ & H)]; [discriminate|].
      cbn [bind] in H.
      apply bind_err in H as [H | ([st'' idx] & _ & H)]; [apply import_err in H; discriminate | cbv beta iota in H; discriminate].
    + cbv beta iota in H. apply bind_err in H as [H | (st2 & R3 & H)].
      * apply fold_err_gen in H; [|intros; reflexivity].
        destruct H as [H | (st' & [[nm k] node] & _ & H)]; [discriminate|]. cbn [bind] in H.
        destruct (str_assoc _ encoded) as [[s0 idx]|]; [discriminate|]. injection H as E. subst. reflexivity.
      * cbv beta in H. apply fold_err_gen in H; [|intros; reflexivity].
        destruct H as [H | (st' & p & _ & H)]; [discriminate|]. cbn [bind] in H.
        destruct (str_assoc _ encoded) as [[s0 idx]|]; [discriminate|]. injection H as E. subst. reflexivity.
Qed.

Lemma enc_exports_panic e g st s : enc_exports e g st = RErr (EPanic s) -> s = XNodeIndexMissing.
Proof.
  unfold enc_exports. intros H. apply fold_err_gen in H; [|intros; reflexivity].
  destruct H as [H | (st' & p & _ & H)]; [discriminate|]. cbn [bind] in H.
  destruct (is_def g (snd p)); [discriminate|]. destruct (nat_assoc _ _); [discriminate|]. congruence.
Qed.

Lemma enc_names_panic e g st s : enc_names e g st = RErr (EPanic s) -> s = XNodeIndexMissing.
Proof.
  unfold enc_names. intros H. apply fold_err_gen in H; [|intros; reflexivity].
  destruct H as [H | (l & [s0 n] & _ & H)]; [discriminate|]. cbn [bind] in H.
  destruct (get_node g n) as [nd|]; [|discriminate]. destruct (nname nd); [|discriminate].
  destruct (sort_eqb _ _); [|discriminate]. destruct (nat_assoc _ _); [discriminate|]. congruence.
Qed.

(** The whole encoder, for every emission order that enumerates live nodes: the only panics left are the
       bookkeeping ones and XBadNode, and XBadNode only as the model's rendering of a failed merge of an EXPLICIT import
       ([resolve_explicit] returns [EPanic XBadNode] for [AggKindMismatch]; the current code reports
       ImportTypeMergeConflict there) *)
Theorem encode_panics_classified : forall e u g dc tau ord s,
  Inv u g -> AliasInv u g -> KindInv u g -> ArgsChecked u g ->
  (forall n, In n ord -> live g n = true) ->
  encode_with_order e u g dc tau ord = RErr (EPanic s) ->
  bookkeeping_site s = true \/
  (s = XBadNode /\ exists a0 impl, resolve_implicit e u g = ROk (a0, impl) /\
     resolve_explicit e g a0 (filter (is_import g) ord) = RErr (EPanic XBadNode)).
Proof.
  intros e u g dc tau ord s HI HA HK HC HL. unfold encode_with_order. cbv zeta. intros H.
  apply bind_err in H as [H | (st0 & R0 & H)].
  - apply encode_imports_panic in H as [-> | H]; [left; reflexivity | right; exact H].
  - left. cbv beta in H. apply bind_err in H as [H | (st1 & R1 & H)].
    + apply fold_err_gen in H; [|intros; reflexivity]. destruct H as [H | (st' & n & Hin & H)]; [discriminate|].
      cbn [bind] in H. apply filter_In in Hin as [Hin Ni]. apply negb_true_iff in Ni.
      eapply enc_node_panics_classified; eauto.
    + cbv beta in H. apply bind_err in H as [H | (st2 & R2 & H)].
      * apply enc_exports_panic in H as ->. reflexivity.
      * cbv beta in H. apply bind_err in H as [H | (ns & R3 & H)]; [apply enc_names_panic in H as ->; reflexivity | discriminate].
Qed.

(** the second disjunct, read on the graph: some live explicit import node fails to merge into the aggregate *)
Corollary encode_bad_node_is_import_merge : forall e u g dc tau ord,
  Inv u g -> AliasInv u g -> KindInv u g -> ArgsChecked u g ->
  (forall n, In n ord -> live g n = true) ->
  encode_with_order e u g dc tau ord = RErr (EPanic XBadNode) ->
  exists a n nd nm, In n ord /\ get_node g n = Some nd /\ nk nd = NImport nm /\
    agg_add a (nstr e nm) (we_sort e (nitem nd)) (we_iid e (nitem nd)) = AggKindMismatch.
Proof.
  intros e u g dc tau ord HI HA HK HC HL H.
  destruct (encode_panics_classified _ _ _ _ _ _ _ HI HA HK HC HL H) as [B | (_ & a0 & impl & _ & R)]; [discriminate|].
  apply resolve_explicit_panic_is_merge in R.
  - destruct R as (a & n & nd & nm & Hin & G & K & Ag). apply filter_In in Hin as [Hin _]. exists a, n, nd, nm. auto.
  - intros n Hin. apply filter_In in Hin as [Hin _]. auto.
Qed.

Theorem encode_panics_classified_reachable : forall e u ops dc tau ord s,
  (forall n, In n ord -> live (run u ops) n = true) ->
  encode_with_order e u (run u ops) dc tau ord = RErr (EPanic s) ->
  bookkeeping_site s = true \/
  (s = XBadNode /\ exists a0 impl, resolve_implicit e u (run u ops) = ROk (a0, impl) /\
     resolve_explicit e (run u ops) a0 (filter (is_import (run u ops)) ord) = RErr (EPanic XBadNode)).
Proof.
  intros e u ops dc tau ord s HL H.
  eapply encode_panics_classified; eauto.
  - apply reach_inv.
  - apply reach_alias_inv.
  - apply reach_kind_inv.
  - apply reach_args_checked.
Qed.
