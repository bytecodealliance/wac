(** Facts about [decode_wiring] alone: a log that decodes has every structural index in scope
    (C02 / C01 [structural_indices_in_scope]); decoding is compositional; type-level items only
    extend the index spaces. *)
From Coq Require Import List Arith Bool NArith Lia.
From WacV Require Import Str Wiring.
Import ListNotations.
Local Open Scope nat_scope.

Lemma sort_eqb_eq a b : sort_eqb a b = true <-> a = b.
Proof.
  destruct a, b; cbn; try (split; [discriminate | congruence]); try tauto.
  rewrite N.eqb_eq. split; congruence.
Qed.
Lemma sort_eqb_refl a : sort_eqb a a = true.
Proof. now apply sort_eqb_eq. Qed.
Lemma sort_eqb_neq a b : sort_eqb a b = false <-> a <> b.
Proof.
  destruct (sort_eqb a b) eqn:E.
  - apply sort_eqb_eq in E. split; [discriminate | congruence].
  - split; auto. intros _ ->. rewrite sort_eqb_refl in E. discriminate.
Qed.
Lemma sort_eqb_sym a b : sort_eqb a b = sort_eqb b a.
Proof.
  destruct (sort_eqb a b) eqn:E.
  - apply sort_eqb_eq in E. subst. now rewrite sort_eqb_refl.
  - symmetry. apply sort_eqb_neq. apply sort_eqb_neq in E. congruence.
Qed.

Lemma cnt_app s l1 l2 : cnt s (l1 ++ l2) = cnt s l1 + cnt s l2.
Proof. unfold cnt. now rewrite filter_app, app_length. Qed.
Lemma cnt_nil s : cnt s [] = 0.
Proof. reflexivity. Qed.
Lemma cnt_one s it : cnt s [it] = if sort_eqb (alloc it) s then 1 else 0.
Proof. unfold cnt. cbn. now destruct (sort_eqb (alloc it) s). Qed.
Lemma cnt_snoc s l it : cnt s (l ++ [it]) = cnt s l + (if sort_eqb (alloc it) s then 1 else 0).
Proof. now rewrite cnt_app, cnt_one. Qed.

Lemma push_same sp s p : push sp s p s = sp s ++ [p].
Proof. unfold push. now rewrite sort_eqb_refl. Qed.
Lemma push_other sp s p s' : s <> s' -> push sp s p s' = sp s'.
Proof. unfold push. intros H. apply sort_eqb_neq in H. now rewrite H. Qed.
Lemma push_length sp s p s' : length (push sp s p s') = length (sp s') + (if sort_eqb s s' then 1 else 0).
Proof. unfold push. destruct (sort_eqb s s'); rewrite ?app_length; cbn; lia. Qed.

Lemma look_push_old sp s p s' i q : look sp s' i = Some q -> look (push sp s p) s' i = Some q.
Proof.
  unfold look, push. intros H. destruct (sort_eqb s s'); auto.
  rewrite nth_error_app1; auto. apply nth_error_Some. congruence.
Qed.
Lemma look_push_new sp s p : look (push sp s p) s (length (sp s)) = Some p.
Proof. unfold look. rewrite push_same, nth_error_app2, Nat.sub_diag; auto. Qed.
Lemma look_lt sp s i q : look sp s i = Some q -> i < length (sp s).
Proof. unfold look. intros H. apply nth_error_Some. congruence. Qed.

Definition sp_ext (sp sp' : sort -> list prov) : Prop := forall s, exists ext, sp' s = sp s ++ ext.
Lemma sp_ext_refl sp : sp_ext sp sp.
Proof. intros s. exists []. now rewrite app_nil_r. Qed.
Lemma sp_ext_trans a b c : sp_ext a b -> sp_ext b c -> sp_ext a c.
Proof. intros H1 H2 s. destruct (H1 s) as [x Hx], (H2 s) as [y Hy]. exists (x ++ y). now rewrite Hy, Hx, app_assoc. Qed.
Lemma sp_ext_push sp s p : sp_ext sp (push sp s p).
Proof. intros s'. unfold push. destruct (sort_eqb s s'); [now exists [p] | exists []; now rewrite app_nil_r]. Qed.
Lemma sp_ext_look sp sp' s i q : sp_ext sp sp' -> look sp s i = Some q -> look sp' s i = Some q.
Proof.
  intros H L. destruct (H s) as [x Hx]. unfold look in *. rewrite Hx, nth_error_app1; auto.
  apply nth_error_Some. congruence.
Qed.

Lemma look_args_ext sp sp' args pa : sp_ext sp sp' -> look_args sp args = Some pa -> look_args sp' args = Some pa.
Proof.
  intros H. revert pa. induction args as [|[[nm s] i] r IH]; cbn; intros pa E; auto.
  destruct (look sp s i) eqn:L; try discriminate. destruct (look_args sp r) eqn:R; try discriminate.
  rewrite (sp_ext_look _ _ _ _ _ H L), (IH _ eq_refl). exact E.
Qed.

Lemma dstep_push d it d' : dstep d it = Some d' -> exists p, d_sp d' = push (d_sp d) (alloc it) p.
Proof.
  destruct it; cbn; intros E;
    try (destruct (look _ _ _); try discriminate); try (destruct (look_args _ _); try discriminate);
    injection E as <-; cbn; eauto.
Qed.

Lemma dstep_ext d it d' : dstep d it = Some d' -> sp_ext (d_sp d) (d_sp d').
Proof. intros E. destruct (dstep_push _ _ _ E) as [p ->]. apply sp_ext_push. Qed.

Lemma dstep_length d it d' s : dstep d it = Some d' ->
  length (d_sp d' s) = length (d_sp d s) + (if sort_eqb (alloc it) s then 1 else 0).
Proof. intros E. destruct (dstep_push _ _ _ E) as [p ->]. apply push_length. Qed.

(** the imports a log makes itself, as opposed to those flagged as the type encoder's *)
Definition own_imports (d : dstate) : list (str * sort) :=
  flat_map (fun x : str * sort * bool => if snd x then [] else [fst x]) (d_imports d).

Lemma own_imports_In d nm s : In (nm, s) (own_imports d) <-> In (nm, s, false) (d_imports d).
Proof.
  unfold own_imports. rewrite in_flat_map. split.
  - intros [[x []] [I H]]; cbn in H; [tauto|]. destruct H as [->|[]]. exact I.
  - intros I. exists (nm, s, false). cbn. auto.
Qed.

Lemma dstep_own_imports d it d' : dstep d it = Some d' ->
  own_imports d' = own_imports d ++ match it with IImport nm s => [(nm, s)] | _ => [] end.
Proof.
  unfold own_imports. destruct it; cbn; intros E;
    try (destruct (look _ _ _); try discriminate); try (destruct (look_args _ _); try discriminate);
    injection E as <-; cbn; rewrite ?flat_map_app, ?app_nil_r; reflexivity.
Qed.

Lemma decode_from_app d l1 l2 :
  decode_from d (l1 ++ l2) = match decode_from d l1 with Some d1 => decode_from d1 l2 | None => None end.
Proof.
  revert d. induction l1 as [|it r IH]; intros d; cbn; auto.
  destruct (dstep d it); auto.
Qed.

Lemma decode_from_snoc d l it d1 : decode_from d l = Some d1 -> decode_from d (l ++ [it]) = dstep d1 it.
Proof. intros H. rewrite decode_from_app, H. cbn. now destruct (dstep d1 it). Qed.

Lemma decode_from_ext d l d' : decode_from d l = Some d' -> sp_ext (d_sp d) (d_sp d').
Proof.
  revert d. induction l as [|it r IH]; cbn; intros d E.
  - injection E as <-. apply sp_ext_refl.
  - destruct (dstep d it) eqn:S; try discriminate.
    eapply sp_ext_trans; [eapply dstep_ext; eauto | eapply IH; eauto].
Qed.

Lemma decode_from_length d l d' s : decode_from d l = Some d' -> length (d_sp d' s) = length (d_sp d s) + cnt s l.
Proof.
  revert d. induction l as [|it r IH]; intros d E; cbn [decode_from] in E.
  - injection E as <-. unfold cnt. cbn. lia.
  - destruct (dstep d it) eqn:S; try discriminate.
    rewrite (IH _ E), (dstep_length _ _ _ s S). change (it :: r) with ([it] ++ r). rewrite cnt_app, cnt_one. lia.
Qed.

Lemma decode_length l d s : decode_from d_init l = Some d -> length (d_sp d s) = cnt s l.
Proof. intros H. now rewrite (decode_from_length _ _ _ s H). Qed.

Lemma look_args_scope sp l args pa :
  (forall s, length (sp s) = cnt s l) -> look_args sp args = Some pa -> args_in_scope l args = true.
Proof.
  intros HL. revert pa. induction args as [|[[nm s] i] r IH]; cbn; intros pa E; auto.
  destruct (look sp s i) eqn:L; try discriminate. destruct (look_args sp r) eqn:R; try discriminate.
  apply look_lt in L. rewrite HL in L. rewrite (IH _ eq_refl), andb_true_r. now apply Nat.ltb_lt.
Qed.

Lemma dstep_scope d it d' before :
  (forall s, length (d_sp d s) = cnt s before) -> dstep d it = Some d' -> item_in_scope before it = true.
Proof.
  intros HL. destruct it; cbn; intros E; auto.
  - destruct (look (d_sp d) SComponent comp) eqn:L; try discriminate.
    destruct (look_args (d_sp d) args) eqn:A; try discriminate.
    apply look_lt in L. rewrite HL in L. rewrite (look_args_scope _ _ _ _ HL A), andb_true_r. now apply Nat.ltb_lt.
  - destruct (look_args (d_sp d) ex) eqn:A; try discriminate. eapply look_args_scope; eauto.
  - destruct (look (d_sp d) SInstance inst) eqn:L; try discriminate.
    apply look_lt in L. rewrite HL in L. now apply Nat.ltb_lt.
  - destruct (look (d_sp d) s idx) eqn:L; try discriminate.
    apply look_lt in L. rewrite HL in L. now apply Nat.ltb_lt.
Qed.

Lemma decode_from_scoped d l d' before :
  (forall s, length (d_sp d s) = cnt s before) -> decode_from d l = Some d' -> log_in_scope before l = true.
Proof.
  revert d before. induction l as [|it r IH]; cbn; intros d before HL E; auto.
  destruct (dstep d it) eqn:S; try discriminate.
  rewrite (dstep_scope _ _ _ _ HL S). cbn. eapply IH; eauto.
  intros s. rewrite (dstep_length _ _ _ s S), HL, cnt_snoc. reflexivity.
Qed.

(** C02 (a) / C01 [structural_indices_in_scope]: whenever a log decodes, every index used by an
    instantiate / instance-from-exports / alias / export item refers to an EARLIER item that
    allocates in the index space the use names. *)
Theorem decode_scoped names l w : decode_wiring names l = Some w -> log_in_scope [] l = true.
Proof.
  unfold decode_wiring. destruct (decode_from d_init l) eqn:D; try discriminate. intros _.
  eapply decode_from_scoped; eauto. intros s. reflexivity.
Qed.

Lemma log_in_scope_app before l1 l2 :
  log_in_scope before (l1 ++ l2) = log_in_scope before l1 && log_in_scope (before ++ l1) l2.
Proof.
  revert before. induction l1 as [|it r IH]; intros before; cbn.
  - now rewrite app_nil_r.
  - rewrite IH, <- app_assoc. cbn. now rewrite andb_assoc.
Qed.

(** what [log_in_scope] says, item by item *)
Theorem in_scope_spec l pre it post :
  log_in_scope [] l = true -> l = pre ++ it :: post ->
  match it with
  | IInstantiate c args => c < cnt SComponent pre /\ forall nm s i, In (nm, s, i) args -> i < cnt s pre
  | IInstanceFromExports ex => forall nm s i, In (nm, s, i) ex -> i < cnt s pre
  | IAliasExport i _ _ => i < cnt SInstance pre
  | IExport _ s i => i < cnt s pre
  | _ => True
  end.
Proof.
  intros H ->. rewrite log_in_scope_app in H. apply andb_true_iff in H as [_ H]. cbn in H.
  apply andb_true_iff in H as [H _].
  assert (AS : forall args, args_in_scope pre args = true -> forall nm s i, In (nm, s, i) args -> i < cnt s pre).
  { induction args as [|[[n0 s0] i0] r IH]; cbn; intros A nm s i I; [tauto|].
    apply andb_true_iff in A as [A1 A2]. destruct I as [I|I]; [injection I as -> -> ->; now apply Nat.ltb_lt | eauto]. }
  destruct it; cbn in H; auto.
  - apply andb_true_iff in H as [H1 H2]. split; [now apply Nat.ltb_lt | now apply AS].
  - now apply AS.
  - now apply Nat.ltb_lt.
  - now apply Nat.ltb_lt.
Qed.
