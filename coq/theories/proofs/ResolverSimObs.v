(** What the simulation relation says about the queries of the resulting graph. *)
From Coq Require Import List Arith Bool NArith Lia.
From WacV Require Import Str Names Ast Graph Resolver LangSpec ResolverProofs ResolverNew
  ResolverSim GraphInv ListFacts.
Import ListNotations.
Local Open Scope nat_scope.

Section Obs.
  Variable u : runiverse.
  Variable K : kid -> Prop.
  Hypothesis U : uok u K.
  Variables (st : rstate) (env : senv) (vm : list sval).
  Hypothesis R : Rel u K st env vm.

  (** every node denotes a value *)
  Lemma obs_total k : k < length (nodes (rs_g st)) -> exists nd v, get_node (rs_g st) k = Some nd /\ nth_error vm k = Some v.
  Proof.
    intros L. pose proof (r_live R k L) as X. destruct (get_node (rs_g st) k) as [nd|] eqn:G; [|now contradiction X].
    destruct (rel_node_val R G) as (v & V & _). eauto.
  Qed.

  (** exports: the export map, in order, is the list of exports the document denotes *)
  Lemma obs_exports :
    Forall2 (fun a b => ru_text u (fst a) = fst b /\ nth_error vm (snd a) = Some (snd b)) (exports (rs_g st)) (se_exports env).
  Proof.
    eapply Forall2_impl; [|apply (r_exports R)]. intros a b [E V]. split; auto. rewrite E. apply (uo_text_intern _ _ U).
  Qed.

  (** explicit imports: the import nodes, in creation order, are the imports the document denotes *)
  Lemma obs_imports :
    Forall2 (fun a b => ru_text u (fst a) = fst b /\ nth_error vm (snd a) = Some (VImport (fst b)) /\
                        exists nd, get_node (rs_g st) (snd a) = Some nd /\ nk nd = NImport (fst a) /\ nitem nd = snd b)
            (rev (imports (rs_g st))) (se_imports env).
  Proof.
    eapply Forall2_impl; [|apply (r_imports R)]. intros a b (E & V & nd & G & I). split; [rewrite E; apply (uo_text_intern _ _ U)|].
    split; auto. exists nd. split; auto. split; auto.
    destruct (r_node R _ _ _ G V) as (_ & _ & _ & Tag). cbn in Tag. now rewrite E.
  Qed.

  (** an alias node is the access of its source's value *)
  Lemma obs_alias k w e :
    nth_error vm k = Some (VAccess w e) ->
    exists src nm, get_alias_source u (rs_g st) k = Some (src, nm) /\ ru_text u nm = e /\ nth_error vm src = Some w.
  Proof.
    intros V. exact (alias_source_val u K st env vm k _ R V).
  Qed.

  (** instantiations: the arguments of the node of the j-th instantiation are exactly the bound
      imports of the j-th instantiation the document denotes, with the denoted values *)
  Lemma obs_args k j si :
    nth_error vm k = Some (VInst j) -> nth_error (se_insts env) j = Some si ->
    exists pd id nd,
      nth_error (u_pkgs u) (si_pkg si) = Some pd /\ get_node (rs_g st) k = Some nd /\ npkg nd = Some id /\
      get_pkg (rs_g st) id = Some (si_pkg si) /\ nitem nd = pd_inst pd /\
      map fst (si_bindings si) = map fst (text_items u (pd_imports pd)) /\
      (forall a src, In (a, src) (get_args u (rs_g st) k) ->
         exists idx kd b v, nth_error (pd_imports pd) idx = Some (a, kd) /\
           nth_error (si_bindings si) idx = Some (ru_text u a, b) /\ binding_value (ru_text u a) b = Some v /\
           nth_error vm src = Some v) /\
      (forall idx a kd b, nth_error (pd_imports pd) idx = Some (a, kd) ->
         nth_error (si_bindings si) idx = Some (ru_text u a, b) ->
         match binding_value (ru_text u a) b with
         | Some v => exists src, In (a, src) (get_args u (rs_g st) k) /\ nth_error vm src = Some v /\
                       forall src', In (a, src') (get_args u (rs_g st) k) -> src' = src
         | None => forall src, ~ In (a, src) (get_args u (rs_g st) k)
         end).
  Proof.
    intros V Sj. destruct (rel_val R V) as (nd & G & _ & VK & _ & (sat & KI) & si' & id & Sj' & Pk & GP & pd & Ppd & Mf & AE).
    rewrite Sj in Sj'. injection Sj' as <-.
    exists pd, id, nd. split; [exact Ppd|]. split; [exact G|]. split; [exact Pk|]. split; [exact GP|].
    split. { cbn in VK. rewrite Sj in VK. unfold pkg_world in VK. rewrite Ppd in VK. now injection VK as <-. }
    split; [exact Mf|].
    assert (Im : inst_imports u (rs_g st) nd = Some (pd_imports pd)).
    { unfold inst_imports. rewrite Pk. unfold pkg_desc. now rewrite GP, Ppd. }
    assert (Bs : forall idx a kd, nth_error (pd_imports pd) idx = Some (a, kd) -> exists b, nth_error (si_bindings si) idx = Some (ru_text u a, b)).
    { intros idx a kd N1. assert (N2 : nth_error (map fst (si_bindings si)) idx = Some (ru_text u a)).
      { rewrite Mf. exact (text_names_nth u _ _ _ _ N1). }
      rewrite nth_error_map in N2. destruct (nth_error (si_bindings si) idx) as [[x b]|]; [|discriminate]. cbn in N2. injection N2 as ->. eauto. }
    assert (NDi : NoDup (map fst (pd_imports pd))) by (eapply (uo_imports_nodup _ _ U); eauto).
    assert (Fwd : forall a src, In (a, src) (get_args u (rs_g st) k) ->
              exists idx kd b, nth_error (pd_imports pd) idx = Some (a, kd) /\
                nth_error (si_bindings si) idx = Some (ru_text u a, b) /\
                In {| esrc := src; etgt := k; ek := EArg idx |} (edges (rs_g st))).
    { intros a src Hin. apply get_args_has_arg in Hin as (nd' & sat' & imps & e & i & kd & G' & K' & Im' & He & T & Sr & Ke & Nt).
      rewrite G in G'. injection G' as <-. rewrite Im in Im'. injection Im' as <-.
      destruct (Bs i a kd Nt) as (b & N2). destruct e as [es et ekk]. cbn in T, Sr, Ke. subst. exists i, kd, b. split; [exact Nt|]. split; [exact N2|exact He]. }
    assert (Idx : forall idx idx' a kd kd', nth_error (pd_imports pd) idx = Some (a, kd) ->
              nth_error (pd_imports pd) idx' = Some (a, kd') -> idx = idx').
    { intros idx idx' a kd kd' N1 N1'. pose proof (get_full_nodup _ NDi idx a kd 0 N1) as X1.
      pose proof (get_full_nodup _ NDi idx' a kd' 0 N1') as X2. rewrite X1 in X2. now injection X2. }
    split.
    - intros a src Hin. destruct (Fwd a src Hin) as (idx & kd & b & N1 & N2 & He).
      specialize (AE idx a kd b N1 N2). destruct (binding_value (ru_text u a) b) as [v|] eqn:BV.
      + destruct AE as (src' & _ & Vs & Uq). rewrite (Uq _ He). exists idx, kd, b, v. split; [exact N1|]. split; [exact N2|]. split; [exact BV|exact Vs].
      + exfalso. exact (AE _ He).
    - intros idx a kd b N1 N2. pose proof (AE idx a kd b N1 N2) as A0.
      destruct (binding_value (ru_text u a) b) as [v|] eqn:BV.
      + destruct A0 as (src & Ein & Vs & Uq). exists src. split; [|split; [exact Vs|]].
        * apply has_arg_get_args. exists nd, sat, (pd_imports pd), {| esrc := src; etgt := k; ek := EArg idx |}, idx, kd.
          repeat split; auto.
        * intros src' Hin. destruct (Fwd a src' Hin) as (idx' & kd' & b' & N1' & _ & He').
          rewrite (Idx _ _ _ _ _ N1' N1) in He'. now apply Uq.
      + intros src Hin. destruct (Fwd a src Hin) as (idx' & kd' & b' & N1' & _ & He').
        rewrite (Idx _ _ _ _ _ N1' N1) in He'. exact (A0 _ He').
  Qed.
End Obs.
