(** C02: the first phase of [toposort] ([EncodeModel.dfs_loop] / [topo_phase1]): one-step view of the
    explicit-stack DFS, a Hoare-style rule for the fuelled loop (which also gives fuel independence:
    the out-of-fuel exit is never taken), and the DFS invariant.

    Colours: a node is WHITE when it is not in [df_disc], GREY when discovered and not finished,
    BLACK when in [df_fin]. The stack may hold several entries of a node; the ACTIVE entry of a grey
    node is its top-most one ([before y st] = the entries above it). *)
From Coq Require Import List Arith Bool NArith Lia Permutation.
From WacV Require Import Str Graph Wiring WiringSpec EncodeModel GraphInv GraphUnreg.
Import ListNotations.
Local Open Scope nat_scope.

Lemma memn_In x l : memn x l = true <-> In x l.
Proof. unfold memn. apply existsb_eqb_In. Qed.
Lemma memn_notIn x l : memn x l = false <-> ~ In x l.
Proof. unfold memn. apply existsb_eqb_notIn. Qed.

Lemma filter_len_le {A} (f : A -> bool) l : length (filter f l) <= length l.
Proof. induction l as [|x l IH]; cbn; auto. destruct (f x); cbn; lia. Qed.

Lemma memn_cons x a l : memn x (a :: l) = (x =? a) || memn x l.
Proof. reflexivity. Qed.

Lemma node_ids_live_iff g n : In n (node_ids g) <-> live g n = true.
Proof.
  unfold node_ids. rewrite nodes_where_In. rewrite live_liveb, liveb_true. split.
  - intros [nd [H _]]. eauto.
  - intros [nd H]. eauto.
Qed.
Lemma node_ids_nodup g : NoDup (node_ids g).
Proof. apply nodes_where_NoDup. Qed.

Lemma node_ids_length g : length (node_ids g) <= length (nodes g).
Proof.
  rewrite <- (seq_length (length (nodes g)) 0). apply NoDup_incl_length; [apply node_ids_nodup|].
  intros x Hx. apply node_ids_live_iff, live_lt in Hx. apply in_seq. lia.
Qed.

(** the entries above the top-most occurrence of [y] *)
Fixpoint before (y : nat) (st : list nat) : list nat :=
  match st with
  | [] => []
  | w :: s => if w =? y then [] else w :: before y s
  end.

Lemma before_cons_eq y s : before y (y :: s) = [].
Proof. cbn. now rewrite Nat.eqb_refl. Qed.
Lemma before_cons_ne y w s : w <> y -> before y (w :: s) = w :: before y s.
Proof. intros H. cbn. apply Nat.eqb_neq in H. now rewrite H. Qed.
Lemma before_app_notin y a b : ~ In y a -> before y (a ++ b) = a ++ before y b.
Proof.
  induction a as [|w a IH]; cbn; intros H; auto.
  destruct (w =? y) eqn:E; [apply Nat.eqb_eq in E; tauto|]. rewrite IH; auto.
Qed.
Lemma before_incl y st : incl (before y st) st.
Proof.
  induction st as [|w s IH]; cbn; [apply incl_refl|]. destruct (w =? y); [intros x []|].
  intros x [<-|H]; [now left | right; auto].
Qed.

Definition succs (g : gstate) (n : nat) : list nat := map etgt (outgoing g n).

Lemma succs_edge g n t : In t (succs g n) <-> exists e, In e (edges g) /\ esrc e = n /\ etgt e = t.
Proof.
  unfold succs, outgoing. rewrite in_map_iff. split.
  - intros [e [E I]]. apply filter_In in I as [I S]. apply Nat.eqb_eq in S. eauto.
  - intros [e [I [S T]]]. exists e. split; auto. apply filter_In. split; auto. now apply Nat.eqb_eq.
Qed.

Definition push_succs (disc ss stack : list nat) : list nat :=
  fold_left (fun st s => if memn s disc then st else s :: st) ss stack.

Definition pushed (disc ss : list nat) : list nat := rev (filter (fun s => negb (memn s disc)) ss).

Lemma push_succs_eq disc ss : forall stack, push_succs disc ss stack = pushed disc ss ++ stack.
Proof.
  unfold push_succs, pushed. induction ss as [|s r IH]; intros stack; cbn; auto.
  rewrite IH. destruct (memn s disc); cbn; auto. now rewrite <- app_assoc.
Qed.

Lemma pushed_In disc ss x : In x (pushed disc ss) <-> In x ss /\ ~ In x disc.
Proof.
  unfold pushed. rewrite <- in_rev, filter_In, negb_true_iff, memn_notIn. tauto.
Qed.

Lemma pushed_cons_In x nx disc ss : In x (pushed (nx :: disc) ss) -> In x ss /\ x <> nx /\ ~ In x disc.
Proof. intros H. apply pushed_In in H as [A B]. split; auto. split; intros C; apply B; [now left | now right]. Qed.

Lemma pushed_length disc ss : length (pushed disc ss) <= length ss.
Proof. unfold pushed. rewrite rev_length. apply filter_len_le. Qed.

(** one iteration of the [while let Some(&nx) = dfs.stack.last()] loop *)
Definition dfs_step (g : gstate) (nx : nat) (rest : list nat) (d : dfs) : option (list nat * dfs) :=
  if memn nx (df_disc d) then
    if memn nx (df_fin d) then Some (rest, d)
    else Some (rest, {| df_disc := df_disc d; df_fin := nx :: df_fin d; df_out := nx :: df_out d |})
  else
    if memn nx (succs g nx) then None
    else Some (pushed (nx :: df_disc d) (succs g nx) ++ nx :: rest,
               {| df_disc := nx :: df_disc d; df_fin := df_fin d; df_out := df_out d |}).

Lemma dfs_loop_S g f nx rest d :
  dfs_loop g (S f) (nx :: rest) d =
  match dfs_step g nx rest d with None => None | Some (st', d') => dfs_loop g f st' d' end.
Proof.
  unfold dfs_step. cbn [dfs_loop]. fold (succs g nx).
  destruct (memn nx (df_disc d)); [destruct (memn nx (df_fin d)); reflexivity|].
  destruct (memn nx (succs g nx)); [reflexivity|].
  fold (push_succs (nx :: df_disc d) (succs g nx) (nx :: rest)). now rewrite push_succs_eq.
Qed.

Lemma dfs_loop_nil g f d : dfs_loop g f [] d = Some d.
Proof. destruct f; reflexivity. Qed.

(** the rule: an invariant with a strictly decreasing measure that is positive on non-empty stacks.
    With fuel at least the measure the loop ends on the EMPTY stack (so the fuel exit is not taken and
    more fuel changes nothing); [Q] is what holds when the loop leaves through [None] (the self loop exit). *)
Section Rule.
  Variable g : gstate.
  Variable P : list nat -> dfs -> Prop.
  Variable Q : Prop.
  Variable mu : list nat -> dfs -> nat.
  Hypothesis mu_pos : forall nx rest d, 0 < mu (nx :: rest) d.
  Hypothesis step_ok : forall nx rest d, P (nx :: rest) d ->
    match dfs_step g nx rest d with
    | None => Q
    | Some (st', d') => P st' d' /\ mu st' d' < mu (nx :: rest) d
    end.

  Lemma dfs_loop_rule : forall f st d, P st d -> mu st d <= f ->
    (forall f', f <= f' -> dfs_loop g f' st d = dfs_loop g f st d) /\
    match dfs_loop g f st d with None => Q | Some d' => P [] d' end.
  Proof.
    induction f as [|f IH]; intros st d HP Hm.
    - destruct st as [|nx rest]; [|pose proof (mu_pos nx rest d); lia].
      split; [intros f' _; now rewrite !dfs_loop_nil | now rewrite dfs_loop_nil].
    - destruct st as [|nx rest].
      { split; [intros f' _; now rewrite !dfs_loop_nil | now rewrite dfs_loop_nil]. }
      pose proof (step_ok nx rest d HP) as S. rewrite dfs_loop_S.
      destruct (dfs_step g nx rest d) as [[st' d']|] eqn:E.
      + destruct S as [HP' Hlt]. destruct (IH st' d' HP') as [Hf Hr]; [lia|]. split; auto.
        intros f' Hf'. destruct f' as [|f']; [lia|]. rewrite dfs_loop_S, E. apply Hf. lia.
      + split; auto. intros f' Hf'. destruct f' as [|f']; [lia|]. now rewrite dfs_loop_S, E.
  Qed.
End Rule.

(** the measure: stack entries + undiscovered live nodes + edges leaving undiscovered nodes *)
Definition white_edges (g : gstate) (disc : list nat) : list edge :=
  filter (fun e => negb (memn (esrc e) disc)) (edges g).

Definition dfs_mu (g : gstate) (st : list nat) (d : dfs) : nat :=
  length st + (length (node_ids g) - length (df_disc d)) + length (white_edges g (df_disc d)).

Lemma white_edges_discover g disc nx : ~ In nx disc ->
  length (white_edges g (nx :: disc)) + length (outgoing g nx) = length (white_edges g disc).
Proof.
  intros H. unfold white_edges, outgoing. apply memn_notIn in H.
  induction (edges g) as [|e r IH]; cbn [filter]; auto.
  rewrite memn_cons. destruct (Nat.eqb_spec (esrc e) nx) as [E|E].
  - rewrite E, H. cbn [orb negb length]. lia.
  - cbn [orb]. destruct (memn (esrc e) disc); cbn [negb length]; lia.
Qed.

Lemma dfs_mu_bound g i d : dfs_mu g [i] d <= dfs_fuel g.
Proof.
  unfold dfs_mu, dfs_fuel, white_edges. pose proof (node_ids_length g).
  pose proof (filter_len_le (fun e => negb (memn (esrc e) (df_disc d))) (edges g)). cbn [length]. lia.
Qed.

(** the invariant (no acyclicity is assumed) *)
Definition grey (d : dfs) (x : nat) : Prop := In x (df_disc d) /\ ~ In x (df_fin d).

Section Inv.
  Variable g : gstate.
  Hypothesis EL : forall e, In e (edges g) -> live g (esrc e) = true /\ live g (etgt e) = true.
  (** nodes that must stay "discovered or on the stack" *)
  Variable R : list nat.

  Record DInv (st : list nat) (d : dfs) : Prop := {
    di_out : df_fin d = df_out d;
    di_nodup_out : NoDup (df_out d);
    di_nodup_disc : NoDup (df_disc d);
    di_fin_disc : incl (df_fin d) (df_disc d);
    di_grey_st : forall x, grey d x -> In x st;
    di_live_st : forall x, In x st -> live g x = true;
    di_live_disc : forall x, In x (df_disc d) -> live g x = true;
    (** every successor of a grey node was already discovered or waits above its active entry *)
    di_succ : forall x t, grey d x -> In t (succs g x) -> In t (df_disc d) \/ In t (before x st);
    di_req : forall x, In x R -> In x (df_disc d) \/ In x st;
    di_noself : forall x, In x (df_disc d) -> ~ In x (succs g x) }.

  Lemma succs_live n t : In t (succs g n) -> live g t = true.
  Proof. intros H. apply succs_edge in H as [e [I [_ <-]]]. now apply EL. Qed.

  Lemma disc_length_bound disc : NoDup disc -> (forall x, In x disc -> live g x = true) ->
    length disc <= length (node_ids g).
  Proof. intros ND L. apply NoDup_incl_length; auto. intros x Hx. apply node_ids_live_iff. auto. Qed.

  Definition has_self_loop : Prop := exists e, In e (edges g) /\ esrc e = etgt e.

  (** finishing a node is two moves: it becomes black where it stands, then its entry is dropped like any
      other entry of a black node *)
  Definition finish (nx : nat) (d : dfs) : dfs :=
    {| df_disc := df_disc d; df_fin := nx :: df_fin d; df_out := nx :: df_out d |}.

  Lemma DInv_finish nx rest d : DInv (nx :: rest) d -> grey d nx -> DInv (nx :: rest) (finish nx d).
  Proof.
    intros I [Dn Fn].
    assert (G : forall x, grey (finish nx d) x -> grey d x).
    { intros x [Dx Fx]. split; [exact Dx|]. intros H. apply Fx. now right. }
    constructor; cbn [finish df_disc df_fin df_out]; try apply I.
    - f_equal. apply I.
    - constructor; [rewrite <- (di_out _ _ I); auto | apply I].
    - intros x [<-|Hx]; auto. now apply (di_fin_disc _ _ I).
    - intros x Gx. apply (di_grey_st _ _ I), G, Gx.
    - intros x t Gx. apply (di_succ _ _ I), G, Gx.
  Qed.

  Lemma DInv_pop nx rest d : DInv (nx :: rest) d -> In nx (df_fin d) -> DInv rest d.
  Proof.
    intros I Fn. assert (Dn : In nx (df_disc d)) by now apply (di_fin_disc _ _ I).
    constructor; try apply I.
    - intros x Gx. destruct (di_grey_st _ _ I x Gx) as [<-|H]; auto. destruct Gx; contradiction.
    - intros x Hx. apply (di_live_st _ _ I). now right.
    - intros x t Gx Ht. destruct (di_succ _ _ I x t Gx Ht) as [H|H]; auto.
      rewrite before_cons_ne in H by (intros ->; destruct Gx; contradiction). destruct H as [<-|H]; auto.
    - intros x Hx. destruct (di_req _ _ I x Hx) as [H|[<-|H]]; auto.
  Qed.

  Lemma dfs_step_inv nx rest d : DInv (nx :: rest) d ->
    match dfs_step g nx rest d with
    | None => has_self_loop
    | Some (st', d') => DInv st' d' /\ dfs_mu g st' d' < dfs_mu g (nx :: rest) d
    end.
  Proof.
    intros I. unfold dfs_step.
    destruct (memn nx (df_disc d)) eqn:Dn.
    - apply memn_In in Dn. destruct (memn nx (df_fin d)) eqn:Fn.
      + apply memn_In in Fn. split; [exact (DInv_pop nx rest d I Fn)|]. unfold dfs_mu. cbn [length]. lia.
      + apply memn_notIn in Fn. split.
        * apply (DInv_pop nx); [apply DInv_finish; [exact I | now split] | now left].
        * unfold dfs_mu. cbn [length df_disc]. lia.
    - apply memn_notIn in Dn.
      destruct (memn nx (succs g nx)) eqn:Sl.
      + apply memn_In, succs_edge in Sl as [e [Ie [S T]]]. exists e. split; auto. congruence.
      + apply memn_notIn in Sl.
        set (pu := pushed (nx :: df_disc d) (succs g nx)).
        pose proof (fun x => pushed_cons_In x nx (df_disc d) (succs g nx)) as Pu. fold pu in Pu.
        assert (Lnx : live g nx = true) by (apply (di_live_st _ _ I); now left).
        match goal with |- DInv ?st' ?d' /\ _ => assert (I' : DInv st' d') end.
        * constructor; cbn [df_disc df_fin df_out]; try apply I.
          -- constructor; [auto | apply I].
          -- intros x Hx. right. now apply (di_fin_disc _ _ I).
          -- intros x [Dx Fx]. cbn [df_disc df_fin] in *. apply in_or_app. right.
             destruct Dx as [<-|Dx]; [now left|]. apply (di_grey_st _ _ I). split; auto.
          -- intros x Hx. apply in_app_or in Hx as [Hx|Hx]; [|now apply (di_live_st _ _ I)].
             apply Pu in Hx as [Hx _]. eapply succs_live; eauto.
          -- intros x [<-|Hx]; auto. now apply (di_live_disc _ _ I).
          -- intros x t [Dx Fx] Ht. cbn [df_disc df_fin] in *.
             destruct Dx as [<-|Dx].
             ++ (* the node just discovered: its white successors were pushed above it *)
                destruct (in_dec Nat.eq_dec t (nx :: df_disc d)) as [H|H]; [now left|]. right.
                rewrite before_app_notin by (intros H'; apply Pu in H'; tauto).
                rewrite before_cons_eq, app_nil_r. apply pushed_In. auto.
             ++ assert (Gx : grey d x) by (split; auto).
                assert (Nx : ~ In x pu) by (intros H'; apply Pu in H'; tauto).
                rewrite before_app_notin by exact Nx.
                destruct (di_succ _ _ I x t Gx Ht) as [H|H]; [left; now right|]. right. apply in_or_app. now right.
          -- intros x Hx. destruct (di_req _ _ I x Hx) as [H|H]; [left; now right|].
             right. apply in_or_app. now right.
          -- intros x [<-|Hx]; [exact Sl | now apply (di_noself _ _ I)].
        * split; [exact I'|]. unfold dfs_mu. cbn [df_disc]. rewrite app_length. cbn [length].
          pose proof (white_edges_discover g (df_disc d) nx Dn) as W.
          pose proof (pushed_length (nx :: df_disc d) (succs g nx)) as Lp. fold pu in Lp.
          assert (Ls : length (succs g nx) = length (outgoing g nx)) by (unfold succs; apply map_length).
          pose proof (disc_length_bound _ (di_nodup_disc _ _ I') (di_live_disc _ _ I')) as Ld.
          cbn [df_disc length] in Ld. lia.
  Qed.

  (** the loop from an invariant state, with the model's fuel or more *)
  Lemma dfs_loop_inv f st d : DInv st d -> dfs_mu g st d <= f ->
    (forall f', f <= f' -> dfs_loop g f' st d = dfs_loop g f st d) /\
    match dfs_loop g f st d with None => has_self_loop | Some d' => DInv [] d' end.
  Proof.
    apply (dfs_loop_rule g DInv has_self_loop (dfs_mu g)).
    - intros nx rest d0. unfold dfs_mu. cbn [length]. lia.
    - exact dfs_step_inv.
  Qed.
End Inv.

Lemma DInv_nil_disc_fin g R d x : DInv g R [] d -> In x (df_disc d) -> In x (df_out d).
Proof.
  intros I Dx. rewrite <- (di_out _ _ _ _ I).
  destruct (in_dec Nat.eq_dec x (df_fin d)) as [H|H]; auto.
  destruct (di_grey_st _ _ _ _ I x (conj Dx H)).
Qed.
