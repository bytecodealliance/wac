(** C06: what it means that the identifiers of an operation are live ([LiveOp]; that such a call does not
    panic is [GraphTheorems.step_explained] and [GraphAcyclic.v]), and the documented preconditions
    of the error outcomes. *)
From Coq Require Import List Arith Bool NArith.
From WacV Require Import Graph GraphInv.
Import ListNotations.

Definition LiveOp (u : universe) (s : gstate) (o : op) : Prop :=
  match o with
  | Register _ => True
  | Unregister id => get_pkg s id <> None
  | DefineType _ t => t < length (u_tys u)
  | Import _ k => k < length (u_lkinds u)
  | Instantiate id => exists p, get_pkg s id = Some p /\ p < length (u_pkgs u)
  | Alias n _ => live s n = true
  | SetArg i _ n => live s i = true /\ live s n = true
  | UnsetArg i _ n => live s i = true /\ live s n = true
  | Export n _ => live s n = true
  | Unexport n => live s n = true
  | SetName n _ => live s n = true
  | RemoveNode n => live s n = true
  end.

Lemma live_get s n : live s n = true -> exists nd, get_node s n = Some nd.
Proof. unfold live. destruct (get_node s n); [eauto|discriminate]. Qed.

Lemma export_errors u s n e x :
  snd (export_ u s n e) = OErr x ->
  (exists m, x = ExportAlreadyExists m /\ alist_get N.eqb (exports s) e = Some m) \/
  (x = InvalidExportName /\ alist_get N.eqb (exports s) e = None /\ u_export_name_ok u e = false).
Proof.
  unfold export_. destruct (alist_get N.eqb (exports s) e) as [m|]; [intros [= <-]; eauto|].
  destruct (u_export_name_ok u e); cbn [negb]; [destruct (update_node s n _); discriminate|].
  intros [= <-]. auto.
Qed.

Lemma export_exists_iff u s n e m :
  snd (export_ u s n e) = OErr (ExportAlreadyExists m) <-> alist_get N.eqb (exports s) e = Some m.
Proof.
  split.
  - intros H. apply export_errors in H as [[m' [[= ->] H]]|[H _]]; [auto|discriminate].
  - intros H. unfold export_. now rewrite H.
Qed.

Lemma import_errors u s nm k x :
  snd (import_ u s nm k) = OErr x ->
  (exists n, x = ImportAlreadyExists n /\ alist_get N.eqb (imports s) nm = Some n) \/
  (x = InvalidImportName /\ alist_get N.eqb (imports s) nm = None /\ u_import_name_ok u nm = false).
Proof.
  unfold import_. destruct (nth_error (u_lkinds u) k); [|discriminate].
  destruct (alist_get N.eqb (imports s) nm) as [m|]; [intros [= <-]; eauto|].
  destruct (u_import_name_ok u nm); cbn [negb]; [destruct (add_node s _); discriminate|].
  intros [= <-]. auto.
Qed.

(** the node named by [ImportAlreadyExists] is the live import node of that name *)
Lemma import_exists_node u s nm k n :
  Inv u s -> snd (import_ u s nm k) = OErr (ImportAlreadyExists n) ->
  exists nd, get_node s n = Some nd /\ nk nd = NImport nm.
Proof.
  intros H E. apply import_errors in E as [[n' [[= ->] E]]|[E _]]; [|discriminate].
  apply alist_get_In in E. now apply (inv_imports _ _ H).
Qed.

Lemma existsb_fst_nat {B} (l : list (nat * B)) t :
  existsb (fun p => fst p =? t) l = true <-> exists n, In (t, n) l.
Proof.
  rewrite existsb_exists. split.
  - intros [[t' n] [Hin E]]. cbn in E. apply Nat.eqb_eq in E. subst. eauto.
  - intros [n H]. exists (t, n). split; auto. apply Nat.eqb_refl.
Qed.

Lemma define_type_errors u s nm t x :
  snd (define_type u s nm t) = OErr x ->
  exists td, nth_error (u_tys u) t = Some td /\
  ((x = TypeAlreadyDefined /\ exists n, In (t, n) (defined s)) \/
   (x = CannotDefineResource /\ td_res td = true) \/
   (x = ExportConflict /\ In nm (map fst (exports s))) \/
   (x = InvalidExternName /\ u_import_name_ok u nm = false)).
Proof.
  unfold define_type. destruct (nth_error (u_tys u) t) as [td|]; [|discriminate]. intros H. exists td. split; auto.
  destruct (existsb (fun p => fst p =? t) (defined s)) eqn:E1.
  { injection H as <-. left. split; auto. now apply existsb_fst_nat. }
  destruct (td_res td) eqn:E2. { injection H as <-. auto. }
  destruct (existsb (fun p => N.eqb (fst p) nm) (exports s)) eqn:E3.
  { injection H as <-. right. right. left. split; auto.
    destruct (in_dec N.eq_dec nm (map fst (exports s))) as [Hi|Hi]; auto.
    apply existsb_key_false in Hi. congruence. }
  destruct (u_import_name_ok u nm) eqn:E4; cbn [negb] in H. { destruct (add_node s _). discriminate. }
  injection H as <-. auto.
Qed.

Lemma unexport_errors s n x :
  snd (unexport s n) = OErr x ->
  x = MustExportDefinition /\ exists nd, get_node s n = Some nd /\ nk nd = NDef.
Proof.
  unfold unexport. destruct (get_node s n) as [nd|]; [|discriminate].
  destruct (nk nd) eqn:K; [intros [= <-]; eauto| | |];
    (destruct (match nexport nd with Some nm => _ | None => _ end); discriminate).
Qed.

Lemma alias_errors u s n e x :
  snd (alias u s n e) = OErr x ->
  exists nd, get_node s n = Some nd /\
  ((x = NodeIsNotAnInstance /\ u_inst_exports u (nitem nd) = None) \/
   (x = InstanceMissingExport /\ exists ex, u_inst_exports u (nitem nd) = Some ex /\ get_full ex e 0 = None)).
Proof.
  unfold alias. destruct (get_node s n) as [nd|]; [|discriminate]. intros H. exists nd. split; auto.
  destruct (u_inst_exports u (nitem nd)) as [ex|]; [|injection H as <-; auto].
  destruct (get_full ex e 0) as [[index kind]|] eqn:Gf; [|injection H as <-; eauto].
  destruct (find _ (outgoing s n)); [discriminate|]. destruct (add_node s _). discriminate.
Qed.

Lemma scan_incoming_spec es index arg :
  match scan_incoming es index arg with
  | ScanNone => forall e, In e es -> exists j, ek e = EArg j /\ j <> index
  | ScanSame => exists e, In e es /\ ek e = EArg index /\ esrc e = arg
  | ScanOther => exists e, In e es /\ ek e = EArg index /\ esrc e <> arg
  | ScanPanic => exists e, In e es /\ forall i, ek e <> EArg i
  end.
Proof.
  induction es as [|x es IH]; cbn; [intros e []|].
  destruct (ek x) as [j|j|] eqn:K; try (exists x; split; [now left|intros i; congruence]).
  destruct (Nat.eqb_spec j index) as [->|Hj]; [destruct (Nat.eqb_spec (esrc x) arg); exists x; auto|].
  destruct (scan_incoming es index arg); try (destruct IH as [e [He R]]; exists e; split; [now right|exact R]).
  intros e [<-|He]; eauto.
Qed.

Lemma scan_connecting_spec es index :
  match scan_connecting es index with
  | UNone => True
  | UFound => exists e, In e es /\ ek e = EArg index
  | UPanic => exists e, In e es /\ forall i, ek e <> EArg i
  end.
Proof.
  induction es as [|x es IH]; cbn; [exact I|].
  destruct (ek x) as [j|j|] eqn:K; try (exists x; split; [now left|intros i; congruence]).
  destruct (Nat.eqb_spec j index) as [->|Hj]; [exists x; auto|].
  destruct (scan_connecting es index); auto; (destruct IH as [e [He R]]; exists e; split; [now right|exact R]).
Qed.

Lemma set_arg_errors u s inst a arg x :
  snd (set_arg u s inst a arg) = OErr x ->
  exists nd, get_node s inst = Some nd /\
  ((x = NodeIsNotAnInstantiation /\ forall sat, nk nd <> NInst sat) \/
   exists imps, inst_imports u s nd = Some imps /\
     ((x = InvalidArgumentName /\ get_full imps a 0 = None) \/
      exists index expected, get_full imps a 0 = Some (index, expected) /\
        ((x = ArgumentAlreadyPassed /\
          exists e, In e (edges s) /\ etgt e = inst /\ ek e = EArg index /\ esrc e <> arg) \/
         (x = ArgumentTypeMismatch /\ exists an, get_node s arg = Some an /\ u_sub u (nitem an) expected = false)))).
Proof.
  unfold set_arg. destruct (get_node s inst) as [nd|]; [|discriminate]. intros H. exists nd. split; auto.
  destruct (nk nd) as [| |sat|] eqn:K; try (injection H as <-; left; split; auto; intros; discriminate).
  right. destruct (inst_imports u s nd) as [imps|]; [|discriminate]. exists imps. split; auto.
  destruct (get_full imps a 0) as [[index expected]|]; [|injection H as <-; auto].
  right. exists index, expected. split; auto.
  destruct (scan_incoming _ index arg) eqn:Sc; try discriminate.
  - destruct (get_node s arg) as [an|]; [|discriminate].
    destruct (u_sub u (nitem an) expected) eqn:Su; cbn [negb] in H.
    + destruct (add_satisfied _ inst index) as [[s2|]|]; discriminate.
    + injection H as <-. right. eauto.
  - injection H as <-. left. split; auto. pose proof (scan_incoming_spec (incoming s inst) index arg) as Sp.
    rewrite Sc in Sp. destruct Sp as (e & He & R). apply filter_In in He as [He T]. apply Nat.eqb_eq in T. eauto.
Qed.

Lemma infallible_ops u s o x :
  snd (step u s o) = OErr x ->
  match o with
  | Unregister _ | Instantiate _ | SetName _ _ | RemoveNode _ => False
  | _ => True
  end.
Proof.
  destruct o; cbn [step]; auto.
  - unfold unregister. destruct (nth_error (pkgs s) (fst id)) as [sl|]; [|discriminate].
    destruct (negb (ps_gen sl =? snd id)); [discriminate|]. destruct (negb _); [discriminate|].
    destruct (remove_satisfied_all _ _); [|discriminate]. destruct (ps_pkg sl); discriminate.
  - unfold instantiate. destruct (pkg_desc u s id); [|discriminate]. destruct (add_node s _). discriminate.
  - unfold set_name. destruct (update_node s n _); discriminate.
  - unfold remove_node. destruct (remove_node_rec _ s n); discriminate.
Qed.
