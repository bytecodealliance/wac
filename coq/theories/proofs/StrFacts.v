(** Facts about [lib/Str.v] that every area uses: [str_eqb] decides equality, [split_first] cuts at the
    first occurrence, [split_on] never returns the empty list. *)
From WacV Require Import Str.

Lemma str_eqb_eq a b : str_eqb a b = true <-> a = b.
Proof.
  revert b; induction a as [|x a IH]; destruct b as [|y b]; cbn; split; try congruence; auto.
  - intros H. apply andb_true_iff in H as [H1 H2]. apply N.eqb_eq in H1. apply IH in H2. congruence.
  - intros H. injection H as -> ->. rewrite N.eqb_refl. cbn. now apply IH.
Qed.

Lemma str_eqb_refl a : str_eqb a a = true.
Proof. now apply str_eqb_eq. Qed.

Lemma str_eqb_neq a b : str_eqb a b = false <-> a <> b.
Proof. rewrite <- str_eqb_eq. destruct (str_eqb a b); intuition congruence. Qed.

Lemma str_eqb_sym a b : str_eqb a b = str_eqb b a.
Proof.
  destruct (str_eqb b a) eqn:E.
  - apply str_eqb_eq in E as ->. apply str_eqb_refl.
  - apply str_eqb_neq. apply str_eqb_neq in E. congruence.
Qed.

Lemma str_eqb_spec a b : reflect (a = b) (str_eqb a b).
Proof. apply iff_reflect. symmetry. apply str_eqb_eq. Qed.

Lemma split_first_app c : forall b a, ~ In c b -> split_first c (b ++ c :: a) = Some (b, a).
Proof.
  induction b as [|y b IH]; intros a N; cbn.
  - now rewrite N.eqb_refl.
  - destruct (N.eqb_spec y c) as [E|E].
    + exfalso. apply N. now left.
    + rewrite IH; auto. intros I. apply N. now right.
Qed.

Lemma split_first_spec c s b a :
  split_first c s = Some (b, a) <-> s = b ++ c :: a /\ ~ In c b.
Proof.
  split; [|intros [-> N]; now apply split_first_app].
  revert b a. induction s as [|x s IH]; intros b a; cbn; [discriminate|].
  destruct (N.eqb_spec x c) as [->|E].
  - intros H. injection H as <- <-. split; auto.
  - destruct (split_first c s) as [[b' a']|]; [|discriminate].
    intros H. injection H as <- <-. destruct (IH b' a' eq_refl) as [-> N]. split; auto.
    intros [H|H]; auto.
Qed.

Lemma split_first_none c s : split_first c s = None <-> ~ In c s.
Proof.
  induction s as [|x s IH]; cbn; [tauto|].
  destruct (N.eqb_spec x c) as [E|E]; [split; [discriminate | tauto]|].
  destruct (split_first c s) as [[b a]|].
  - split; [discriminate|]. intros H. enough (Some (b, a) = None) by discriminate. apply IH. tauto.
  - assert (~ In c s) by now apply IH. split; [tauto | reflexivity].
Qed.

Lemma split_on_nonempty c s : split_on c s <> [].
Proof.
  induction s as [|x s IH]; cbn; try discriminate.
  destruct (x =? c); try discriminate. destruct (split_on c s); discriminate.
Qed.
