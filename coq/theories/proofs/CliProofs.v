(** C19 — proofs about the CLI model (model/Cli.v) against the documented behaviour
    (spec/CliSpec.v) and the generated tables (gen/CliTable.v). *)
From Coq Require Import Permutation.
From WacV Require Import Str Show CliTypes CliTable Semver Cli CliWorlds CliSpec StrFacts.

Lemma opts_of_flags_is_documented sw : opts_of_flags sw = documented_opts sw.
Proof. destruct sw as [[] [] []]; reflexivity. Qed.

Lemma plug_opts_is_documented sw : plug_opts sw = documented_plug_opts.
Proof. destruct sw as [[]]; reflexivity. Qed.

Lemma compose_guard_is_documented sw ho tty :
  compose_terminal_guard sw ho tty = refuses_terminal (sw_wat sw) ho tty.
Proof. destruct sw as [[] [] []], ho, tty; reflexivity. Qed.

Lemma plug_guard_is_documented sw ho tty :
  plug_terminal_guard sw ho tty = refuses_terminal (psw_wat sw) ho tty.
Proof. destruct sw as [[]], ho, tty; reflexivity. Qed.

Lemma refuses_terminal_output wat tty : refuses_terminal wat true tty = false.
Proof. destruct wat; reflexivity. Qed.

Lemma parse_dep_means s kv : parse_dep s = Some kv <-> dep_means s kv.
Proof.
  unfold parse_dep. change dep_separator with 61. change dep_trim_key with true. change dep_trim_value with true.
  split.
  - destruct (split_first 61 s) as [[k v]|] eqn:E; [|discriminate].
    intros H. injection H as <-. apply split_first_spec in E. destruct E as [-> N]. now constructor.
  - intros H. destruct H as [k v N].
    assert (split_first 61 (k ++ 61 :: v) = Some (k, v)) as -> by (apply split_first_spec; auto).
    reflexivity.
Qed.

Lemma parse_dep_none s : parse_dep s = None <-> ~ In 61 s.
Proof.
  unfold parse_dep. change dep_separator with 61.
  destruct (split_first 61 s) as [[k v]|] eqn:E.
  - split; [discriminate|]. intros N. apply split_first_spec in E. destruct E as [-> _].
    exfalso. apply N. apply in_or_app. right. now left.
  - split; auto. intros _. now apply split_first_none.
Qed.

Lemma parse_deps_mean raw deps : parse_deps raw = Some deps <-> deps_mean raw deps.
Proof.
  unfold deps_mean. split.
  - revert deps. induction raw as [|s raw IH]; cbn; intros deps H.
    + injection H as <-. constructor.
    + destruct (parse_dep s) as [kv|] eqn:E; [|discriminate].
      destruct (parse_deps raw) as [kvs|]; [|discriminate].
      injection H as <-. constructor; [now apply parse_dep_means | now apply IH].
  - induction 1 as [|s kv raw deps M _ IH]; cbn; [reflexivity|].
    apply parse_dep_means in M. now rewrite M, IH.
Qed.

Lemma overrides_get_is_documented deps name : overrides_get deps name = override_of deps name.
Proof.
  unfold overrides_get, override_of. induction deps as [|kv deps IH] using rev_ind; [reflexivity|].
  rewrite fold_left_app, rev_unit. cbn. destruct (str_eqb (fst kv) name); [reflexivity | exact IH].
Qed.

Lemma bind_success {A} (r : sres A) s k :
  o_status (bind r s k) = Success <-> exists a, r = SOk a /\ o_status (k a) = Success.
Proof.
  destruct r; cbn; split; try discriminate.
  - intros H. eauto.
  - intros [a' [E H]]. now injection E as <-.
  - intros [a [E _]]. discriminate.
  - intros [a [E _]]. discriminate.
Qed.

(** The next three say when a stage followed by [k] succeeds, with [P] standing for the success of
    [k]: applied one after the other they walk down a command and leave the chain of stage equations
    it succeeds by. *)
Lemma bind_yields {A} (r : sres A) s k (P : A -> Prop) :
  (forall a, o_status (k a) = Success <-> P a) ->
  (o_status (bind r s k) = Success <-> exists a, r = SOk a /\ P a).
Proof.
  intros H. rewrite bind_success. split; intros [a [E p]]; exists a; split; auto; now apply H.
Qed.

Lemma opt_yields {A} (x : option A) s k (P : A -> Prop) :
  (forall a, o_status (k a) = Success <-> P a) ->
  (o_status (match x with Some a => k a | None => fail s end) = Success <-> exists a, x = Some a /\ P a).
Proof.
  intros H. destruct x as [a|]; cbn; split; try discriminate.
  - intros p. exists a. split; auto. now apply H.
  - intros [a' [E p]]. injection E as <-. now apply H.
  - intros [a [E _]]. discriminate.
Qed.

Lemma guard_yields (g : bool) s o (P : Prop) :
  (o_status o = Success <-> P) -> (o_status (if g then fail s else o) = Success <-> g = false /\ P).
Proof. intros H. destruct g; cbn; split; try tauto; try discriminate. intros [E _]. discriminate. Qed.

Lemma exit_zero_iff_success o : exit_code o = 0 <-> o_status o = Success.
Proof.
  unfold exit_code. destruct (o_status o) as [|s|s]; [tauto| |]; (split; [|discriminate]).
  - destruct s; discriminate.
  - discriminate.
Qed.

Definition silent (o : outcome) : Prop := o_stdout o = [] /\ o_writes o = [].

Lemma silent_bind {A} (r : sres A) s k : (forall a, silent (k a)) -> silent (bind r s k).
Proof. intros H. destruct r; cbn; [apply H | now split | now split]. Qed.

(** the run succeeded, or left nothing on stdout and wrote no file *)
Definition clean (o : outcome) : Prop := o_status o = Success \/ silent o.

Lemma clean_fail s : clean (fail s). Proof. right. now split. Qed.
Lemma clean_panic s : clean (panic s). Proof. right. now split. Qed.

Lemma clean_bind {A} (r : sres A) s k : (forall a, clean (k a)) -> clean (bind r s k).
Proof. destruct r; cbn; auto using clean_fail, clean_panic. Qed.

Lemma clean_emit pt wo wat output b : clean (emit pt wo wat output b).
Proof.
  unfold emit. apply clean_bind. intros out. destruct output as [p|].
  - destruct (wo p); [left; reflexivity | right; now split].
  - left. reflexivity.
Qed.

Lemma clean_no_output o : clean o -> exit_code o <> 0 -> silent o.
Proof. intros [C|C] H; [apply exit_zero_iff_success in C; contradiction | exact C]. Qed.

Lemma emit_success pt wo wat output b :
  o_status (emit pt wo wat output b) = Success <->
  (exists out, rendered pt wat b out) /\ (forall p, output = Some p -> wo p = true).
Proof.
  unfold emit, rendered. split.
  - intros H. apply bind_success in H as [out [E H]]. split.
    + exists out. destruct wat; [exact E | now injection E].
    + intros p ->. destruct (wo p); [reflexivity | discriminate].
  - intros [[out E] H]. apply bind_success. exists out. split.
    + destruct wat; [exact E | now subst].
    + destruct output as [p|]; [rewrite (H p eq_refl)|]; reflexivity.
Qed.

Lemma emit_delivered pt wo wat output b :
  (forall p, output = Some p -> wo p = true) ->
  emit pt wo wat output b =
  match (if wat then pt b else SOk b) with
  | SOk out => delivered output out (newline_after wat)
  | SErr => fail StPrint
  | SPanic => panic StPrint
  end.
Proof.
  intros H. unfold emit. destruct (if wat then pt b else SOk b) as [out| |]; cbn; auto.
  destruct output as [p|]; cbn; [rewrite (H p eq_refl)|]; reflexivity.
Qed.

Definition stopped (o : outcome) : Prop := exists s, o = fail s \/ o = panic s.

Lemma stopped_exit o : stopped o -> exit_code o <> 0.
Proof. intros [s [-> | ->]]; [destruct s|]; discriminate. Qed.

(** [m] either hands one value to whatever continuation follows it, or stops the run at a
    failing stage without looking at the continuation. *)
Definition runs {R} (m : (R -> outcome) -> outcome) : Prop :=
  (exists r, forall k, m k = k r) \/ (exists o, stopped o /\ forall k, m k = o).

Lemma runs_ret {R} (r : R) : runs (fun k => k r).
Proof. left. exists r. reflexivity. Qed.

Lemma runs_fail {R} s : runs (fun _ : R -> outcome => fail s).
Proof. right. exists (fail s). split; [exists s; left|]; reflexivity. Qed.

Lemma runs_panic {R} s : runs (fun _ : R -> outcome => panic s).
Proof. right. exists (panic s). split; [exists s; right|]; reflexivity. Qed.

Lemma runs_bind {A R} (x : sres A) s (f : A -> (R -> outcome) -> outcome) :
  (forall a, runs (f a)) -> runs (fun k => bind x s (fun a => f a k)).
Proof. intros H. destruct x as [a| |]; [apply H | apply runs_fail | apply runs_panic]. Qed.

Lemma runs_rel {R} (m : (R -> outcome) -> outcome) (Rel : outcome -> outcome -> Prop) k1 k2 :
  runs m -> (forall o, stopped o -> Rel o o) -> (forall r, Rel (k1 r) (k2 r)) -> Rel (m k1) (m k2).
Proof. intros [[r H] | [o [S H]]] Ho Hk; rewrite !H; auto. Qed.

Lemma runs_clean {R} (m : (R -> outcome) -> outcome) k : runs m -> (forall r, clean (k r)) -> clean (m k).
Proof.
  intros [[r H] | [o [[s [-> | ->]] H]]] Hk; rewrite H; [apply Hk | apply clean_fail | apply clean_panic].
Qed.

(** The bytes [o_file] leaves in [p] are those [o_out] prints (followed by [nl]); or both are the
    same failure. *)
Definition same_bytes (p nl : str) (o_file o_out : outcome) : Prop :=
  (exists out, o_file = delivered (Some p) out nl /\ o_out = delivered None out nl)
  \/ (exit_code o_file <> 0 /\ o_out = o_file).

(** [o_text] delivers the text form of the bytes [o_bin] delivers; or both are the same failure. *)
Definition text_form (pt : str -> sres str) (output : option str) (o_bin o_text : outcome) : Prop :=
  (exists b, o_bin = delivered output b [] /\
             o_text = match pt b with
                      | SOk t => delivered output t [10]
                      | SErr => fail StPrint
                      | SPanic => panic StPrint
                      end)
  \/ (exit_code o_bin <> 0 /\ o_text = o_bin).

Lemma same_bytes_stopped p nl o : stopped o -> same_bytes p nl o o.
Proof. intros S. right. split; [now apply stopped_exit | reflexivity]. Qed.

Lemma text_form_stopped pt output o : stopped o -> text_form pt output o o.
Proof. intros S. right. split; [now apply stopped_exit | reflexivity]. Qed.

Lemma emit_same_bytes pt wo wat p b :
  wo p = true -> same_bytes p (newline_after wat) (emit pt wo wat (Some p) b) (emit pt wo wat None b).
Proof.
  intros Wk. rewrite !emit_delivered by (intros q E; congruence).
  destruct (if wat then pt b else SOk b) as [out| |].
  - left. exists out. split; reflexivity.
  - apply same_bytes_stopped. exists StPrint. now left.
  - apply same_bytes_stopped. exists StPrint. now right.
Qed.

Lemma emit_text_form pt wo output b :
  (forall p, output = Some p -> wo p = true) ->
  text_form pt output (emit pt wo false output b) (emit pt wo true output b).
Proof. intros Wk. rewrite !emit_delivered by exact Wk. left. exists b. split; reflexivity. Qed.

Lemma fs_after_delivered prev p out nl :
  fs_after prev (delivered (Some p) out nl) p = Some out /\
  forall q, q <> p -> fs_after prev (delivered (Some p) out nl) q = prev q.
Proof.
  unfold fs_after, delivered. cbn. rewrite str_eqb_refl. split; auto.
  intros q N. apply str_eqb_neq in N. now rewrite N.
Qed.

Lemma fs_after_no_writes prev o : o_writes o = [] -> forall q, fs_after prev o q = prev q.
Proof. unfold fs_after. intros ->. reflexivity. Qed.

(** From "[-o] equals stdout" and "no output on failure" to the file-system statement. *)
Lemma overwrites_from_equals (o_file o_out : outcome) p nl :
  (exit_code o_file <> 0 -> silent o_file) ->
  same_bytes p nl o_file o_out ->
  forall prev : fs_state,
    (exists out, fs_after prev o_file p = Some out /\
                 (forall q, q <> p -> fs_after prev o_file q = prev q) /\
                 o_out = delivered None out nl)
    \/ (exit_code o_file <> 0 /\ forall q, fs_after prev o_file q = prev q).
Proof.
  intros Hclean [[out [Hf Ho]] | [Hx _]] prev.
  - left. exists out. subst o_file. destruct (fs_after_delivered prev p out nl) as [A B]. auto.
  - right. split; auto. apply fs_after_no_writes. now apply Hclean.
Qed.

Section ComposeProofs.
  Variables Doc Keys Pkgs Res Client : Type.
  Variable read_file : str -> sres str.
  Variable parse_doc : str -> sres Doc.
  Variable registry_new : option str -> sres Client.
  Variable discover : Doc -> sres Keys.
  Variable fs_resolve : str -> (str -> option str) -> Keys -> sres Pkgs.
  Variable keys_missing : Keys -> Pkgs -> Keys.
  Variable keys_is_empty : Keys -> bool.
  Variable registry_resolve : Client -> Keys -> sres Pkgs.
  Variable pkgs_extend : Pkgs -> Pkgs -> Pkgs.
  Variable resolve_doc : Doc -> Pkgs -> sres Res.
  Variable encode : Res -> encode_opts -> sres str.
  Variable print_text : str -> sres str.
  Variable write_ok : str -> bool.
  Variable stdout_tty : bool.
  (** The file-system resolver only *applies* the override lookup ([HashMap::get]). *)
  Hypothesis fs_resolve_ext : forall dir ov ov' keys,
    (forall n, ov n = ov' n) -> fs_resolve dir ov keys = fs_resolve dir ov' keys.

  Notation run := (compose Doc Keys Pkgs Res Client read_file parse_doc registry_new discover fs_resolve
                           keys_missing keys_is_empty registry_resolve pkgs_extend resolve_doc encode
                           print_text write_ok stdout_tty).
  Notation respk := (resolve_packages Doc Keys Pkgs Client registry_new discover fs_resolve keys_missing
                                      keys_is_empty registry_resolve pkgs_extend).
  Notation found := (packages_found Doc Keys Pkgs Client registry_new discover fs_resolve keys_missing
                                    keys_is_empty registry_resolve pkgs_extend).
  Notation pipeline := (pipeline_ok Doc Keys Pkgs Res Client read_file parse_doc registry_new discover
                                    fs_resolve keys_missing keys_is_empty registry_resolve pkgs_extend
                                    resolve_doc encode).

  Lemma respk_yields early dir ov d k (P : Pkgs -> Prop) :
    (forall pk, o_status (k pk) = Success <-> P pk) ->
    (o_status (respk early dir ov d k) = Success <-> exists pk, found early dir ov d pk /\ P pk).
  Proof.
    intros HP. unfold resolve_packages. split.
    - intros H. apply bind_success in H as [keys [Ed H]]. apply bind_success in H as [pk [Ef H]].
      destruct (keys_is_empty (keys_missing keys pk)) eqn:Em.
      + exists pk. split; [|now apply HP]. eapply AllLocal; eauto.
      + apply bind_success in H as [c [Ec H]]. apply bind_success in H as [rp [Er H]].
        destruct (keys_is_empty (keys_missing (keys_missing keys pk) rp)) eqn:Em2; [|discriminate].
        exists (pkgs_extend pk rp). split; [|now apply HP]. eapply SomeFromRegistry; eauto.
        destruct early as [c0|]; [left; now injection Ec as -> | right; auto].
    - intros [pk [F H]]. apply HP in H. destruct F as [keys pk Ed Ef Em | keys pk c rp Ed Ef Em Ec Er Em2].
      + apply bind_success. exists keys. split; auto. apply bind_success. exists pk. split; auto. now rewrite Em.
      + apply bind_success. exists keys. split; auto. apply bind_success. exists pk. split; auto. rewrite Em.
        apply bind_success. exists c. split.
        * destruct Ec as [-> | [-> Ec]]; auto.
        * apply bind_success. exists rp. split; auto. now rewrite Em2.
  Qed.

  Lemma found_ext early dir ov ov' d pk :
    (forall n, ov n = ov' n) -> found early dir ov d pk -> found early dir ov' d pk.
  Proof.
    intros E F. destruct F as [keys pk Ed Ef Em | keys pk c rp Ed Ef Em Ec Er Em2].
    - eapply AllLocal; eauto. now rewrite <- (fs_resolve_ext dir ov ov' keys E).
    - eapply SomeFromRegistry; eauto. now rewrite <- (fs_resolve_ext dir ov ov' keys E).
  Qed.

  Lemma respk_runs {R} early dir ov d (f : Pkgs -> (R -> outcome) -> outcome) :
    (forall pk, runs (f pk)) -> runs (fun k => respk early dir ov d (fun pk => f pk k)).
  Proof.
    intros H. unfold resolve_packages. apply runs_bind. intros keys. apply runs_bind. intros pk.
    destruct (keys_is_empty _); [apply H|]. apply runs_bind. intros c. apply runs_bind. intros rp.
    destruct (keys_is_empty _); [apply H | apply runs_fail].
  Qed.

  Theorem compose_exit_zero_iff_pipeline_ok f :
    exit_code (run f) = 0 <->
    exists b, pipeline f b /\
              sink_ok print_text write_ok (sw_wat (cf_sw f)) (cf_output f) stdout_tty b.
  Proof.
    rewrite exit_zero_iff_success. unfold compose, sink_ok.
    rewrite compose_guard_is_documented, opts_of_flags_is_documented.
    etransitivity.
    { apply opt_yields. intros deps. apply bind_yields. intros src. apply bind_yields. intros d.
      apply bind_yields. intros cl. apply respk_yields. intros pk. apply bind_yields. intros r.
      apply guard_yields. apply bind_yields. intros b. apply emit_success. }
    split.
    - intros (deps & M & src & Er & d & Ep & cl & Ec & pk & F & r & Ers & G & b & Ee & S). exists b. split; [|destruct S; auto].
      apply PipelineOk with deps src d cl pk r; auto.
      + now apply parse_deps_mean.
      + destruct (cf_registry f) as [u|]; [|now injection Ec].
        destruct (registry_new (Some u)) as [c| |]; [injection Ec; eauto | discriminate..].
      + eapply found_ext; [|exact F]. apply overrides_get_is_documented.
    - intros (b & [deps src d cl pk r M Er Ep Ec F Ers Ee] & R & Wk & G).
      exists deps. split; [now apply parse_deps_mean|]. exists src. split; auto. exists d. split; auto. exists cl. split.
      { destruct (cf_registry f) as [u|]; [destruct Ec as [c [-> ->]]; reflexivity | now subst]. }
      exists pk. split.
      { eapply found_ext; [|exact F]. intros n. symmetry. apply overrides_get_is_documented. }
      exists r. eauto 6.
  Qed.

  (** The stages of a run up to [emit], with the verdict [g] of the terminal guard as a parameter (in
      [compose] the guard sits between [resolve_doc] and [encode]).  Apart from [g], [front] depends
      neither on [-o] nor on [-t]. *)
  Definition front (g : bool) (f : compose_flags) (k : str -> outcome) : outcome :=
    match parse_deps (cf_deps f) with
    | None => fail StUsage
    | Some deps =>
      bind (read_file (cf_path f)) StRead (fun src =>
      bind (parse_doc src) StParse (fun d =>
      bind (match cf_registry f with
            | Some u => sres_map Some (registry_new (Some u))
            | None => SOk None
            end) StRegistryNew (fun cl =>
      respk cl (cf_deps_dir f) (overrides_get deps) d (fun pk =>
      bind (resolve_doc d pk) StResolve (fun r =>
      if g then fail StTerminal else bind (encode r (opts_of_flags (cf_sw f))) StEncode k)))))
    end.

  Lemma compose_front f :
    run f = front (compose_terminal_guard (cf_sw f) (is_some (cf_output f)) stdout_tty) f
                  (emit print_text write_ok (sw_wat (cf_sw f)) (cf_output f)).
  Proof. reflexivity. Qed.

  Lemma compose_front_emit f :
    refuses_terminal (sw_wat (cf_sw f)) (is_some (cf_output f)) stdout_tty = false ->
    run f = front false f (emit print_text write_ok (sw_wat (cf_sw f)) (cf_output f)).
  Proof. intros G. now rewrite compose_front, compose_guard_is_documented, G. Qed.

  Lemma front_with_output g f o : front g (with_output f o) = front g f.
  Proof. reflexivity. Qed.

  Lemma front_with_wat g f w : front g (with_wat f w) = front g f.
  Proof. reflexivity. Qed.

  Lemma front_runs g f : runs (front g f).
  Proof.
    unfold front. destruct (parse_deps (cf_deps f)) as [deps|]; [|apply runs_fail].
    apply runs_bind. intros src. apply runs_bind. intros d. apply runs_bind. intros cl.
    apply respk_runs. intros pk. apply runs_bind. intros r. destruct g; [apply runs_fail|].
    apply runs_bind. intros b. apply runs_ret.
  Qed.

  Theorem compose_no_output_on_failure f : exit_code (run f) <> 0 -> silent (run f).
  Proof.
    apply clean_no_output. rewrite compose_front.
    apply runs_clean; [apply front_runs | intros b; apply clean_emit].
  Qed.

  Theorem compose_o_equals_stdout f p :
    write_ok p = true ->
    refuses_terminal (sw_wat (cf_sw f)) false stdout_tty = false ->
    same_bytes p (newline_after (sw_wat (cf_sw f))) (run (with_output f (Some p))) (run (with_output f None)).
  Proof.
    intros Wk G.
    rewrite (compose_front_emit (with_output f (Some p))) by apply refuses_terminal_output.
    rewrite (compose_front_emit (with_output f None)) by exact G.
    rewrite !front_with_output. apply (runs_rel (front false f)); [apply front_runs | apply same_bytes_stopped|].
    intros b. now apply emit_same_bytes.
  Qed.

  Theorem compose_t_prints_same_component f :
    refuses_terminal false (is_some (cf_output f)) stdout_tty = false ->
    (forall p, cf_output f = Some p -> write_ok p = true) ->
    text_form print_text (cf_output f) (run (with_wat f false)) (run (with_wat f true)).
  Proof.
    intros G Wk.
    rewrite (compose_front_emit (with_wat f false)) by exact G.
    rewrite (compose_front_emit (with_wat f true)) by reflexivity.
    rewrite !front_with_wat. apply (runs_rel (front false f)); [apply front_runs | apply text_form_stopped|].
    intros b. now apply emit_text_form.
  Qed.
End ComposeProofs.

Section ParseProofs.
  Variable Doc : Type.
  Variable read_file : str -> sres str.
  Variable parse_doc : str -> sres Doc.
  Variable to_json : Doc -> sres str.
  Notation run := (parse_cmd Doc read_file parse_doc to_json).

  Theorem parse_exit_zero_iff path :
    exit_code (run path) = 0 <->
    exists src d js, read_file path = SOk src /\ parse_doc src = SOk d /\ to_json d = SOk js /\
                     run path = delivered None js [10].
  Proof.
    rewrite exit_zero_iff_success. unfold parse_cmd. split.
    - destruct (read_file path) as [src| |] eqn:E1; cbn; try discriminate.
      destruct (parse_doc src) as [d| |] eqn:E2; cbn; try discriminate.
      destruct (to_json d) as [js| |] eqn:E3; cbn; try discriminate. intros _. exists src, d, js. auto.
    - intros [src [d [js [E1 [E2 [E3 _]]]]]]. rewrite E1. cbn. rewrite E2. cbn. rewrite E3. reflexivity.
  Qed.

  Theorem parse_no_output_on_failure path : exit_code (run path) <> 0 -> silent (run path).
  Proof.
    apply clean_no_output. unfold parse_cmd. repeat (apply clean_bind; intros). left. reflexivity.
  Qed.
End ParseProofs.

Lemma mem_str_in k l : mem_str k l = true <-> In k l.
Proof.
  unfold mem_str. rewrite existsb_exists. split.
  - intros [x [I E]]. apply str_eqb_eq in E. now subst.
  - intros I. exists k. split; auto. apply str_eqb_refl.
Qed.

Lemma mem_str_app k a b : mem_str k (a ++ b) = mem_str k a || mem_str k b.
Proof. apply existsb_app. Qed.

Lemma mem_str_cons k x l : mem_str k (x :: l) = str_eqb k x || mem_str k l.
Proof. reflexivity. Qed.

Section Grouping.
  Context {A : Type}.

  Lemma gi_keys k (v : A) g :
    map fst (group_insert k v g) = if mem_str k (map fst g) then map fst g else map fst g ++ [k].
  Proof.
    unfold mem_str. induction g as [|[k0 vs] g IH]; cbn; auto.
    rewrite (str_eqb_sym k k0). destruct (str_eqb k0 k); cbn; auto.
    rewrite IH. destruct (existsb (str_eqb k) (map fst g)); reflexivity.
  Qed.

  Lemma gi_lookup k (v : A) k' g :
    group_lookup k' (group_insert k v g) =
    if str_eqb k k' then group_lookup k' g ++ [v] else group_lookup k' g.
  Proof.
    induction g as [|[k0 vs] g IH]; cbn.
    - destruct (str_eqb k k'); reflexivity.
    - destruct (str_eqb_spec k0 k) as [->|E0]; cbn.
      + destruct (str_eqb k k'); reflexivity.
      + destruct (str_eqb_spec k0 k') as [->|E1]; auto.
        apply str_eqb_neq in E0. rewrite (str_eqb_sym k k'), E0. reflexivity.
  Qed.

  Lemma group_plugs_snoc (l : list (str * A)) x :
    group_plugs (l ++ [x]) = group_insert (fst x) (snd x) (group_plugs l).
  Proof. unfold group_plugs. now rewrite fold_left_app. Qed.

  Lemma mem_first_occurrences k : forall m seen,
    mem_str k (first_occurrences seen m) = negb (mem_str k seen) && mem_str k m.
  Proof.
    induction m as [|x m IH]; intros seen; cbn [first_occurrences].
    - change (mem_str k []) with false. now rewrite andb_false_r.
    - rewrite (mem_str_cons k x m). destruct (mem_str x seen) eqn:Ex.
      + rewrite IH. destruct (str_eqb_spec k x) as [->|E]; cbn [orb]; auto.
        rewrite Ex. reflexivity.
      + rewrite mem_str_cons, IH, mem_str_cons. destruct (str_eqb_spec k x) as [->|E]; cbn [orb negb andb].
        * now rewrite Ex.
        * reflexivity.
  Qed.

  Lemma first_occurrences_snoc k : forall m seen,
    first_occurrences seen (m ++ [k]) =
    first_occurrences seen m ++ (if mem_str k seen || mem_str k m then [] else [k]).
  Proof.
    induction m as [|x m IH]; intros seen; cbn [first_occurrences app].
    - change (mem_str k []) with false. rewrite orb_false_r. destruct (mem_str k seen); reflexivity.
    - rewrite (mem_str_cons k x m). destruct (mem_str x seen) eqn:Ex.
      + rewrite IH. destruct (str_eqb_spec k x) as [->|E]; cbn [orb]; auto.
        rewrite Ex. reflexivity.
      + cbn [app]. rewrite IH, mem_str_cons. destruct (str_eqb k x); cbn [orb].
        * now rewrite orb_true_r.
        * reflexivity.
  Qed.

  Lemma group_plugs_keys (l : list (str * A)) :
    map fst (group_plugs l) = first_occurrences [] (map fst l).
  Proof.
    induction l as [|x l IH] using rev_ind; [reflexivity|].
    rewrite group_plugs_snoc, gi_keys, map_app, IH. cbn [map]. rewrite first_occurrences_snoc.
    rewrite mem_first_occurrences. change (mem_str (fst x) []) with false. cbn [negb andb orb].
    destruct (mem_str (fst x) (map fst l)); [now rewrite app_nil_r | reflexivity].
  Qed.

  Lemma group_plugs_lookup k (l : list (str * A)) : group_lookup k (group_plugs l) = members k l.
  Proof.
    unfold members. induction l as [|x l IH] using rev_ind; [reflexivity|].
    rewrite group_plugs_snoc, gi_lookup, filter_app, map_app, IH. cbn.
    destruct (str_eqb (fst x) k); cbn; [reflexivity | now rewrite app_nil_r].
  Qed.

  Lemma first_occurrences_nodup : forall m seen,
    NoDup (first_occurrences seen m) /\ forall x, In x (first_occurrences seen m) -> ~ In x seen.
  Proof.
    induction m as [|x m IH]; intros seen; cbn.
    - split; [constructor | tauto].
    - destruct (mem_str x seen) eqn:Ex; [apply IH|].
      destruct (IH (x :: seen)) as [ND Hn]. split.
      + constructor; auto. intros I. apply (Hn x I). now left.
      + intros y [<- | I].
        * intros I. apply mem_str_in in I. congruence.
        * intros I2. apply (Hn y I). now right.
  Qed.

  Lemma groups_as_lookup (g : list (str * list A)) :
    NoDup (map fst g) -> map (fun k => (k, group_lookup k g)) (map fst g) = g.
  Proof.
    induction g as [|[k0 vs] g IH]; cbn; auto. intros ND. apply NoDup_cons_iff in ND as [NI ND'].
    rewrite str_eqb_refl. f_equal. rewrite <- (IH ND') at 2. apply map_ext_in. intros k I.
    destruct (str_eqb_spec k0 k) as [->|E]; [contradiction | reflexivity].
  Qed.
End Grouping.

Lemma one_ltb_of_nat n : (1 <? N.of_nat n) = match n with S (S _) => true | _ => false end.
Proof.
  destruct n as [|[|n]]; [reflexivity | reflexivity|]. apply N.ltb_lt. rewrite !Nat2N.inj_succ. lia.
Qed.

Lemma reg_name_is_documented k n i r : reg_name k n i r = documented_name k n i r.
Proof.
  unfold reg_name, documented_name. change plug_prefix with documented_plug_prefix. change plug_index_suffix_when_multi with true.
  rewrite one_ltb_of_nat. destruct n as [|[|n]]; [apply app_nil_r | apply app_nil_r | reflexivity].
Qed.

Lemma name_group_is_documented ks k :
  name_group (k, members k ks) = documented_group ks k.
Proof.
  unfold name_group, documented_group. cbn [fst snd]. apply map_ext. intros [i r]. cbn [fst snd].
  now rewrite reg_name_is_documented.
Qed.

(** The registration list in terms of the documented groups, for any iteration order. *)
Lemma registrations_shape hash_order ks :
  registrations hash_order ks =
  flat_map (documented_group ks)
           (match plug_grouping with
            | GroupInsertion => first_occurrences [] (map fst ks)
            | GroupHash => hash_order (first_occurrences [] (map fst ks))
            end).
Proof.
  unfold registrations, iteration_order.
  assert (forall l, flat_map name_group (map (fun k => (k, group_lookup k (group_plugs ks))) l)
                    = flat_map (documented_group ks) l) as Hl.
  { induction l as [|k l IH]; cbn [flat_map map]; auto.
    rewrite IH, group_plugs_lookup, name_group_is_documented. reflexivity. }
  destruct plug_grouping.
  - rewrite group_plugs_keys. apply Hl.
  - rewrite <- group_plugs_keys, <- Hl. f_equal. symmetry. apply groups_as_lookup.
    rewrite group_plugs_keys. apply first_occurrences_nodup.
Qed.

Theorem registrations_documented hash_order ks :
  plug_grouping = GroupInsertion \/ (forall l, hash_order l = l) ->
  registrations hash_order ks = documented_registrations ks.
Proof.
  intros H. rewrite registrations_shape. unfold documented_registrations.
  destruct plug_grouping; auto. destruct H as [H|H]; [discriminate | now rewrite H].
Qed.

Theorem registrations_permutation hash_order ks :
  (forall l, Permutation (hash_order l) l) ->
  Permutation (registrations hash_order ks) (documented_registrations ks).
Proof.
  intros H. rewrite registrations_shape. unfold documented_registrations.
  destruct plug_grouping; [apply Permutation_flat_map, H | reflexivity].
Qed.

Section PlugProofs.
  Variables G Id : Type.
  Variable is_pkg_name : str -> bool.
  Variable hash_order : list str -> list str.
  Variable download : option str -> str -> option str -> sres str.
  Variable read_bin : str -> sres str.
  Variable g_new : G.
  Variable add_bytes : G -> str -> str -> sres (G * Id).
  Variable add_file : G -> str -> str -> sres (G * Id).
  Variable do_plug : G -> list Id -> Id -> sres G.
  Variable encode_g : G -> encode_opts -> sres str.
  Variable print_text : str -> sres str.
  Variable write_ok : str -> bool.
  Variable stdout_tty : bool.

  Notation run := (plug G Id is_pkg_name hash_order download read_bin g_new add_bytes add_file do_plug
                        encode_g print_text write_ok stdout_tty).
  Notation addp := (add_plugs G Id download add_file).
  Notation fetchp := (fetch download).
  Notation loc := (located download).
  Notation regd := (registered G Id download add_file).
  Notation pipeline := (plug_pipeline_ok G Id is_pkg_name download read_bin g_new add_bytes add_file do_plug encode_g).

  Lemma fetch_located reg r path : fetchp reg r = SOk path <-> loc reg r path.
  Proof. destruct r; cbn; [split; [intros H; now injection H | now intros ->] | reflexivity]. Qed.

  Lemma add_plugs_yields reg l g acc k (P : G -> list Id -> Prop) :
    (forall g2 ids, o_status (k g2 ids) = Success <-> P g2 ids) ->
    (o_status (addp reg g acc l k) = Success <->
     exists g2 ids, regd reg g l g2 ids /\ P g2 (rev acc ++ ids)).
  Proof.
    intros HP. split.
    - revert g acc. induction l as [|[name r] l IH]; intros g acc H; cbn [add_plugs] in H.
      + exists g, []. split; [constructor | rewrite app_nil_r; now apply HP].
      + apply bind_success in H as [path [Ef H]]. apply bind_success in H as [[g1 id] [Ea H]].
        apply IH in H as [g2 [ids [R H]]]. exists g2, (id :: ids). split.
        * econstructor; eauto. now apply fetch_located.
        * cbn [rev fst snd] in H. now rewrite <- app_assoc in H.
    - intros [g2 [ids [R H]]]. revert acc H.
      induction R as [g | g name r rest path g1 id g2 ids L Ea R IH]; intros acc H; cbn [add_plugs].
      + rewrite app_nil_r in H. now apply HP.
      + apply bind_success. exists path. split; [now apply fetch_located|].
        apply bind_success. exists (g1, id). split; auto.
        apply IH. cbn [rev]. now rewrite <- app_assoc.
  Qed.

  Lemma add_plugs_runs {R} reg : forall l g acc (f : G -> list Id -> (R -> outcome) -> outcome),
    (forall g2 ids, runs (f g2 ids)) -> runs (fun k => addp reg g acc l (fun g2 ids => f g2 ids k)).
  Proof.
    induction l as [|[name r] l IH]; intros g acc f H; cbn [add_plugs]; [apply H|].
    apply runs_bind. intros path. apply runs_bind. intros gi. now apply IH.
  Qed.

  Theorem plug_exit_zero_iff_pipeline_ok f :
    plug_grouping = GroupInsertion \/ (forall l, hash_order l = l) ->
    (exit_code (run f) = 0 <->
     exists b, pipeline f b /\ sink_ok print_text write_ok (psw_wat (pf_sw f)) (pf_output f) stdout_tty b).
  Proof.
    intros Ord. rewrite exit_zero_iff_success. unfold plug, sink_ok.
    rewrite plug_guard_is_documented, plug_opts_is_documented.
    change plug_socket_name with documented_socket_name.
    etransitivity.
    { apply opt_yields. intros plugs. apply opt_yields. intros socket. apply guard_yields.
      apply bind_yields. intros spath. apply bind_yields. intros sbytes. apply bind_yields. intros gs.
      apply opt_yields. intros ks. rewrite (registrations_documented hash_order ks Ord).
      apply add_plugs_yields. intros g ids. apply bind_yields. intros g'. apply bind_yields. intros b.
      apply guard_yields. apply emit_success. }
    split.
    - intros (plugs & Ep & socket & Es & En & spath & L & sbytes & Er & [g0 sid] & Ea & ks & Ek & g & ids & R &
              g' & Edp & b & Ee & Gd & S).
      exists b. split; [|destruct S; auto]. eapply PlugOk; eauto; [intros ->; discriminate | now apply fetch_located].
    - intros (b & [plugs socket spath sbytes g0 sid ks g ids g' Ep Hne Es L Er Ea Ek R Edp Ee] & Rn & Wk & Gd).
      apply fetch_located in L. assert (is_nil plugs = false) by now destruct plugs. eauto 30.
  Qed.

  (** The stages of a run up to [emit], with the verdict [gd] of the terminal guard, which [plug] has
      just before [emit], as a parameter. *)
  Definition pfront (gd : bool) (f : plug_flags) (k : str -> outcome) : outcome :=
    match parse_pkg_refs is_pkg_name (pf_plugs f), parse_pkg_ref is_pkg_name (pf_socket f) with
    | Some plugs, Some socket =>
      if is_nil plugs then fail StUsage else
      bind (fetchp (pf_registry f) socket) StFetch (fun spath =>
      bind (read_bin spath) StSocketRead (fun sbytes =>
      bind (add_bytes g_new plug_socket_name sbytes) StSocketAdd (fun gs =>
      match keyed plugs with
      | None => fail StPlugName
      | Some ks =>
        addp (pf_registry f) (fst gs) [] (registrations hash_order ks) (fun g ids =>
        bind (do_plug g ids (snd gs)) StPlug (fun g' =>
        bind (encode_g g' (plug_opts (pf_sw f))) StEncode (fun b =>
        if gd then fail StTerminal else k b)))
      end)))
    | _, _ => fail StUsage
    end.

  Lemma plug_front f :
    run f = pfront (plug_terminal_guard (pf_sw f) (is_some (pf_output f)) stdout_tty) f
                   (emit print_text write_ok (psw_wat (pf_sw f)) (pf_output f)).
  Proof. reflexivity. Qed.

  Lemma plug_front_emit f :
    refuses_terminal (psw_wat (pf_sw f)) (is_some (pf_output f)) stdout_tty = false ->
    run f = pfront false f (emit print_text write_ok (psw_wat (pf_sw f)) (pf_output f)).
  Proof. intros Gd. now rewrite plug_front, plug_guard_is_documented, Gd. Qed.

  Lemma pfront_with_poutput gd f o : pfront gd (with_poutput f o) = pfront gd f.
  Proof. reflexivity. Qed.

  Lemma pfront_with_pwat gd f w : pfront gd (with_pwat f w) = pfront gd f.
  Proof. reflexivity. Qed.

  Lemma pfront_runs gd f : runs (pfront gd f).
  Proof.
    unfold pfront. destruct (parse_pkg_refs _ _) as [plugs|]; [|apply runs_fail].
    destruct (parse_pkg_ref _ _) as [socket|]; [|apply runs_fail].
    destruct (is_nil plugs); [apply runs_fail|].
    apply runs_bind. intros spath. apply runs_bind. intros sbytes. apply runs_bind. intros gs.
    destruct (keyed plugs) as [ks|]; [|apply runs_fail]. apply add_plugs_runs. intros g ids.
    apply runs_bind. intros g'. apply runs_bind. intros b. destruct gd; [apply runs_fail | apply runs_ret].
  Qed.

  Theorem plug_no_output_on_failure f : exit_code (run f) <> 0 -> silent (run f).
  Proof.
    apply clean_no_output. rewrite plug_front.
    apply runs_clean; [apply pfront_runs | intros b; apply clean_emit].
  Qed.

  Theorem plug_o_equals_stdout f p :
    write_ok p = true ->
    refuses_terminal (psw_wat (pf_sw f)) false stdout_tty = false ->
    same_bytes p (newline_after (psw_wat (pf_sw f))) (run (with_poutput f (Some p))) (run (with_poutput f None)).
  Proof.
    intros Wk Gd.
    rewrite (plug_front_emit (with_poutput f (Some p))) by apply refuses_terminal_output.
    rewrite (plug_front_emit (with_poutput f None)) by exact Gd.
    rewrite !pfront_with_poutput. apply (runs_rel (pfront false f)); [apply pfront_runs | apply same_bytes_stopped|].
    intros b. now apply emit_same_bytes.
  Qed.

  Theorem plug_t_prints_same_component f :
    refuses_terminal false (is_some (pf_output f)) stdout_tty = false ->
    (forall p, pf_output f = Some p -> write_ok p = true) ->
    text_form print_text (pf_output f) (run (with_pwat f false)) (run (with_pwat f true)).
  Proof.
    intros Gd Wk.
    rewrite (plug_front_emit (with_pwat f false)) by exact Gd.
    rewrite (plug_front_emit (with_pwat f true)) by reflexivity.
    rewrite !pfront_with_pwat. apply (runs_rel (pfront false f)); [apply pfront_runs | apply text_form_stopped|].
    intros b. now apply emit_text_form.
  Qed.
End PlugProofs.

Lemma assoc_filter_notin {A} (p : str * A -> bool) n (l : list (str * A)) :
  ~ In n (map fst l) -> assoc_str n (filter p l) = None.
Proof.
  induction l as [|[k e] l IH]; cbn; auto. intros N.
  assert (assoc_str n (filter p l) = None) as IH' by (apply IH; tauto).
  destruct (p (k, e)); auto. cbn. destruct (str_eqb_spec k n) as [->|E]; auto.
  exfalso. apply N. now left.
Qed.

Section TargetsProofs.
  Variables W C : Type.
  Variable wit_encode : str -> sres str.
  Variable wit_decode : str -> sres (list (str * wit_export W)).
  Variable read_bin : str -> sres str.
  Variable comp_decode : str -> sres C.
  Variable validate_t : W -> C -> sres unit.
  Notation run := (targets W C wit_encode wit_decode read_bin comp_decode validate_t).

  Theorem targets_exit_zero_iff f :
    exit_code (run f) = 0 <->
    exists wb exports cb c w,
      wit_encode (tf_wit f) = SOk wb /\ wit_decode wb = SOk exports /\
      read_bin (tf_component f) = SOk cb /\ comp_decode cb = SOk c /\
      select_world exports (tf_world f) = Some w /\ validate_t w c = SOk tt.
  Proof.
    rewrite exit_zero_iff_success. unfold targets. etransitivity.
    { apply bind_yields. intros wb. apply bind_yields. intros ex. apply bind_yields. intros cb.
      apply bind_yields. intros c. apply opt_yields. intros w. apply bind_yields. intros u. apply iff_refl. }
    split.
    - intros (wb & E1 & ex & E2 & cb & E3 & c & E4 & w & E5 & [] & E6 & _). exists wb, ex, cb, c, w. auto 10.
    - intros (wb & ex & cb & c & w & E1 & E2 & E3 & E4 & E5 & E6). eauto 20.
  Qed.

  Theorem targets_never_writes f : silent (run f).
  Proof.
    unfold targets. apply silent_bind. intros wb. apply silent_bind. intros exports.
    apply silent_bind. intros cb. apply silent_bind. intros c.
    destruct (select_world exports (tf_world f)) as [w|]; [apply silent_bind; intros _ | ]; now split.
  Qed.
End TargetsProofs.

(** `--world NAME` selects the world of that name (export names of a package are unique). *)
Theorem targets_named_world_documented {W} (exports : list (str * wit_export W)) n :
  NoDup (map fst exports) ->
  select_world exports (Some n) = documented_world exports (Some n).
Proof.
  unfold select_world, documented_world, worlds_of.
  induction exports as [|[k e] l IH]; cbn; auto. intros ND. apply NoDup_cons_iff in ND as [NI ND'].
  destruct (str_eqb k n) eqn:E.
  - apply str_eqb_eq in E. subst k. destruct e; cbn; rewrite ?str_eqb_refl; auto.
    now rewrite assoc_filter_notin.
  - destruct (is_world_export e); cbn; rewrite ?E; auto.
Qed.

(** Without `--world`: the only world is selected, PROVIDED the selection looks at worlds only
    (or the package exports nothing but worlds). *)
Theorem targets_default_world_documented {W} (exports : list (str * wit_export W)) :
  targets_default_counts_all_exports = false \/ forallb (fun e => is_world_export (snd e)) exports = true ->
  select_world exports None = documented_world exports None.
Proof.
  unfold select_world, documented_world, default_candidates, worlds_of.
  (* uniform in the generated constant *)
  generalize targets_default_counts_all_exports as flag. intros flag H.
  assert ((if flag then exports else filter (fun e => is_world_export (snd e)) exports)
          = filter (fun e => is_world_export (snd e)) exports) as ->.
  { destruct flag; [|reflexivity]. destruct H as [H|H]; [discriminate|].
    induction exports as [|x l IH]; cbn in *; [reflexivity|].
    apply andb_true_iff in H. destruct H as [-> H]. f_equal. exact (IH H). }
  destruct (filter _ exports) as [|[k e] [|? ?]]; [reflexivity | destruct e; reflexivity | destruct e; reflexivity].
Qed.
