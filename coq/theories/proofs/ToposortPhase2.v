(** C02: the second phase of [toposort], modelled FAITHFULLY (petgraph's [Dfs::next] over
    [Reversed(graph)] with a [discovered] map shared by all iterations, [move_to] per element of the
    finish stack, the [cycle] flag), and the proof that on the output of the first phase it answers
    exactly what [EncodeModel.toposort] answers by checking the order ([topo_orderb]).
    Then the characterisation: [toposort g] succeeds iff the edge relation has no cycle.
    [preds], [rdfs_next], [p2res], [phase2], [toposort_full] below are models of the Rust code as coded
    (model/EncodeModel.v has [toposort], which checks the order instead of running this phase). *)
From Coq Require Import List Arith Bool NArith Lia Permutation Relation_Operators.
From WacV Require Import Str Graph Wiring WiringSpec EncodeModel GraphInv WiringOrder ToposortDfs ToposortPhase1.
Import ListNotations.
Local Open Scope nat_scope.

(** [graph.neighbors_directed(n, Incoming)]: sources of the incoming edges, newest edge first *)
Definition preds (g : gstate) (n : nat) : list nat := map esrc (incoming g n).

(** [Dfs::next(Reversed(graph))]: pop until an undiscovered node comes up; visit it and push its
    undiscovered predecessors. Result: the node returned (if any), the stack, the discovered set. *)
Fixpoint rdfs_next (g : gstate) (stack disc : list nat) : option nat * list nat * list nat :=
  match stack with
  | [] => (None, [], disc)
  | n :: rest =>
      if memn n disc then rdfs_next g rest disc
      else (Some n, push_succs (n :: disc) (preds g n) rest, n :: disc)
  end.

Inductive p2res := P2Ok | P2Cycle (j : nat).

(** [for &i in &finish_stack { dfs.move_to(i); let mut cycle = false; while let Some(j) = dfs.next(..) {..} }] *)
Fixpoint phase2 (g : gstate) (order disc : list nat) : p2res :=
  match order with
  | [] => P2Ok
  | i :: r =>
      match rdfs_next g [i] disc with
      | (None, _, disc1) => phase2 g r disc1
      | (Some _, st1, disc1) =>
          match rdfs_next g st1 disc1 with
          | (Some j, _, _) => P2Cycle j
          | (None, _, disc2) => phase2 g r disc2
          end
      end
  end.

(** [toposort] with both phases as the code has them; [inr None] = the self-loop exit of phase one
    (the model of phase one does not record at which node), [inr (Some j)] = [Err(j)] of phase two *)
Definition toposort_full (g : gstate) : list nat + option nat :=
  match topo_phase1 g with
  | None => inr None
  | Some ord => match phase2 g ord [] with P2Ok => inl ord | P2Cycle j => inr (Some j) end
  end.

Lemma rdfs_next_all_new g st disc : st <> [] -> (forall x, In x st -> ~ In x disc) ->
  exists j st' disc', rdfs_next g st disc = (Some j, st', disc') /\ In j st.
Proof.
  destruct st as [|n rest]; [congruence|]. intros _ H. cbn [rdfs_next].
  assert (E : memn n disc = false) by (apply memn_notIn, H; now left). rewrite E.
  eexists _, _, _. split; [reflexivity | now left].
Qed.

Lemma phase2_cons g i r disc : ~ In i disc ->
  phase2 g (i :: r) disc =
  match pushed (i :: disc) (preds g i) with
  | [] => phase2 g r (i :: disc)
  | j :: _ => P2Cycle j
  end.
Proof.
  intros Ni. cbn [phase2 rdfs_next]. apply memn_notIn in Ni. rewrite Ni.
  rewrite push_succs_eq, app_nil_r.
  destruct (pushed (i :: disc) (preds g i)) as [|j l] eqn:E; [reflexivity|].
  cbn [rdfs_next]. assert (Nj : memn j (i :: disc) = false).
  { apply memn_notIn. assert (Hj : In j (pushed (i :: disc) (preds g i))) by (rewrite E; now left).
    apply pushed_In in Hj. tauto. }
  now rewrite Nj.
Qed.

Lemma pushed_nil disc ss : pushed disc ss = [] <-> forall x, In x ss -> In x disc.
Proof.
  split.
  - intros E x Hx. destruct (in_dec Nat.eq_dec x disc) as [H|H]; auto.
    assert (Hp : In x (pushed disc ss)) by (apply pushed_In; auto). rewrite E in Hp. destruct Hp.
  - intros H. destruct (pushed disc ss) as [|x l] eqn:E; auto.
    assert (Hp : In x (pushed disc ss)) by (rewrite E; now left). apply pushed_In in Hp as [A B].
    exfalso. auto.
Qed.

(** what the second phase accepts: every predecessor of an element is the element itself or earlier *)
Fixpoint PredsBefore (g : gstate) (disc r : list nat) : Prop :=
  match r with
  | [] => True
  | i :: r' => (forall p, In p (preds g i) -> In p (i :: disc)) /\ PredsBefore g (i :: disc) r'
  end.

Lemma phase2_ok_iff g : forall r disc, NoDup r -> (forall i, In i r -> ~ In i disc) ->
  (phase2 g r disc = P2Ok <-> PredsBefore g disc r).
Proof.
  induction r as [|i r IH]; intros disc ND Hn; cbn [PredsBefore]; [cbn; tauto|].
  inversion ND as [|? ? Ni ND']; subst.
  rewrite phase2_cons by (apply Hn; now left).
  assert (Hn' : forall j, In j r -> ~ In j (i :: disc)).
  { intros j Hj [<-|H]; [contradiction|]. apply (Hn j); [now right | exact H]. }
  destruct (pushed (i :: disc) (preds g i)) as [|j l] eqn:E.
  - rewrite (IH (i :: disc) ND' Hn'). pose proof (proj1 (pushed_nil _ _) E) as E'. tauto.
  - split; [discriminate|]. intros [H _]. pose proof (proj2 (pushed_nil _ _) H) as H'. rewrite H' in E. discriminate.
Qed.

Lemma preds_edge g n p : In p (preds g n) <-> exists e, In e (edges g) /\ esrc e = p /\ etgt e = n.
Proof.
  unfold preds, incoming. rewrite in_map_iff. split.
  - intros [e [E I]]. apply filter_In in I as [I T]. apply Nat.eqb_eq in T. eauto.
  - intros [e [I [S T]]]. exists e. split; auto. apply filter_In. split; auto. now apply Nat.eqb_eq.
Qed.

Lemma PredsBefore_iff g : forall r disc, NoDup r ->
  (PredsBefore g disc r <->
   forall i p, In i r -> In p (preds g i) -> p = i \/ In p disc \/ index_of p r < index_of i r).
Proof.
  induction r as [|j r IH]; intros disc ND; cbn [PredsBefore]; [split; [intros _ i p []|auto]|].
  inversion ND as [|? ? Nj ND']; subst. rewrite (IH (j :: disc) ND'). split.
  - intros [P1 P2] i p [<-|Hi] Hp.
    + destruct (P1 p Hp) as [<-|H]; auto.
    + assert (Ni : j <> i) by (intros ->; contradiction).
      rewrite (index_of_cons_ne j i) by exact Ni.
      destruct (Nat.eq_dec j p) as [<-|Np]; [right; right; rewrite index_of_cons_eq; lia|].
      rewrite (index_of_cons_ne j p) by exact Np.
      destruct (P2 i p Hi Hp) as [H|[[H|H]|H]]; auto; [contradiction | right; right; lia].
  - intros H. split.
    + intros p Hp. destruct (H j p (or_introl eq_refl) Hp) as [->|[K|K]]; [now left | now right|].
      rewrite index_of_cons_eq in K. lia.
    + intros i p Hi Hp. assert (Ni : j <> i) by (intros ->; contradiction).
      destruct (H i p (or_intror Hi) Hp) as [K|[K|K]]; [now left | right; left; now right|].
      destruct (Nat.eq_dec j p) as [<-|Np]; [right; left; now left|].
      rewrite !index_of_cons_ne in K by assumption. right; right; lia.
Qed.

(** the faithful second phase and the order check of [EncodeModel.toposort] agree on every
    duplicate-free enumeration of the live nodes without self loops *)
Lemma phase2_iff_topo_orderb g ord : EdgesLive g ->
  NoDup ord -> (forall n, In n ord <-> In n (node_ids g)) -> (forall n, In n ord -> ~ In n (succs g n)) ->
  (phase2 g ord [] = P2Ok <-> topo_orderb g ord = true).
Proof.
  intros EL ND Iff NS. rewrite (phase2_ok_iff g ord [] ND) by (intros i _ []). rewrite (PredsBefore_iff g ord [] ND). split.
  - intros PB. apply topo_orderb_edges; auto. intros e He.
    assert (Ht : In (etgt e) ord) by (apply Iff, node_ids_live_iff; now apply EL).
    destruct (PB (etgt e) (esrc e) Ht) as [E|[[]|H]]; [apply preds_edge; eauto| |exact H].
    exfalso. apply (NS (etgt e) Ht). apply succs_edge. exists e. auto.
  - intros T i p Hi Hp. apply topo_orderb_Topo in T. destruct T as [_ _ _ TE].
    apply preds_edge in Hp as [e [Ie [<- <-]]]. right. right. now apply TE.
Qed.

Lemma toposort_full_eq g : EdgesLive g ->
  toposort g = match toposort_full g with inl ord => Some ord | inr _ => None end.
Proof.
  intros EL. unfold toposort, toposort_full. pose proof (phase1_result g EL) as H.
  destruct (topo_phase1 g) as [ord|]; auto. destruct H as [ND [Iff [_ NS]]].
  pose proof (phase2_iff_topo_orderb g ord EL ND Iff NS) as P.
  destruct (phase2 g ord []) as [|j]; destruct (topo_orderb g ord); auto.
  - destruct P as [P _]. specialize (P eq_refl). discriminate.
  - destruct P as [_ P]. specialize (P eq_refl). discriminate.
Qed.

Lemma toposort_some_topo g ord : toposort g = Some ord -> topo_orderb g ord = true.
Proof.
  unfold toposort. destruct (topo_phase1 g) as [o|]; [|discriminate].
  destruct (topo_orderb g o) eqn:E; [|discriminate]. now intros [= <-].
Qed.

Lemma topo_order_ranked g ord : topo_orderb g ord = true -> RankedBy g (fun n => index_of n ord).
Proof. intros T. apply topo_orderb_Topo in T. destruct T as [_ _ _ TE]. exact TE. Qed.

Lemma toposort_some_acyclic g ord : toposort g = Some ord -> ~ has_cycle g.
Proof. intros H. eapply ranked_no_cycle. apply topo_order_ranked. eapply toposort_some_topo; eauto. Qed.

Lemma toposort_acyclic_some g : EdgesLive g -> ~ has_cycle g ->
  exists ord, toposort g = Some ord /\ topo_phase1 g = Some ord /\ topo_orderb g ord = true /\ toposort_full g = inl ord.
Proof.
  intros EL NC. destruct (phase1_topo g EL NC) as [ord [E T]]. exists ord.
  assert (Ts : toposort g = Some ord) by (unfold toposort; now rewrite E, T).
  repeat split; auto. pose proof (toposort_full_eq g EL) as F. rewrite Ts in F.
  unfold toposort_full in *. rewrite E in *. destruct (phase2 g ord []); [reflexivity | discriminate].
Qed.

Lemma toposort_none_iff_cycle g : EdgesLive g -> (toposort g = None <-> has_cycle g).
Proof.
  intros EL. split.
  - intros N. destruct (toposort g) as [o|] eqn:E; [discriminate|].
    (* classical case analysis is not needed: phase one itself decides *)
    pose proof (phase1_result g EL) as H. unfold toposort in E.
    destruct (topo_phase1 g) as [ord|]; [|now apply self_loop_cycle].
    destruct H as [ND [Iff [[C|T] _]]]; auto.
    rewrite (topo_orderb_intro g ord EL ND Iff T) in E. discriminate.
  - intros C. destruct (toposort g) as [o|] eqn:E; auto. exfalso. eapply toposort_some_acyclic; eauto.
Qed.
