(** Copying a NESTED instance requirement of a contributor into the aggregator ([remap_item_kind] / [remap_interface]):
    the copy denotes the same tree and uses only interfaces appended by this copy - one per MENTION of an anonymous
    interface of the contributor, so the copy is tree-shaped ([Den]) even when the contributor shares interfaces between
    several places ([SDen]) - hence it is disjoint from everything that was there, and everything else is left alone.
    Anonymous interfaces are neither looked up in nor recorded in the remap table; a root interface with an identifier is
    recorded (it must not have been recorded before). *)
From Coq Require Import ZArith Lia.
From WacV Require Import Str Names Types Checker SubSpec CheckerEq CheckerValue CheckerProofs SubSpecProofs.
From WacV Require Import Aggregator AggregatorSpec AggregatorFrame AggregatorRemap AggregatorChecker AggregatorNames
     AggregatorFlat AggregatorNestedSpec AggregatorNestedDen.

Lemma bind_guard {A B} (oid : option str) (m : str -> M (option A)) (k : option A -> M B) c z :
  (forall nm, oid = Some nm -> m nm c = AOk (None, c)) ->
  (r <-- match oid with Some nm => m nm | None => ret None end ;;; k r) c = AOk z -> k None c = AOk z.
Proof. intros Hm H. unfold bindM in H. destruct oid as [nm|]; [rewrite (Hm nm eq_refl) in H|]; exact H. Qed.

Section NCopy.
  Variable ord : list (str * id) -> list (str * id).
  Variable cf : nat.
  Variable Col : types -> Prop.
  Hypothesis Col_same : forall t1 t2, Col t1 -> Col t2 -> t_tag t1 = t_tag t2 -> t1 = t2.
  Variable tag0 : N.
  Variable t : types.
  Hypothesis Ct : Col t.
  Notation MI := (MInv Col tag0).

  Definition RKpost (d : nat) (tr : tree) (c : core) (k' : kind) (c' : core) : Prop :=
    exists ids', Den d (c_types c') k' tr ids' /\ MI c' /\ AExt c c' /\ c_ifaces c' = c_ifaces c /\
                 newids c ids' /\ rm_frame [] c c'.
  Definition RK (d : nat) : Prop := forall F k tr idb c k' c',
    MI c -> SDen d t k tr idb -> remap_item_kind ord cf F t k c = AOk (k', c') -> RKpost d tr c k' c'.
  Definition RI (d : nat) : Prop := forall F i oid e idsb c y c',
    MI c -> SIDen d t i oid e idsb ->
    (forall nm, oid = Some nm -> assoc nm (c_ifaces c) = None /\ find_compat nm (ord (c_ifaces c)) = None /\
                                 rm_get (TInterface i) (c_remapped c) = None) ->
    remap_interface ord cf F t i c = AOk (y, c') ->
    exists ids', IDen d (c_types c') y oid e ids' /\ MI c' /\ AExt c c' /\ newids c ids' /\
      rm_frame (match oid with Some _ => [i] | None => [] end) c c' /\
      c_ifaces c' = match oid with Some nm => ins nm y (c_ifaces c) | None => c_ifaces c end.

  Lemma MI_AExt c c' : MI c -> AExt c c' -> RInv Col c' -> MI c'.
  Proof.
    intros I E R. split; auto.
    - rewrite (ext_tag _ _ (ax_types _ _ E)). apply (mi_tag _ _ _ I).
    - eapply CacheInv_ext; [apply E | apply E | apply (mi_cache _ _ _ I)].
  Qed.

  (** the exports of an interface, one after the other *)
  Lemma copy_kids d (HK : RK d) F : forall exs e own c es c',
    MI c -> kids (SDen d t) own exs e -> NoDup (map fst exs) ->
    mapM (fun nk : str * kind => k' <-- remap_item_kind ord cf F t (snd nk) ;;; ret (fst nk, k')) exs c = AOk (es, c') ->
    exists own', map fst es = map fst exs /\ kids (Den d (c_types c')) own' es e /\ MI c' /\ AExt c c' /\
      c_ifaces c' = c_ifaces c /\
      (forall n, In n (map fst exs) -> newids c (own' n)) /\
      (forall n m j, In n (map fst exs) -> In m (map fst exs) -> n <> m -> In j (own' n) -> ~ In j (own' m)) /\
      rm_frame [] c c'.
  Proof.
    induction exs as [|[n k] exs IH]; intros e own c es c' I K ND H; cbn [mapM] in H.
    - apply ret_ok in H as [-> ->]. inversion K; subst. exists own. split; auto. split; [constructor|]. split; auto.
      split; [apply AExt_refl|]. split; auto. split; [intros ? []|]. split; [intros ? ? ? []|apply rm_frame_refl].
    - inversion K as [|? [n' tr] ? e0 [En Hk] K0]; subst. cbn [fst snd] in *. subst n'.
      cbn [map fst] in ND. inversion ND as [|? ? Hn ND']; subst.
      apply bindM_ok in H as [y [c1 [H1 H]]]. apply bindM_ok in H as [ys [c2 [H2 H]]]. apply ret_ok in H as [-> ->].
      apply bindM_ok in H1 as [k' [c0 [H0 H1]]]. apply ret_ok in H1 as [-> ->]. cbn [fst snd] in *.
      destruct (HK F k tr (own n) c k' c0 I Hk H0) as [ids1 [D1 [I1 [E1 [F1 [N1 R1]]]]]].
      destruct (IH e0 own c0 ys c2 I1 K0 ND' H2) as [own' [Ky [K2 [I2 [E2 [F2 [N2 [D2 R2]]]]]]]].
      assert (Hlt1 : forall j, In j ids1 -> (id_idx j < length (t_interfaces (c_types c0)))%nat).
      { intros j Hj. apply (Den_lt _ _ _ _ _ D1 j Hj). }
      exists (upd own' n ids1). split; [cbn [map fst]; now rewrite Ky|]. split; [|split; [exact I2|]].
      + constructor.
        * cbn [fst snd]. split; auto. rewrite upd_same. eapply Den_frame; [apply E2| |exact D1].
          intros j z _. now apply AExt_get_if.
        * apply (kids_impl (Den d (c_types c2)) (Den d (c_types c2)) own' (upd own' n ids1) ys e0); [|exact K2]. intros m k0 tr0 Hin Hd. rewrite upd_other; auto.
          intros ->. apply Hn. rewrite <- Ky. change n with (fst (n, k0)). now apply in_map.
      + split; [eapply AExt_trans; eauto|]. split; [congruence|]. split; [|split].
        * intros m [<-|Hm]; [now rewrite upd_same|]. rewrite upd_other by (intros ->; contradiction).
          intros j Hj. pose proof (N2 m Hm j Hj). pose proof (AExt_len _ _ E1). lia.
        * apply (disj_upd (fun j => (id_idx j < length (t_interfaces (c_types c0)))%nat) own' (map fst exs) (n :: map fst exs) n n ids1);
            auto.
          -- intros m [<-|Hm] Nm; [contradiction|auto].
          -- intros m j Hm Hj X. pose proof (N2 m Hm j Hj). lia.
        * eapply rm_frame_trans; eauto.
  Qed.

  Lemma ext_add_if T x : ext T (t_with_interfaces T (t_interfaces T ++ [x])).
  Proof. split; cbn; auto using prefix_refl. Qed.

  Lemma RI_of_RK d : RK d -> RI d.
  Proof.
    intros HK F i oid e idsb c y c' I [exs [own [Hg [ND [K [_ ->]]]]]] Hlook H.
    destruct F as [|f]; [discriminate|]. cbn [remap_interface] in H.
    apply bindM_ok in H as [x0 [c0 [H0 H]]]. rewrite Hg in H0. cbn [idxM] in H0. apply ret_ok in H0 as [-> ->].
    cbn [i_id i_uses i_exports] in H.
    apply bind_guard in H.
    2: { intros nm ->. destruct (Hlook nm eq_refl) as [L1 [L2 _]]. unfold bindM, lookup_iface, ret. now rewrite L1, L2. }
    apply (bind_guard oid (fun _ => remapped_get (TInterface i))) in H.
    2: { intros nm ->. unfold remapped_get. now rewrite (proj2 (proj2 (Hlook nm eq_refl))). }
    apply bindM_ok in H as [us [c0 [H0 H]]]. cbn [mapM] in H0. apply ret_ok in H0 as [-> ->].
    apply bindM_ok in H as [es [c1 [H1 H]]].
    destruct (copy_kids d HK f exs e own c es c1 I K ND H1) as [own' [Ky [K1 [I1 [E1 [F1 [N1 [D1 R1]]]]]]]].
    apply bindM_ok in H as [y0 [c2 [H2 H]]]. unfold add_if in H2. injection H2 as <- <-.
    apply bindM_ok in H as [u2 [c4 [H4 H]]]. apply ret_ok in H as [-> ->].
    set (T1 := c_types c1) in *. set (newif := {| i_id := oid; i_uses := []; i_exports := es |}) in *.
    set (T2 := t_with_interfaces T1 (t_interfaces T1 ++ [newif])) in *.
    set (ynew := {| id_tag := t_tag T1; id_idx := length (t_interfaces T1) |}) in *.
    assert (Hc4 : c_types c4 = T2 /\ c_imports c4 = c_imports c1 /\ c_chk c4 = c_chk c1 /\
                  c_remapped c4 = match oid with Some _ => rm_ins (TInterface i) (TInterface ynew) (c_remapped c1) | None => c_remapped c1 end /\
                  c_ifaces c4 = match oid with Some nm => ins nm ynew (c_ifaces c) | None => c_ifaces c end).
    { destruct oid as [nm|].
      - apply bindM_ok in H4 as [u [c3 [H3 H4]]]. unfold remapped_new in H3. cbn [c_remapped with_types] in H3.
        destruct (Hlook nm eq_refl) as [L1 [_ L3]].
        rewrite (R1 i (fun X => X)), L3 in H3. injection H3 as H3. subst c3.
        unfold iface_new in H4. cbn [c_ifaces with_remapped with_types] in H4. rewrite F1 in H4.
        unfold has_key in H4. rewrite L1 in H4. injection H4 as H4. subst c4.
        cbn [c_types c_imports c_remapped c_chk c_ifaces with_ifaces with_remapped with_types]. auto.
      - apply ret_ok in H4 as [_ ->]. cbn [c_types c_imports c_remapped c_chk c_ifaces with_remapped with_types].
        repeat split; auto. }
    destruct Hc4 as [Q1 [Q2 [Q4 [Q3 Q5]]]].
    assert (E14 : AExt c1 c4).
    { split; rewrite ?Q1, ?Q2, ?Q4; auto; [apply ext_add_if | cbn [t_interfaces T2 t_with_interfaces]; apply prefix_app]. }
    assert (Hnewget : get_if (c_types c4) ynew = Some newif).
    { rewrite Q1. unfold get_if. cbn [t_tag t_interfaces t_with_interfaces T2]. apply lookup_new. }
    exists (ynew :: flat_map own' (map fst es)). rewrite Q5.
    split; [|split; [|split; [|split; [|split]]]].
    - exists es, own'. split; [exact Hnewget|]. split; [now rewrite Ky|]. split; [|split; [|reflexivity]].
      + eapply kids_impl; [|exact K1]. intros n k tr _ Hd. eapply Den_frame; [apply E14| |exact Hd].
        intros j z _. apply (AExt_get_if _ _ _ _ E14).
      + split; [|rewrite Ky; exact D1]. intros n Hn Hj. apply in_map_iff in Hn as [[n0 k0] [<- Hin]].
        destruct (kids_in_l _ _ _ _ _ _ K1 Hin) as [tr0 Hd]. destruct (Den_lt _ _ _ _ _ Hd _ Hj) as [_ Hz].
        cbn [id_idx ynew] in Hz. lia.
    - apply (MI_AExt c1 c4 I1 E14). destruct oid as [nm|].
      + apply (RInv_ins Col c1 c4 (TInterface i) (TInterface ynew) (mi_rinv _ _ _ I1)); [apply E14 | exact Q3 | exact Logic.I].
      + intros k k' Hk. rewrite Q3 in Hk. eapply entry_ok_ext; [apply E14|]. now apply (mi_rinv _ _ _ I1).
    - exact (AExt_trans _ _ _ E1 E14).
    - intros j [<-|Hj].
      + cbn [id_idx ynew]. apply (AExt_len _ _ E1).
      + apply in_flat_own in Hj as [n [Hn Hj]]. rewrite Ky in Hn. exact (N1 n Hn j Hj).
    - intros j Nj. rewrite Q3. destruct oid as [nm|]; [|now apply R1].
      rewrite rm_get_ins_other; [now apply R1|]. intros X. injection X as ->. apply Nj. now left.
    - reflexivity.
  Qed.

  Lemma RK_0 : RK 0.
  Proof. intros F k tr idb c k' c' _ []. Qed.

  Lemma RK_S d : RI d -> RK (S d).
  Proof.
    intros HI F k tr idb c k' c' I HD H. cbn [DenG] in HD.
    destruct HD as [[[L [U R]] ->]|[y0 [e [-> [-> HD]]]]].
    - destruct (leaf_sound ord cf Col Col_same t Ct F k tr c k' c' L (mi_rinv _ _ _ I) U R H) as [U1 [E1 [R1 L1]]].
      exists []. split; [cbn [DenG]; left; split; [split; [exact L1|split; [exact U1|exact R]]|reflexivity]|].
      split; [eapply MInv_ext; eauto|]. split; [now apply AExt_of_Ext|]. split; [apply E1|]. split; [intros ? []|].
      intros j _. apply (x_noif _ _ E1).
    - destruct F as [|f]; [discriminate|]. cbn [remap_item_kind] in H.
      apply bindM_ok in H as [y [c1 [H1 H]]]. apply ret_ok in H as [-> ->].
      destruct (HI f y0 None e idb c y c1 I HD (fun nm X => ltac:(discriminate)) H1)
        as [ids' [D' [I' [E' [N' [R' F']]]]]].
      exists ids'. split; [cbn [DenG]; right; exists y, e; auto|]. auto 8.
  Qed.

  Theorem RK_all : forall d, RK d.
  Proof using Col_same Ct. induction d as [|d IH]; [apply RK_0 | apply RK_S, RI_of_RK, IH]. Qed.
  Theorem RI_all : forall d, RI d.
  Proof using Col_same Ct. intros d. apply RI_of_RK, RK_all. Qed.
End NCopy.
