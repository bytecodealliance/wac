(** Induction principles for the two nested recursive types of the AST, which the generated ones do not
    descend into: [ty] holds lists and options of types, and [expr], [primary_expr], [inst_arg] are mutually
    recursive through the argument list of [new]. *)
From Coq Require Import List.
From WacV Require Import Ast.
Import ListNotations.

Definition optP (P : ty -> Prop) (o : option ty) : Prop := match o with Some y => P y | None => True end.

Section TyInd.
Variable P : ty -> Prop.
Hypothesis Hprim : forall p sp, P (TyPrim p sp).
Hypothesis Htuple : forall ts sp, Forall P ts -> P (TyTuple ts sp).
Hypothesis Hlist : forall t sp, P t -> P (TyList t sp).
Hypothesis Hopt : forall t sp, P t -> P (TyOption t sp).
Hypothesis Hres : forall o e sp, optP P o -> optP P e -> P (TyResult o e sp).
Hypothesis Hborrow : forall i sp, P (TyBorrow i sp).
Hypothesis Hborrowty : forall t sp, P t -> P (TyBorrowTy t sp).
Hypothesis Hident : forall i, P (TyIdent i).

Fixpoint ty_ind' (x : ty) : P x :=
  match x with
  | TyPrim p sp => Hprim p sp
  | TyTuple ts sp =>
      Htuple ts sp ((fix go (l : list ty) : Forall P l :=
                       match l with [] => Forall_nil P | y :: r => Forall_cons y (ty_ind' y) (go r) end) ts)
  | TyList t sp => Hlist t sp (ty_ind' t)
  | TyOption t sp => Hopt t sp (ty_ind' t)
  | TyResult o e sp =>
      Hres o e sp
           (match o as o0 return optP P o0 with Some y => ty_ind' y | None => I end)
           (match e as e0 return optP P e0 with Some y => ty_ind' y | None => I end)
  | TyBorrow i sp => Hborrow i sp
  | TyBorrowTy t sp => Hborrowty t sp (ty_ind' t)
  | TyIdent i => Hident i
  end.
End TyInd.

Section ExprInd.
Variables (P : expr -> Prop) (Q : primary_expr -> Prop) (R : inst_arg -> Prop).
Hypothesis HExpr : forall sp p post, Q p -> P (Expr sp p post).
Hypothesis HNew : forall sp pkg args, Forall R args -> Q (PNew sp pkg args).
Hypothesis HNested : forall sp x, P x -> Q (PNested sp x).
Hypothesis HIdent : forall i, Q (PIdent i).
Hypothesis HInferred : forall i, R (AInferred i).
Hypothesis HSpread : forall i, R (ASpread i).
Hypothesis HNamed : forall n x, P x -> R (ANamed n x).
Hypothesis HFill : forall sp, R (AFill sp).

Fixpoint expr_ind' (x : expr) : P x :=
  match x with Expr sp p post => HExpr sp p post (primary_ind' p) end
with primary_ind' (p : primary_expr) : Q p :=
  match p with
  | PNew sp pkg args =>
      HNew sp pkg args ((fix go (l : list inst_arg) : Forall R l :=
                           match l with [] => Forall_nil _ | a :: r => Forall_cons _ (arg_ind' a) (go r) end) args)
  | PNested sp x => HNested sp x (expr_ind' x)
  | PIdent i => HIdent i
  end
with arg_ind' (a : inst_arg) : R a :=
  match a with
  | AInferred i => HInferred i
  | ASpread i => HSpread i
  | ANamed n x => HNamed n x (expr_ind' x)
  | AFill sp => HFill sp
  end.
End ExprInd.
