(** C04: the [new] expression.  One traversal of the resolver ([mrel]) shows that any preorder on states
    respected by its seven graph operations is respected by every computation; frames ([mframe]) and
    graph invariants ([ResolverInv.mpres]) are the two instances. *)
From Coq Require Import List Arith Bool NArith Lia ListDec.
From WacV Require Import Str StrFacts Token Lexer Semver Names Ast AstInd Graph Resolver LangSpec GraphInv GraphLive GraphSteps GraphAlias ResolverProofs.
Import ListNotations.
Local Open Scope nat_scope.

Lemma gframe_intro g g' :
  nofree g -> free_nodes g' = free_nodes g -> free_pkgs g' = free_pkgs g ->
  (forall id p, get_pkg g id = Some p -> get_pkg g' id = Some p) ->
  (nodes g' = nodes g \/ (exists nd, nodes g' = nodes g ++ [Some nd]) \/
   (exists n a b, get_node g n = Some a /\ nodes g' = set_nth (nodes g) n (Some b) /\ node_stable a b)) ->
  gframe g g'.
Proof.
  intros [F Fp] E1 E2 HP HN. constructor; auto.
  - split; congruence.
  - destruct HN as [->|[(nd & ->)|(n & a & b & _ & -> & _)]]; auto.
    + rewrite app_length. lia.
    + now rewrite length_set_nth.
  - intros k a G. destruct HN as [E|[(nd & E)|(n & a0 & b & G0 & E & St)]].
    + exists a. unfold get_node in *. rewrite E. split; auto. apply node_stable_refl.
    + exists a. unfold get_node in *. rewrite E. split; [now apply get_node_app_old|apply node_stable_refl].
    + rewrite !get_node_getn in *. rewrite E, (getn_set_live _ _ _ _ _ G0). destruct (Nat.eqb_spec k n) as [->|Hne].
      * exists b. split; auto. rewrite G in G0. injection G0 as <-. exact St.
      * exists a. split; auto. apply node_stable_refl.
Qed.

Lemma get_pkg_same g g' : pkgs g' = pkgs g -> forall id p, get_pkg g id = Some p -> get_pkg g' id = Some p.
Proof. intros E id p. unfold get_pkg. now rewrite E. Qed.

Lemma register_gframe (u : universe) g p g' o : nofree g -> register u g p = (g', o) -> gframe g g'.
Proof.
  intros NF. pose proof NF as [F Fp]. unfold register. destruct (find_pkg_slot g p).
  - intros [= <- <-]. now apply gframe_refl.
  - rewrite Fp. intros [= <- <-]. apply gframe_intro; auto; cbn; auto.
    intros id q. unfold get_pkg. cbn. destruct (nth_error (pkgs g) (fst id)) as [sl|] eqn:E; [|discriminate].
    rewrite nth_error_app1; [now rewrite E|]. apply nth_error_Some. congruence.
Qed.

Lemma instantiate_gframe (u : universe) g id g' o : nofree g -> instantiate u g id = (g', o) -> gframe g g'.
Proof.
  intros NF H. replace g' with (fst (instantiate u g id)) by now rewrite H.
  destruct (instantiate_spec u g id) as [->|(pd & s1 & idx & _ & A & ->)]; [now apply gframe_refl|].
  pose proof NF as [F Fp]. apply add_node_nofree in A as (_ & Hn & F' & _ & _ & _ & _ & Hp & Hf); [|exact F].
  apply gframe_intro; auto; try congruence; [now apply get_pkg_same|]. right. left. eauto.
Qed.

Section ArgEdges.
  Variable u : universe.

  (** membership in [get_args], unfolded *)
  Definition has_arg (g : gstate) (inst : nat) (a : name) (arg : nat) : Prop :=
    exists nd sat imps e i k,
      get_node g inst = Some nd /\ nk nd = NInst sat /\ inst_imports u g nd = Some imps /\
      In e (edges g) /\ etgt e = inst /\ esrc e = arg /\ ek e = EArg i /\ nth_error imps i = Some (a, k).

  Lemma has_arg_get_args g inst a arg : has_arg g inst a arg -> In (a, arg) (get_args u g inst).
  Proof.
    intros (nd & sat & imps & e & i & k & G & K & Im & He & T & S & Ke & Nt). unfold get_args. rewrite G, K, Im.
    apply in_flat_map. exists e. split.
    - unfold incoming. apply filter_In. split; auto. now apply Nat.eqb_eq.
    - rewrite Ke, Nt, S. now left.
  Qed.

  Lemma get_args_has_arg g inst a src : In (a, src) (get_args u g inst) -> has_arg g inst a src.
  Proof.
    unfold get_args. destruct (get_node g inst) as [nd|] eqn:G; [|intros []].
    destruct (nk nd) as [| |sat|] eqn:K; try (intros []; fail).
    destruct (inst_imports u g nd) as [imps|] eqn:Im; [|intros []].
    rewrite in_flat_map. intros (e & He & Hin). unfold incoming in He. apply filter_In in He as [He T]. apply Nat.eqb_eq in T.
    destruct (ek e) as [j|i|] eqn:Ke; try destruct Hin. destruct (nth_error imps i) as [[nm' k]|] eqn:Nt; [|destruct Hin].
    destruct Hin as [[= <- <-]|[]]. exists nd, sat, imps, e, i, k. repeat split; auto.
  Qed.

  Definition node_imports (g : gstate) (n : nat) (imps : list (name * kid)) : Prop :=
    exists nd, get_node g n = Some nd /\ inst_imports u g nd = Some imps.

  Lemma inst_imports_same g g' nd nd' : pkgs g' = pkgs g -> npkg nd' = npkg nd -> inst_imports u g' nd' = inst_imports u g nd.
  Proof. intros P N. unfold inst_imports, pkg_desc, get_pkg. now rewrite N, P. Qed.

  Lemma has_arg_mono g g' :
    pkgs g' = pkgs g -> incl (edges g) (edges g') ->
    (forall n a, get_node g n = Some a ->
       exists b, get_node g' n = Some b /\ npkg b = npkg a /\ forall s, nk a = NInst s -> exists s', nk b = NInst s') ->
    (forall i a n, has_arg g i a n -> has_arg g' i a n) /\
    (forall n imps, node_imports g n imps -> node_imports g' n imps).
  Proof.
    intros P E N. split.
    - intros i a n (nd & sat & imps & e & j & k & G & K & Im & He & X).
      destruct (N _ _ G) as (b & G' & Pb & Kb). destruct (Kb _ K) as [sat' K'].
      exists b, sat', imps, e, j, k. rewrite (inst_imports_same g g' nd b P Pb). auto 10.
    - intros n imps (nd & G & Im). destruct (N _ _ G) as (b & G' & Pb & _).
      exists b. now rewrite (inst_imports_same g g' nd b P Pb).
  Qed.

  Lemma set_arg_unit g inst a arg g' :
    set_arg u g inst a arg = (g', OUnit) ->
    (g' = g /\ has_arg g inst a arg) \/
    exists nd sat imps index expected,
      get_node g inst = Some nd /\ nk nd = NInst sat /\ inst_imports u g nd = Some imps /\
      nth_error imps index = Some (a, expected) /\
      g' = set_node (add_edge g {| esrc := arg; etgt := inst; ek := EArg index |}) inst
             (Some {| nk := NInst (index :: sat); npkg := npkg nd; nitem := nitem nd; nname := nname nd; nexport := nexport nd |}).
  Proof.
    unfold set_arg. destruct (get_node g inst) as [nd|] eqn:G; [|discriminate].
    destruct (nk nd) as [| |sat|] eqn:K; try discriminate.
    destruct (inst_imports u g nd) as [imps|] eqn:Im; [|discriminate].
    destruct (get_full imps a 0) as [[index expected]|] eqn:GF; [|discriminate].
    apply get_full_nth in GF as [_ Nt]. rewrite Nat.sub_0_r in Nt.
    destruct (scan_incoming (incoming g inst) index arg) eqn:Sc; try discriminate.
    - destruct (get_node g arg) as [an|]; [|discriminate].
      destruct (negb (u_sub u (nitem an) expected)); [discriminate|].
      unfold add_satisfied.
      change (get_node (add_edge g {| esrc := arg; etgt := inst; ek := EArg index |}) inst) with (get_node g inst).
      rewrite G, K. destruct (existsb (Nat.eqb index) sat); [discriminate|].
      intros [= <-]. right. exists nd, sat, imps, index, expected. auto 10.
    - intros [= <-]. left. split; [reflexivity|].
      pose proof (scan_incoming_spec (incoming g inst) index arg) as Sp. rewrite Sc in Sp. destruct Sp as (e & He & Ke & Se).
      apply filter_In in He as [He T]. apply Nat.eqb_eq in T. exists nd, sat, imps, e, index, expected. auto 10.
  Qed.

  Lemma set_arg_ok g inst a arg g' :
    set_arg u g inst a arg = (g', OUnit) ->
    has_arg g' inst a arg /\
    (forall i0 a0 n0, has_arg g i0 a0 n0 -> has_arg g' i0 a0 n0) /\
    (forall n imps, node_imports g n imps -> node_imports g' n imps) /\
    (forall imps e, node_imports g inst imps -> In e (edges g') ->
       In e (edges g) \/ exists index k, nth_error imps index = Some (a, k) /\ e = {| esrc := arg; etgt := inst; ek := EArg index |}).
  Proof.
    intros H. apply set_arg_unit in H as [[-> H]|(nd & sat & imps & index & expected & G & K & Im & Nt & ->)]; [auto 6|].
    set (e := {| esrc := arg; etgt := inst; ek := EArg index |}).
    set (nd' := {| nk := NInst (index :: sat); npkg := npkg nd; nitem := nitem nd; nname := nname nd; nexport := nexport nd |}).
    assert (GN : forall m, get_node (set_node (add_edge g e) inst (Some nd')) m = if m =? inst then Some nd' else get_node g m).
    { intros m. rewrite !get_node_getn. exact (getn_set_live _ _ _ _ _ G). }
    destruct (has_arg_mono g (set_node (add_edge g e) inst (Some nd'))) as [Keep KeepI]; [reflexivity|now right| |].
    { intros n b Gb. rewrite GN. destruct (Nat.eqb_spec n inst) as [->|_]; [|eauto].
      rewrite G in Gb. injection Gb as <-. exists nd'. split; [reflexivity|]. split; [reflexivity|]. intros s _. now exists (index :: sat). }
    split; [|split; [exact Keep|split; [exact KeepI|]]].
    - exists nd', (index :: sat), imps, e, index, expected. rewrite GN, Nat.eqb_refl, <- Im. split; [reflexivity|]. split; [reflexivity|].
      split; [now apply inst_imports_same|]. split; [now left|auto].
    - intros imps0 e0 (nd0 & G0 & Im0) [<-|He]; [|now left]. right. rewrite G in G0. injection G0 as <-.
      rewrite Im in Im0. injection Im0 as <-. eauto.
  Qed.
End ArgEdges.

Lemma set_arg_gframe (u : universe) g inst a arg g' o : nofree g -> set_arg u g inst a arg = (g', o) -> gframe g g'.
Proof.
  intros NF H. replace g' with (fst (set_arg u g inst a arg)) by now rewrite H.
  destruct (set_arg_spec u g inst a arg) as [->|(nd & sat & index & G & K & ->)]; [now apply gframe_refl|].
  apply gframe_intro; auto. right. right. eexists inst, nd, _. split; [exact G|]. split; [reflexivity|].
  unfold node_stable. cbn. rewrite K. repeat split; auto; intros; discriminate.
Qed.

Lemma import_gframe (u : universe) g nm k g' o : nofree g -> import_ u g nm k = (g', o) -> gframe g g'.
Proof.
  intros NF H. replace g' with (fst (import_ u g nm k)) by now rewrite H.
  destruct (import_spec u g nm k) as [->|(kd & s1 & idx & _ & A & ->)]; [now apply gframe_refl|].
  pose proof NF as [F Fp]. apply add_node_nofree in A as (_ & Hn & F' & _ & _ & _ & _ & Hp & Hf); [|exact F].
  apply gframe_intro; auto; cbn; try congruence; [now apply get_pkg_same|]. right. left. eauto.
Qed.

Lemma export_gframe (u : universe) g n e g' o : nofree g -> export_ u g n e = (g', o) -> gframe g g'.
Proof.
  intros NF H. replace g' with (fst (export_ u g n e)) by now rewrite H.
  destruct (export_spec u g n e) as [->|(nd & G & _ & ->)]; [now apply gframe_refl|].
  apply gframe_intro; auto. right. right. eexists n, nd, _. split; [exact G|]. split; [reflexivity|].
  unfold node_stable. cbn. tauto.
Qed.

Lemma set_name_gframe g n nm g' o : nofree g -> set_name g n nm = (g', o) -> gframe g g'.
Proof.
  intros NF H. replace g' with (fst (set_name g n nm)) by now rewrite H.
  destruct (set_name_spec g n nm) as [->|(nd & G & ->)]; [now apply gframe_refl|].
  apply gframe_intro; auto. right. right. eexists n, nd, _. split; [exact G|]. split; [reflexivity|].
  unfold node_stable. cbn. tauto.
Qed.

Definition argP (P : expr -> Prop) (a : inst_arg) : Prop := match a with ANamed _ e => P e | _ => True end.

(** the graph operations the resolver performs: none removes anything *)
Definition builds (o : op) : bool :=
  match o with
  | Register _ | Import _ _ | Instantiate _ | Alias _ _ | SetArg _ _ _ | Export _ _ | SetName _ _ => true
  | _ => false
  end.

Section Rel.
  Variable u : runiverse.
  Variable self_name : str.
  Variable R : rstate -> rstate -> Prop.
  Hypothesis Rrefl : forall st, R st st.
  Hypothesis Rtrans : forall a b c, R a b -> R b c -> R a c.
  Hypothesis Rstep : forall o st, builds o = true -> R st {| rs_g := fst (step u (rs_g st) o); rs_scope := rs_scope st |}.
  Hypothesis Rscope : forall st sc, R st {| rs_g := rs_g st; rs_scope := sc |}.

  Definition mrel {A} (m : M A) : Prop := forall st x st', m st = inl (x, st') -> R st st'.

  Lemma mrel_ret {A} (a : A) : mrel (ret a).
  Proof. intros st x st' H. apply ret_inl in H as [_ ->]. apply Rrefl. Qed.
  Lemma mrel_fail {A} f : mrel (fun _ : rstate => @inr (A * rstate) fail f).
  Proof. intros st x st' H. discriminate. Qed.
  Lemma mrel_get_g : mrel get_g.
  Proof. intros st x st' H. apply get_g_inl in H as [_ ->]. apply Rrefl. Qed.
  Lemma mrel_get_scope : mrel get_scope.
  Proof. intros st x st' H. apply get_scope_inl in H as [_ ->]. apply Rrefl. Qed.
  Lemma mrel_put_scope sc : mrel (put_scope sc).
  Proof. intros st x st' [= _ <-]. apply Rscope. Qed.
  Lemma mrel_bind {A B} (m : M A) (f : A -> M B) : mrel m -> (forall x, mrel (f x)) -> mrel (bind m f).
  Proof. intros Hm Hf st y st' H. apply bind_inl in H as (x & s1 & H1 & H). eapply Rtrans; [eapply Hm|eapply Hf]; eauto. Qed.
  Lemma mrel_gop f o : builds o = true -> (forall g, f g = step u g o) -> mrel (gop f).
  Proof.
    intros B E st x st' H. apply gop_inl in H as [H Sc]. rewrite E in H. destruct st' as [g' sc']. cbn in H, Sc.
    subst sc'. replace g' with (fst (step u (rs_g st) o)) by (now rewrite H). now apply Rstep.
  Qed.

  (** one step through a computation: a leaf, or a [bind] (the continuation's argument is introduced) *)
  Ltac rel_step :=
    first [ apply mrel_ret | apply mrel_fail | apply mrel_get_g | apply mrel_get_scope | apply mrel_put_scope
          | apply mrel_bind; [|intros ?] ].

  Lemma mrel_kind_of n : mrel (kind_of n).
  Proof. unfold kind_of. rel_step; [rel_step|]. destruct (get_node x n); rel_step. Qed.

  Lemma mrel_local_item id : mrel (local_item id).
  Proof. unfold local_item. rel_step; [rel_step|]. destruct (im_get x (id_string id)) as [[? ?]|]; rel_step. Qed.

  Lemma mrel_resolve_package nm v at_ : mrel (resolve_package u nm v at_).
  Proof.
    unfold resolve_package. destruct (ru_pkg_find u nm v); [|rel_step].
    rel_step; [rel_step|]. destruct (find_pkg_slot x n).
    - destruct (nth_error (pkgs x) n0); rel_step.
    - rel_step; [apply (mrel_gop _ (Register n)); reflexivity|]. destruct x0; rel_step.
  Qed.

  Lemma mrel_alias_export item nm at_ op : mrel (alias_export u item nm at_ op).
  Proof.
    unfold alias_export. rel_step; [apply mrel_kind_of|]. destruct (inst_exports u x); [|rel_step].
    destruct (has_key l nm); [|rel_step]. rel_step; [apply (mrel_gop _ (Alias item (ru_intern u nm))); reflexivity|].
    destruct x0; rel_step.
  Qed.

  Lemma mrel_eval_postfix item pe parent : mrel (eval_postfix u item pe parent).
  Proof.
    destruct pe as [sp id|sp s]; cbn [eval_postfix].
    - rel_step; [apply mrel_kind_of|]. destruct (inst_exports u x); [|rel_step].
      rel_step; [apply mrel_alias_export|]. destruct x0; rel_step.
    - rel_step; [apply mrel_alias_export|]. destruct x; rel_step.
  Qed.

  Lemma mrel_postfix_chain l : forall item parent, mrel (postfix_chain u item parent l).
  Proof.
    induction l as [|pe r IH]; intros item parent; cbn [postfix_chain]; [rel_step|].
    rel_step; [apply mrel_eval_postfix|apply IH].
  Qed.

  Lemma mrel_inferred_name imports id item : mrel (inferred_name u imports id item).
  Proof. intros st x st' H. apply inferred_name_spec in H as [-> _]. apply Rrefl. Qed.

  Lemma mrel_tbl_insert t nm item at_ : mrel (tbl_insert t nm item at_).
  Proof. unfold tbl_insert. destruct (has_key t nm); rel_step. Qed.

  Definition args_rel (evalf : expr -> M nat) (args : list inst_arg) : Prop :=
    Forall (argP (fun e => mrel (evalf e))) args.

  Lemma mrel_pass1 evalf imports args : args_rel evalf args -> forall t req, mrel (pass1 u evalf imports args t req).
  Proof.
    induction args as [|a r IH]; intros HF t req; cbn [pass1]; [rel_step|].
    inversion HF as [|? ? Ha Hr]; subst. destruct a as [id|id|an e|sp].
    - rel_step; [apply mrel_local_item|]. rel_step; [apply mrel_inferred_name|].
      rel_step; [apply mrel_tbl_insert|]. now apply IH.
    - now apply IH.
    - rel_step; [exact Ha|]. rel_step; [apply mrel_tbl_insert|]. now apply IH.
    - destruct r; [now apply IH|rel_step].
  Qed.

  Lemma mrel_spread_names item at_ expected : forall t any, mrel (spread_names u item at_ expected t any).
  Proof.
    induction expected as [|nm r IH]; intros t any; cbn [spread_names]; [rel_step|].
    destruct (has_key t nm); [apply IH|]. rel_step; [apply mrel_alias_export|]. destruct x; apply IH.
  Qed.

  Lemma mrel_spread_arg id expected t : mrel (spread_arg u id expected t).
  Proof.
    unfold spread_arg. rel_step; [apply mrel_local_item|]. rel_step; [apply mrel_kind_of|].
    destruct (u_inst_exports u x0); [|rel_step]. rel_step; [apply mrel_spread_names|].
    destruct x1 as [t' any]. destruct any; rel_step.
  Qed.

  Lemma mrel_pass2 expected args : forall t, mrel (pass2 u args expected t).
  Proof.
    induction args as [|a r IH]; intros t; cbn [pass2]; [rel_step|].
    destruct a; try apply IH. rel_step; [apply mrel_spread_arg|apply IH].
  Qed.

  Lemma mrel_set_args inst t : mrel (set_args u inst t).
  Proof.
    induction t as [|[nm [n at_]] r IH]; cbn [set_args]; [rel_step|].
    rel_step; [apply (mrel_gop _ (SetArg inst (ru_intern u nm) n)); reflexivity|].
    destruct x; try rel_step; [exact IH|]. destruct e; rel_step.
  Qed.

  Lemma mrel_new_expr evalf pkg args : args_rel evalf args -> mrel (new_expr u self_name evalf pkg args).
  Proof.
    intros HF. unfold new_expr. destruct (str_eqb (pn_name pkg) self_name); [rel_step|].
    rel_step; [apply mrel_resolve_package|]. rel_step; [rel_step|].
    destruct (pkg_desc u x0 x); [|rel_step].
    rel_step; [now apply mrel_pass1|]. destruct x1 as [t1 req].
    rel_step; [apply mrel_pass2|].
    rel_step; [apply (mrel_gop _ (Instantiate x)); reflexivity|].
    destruct x2; try apply mrel_fail.
    rel_step; [apply mrel_set_args|].
    destruct req; [|rel_step]. destruct (find _ _); rel_step.
  Qed.

  Lemma mrel_new_prefix {evalf nm v at_ imports args expected st id s0 t1 req s1 t2 s2} :
    args_rel evalf args ->
    resolve_package u nm v at_ st = inl (id, s0) ->
    pass1 u evalf imports args [] true s0 = inl ((t1, req), s1) ->
    pass2 u args expected t1 s1 = inl (t2, s2) -> R st s2.
  Proof.
    intros HF H0 H1 H2. eapply Rtrans; [exact (mrel_resolve_package _ _ _ _ _ _ H0)|].
    eapply Rtrans; [exact (mrel_pass1 _ _ _ HF _ _ _ _ _ H1)|exact (mrel_pass2 _ _ _ _ _ _ H2)].
  Qed.

  Theorem mrel_eval_expr e : mrel (eval_expr u self_name e).
  Proof.
    apply (expr_ind' (fun e => mrel (eval_expr u self_name e)) (fun p => mrel (eval_primary u self_name p))
             (argP (fun e => mrel (eval_expr u self_name e)))); try (intros; exact I).
    - intros sp p post Hp. cbn [eval_expr]. apply mrel_bind; [exact Hp|]. intros n. apply mrel_postfix_chain.
    - intros sp pkg args HA. cbn [eval_primary]. apply mrel_new_expr. exact HA.
    - intros sp inner Hi. exact Hi.
    - intros i. apply mrel_local_item.
    - intros n x H. exact H.
  Qed.

  Lemma mrel_register_name id n : mrel (register_name u id n).
  Proof.
    unfold register_name. rel_step; [rel_step|]. destruct (im_get x (id_string id)); [rel_step|].
    rel_step; [rel_step|]. rel_step; [rel_step|]. destruct (get_node x1 n); [|rel_step].
    destruct (nname n0); [rel_step|]. rel_step; [apply (mrel_gop _ (SetName n (ru_intern u (id_string id)))); reflexivity|].
    destruct x2; rel_step.
  Qed.

  Lemma mrel_project mk : forall l k, mrel (project u mk k l).
  Proof.
    induction l as [|[s at_] r IH]; intros k; cbn [project]; [rel_step|].
    destruct (ru_proj_exports u k); [|rel_step]. destruct (im_get l s); [apply IH|rel_step].
  Qed.

  Lemma mrel_resolve_package_path p : mrel (resolve_package_path u self_name p).
  Proof.
    unfold resolve_package_path. destruct (str_eqb (pp_name p) self_name).
    - unfold resolve_local_path. destruct (segment_spans p) as [|[s at_] r]; [rel_step|].
      rel_step; [rel_step|]. destruct (im_get x s) as [[n ?]|]; [|rel_step].
      rel_step; [apply mrel_kind_of|apply mrel_project].
    - rel_step; [apply mrel_resolve_package|]. rel_step; [rel_step|].
      destruct (get_pkg x0 x); [|rel_step]. destruct (segment_spans p) as [|[s at_] r]; [rel_step|].
      destruct (im_get _ s); [apply mrel_project|rel_step].
  Qed.

  Lemma mrel_import_statement id nm t : mrel (import_statement u self_name id nm t).
  Proof.
    unfold import_statement. rel_step.
    - destruct nm; [rel_step|]. destruct t; try rel_step.
      + apply mrel_local_item.
      + rel_step; [apply mrel_kind_of|]. destruct (ru_kind_id u x0); rel_step.
    - destruct x as [name at_]. rel_step.
      + destruct t; try rel_step.
        * apply mrel_resolve_package_path.
        * destruct (func_sig f); [|rel_step]. destruct (ru_func_kind u s); rel_step.
        * apply mrel_local_item.
        * apply mrel_kind_of.
      + rel_step; [apply (mrel_gop _ (Import (ru_intern u name) (N.to_nat (ru_promote u x)))); reflexivity|].
        destruct x0 as [|n| |e|p]; [rel_step|apply mrel_register_name|rel_step|destruct e; rel_step|rel_step].
  Qed.

  Lemma mrel_infer_export_name item : mrel (infer_export_name u item).
  Proof. intros st x st' H. apply infer_export_name_spec in H as [-> _]. apply Rrefl. Qed.

  Lemma mrel_export_item item nm at_ : mrel (export_item u item nm at_).
  Proof.
    unfold export_item. rel_step; [rel_step|]. rel_step; [rel_step|].
    destruct (match im_get x nm with Some _ => _ | None => _ end); [|rel_step].
    rel_step; [apply (mrel_gop _ (Export item (ru_intern u nm))); reflexivity|].
    destruct x1; try rel_step. destruct e; rel_step.
  Qed.

  Lemma mrel_spread_exports item ea da names : forall any, mrel (spread_exports u item ea da names any).
  Proof.
    induction names as [|nm r IH]; intros any; cbn [spread_exports]; [rel_step|].
    rel_step; [rel_step|]. destruct (alist_get N.eqb (exports x) (ru_intern u nm)); [apply IH|].
    rel_step; [apply mrel_alias_export|]. destruct x0; [|rel_step].
    rel_step; [apply mrel_export_item|apply IH].
  Qed.

  Lemma mrel_export_statement e opts : mrel (export_statement u self_name e opts).
  Proof.
    unfold export_statement. rel_step; [apply mrel_eval_expr|]. destruct opts.
    - rel_step; [apply mrel_infer_export_name|]. destruct x0; [apply mrel_export_item|rel_step].
    - rel_step; [apply mrel_kind_of|]. destruct (inst_exports u x0); [|rel_step].
      rel_step; [apply mrel_spread_exports|]. destruct x1; rel_step.
    - apply mrel_export_item.
  Qed.

  Lemma mrel_statements l : mrel (statements u self_name l).
  Proof.
    induction l as [|s r IH]; cbn [statements]; [rel_step|]. rel_step; [|exact IH].
    destruct s; cbn [statement_step].
    - apply mrel_import_statement.
    - rel_step.
    - unfold let_statement. rel_step; [apply mrel_eval_expr|apply mrel_register_name].
    - apply mrel_export_statement.
  Qed.
End Rel.

Definition mframe {A} (m : M A) : Prop :=
  forall st x st', m st = inl (x, st') -> nofree (rs_g st) ->
    gframe (rs_g st) (rs_g st') /\ rs_scope st' = rs_scope st.

Definition framed (st st' : rstate) : Prop :=
  nofree (rs_g st) -> gframe (rs_g st) (rs_g st') /\ rs_scope st' = rs_scope st.

Lemma framed_refl st : framed st st.
Proof. intros NF. split; [now apply gframe_refl|reflexivity]. Qed.

Lemma framed_trans a b c : framed a b -> framed b c -> framed a c.
Proof.
  intros H1 H2 NF. destruct (H1 NF) as [G1 S1]. destruct (H2 (gf_free _ _ G1)) as [G2 S2].
  split; [eapply gframe_trans; eauto|congruence].
Qed.

Lemma framed_step (u : universe) o st :
  builds o = true -> framed st {| rs_g := fst (step u (rs_g st) o); rs_scope := rs_scope st |}.
Proof.
  intros B NF. split; [|reflexivity]. cbn [rs_g]. destruct (step u (rs_g st) o) as [g' o'] eqn:E.
  destruct o; try discriminate B; cbn [step] in E;
    eauto using register_gframe, import_gframe, instantiate_gframe, alias_gframe, set_arg_gframe, export_gframe, set_name_gframe.
Qed.

Section Frames.
  Variable u : runiverse.
  Variable self_name : str.

  Definition args_framed (evalf : expr -> M nat) (args : list inst_arg) : Prop :=
    Forall (fun a => match a with ANamed _ e => mframe (evalf e) | _ => True end) args.

  Lemma mframe_pass1 evalf imports args : args_framed evalf args -> forall t req, mframe (pass1 u evalf imports args t req).
  Proof. exact (mrel_pass1 u framed framed_refl framed_trans evalf imports args). Qed.

  Lemma mframe_pass2 expected args : forall t, mframe (pass2 u args expected t).
  Proof. exact (mrel_pass2 u framed framed_refl framed_trans (framed_step u) expected args). Qed.

  Theorem mframe_eval_expr e : mframe (eval_expr u self_name e).
  Proof. exact (mrel_eval_expr u self_name framed framed_refl framed_trans (framed_step u) e). Qed.
End Frames.

Section SetArgs.
  Variable u : runiverse.

  Lemma set_args_spec inst : forall t st st',
    set_args u inst t st = inl (tt, st') ->
    (forall i0 a0 n0, has_arg u (rs_g st) i0 a0 n0 -> has_arg u (rs_g st') i0 a0 n0) /\
    (forall nm n at_, In (nm, (n, at_)) t -> has_arg u (rs_g st') inst (ru_intern u nm) n) /\
    (forall n imps, node_imports u (rs_g st) n imps -> node_imports u (rs_g st') n imps) /\
    (forall imps e, node_imports u (rs_g st) inst imps -> In e (edges (rs_g st')) ->
       In e (edges (rs_g st)) \/
       exists nm n at_ index k, In (nm, (n, at_)) t /\ nth_error imps index = Some (ru_intern u nm, k) /\
                                e = {| esrc := n; etgt := inst; ek := EArg index |}).
  Proof.
    induction t as [|[nm [n at_]] r IH]; intros st st' H.
    - cbn in H. apply ret_inl in H as [_ ->]. split; [auto|]. split; [intros ? ? ? []|auto].
    - cbn [set_args] in H. apply bind_inl in H as (o & s1 & H1 & H). apply gop_inl in H1 as [H1 _].
      destruct o as [| | |e|p]; try discriminate. 2:{ destruct e; discriminate. }
      apply set_arg_ok in H1 as (New & Keep1 & KeepI1 & Ed1). apply IH in H as (Keep & All & KeepI & Ed).
      split; [intros i0 a0 n0 HA; exact (Keep _ _ _ (Keep1 _ _ _ HA))|].
      split; [|split; [intros n0 imps NI; exact (KeepI _ _ (KeepI1 _ _ NI))|]].
      + intros nm' n' at' [[= <- <- <-]|Hin]; [exact (Keep _ _ _ New)|exact (All _ _ _ Hin)].
      + intros imps e NI He. destruct (Ed imps e (KeepI1 _ _ NI) He) as [Hold|(nm' & n' & at' & index & k & Hin & X)].
        * destruct (Ed1 imps e NI Hold) as [Ho|(index & k & Nt & ->)]; [now left|]. right.
          exists nm, n, at_, index, k. split; [now left|]. split; [exact Nt|reflexivity].
        * right. exists nm', n', at', index, k. split; [now right|exact X].
  Qed.
End SetArgs.

Lemma str_eq_decidable (a b : str) : a = b \/ a <> b.
Proof. destruct (str_eqb_spec a b); [now left|now right]. Qed.

Section NewExpr.
  Variable u : runiverse.
  Variable self_name : str.

  Lemma new_expr_inl evalf pkg args st inst st' :
    new_expr u self_name evalf pkg args st = inl (inst, st') ->
    str_eqb (pn_name pkg) self_name = false /\
    exists id s0 pd t1 req s1 t2 s2 s3,
      resolve_package u (pn_name pkg) (pn_version pkg) (off (pn_span pkg)) st = inl (id, s0) /\
      pkg_desc u (rs_g s0) id = Some pd /\
      pass1 u evalf (text_items u (pd_imports pd)) args [] true s0 = inl ((t1, req), s1) /\
      pass2 u args (map fst (text_items u (pd_imports pd))) t1 s1 = inl (t2, s2) /\
      instantiate u (rs_g s2) id = (rs_g s3, ONode inst) /\ rs_scope s3 = rs_scope s2 /\
      set_args u inst t2 s3 = inl (tt, st') /\
      (req = true -> find (fun p => negb (has_key t2 (fst p))) (text_items u (pd_imports pd)) = None).
  Proof.
    unfold new_expr. destruct (str_eqb (pn_name pkg) self_name); [discriminate|]. intros H. split; auto.
    apply bind_inl in H as (id & s0 & H0 & H). apply bind_inl in H as (g & s0' & Hg & H). apply get_g_inl in Hg as [-> ->].
    destruct (pkg_desc u (rs_g s0) id) as [pd|] eqn:PD; [|discriminate].
    apply bind_inl in H as ([t1 req] & s1 & H1 & H). apply bind_inl in H as (t2 & s2 & H2 & H).
    apply bind_inl in H as (o & s3 & H3 & H). apply gop_inl in H3 as [H3 Sc3].
    destruct o; try discriminate. apply bind_inl in H as ([] & s4 & H4 & H).
    exists id, s0, pd, t1, req, s1, t2, s2, s3.
    destruct req; [destruct (find _ _) eqn:Fd; [discriminate|]|]; apply ret_inl in H as [-> ->]; auto 10.
    do 7 (split; [assumption|]). discriminate.
  Qed.

  (** the outcome of [new] once its arguments are passed: complete, or the first missing import *)
  Lemma new_expr_outcome evalf pkg args st id s0 pd t1 req s1 t2 s2 s3 inst s4 :
    str_eqb (pn_name pkg) self_name = false ->
    resolve_package u (pn_name pkg) (pn_version pkg) (off (pn_span pkg)) st = inl (id, s0) ->
    pkg_desc u (rs_g s0) id = Some pd ->
    pass1 u evalf (text_items u (pd_imports pd)) args [] true s0 = inl ((t1, req), s1) ->
    pass2 u args (map fst (text_items u (pd_imports pd))) t1 s1 = inl (t2, s2) ->
    gop (fun g => instantiate u g id) s2 = inl (ONode inst, s3) ->
    set_args u inst t2 s3 = inl (tt, s4) ->
    new_expr u self_name evalf pkg args st =
      if req then
        match find (fun p => negb (has_key t2 (fst p))) (text_items u (pd_imports pd)) with
        | Some p => inr (FErr (EMissingInstantiationArg (fst p) (off (pn_span pkg))))
        | None => inl (inst, s4)
        end
      else inl (inst, s4).
  Proof.
    intros E H0 PD H1 H2 H3 H4. unfold new_expr. rewrite E. unfold bind at 1. rewrite H0.
    unfold bind at 1. unfold get_g at 1. rewrite PD. unfold bind at 1. rewrite H1. unfold bind at 1. rewrite H2.
    unfold bind at 1. rewrite H3. unfold bind at 1. rewrite H4.
    destruct req; [|reflexivity]. destruct (find _ _); reflexivity.
  Qed.

  (** what the tables of a [new] say, [t1] after the explicit arguments and [t2] after the spreads
      [recs], for a package with import names [names] *)
  Definition tables_bind (names : list str) (args : list inst_arg) (t1 : argtbl) (req : bool)
                         (recs : list spread_rec) (t2 : argtbl) : Prop :=
    NoDup (map fst t1) /\ length t1 = length (filter is_explicit_arg args) /\
    req = negb (existsb is_fill_arg args) /\
    (forall pre sp post, args = pre ++ AFill sp :: post -> post = []) /\
    map sr_id recs = spread_idents args /\
    spreads_from u names t1 recs t2 /\
    (forall i, In i names ->
       match bind_import t1 (map to_src recs) (negb req) i with
       | BExplicit x => im_get t2 i = Some x
       | BSpread sp => exists n, im_get t2 i = Some (n, snd (sp_val sp)) /\ alias_witness u (fst (sp_val sp)) i n
       | BImplicit => im_get t2 i = None
       | BMissing => False
       end).

  (** C04 1b, 2a, 2b. Argument binding.  After a successful [new]: the first pass produced one table entry
      per explicit (inferred or named) argument, with pairwise different names, and accepted [...]
      only in last position; the spreads were applied in order, each adding exactly the expected
      names it exports that were still unbound (and at least one); and every import of the
      instantiated package is bound by the FIRST applicable rule -- the explicit argument of that
      name, else the first spread (in order) whose instance exports it, else it is left to be an
      implicit import when [...] is present -- and none is missing.  Every table entry is an argument
      of the new instantiation in the resulting graph ([get_args]). *)
  Lemma new_expr_binding_at evalf pkg args st id s0 pd t1 req s1 t2 s2 s3 inst st' :
    resolve_package u (pn_name pkg) (pn_version pkg) (off (pn_span pkg)) st = inl (id, s0) ->
    pkg_desc u (rs_g s0) id = Some pd ->
    pass1 u evalf (text_items u (pd_imports pd)) args [] true s0 = inl ((t1, req), s1) ->
    pass2 u args (map fst (text_items u (pd_imports pd))) t1 s1 = inl (t2, s2) ->
    instantiate u (rs_g s2) id = (rs_g s3, ONode inst) ->
    set_args u inst t2 s3 = inl (tt, st') ->
    (req = true -> find (fun p => negb (has_key t2 (fst p))) (text_items u (pd_imports pd)) = None) ->
    args_framed evalf args -> nofree (rs_g st) ->
    exists recs,
      pkg_desc u (rs_g st') id = Some pd /\
      (forall nm n at_, im_get t2 nm = Some (n, at_) -> In (ru_intern u nm, n) (get_args u (rs_g st') inst)) /\
      (NoDup (map fst (text_items u (pd_imports pd))) ->
       tables_bind (map fst (text_items u (pd_imports pd))) args t1 req recs t2).
  Proof.
    intros H0 PD H1 H2 H3 H4 HM HF NF.
    destruct (mrel_resolve_package u framed framed_refl framed_trans (framed_step u) _ _ _ _ _ _ H0 NF) as [G0 _].
    destruct (mframe_pass1 u evalf _ args HF _ _ _ _ _ H1 (gf_free _ _ G0)) as [G1 _].
    destruct (mframe_pass2 u _ args _ _ _ _ H2 (gf_free _ _ G1)) as [G2 _].
    assert (G3 : gframe (rs_g s2) (rs_g s3)) by (eapply instantiate_gframe; [exact (gf_free _ _ G2)|exact H3]).
    destruct (mrel_set_args u framed framed_refl framed_trans (framed_step u) inst t2 _ _ _ H4 (gf_free _ _ G3)) as [G4 _].
    assert (PD' : pkg_desc u (rs_g st') id = Some pd).
    { unfold pkg_desc in *. destruct (get_pkg (rs_g s0) id) as [p|] eqn:GP; [|discriminate].
      assert (GF : gframe (rs_g s0) (rs_g st')).
      { eapply gframe_trans; [exact G1|]. eapply gframe_trans; [exact G2|]. eapply gframe_trans; [exact G3|exact G4]. }
      now rewrite (gf_pkgs _ _ GF _ _ GP). }
    destruct (pass1_inl u evalf _ args _ _ _ _ _ _ H1 (NoDup_nil _)) as (ND1 & (ex & E1 & L1) & Rq & FL).
    cbn in E1. subst ex.
    assert (Args : forall nm n at_, im_get t2 nm = Some (n, at_) -> In (ru_intern u nm, n) (get_args u (rs_g st') inst)).
    { intros nm n at_ L. apply im_get_In in L. apply has_arg_get_args.
      destruct (set_args_spec u inst t2 _ _ H4) as (_ & All & _). eapply All; eauto. }
    (* the witness [recs] has to be given before the import names are known to be distinct *)
    destruct (NoDup_decidable str_eq_decidable (map fst (text_items u (pd_imports pd)))) as [ND|NND].
    2:{ exists []. split; [exact PD'|]. split; [exact Args|]. intros ND. contradiction. }
    destruct (pass2_inl u _ args _ _ _ _ H2 (gf_free _ _ G1) ND) as (recs & Ids & _ & SF & _).
    exists recs. split; [exact PD'|]. split; [exact Args|]. intros _.
    split; [exact ND1|]. split; [exact L1|]. split; [now rewrite Rq|]. split; [exact FL|]. split; [exact Ids|]. split; [exact SF|].
    intros i Hi. pose proof (spreads_from_binding u _ (negb req) _ _ _ SF ND i Hi) as B.
    destruct (bind_import t1 (map to_src recs) (negb req) i) eqn:BI; auto.
    (* missing: impossible after a successful [new] *)
    unfold bind_import in BI. destruct (im_get t1 i); [discriminate|]. destruct (first_spread _ i); [discriminate|].
    destruct req; [|discriminate]. specialize (HM eq_refl).
    apply in_map_iff in Hi as (p & <- & Hp). pose proof (find_none _ _ HM p Hp) as X. cbn in X.
    apply negb_false_iff in X. unfold has_key in X. now rewrite B in X.
  Qed.

  Theorem new_expr_binding evalf pkg args st inst st' :
    new_expr u self_name evalf pkg args st = inl (inst, st') ->
    args_framed evalf args -> nofree (rs_g st) ->
    exists id pd t1 req recs t2,
      pkg_desc u (rs_g st') id = Some pd /\
      (forall nm n at_, im_get t2 nm = Some (n, at_) -> In (ru_intern u nm, n) (get_args u (rs_g st') inst)) /\
      (NoDup (map fst (text_items u (pd_imports pd))) ->
        NoDup (map fst t1) /\ length t1 = length (filter is_explicit_arg args) /\
        req = negb (existsb is_fill_arg args) /\
        (forall pre sp post, args = pre ++ AFill sp :: post -> post = []) /\
        map sr_id recs = spread_idents args /\
        spreads_from u (map fst (text_items u (pd_imports pd))) t1 recs t2 /\
        (forall i, In i (map fst (text_items u (pd_imports pd))) ->
           match bind_import t1 (map to_src recs) (negb req) i with
           | BExplicit x => im_get t2 i = Some x
           | BSpread sp => exists n, im_get t2 i = Some (n, snd (sp_val sp)) /\ alias_witness u (fst (sp_val sp)) i n
           | BImplicit => im_get t2 i = None
           | BMissing => False
           end)).
  Proof.
    intros H HF NF. apply new_expr_inl in H as (_ & id & s0 & pd & t1 & req & s1 & t2 & s2 & s3 & H0 & PD & H1 & H2 & H3 & Sc3 & H4 & HM).
    destruct (new_expr_binding_at evalf pkg args st id s0 pd t1 req s1 t2 s2 s3 inst st' H0 PD H1 H2 H3 H4 HM HF NF) as (recs & X).
    exists id, pd, t1, req, recs, t2. exact X.
  Qed.

  (** C04 6a, missing argument: once the arguments are passed, [new] is rejected with
      [MissingInstantiationArg] exactly when [...] is absent and some import has no table entry
      (by [new_expr_binding]: no explicit argument and no spread provides it); the import named is
      the first such in the package's import order, the span is the package name's. *)
  Theorem new_expr_missing evalf pkg args st id s0 pd t1 req s1 t2 s2 s3 inst s4 nm a :
    str_eqb (pn_name pkg) self_name = false ->
    resolve_package u (pn_name pkg) (pn_version pkg) (off (pn_span pkg)) st = inl (id, s0) ->
    pkg_desc u (rs_g s0) id = Some pd ->
    pass1 u evalf (text_items u (pd_imports pd)) args [] true s0 = inl ((t1, req), s1) ->
    pass2 u args (map fst (text_items u (pd_imports pd))) t1 s1 = inl (t2, s2) ->
    gop (fun g => instantiate u g id) s2 = inl (ONode inst, s3) ->
    set_args u inst t2 s3 = inl (tt, s4) ->
    (new_expr u self_name evalf pkg args st = inr (FErr (EMissingInstantiationArg nm a)) <->
     req = true /\ a = off (pn_span pkg) /\
     exists k, find (fun p => negb (has_key t2 (fst p))) (text_items u (pd_imports pd)) = Some (nm, k)).
  Proof.
    intros E H0 PD H1 H2 H3 H4. rewrite (new_expr_outcome evalf pkg args st id s0 pd t1 req s1 t2 s2 s3 inst s4); auto.
    destruct req.
    - destruct (find _ _) as [[n k]|] eqn:Fd; cbn [fst].
      + split.
        * intros [= <- <-]. split; auto. split; auto. eauto.
        * intros (_ & -> & k' & [= <- <-]). reflexivity.
      + split; [discriminate|]. intros (_ & _ & k' & X). discriminate.
    - split; [discriminate|]. intros (X & _). discriminate.
  Qed.

  Lemma spread_names_idle item at_ nd ex : forall expected t any st,
    get_node (rs_g st) item = Some nd -> inst_exports u (nitem nd) = Some ex ->
    spread_filter t ex expected = [] ->
    spread_names u item at_ expected t any st = inl ((t, any), st).
  Proof.
    induction expected as [|nm r IH]; intros t any st G IE SF; [reflexivity|].
    unfold spread_filter in SF. cbn [filter] in SF. cbn [spread_names].
    destruct (has_key t nm) eqn:HK; [now apply IH|].
    cbn [negb andb] in SF. destruct (has_key ex nm) eqn:HE; [discriminate|].
    unfold bind at 1. rewrite alias_export_run, G, IE, HE. now apply IH.
  Qed.

  Lemma spread_names_no_err item at_ nd ex : forall expected t any st e,
    nofree (rs_g st) -> get_node (rs_g st) item = Some nd -> inst_exports u (nitem nd) = Some ex ->
    spread_names u item at_ expected t any st <> inr (FErr e).
  Proof.
    induction expected as [|nm r IH]; intros t any st e NF G IE H; [discriminate|].
    cbn [spread_names] in H. destruct (has_key t nm); [eapply IH; eauto|].
    unfold bind at 1 in H. rewrite alias_export_run, G, IE in H. destruct (has_key ex nm); [|eapply IH; eauto].
    destruct (alias u (rs_g st) item (ru_intern u nm)) as [g1 o] eqn:A. destruct o; try discriminate.
    destruct (alias_same_nodes u _ _ _ _ _ NF A) as (NF1 & _ & _ & _ & N1).
    exact (IH _ _ {| rs_g := g1; rs_scope := rs_scope st |} _ NF1 (N1 _ _ G) IE H).
  Qed.

  (** C04 6a, spread: a spread argument is rejected with [SpreadInstantiationNoMatch] exactly when its
      instance exports none of the still-unbound imports, and with [NotAnInstance{Spread}] exactly
      when it is not an instance (the identifier being defined) *)
  Theorem spread_arg_errors id expected t st item at0 nd :
    nofree (rs_g st) -> NoDup expected ->
    im_get (rs_scope st) (id_string id) = Some (item, at0) -> get_node (rs_g st) item = Some nd ->
    (forall a, spread_arg u id expected t st = inr (FErr (ENotAnInstance OpSpread a)) <->
               inst_exports u (nitem nd) = None /\ a = off (id_span id)) /\
    (forall a, spread_arg u id expected t st = inr (FErr (ESpreadInstantiationNoMatch a)) <->
               exists ex, inst_exports u (nitem nd) = Some ex /\ spread_filter t ex expected = [] /\ a = off (id_span id)).
  Proof.
    intros NF ND L G. rewrite spread_arg_run, L, G. destruct (inst_exports u (nitem nd)) as [ex|] eqn:IE.
    - destruct (spread_names u item (off (id_span id)) expected t false st) as [[[t' any] s]|f] eqn:SN.
      + destruct (spread_names_inl u item _ nd _ _ _ _ _ _ _ _ SN NF ND G IE) as (adds & -> & MF & _ & -> & _).
        cbn [orb]. split; intros a.
        * split; [destruct adds; discriminate|intros [X _]; discriminate].
        * destruct adds as [|x adds]; cbn [is_nil negb].
          -- split; [intros [= <-]; exists ex; rewrite <- MF; auto|intros (ex' & _ & _ & ->); reflexivity].
          -- split; [discriminate|]. intros (ex' & [= <-] & SF & _). rewrite <- MF in SF. discriminate.
      + split; intros a.
        * split; [|intros [X _]; discriminate]. intros [= ->]. exfalso. eapply spread_names_no_err; eauto.
        * split; [intros [= ->]; exfalso; eapply spread_names_no_err; eauto|].
          intros (ex' & [= <-] & SF & ->). rewrite (spread_names_idle item _ nd _ _ _ _ _ G IE SF) in SN. discriminate.
    - split; intros a.
      + split; [intros [= <-]; auto|intros [_ ->]; reflexivity].
      + split; [discriminate|intros (ex' & X & _); discriminate].
  Qed.
End NewExpr.
