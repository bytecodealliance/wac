(** Simulation of statements and of whole documents. *)
From Coq Require Import List Arith Bool NArith Lia.
From WacV Require Import Str StrFacts Token Names Ast Graph Resolver LangSpec GraphInv ResolverProofs ResolverStmts
  ResolverSim ResolverSimExpr ListFacts.
Import ListNotations.
Local Open Scope nat_scope.

Section SimStmt.
  Variable u : runiverse.
  Variable self_name : str.
  Variable K : kid -> Prop.
  Hypothesis U : uok u K.
  Notation dv := impl_flags_c04.
  Notation Rel := (Rel u K).
  Notation sim := (sim u K).

  (** a state change that replaces one node by one with the same kind, tag and package *)
  Lemma rel_update st env vm n nd nd' g' sc' env' :
    Rel st env vm -> get_node (rs_g st) n = Some nd ->
    nitem nd' = nitem nd -> nk nd' = nk nd -> npkg nd' = npkg nd ->
    nodes g' = set_nth (nodes (rs_g st)) n (Some nd') -> edges g' = edges (rs_g st) ->
    imports g' = imports (rs_g st) -> pkgs g' = pkgs (rs_g st) -> free_nodes g' = [] -> free_pkgs g' = [] ->
    se_imports env' = se_imports env -> se_insts env' = se_insts env ->
    scope_ok vm sc' (se_names env') -> exports_ok u vm (exports g') (se_exports env') ->
    Rel {| rs_g := g'; rs_scope := sc' |} env' vm.
  Proof.
    intros R G I1 I2 I3 Hn He Hi Hp F Fp Ei En Hsc Hex.
    apply (Rel_same u K st env vm g' sc' env' R); auto.
    - split; auto.
    - rewrite Hn. apply length_set_nth.
    - intros k a Ga. unfold get_node in *. rewrite Hn, nth_error_set_nth. destruct (Nat.eqb_spec k n) as [->|Ne].
      + rewrite (proj2 (Nat.ltb_lt _ _) (get_node_lt _ _ _ G)). exists nd'. unfold get_node in G. rewrite G in Ga. injection Ga as <-. auto.
      + exists a. auto.
    - intros id p. unfold get_pkg. now rewrite Hp.
  Qed.

  Lemma register_name_sim st env vm id n v :
    Rel st env vm -> nth_error vm n = Some v ->
    sim unit_rel vm env (register_name u id n st) (bind_name id v env).
  Proof.
    intros R V. rewrite register_name_run. unfold bind_name.
    pose proof (scope_get (id_string id) (r_scope R)) as SG.
    destruct (im_get (rs_scope st) (id_string id)) as [[m a]|].
    - destruct SG as (w & -> & _). reflexivity.
    - rewrite SG. destruct (rel_val R V) as (nd & G & _). rewrite G. cbv zeta.
      assert (Sc' : scope_ok vm (rs_scope st ++ [(id_string id, (n, off (id_span id)))]) (se_names env ++ [(id_string id, v)])).
      { apply scope_ok_snoc; [apply (r_scope R)|exact V]. }
      destruct (nname nd) eqn:NN.
      + (* the node already has a debug name *)
        exists vm. split; [apply prefix_refl|]. split; [|split; [split; cbn; apply prefix_refl|exact I]].
        apply (Rel_same u K st env vm (rs_g st) _ _ R); auto.
        * apply (r_free R).
        * now apply nodes_kept_same.
        * apply (r_exports R).
      + unfold set_name, update_node. rewrite G. cbn.
        exists vm. split; [apply prefix_refl|]. split; [|split; [split; cbn; apply prefix_refl|exact I]].
        apply (rel_update st env vm n nd
                 {| nk := nk nd; npkg := npkg nd; nitem := nitem nd; nname := Some (ru_intern u (id_string id)); nexport := nexport nd |});
          auto; try apply (r_free R). apply (r_exports R).
  Qed.

  (** [Graph.import_] in a related state, by the two checks of [LangSpec.add_import] *)
  Lemma import_cases st env vm name k' :
    Rel st env vm -> K k' ->
    if has_key (se_imports env) name
    then exists m, import_ u (rs_g st) (ru_intern u name) (N.to_nat k') = (rs_g st, OErr (ImportAlreadyExists m))
    else if u_import_name_ok u (ru_intern u name)
    then exists g',
      import_ u (rs_g st) (ru_intern u name) (N.to_nat k') = (g', ONode (length (nodes (rs_g st)))) /\
      Rel {| rs_g := g'; rs_scope := rs_scope st |}
          {| se_names := se_names env; se_imports := se_imports env ++ [(name, k')]; se_insts := se_insts env;
             se_exports := se_exports env |}
          (vm ++ [VImport name])
    else import_ u (rs_g st) (ru_intern u name) (N.to_nat k') = (rs_g st, OErr InvalidImportName).
  Proof.
    intros R HK. unfold import_. rewrite (uo_lk _ _ U k' HK).
    pose proof (imports_get name U (r_imports R)) as IG.
    destruct (has_key (se_imports env) name) eqn:HI.
    { destruct (alist_get N.eqb (imports (rs_g st)) (ru_intern u name)) as [m|]; [eauto|].
      discriminate (proj1 IG eq_refl). }
    rewrite (proj2 IG eq_refl). destruct (u_import_name_ok u (ru_intern u name)); cbn [negb]; [|reflexivity].
    destruct (r_free R) as [F Fp].
    destruct (add_node (rs_g st) (mk_node (NImport (ru_intern u name)) k' None)) as [s1 idx] eqn:A.
    apply add_node_nofree in A as (-> & Hn & F' & He & Hi & Hx & Hd & Hp & Hf); auto.
    set (len := length (nodes (rs_g st))).
    eexists. split; [reflexivity|].
    set (nd := mk_node (NImport (ru_intern u name)) k' None).
    assert (Vn := rel_new_val (VImport name) R).
    apply (Rel_add u K st env vm _ _ nd (VImport name) [] R);
      cbn [with_maps nodes free_nodes free_pkgs pkgs edges exports imports app se_names se_exports se_imports se_insts]; auto.
    - congruence.
    - intros e [].
    - split; cbn; [apply prefix_snoc|apply prefix_refl].
    - unfold node_ok. cbn. split; [exact HK|]. split; [|split; [discriminate|reflexivity]].
      rewrite im_get_app. unfold has_key in HI. destruct (im_get (se_imports env) name); [discriminate|]. cbn. now rewrite str_eqb_refl.
    - unfold imports_ok. cbn [imports with_maps rev]. apply Forall2_app.
      + exact (imports_ok_snoc u (rs_g st) s1 vm (Some nd) (VImport name) _ Hn Hi (r_imports R)).
      + constructor; [|constructor]. cbn. split; [reflexivity|]. split; [exact Vn|]. exists nd. split; [|reflexivity].
        unfold get_node, len. cbn. now rewrite Hn, nth_error_snoc.
    - intros j A B. cbn in B. lia.
  Qed.

  Lemma project_sim mk : (forall s a, class_of (mk s a) = IUnknownPath s) -> forall l start k st env,
    K k ->
    osim (fun k1 st1 k2 e2 => k1 = k2 /\ st1 = st /\ e2 = env /\ K k1)
         (project u mk k (segs_from start l) st) (project_kind u k l env).
  Proof.
    intros Hmk. induction l as [|s r IH]; intros start k st env HK; cbn [segs_from project project_kind].
    - cbn. repeat split; auto.
    - destruct (ru_proj_exports u k) as [ex|] eqn:PE; [|cbn; apply Hmk].
      destruct (im_get ex s) as [k'|] eqn:IG; [|cbn; apply Hmk].
      apply IH. apply (uo_K_proj _ _ U k ex s k' HK PE). apply im_get_In. exact IG.
  Qed.

  Lemma path_sim st env vm p :
    Rel st env vm ->
    osim (fun k1 st' k2 e2 => k1 = k2 /\ e2 = env /\ Rel st' env vm /\ K k1 /\ rs_scope st' = rs_scope st)
         (resolve_package_path u self_name p st) (path_kind u self_name p env).
  Proof.
    intros R. unfold resolve_package_path, path_kind, resolve_local_path, segment_spans.
    destruct (split_on c_slash (pp_segments p)) as [|s r] eqn:SP; [now apply split_on_nonempty in SP|].
    cbn [segs_from].
    destruct (str_eqb (pp_name p) self_name).
    - unfold bind at 1, get_scope at 1. unfold sbind, env_.
      pose proof (scope_get s (r_scope R)) as SG.
      destruct (im_get (rs_scope st) s) as [[n a]|]; [|rewrite SG; reflexivity].
      destruct SG as (v & -> & V). destruct (rel_val R V) as (nd & G & HK & VK & _).
      rewrite (bind_kind_of _ _ _ _ G), VK.
      eapply osim_impl; [|now apply (project_sim EPackagePathMissingExport)].
      intros k1 st1 k2 e2 (-> & -> & -> & HK1). auto.
    - eapply osim_bind; [apply (resolve_package_sim u K U), R|]. intros id s0 pi e0 (-> & R0 & GP0 & Sc0 & pd & Ppd).
      unfold bind at 1, get_g at 1. rewrite GP0.
      destruct (im_get (ru_pkg_defs u pi) s) as [k|] eqn:IG; [|reflexivity].
      assert (HK : K k) by (eapply (uo_K_defs _ _ U); eapply im_get_In; eauto).
      eapply osim_impl; [|now apply (project_sim EPackageMissingExport)].
      intros k1 st1 k2 e2 (-> & -> & -> & HK1). auto.
  Qed.

  Lemma import_statement_sim st env vm id nm t :
    Rel st env vm ->
    sim unit_rel vm env (import_statement u self_name id nm t st) (import_stmt u self_name id nm t env).
  Proof.
    intros R. unfold import_statement, import_stmt.
    eapply osim_bind with (P := fun x st' name' env' => fst x = name' /\ st' = st /\ env' = env).
    { destruct nm as [n|]; [cbn; auto|]. destruct t as [p|f|items|i]; try (cbn; auto; fail).
      eapply osim_bind; [apply (lookup_sim u K), R|]. intros n s v e0 (-> & -> & V). lazy beta.
      destruct (rel_val R V) as (nd & G & _ & VK & _).
      rewrite (bind_kind_of _ _ _ _ G). unfold sbind, env_. rewrite VK. destruct (ru_kind_id u (nitem nd)); cbn; auto. }
    intros [name at_] s1 name' e1 (<- & -> & ->). lazy beta iota. cbn [fst].
    (* the kind: resolving a package path may register the package *)
    eapply osim_bind with (P := fun k st' k' env' => k = k' /\ env' = env /\ Rel st' env vm /\ K k /\ rs_scope st' = rs_scope st).
    { destruct t as [p|f|items|i].
      - now apply path_sim.
      - destruct (func_sig f) as [sg|]; [|reflexivity]. destruct (ru_func_kind u sg) as [k|] eqn:FK; [|reflexivity].
        cbn. split; [reflexivity|]. split; [reflexivity|]. split; [exact R|]. split; [eapply (uo_K_func _ _ U); eauto|reflexivity].
      - reflexivity.
      - eapply osim_bind; [apply (lookup_sim u K), R|]. intros n s v e0 (-> & -> & V). lazy beta.
        destruct (rel_val R V) as (nd & G & HK & VK & _).
        rewrite (kind_of_eq _ _ _ G). unfold sbind, env_. rewrite VK. cbn. auto 6. }
    intros k s2 k' e2 (<- & -> & R2 & HK & Sc2). lazy beta.
    rewrite bind_gop. unfold sbind at 1, add_import.
    pose proof (import_cases s2 env vm name (ru_promote u k) R2 (uo_K_promote _ _ U _ HK)) as IC.
    destruct (has_key (se_imports env) name).
    - destruct IC as (m & ->). reflexivity.
    - destruct (u_import_name_ok u (ru_intern u name)); cbn [negb].
      + destruct IC as (g' & -> & R3). cbn [fst snd].
        eapply (sim_weaken u K unit_rel vm (vm ++ [VImport name]) env
                  {| se_names := se_names env; se_imports := se_imports env ++ [(name, ru_promote u k)];
                     se_insts := se_insts env; se_exports := se_exports env |});
          [apply prefix_snoc|split; cbn; [apply prefix_snoc|apply prefix_refl]|].
        apply register_name_sim; auto.
        exact (rel_new_val _ R2).
      + rewrite IC. reflexivity.
  Qed.

  Lemma infer_export_name_eq item st nd :
    get_node (rs_g st) item = Some nd ->
    infer_export_name u item st =
      inl (match instance_id u (nitem nd) with Some p => Some p | None => node_source u (rs_g st) item end, st).
  Proof.
    intros G. destruct (infer_export_name u item st) as [[r st']|f] eqn:E.
    - apply infer_export_name_spec in E as (-> & nd' & G' & ->). rewrite G in G'. injection G' as <-. reflexivity.
    - exfalso. unfold infer_export_name in E. unfold bind at 1 in E. rewrite (kind_of_eq _ _ _ G) in E.
      destruct (instance_id u (nitem nd)); [discriminate|].
      unfold bind at 1, get_g at 1 in E. unfold node_import_name in E. rewrite G in E.
      destruct (nk nd); try discriminate; destruct (get_alias_source u (rs_g st) item) as [[? ?]|]; discriminate.
  Qed.

  Lemma scope_nodes_live st env vm nm n a :
    Rel st env vm -> im_get (rs_scope st) nm = Some (n, a) ->
    exists nd, get_node (rs_g st) n = Some nd /\ nk nd <> NDef.
  Proof.
    intros R L. pose proof (scope_get nm (r_scope R)) as SG. rewrite L in SG.
    destruct SG as (v & _ & V). destruct (rel_val R V) as (nd & G & _ & _ & ND & _). eauto.
  Qed.

  Lemma export_item_sim st env vm item v nm at_ :
    Rel st env vm -> nth_error vm item = Some v ->
    sim unit_rel vm env (export_item u item nm at_ st) (add_export u nm v env).
  Proof.
    intros R V. rewrite export_item_unfold.
    2:{ intros n a L. destruct (scope_nodes_live _ _ _ _ _ _ R L) as (nd & G & _). congruence. }
    assert (Df : defines st nm = false).
    { unfold defines. destruct (im_get (rs_scope st) nm) as [[n a]|] eqn:L; auto.
      destruct (scope_nodes_live _ _ _ _ _ _ R L) as (nd & G & ND). rewrite G. destruct (nk nd); auto. now contradiction ND. }
    rewrite Df. unfold add_export, export_.
    pose proof (exports_get nm U (r_exports R)) as EG.
    destruct (alist_get N.eqb (exports (rs_g st)) (ru_intern u nm)) as [m|].
    - destruct EG as (w & EG & _). unfold has_key. rewrite EG. reflexivity.
    - unfold has_key. rewrite EG. destruct (u_export_name_ok u (ru_intern u nm)); cbn [negb]; [|reflexivity].
      destruct (rel_val R V) as (nd & G & _ & _ & ND & _). unfold update_node. rewrite G.
      (* the exported item is never a type definition here: [export] does not rename *)
      rewrite exports_renamed_nondef by (intros nd' G'; rewrite G in G'; now injection G' as <-).
      exists vm. split; [apply prefix_refl|]. split; [|split; [split; cbn; apply prefix_refl|exact I]].
      apply (rel_update st env vm item nd
               {| nk := nk nd; npkg := npkg nd; nitem := nitem nd; nname := nname nd; nexport := Some (ru_intern u nm) |});
        auto; try apply (r_free R).
      + apply (r_scope R).
      + cbn. apply Forall2_app; [apply (r_exports R)|]. constructor; [split; auto|constructor].
  Qed.

  Lemma spread_exports_sim item v k0 exN ea da : forall names any st env vm,
    Rel st env vm -> nth_error vm item = Some v -> val_kind u env v = Some k0 -> u_inst_exports u k0 = Some exN ->
    (forall nm, In nm names -> has_key (text_items u exN) nm = true) ->
    sim (fun _ a b => a = b) vm env (spread_exports u item ea da names any st) (spread_export u v names any env).
  Proof.
    induction names as [|nm r IH]; intros any st env vm R V VK UE Hn.
    - exact (sim_ret R eq_refl).
    - cbn [spread_exports spread_export]. unfold bind at 1, get_g at 1. unfold sbind at 1, env_ at 1.
      pose proof (exports_get nm U (r_exports R)) as EG.
      destruct (alist_get N.eqb (exports (rs_g st)) (ru_intern u nm)) as [m|].
      + destruct EG as (w & EG & _). unfold has_key. rewrite EG. apply IH; auto. intros x Hx. apply Hn. now right.
      + unfold has_key at 1. rewrite EG.
        destruct (rel_val R V) as (nd & G & _ & VK' & _). rewrite VK in VK'. injection VK' as ->.
        unfold bind at 1. rewrite alias_export_run, G. unfold inst_exports. rewrite UE.
        rewrite (Hn nm (or_introl eq_refl)).
        destruct (alias_sim U R G V UE (Hn nm (or_introl eq_refl))) as (g' & n & vm1 & A & P1 & R1 & Vn).
        rewrite A. lazy beta iota. eapply sim_weaken; [exact P1|apply env_le_refl|].
        eapply sim_bind; [now apply export_item_sim|]. intros [] s2 [] e2 vm2 P2 L2 R2 _.
        apply IH; auto.
        * exact (prefix_nth (prefix_trans P1 P2) V).
        * eapply val_kind_mono; eauto.
        * intros x Hx. apply Hn. now right.
  Qed.

  Lemma export_statement_sim st env vm e opts :
    Rel st env vm ->
    sim unit_rel vm env (export_statement u self_name e opts st) (export_stmt dv u self_name e opts env).
  Proof.
    intros R. unfold export_statement, export_stmt.
    eapply sim_bind; [apply (expr_sim_all u self_name K U), R|]. intros item s1 v e1 vm1 _ _ R1 V1.
    destruct (rel_val R1 V1) as (nd & G & _ & VK & _). unfold sbind at 1, env_ at 1.
    destruct opts as [|sp|n].
    - unfold bind at 1. rewrite (infer_export_name_eq item s1 nd G).
      unfold export_name_of, val_path. rewrite VK, (node_source_val U R1 V1).
      destruct (match instance_id u (nitem nd) with Some p => Some p | None => val_source v end) as [nm|]; [|reflexivity].
      now apply export_item_sim.
    - rewrite (bind_kind_of _ _ _ _ G). unfold val_exports. rewrite VK. unfold inst_exports.
      destruct (u_inst_exports u (nitem nd)) as [exN|] eqn:UE; [|reflexivity].
      eapply sim_bind; [exact (spread_exports_sim item v (nitem nd) exN _ _ _ false s1 e1 vm1 R1 V1 VK UE (fun nm => proj2 (has_key_In _ nm)))|].
      intros any s2 any' e2 vm2 _ _ R2 ->.
      destruct any'; [exact (sim_ret R2 I)|reflexivity].
    - now apply export_item_sim.
  Qed.

  Lemma statement_sim st env vm s :
    Rel st env vm -> sim unit_rel vm env (statement_step u self_name s st) (stmt dv u self_name s env).
  Proof.
    intros R. destruct s as [docs id nm t|t|docs id e|docs e opts]; cbn [statement_step stmt].
    - now apply import_statement_sim.
    - reflexivity.
    - eapply sim_bind; [apply (expr_sim_all u self_name K U), R|]. intros item s1 v e1 vm1 _ _ R1 V1.
      now apply register_name_sim.
    - now apply export_statement_sim.
  Qed.

  Lemma statements_sim l : forall st env vm,
    Rel st env vm -> sim unit_rel vm env (statements u self_name l st) (stmts dv u self_name l env).
  Proof.
    induction l as [|s r IH]; intros st env vm R.
    - exact (sim_ret R I).
    - cbn [statements stmts]. eapply sim_bind; [now apply statement_sim|]. intros [] s1 [] e1 vm1 _ _ R1 _. now apply IH.
  Qed.
End SimStmt.

Theorem resolve_simulates_denote (u : runiverse) (K : kid -> Prop) (d : document) :
  uok u K -> pd_targets (doc_directive d) = None ->
  match resolve u d, denote impl_flags_c04 u d with
  | inl st, inl env => exists vm, Rel u K st env vm
  | inr f, inr i => fail_matches f i
  | _, _ => False
  end.
Proof.
  intros U NT. unfold resolve, denote. rewrite NT.
  pose proof (statements_sim u (pn_name (pd_package (doc_directive d))) K U (doc_statements d) init_state empty_env []
                (rel_init u K)) as S.
  destruct (statements u _ (doc_statements d) init_state) as [[[] st]|f],
           (stmts impl_flags_c04 u _ (doc_statements d) empty_env) as [[[] env]|i]; try exact S; try (exfalso; exact S).
  destruct S as (vm & _ & R & _). eauto.
Qed.
