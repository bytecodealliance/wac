(** C11 with the subtype oracle instantiated by the checker model of C07:
    - the fully threaded model ([resolve_target_full]: one checker, inverted for the imports loop, reverted,
      memo shared by both loops, span index sites) never panics and computes the verdict of the abstract
      model [resolve_target_sv] run with the oracle [chk] (one fresh check per query);
    - for resource-free kinds that verdict is Ok exactly when the component type of the composition is a
      component-model subtype of the world's, names matched up to the semver discipline. *)
From WacV Require Import Str Names Types Checker SubSpec Targets TargetsSpec TargetsChecker.
From WacV Require Import NameMapProofs TargetsProofs.
From WacV Require Import CheckerProofs CheckerTheorems.
Require Import Lia.

Lemma kind_promote_ok t k : kind_ok t k <-> kind_ok t (kind_promote k).
Proof. destruct k as [[]| | | | |]; cbn; tauto. Qed.
Lemma kind_promote_rank r k : krank r (kind_promote k) = krank r k.
Proof. destruct k as [[]| | | | |]; reflexivity. Qed.

Lemma unfold_promote F t k : unfold F t (kind_promote k) = option_map tree_promote (unfold F t k).
Proof.
  destruct F as [|f]; [reflexivity|]. rewrite !unfold_eq.
  destruct k as [[r|i|v|i|w|m]|i|i|w|m|v]; cbn [kind_promote unfold_body];
    match goal with |- context [option_map _ ?x] => destruct x end; reflexivity.
Qed.

Section Concrete.
  Variable t : types.
  Variable r : ranking.
  Variable F : nat.
  Hypothesis W : wf_types t r.

  Definition good (k : kind) : Prop := kind_ok t k /\ (krank r k < F)%nat.
  Definition den (k : kind) : tree := match unfold F t k with Some x => x | None => XTRes [] end.

  Lemma good_promote k : good k -> good (kind_promote k).
  Proof. intros [H1 H2]. split; [exact (proj1 (kind_promote_ok t k) H1) | now rewrite kind_promote_rank]. Qed.

  Lemma good_unfold k : good k -> unfold F t k = Some (den k).
  Proof. intros [H1 H2]. unfold den. destruct (unfold_total t r W F k H1 H2) as [tr ->]. reflexivity. Qed.

  Lemma den_promote k : good k -> den (kind_promote k) = tree_promote (den k).
  Proof. intros G. unfold den at 1. rewrite unfold_promote, (good_unfold k G). reflexivity. Qed.

  (* the checker theorems compare two collections under 'equal tags, equal collections'; both are [t] here *)
  Let same : t_tag t = t_tag t -> t = t := fun _ => eq_refl.
  Let ND := wf_nodup t r W.

  (** one threaded check: never a panic, the verdict of a fresh check, the memo invariant is kept, the
      variance stack is restored *)
  Lemma step s a b : memo_ok t t (cache s) -> good a -> good b ->
    ((fst (is_subtype F s t a t b) = Ok tt /\ chk F t a b = true) \/
     ((exists e, fst (is_subtype F s t a t b) = Err e) /\ chk F t a b = false)) /\
    memo_ok t t (cache (snd (is_subtype F s t a t b))) /\
    (fst (is_subtype F s t a t b) = Ok tt -> ks (snd (is_subtype F s t a t b)) = ks s).
  Proof.
    intros M Ga Gb.
    destruct (is_subtype_decides t t same ND ND F F s a b _ _ (le_n _) M (good_unfold a Ga) (good_unfold b Gb))
      as [D [M' [_ Ks]]].
    pose proof (verdict_indep_of_variance_and_memo t t same ND ND F F s st0 a b _ _ (le_n _) M (memo_ok_nil t t)
                  (good_unfold a Ga) (good_unfold b Gb)) as V.
    unfold verdict in V. fold (check F t a t b) in V. fold (chk F t a b) in V.
    split; [|split; assumption].
    destruct D as [[E _]|[[e E] _]]; rewrite E in V; cbn in V; [left|right]; split; eauto.
  Qed.

  (** the oracle decides component-model subtyping on resource-free kinds *)
  Lemma chk_iff a b : pages_ok t -> good a -> good b -> resfree (den a) = true -> resfree (den b) = true ->
    (chk F t a b = true <-> SubCM (den a) (den b)).
  Proof.
    intros P [Ka Ra] [Kb Rb] Fa Fb.
    destruct (algo_iff_declarative_wf t t r r a b F W W same Ka Kb Ra Rb) as [ta [tb [Ua [Ub [D H]]]]].
    unfold den in *. rewrite Ua, Ub in *. destruct (H Fa Fb) as [H1 H2]. unfold chk. split.
    - intros E. apply H1. destruct (check F t a t b) as [[]| | |]; try discriminate. reflexivity.
    - intros S. now rewrite (H2 P P S).
  Qed.

  Section Loops.
    Variable spans : list nat.

    Definition flag (i : str * kind * option nat) : str * kind * bool :=
      (fst (fst i), snd (fst i), match snd i with Some _ => true | None => false end).

    Lemma span_of_ok node : (forall n, node = Some n -> In n spans) -> span_of spans node = None.
    Proof.
      destruct node as [n|]; cbn; auto. intros H.
      replace (existsb (Nat.eqb n) spans) with true; auto. symmetry. apply existsb_exists.
      exists n. split; auto. apply Nat.eqb_refl.
    Qed.

    Lemma full_imports_eq wi : (forall q e, nm_get wi q = Some e -> good e) ->
      forall l s, memo_ok t t (cache s) ->
        (forall n k node, In (n, k, node) l -> good k /\ (forall x, node = Some x -> In x spans)) ->
        exists s', full_imports F t spans wi s l =
                   (option_map (fun e => OVerdict (RErr e)) (rs_imports kind_promote (chk F t) wi (map flag l)), s') /\
                   memo_ok t t (cache s') /\
                   (rs_imports kind_promote (chk F t) wi (map flag l) = None -> ks s' = ks s).
    Proof.
      intros Gw. induction l as [|[[n k] node] l IH]; intros s M Gl; cbn [full_imports map flag fst snd rs_imports].
      - exists s. auto.
      - destruct (Gl n k node (or_introl eq_refl)) as [Gk Sp].
        destruct (nm_get wi n) as [e|] eqn:E.
        + pose proof (step s (kind_promote e) k M (good_promote e (Gw _ _ E)) Gk) as [D [M' Ks]].
          destruct (is_subtype F s t (kind_promote e) t k) as [res s'] eqn:IS. cbn [fst snd] in *.
          destruct D as [[-> ->]|[[er ->] ->]].
          * destruct (IH s' M') as [s'' [E' [M'' K'']]]; [intros; eapply Gl; right; eauto|].
            exists s''. split; [exact E'|]. split; auto. intros H. rewrite (K'' H). now apply Ks.
          * exists s'. cbn [of_checker]. unfold raise. rewrite (span_of_ok node Sp). cbn. split; auto.
            split; auto; discriminate.
        + exists s. unfold raise. rewrite (span_of_ok node Sp). cbn. repeat split; auto; discriminate.
    Qed.

    Lemma full_exports_eq ce : (forall q e, nm_get ce q = Some e -> good e) ->
      forall l s, memo_ok t t (cache s) -> (forall n k, In (n, k) l -> good k) ->
        exists s', full_exports F t spans ce s l =
                   (option_map (fun e => OVerdict (RErr e)) (rs_exports kind_promote (chk F t) ce l), s').
    Proof.
      intros Gc. induction l as [|[n k] l IH]; intros s M Gl; cbn [full_exports rs_exports].
      - exists s. auto.
      - pose proof (Gl n k (or_introl eq_refl)) as Gk.
        destruct (nm_get ce n) as [e|] eqn:E.
        + pose proof (step s e (kind_promote k) M (Gc _ _ E) (good_promote k Gk)) as [D [M' Ks]].
          destruct (is_subtype F s t e t (kind_promote k)) as [res s'] eqn:IS. cbn [fst snd] in *.
          destruct D as [[-> ->]|[[er ->] ->]].
          * apply IH; auto. intros; eapply Gl; right; eauto.
          * exists s'. reflexivity.
        + exists s. reflexivity.
    Qed.
  End Loops.

  (** every kind of the pair is well formed and within the fuel *)
  Definition good_pair (w : tworld kind) (c : compn) : Prop :=
    (forall n k, In (n, k) (wtable w ++ tw_exports w ++ cn_exports c) -> good k) /\
    (forall n k node, In (n, k, node) (cn_imports c) -> good k).

  Lemma consult_in {A} d (l : list (str * A)) q x : consult d l q x -> exists n, In (n, x) l.
  Proof. destruct d; cbn; [eauto|]. intros [I|[_ [n [v [I _]]]]]; eauto. Qed.

  Lemma nm_get_good l (m : namemap kind) : consistent l -> nm_fill nm_empty l = Some m ->
    (forall n k, In (n, k) l -> good k) -> forall q e, nm_get m q = Some e -> good e.
  Proof.
    intros C Fl Gl q e G. apply (semver_implements l m C Fl q) in G. destruct (consult_in _ _ _ _ G) as [n I]. eauto.
  Qed.

  Theorem resolve_full_eq spans (w : tworld kind) (c : compn) :
    wf_pair w (erase c) -> good_pair w c -> spans_cover spans c ->
    exists v, resolve_target_sv kind_promote (chk F t) w (erase c) = Some v /\
              resolve_target_full F t spans w c = OVerdict v.
  Proof.
    intros [CW CE] [G1 G2] SC.
    unfold resolve_target_sv, resolve_target_full, all_imports. fold (wtable w).
    destruct (nm_fill_total (wtable w) nm_empty) as [wi Fw]. rewrite Fw.
    cbn [erase c_imports c_exports] in *.
    assert (forall q e, nm_get wi q = Some e -> good e) as Gwi.
    { apply (nm_get_good _ _ CW Fw). intros n k I. apply (G1 n), in_or_app. auto. }
    destruct (full_imports_eq spans wi Gwi (cn_imports c) (set_ks st0 (invert (ks st0)))) as [s2 [E [M2 K2]]].
    { apply memo_ok_nil. }
    { intros n k node I. split; [eapply G2; eauto|]. intros x ->. eapply SC; eauto. }
    fold flag. rewrite E.
    destruct (rs_imports kind_promote (chk F t) wi (map flag (cn_imports c))) as [e|] eqn:RI; cbn [option_map].
    - eauto.
    - assert (ks s2 = [Contra]) as Ks by (rewrite (K2 eq_refl); reflexivity).
      unfold revert. rewrite Ks.
      destruct (nm_fill_total (cn_exports c) nm_empty) as [ce Fc]. rewrite Fc.
      assert (forall q e, nm_get ce q = Some e -> good e) as Gce.
      { apply (nm_get_good _ _ CE Fc). intros n k I. apply (G1 n). rewrite !in_app_iff. auto. }
      destruct (full_exports_eq spans ce Gce (tw_exports w) (set_ks s2 [])) as [s4 E4]; [exact M2| |].
      { intros n k I. apply (G1 n). apply in_or_app. right. apply in_or_app. auto. }
      rewrite E4. destruct (rs_exports kind_promote (chk F t) ce (tw_exports w)); cbn; eauto.
  Qed.

  Definition mapv {A B} (f : A -> B) (l : list (str * A)) : list (str * B) := map (fun e => (fst e, f (snd e))) l.

  Lemma in_mapv {A B} (f : A -> B) l n y : In (n, y) (mapv f l) <-> exists x, In (n, x) l /\ f x = y.
  Proof.
    unfold mapv. rewrite in_map_iff. split.
    - intros [[n' x] [E I]]. cbn in E. injection E as -> <-. eauto.
    - intros [x [I <-]]. exists (n, x). auto.
  Qed.
  Lemma keys_mapv {A B} (f : A -> B) l : map fst (mapv f l) = map fst l.
  Proof. unfold mapv. rewrite map_map. reflexivity. Qed.

  Lemma consult_mapv {A B} (f : A -> B) d l q y :
    consult d (mapv f l) q y <-> exists x, consult d l q x /\ f x = y.
  Proof.
    destruct d; cbn.
    - apply in_mapv.
    - rewrite keys_mapv, in_mapv. split.
      + intros [[x [I E]]|[N [n [v [I [S [Vn M]]]]]]].
        * eauto.
        * apply in_mapv in I as [x [I E]]. exists x. split; auto. right. split; auto.
          exists n, v. repeat split; auto. intros n' x' v' I'. apply (M n' (f x') v'). apply in_mapv. eauto.
      + intros [x [[I|[N [n [v [I [S [Vn M]]]]]]] E]].
        * eauto.
        * right. split; auto. exists n, v. repeat split; auto; [apply in_mapv; eauto|].
          intros n' y' v' I'. apply in_mapv in I' as [x' [I' _]]. eauto.
  Qed.

  (** the component type of the composition against the world's: every import of the composition is
      provided by the world's import consulted for its name, at a subtype; every export of the world is
      provided by the composition's export consulted for its name, at a subtype *)
  Definition TargetSub (d : discipline) (ci ce wi we : list (str * tree)) : Prop :=
    (forall n a, In (n, a) ci -> exists b, consult d wi n b /\ SubCM (tree_promote b) a) /\
    (forall n b, In (n, b) we -> exists a, consult d ce n a /\ SubCM a (tree_promote b)).

  Definition resfree_pair (w : tworld kind) (c : comp kind) : Prop :=
    (forall n k, In (n, k) (wtable w ++ tw_exports w ++ c_exports c) -> resfree (den k) = true) /\
    (forall i, In i (c_imports c) -> resfree (den (ikind i)) = true).
  (** [good_pair] on a span-less composition ([comp kind], e.g. [erase c]) *)
  Definition good_pair' (w : tworld kind) (c : comp kind) : Prop :=
    (forall n k, In (n, k) (wtable w ++ tw_exports w ++ c_exports c) -> good k) /\
    (forall i, In i (c_imports c) -> good (ikind i)).

  Lemma resfree_promote k : good k -> resfree (den k) = true -> resfree (den (kind_promote k)) = true.
  Proof. intros G. rewrite (den_promote k G). destruct (den k); auto. Qed.

  Lemma consult_den d (tbl : list (str * kind)) q (test : kind -> bool) (P : tree -> Prop) :
    (forall n e, In (n, e) tbl -> (test e = true <-> P (den e))) ->
    ((exists e, consult d tbl q e /\ test e = true) <-> (exists b, consult d (mapv den tbl) q b /\ P b)).
  Proof.
    intros H. split.
    - intros [e [C T]]. destruct (consult_in _ _ _ _ C) as [n I]. exists (den e).
      split; [apply consult_mapv; eauto | now apply (H n)].
    - intros [b [C Pb]]. apply consult_mapv in C as [e [C <-]]. destruct (consult_in _ _ _ _ C) as [n I].
      exists e. split; auto. now apply (H n).
  Qed.

  Definition comp_imports_tree (c : comp kind) : list (str * tree) := map (fun i => (iname i, den (ikind i))) (c_imports c).

  Theorem conforms_is_target_sub d (w : tworld kind) (c : comp kind) :
    pages_ok t -> good_pair' w c -> resfree_pair w c ->
    (Conforms kind_promote (chk F t) d w c <->
     TargetSub d (comp_imports_tree c) (mapv den (c_exports c))
                 (mapv den (wtable w)) (mapv den (tw_exports w))).
  Proof.
    intros P [G1 G2] [R1 R2]. unfold Conforms, TargetSub, comp_imports_tree. rewrite !Forall_forall.
    assert (forall n e, In (n, e) (wtable w) \/ In (n, e) (tw_exports w) \/ In (n, e) (c_exports c) ->
              good e /\ resfree (den e) = true) as OK.
    { intros n e I. split; [apply (G1 n)|apply (R1 n)]; rewrite !in_app_iff; exact I. }
    assert (forall i, In i (c_imports c) ->
              (import_ok kind_promote (chk F t) d w i <->
               exists b, consult d (mapv den (wtable w)) (iname i) b /\ SubCM (tree_promote b) (den (ikind i)))) as XI.
    { intros i I. apply consult_den. intros n e Ie. destruct (OK n e (or_introl Ie)) as [Ge Re].
      rewrite <- (den_promote e Ge). apply chk_iff; auto; [now apply good_promote | now apply resfree_promote]. }
    assert (forall n k, In (n, k) (tw_exports w) ->
              (export_ok kind_promote (chk F t) d c (n, k) <->
               exists a, consult d (mapv den (c_exports c)) n a /\ SubCM a (tree_promote (den k)))) as XE.
    { intros n k I. apply consult_den. intros m y Iy. destruct (OK n k (or_intror (or_introl I))) as [Gk Rk].
      destruct (OK m y (or_intror (or_intror Iy))) as [Gy Ry]. rewrite <- (den_promote k Gk).
      apply chk_iff; auto; [now apply good_promote | now apply resfree_promote]. }
    split; intros [HI HE]; split.
    - intros n a I. apply in_map_iff in I as [i [E I]]. injection E as <- <-. apply XI; auto.
    - intros n b I. apply in_mapv in I as [k [I <-]]. apply XE; [exact I | exact (HE (n, k) I)].
    - intros i I. apply XI; auto. apply HI. apply in_map_iff. exists i. auto.
    - intros [n k] I. apply XE; auto. apply HE. apply in_mapv. eauto.
  Qed.

  Lemma consistent_mapv {A B} (f : A -> B) l : consistent l -> consistent (mapv f l).
  Proof.
    intros C n x y I1 I2. apply in_mapv in I1 as [a [I1 <-]]. apply in_mapv in I2 as [b [I2 <-]].
    f_equal. eapply C; eauto.
  Qed.

  (** with identical names only, this is the component-model rule for component types *)
  Lemma target_sub_exact_is_SubCM ci ce wi we : consistent wi -> consistent ce ->
    (TargetSub Exact ci ce wi we <-> SubCM (XComp ci ce) (XComp (mapv tree_promote wi) (mapv tree_promote we))).
  Proof.
    intros Cw Cc. unfold TargetSub. cbn [consult]. split.
    - intros [HI HE]. apply SubCM_comp. split.
      + intros k a I. destruct (HI k a I) as [b [Ib S]]. exists (tree_promote b). split; auto.
        apply (exact_implements _ (consistent_mapv tree_promote wi Cw) k). apply in_mapv. eauto.
      + intros k b I. apply in_mapv in I as [b0 [I <-]]. destruct (HE k b0 I) as [a [Ia S]]. exists a. split; auto.
        now apply (exact_implements _ Cc k).
    - intros H. apply SubCM_comp in H as [HI HE]. split.
      + intros n a I. destruct (HI n a I) as [b [G S]]. apply im_get_in in G.
        apply in_mapv in G as [b0 [I0 <-]]. eauto.
      + intros n b I. destruct (HE n (tree_promote b)) as [a [G S]]; [apply in_mapv; eauto|].
        apply im_get_in in G. eauto.
  Qed.

  Theorem target_iff_cm (w : tworld kind) (c : comp kind) :
    pages_ok t -> wf_pair w c -> good_pair' w c -> resfree_pair w c ->
    (resolve_target_sv kind_promote (chk F t) w c = Some ROk <->
     TargetSub Semver (comp_imports_tree c) (mapv den (c_exports c)) (mapv den (wtable w)) (mapv den (tw_exports w))).
  Proof.
    intros P WF G R. rewrite <- (conforms_is_target_sub Semver w c P G R). now apply resolve_sv_ok.
  Qed.

  Theorem target_iff_SubCM_exact (w : tworld kind) (c : comp kind) :
    pages_ok t -> wf_pair w c -> good_pair' w c -> resfree_pair w c -> exact_names w c ->
    (resolve_target_sv kind_promote (chk F t) w c = Some ROk <->
     SubCM (XComp (comp_imports_tree c) (mapv den (c_exports c)))
           (XComp (mapv tree_promote (mapv den (wtable w))) (mapv tree_promote (mapv den (tw_exports w))))).
  Proof.
    intros P WF G R EX. rewrite <- target_sub_exact_is_SubCM by (apply consistent_mapv, WF).
    rewrite <- (conforms_is_target_sub Exact w c P G R), <- (conforms_same kind kind_promote (chk F t) w c WF EX).
    now apply resolve_sv_ok.
  Qed.
End Concrete.

Lemma rank_bound r (l : list kind) : exists F0, forall F k, (F0 <= F)%nat -> In k l -> (krank r k < F)%nat.
Proof.
  induction l as [|k l [F0 IH]].
  - exists O. intros F k _ [].
  - exists (Nat.max F0 (S (krank r k))). intros F k' HF [<-|I]; [lia|]. apply IH; [lia|assumption].
Qed.

Theorem good_pair_fuel t r (w : tworld kind) (c : comp kind) :
  (forall n k, In (n, k) (wtable w ++ tw_exports w ++ c_exports c) -> kind_ok t k) ->
  (forall i, In i (c_imports c) -> kind_ok t (ikind i)) ->
  exists F0, forall F, (F0 <= F)%nat -> good_pair' t r F w c.
Proof.
  intros K1 K2.
  destruct (rank_bound r (map snd (wtable w ++ tw_exports w ++ c_exports c) ++ map ikind (c_imports c))) as [F0 H].
  exists F0. intros F HF. split.
  - intros n k I. split; [eapply K1; eauto|]. apply (H F k HF). apply in_or_app. left.
    apply in_map_iff. exists (n, k). auto.
  - intros i I. split; [auto|]. apply (H F _ HF). apply in_or_app. right. now apply in_map.
Qed.
