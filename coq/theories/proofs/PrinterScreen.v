(** C13: the text the (repaired) printer writes for a parsed document passes the lexer's screening:
    it consists of ASCII literals, blanks, line feeds, slices of the (screened) source, and lines of
    doc comments whose characters are source characters. Also: the token predicate [lexed] that the
    lexer's output satisfies (accurate span, produced by [scan_token], doc characters from the source)
    and its transport to the printer's commands. *)
From WacV Require Import Str Token Lexer LexTables LexImpl LexerSound Semver Ast Parser Grammar ParserComb ParserProofs ParserTop.
From WacV Require Import Printer PrintSpec PrinterText PrinterProofs PrinterWf PrinterLexFacts PrinterLeaves.
From Coq Require Import Lia.
Local Open Scope nat_scope.

Lemma drop_bytes_incl s : forall n s', drop_bytes s n = Some s' -> incl s' s.
Proof.
  induction s as [|c s IH]; intros n s'; cbn [drop_bytes].
  - destruct (n =? 0)%N; [intros H; inversion H; apply incl_refl|discriminate].
  - destruct (n =? 0)%N; [intros H; inversion H; apply incl_refl|].
    destruct (utf8_len c <=? n)%N; [|discriminate]. intros H x Hx. right. eapply IH; eauto.
Qed.

Lemma take_bytes_incl s : forall n t, take_bytes s n = Some t -> incl t s.
Proof.
  induction s as [|c s IH]; intros n t; cbn [take_bytes].
  - destruct (n =? 0)%N; [intros H; inversion H; intros x []|discriminate].
  - destruct (n =? 0)%N; [intros H; inversion H; intros x []|].
    destruct (utf8_len c <=? n)%N; [|discriminate].
    destruct (take_bytes s (n - utf8_len c)) eqn:E; [|discriminate]. intros H; inversion H; subst.
    intros x [<-|Hx]; [now left|right; eapply IH; eauto].
Qed.

Lemma slice_incl src sp t : slice src sp = Some t -> incl t src.
Proof.
  unfold slice. destruct (drop_bytes src (off sp)) eqn:E; [|discriminate]. intros H x Hx.
  eapply drop_bytes_incl; eauto. eapply take_bytes_incl; eauto.
Qed.

Lemma split_on_incl c s : Forall (fun seg => incl seg s) (split_on c s).
Proof.
  induction s as [|x s IH]; cbn [split_on]; [constructor; [apply incl_refl|constructor]|].
  destruct (x =? c)%N.
  - constructor; [intros y []|]. eapply Forall_impl; [|exact IH]. intros seg H y Hy. right. auto.
  - destruct (split_on c s) as [|seg segs]; [constructor; [intros y [<-|[]]; now left|constructor]|].
    inversion IH; subst. constructor.
    + intros y [<-|Hy]; [now left|right; auto].
    + eapply Forall_impl; [|eassumption]. intros sg H y Hy. right. auto.
Qed.

Lemma doc_norm_text_incl text l : In l (doc_norm_text text) -> incl l text.
Proof.
  unfold doc_norm_text. intros H. apply filter_In in H. destruct H as [H _]. apply in_map_iff in H.
  destruct H as (seg & <- & Hs). pose proof (split_on_incl c_nl text) as Hf. rewrite Forall_forall in Hf.
  intros x Hx. apply (Hf _ Hs). now apply In_trim in Hx.
Qed.

Definition lexed (src : str) (t : rtoken) : Prop :=
  slice src (tsp t) = Some (ttext t) /\ tokfact impl_cfg src t.

Lemma lex_lexed src : Forall (acc2 (lexed src)) (lex impl_cfg src).
Proof.
  eapply Forall_impl; [|exact (Forall_and (lex_acc impl_cfg src) (lex_facts impl_cfg src))].
  intros it [H1 H2]. destruct it; cbn in *; auto. split; auto.
Qed.

(** The commands of a parsed document satisfy any property that holds of fixed commands and of the
    copies / doc lines of lexed tokens. *)
Theorem parsed_commands src doc r (P : cmd -> Prop) :
  parse_document impl_flags impl_cfg src = POk doc r ->
  (forall k, P (CTok k)) -> P CSp -> P CIndent -> P CNewline -> P CRawNl -> P CInc -> P CDec ->
  (forall t, lexed src t -> P (CSrc (tk t) (tsp t))) ->
  (forall t, lexed src t -> Forall P (p_docs repaired (tdocs t))) ->
  Forall P (p_document repaired doc).
Proof.
  intros H. apply parse_document_sound in H. destruct H as [_ H]. intros.
  eapply (l_document (lexed src) P); eauto. apply lex_lexed.
Qed.

Definition okcb (c : N) : bool := match arm_verdict (arms impl_cfg) c with None => true | Some _ => false end.
Lemma okcb_ok c : okcb c = true <-> okc impl_cfg c.
Proof. unfold okcb, okc. destruct (arm_verdict (arms impl_cfg) c); split; congruence. Qed.

Lemma fixed_text_ok k : Forall (okc impl_cfg) (fixed_text k).
Proof.
  assert (H : forallb okcb (fixed_text k) = true) by (destruct k; vm_compute; reflexivity).
  rewrite forallb_forall in H. apply Forall_forall. intros c Hc. apply okcb_ok. auto.
Qed.

Definition clean_cmd (src : str) (c : cmd) : Prop :=
  match c with
  | CSrc _ sp => forall t, slice src sp = Some t -> Forall (okc impl_cfg) t
  | CDoc l => Forall (okc impl_cfg) l
  | _ => True
  end.

Lemma layout_clean src cs : Forall (clean_cmd src) cs ->
  forall ind b ps, layout src ind b cs = Some ps -> Forall (okc impl_cfg) (text_of ps).
Proof.
  assert (Hsp : okc impl_cfg 32%N) by (apply okcb_ok; vm_compute; reflexivity).
  assert (Hnl : okc impl_cfg c_nl) by (apply okcb_ok; vm_compute; reflexivity).
  assert (Hpre : Forall (okc impl_cfg) doc_prefix).
  { apply Forall_forall. intros c Hc. apply okcb_ok. revert c Hc. apply forallb_forall. vm_compute. reflexivity. }
  assert (Hind : forall n, Forall (okc impl_cfg) (indent_text n)).
  { induction n as [|n IHn]; [constructor|]. cbn [indent_text]. apply Forall_app. split; [|exact IHn].
    repeat constructor; exact Hsp. }
  induction 1 as [|c cs Hc _ IH]; intros ind b ps H; cbn [layout] in H; [inversion H; constructor|].
  destruct c; cbn [clean_cmd] in Hc.
  - destruct (layout src ind b cs) eqn:E; inversion H; subst. cbn [text_of flat_map piece_text]. apply Forall_app.
    split; [apply fixed_text_ok|eapply IH; eauto].
  - destruct (slice src sp) eqn:Es; [|discriminate]. destruct (layout src ind b cs) eqn:E; inversion H; subst.
    cbn [text_of flat_map piece_text]. apply Forall_app. split; [auto|eapply IH; eauto].
  - destruct (layout src ind b cs) eqn:E; inversion H; subst. cbn [text_of flat_map piece_text app].
    constructor; [exact Hsp|eapply IH; eauto].
  - destruct (layout src ind false cs) as [l0|] eqn:E; [|destruct b; discriminate].
    assert (Hd : Forall (okc impl_cfg) (doc_prefix ++ line ++ [c_nl])).
    { apply Forall_app. split; [exact Hpre|]. apply Forall_app. split; [exact Hc|repeat constructor; exact Hnl]. }
    destruct b; inversion H; subst; cbn [text_of flat_map piece_text]; repeat (apply Forall_app; split); auto;
      eapply IH; eauto.
  - destruct b; [eapply IH; eauto|]. destruct (layout src ind true cs) eqn:E; inversion H; subst.
    cbn [text_of flat_map piece_text]. apply Forall_app. split; [apply Hind|eapply IH; eauto].
  - destruct (layout src ind false cs) eqn:E; inversion H; subst. cbn [text_of flat_map piece_text app].
    constructor; [exact Hnl|eapply IH; eauto].
  - destruct (layout src ind b cs) eqn:E; inversion H; subst. cbn [text_of flat_map piece_text app].
    constructor; [exact Hnl|eapply IH; eauto].
  - eapply IH; eauto.
  - eapply IH; eauto.
Qed.

Theorem print_screen src doc r ps :
  parse_document impl_flags impl_cfg src = POk doc r -> print_pieces repaired src doc = Some ps ->
  screen impl_cfg (text_of ps) = None.
Proof.
  intros Hparse Hp. apply screen_none. unfold print_pieces in Hp. eapply layout_clean; [|exact Hp].
  pose proof (parse_ok_screen _ _ _ _ _ Hparse) as Hsc. change (cfg_with impl_flags impl_cfg) with impl_cfg in Hsc.
  apply screen_none in Hsc. rewrite Forall_forall in Hsc.
  apply (parsed_commands src doc r (clean_cmd src) Hparse); try exact I; try (intros; exact I).
  - intros t [Hs _]. cbn [clean_cmd]. intros t' Ht'. apply Forall_forall. intros c Hc. apply Hsc.
    eapply slice_incl; eauto.
  - intros t [_ [_ Hd]]. unfold p_docs. rewrite Forall_forall in Hd.
    apply Forall_forall. intros c Hc. apply in_flat_map in Hc. destruct Hc as (dc & Hdc & Hc).
    apply in_map_iff in Hc. destruct Hc as (l & <- & Hl). cbn [clean_cmd].
    rewrite doc_lines_repaired in Hl. apply doc_norm_text_incl in Hl.
    apply Forall_forall. intros x Hx. apply Hsc. apply (Hd _ Hdc). auto.
Qed.
