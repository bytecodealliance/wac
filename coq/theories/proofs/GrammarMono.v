(** The grammar of spec/Grammar.v is monotone in its deviation flags: every flag only ADDS
    productions. Hence a derivation that uses no flag at all ([core_flags]: the productions LANGUAGE.md
    and the parser have in common) is a derivation of the documented grammar AND of the implemented
    one, with the same tree ([agree_outside_deviations]; C12's [impl_vs_doc_agree_outside_deviations]). *)
From WacV Require Import Str Token Lexer Semver Ast Parser Grammar ParserComb ParserProofs.
From Coq Require Import Lia.
Local Open Scope nat_scope.

(** The flags that guard productions (the four lexical flags do not occur in the grammar). *)
Definition flags_le (a b : deviations) : Prop :=
  (arrow_empty_results a = true -> arrow_empty_results b = true) /\
  (result_underscore_forms a = true -> result_underscore_forms b = true) /\
  (empty_new_args a = true -> empty_new_args b = true) /\
  (fill_alone a = true -> fill_alone b = true) /\
  (fill_anywhere a = true -> fill_anywhere b = true) /\
  (empty_use_items a = true -> empty_use_items b = true) /\
  (empty_include_with a = true -> empty_include_with b = true) /\
  (named_results a = true -> named_results b = true) /\
  (borrow_any_type a = true -> borrow_any_type b = true).

(** No deviation in either direction: the productions common to LANGUAGE.md and the parser. *)
Definition core_flags : deviations := {|
  arrow_empty_results := false; result_underscore_forms := false; uppercase_words := false;
  dangling_dash := false; keyword_colon := false; pkg_separator_zone := false;
  empty_new_args := false; fill_alone := false; fill_anywhere := false; empty_use_items := false;
  empty_include_with := false; named_results := false; borrow_any_type := false |}.

Lemma core_le d : flags_le core_flags d.
Proof. unfold flags_le, core_flags; cbn. repeat split; discriminate. Qed.

Lemma seplist_mono {A} (R1 R2 : drel A) :
  (forall ts r a, R1 ts r a -> R2 ts r a) -> forall ts r x, seplist R1 ts r x -> seplist R2 ts r x.
Proof.
  intros H ts r x Hs. induction Hs.
  - apply sl_nil.
  - apply sl_one; auto.
  - eapply sl_trail; eauto.
  - eapply sl_cons; eauto.
Qed.

Lemma many_mono {A} (R1 R2 : drel A) :
  (forall ts r a, R1 ts r a -> R2 ts r a) -> forall ts r x, many R1 ts r x -> many R2 ts r x.
Proof. intros H ts r x Hs. induction Hs; [apply many_nil|eapply many_cons; eauto]. Qed.

Lemma opt_mono {A} k (R1 R2 : drel A) :
  (forall ts r a, R1 ts r a -> R2 ts r a) -> forall ts r x, opt k R1 ts r x -> opt k R2 ts r x.
Proof. intros H ts r x Hs. destruct Hs; [apply opt_none|eapply opt_some; eauto]. Qed.

Scheme g_type_mono_ind := Minimality for g_type Sort Prop
  with g_types_mono_ind := Minimality for g_types Sort Prop.
Combined Scheme g_type_types_ind from g_type_mono_ind, g_types_mono_ind.

Scheme g_expr_mono_ind := Minimality for g_expr Sort Prop
  with g_primary_mono_ind := Minimality for g_primary Sort Prop
  with g_args_mono_ind := Minimality for g_args Sort Prop
  with g_arg_mono_ind := Minimality for g_arg Sort Prop.
Combined Scheme g_expr_all_ind from g_expr_mono_ind, g_primary_mono_ind, g_args_mono_ind, g_arg_mono_ind.

Section Mono.
Variables d1 d2 : deviations.
Hypothesis Hle : flags_le d1 d2.

Let H_arrow := proj1 Hle.
Let H_under := proj1 (proj2 Hle).
Let H_new := proj1 (proj2 (proj2 Hle)).
Let H_alone := proj1 (proj2 (proj2 (proj2 Hle))).
Let H_any := proj1 (proj2 (proj2 (proj2 (proj2 Hle)))).
Let H_use := proj1 (proj2 (proj2 (proj2 (proj2 (proj2 Hle))))).
Let H_incl := proj1 (proj2 (proj2 (proj2 (proj2 (proj2 (proj2 Hle)))))).
Let H_named := proj1 (proj2 (proj2 (proj2 (proj2 (proj2 (proj2 (proj2 Hle))))))).
Let H_borrow := proj2 (proj2 (proj2 (proj2 (proj2 (proj2 (proj2 (proj2 Hle))))))).

(* A production that is not an inductive is a package [exists .., _ /\ .. /\ _] of sub-derivations:
   [ex] opens every such package in the context, [exs; conj] builds the one in the goal. *)
Ltac exs := repeat match goal with |- exists _, _ => eexists end.
Ltac conj := repeat match goal with |- _ /\ _ => split end.
Ltac ex := repeat match goal with
                  | H : exists _, _ |- _ => destruct H
                  | H : _ /\ _ |- _ => destruct H
                  end.

Lemma args_ok_mono args tr : args_ok d1 args tr = true -> args_ok d2 args tr = true.
Proof.
  unfold args_ok. destruct args as [|a args]; [apply H_new|].
  assert (Hgen : forall b, fill_anywhere d1 || b = true -> fill_anywhere d2 || b = true).
  { intros b Hb. apply orb_true_iff in Hb. destruct Hb as [Hb|Hb]; [now rewrite (H_any Hb)|rewrite Hb; apply orb_true_r]. }
  destruct a; try apply Hgen. destruct args; [|apply Hgen]. destruct tr; [apply H_any|apply H_alone].
Qed.

Lemma g_type_mono :
  (forall ts r t, g_type d1 ts r t -> g_type d2 ts r t) /\ (forall ts r x, g_types d1 ts r x -> g_types d2 ts r x).
Proof.
  apply (g_type_types_ind d1 (fun ts r t => g_type d2 ts r t) (fun ts r x => g_types d2 ts r x)); intros.
  - eapply gt_prim; eauto.
  - eapply gt_tuple; eauto.
  - eapply gt_list; eauto.
  - eapply gt_option; eauto.
  - eapply gt_result; eauto.
  - eapply gt_result_ok; eauto.
  - eapply gt_result_err; eauto.
  - eapply gt_result_both; eauto.
  - eapply gt_result_u; eauto.
  - eapply gt_result_uu; eauto.
  - eapply gt_result_tu; eauto.
  - eapply gt_borrow; eauto.
  - eapply gt_borrow_ty; eauto.
  - eapply gt_id; eauto.
  - apply gts_nil.
  - eapply gts_one; eauto.
  - eapply gts_trail; eauto.
  - eapply gts_cons; eauto.
Qed.

Lemma g_type_mono1 ts r t : g_type d1 ts r t -> g_type d2 ts r t.
Proof. apply g_type_mono. Qed.
Local Hint Resolve g_type_mono1 : core.

Lemma g_named_type_mono ts r n : g_named_type d1 ts r n -> g_named_type d2 ts r n.
Proof. unfold g_named_type. intros H. ex. subst. exs; conj; eauto. Qed.
Local Hint Resolve g_named_type_mono : core.

Lemma g_params_mono ts r ps : g_params d1 ts r ps -> g_params d2 ts r ps.
Proof. unfold g_params. intros (tr & H). exists tr. eapply seplist_mono; [|exact H]. auto. Qed.
Local Hint Resolve g_params_mono : core.

Lemma g_results_mono ts r x : g_results d1 ts r x -> g_results d2 ts r x.
Proof.
  intros H. destruct H.
  - apply gr_scalar; auto.
  - eapply gr_named; eauto.
  - apply gr_empty; auto.
Qed.
Local Hint Resolve g_results_mono : core.

Lemma g_func_type_mono ts r f : g_func_type d1 ts r f -> g_func_type d2 ts r f.
Proof.
  unfold g_func_type. intros H. ex. subst. exs; conj; eauto.
  eapply opt_mono; [|eassumption]. auto.
Qed.
Local Hint Resolve g_func_type_mono : core.

Lemma g_variant_case_mono ts r v : g_variant_case d1 ts r v -> g_variant_case d2 ts r v.
Proof.
  unfold g_variant_case. intros H. ex. subst. exs; conj; eauto.
  eapply opt_mono; [|eassumption]. cbn. intros ts0 r0 a Hopt. ex. eauto.
Qed.

Lemma g_field_mono ts r f : g_field d1 ts r f -> g_field d2 ts r f.
Proof. unfold g_field. intros H. ex. subst. exs; conj; eauto. Qed.

Lemma g_braced_mono {A} kw (R1 R2 : drel A) mk :
  (forall ts r a, R1 ts r a -> R2 ts r a) -> forall ts r x, g_braced kw R1 mk ts r x -> g_braced kw R2 mk ts r x.
Proof.
  intros HR ts r x H. unfold g_braced in *. ex. subst. exs; conj; eauto.
  eapply seplist_mono; eauto.
Qed.

Lemma g_resource_item_mono ts r m : g_resource_item d1 ts r m -> g_resource_item d2 ts r m.
Proof. intros H. destruct H; [eapply gri_constructor; eauto|eapply gri_method; eauto]. Qed.

Lemma g_type_decl_mono ts r x : g_type_decl d1 ts r x -> g_type_decl d2 ts r x.
Proof.
  intros H. destruct H.
  - apply gd_variant. eapply g_braced_mono; [|eassumption]. apply g_variant_case_mono.
  - apply gd_record. eapply g_braced_mono; [|eassumption]. apply g_field_mono.
  - apply gd_flags. assumption.
  - apply gd_enum. assumption.
  - eapply gd_alias_func; eauto.
  - eapply gd_alias_type; eauto.
Qed.
Local Hint Resolve g_type_decl_mono : core.

Lemma g_item_type_decl_mono ts r x : g_item_type_decl d1 ts r x -> g_item_type_decl d2 ts r x.
Proof.
  intros H. destruct H.
  - eapply gi_resource_semi; eauto.
  - eapply gi_resource_body; eauto. eapply many_mono; [|eassumption]. apply g_resource_item_mono.
  - apply gi_type_decl. auto.
Qed.
Local Hint Resolve g_item_type_decl_mono : core.

Lemma g_use_mono ts r u : g_use d1 ts r u -> g_use d2 ts r u.
Proof.
  unfold g_use. intros H. ex. subst. exs; conj; eauto.
  match goal with H : _ \/ _ |- _ => destruct H; [left; assumption|right; auto] end.
Qed.
Local Hint Resolve g_use_mono : core.

Lemma g_func_type_ref_mono ts r f : g_func_type_ref d1 ts r f -> g_func_type_ref d2 ts r f.
Proof. intros H. destruct H; [apply gfr_func; auto|apply gfr_id; auto]. Qed.
Local Hint Resolve g_func_type_ref_mono : core.

Lemma g_interface_item_mono ts r x : g_interface_item d1 ts r x -> g_interface_item d2 ts r x.
Proof.
  intros H. destruct H.
  - apply gii_use; auto.
  - apply gii_type; auto.
  - eapply gii_export; eauto.
Qed.

Lemma g_interface_body_mono ts r x : g_interface_body d1 ts r x -> g_interface_body d2 ts r x.
Proof.
  unfold g_interface_body. intros H. ex. exs; conj; eauto.
  eapply many_mono; [|eassumption]. apply g_interface_item_mono.
Qed.
Local Hint Resolve g_interface_body_mono : core.

Lemma g_inline_interface_mono ts r x : g_inline_interface d1 ts r x -> g_inline_interface d2 ts r x.
Proof. unfold g_inline_interface. intros H. ex. exs; conj; eauto. Qed.
Local Hint Resolve g_inline_interface_mono : core.

Lemma g_extern_type_mono ts r x : g_extern_type d1 ts r x -> g_extern_type d2 ts r x.
Proof. intros H. destruct H; [apply get_func|apply get_interface|apply get_id]; auto. Qed.
Local Hint Resolve g_extern_type_mono : core.

Lemma g_world_item_path_mono ts r x : g_world_item_path d1 ts r x -> g_world_item_path d2 ts r x.
Proof. intros H. destruct H; [eapply gwp_named; eauto|apply gwp_package; auto|apply gwp_id; auto]. Qed.
Local Hint Resolve g_world_item_path_mono : core.

Lemma g_world_item_mono ts r x : g_world_item d1 ts r x -> g_world_item d2 ts r x.
Proof.
  intros H. destruct H.
  - apply gwi_use; auto.
  - apply gwi_type; auto.
  - eapply gwi_import; eauto.
  - eapply gwi_export; eauto.
  - eapply gwi_include; eauto. eapply opt_mono; [|eassumption]. cbn. intros ts0 r0 a Hopt. ex.
    exs; conj; eauto.
    match goal with H : _ \/ _ |- _ => destruct H; [left; assumption|right; auto] end.
Qed.

Lemma g_type_statement_mono ts r x : g_type_statement d1 ts r x -> g_type_statement d2 ts r x.
Proof.
  intros H. destruct H.
  - eapply gts_interface; eauto.
  - eapply gts_world; eauto. eapply many_mono; [|eassumption]. apply g_world_item_mono.
  - apply gts_type; auto.
Qed.
Local Hint Resolve g_type_statement_mono : core.

Lemma g_expr_mono :
  (forall ts r x, g_expr d1 ts r x -> g_expr d2 ts r x) /\
  (forall ts r x, g_primary d1 ts r x -> g_primary d2 ts r x) /\
  (forall ts r x, g_args d1 ts r x -> g_args d2 ts r x) /\
  (forall ts r x, g_arg d1 ts r x -> g_arg d2 ts r x).
Proof.
  apply (g_expr_all_ind d1 (fun ts r x => g_expr d2 ts r x) (fun ts r x => g_primary d2 ts r x)
                           (fun ts r x => g_args d2 ts r x) (fun ts r x => g_arg d2 ts r x)); intros.
  - eapply ge_expr; eauto.
  - eapply gp_new; try eassumption. now apply args_ok_mono.
  - eapply gp_nested; eauto.
  - apply gp_id; auto.
  - apply ga_nil.
  - apply ga_one; auto.
  - eapply ga_trail; eauto.
  - eapply ga_cons; eauto.
  - apply gar_inferred; auto.
  - eapply gar_spread; eauto.
  - eapply gar_named; eauto.
  - apply gar_fill; auto.
Qed.

Lemma g_expr_mono1 ts r x : g_expr d1 ts r x -> g_expr d2 ts r x.
Proof. apply g_expr_mono. Qed.
Local Hint Resolve g_expr_mono1 : core.

Lemma g_import_type_mono ts r x : g_import_type d1 ts r x -> g_import_type d2 ts r x.
Proof. intros H. destruct H; [apply git_package|apply git_func|apply git_interface|apply git_id]; auto. Qed.
Local Hint Resolve g_import_type_mono : core.

Lemma g_statement_mono ts r x : g_statement d1 ts r x -> g_statement d2 ts r x.
Proof.
  intros H. destruct H.
  - eapply gs_import; eauto.
  - apply gs_type; auto.
  - eapply gs_let; eauto.
  - eapply gs_export; eauto.
Qed.

Lemma g_document_mono ts r doc : g_document d1 ts r doc -> g_document d2 ts r doc.
Proof.
  unfold g_document. intros H. ex. subst. exs; conj; eauto.
  eapply many_mono; [|eassumption]. apply g_statement_mono.
Qed.

End Mono.

Lemma g_document_unique d ts doc1 doc2 : g_document d ts [] doc1 -> g_document d ts [] doc2 -> doc1 = doc2.
Proof.
  (* the parser is a function and complete for every derivation ([parse_document_items_complete]), so
     two derivations of one stream give one tree; the context only feeds error spans, any value does *)
  intros H1 H2.
  set (e := {| dv := d; cx := {| eof_tok := {| off := 0; slen := 0 |}; eof_la := {| off := 0; slen := 0 |} |};
               fuel := S (length ts) |}).
  pose proof (parse_document_items_complete e ts doc1 H1 ltac:(cbn; lia)) as P1.
  pose proof (parse_document_items_complete e ts doc2 H2 ltac:(cbn; lia)) as P2.
  congruence.
Qed.

Lemma g_document_mono_unique d1 d2 ts doc :
  flags_le d1 d2 -> g_document d1 ts [] doc ->
  g_document d2 ts [] doc /\ (forall doc', g_document d2 ts [] doc' -> doc' = doc).
Proof.
  intros Hle H. pose proof (g_document_mono d1 d2 Hle _ _ _ H) as H2. split; [exact H2|].
  intros doc' H'. exact (g_document_unique d2 ts doc' doc H' H2).
Qed.

(** [agree_outside_deviations]: a token stream derivable without any deviation is derivable
    in the documented grammar and in the implemented one, each derives exactly one tree from it, and
    it is the same tree. *)
Lemma agree_outside_deviations ts doc :
  g_document core_flags ts [] doc ->
  g_document doc_flags ts [] doc /\ g_document impl_flags ts [] doc /\
  (forall doc', g_document doc_flags ts [] doc' -> doc' = doc) /\
  (forall doc', g_document impl_flags ts [] doc' -> doc' = doc).
Proof.
  intros H.
  destruct (g_document_mono_unique core_flags doc_flags ts doc (core_le _) H) as [Hd Hdu].
  destruct (g_document_mono_unique core_flags impl_flags ts doc (core_le _) H) as [Hi Hiu]. auto.
Qed.
