(** NameMap::{insert,get}: exact match first, else the highest version on the track, whatever the
    insertion order. *)
From Coq Require Import Permutation.
From WacV Require Import Str Ord Semver Names NamesSpec ListFacts SemverProofs SemverText NamesProofs.

Section WithV.
Context {V : Type}.
Implicit Types (es : list (str * V)).

Lemma im_insert_snd {W} (m : list (str * W)) k v : snd (im_insert m k v) = im_get m k.
Proof.
  induction m as [|[k' v'] m IH]; cbn; auto.
  destruct (str_eqb k' k); cbn; auto. destruct (im_insert m k v); cbn in *; auto.
Qed.

Lemma im_get_insert {W} (m : list (str * W)) k v k' :
  im_get (fst (im_insert m k v)) k' = if str_eqb k k' then Some v else im_get m k'.
Proof.
  induction m as [|[k0 v0] m IH]; cbn.
  - reflexivity.
  - destruct (str_eqb k0 k) eqn:E; cbn.
    + apply str_eqb_eq in E; subst. destruct (str_eqb k k'); auto.
    + destruct (im_insert m k v) as [m' o] eqn:I; cbn in *. rewrite IH.
      destruct (str_eqb k k') eqn:E2; auto. apply str_eqb_eq in E2; subst. now rewrite E.
Qed.

Lemma im_insert_fresh {W} (m : list (str * W)) k v :
  im_get m k = None -> fst (im_insert m k v) = m ++ [(k, v)].
Proof.
  induction m as [|[k0 v0] m IH]; cbn; auto.
  destruct (str_eqb k0 k); try discriminate. intros H. apply IH in H.
  destruct (im_insert m k v); cbn in *. now rewrite H.
Qed.

Lemma im_get_none_iff {W} (m : list (str * W)) k : im_get m k = None <-> ~ In k (map fst m).
Proof.
  induction m as [|[k0 v0] m IH]; cbn; [tauto|].
  destruct (str_eqb_spec k0 k) as [->|NE]; [split; [discriminate|tauto]|]. rewrite IH. tauto.
Qed.

Lemma existsb_str_false k (l : list str) : existsb (str_eqb k) l = false <-> ~ In k l.
Proof.
  rewrite <- not_true_iff_false, existsb_exists. split; intros H X; apply H.
  - exists k. split; [exact X|apply str_eqb_refl].
  - destruct X as [k' [I E]]. apply str_eqb_eq in E. now subst k'.
Qed.

Lemma im_get_none_existsb {W} (m : list (str * W)) k :
  im_get m k = None <-> existsb (str_eqb k) (map fst m) = false.
Proof. rewrite existsb_str_false. apply im_get_none_iff. Qed.

Lemma im_get_app {W} (m1 m2 : list (str * W)) k :
  im_get (m1 ++ m2) k = match im_get m1 k with Some v => Some v | None => im_get m2 k end.
Proof.
  induction m1 as [|[k0 v0] m1 IH]; cbn; auto. destruct (str_eqb k0 k); auto.
Qed.

Lemma im_get_in {W} (m : list (str * W)) k v : im_get m k = Some v -> In (k, v) m.
Proof.
  induction m as [|[k0 v0] m IH]; cbn; try discriminate.
  destruct (str_eqb k0 k) eqn:E.
  - apply str_eqb_eq in E; subst. intros H; injection H as ->. auto.
  - auto.
Qed.

Lemma in_im_get {W} (m : list (str * W)) k v : NoDup (map fst m) -> In (k, v) m -> im_get m k = Some v.
Proof.
  induction m as [|[k0 v0] m IH]; cbn; [tauto|]. intros ND [E|Hin].
  - injection E as -> ->. now rewrite str_eqb_refl.
  - inversion ND as [|? ? Hn ND']; subst. destruct (str_eqb k0 k) eqn:E.
    + apply str_eqb_eq in E; subst. exfalso. apply Hn. apply (in_map fst) in Hin. exact Hin.
    + auto.
Qed.

Lemma find_exact_im_get es q : find_exact q es = im_get es q.
Proof. induction es as [|[n x] es IH]; cbn; auto. destruct (str_eqb n q); auto. Qed.

(** the alternate table after a history *)
Definition alt_step (k : str) (acc : option (str * version)) (e : str * V) : option (str * version) :=
  match alt_key (fst e) with
  | Some (k', v) =>
      if str_eqb k' k then
        match acc with
        | Some (pn, pv) => if version_ltb v pv then acc else Some (fst e, v)
        | None => Some (fst e, v)
        end
      else acc
  | None => acc
  end.
Definition alt_best (k : str) es : option (str * version) := fold_left (alt_step k) es None.

Lemma alt_best_snoc k es e : alt_best k (es ++ [e]) = alt_step k (alt_best k es) e.
Proof. unfold alt_best. now rewrite fold_left_app. Qed.

(** the invariant of [nm_build]: the definitions table is the list of accepted insertions, and the alternate table
    holds under each key the entry [alt_best] picks: the highest version inserted under that key, the later one on ties *)
Definition Rel (m : namemap V) es : Prop :=
  defs m = es /\ forall k, im_get (alts m) k = alt_best k es.

Lemma Rel_step m es op : Rel m es -> Rel (nm_step m op) (acc_step es op).
Proof.
  intros [Hd Ha]. destruct op as [name item]. unfold nm_step, nm_insert, acc_step. cbn [fst snd].
  destruct (im_insert (defs m) name item) as [d prev] eqn:I.
  assert (prev = im_get (defs m) name) as Hp by (rewrite <- im_insert_snd with (v := item); now rewrite I).
  destruct (existsb (str_eqb name) (map fst es)) eqn:X.
  - (* rejected: defined twice *)
    destruct prev as [p|]; [split; auto|].
    symmetry in Hp. apply im_get_none_existsb in Hp. congruence.
  - assert (im_get (defs m) name = None) as Hn by (apply im_get_none_existsb; congruence).
    rewrite Hn in Hp. subst prev.
    assert (d = es ++ [(name, item)]) as ->.
    { replace d with (fst (im_insert (defs m) name item)) by now rewrite I.
      rewrite im_insert_fresh by auto. now rewrite Hd. }
    destruct (alt_key name) as [[ak v]|] eqn:AK.
    + destruct (im_insert (alts m) ak (name, v)) as [a prevk] eqn:IA.
      assert (prevk = alt_best ak es) as Hpk.
      { rewrite <- Ha. rewrite <- im_insert_snd with (v := (name, v)). now rewrite IA. }
      assert (forall k, im_get a k = if str_eqb ak k then Some (name, v) else alt_best k es) as Hga.
      { intros k. replace a with (fst (im_insert (alts m) ak (name, v))) by now rewrite IA.
        rewrite im_get_insert. now rewrite Ha. }
      destruct prevk as [[pk pv]|].
      * destruct (version_ltb v pv) eqn:L; (split; [reflexivity|]); intros k; cbn [alts];
          rewrite alt_best_snoc; unfold alt_step; cbn [fst]; rewrite AK.
        -- rewrite im_get_insert, Hga. destruct (str_eqb ak k) eqn:E; auto.
           apply str_eqb_eq in E; subst k. rewrite <- Hpk. now rewrite L.
        -- rewrite Hga. destruct (str_eqb ak k) eqn:E; auto.
           apply str_eqb_eq in E; subst k. rewrite <- Hpk. now rewrite L.
      * split; [reflexivity|]. intros k; cbn [alts]. rewrite alt_best_snoc; unfold alt_step; cbn [fst]; rewrite AK.
        rewrite Hga. destruct (str_eqb ak k) eqn:E; auto.
        apply str_eqb_eq in E; subst k. now rewrite <- Hpk.
    + split; [reflexivity|]. intros k; cbn [alts]. rewrite alt_best_snoc; unfold alt_step; cbn [fst]; rewrite AK. apply Ha.
Qed.

Lemma Rel_fold ops : forall m es, Rel m es -> Rel (fold_left nm_step ops m) (fold_left acc_step ops es).
Proof.
  induction ops as [|op ops IH]; intros m es R; cbn; auto. apply IH, Rel_step, R.
Qed.

Lemma Rel_build (ops : list (str * V)) : Rel (nm_build ops) (accepted ops).
Proof. apply Rel_fold. split; auto. Qed.

Lemma acc_step_nodup es op : NoDup (map fst es) -> NoDup (map fst (acc_step es op)).
Proof.
  intros ND. unfold acc_step. destruct (existsb _ _) eqn:X; auto.
  rewrite map_app. cbn. apply NoDup_app_one; auto. apply existsb_str_false, X.
Qed.

Lemma accepted_nodup_gen ops : forall es, NoDup (map fst es) -> NoDup (map fst (fold_left acc_step ops es)).
Proof. induction ops as [|op ops IH]; intros es ND; cbn; auto. apply IH, acc_step_nodup, ND. Qed.

Lemma accepted_nodup (ops : list (str * V)) : NoDup (map fst (accepted ops)).
Proof. apply accepted_nodup_gen. constructor. Qed.

Lemma accepted_incl_gen ops : forall es e, In e (fold_left acc_step ops es) -> In e es \/ In e ops.
Proof.
  induction ops as [|op ops IH]; intros es e H; cbn in *; auto.
  apply IH in H as [H|H]; auto. unfold acc_step in H. destruct (existsb _ _); auto.
  apply in_app_or in H as [H|[H|[]]]; auto.
Qed.

Lemma accepted_incl (ops : list (str * V)) e : In e (accepted ops) -> In e ops.
Proof. intros H. apply accepted_incl_gen in H as [[]|H]; auto. Qed.

Lemma accepted_nodup_id_gen ops : forall es,
  NoDup (map fst (es ++ ops)) -> fold_left acc_step ops es = es ++ ops.
Proof.
  induction ops as [|op ops IH]; intros es ND; cbn.
  - now rewrite app_nil_r.
  - assert (existsb (str_eqb (fst op)) (map fst es) = false) as X.
    { apply existsb_str_false. intros Hin.
      rewrite map_app in ND. cbn in ND. apply NoDup_remove_2 in ND. apply ND. apply in_or_app; auto. }
    unfold acc_step at 2. rewrite X. rewrite IH.
    + now rewrite <- app_assoc.
    + now rewrite <- app_assoc.
Qed.

Lemma accepted_nodup_id (ops : list (str * V)) : NoDup (map fst ops) -> accepted ops = ops.
Proof. intros ND. unfold accepted. now rewrite accepted_nodup_id_gen. Qed.

Definition pick_max (best : option (version * V)) (c : version * V) : option (version * V) :=
  match best with
  | Some (bv, _) => if version_ltb (fst c) bv then best else Some c
  | None => Some c
  end.

(** candidates on the query's track *)
Fixpoint cands (q : str) es : list (version * V) :=
  match es with
  | [] => []
  | (n, x) :: r =>
      if same_track n q then
        match version_of n with Some v => (v, x) :: cands q r | None => cands q r end
      else cands q r
  end.

Lemma best_on_track_fold q es acc : best_on_track q es acc = fold_left pick_max (cands q es) acc.
Proof.
  revert acc. induction es as [|[n x] es IH]; intros acc; cbn; auto.
  destruct (same_track n q); auto. destruct (version_of n) as [v|]; auto.
  cbn. rewrite IH. unfold pick_max at 2. cbn. destruct acc as [[bv bx]|]; auto.
Qed.

Lemma cands_in q es v x : In (v, x) (cands q es) <->
  exists n, In (n, x) es /\ same_track n q = true /\ version_of n = Some v.
Proof.
  induction es as [|[n0 x0] es IH]; cbn.
  - split; [tauto|]. intros [n [[] _]].
  - destruct (same_track n0 q) eqn:S.
    + destruct (version_of n0) as [v0|] eqn:Vn; cbn; rewrite IH; split.
      * intros [E|[n [H1 H2]]]; [injection E as -> ->; exists n0; auto | exists n; auto].
      * intros [n [[E|H1] [H2 H3]]]; [injection E as -> ->; left; congruence | right; exists n; auto].
      * intros [n [H1 H2]]; exists n; auto.
      * intros [n [[E|H1] [H2 H3]]]; [injection E as -> ->; congruence | exists n; auto].
    + rewrite IH; split.
      * intros [n [H1 H2]]; exists n; auto.
      * intros [n [[E|H1] [H2 H3]]]; [injection E as -> ->; congruence | exists n; auto].
Qed.

Lemma version_ltb_lt a b : version_ltb a b = true <-> cmp_version a b = Lt.
Proof. unfold version_ltb. destruct (cmp_version a b); split; congruence. Qed.

Definition vle (a b : version) : Prop := cmp_version a b <> Gt.

Lemma vle_refl a : vle a a.
Proof. unfold vle. rewrite (tc_refl _ cmp_version_total). discriminate. Qed.

Lemma vle_trans a b c : vle a b -> vle b c -> vle a c.
Proof.
  pose proof cmp_version_total as T. unfold vle. intros H1 H2 G.
  destruct (cmp_version a b) eqn:E1; try congruence.
  - apply (tc_eq _ T) in E1. subst. contradiction.
  - destruct (cmp_version b c) eqn:E2; try congruence.
    + apply (tc_eq _ T) in E2. subst. congruence.
    + pose proof (tc_trans _ T _ _ _ E1 E2). congruence.
Qed.

Lemma not_lt_vle a b : version_ltb a b = false -> vle b a.
Proof.
  pose proof cmp_version_total as T. unfold version_ltb, vle. rewrite (tc_anti _ T a b).
  destruct (cmp_version a b); cbn; congruence.
Qed.

Lemma lt_vle a b : version_ltb a b = true -> vle a b.
Proof. unfold version_ltb, vle. destruct (cmp_version a b); congruence. Qed.

Lemma pick_max_spec acc c0 : exists m, pick_max acc c0 = Some m /\ (acc = Some m \/ m = c0) /\
  vle (fst c0) (fst m) /\ (forall a, acc = Some a -> vle (fst a) (fst m)).
Proof.
  unfold pick_max. destruct acc as [[bv bx]|].
  - destruct (version_ltb (fst c0) bv) eqn:L.
    + exists (bv, bx). repeat split; auto.
      * now apply lt_vle.
      * intros a E; injection E as <-. apply vle_refl.
    + exists c0. repeat split; auto.
      * apply vle_refl.
      * intros a E; injection E as <-. now apply not_lt_vle.
  - exists c0. repeat split; auto. apply vle_refl. discriminate.
Qed.

Lemma fold_max_spec (l : list (version * V)) : forall acc r,
  fold_left pick_max l acc = r ->
  (r = None -> acc = None /\ l = []) /\
  (forall c, r = Some c ->
     (acc = Some c \/ In c l) /\
     forall c', acc = Some c' \/ In c' l -> vle (fst c') (fst c)).
Proof.
  induction l as [|c0 l IH]; intros acc r H; cbn in H.
  - subst r. split; auto. intros c ->. split; auto. intros c' [E|[]]. injection E as ->. apply vle_refl.
  - destruct (pick_max_spec acc c0) as [m [Pm [Hm [L0 La]]]].
    apply IH in H as [H1 H2]. split.
    + intros E. apply H1 in E as [E _]. congruence.
    + intros c E. destruct (H2 c E) as [Hin Hmax]. split.
      * destruct Hin as [Hin|Hin]; [|right; right; exact Hin].
        rewrite Pm in Hin. injection Hin as <-. destruct Hm as [Hm| ->]; [left; exact Hm | right; left; reflexivity].
      * assert (vle (fst m) (fst c)) as Mc by (apply Hmax; left; exact Pm).
        intros c' [Hc'|[Hc'|Hc']].
        -- eapply vle_trans; [apply La; exact Hc' | exact Mc].
        -- subst c'. eapply vle_trans; eauto.
        -- apply Hmax. right. exact Hc'.
Qed.

(** "x is the value of an entry with the highest version among those compatible with q" *)
Definition is_highest es (q : str) (x : V) : Prop :=
  exists n v, In (n, x) es /\ same_track n q = true /\ version_of n = Some v /\
    forall n' x' v', In (n', x') es -> same_track n' q = true -> version_of n' = Some v' ->
                     vle v' v.

Lemma best_on_track_some q es v x :
  best_on_track q es None = Some (v, x) -> is_highest es q x.
Proof.
  rewrite best_on_track_fold. intros H. apply fold_max_spec in H as [_ H].
  destruct (H _ eq_refl) as [[F|Hin] Hmax]; try discriminate.
  apply cands_in in Hin as [n [H1 [H2 H3]]]. exists n, v. repeat split; auto.
  intros n' x' v' I1 I2 I3. apply (Hmax (v', x')). right. apply cands_in. exists n'; auto.
Qed.

Lemma best_on_track_none q es :
  best_on_track q es None = None ->
  forall n x, In (n, x) es -> same_track n q = true -> version_of n = None.
Proof.
  rewrite best_on_track_fold. intros H. apply fold_max_spec in H as [H _].
  destruct (H eq_refl) as [_ E]. intros n x Hin S.
  destruct (version_of n) as [v|] eqn:Vn; auto.
  assert (In (v, x) (cands q es)) as C by (apply cands_in; exists n; auto). rewrite E in C. destruct C.
Qed.

Lemma same_track_version n q : same_track n q = true -> exists v, version_of n = Some v.
Proof.
  unfold same_track, version_of. destruct (name_track n) as [[[b t] v]|]; try discriminate. eauto.
Qed.

Definition bstep (q : str) (best : option (version * V)) (e : str * V) : option (version * V) :=
  if same_track (fst e) q then
    match version_of (fst e), best with
    | Some v, Some (bv, _) => if version_ltb v bv then best else Some (v, snd e)
    | Some v, None => Some (v, snd e)
    | None, _ => best
    end
  else best.

Lemma best_on_track_cons q e es acc :
  best_on_track q (e :: es) acc = best_on_track q es (bstep q acc e).
Proof.
  destruct e as [n x]. unfold bstep. cbn. destruct (same_track n q); auto.
  destruct (version_of n); auto. destruct acc as [[bv bx]|]; auto.
Qed.

Definition RelAcc es_all (acc : option (str * version)) (acc' : option (version * V)) : Prop :=
  match acc, acc' with
  | None, None => True
  | Some (n, v), Some (v', x) => v = v' /\ im_get es_all n = Some x
  | _, _ => False
  end.

Lemma alt_best_vs_best q ak vq es_all : alt_key q = Some (ak, vq) -> NoDup (map fst es_all) ->
  forall es acc acc', incl es es_all -> RelAcc es_all acc acc' ->
    RelAcc es_all (fold_left (alt_step ak) es acc) (best_on_track q es acc').
Proof.
  intros AQ ND. induction es as [|[n0 x0] es IH]; intros acc acc' Hincl R.
  - exact R.
  - rewrite best_on_track_cons. cbn [fold_left].
    assert (In (n0, x0) es_all) as Hin0 by (apply Hincl; left; reflexivity).
    assert (incl es es_all) as Hincl' by (intros e He; apply Hincl; right; exact He).
    apply IH; auto. unfold alt_step, bstep. cbn [fst snd].
    destruct (alt_key n0) as [[k0 v0]|] eqn:A0.
    + rewrite (alt_key_same_track _ _ _ _ _ _ A0 AQ).
      destruct (same_track n0 q) eqn:S; auto.
      rewrite (alt_key_version _ _ _ A0). unfold RelAcc in *. destruct acc as [[pn pv]|], acc' as [[bv bx]|]; try contradiction.
      * destruct R as [-> R]. destruct (version_ltb v0 bv); auto. split; auto. now apply in_im_get.
      * split; auto. now apply in_im_get.
    + apply alt_key_none in A0. unfold same_track. rewrite A0. exact R.
Qed.

Lemma nm_get_Rel m es q : Rel m es -> NoDup (map fst es) ->
  nm_get m q = match im_get es q with
               | Some x => Some x
               | None => match best_on_track q es None with Some (_, x) => Some x | None => None end
               end.
Proof.
  intros [Hd Ha] ND. unfold nm_get. rewrite Hd.
  destruct (im_get es q) as [x|]; auto.
  destruct (alt_key q) as [[ak vq]|] eqn:AQ.
  - rewrite Ha. unfold alt_best.
    pose proof (alt_best_vs_best q ak vq es AQ ND es None None (incl_refl _) I) as H. unfold RelAcc in H.
    destruct (fold_left (alt_step ak) es None) as [[n v]|],
             (best_on_track q es None) as [[v' x]|]; try contradiction; auto.
    destruct H as [_ H]. exact H.
  - apply alt_key_none in AQ.
    assert (forall es' acc, best_on_track q es' acc = acc) as B.
    { induction es' as [|[n x] es' IH]; intros acc; cbn; auto.
      unfold same_track. rewrite AQ. destruct (name_track n) as [[[? ?] ?]|]; auto. }
    now rewrite B.
Qed.

Theorem nm_get_spec (ops : list (str * V)) q : nm_get (nm_build ops) q = spec_get ops q.
Proof.
  unfold spec_get. rewrite find_exact_im_get. exact (nm_get_Rel _ _ q (Rel_build ops) (accepted_nodup ops)).
Qed.

Theorem spec_get_exact (ops : list (str * V)) n x : In (n, x) (accepted ops) -> spec_get ops n = Some x.
Proof.
  intros H. unfold spec_get. rewrite find_exact_im_get.
  rewrite (in_im_get _ _ _ (accepted_nodup ops) H). reflexivity.
Qed.

Theorem spec_get_highest (ops : list (str * V)) q x :
  find_exact q (accepted ops) = None -> spec_get ops q = Some x -> is_highest (accepted ops) q x.
Proof.
  unfold spec_get. intros ->. destruct (best_on_track q (accepted ops) None) as [[v y]|] eqn:B; try discriminate.
  intros H; injection H as ->. eapply best_on_track_some; eauto.
Qed.

Theorem spec_get_none (ops : list (str * V)) q :
  spec_get ops q = None ->
  forall n x, In (n, x) (accepted ops) -> n <> q /\ same_track n q = false.
Proof.
  unfold spec_get. rewrite find_exact_im_get.
  destruct (im_get (accepted ops) q) as [y|] eqn:E; try discriminate.
  destruct (best_on_track q (accepted ops) None) as [[v y]|] eqn:B; try discriminate.
  intros _ n x Hin. split.
  - intros ->. rewrite (in_im_get _ _ _ (accepted_nodup ops) Hin) in E. discriminate.
  - destruct (same_track n q) eqn:S; auto.
    pose proof (best_on_track_none _ _ B _ _ Hin S) as Vn.
    apply same_track_version in S as [v Vn']. congruence.
Qed.

Theorem spec_get_sound (ops : list (str * V)) q x :
  spec_get ops q = Some x -> exists n, In (n, x) ops /\ compat n q = true.
Proof.
  intros H. destruct (find_exact q (accepted ops)) as [y|] eqn:E.
  - unfold spec_get in H. rewrite E in H. injection H as ->.
    rewrite find_exact_im_get in E. apply im_get_in in E.
    exists q. split; [now apply accepted_incl | apply compat_refl].
  - destruct (spec_get_highest ops q x E H) as [n [v [I [S _]]]].
    exists n. split; [now apply accepted_incl|].
    rewrite compat_is_spec_b. unfold compat_spec_b. rewrite S. apply orb_true_r.
Qed.

(** equal versions on one track mean equal names, so the highest entry is unique up to repeated names *)
Lemma highest_unique_consistent es q x x' :
  (forall n a b, In (n, a) es -> In (n, b) es -> a = b) -> is_highest es q x -> is_highest es q x' -> x = x'.
Proof.
  pose proof cmp_version_total as T.
  intros C [n [v [I1 [S1 [V1 M1]]]]] [n' [v' [I2 [S2 [V2 M2]]]]].
  pose proof (M1 _ _ _ I2 S2 V2) as A. pose proof (M2 _ _ _ I1 S1 V1) as B. unfold vle in A, B.
  assert (v = v') as <-.
  { destruct (cmp_version v v') eqn:E.
    - now apply (tc_eq _ T).
    - rewrite (tc_anti _ T), E in A. cbn in A. congruence.
    - congruence. }
  assert (n = n') as <-.
  { apply (same_track_same_version_name n n' v); [|exact V1|exact V2].
    apply (same_track_trans n q n' S1). rewrite same_track_sym. exact S2. }
  exact (C n x x' I1 I2).
Qed.

Lemma highest_unique es q x x' :
  NoDup (map fst es) -> is_highest es q x -> is_highest es q x' -> x = x'.
Proof. intros ND. apply highest_unique_consistent. intros n a b. apply NoDup_keys_inj, ND. Qed.

Lemma is_highest_perm es es' q x : Permutation es es' -> is_highest es q x -> is_highest es' q x.
Proof.
  intros P [n [v [I [S [Vn M]]]]]. exists n, v. repeat split; auto.
  - eapply Permutation_in; eauto.
  - intros n' x' v' I'. apply (M n' x' v'). eapply Permutation_in; [apply Permutation_sym|]; eauto.
Qed.

Theorem spec_get_order_indep (ops ops' : list (str * V)) q :
  Permutation ops ops' -> NoDup (map fst ops) -> spec_get ops q = spec_get ops' q.
Proof.
  intros P ND.
  assert (NoDup (map fst ops')) as ND' by (eapply Permutation_NoDup; [apply Permutation_map|]; eauto).
  unfold spec_get. rewrite !accepted_nodup_id by auto. rewrite !find_exact_im_get.
  destruct (im_get ops q) as [x|] eqn:E.
  - apply im_get_in in E. eapply Permutation_in in E; eauto.
    now rewrite (in_im_get _ _ _ ND' E).
  - destruct (im_get ops' q) as [x'|] eqn:E'.
    + apply im_get_in in E'. eapply Permutation_in in E'; [|apply Permutation_sym; eauto].
      rewrite (in_im_get _ _ _ ND E') in E. discriminate.
    + destruct (best_on_track q ops None) as [[v x]|] eqn:B, (best_on_track q ops' None) as [[v' x']|] eqn:B'; auto.
      * apply best_on_track_some in B, B'. f_equal.
        eapply highest_unique; [exact ND'| |exact B']. eapply is_highest_perm; eauto.
      * exfalso. apply best_on_track_some in B as [n [v0 [I [S [Vn _]]]]].
        eapply Permutation_in in I; eauto.
        pose proof (best_on_track_none _ _ B' _ _ I S). congruence.
      * exfalso. apply best_on_track_some in B' as [n [v0 [I [S [Vn _]]]]].
        eapply Permutation_in in I; [|apply Permutation_sym; eauto].
        pose proof (best_on_track_none _ _ B _ _ I S). congruence.
Qed.

End WithV.
