(** C04: every graph the resolver builds is reachable by [Graph.step]s from the empty
    graph, hence satisfies the C06 invariant; the arguments of a new instantiation are exactly the
    entries of its argument table. *)
From Coq Require Import List Arith Bool NArith Lia.
From WacV Require Import Str Token Lexer Semver Names Ast Graph Resolver LangSpec ResolverProofs ResolverNew GraphInv GraphTheorems.
Import ListNotations.
Local Open Scope nat_scope.

Section Pres.
  Variable u : runiverse.
  Variable self_name : str.
  (** a property of graphs that every graph operation preserves *)
  Variable P : gstate -> Prop.
  Hypothesis Pstep : forall g o, P g -> P (fst (step u g o)).

  Definition mpres {A} (m : M A) : Prop :=
    forall st x st', m st = inl (x, st') -> P (rs_g st) -> P (rs_g st').

  Definition args_pres (evalf : expr -> M nat) (args : list inst_arg) : Prop :=
    Forall (fun a => match a with ANamed _ e => mpres (evalf e) | _ => True end) args.

  Definition keeps (st st' : rstate) : Prop := P (rs_g st) -> P (rs_g st').

  Lemma keeps_refl st : keeps st st.
  Proof. intros H. exact H. Qed.

  Lemma keeps_trans a b c : keeps a b -> keeps b c -> keeps a c.
  Proof. intros H1 H2 H. exact (H2 (H1 H)). Qed.

  Lemma keeps_step o st : builds o = true -> keeps st {| rs_g := fst (step u (rs_g st) o); rs_scope := rs_scope st |}.
  Proof. intros _ H. exact (Pstep _ o H). Qed.

  Theorem mpres_eval_expr e : mpres (eval_expr u self_name e).
  Proof. exact (mrel_eval_expr u self_name keeps keeps_refl keeps_trans keeps_step e). Qed.

  Lemma mpres_statements l : mpres (statements u self_name l).
  Proof. exact (mrel_statements u self_name keeps keeps_refl keeps_trans keeps_step (fun _ _ H => H) l). Qed.
End Pres.

Definition reachable (u : universe) (g : gstate) : Prop := exists ops, g = run u ops.

Lemma reachable_step (u : universe) g o : reachable u g -> reachable u (fst (step u g o)).
Proof. intros [ops ->]. exists (ops ++ [o]). now rewrite run_app. Qed.

Theorem resolve_reachable (u : runiverse) d st : resolve u d = inl st -> reachable u (rs_g st).
Proof.
  unfold resolve. destruct (statements u _ (doc_statements d) init_state) as [[[] s]|f] eqn:E; [|discriminate].
  destruct (pd_targets (doc_directive d)); [discriminate|]. intros [= <-].
  eapply (mpres_statements u _ (reachable u) (reachable_step u)); eauto. exists []. reflexivity.
Qed.

Corollary resolve_inv (u : runiverse) d st : resolve u d = inl st -> Inv u (rs_g st).
Proof. intros H. destruct (resolve_reachable u d st H) as [ops ->]. apply reach_inv. Qed.

Section Exact.
  Variable u : runiverse.
  Variable self_name : str.

  (** no edge leads to a node that does not exist yet, so the arguments of a fresh instantiation
      after [set_args] are the edges [set_args] added: entries of the table *)
  Lemma fresh_args_in_table id inst t s2 s3 st' :
    nofree (rs_g s2) -> Inv u (rs_g s2) ->
    instantiate u (rs_g s2) id = (rs_g s3, ONode inst) -> set_args u inst t s3 = inl (tt, st') ->
    forall a src, In (a, src) (get_args u (rs_g st') inst) -> exists nm at_, In (nm, (src, at_)) t /\ a = ru_intern u nm.
  Proof.
    intros [F2 _] I2 H3 H4.
    unfold instantiate in H3. destruct (pkg_desc u (rs_g s2) id) as [pd2|] eqn:PD2; [|discriminate].
    destruct (add_node (rs_g s2) (mk_node (NInst []) (pd_inst pd2) (Some id))) as [g3 idx] eqn:A.
    injection H3 as E3 Ei. subst idx.
    apply add_node_nofree in A as (Ei & Hn & _ & He & _ & _ & _ & Hp & _); auto.
    assert (NI3 : node_imports u (rs_g s3) inst (pd_imports pd2)).
    { exists (mk_node (NInst []) (pd_inst pd2) (Some id)). rewrite <- E3. split.
      - rewrite get_node_getn, Hn, getn_app_one, Ei, Nat.eqb_refl. reflexivity.
      - unfold inst_imports, mk_node. cbn [npkg]. unfold pkg_desc, get_pkg in *. rewrite Hp. now rewrite PD2. }
    destruct (set_args_spec u inst t _ _ H4) as (_ & _ & KeepI & Ed). pose proof (KeepI _ _ NI3) as NI4.
    intros a src Hin. apply get_args_has_arg in Hin as (nd' & sat & imps' & e & i & k & G' & K' & Im' & He' & T & Sr & Ke & Nt).
    destruct NI4 as (nd4 & G4 & Im4). rewrite G' in G4. injection G4 as <-. rewrite Im' in Im4. injection Im4 as ->.
    destruct (Ed _ e NI3 He') as [Hold|(nm & n & at_ & index & k' & Hin & Nt' & ->)].
    - exfalso. rewrite <- E3, He in Hold. destruct (inv_edges_live _ _ I2 e Hold) as [_ L].
      unfold live in L. destruct (get_node (rs_g s2) (etgt e)) eqn:GE; [|discriminate].
      apply get_node_lt in GE. lia.
    - cbn in Sr, Ke. injection Ke as <-. rewrite Nt' in Nt. injection Nt as <- _. subst src. eauto.
  Qed.

  (** C04 1b. Argument binding, both directions.  As [new_expr_binding], and conversely every argument of
      the new instantiation in the resulting graph is the entry of the table under that name. *)
  Theorem new_expr_binding_exact evalf pkg args st inst st' :
    new_expr u self_name evalf pkg args st = inl (inst, st') ->
    args_framed evalf args -> args_pres (Inv u) evalf args ->
    nofree (rs_g st) -> Inv u (rs_g st) ->
    exists id pd t1 req recs t2,
      pkg_desc u (rs_g st') id = Some pd /\
      (forall nm n at_, im_get t2 nm = Some (n, at_) -> In (ru_intern u nm, n) (get_args u (rs_g st') inst)) /\
      (forall a src, In (a, src) (get_args u (rs_g st') inst) ->
         exists nm at_, In (nm, (src, at_)) t2 /\ a = ru_intern u nm) /\
      (NoDup (map fst (text_items u (pd_imports pd))) ->
        NoDup (map fst t1) /\ length t1 = length (filter is_explicit_arg args) /\
        req = negb (existsb is_fill_arg args) /\
        (forall pre sp post, args = pre ++ AFill sp :: post -> post = []) /\
        map sr_id recs = spread_idents args /\
        spreads_from u (map fst (text_items u (pd_imports pd))) t1 recs t2 /\
        (forall i, In i (map fst (text_items u (pd_imports pd))) ->
           match bind_import t1 (map to_src recs) (negb req) i with
           | BExplicit x => im_get t2 i = Some x
           | BSpread sp => exists n, im_get t2 i = Some (n, snd (sp_val sp)) /\ alias_witness u (fst (sp_val sp)) i n
           | BImplicit => im_get t2 i = None
           | BMissing => False
           end)).
  Proof.
    intros H HF HP NF HI.
    apply new_expr_inl in H as (_ & id & s0 & pd & t1 & req & s1 & t2 & s2 & s3 & H0 & PD & H1 & H2 & H3 & Sc3 & H4 & HM).
    destruct (new_expr_binding_at u evalf pkg args st id s0 pd t1 req s1 t2 s2 s3 inst st' H0 PD H1 H2 H3 H4 HM HF NF)
      as (recs & PD' & Fwd & Rest).
    exists id, pd, t1, req, recs, t2. split; [exact PD'|]. split; [exact Fwd|]. split; [|exact Rest].
    (* the frame and the invariant up to the instantiation *)
    destruct (mrel_new_prefix u framed framed_refl framed_trans (framed_step u) HF H0 H1 H2 NF) as [G2 _].
    pose proof (mrel_new_prefix u _ (keeps_refl _) (keeps_trans _) (keeps_step u _ (step_inv u)) HP H0 H1 H2 HI) as I2.
    exact (fresh_args_in_table id inst t2 s2 s3 st' (gf_free _ _ G2) I2 H3 H4).
  Qed.
End Exact.
