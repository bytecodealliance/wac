(** Concrete aggregation histories (the same case lines are in corpus/C09/cases.txt and are replayed on the real
    aggregator by every run of the check): refutations of the general statements, and non-vacuity of the partial ones.
    The definitions transcribe the case lines; strings are code-point lists. *)
From Coq Require Import Permutation.
From WacV Require Import Str Names NamesSpec Types Checker SubSpec Aggregator AggregatorSpec.
From WacV Require Import AggregatorFrame AggregatorRemap AggregatorFlat AggregatorHistory.

Definition w_nested_t0 : types :=
  mktypes 1 [] [] [mkfunc [] (None) false]
    [mkif (None) [] [([97], KFunc (mkid 1 0))];
     mkif (None) [] [([110], KInstance (mkid 1 0))]] [] [].
Definition w_nested_t1 : types :=
  mktypes 2 [] [] [mkfunc [] (None) false]
    [mkif (None) [] [([97], KFunc (mkid 2 0));([98], KFunc (mkid 2 0))];
     mkif (None) [] [([110], KInstance (mkid 2 0))]] [] [].
Definition w_nested : list (str * (types * kind)) :=
  [([102;111;111], (w_nested_t0, KInstance (mkid 1 1)));
   ([102;111;111], (w_nested_t1, KInstance (mkid 2 1)))].

Definition w_disjoint_t0 : types :=
  mktypes 1 [] [] [mkfunc [] (None) false]
    [mkif (None) [] [([97], KFunc (mkid 1 0))];
     mkif (None) [] [([110], KInstance (mkid 1 0))]] [] [].
Definition w_disjoint_t1 : types :=
  mktypes 2 [] [] [mkfunc [] (None) false]
    [mkif (None) [] [([98], KFunc (mkid 2 0))];
     mkif (None) [] [([110], KInstance (mkid 2 0))]] [] [].
Definition w_disjoint : list (str * (types * kind)) :=
  [([102;111;111], (w_disjoint_t0, KInstance (mkid 1 1)));
   ([102;111;111], (w_disjoint_t1, KInstance (mkid 2 1)))].

Definition w_order_t0 : types :=
  mktypes 1 [] [] [mkfunc [] (None) false]
    [mkif (None) [] [([97], KFunc (mkid 1 0))];
     mkif (None) [] [([110], KInstance (mkid 1 0))]] [] [].
Definition w_order_t1 : types :=
  mktypes 2 [] [] [mkfunc [] (None) false]
    [mkif (None) [] [([97], KFunc (mkid 2 0));([98], KFunc (mkid 2 0))];
     mkif (None) [] [([110], KInstance (mkid 2 0))]] [] [].
Definition w_order_t2 : types :=
  mktypes 3 [] [] [mkfunc [] (None) false;
     mkfunc [([120], VPrim PU8)] (None) false]
    [mkif (None) [] [([97], KFunc (mkid 3 0));([98], KFunc (mkid 3 1))];
     mkif (None) [] [([110], KInstance (mkid 3 0))]] [] [].
Definition w_order : list (str * (types * kind)) :=
  [([102;111;111], (w_order_t0, KInstance (mkid 1 1)));
   ([102;111;111], (w_order_t1, KInstance (mkid 2 1)));
   ([102;111;111], (w_order_t2, KInstance (mkid 3 1)))].

Definition w_comp_t0 : types :=
  mktypes 1 [] [] [mkfunc [] (None) false]
    [] [mkworld (None) [] [([105], KFunc (mkid 1 0))] []] [].
Definition w_comp_t1 : types :=
  mktypes 2 [] [] []
    [] [mkworld (None) [] [] []] [].
Definition w_comp_t2 : types :=
  mktypes 3 [] [] [mkfunc [([120], VPrim PU8)] (None) false]
    [] [mkworld (None) [] [([106], KFunc (mkid 3 0))] []] [].
Definition w_comp : list (str * (types * kind)) :=
  [([102;111;111], (w_comp_t0, KComponent (mkid 1 0)));
   ([102;111;111], (w_comp_t1, KComponent (mkid 2 0)));
   ([102;111;111], (w_comp_t2, KComponent (mkid 3 0)))].

Definition w_panic_t0 : types :=
  mktypes 1 [] [] []
    [mkif (None) [] [([116], KType (TValue (VPrim PU8)))]] [] [].
Definition w_panic_t1 : types :=
  mktypes 2 [DAlias (VPrim PU8)] [] [mkfunc [([120], VDefined (mkid 2 0))] (None) false]
    [mkif (None) [] [([116], KType (TValue (VDefined (mkid 2 0))));([103], KFunc (mkid 2 0))]] [] [].
Definition w_panic : list (str * (types * kind)) :=
  [([102;111;111], (w_panic_t0, KInstance (mkid 1 0)));
   ([102;111;111], (w_panic_t1, KInstance (mkid 2 0)))].

Definition w_owner_t0 : types :=
  mktypes 1 [] [mkres [114] (None)] []
    [mkif (Some [100;101;112;58;112;47;116;121;112;101;115;64;48;46;50;46;48]) [] [([114], KType (TResource (mkid 1 0)))]] [] [].
Definition w_owner_t1 : types :=
  mktypes 2 [] [mkres [114] (None)] []
    [mkif (Some [100;101;112;58;112;47;116;121;112;101;115;64;48;46;50;46;49]) [] [([114], KType (TResource (mkid 2 0)))]] [] [].
Definition w_owner_t2 : types :=
  mktypes 3 [] [mkres [114] (None);
     mkres [114] (Some (Some (mkid 3 0), mkid 3 0))] [mkfunc [] (Some (VOwn (mkid 3 1))) false]
    [mkif (Some [100;101;112;58;112;47;116;121;112;101;115;64;48;46;50;46;48]) [] [([114], KType (TResource (mkid 3 0)))];
     mkif (Some [109;121;58;112;47;105;64;49;46;48;46;48]) [([114], (mkid 3 0, None))] [([114], KType (TResource (mkid 3 1)));([109;107], KFunc (mkid 3 0))]] [] [].
Definition w_owner_t3 : types :=
  mktypes 4 [] [mkres [114] (None)] []
    [mkif (Some [100;101;112;58;112;47;116;121;112;101;115;64;48;46;50;46;51]) [] [([114], KType (TResource (mkid 4 0)))]] [] [].
Definition w_owner : list (str * (types * kind)) :=
  [([100;101;112;58;112;47;116;121;112;101;115;64;48;46;50;46;48], (w_owner_t0, KInstance (mkid 1 0)));
   ([100;101;112;58;112;47;116;121;112;101;115;64;48;46;50;46;49], (w_owner_t1, KInstance (mkid 2 0)));
   ([109;121;58;112;47;105;64;49;46;48;46;48], (w_owner_t2, KInstance (mkid 3 1)));
   ([100;101;112;58;112;47;116;121;112;101;115;64;48;46;50;46;51], (w_owner_t3, KInstance (mkid 4 0)))].

Definition w_shared_t0 : types :=
  mktypes 1 [] [] [mkfunc [] (None) false]
    [mkif (Some [120;58;121;47;122;64;50;46;48;46;48]) [] [([102], KFunc (mkid 1 0))]] [] [].
Definition w_shared_t1 : types :=
  mktypes 2 [] [] [mkfunc [] (None) false]
    [mkif (Some [120;58;121;47;122;64;50;46;48;46;48]) [] [([103], KFunc (mkid 2 0))]] [] [].
Definition w_shared_t2 : types :=
  mktypes 3 [] [] [mkfunc [] (None) false]
    [mkif (None) [] [([104], KFunc (mkid 3 0))]] [] [].
Definition w_shared : list (str * (types * kind)) :=
  [([120;58;121;47;122;64;50;46;48;46;48], (w_shared_t0, KInstance (mkid 1 0)));
   ([98;97;114], (w_shared_t1, KInstance (mkid 2 0)));
   ([98;97;114], (w_shared_t2, KInstance (mkid 3 0)))].

Definition w_flat_t0 : types :=
  mktypes 1 [] [] [mkfunc [] (None) false]
    [mkif (Some [97;58;98;47;99;64;48;46;50;46;49]) [] [([102], KFunc (mkid 1 0))]] [] [].
Definition w_flat_t1 : types :=
  mktypes 2 [] [] [mkfunc [([120], VPrim PU8)] (None) false]
    [mkif (Some [97;58;98;47;99;64;48;46;50;46;48]) [] [([103], KFunc (mkid 2 0))]] [] [].
Definition w_flat_t2 : types :=
  mktypes 3 [] [] [mkfunc [] (None) false;
     mkfunc [] (Some (VPrim PString)) false]
    [mkif (Some [97;58;98;47;99;64;48;46;50;46;51]) [] [([102], KFunc (mkid 3 0));([104], KFunc (mkid 3 1))]] [] [].
Definition w_flat : list (str * (types * kind)) :=
  [([97;58;98;47;99;64;48;46;50;46;49], (w_flat_t0, KInstance (mkid 1 0)));
   ([97;58;98;47;99;64;48;46;50;46;48], (w_flat_t1, KInstance (mkid 2 0)));
   ([97;58;98;47;99;64;48;46;50;46;51], (w_flat_t2, KInstance (mkid 3 0)))].

Definition run (l : list (str * (types * kind))) := aggregate_all (fun x => x) 40 60 (agg0 0) st0 l 0.
Definition rev_run (l : list (str * (types * kind))) := aggregate_all (@rev _) 40 60 (agg0 0) st0 l 0.

(** the merged requirement of [n] and the requirement of contributor [c], as trees *)
Definition merged_tree (a : agg) (n : str) : option tree :=
  match assoc (Aggregator.canonical a n) (imports a) with
  | Some m => unfold 40 (a_types a) m
  | None => None
  end.
Definition req_tree (c : str * (types * kind)) : option tree := unfold 40 (fst (snd c)) (snd (snd c)).

Definition dflt : str * (types * kind) := (nil, (w_nested_t0, KValue (VPrim PU8))).
(** split conjunctions only ([split] on an equation would try to convert both sides with the lazy machine) *)
Ltac conj_vc := repeat (match goal with |- _ /\ _ => split; [vm_compute; reflexivity|] end); vm_compute; reflexivity.

(** * 1. Regression (repository commits 0bf540d, 874f221): nested instances are merged by union, the aliased primitive
      no longer panics.  Before the repairs [w_nested] gave a merged type that the second contributor's requirement was
      not satisfied by, [w_disjoint] failed, [w_order] succeeded in some orders only, [w_panic] panicked. *)
Example nested_now_united :
  exists a s tm, run w_nested = inl (a, s) /\ merged_tree a [102;111;111] = Some tm /\
                 forall c, In c w_nested -> exists tr, req_tree c = Some tr /\ sub_b tm tr = true.
Proof.
  eexists _, _, _. split; [vm_compute; reflexivity|]. split; [vm_compute; reflexivity|].
  unfold w_nested. intros c [<-|[<-|[]]]; eexists; (split; [vm_compute; reflexivity|]); vm_compute; reflexivity.
Qed.
Example disjoint_now_united :
  exists a s tm, run w_disjoint = inl (a, s) /\ merged_tree a [102;111;111] = Some tm /\
                 forall c, In c w_disjoint -> exists tr, req_tree c = Some tr /\ sub_b tm tr = true.
Proof.
  eexists _, _, _. split; [vm_compute; reflexivity|]. split; [vm_compute; reflexivity|].
  unfold w_disjoint. intros c [<-|[<-|[]]]; eexists; (split; [vm_compute; reflexivity|]); vm_compute; reflexivity.
Qed.
(** a genuine conflict below a nested instance fails in every order that was explored here *)
Example nested_conflict_fails :
  (exists p e, run w_order = inr (p, AErr e)) /\
  (exists p e, run [nth 1 w_order dflt; nth 2 w_order dflt; nth 0 w_order dflt] = inr (p, AErr e)) /\
  (exists p e, run [nth 2 w_order dflt; nth 0 w_order dflt; nth 1 w_order dflt] = inr (p, AErr e)).
Proof. split; [|split]; eexists _, _; vm_compute; reflexivity. Qed.
Example alias_primitive_no_panic :
  exists a s tm, run w_panic = inl (a, s) /\ merged_tree a [102;111;111] = Some tm /\
                 forall c, In c w_panic -> exists tr, req_tree c = Some tr /\ sub_b tm tr = true.
Proof.
  eexists _, _, _. split; [vm_compute; reflexivity|]. split; [vm_compute; reflexivity|].
  unfold w_panic. intros c [<-|[<-|[]]]; eexists; (split; [vm_compute; reflexivity|]); vm_compute; reflexivity.
Qed.

(** * 2. The merged type is not an upper bound in general: component requirements with different imports
      (no contributor is satisfied) *)
Theorem upper_bound_witness_component :
  exists a s tm, run w_comp = inl (a, s) /\ merged_tree a [102;111;111] = Some tm /\
                 forall c, In c w_comp -> exists tr, req_tree c = Some tr /\ sub_b tm tr = false.
Proof.
  eexists _, _, _. split; [vm_compute; reflexivity|]. split; [vm_compute; reflexivity|].
  unfold w_comp. intros c [<-|[<-|[<-|[]]]]; eexists; (split; [vm_compute; reflexivity|]); vm_compute; reflexivity.
Qed.

(** * 3. Success depends on the order, and failure without a conflict: one interface identifier under two import names.
      x: interface `d` {f: func()};  y: anonymous {f: func(x: u8)};  y: interface `d` {g: func()}.
      In the order x, y, y the third contribution is merged into y's own interface; in the order x, y(d), y the
      second one is unified with x's interface `d`, y denotes that interface, and the third conflicts with x's `f`. *)
Definition w_ids_t0 : types := mktypes 1 [] [] [mkfunc [] None false] [mkif (Some [100]) [] [([102], KFunc (mkid 1 0))]] [] [].
Definition w_ids_t1 : types := mktypes 2 [] [] [mkfunc [([120], VPrim PU8)] None false] [mkif None [] [([102], KFunc (mkid 2 0))]] [] [].
Definition w_ids_t2 : types := mktypes 3 [] [] [mkfunc [] None false] [mkif (Some [100]) [] [([103], KFunc (mkid 3 0))]] [] [].
Definition w_ids : list (str * (types * kind)) :=
  [([120], (w_ids_t0, KInstance (mkid 1 0))); ([121], (w_ids_t1, KInstance (mkid 2 0))); ([121], (w_ids_t2, KInstance (mkid 3 0)))].
Definition w_ids' : list (str * (types * kind)) := [nth 0 w_ids dflt; nth 2 w_ids dflt; nth 1 w_ids dflt].
Theorem order_witness :
  exists l l', Permutation l l' /\ (exists a s, run l = inl (a, s)) /\ (exists p e, run l' = inr (p, AErr e)).
Proof.
  exists w_ids, w_ids'. split; [unfold w_ids', w_ids; cbn [nth]; apply perm_skip; apply perm_swap|].
  split; eexists _, _; vm_compute; reflexivity.
Qed.
(** the failing order has no conflict: the first contribution is alone under its name, the other two share a name and have
    a merge that satisfies both *)
Theorem failure_witness_shared :
  exists l p e tb tc tm, run l = inr (p, AErr e) /\ length l = 3%nat /\
    str_eqb (fst (nth 0 l dflt)) (fst (nth 1 l dflt)) = false /\ str_eqb (fst (nth 1 l dflt)) (fst (nth 2 l dflt)) = true /\
    compat_spec_b (fst (nth 0 l dflt)) (fst (nth 1 l dflt)) = false /\
    req_tree (nth 1 l dflt) = Some tb /\ req_tree (nth 2 l dflt) = Some tc /\
    tmerge tb tc = Some tm /\ sub_b tm tb = true /\ sub_b tm tc = true.
Proof. exists w_ids'. eexists _, _, _, _, _. conj_vc. Qed.

(** * 4. Owned resources: two imports on one track, and a second round changes the state *)
Theorem owner_witness :
  exists a s k1 k2, run w_owner = inl (a, s) /\ In k1 (map fst (imports a)) /\ In k2 (map fst (imports a)) /\
                    str_eqb k1 k2 = false /\ compat_spec_b k1 k2 = true /\
                    exists a2 s2, aggregate_all (fun x => x) 40 60 a s w_owner 0 = inl (a2, s2) /\
                                  list_eqb str_eqb (map fst (imports a2)) (map fst (imports a)) = false.
Proof.
  eexists _, _, _, _. split; [vm_compute; reflexivity|].
  split; [vm_compute; left; reflexivity|]. split; [vm_compute; right; right; left; reflexivity|].
  split; [vm_compute; reflexivity|]. split; [vm_compute; reflexivity|].
  eexists _, _. split; [vm_compute; reflexivity|]. vm_compute; reflexivity.
Qed.

(** * 5. One interface identifier under two import names: the name -> tree map depends on the order *)
Theorem shared_id_witness :
  exists l l' a s a' s' n t t', Permutation l l' /\ run l = inl (a, s) /\ run l' = inl (a', s') /\
                                merged_tree a n = Some t /\ merged_tree a' n = Some t' /\ sub_b t' t = false.
Proof.
  exists w_shared, [nth 0 w_shared dflt; nth 2 w_shared dflt; nth 1 w_shared dflt].
  eexists _, _, _, _, [120;58;121;47;122;64;50;46;48;46;48], _, _.
  split; [unfold w_shared; cbn [nth]; apply perm_skip; apply perm_swap|].
  conj_vc.
Qed.

(** * 6. Non-vacuity of the partial theorems: three versions of one track, owner-free *)
Lemma w_flat_owner_free : Forall (fun c : str * (types * kind) => owner_free (fst (snd c))) w_flat.
Proof. repeat constructor; intros r H; cbn in H; contradiction. Qed.
Definition n_023 : str := [97;58;98;47;99;64;48;46;50;46;51].          (* a:b/c@0.2.3 *)
Example flat_run :
  exists a s, run w_flat = inl (a, s) /\
              map fst (imports a) = [n_023] /\
              map (Aggregator.canonical a) (map fst w_flat) = [n_023; n_023; n_023] /\
              map (spec_canonical (map fst w_flat)) (map fst w_flat) = [n_023; n_023; n_023] /\
              rev_run w_flat = inl (a, s).
Proof. eexists _, _. conj_vc. Qed.

(** * 7. Non-vacuity of the flat theorems: the three versions of [w_flat] (interfaces identified by their import name) *)
Definition flat_col (t : types) : Prop := t = w_flat_t0 \/ t = w_flat_t1 \/ t = w_flat_t2.
Lemma flat_col_same t1 t2 : flat_col t1 -> flat_col t2 -> t_tag t1 = t_tag t2 -> t1 = t2.
Proof. intros [->|[->| ->]] [->|[->| ->]]; cbn; auto; discriminate. Qed.
Lemma flat_col_tag t : flat_col t -> t_tag t <> 0.
Proof. intros [->|[->| ->]]; cbn; discriminate. Qed.
Lemma w_flat_flat : Forall (flat_contrib flat_col) w_flat.
Proof.
  assert (OF : forall t, t_resources t = [] -> owner_free t) by (intros t E r H; rewrite E in H; contradiction).
  assert (Hleaf : forall t (n : str) f g tr, unfold g t (KFunc f) = Some tr -> resfree tr = true ->
                                     forall n0 k, In (n0, k) [(n, KFunc f)] ->
                                                  leafk k = true /\ exists tr, UnfK t k tr /\ resfree tr = true).
  { intros t n f g tr Hu Hr n0 k [E|[]]. injection E as <- <-. split; auto. exists tr. split; auto. now exists g. }
  unfold w_flat. constructor; [|constructor; [|constructor; [|constructor]]]; unfold flat_contrib; cbn [fst snd].
  - split; [left; reflexivity|]. split; [apply OF; reflexivity|].
    eexists (mkid 1 0), _. split; [reflexivity|]. split; [reflexivity|]. split; [|right; reflexivity].
    split; [reflexivity|]. split.
    + repeat constructor. cbn. tauto.
    + cbn [i_exports]. apply (Hleaf _ _ _ 3%nat (XFunc (mkft [] None false))); reflexivity.
  - split; [right; left; reflexivity|]. split; [apply OF; reflexivity|].
    eexists (mkid 2 0), _. split; [reflexivity|]. split; [reflexivity|]. split; [|right; reflexivity].
    split; [reflexivity|]. split.
    + repeat constructor. cbn. tauto.
    + cbn [i_exports]. apply (Hleaf _ _ _ 3%nat (XFunc (mkft [([120], VTPrim PU8)] None false))); reflexivity.
  - split; [right; right; reflexivity|]. split; [apply OF; reflexivity|].
    eexists (mkid 3 0), _. split; [reflexivity|]. split; [reflexivity|]. split; [|right; reflexivity].
    split; [reflexivity|]. split.
    + repeat constructor; cbn; intuition discriminate.
    + cbn [i_exports]. intros n0 k [E|Hin].
      * injection E as <- <-. split; auto. exists (XFunc (mkft [] None false)). split; [exists 3%nat|]; reflexivity.
      * apply (Hleaf w_flat_t2 [104] (mkid 3 1) 3%nat (XFunc (mkft [] (Some (VTPrim PString)) false)) eq_refl eq_refl _ _ Hin).
Qed.
Lemma w_flat_distinct : NoDup (map ckey w_flat).
Proof. repeat constructor; cbn; intuition discriminate. Qed.
Example flat_merged :
  exists a s, run w_flat = inl (a, s) /\ map fst (imports a) = [n_023] /\
              merged_tree a n_023 =
              Some (XInst [([102], XFunc (mkft [] None false)); ([103], XFunc (mkft [([120], VTPrim PU8)] None false));
                           ([104], XFunc (mkft [] (Some (VTPrim PString)) false))]).
Proof. eexists _, _. conj_vc. Qed.
