(** C06: the alias/dependency edges of every reachable state are acyclic, provided the type table of
    the universe is well founded (a type only refers to types of smaller index, or to itself, which
    [define_type] skips). Witness: a rank function that maps every definition node to its type index and
    every alias node above its source. Consequence: no operation on live identifiers panics, after any
    history. *)
From Coq Require Import List Arith Bool NArith Lia.
From WacV Require Import Graph GraphInv GraphPrims GraphSteps GraphRemove GraphUnreg GraphFrame GraphTheorems GraphLive GraphAcyclic.
Import ListNotations.

Definition UniverseWF (u : universe) : Prop :=
  forall t td d, nth_error (u_tys u) t = Some td -> In d (td_deps td) -> d < length (u_tys u) -> d <= t.

Definition RankInv (u : universe) (s : gstate) : Prop := exists rk : nat -> nat,
  (forall t n, In (t, n) (defined s) -> rk n = t /\ t < length (u_tys u)) /\
  (forall e, In e (edges s) -> dep_edge e -> rk (esrc e) < rk (etgt e)).

Lemma RankInv_acyclic u s : RankInv u s -> Acyclic s.
Proof. intros [rk [_ H]]. exists rk. exact H. Qed.

Definition shrinks (s s' : gstate) : Prop :=
  incl (defined s') (defined s) /\ forall e, In e (edges s') -> In e (edges s) \/ exists i, ek e = EArg i.

Lemma shrinks_refl s : shrinks s s.
Proof. split; [apply incl_refl|auto]. Qed.

Lemma RankInv_shrinks u s s' : shrinks s s' -> RankInv u s -> RankInv u s'.
Proof.
  intros [Sd Se] [rk [Rd Re]]. exists rk. split.
  - intros t n H. apply Rd. now apply Sd.
  - intros e He De. destruct (Se e He) as [H|[i H]]; [auto|]. now apply De in H.
Qed.

Lemma Quiet_shrinks s s' : Quiet s s' -> shrinks s s'.
Proof. intros Q. split; apply Q. Qed.

Lemma export_shrinks u s n e : shrinks s (fst (export_ u s n e)).
Proof. destruct (export_spec u s n e) as [->|(nd & _ & _ & ->)]; (split; [apply incl_refl|auto]). Qed.

Lemma remove_node_shrinks u s n : Inv u s -> shrinks s (fst (remove_node s n)).
Proof.
  intros HI. destruct (remove_node_cases s n) as [->|R]; [apply shrinks_refl|].
  destruct (remove_frame u s n _ HI R) as [_ _ Fe _ _ Fd _]. split.
  - intros x Hx. now apply Fd in Hx.
  - intros e He. left. now apply Fe in He.
Qed.

Lemma unregister_shrinks s id : shrinks s (fst (unregister s id)).
Proof.
  destruct (unregister_cases s id) as [->|R]; [apply shrinks_refl|].
  destruct (unregister_frame s id _ R) as (_ & _ & Fe & _ & _ & Fd & _). split.
  - intros x Hx. now apply Fd in Hx.
  - intros e He. left. now apply Fe in He.
Qed.

Lemma alias_rank u s n e : InvC u s -> RankInv u s -> RankInv u (fst (alias u s n e)).
Proof.
  intros HI HR.
  destruct (alias_spec u s n e) as [->|(nd & ex & index & kind & s1 & idx & G & _ & _ & A & ->)]; [exact HR|].
  pose proof HI as [F E X I D P].
  apply add_node_spec in A as ([Fd Fu] & _ & E1 & _ & _ & E4 & _); [|exact F].
  destruct HR as [rk [Rd Re]]. rewrite get_node_getn in G.
  assert (Hn : n <> idx) by (intros ->; congruence).
  exists (fun m => if m =? idx then S (rk n) else rk m). split.
  - intros t m H. cbn in H. rewrite E4 in H. destruct (Nat.eqb_spec m idx) as [->|_]; [|auto].
    apply (do_def _ _ D) in H as [x [Gx _]]. congruence.
  - intros x [<-|Hx] Dx; cbn [esrc etgt].
    + rewrite Nat.eqb_refl. apply Nat.eqb_neq in Hn. rewrite Hn. lia.
    + rewrite E1 in Hx. destruct (eo_live _ _ E x Hx) as [L1 L2].
      apply liveb_true in L1 as [y1 L1], L2 as [y2 L2].
      destruct (Nat.eqb_spec (esrc x) idx) as [Eq|_]; [congruence|].
      destruct (Nat.eqb_spec (etgt x) idx) as [Eq|_]; [congruence|]. auto.
Qed.

Lemma define_type_rank u s nm t : UniverseWF u -> InvC u s -> RankInv u s -> RankInv u (fst (define_type u s nm t)).
Proof.
  intros WF HI HR.
  destruct (define_type_spec u s nm t) as [->|(td & s1 & idx & new & Ty & Ex1 & _ & A & Hn & ->)]; [exact HR|].
  pose proof HI as [F E X I D P]. apply add_node_spec in A as ([Fd Fu] & _ & E1 & _ & _ & E4 & _); [|exact F].
  destruct HR as [rk [Rd Re]].
  assert (Hnew : forall ot, In ot (map fst (defined s)) -> ot <> t).
  { intros ot Hin ->. apply in_map_iff in Hin as [[t' n'] [Eq Hin]]. cbn in Eq. subst t'.
    rewrite (proj2 (existsb_fst_nat _ t)) in Ex1 by eauto. discriminate. }
  assert (Hdead : forall t' n', In (t', n') (defined s) -> (n' =? idx) = false).
  { intros t' n' H. apply Nat.eqb_neq. intros ->. apply (do_def _ _ D) in H as [x [Gx _]]. congruence. }
  exists (fun m => if m =? idx then t else rk m). split.
  - intros t' m H. cbn in H. rewrite E4 in H. destruct H as [[= <- <-]|H].
    { rewrite Nat.eqb_refl. split; auto. apply nth_error_Some. congruence. }
    rewrite (Hdead _ _ H). auto.
  - intros x Hx Dx. cbn in Hx. apply in_app_or in Hx as [Hg|Hold].
    + destruct (Hn x Hg) as [_ [[Et [d [Hd [Hin Hne]]]]|[Es [ot [od [Hd [To Hin]]]]]]].
      * rewrite Et, Nat.eqb_refl, (Hdead _ _ Hd). destruct (Rd _ _ Hd) as [Rk Lt]. rewrite Rk.
        specialize (WF t td d Ty Hin Lt). lia.
      * rewrite Es, Nat.eqb_refl, (Hdead _ _ Hd). destruct (Rd _ _ Hd) as [Rk Lt]. rewrite Rk.
        assert (Lt' : t < length (u_tys u)) by (apply nth_error_Some; congruence).
        specialize (WF ot od t To Hin Lt').
        assert (ot <> t) by (apply Hnew; apply (in_map fst) in Hd; exact Hd). lia.
    + rewrite E1 in Hold. destruct (eo_live _ _ E x Hold) as [L1 L2]. apply liveb_true in L1 as [y1 L1], L2 as [y2 L2].
      destruct (Nat.eqb_spec (esrc x) idx) as [Eq|_]; [congruence|].
      destruct (Nat.eqb_spec (etgt x) idx) as [Eq|_]; [congruence|]. auto.
Qed.

Lemma step_rank u s o : UniverseWF u -> InvC u s -> RankInv u s -> RankInv u (fst (step u s o)).
Proof.
  intros WF HI HR. destruct (quiet_op o) eqn:Q; [eapply RankInv_shrinks, HR; now apply Quiet_shrinks, (step_quiet u)|].
  destruct o; try discriminate; cbn [step].
  - eapply RankInv_shrinks, HR. apply unregister_shrinks.
  - now apply define_type_rank.
  - now apply alias_rank.
  - eapply RankInv_shrinks, HR. apply export_shrinks.
  - eapply RankInv_shrinks, HR. apply (remove_node_shrinks u). now apply Inv_iff.
Qed.

Lemma reach_rank u ops : UniverseWF u -> RankInv u (run u ops).
Proof.
  intros WF. apply (run_ind u).
  - exists (fun _ => 0). split; [intros ? ? []|intros ? []].
  - intros s o HI. apply step_rank; auto. now apply Inv_iff.
Qed.

Lemma reach_acyclic u ops : UniverseWF u -> Acyclic (run u ops).
Proof. intros WF. apply (RankInv_acyclic u). now apply reach_rank. Qed.

Lemma step_no_panic_live u ops o :
  UniverseWF u -> LiveOp u (run u ops) o -> forall p, snd (step u (run u ops) o) <> OPanic p.
Proof.
  intros WF L. apply step_no_panic_live_acyclic; auto; [apply reach_inv|now apply reach_acyclic].
Qed.
