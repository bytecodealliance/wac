(** C13: the full-strength text-level theorems for the repaired printer. [toks_scan] for the printed
    pieces -- at every token boundary of the printed text the lexer model's [scan_token] returns the
    intended token -- from: what follows each token ([PrinterAdj]), the stability of the scanner
    ([PrinterScan]), and the lexical origin of every copied text. Then [render_lex] (the printed text
    lexes to exactly the tokens the pieces denote), and hence round trip and idempotence, for every
    parsed document whose pieces satisfy [kwcb] (the lexer's keyword-before-colon artefact, C12 finding
    [keyword_colon]; [PrinterColon] shows that they always do). *)
From WacV Require Import LexClasses LexerClassC LexerClassD.
From WacV Require Import Str Token Lexer LexTables LexImpl LexerSound Semver Ast Parser Grammar ParserComb ParserProofs ParserTop.
From WacV Require Import Printer PrintSpec PrinterText PrinterProofs PrinterWf PrinterLexFacts PrinterLeaves PrinterLex PrinterAll.
From WacV Require Import PrinterScreen PrinterScan PrinterAdj PrinterColon.
From Coq Require Import Lia.
Local Open Scope nat_scope.

Lemma layout_lead src r : forall ind b ps, layout src ind b r = Some ps -> exists x, text_of ps = lead r ++ x.
Proof.
  induction r as [|c r IH]; intros ind b ps H; [now exists (text_of ps)|]. cbn [layout] in H.
  destruct c; cbn [lead]; try now exists (text_of ps).
  - destruct (layout src ind b r) as [ps'|] eqn:E; inversion H; subst. destruct (IH _ _ _ E) as (x & Hx).
    exists x. rewrite text_of_cons, Hx. apply app_assoc.
  - destruct (layout src ind b r); inversion H; subst. now eexists.
  - destruct (layout src ind false r); inversion H; subst. now eexists.
  - destruct (layout src ind b r); inversion H; subst. now eexists.
Qed.

(** The followers [tokfokb] admits after a copy satisfy the follow condition of its kind. *)
Lemma lead_follow_ident s x w :
  (hard1 s || head_is 46 s || (head_is 58 s && (head_is 32 (tl s) || head_is 10 (tl s))))%bool = true ->
  (lookup_str w (keywords impl_cfg) = None \/ exists y, s ++ x = c_colon :: y) ->
  follow_ok impl_flags TIdent w (s ++ x) = true.
Proof.
  intros Hf Hlk. destruct s as [|c s]; [discriminate Hf|]. cbn [hard1 head_is tl app] in *.
  apply orb_true_iff in Hf. destruct Hf as [Hf|Hf].
  - assert (Hc : alnum c = false /\ c <> c_minus /\ c <> c_colon).
    { apply orb_true_iff in Hf. destruct Hf as [Hf|Hf].
      - destruct (hard_facts c Hf) as (A & M & _ & C & _). auto.
      - apply N.eqb_eq in Hf. subst c. repeat split; discriminate. }
    destruct Hc as (A & M & C). apply follow_ident; auto.
    destruct Hlk as [Hlk|(y & E)]; [exact Hlk|]. inversion E; congruence.
  - apply andb_true_iff in Hf. destruct Hf as [H1 H2]. apply N.eqb_eq in H1. subst c.
    destruct s as [|c2 s]; [discriminate H2|]. cbn [head_is app] in *. apply follow_ident_colon.
    apply orb_true_iff in H2. destruct H2 as [H2|H2]; apply N.eqb_eq in H2; auto.
Qed.

Lemma lead_follow_pkg s x path w :
  (hard1 s || (head_is 46 s && head_is 123 (tl s)))%bool = true -> pkg_follow impl_flags path w (s ++ x) = true.
Proof.
  intros Hf. destruct s as [|c s]; [discriminate Hf|]. cbn [hard1 head_is tl app] in *.
  apply orb_true_iff in Hf. destruct Hf as [Hf|Hf].
  - destruct (hard_facts c Hf) as (A & M & P & C & S & T & D). apply follow_pkg; auto. congruence.
  - apply andb_true_iff in Hf. destruct Hf as [H1 H2]. apply N.eqb_eq in H1. subst c.
    destruct s as [|c2 s]; [discriminate H2|]. cbn [head_is app] in *. apply N.eqb_eq in H2. subst c2.
    apply follow_pkg; try discriminate; reflexivity.
Qed.

Lemma letter_start c : (is_lower c || is_upper c || (c =? c_percent)%N)%bool = true ->
  is_ws c = false /\ c <> c_slash /\ c <> c_period.
Proof.
  unfold is_lower, is_upper, is_ws, c_percent, c_slash, c_period. intros H.
  assert (Hc : (97 <= c <= 122 \/ 65 <= c <= 90 \/ c = 37)%N).
  { apply orb_true_iff in H. destruct H as [H|H]; [apply orb_true_iff in H; destruct H as [H|H]|].
    - apply andb_true_iff in H. destruct H as [H1 H2]. apply N.leb_le in H1, H2. lia.
    - apply andb_true_iff in H. destruct H as [H1 H2]. apply N.leb_le in H1, H2. lia.
    - apply N.eqb_eq in H. lia. }
  split; [|split; lia]. repeat (apply orb_false_iff; split); apply N.eqb_neq; lia.
Qed.

Lemma id_len_pos_head c r : 0 < id_len true (c :: r) -> (is_lower c || is_upper c || (c =? c_percent)%N)%bool = true.
Proof.
  cbn [id_len]. destruct (c =? c_percent)%N; [now rewrite orb_true_r|]. cbn [words_len].
  destruct (is_lower c); [reflexivity|]. destruct (is_upper c); [reflexivity|]. cbn. lia.
Qed.

(** A copied token starts with a double quote, a letter or [%]: a punctuation text has another kind. *)
Lemma origin_start F s1 k n : scan_token impl_cfg F s1 = ScanTok k n -> src_kind k = true ->
  exists c x, firstn n s1 = c :: x /\ is_ws c = false /\ c <> c_slash /\ c <> c_period.
Proof.
  intros H Hk. destruct (scan_token_bound _ _ _ _ _ H) as [Hn _]. rewrite scan_token_unfold in H.
  destruct s1 as [|c r]; [discriminate H|]. destruct n as [|n]; [lia|]. exists c, (firstn n r). split; [reflexivity|].
  destruct (c =? c_quote)%N eqn:Eq; [apply N.eqb_eq in Eq; subst c; repeat split; discriminate || reflexivity|].
  change (allow_upper impl_cfg) with true in H. destruct (id_len true (c :: r)) as [|n0] eqn:Ei.
  - destruct (best_symbol (symbols impl_cfg) (c :: r)) as [[k' n']|] eqn:Eb; [|discriminate H]. inversion H; subst k' n'.
    destruct (best_symbol_spec _ _ _ _ Eb) as [(x & Hin & _) _].
    rewrite (table_kinds_not_src k) in Hk; [discriminate|]. left. apply in_map_iff. exists (x, k). auto.
  - apply letter_start, id_len_pos_head with (r := r). lia.
Qed.

Definition tok_startb (t : str) : bool :=
  match t with c :: _ => negb (is_ws c) && negb (c =? c_slash)%N | [] => false end.
Lemma tok_startb_ok t : tok_startb t = true -> tok_start t.
Proof.
  destruct t as [|c t]; [discriminate|]. cbn. intros H. apply andb_true_iff in H. destruct H as [H1 H2].
  apply negb_true_iff in H1, H2. apply N.eqb_neq in H2. auto.
Qed.

Lemma fixed_start k : okfixed k = true -> tok_start (fixed_text k).
Proof.
  assert (H : forallb (fun k => negb (okfixed k) || tok_startb (fixed_text k)) all_tokens = true) by (vm_compute; reflexivity).
  intros Hk. apply forall_tokens with (k := k) in H. rewrite Hk in H. apply tok_startb_ok. exact H.
Qed.

Lemma okfixed_sym k : okfixed k = true -> is_kw k = false -> is_sym k = true.
Proof. unfold okfixed. intros H Hk. rewrite Hk in H. apply andb_true_iff in H. destruct H as [H _]. exact H. Qed.

(** A [source(span)] copy is the text of a token the lexer cut. *)
Definition leaf_ok (src : str) (c : cmd) : Prop :=
  match c with
  | CSrc k sp =>
      exists t, slice src sp = Some t /\
                (exists F s1 n, length s1 < F /\ scan_token impl_cfg F s1 = ScanTok k n /\ t = firstn n s1)
  | _ => True
  end.

Lemma tokfokb_src_kind k sp nx : tokfokb (CSrc k sp) nx = true -> src_kind k = true.
Proof. destruct k; cbn; intros H; try reflexivity; discriminate H. Qed.

Lemma src_kind_cases k : src_kind k = true -> k = TIdent \/ k = TString \/ k = TPackageName \/ k = TPackagePath.
Proof. destruct k; try discriminate; auto. Qed.

Lemma fixed_scan src k r ind b ps' :
  tokfokb (CTok k) r = true -> layout src ind b r = Some ps' -> Forall (leaf_ok src) r -> adjb r [] = true ->
  tok_start (fixed_text k) /\
  forall F, length (fixed_text k ++ text_of ps') < F ->
            scan_token impl_cfg F (fixed_text k ++ text_of ps') = ScanTok k (length (fixed_text k)).
Proof.
  intros Hf Hl Hleaf Hadj. cbn [tokfokb] in Hf. apply andb_true_iff in Hf. destruct Hf as [Hok Hf].
  split; [now apply fixed_start|]. intros F HF. destruct (layout_lead _ _ _ _ _ Hl) as (x & Hx).
  destruct (is_kw k) eqn:Ek.
  - revert Hf HF. rewrite Hx. destruct (lead r) as [|c1 l]; [discriminate|]. intros Hf HF.
    destruct (hard_facts c1 Hf) as (A & M & _ & C & _). now apply rescan_kw.
  - apply rescan_sym; [now apply okfixed_sym|]. intros ->.
    (* k = TDot: reduce [Hf] to the [TDot] branch of [tokfokb]: a copy follows, or [lead r] does not
       start with a period *)
    cbn [token_eqb token_code N.eqb Pos.eqb] in Hf.
    change (token_eqb TDot TDot) with true in Hf. cbv iota in Hf.
    destruct r as [|c r']; [discriminate Hf|].
    destruct c;
      try (rewrite Hx; revert Hf; destruct (lead _) as [|c1 l]; [discriminate|]; intros Hf;
           apply negb_true_iff, N.eqb_neq in Hf; exact Hf).
    (* a copy follows the period *)
    inversion Hleaf as [|? ? Hc _]; subst. destruct Hc as (t & Hs & (F0 & s1 & n & _ & Hsc & ->)).
    cbn [layout] in Hl. rewrite Hs in Hl. destruct (layout src ind b r'); inversion Hl; subst.
    assert (Hk : src_kind k = true).
    { cbn [adjb] in Hadj. apply andb_true_iff in Hadj. destruct Hadj as [Hadj _]. eapply tokfokb_src_kind; eauto. }
    destruct (origin_start _ _ _ _ Hsc Hk) as (c & y & Hfy & _ & _ & Hp). cbn [text_of flat_map piece_text]. rewrite Hfy. exact Hp.
Qed.

Lemma src_scan src k sp r ind b ps' t :
  leaf_ok src (CSrc k sp) -> slice src sp = Some t ->
  tokfokb (CSrc k sp) r = true -> layout src ind b r = Some ps' ->
  (k = TIdent -> lookup_str t (keywords impl_cfg) = None \/ exists x, text_of ps' = c_colon :: x) ->
  tok_start t /\
  forall F, length (t ++ text_of ps') < F -> scan_token impl_cfg F (t ++ text_of ps') = ScanTok k (length t).
Proof.
  intros (t' & Hs' & (F0 & s1 & n & HF0 & Hsc & Ht')) Hs Hf Hl Hlk. rewrite Hs in Hs'. injection Hs' as <-.
  pose proof (tokfokb_src_kind _ _ _ Hf) as Hk.
  split.
  { destruct (origin_start _ _ _ _ Hsc Hk) as (c & x & Hfx & Hw & Hsl & _). rewrite Ht', Hfx. cbn. auto. }
  intros F HF. subst t. apply (rescan F0); auto. destruct (layout_lead _ _ _ _ _ Hl) as (x & Hx). rewrite Hx in *.
  destruct (src_kind_cases k Hk) as [ -> | [ -> | [ -> | -> ] ] ]; cbn [tokfokb follow_ok] in *.
  - eapply lead_follow_ident; eauto.
  - reflexivity.
  - eapply lead_follow_pkg; eauto.
  - eapply lead_follow_pkg; eauto.
Qed.

(** [toks_scan] for the pieces of any command list with good adjacency and good leaves. *)
Theorem relex_cmds src cs :
  Forall (leaf_ok src) cs -> forall ind b ps, layout src ind b cs = Some ps -> adjb cs [] = true ->
  kwcb ps = true -> toks_scan impl_cfg ps.
Proof.
  induction 1 as [|c cs Hc Hcs IH]; intros ind b ps Hl Hadj Hkw; cbn [layout] in Hl; [inversion Hl; exact I|].
  cbn [adjb] in Hadj. apply andb_true_iff in Hadj. destruct Hadj as [Hf Hadj]. rewrite app_nil_r in Hf.
  destruct c.
  - destruct (layout src ind b cs) as [ps'|] eqn:E; inversion Hl; subst. cbn [toks_scan].
    destruct (fixed_scan src k cs ind b ps' Hf E Hcs Hadj) as [H1 H2]. split; [exact H1|]. split; [exact H2|].
    rewrite kwcb_fixed in Hkw. exact (IH _ _ _ E Hadj Hkw).
  - destruct (slice src sp) as [t|] eqn:Es; [|discriminate]. destruct (layout src ind b cs) as [ps'|] eqn:E; inversion Hl; subst.
    cbn [toks_scan].
    assert (Hkw' : kwcb ps' = true /\ (k = TIdent -> lookup_str t (keywords impl_cfg) = None \/ exists x, text_of ps' = c_colon :: x)).
    { destruct (token_is_ident k) as [->|Hne]; [|rewrite kwcb_other in Hkw by exact Hne; split; [exact Hkw|congruence]].
      cbn [kwcb] in Hkw. apply andb_true_iff in Hkw. destruct Hkw as [H1 H2].
      split; [exact H2|]. intros _. apply orb_true_iff in H1. destruct H1 as [H1|H1].
      - left. unfold kw_text in H1. destruct (lookup_str t (keywords impl_cfg)); [discriminate H1|reflexivity].
      - right. destruct ps' as [|[k' [|c t']| |] ps'']; try discriminate H1. apply N.eqb_eq in H1. subst c.
        cbn [text_of flat_map piece_text app]. eauto. }
    destruct Hkw' as [Hkw1 Hkw2].
    destruct (src_scan src k sp cs ind b ps' t Hc Es Hf E Hkw2) as [H1 H2].
    split; [exact H1|]. split; [exact H2|]. exact (IH _ _ _ E Hadj Hkw1).
  - destruct (layout src ind b cs) eqn:E; inversion Hl; subst. cbn [toks_scan]. exact (IH _ _ _ E Hadj Hkw).
  - destruct (layout src ind false cs) eqn:E; [|destruct b; discriminate]. destruct b; inversion Hl; subst; cbn [toks_scan]; exact (IH _ _ _ E Hadj Hkw).
  - destruct b; [exact (IH _ _ _ Hl Hadj Hkw)|]. destruct (layout src ind true cs) eqn:E; inversion Hl; subst. cbn [toks_scan]. exact (IH _ _ _ E Hadj Hkw).
  - destruct (layout src ind false cs) eqn:E; inversion Hl; subst. cbn [toks_scan]. exact (IH _ _ _ E Hadj Hkw).
  - destruct (layout src ind b cs) eqn:E; inversion Hl; subst. cbn [toks_scan]. exact (IH _ _ _ E Hadj Hkw).
  - exact (IH _ _ _ Hl Hadj Hkw).
  - exact (IH _ _ _ Hl Hadj Hkw).
Qed.

(** No identifier token of the source is spelled like a keyword. (The lexer returns such a token only
    for a keyword directly followed by a colon: [record: func()].) *)
Definition plain_ident (t : rtoken) : Prop := tk t = TIdent -> lookup_str (ttext t) (keywords impl_cfg) = None.
Definition no_kw_idents (src : str) : Prop :=
  Forall (fun it => match it with LTok t => plain_ident t | _ => True end) (lex impl_cfg src).

Lemma parsed_leaves src doc r :
  parse_document impl_flags impl_cfg src = POk doc r -> Forall (leaf_ok src) (p_document repaired doc).
Proof.
  intros H. apply (parsed_commands src doc r (leaf_ok src) H); try exact I; try (intros; exact I).
  - intros t [Hs [(F & s1 & n & Hsc & Ht & HF) _]]. cbn [leaf_ok]. exists (ttext t). split; [exact Hs|]. exists F, s1, n. auto.
  - intros t _. rewrite p_docs_flat. apply Forall_map, Forall_forall. intros l _. exact I.
Qed.

Theorem print_toks_scan src doc r ps :
  parse_document impl_flags impl_cfg src = POk doc r ->
  print_pieces repaired src doc = Some ps -> toks_scan impl_cfg ps.
Proof.
  intros H Hp. pose proof (parsed_kwcb src doc r ps H Hp) as Hk. unfold print_pieces in Hp.
  eapply relex_cmds; [eapply parsed_leaves; eauto|exact Hp|apply adj_document|exact Hk].
Qed.

Theorem render_lex_full src doc r ps :
  parse_document impl_flags impl_cfg src = POk doc r ->
  print_pieces repaired src doc = Some ps ->
  lex impl_cfg (text_of ps) = items_of_pieces ps.
Proof.
  intros H Hp. apply lex_of_pieces.
  - eapply print_screen; eauto.
  - eapply print_gaps_ok; [eapply parse_wf_impl; eauto|exact Hp].
  - eapply print_toks_scan; eauto.
Qed.

Theorem print_roundtrip_full src doc r ps :
  parse_document impl_flags impl_cfg src = POk doc r ->
  print_pieces repaired src doc = Some ps ->
  RoundTrip repaired src doc /\ Idempotent repaired src doc.
Proof.
  intros H Hp. pose proof (parse_wf_impl src doc r H) as Hwf.
  apply (roundtrip_of_render_lex src doc ps Hwf Hp). eapply render_lex_full; eauto.
Qed.

Theorem no_kw_idents_kwcb src doc r ps :
  parse_document impl_flags impl_cfg src = POk doc r -> no_kw_idents src ->
  print_pieces repaired src doc = Some ps -> kwcb ps = true.
Proof. intros H _ Hp. exact (parsed_kwcb src doc r ps H Hp). Qed.
