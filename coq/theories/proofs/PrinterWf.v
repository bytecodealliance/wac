(** C13: the tree [Document::parse] (the model) returns for a source text is well-formed with respect
    to that text ([wf_document]): every leaf is what the source has at its span, and the lists the
    parser refuses to leave empty are not empty. Proved through the grammar: the parser's result is a
    derivation over the lexer's tokens ([parse_document_sound]; C12's [parse_sound]), the lexer's tokens tile the source
    ([lex_loop_tiles], C12), and every derivation over accurate tokens builds a well-formed tree. *)
From WacV Require Import Str Token Lexer LexTables LexImpl LexerSound Semver Ast Parser Grammar ParserComb ParserProofs ParserTop.
From WacV Require Import Printer PrintSpec PrinterText.
From Coq Require Import Lia.
Local Open Scope nat_scope.

Scheme g_type_mut := Minimality for g_type Sort Prop
  with g_types_mut := Minimality for g_types Sort Prop.
Combined Scheme g_type_types_ind from g_type_mut, g_types_mut.
Scheme g_expr_mut := Minimality for g_expr Sort Prop
  with g_primary_mut := Minimality for g_primary Sort Prop
  with g_args_mut := Minimality for g_args Sort Prop
  with g_arg_mut := Minimality for g_arg Sort Prop.

Lemma package_name_of_span t p : package_name_of t = LeafOk p -> pn_span p = tsp t.
Proof. unfold package_name_of. destruct (version_of t (ttext t)); intros H; inversion H; reflexivity. Qed.

Lemma package_path_of_span t p : package_path_of t = LeafOk p -> pp_span p = tsp t.
Proof.
  unfold package_path_of. destruct (find_char c_slash (ttext t)); [|discriminate].
  destruct (version_of t (ttext t)); intros H; inversion H; reflexivity.
Qed.

(** Opens the nested existentials and conjunctions of a production written as a formula. *)
Ltac unpack :=
  repeat match goal with
         | H : exists _, _ |- _ => destruct H
         | H : _ /\ _ |- _ => destruct H
         end.

Section Wf.
Variable src : str.
Let d := impl_flags.

Definition acc (it : lexitem) : Prop :=
  match it with LTok t => slice src (tsp t) = Some (ttext t) | _ => True end.
Definition Acc (ts : list lexitem) : Prop := Forall acc ts.

Definition step {A} (G : drel A) (wf : A -> Prop) : Prop :=
  forall ts r x, G ts r x -> Acc ts -> wf x /\ Acc r.

Lemma tok_acc k ts r t : tok k ts r t -> Acc ts -> slice src (tsp t) = Some (ttext t) /\ Acc r.
Proof. intros [-> _] H. inversion H; subst. auto. Qed.

Lemma step_id : step g_id (wf_ident src).
Proof.
  intros ts r i (t & Ht & ->) Ha. destruct (tok_acc _ _ _ _ Ht Ha) as [Hs Hr]. split; [|exact Hr].
  exists (ttext t). split; [exact Hs|reflexivity].
Qed.

Lemma step_string : step g_string (wf_strlit src).
Proof.
  intros ts r s (t & Ht & Hs0) Ha. destruct (tok_acc _ _ _ _ Ht Ha) as [Hs Hr]. split; [|exact Hr].
  unfold strlit_of in Hs0. destruct (unquote (ttext t)) as [v|] eqn:E; [|discriminate]. inversion Hs0; subst s.
  exists (ttext t). split; [exact Hs|exact E].
Qed.

Lemma step_package_name : step g_package_name (wf_package_name src).
Proof.
  intros ts r p (t & Ht & Hp) Ha. destruct (tok_acc _ _ _ _ Ht Ha) as [Hs Hr]. split; [|exact Hr].
  exists (ttext t). rewrite (package_name_of_span _ _ Hp). split; [exact Hs|exact Hp].
Qed.

Lemma step_package_path : step g_package_path (wf_package_path src).
Proof.
  intros ts r p (t & Ht & Hp) Ha. destruct (tok_acc _ _ _ _ Ht Ha) as [Hs Hr]. split; [|exact Hr].
  exists (ttext t). rewrite (package_path_of_span _ _ Hp). split; [exact Hs|exact Hp].
Qed.

Lemma step_seplist {A} (G : drel A) (wf : A -> Prop) :
  step G wf -> forall ts r x, seplist G ts r x -> Acc ts -> All wf (fst x) /\ Acc r.
Proof.
  intros HG ts r x H. induction H as [ts|ts r a Ha|ts r1 r a c Ha Hc|ts r1 r2 r a c l tr Ha Hc Hl IH Hne]; intros Hacc.
  - split; [exact I|exact Hacc].
  - destruct (HG _ _ _ Ha Hacc) as [H1 H2]. cbn. auto.
  - destruct (HG _ _ _ Ha Hacc) as [H1 H2]. destruct (tok_acc _ _ _ _ Hc H2) as [_ H3]. cbn. auto.
  - destruct (HG _ _ _ Ha Hacc) as [H1 H2]. destruct (tok_acc _ _ _ _ Hc H2) as [_ H3].
    destruct (IH H3) as [H4 H5]. cbn in *. auto.
Qed.

Lemma step_many {A} (G : drel A) (wf : A -> Prop) :
  step G wf -> forall ts r l, many G ts r l -> Acc ts -> All wf l /\ Acc r.
Proof.
  intros HG ts r l H. induction H as [ts|ts r1 r a l Ha Hl IH]; intros Hacc.
  - split; [exact I|exact Hacc].
  - destruct (HG _ _ _ Ha Hacc) as [H1 H2]. destruct (IH H2) as [H3 H4]. cbn. auto.
Qed.

Lemma step_opt {A} k (G : drel A) (wf : A -> Prop) :
  step G wf -> forall ts r o, opt k G ts r o -> Acc ts -> match o with Some a => wf a | None => True end /\ Acc r.
Proof.
  intros HG ts r o H Hacc. destruct H as [ts|ts r1 r t a Ht Ha].
  - auto.
  - destruct (tok_acc _ _ _ _ Ht Hacc) as [_ H1]. exact (HG _ _ _ Ha H1).
Qed.

(** Extended below with the step lemmas as they become available. *)
Ltac wfext := fail.

Ltac wfstep :=
  match goal with
  | H : borrow_any_type _ = true |- _ => discriminate H
  | H : named_results _ = true |- _ => discriminate H
  | Ha : Acc (_ :: _) |- _ => inversion Ha; subst; clear Ha
  | Ht : tok _ ?ts _ _, Ha : Acc ?ts |- _ =>
      let H1 := fresh "Hs" in let H2 := fresh "Ha" in destruct (tok_acc _ _ _ _ Ht Ha) as [H1 H2]; clear Ht
  | IH : Acc ?ts -> _, Ha : Acc ?ts |- _ =>
      let H1 := fresh "Hw" in let H2 := fresh "Ha" in destruct (IH Ha) as [H1 H2]; clear IH
  | Hg : g_id ?ts _ _, Ha : Acc ?ts |- _ =>
      let H1 := fresh "Hw" in let H2 := fresh "Ha" in destruct (step_id _ _ _ Hg Ha) as [H1 H2]; clear Hg
  | Hg : g_string ?ts _ _, Ha : Acc ?ts |- _ =>
      let H1 := fresh "Hw" in let H2 := fresh "Ha" in destruct (step_string _ _ _ Hg Ha) as [H1 H2]; clear Hg
  | Hg : g_package_name ?ts _ _, Ha : Acc ?ts |- _ =>
      let H1 := fresh "Hw" in let H2 := fresh "Ha" in destruct (step_package_name _ _ _ Hg Ha) as [H1 H2]; clear Hg
  | Hg : g_package_path ?ts _ _, Ha : Acc ?ts |- _ =>
      let H1 := fresh "Hw" in let H2 := fresh "Ha" in destruct (step_package_path _ _ _ Hg Ha) as [H1 H2]; clear Hg
  | _ => wfext
  end.
Ltac wfsolve := repeat wfstep; repeat (first [assumption | exact I | split]); eauto.

Lemma step_type_both :
  (forall ts r t, g_type d ts r t -> Acc ts -> wf_ty src t /\ Acc r) /\
  (forall ts r x, g_types d ts r x -> Acc ts -> All (wf_ty src) (fst x) /\ Acc r).
Proof.
  apply (g_type_types_ind d (fun ts r t => Acc ts -> wf_ty src t /\ Acc r)
                            (fun ts r x => Acc ts -> All (wf_ty src) (fst x) /\ Acc r));
    intros; subst; cbn [wf_ty fst All] in *; wfsolve; try (apply fix_All; assumption).
Qed.

Definition step_type : step (g_type d) (wf_ty src) := proj1 step_type_both.

(** Applies the step lemma [L] to a hypothesis that is a derivation by the production [G]. *)
Ltac use1 G L :=
  match goal with
  | Hg : G ?ts _ _, Ha : Acc ?ts |- _ =>
      let H1 := fresh "Hw" in let H2 := fresh "Ha" in destruct (L _ _ _ Hg Ha) as [H1 H2]; clear Hg
  end.
Ltac wfext ::= use1 (g_type d) step_type.

Lemma step_named_type : step (g_named_type d) (wf_named_type src).
Proof. intros ts r x H Ha. unfold g_named_type in H. unpack. subst. unfold wf_named_type. cbn. wfsolve. Qed.

Lemma step_params : step (g_params d) (All (wf_named_type src)).
Proof. intros ts r x [tr H] Ha. exact (step_seplist _ _ step_named_type _ _ _ H Ha). Qed.

Ltac wfext ::= first [use1 (g_type d) step_type | use1 (g_named_type d) step_named_type | use1 (g_params d) step_params].

Lemma step_results : step (g_results d) (fun x => match x with RLEmpty => True | RLScalar t => wf_ty src t | RLNamed _ => False end).
Proof. intros ts r x H Ha. destruct H; wfsolve. Qed.

Lemma step_func_type : step (g_func_type d) (wf_func_type src).
Proof.
  intros ts r x H Ha. unfold g_func_type in H. unpack. subst. unfold wf_func_type. cbn [ft_params ft_results].
  repeat wfstep.
  match goal with Ho : opt _ _ _ _ ?res |- _ =>
    destruct (step_opt _ _ _ step_results _ _ _ Ho ltac:(eassumption)) as [Hx Hy];
    split; [|exact Hy]; split; [assumption|]; destruct res as [[| |]|]; cbn in *; auto end.
Qed.

Ltac wfext ::= first [use1 (g_type d) step_type | use1 (g_named_type d) step_named_type | use1 (g_params d) step_params | use1 (g_func_type d) step_func_type].

Definition wf_vc (c : variant_case) : Prop :=
  wf_ident src (vc_id c) /\ match vc_ty c with Some t => wf_ty src t | None => True end.
Definition wf_fd (f : field) : Prop := wf_ident src (fd_id f) /\ wf_ty src (fd_ty f).
Definition wf_fl (f : flag) : Prop := wf_ident src (fl_id f).
Definition wf_ec (c : enum_case) : Prop := wf_ident src (ec_id c).

Lemma step_variant_case : step (g_variant_case d) wf_vc.
Proof.
  intros ts r x H Ha. unfold g_variant_case in H. unpack. subst. unfold wf_vc. cbn [vc_id vc_ty]. repeat wfstep.
  match goal with Ho : opt _ _ _ _ ?o |- _ =>
    assert (Hstep : step (fun a b x => exists b1 c, g_type d a b1 x /\ tok TCloseParen b1 b c) (wf_ty src))
      by (intros ? ? ? ? ?; unpack; wfsolve);
    destruct (step_opt _ _ _ Hstep _ _ _ Ho ltac:(eassumption)) as [Hx Hy] end.
  auto.
Qed.

Lemma step_field : step (g_field d) wf_fd.
Proof. intros ts r x H Ha. unfold g_field in H. unpack. subst. unfold wf_fd. cbn [fd_id fd_ty]. use1 (g_named_type d) step_named_type. destruct Hw. auto. Qed.

Lemma step_flag : step g_flag wf_fl.
Proof. intros ts r x H Ha. unfold g_flag in H. unpack. subst. unfold wf_fl. cbn. wfsolve. Qed.

Lemma step_enum_case : step g_enum_case wf_ec.
Proof. intros ts r x H Ha. unfold g_enum_case in H. unpack. subst. unfold wf_ec. cbn. wfsolve. Qed.

Lemma step_braced {A} kw (item : drel A) (wfi : A -> Prop) mk :
  step item wfi ->
  forall ts r x, g_braced kw item mk ts r x -> Acc ts ->
  (exists dcs i items, x = mk dcs i items /\ wf_ident src i /\ items <> [] /\ All wfi items) /\ Acc r.
Proof.
  intros Hs ts r x H Ha. unfold g_braced in H. unpack. subst. repeat wfstep.
  use1 (seplist item) (step_seplist _ _ Hs). repeat wfstep. split; [|assumption]. do 3 eexists. split; [reflexivity|]. auto.
Qed.

Lemma step_type_decl : step (g_type_decl d) (fun x => is_resource x = false /\ wf_item_type_decl src x).
Proof.
  intros ts r x H Ha. destruct H.
  - destruct (step_braced _ _ _ _ step_variant_case _ _ _ H Ha) as [(dcs & i & items & -> & H1 & H2 & H3) H4]. cbn. auto.
  - destruct (step_braced _ _ _ _ step_field _ _ _ H Ha) as [(dcs & i & items & -> & H1 & H2 & H3) H4]. cbn. auto.
  - destruct (step_braced _ _ _ _ step_flag _ _ _ H Ha) as [(dcs & i & items & -> & H1 & H2 & H3) H4]. cbn. auto.
  - destruct (step_braced _ _ _ _ step_enum_case _ _ _ H Ha) as [(dcs & i & items & -> & H1 & H2 & H3) H4]. cbn. auto.
  - cbn. wfsolve.
  - cbn. wfsolve.
Qed.

Lemma step_resource_item : step (g_resource_item d) (wf_resource_method src).
Proof.
  intros ts r x H Ha. destruct H; cbn [wf_resource_method].
  - wfsolve.
  - repeat wfstep.
    match goal with Ho : opt _ _ _ _ _ |- _ =>
      assert (Hstep : step (fun a b (x : unit) => a = b) (fun _ => True)) by (intros ? ? ? -> ?; auto);
      destruct (step_opt _ _ _ Hstep _ _ _ Ho ltac:(eassumption)) as [Hx Hy] end.
    wfsolve.
Qed.

Lemma step_item_type_decl : step (g_item_type_decl d) (wf_item_type_decl src).
Proof.
  intros ts r x H Ha. destruct H.
  - cbn. wfsolve.
  - cbn [wf_item_type_decl]. repeat wfstep.
    use1 (many (g_resource_item d)) (step_many _ _ step_resource_item).
    wfsolve.
  - destruct (step_type_decl _ _ _ H Ha) as [[_ H1] H2]. auto.
Qed.

Ltac wfext ::= first [use1 (g_type d) step_type | use1 (g_named_type d) step_named_type | use1 (g_params d) step_params | use1 (g_func_type d) step_func_type
                     | use1 (g_item_type_decl d) step_item_type_decl ].

Definition wf_ui (it : use_item) : Prop :=
  wf_ident src (ui_id it) /\ match ui_as it with Some a => wf_ident src a | None => True end.

Lemma step_use_item : step g_use_item wf_ui.
Proof.
  intros ts r x H Ha. unfold g_use_item in H. unpack. subst. unfold wf_ui. cbn [ui_id ui_as]. repeat wfstep.
  use1 (opt TAsKeyword g_id) (step_opt TAsKeyword _ _ step_id).
  auto.
Qed.

Lemma step_use : step (g_use d) (wf_use src).
Proof.
  intros ts r x H Ha. unfold g_use in H. unpack. subst. unfold wf_use. cbn [u_path u_items]. repeat wfstep.
  match goal with Hp : g_use_path _ _ _ |- _ => destruct Hp end; repeat wfstep;
  use1 (seplist g_use_item) (step_seplist _ _ step_use_item);
  wfsolve.
Qed.

Lemma step_func_type_ref :
  step (g_func_type_ref d) (fun t => match t with FRFunc f => wf_func_type src f | FRIdent j => wf_ident src j end).
Proof. intros ts r x H Ha. destruct H; wfsolve. Qed.

Lemma step_interface_item : step (g_interface_item d) (wf_interface_item src).
Proof.
  intros ts r x H Ha. destruct H; cbn [wf_interface_item].
  - use1 (g_use d) step_use. auto.
  - wfsolve.
  - repeat wfstep. use1 (g_func_type_ref d) step_func_type_ref. wfsolve.
Qed.

Lemma step_interface_body : step (g_interface_body d) (All (wf_interface_item src)).
Proof.
  intros ts r x H Ha. unfold g_interface_body in H. unpack. repeat wfstep.
  use1 (many (g_interface_item d)) (step_many _ _ step_interface_item).
  wfsolve.
Qed.

Lemma step_inline_interface : step (g_inline_interface d) (All (wf_interface_item src)).
Proof. intros ts r x H Ha. unfold g_inline_interface in H. unpack. repeat wfstep. use1 (g_interface_body d) step_interface_body. auto. Qed.

Lemma step_extern_type : step (g_extern_type d) (wf_extern_type src).
Proof. intros ts r x H Ha. destruct H; cbn [wf_extern_type]; [wfsolve|use1 (g_inline_interface d) step_inline_interface; auto|wfsolve]. Qed.

Lemma step_world_item_path : step (g_world_item_path d) (wf_world_item_path src).
Proof. intros ts r x H Ha. destruct H; cbn [wf_world_item_path]; repeat wfstep; try use1 (g_extern_type d) step_extern_type; wfsolve. Qed.

Definition wf_ii (it : include_item) : Prop := wf_ident src (ii_from it) /\ wf_ident src (ii_to it).

Lemma step_include_item : step g_include_item wf_ii.
Proof. intros ts r x H Ha. unfold g_include_item in H. unpack. subst. unfold wf_ii. cbn. wfsolve. Qed.

Lemma step_world_item : step (g_world_item d) (wf_world_item src).
Proof.
  intros ts r x H Ha. destruct H; cbn [wf_world_item].
  - use1 (g_use d) step_use. auto.
  - wfsolve.
  - repeat wfstep. use1 (g_world_item_path d) step_world_item_path. wfsolve.
  - repeat wfstep. use1 (g_world_item_path d) step_world_item_path. wfsolve.
  - repeat wfstep.
    assert (Hstep : step (fun a b items => exists b1 b2 o c tr,
                  tok TOpenBrace a b1 o /\ seplist g_include_item b1 b2 (items, tr) /\
                  (items <> [] \/ empty_include_with d = true) /\ tok TCloseBrace b2 b c) (All wf_ii)).
    { intros ? ? ? ? ?. unpack. repeat wfstep.
      use1 (seplist g_include_item) (step_seplist _ _ step_include_item).
      wfsolve. }
    match goal with Hw : g_world_ref _ _ _ |- _ => destruct Hw end; repeat wfstep;
    (match goal with Ho : opt _ _ _ _ ?o |- _ =>
       destruct (step_opt _ _ _ Hstep _ _ _ Ho ltac:(eassumption)) as [Hx Hy]; destruct o end);
    wfsolve.
Qed.

Lemma step_type_statement : step (g_type_statement d) (wf_type_statement src).
Proof.
  intros ts r x H Ha. destruct H; cbn [wf_type_statement].
  - repeat wfstep. use1 (g_interface_body d) step_interface_body. auto.
  - repeat wfstep.
    use1 (many (g_world_item d)) (step_many _ _ step_world_item).
    wfsolve.
  - destruct (step_type_decl _ _ _ H Ha) as [[H0 H1] H2]. auto.
Qed.

Lemma step_postfix : step g_postfix (wf_postfix src).
Proof. intros ts r x H Ha. destruct H; cbn [wf_postfix]; wfsolve. Qed.

Lemma step_arg_name :
  step g_arg_name (fun n => match n with ANIdent i => wf_ident src i | ANString s => wf_strlit src s end).
Proof. intros ts r x H Ha. destruct H; wfsolve. Qed.

Lemma step_expr : step (g_expr d) (wf_expr src).
Proof.
  intros ts r x H. revert ts r x H.
  apply (g_expr_mut d (fun ts r x => Acc ts -> wf_expr src x /\ Acc r)
                      (fun ts r p => Acc ts -> wf_primary src p /\ Acc r)
                      (fun ts r x => Acc ts -> All (wf_arg src) (fst x) /\ Acc r)
                      (fun ts r a => Acc ts -> wf_arg src a /\ Acc r));
    intros; subst; cbn [wf_expr wf_primary wf_arg fst All mk_expr] in *.
  - repeat wfstep.
    use1 (many g_postfix) (step_many _ _ step_postfix).
    unfold mk_expr. cbn [wf_expr]. auto.
  - repeat wfstep. repeat split; auto. now apply fix_All.
  - wfsolve.
  - wfsolve.
  - wfsolve.
  - wfsolve.
  - wfsolve.
  - wfsolve.
  - wfsolve.
  - wfsolve.
  - repeat wfstep. use1 g_arg_name step_arg_name. repeat wfstep. auto.
  - wfsolve.
Qed.

Lemma step_extern_name : step g_extern_name (wf_extern_name src).
Proof. intros ts r x H Ha. destruct H; cbn [wf_extern_name]; wfsolve. Qed.

Lemma step_statement : step (g_statement d) (wf_statement src).
Proof.
  intros ts r x H Ha. destruct H; cbn [wf_statement].
  - repeat wfstep.
    use1 (opt TAsKeyword g_extern_name) (step_opt TAsKeyword _ _ step_extern_name).
    repeat wfstep.
    match goal with Hi : g_import_type _ _ _ _ |- _ => destruct Hi end; repeat wfstep; try use1 (g_inline_interface d) step_inline_interface; wfsolve.
  - use1 (g_type_statement d) step_type_statement. auto.
  - repeat wfstep. use1 (g_expr d) step_expr. wfsolve.
  - repeat wfstep. use1 (g_expr d) step_expr.
    match goal with Ho : g_export_options _ _ _ |- _ => destruct Ho end; repeat wfstep; try use1 g_extern_name step_extern_name; wfsolve.
Qed.

Lemma step_document ts x : g_document d ts [] x -> Acc ts -> wf_document src x.
Proof.
  intros H Ha. unfold g_document in H. unpack. subst. unfold g_package_decl in *. unpack. subst.
  unfold wf_document. cbn [doc_directive pd_package pd_targets doc_statements]. repeat wfstep.
  use1 (opt TTargetsKeyword g_package_path) (step_opt TTargetsKeyword _ _ step_package_path).
  repeat wfstep.
  use1 (many (g_statement d)) (step_many _ _ step_statement).
  auto.
Qed.

End Wf.

Lemma tiles_acc src : forall o s items, tiles o s items ->
  forall pre, src = pre ++ s -> o = byte_len pre -> Acc src items.
Proof.
  induction 1 as [o g Hg|o g t rest items Hg Hne Hsp Ht IH|o g rest it Hg Hit]; intros pre Hsrc Ho.
  - constructor.
  - constructor.
    + cbn [acc]. rewrite Hsp, Hsrc, Ho, <- byte_len_app, app_assoc. apply slice_at.
    + apply (IH (pre ++ g ++ ttext t)); [rewrite Hsrc, <- !app_assoc; reflexivity|].
      rewrite !byte_len_app, Ho. lia.
  - constructor; [|constructor]. destruct it; try exact I. contradiction.
Qed.

Lemma lex_acc cfg src : Acc src (lex cfg src).
Proof.
  unfold lex. destruct (screen cfg src) as [[e sp]|].
  - constructor; [exact I|constructor].
  - apply (tiles_acc src 0%N src _ (lex_loop_tiles cfg _ 0%N src) []); reflexivity.
Qed.

(** [parse_wf]: the tree of an accepted document is well-formed with respect to its source. *)
Theorem parse_wf_impl src doc r :
  parse_document impl_flags impl_cfg src = POk doc r -> wf_document src doc.
Proof.
  intros H. apply parse_document_sound in H. destruct H as [_ H].
  eapply step_document; [exact H|apply lex_acc].
Qed.
