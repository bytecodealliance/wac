(** Generic lemmas for the simulation proof of the encoder model: the result monad, folds in it,
    association lists, and what the items of the type-encoder parameter do to a decoding. *)
From Coq Require Import List Arith Bool NArith Lia.
From WacV Require Import Str ListFacts Graph Wiring WiringSpec EncodeModel WiringDecode.
Import ListNotations.
Local Open Scope nat_scope.

Lemma bind_ok {A B} (r : res A) (f : A -> res B) b :
  bind r f = ROk b -> exists a, r = ROk a /\ f a = ROk b.
Proof. destruct r; cbn; [eauto | discriminate]. Qed.

Lemma fold_res_err {S X} (f : S -> X -> res S) l e :
  fold_left (fun acc x => bind acc (fun s => f s x)) l (RErr e) = RErr e.
Proof. induction l; cbn; auto. Qed.

(** invariant carried along a fold, indexed by the processed prefix *)
Lemma fold_res_ind {S X} (f : S -> X -> res S) (P : list X -> S -> Prop) l s0 s' :
  fold_left (fun acc x => bind acc (fun s => f s x)) l (ROk s0) = ROk s' ->
  P [] s0 ->
  (forall pre x post s s1, l = pre ++ x :: post -> P pre s -> f s x = ROk s1 -> P (pre ++ [x]) s1) ->
  P l s'.
Proof.
  intros F P0 Step.
  assert (G : forall rest done s, l = done ++ rest -> P done s ->
              fold_left (fun acc x => bind acc (fun s => f s x)) rest (ROk s) = ROk s' -> P l s').
  { induction rest as [|x rest IH]; intros done s E Pd Fr; cbn in Fr.
    - injection Fr as <-. rewrite app_nil_r in E. now subst.
    - destruct (f s x) as [s1|er] eqn:Fx.
      + apply (IH (done ++ [x]) s1); auto.
        * now rewrite <- app_assoc.
        * eapply Step; eauto.
      + rewrite fold_res_err in Fr. discriminate. }
  eapply (G l [] s0); eauto.
Qed.

Lemma fold_left_ext {A B} (f f' : A -> B -> A) l a : (forall a x, f a x = f' a x) -> fold_left f l a = fold_left f' l a.
Proof. intros H. revert a. induction l as [|x r IH]; intros a; cbn; auto. now rewrite H, IH. Qed.

(** [fold_res_ind] for a step [F] that is not written as [bind acc (fun s => f s x)] on the nose: it is
    enough that [F] propagates errors, and the step to prove is about the model's own [F]. *)
Lemma fold_ok_ind {S X} (F : res S -> X -> res S) (P : list X -> S -> Prop) l s0 s' :
  (forall er x, F (RErr er) x = RErr er) ->
  fold_left F l (ROk s0) = ROk s' ->
  P [] s0 ->
  (forall pre x post s s1, l = pre ++ x :: post -> P pre s -> F (ROk s) x = ROk s1 -> P (pre ++ [x]) s1) ->
  P l s'.
Proof.
  intros Err H. apply (fold_res_ind (fun s x => F (ROk s) x)). rewrite <- H.
  apply fold_left_ext. intros [s|er] x; cbn; auto.
Qed.

Lemma nat_assoc_cons {A} k (v : A) l k' :
  nat_assoc k' ((k, v) :: l) = if k =? k' then Some v else nat_assoc k' l.
Proof. reflexivity. Qed.

Lemma nat_assoc_in {A} k (v : A) l : nat_assoc k l = Some v -> In (k, v) l.
Proof.
  induction l as [|[k' v'] r IH]; cbn; try discriminate.
  destruct (k' =? k) eqn:E; [apply Nat.eqb_eq in E; intros H; injection H as <-; subst; auto | auto].
Qed.

Lemma pkgid_eqb_eq a b : pkgid_eqb a b = true <-> a = b.
Proof. exact (pair_eqb_eq _ _ Nat.eqb_eq Nat.eqb_eq a b). Qed.
Lemma pkgid_eqb_refl a : pkgid_eqb a a = true.
Proof. now apply pkgid_eqb_eq. Qed.

Definition same_structure (d d' : dstate) : Prop :=
  d_insts d' = d_insts d /\ d_exports d' = d_exports d /\ d_comps d' = d_comps d.

Lemma ty_items_decode its : forall d ninst,
  ninst = length (d_sp d SInstance) ->
  ty_items_ok ninst its = true ->
  exists d', decode_from d its = Some d' /\ sp_ext (d_sp d) (d_sp d') /\ same_structure d d'.
Proof.
  induction its as [|it r IH]; intros d ninst Hn Ok; cbn in *.
  - exists d. repeat split; auto. apply sp_ext_refl.
  - apply andb_true_iff in Ok as [Ok1 Ok2].
    assert (S1 : exists d1, dstep d it = Some d1 /\ same_structure d d1 /\
                 length (d_sp d1 SInstance) = match it with IDepImport _ => S ninst | _ => ninst end).
    { destruct it; cbn in Ok1; try discriminate.
      - eexists. split; [reflexivity|]. split; [repeat split|]. cbn. unfold push; cbn. rewrite app_length. cbn. lia.
      - eexists. split; [reflexivity|]. split; [repeat split|]. cbn. unfold push; cbn. auto.
      - eexists. split; [reflexivity|]. split; [repeat split|]. cbn. unfold push; cbn. auto.
      - apply andb_true_iff in Ok1 as [Os Oi]. apply sort_eqb_eq in Os. subst s.
        apply Nat.ltb_lt in Oi. cbn. unfold look.
        destruct (nth_error (d_sp d SInstance) inst) eqn:N.
        + eexists. split; [reflexivity|]. split; [repeat split|]. cbn. unfold push; cbn. auto.
        + apply nth_error_None in N. lia.
      - apply orb_true_iff in Ok1. eexists. split; [reflexivity|]. split; [repeat split|]. cbn.
        destruct Ok1 as [O|O]; apply sort_eqb_eq in O; subst; unfold push; cbn; auto. }
    destruct S1 as [d1 [S1 [St1 L1]]]. rewrite S1.
    destruct (IH d1 _ (eq_sym L1) Ok2) as [d' [D' [X' St']]].
    exists d'. split; auto. split.
    + eapply sp_ext_trans; [eapply dstep_ext; eauto | auto].
    + destruct St1 as [A [B C]], St' as [A' [B' C']]. repeat split; congruence.
Qed.
