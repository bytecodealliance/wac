(** The copy of a resource-free LEAF (function, value, value type) of a contributor never runs out of fuel when the fuel is
    at least [2*g + 2], [g] the fuel at which [unfold] computes the leaf's tree - in any state of the aggregator.  This
    discharges the escape clause [LeafOof] of the nested fuel bound (AggregatorNestedFuel.v). *)
From Coq Require Import ZArith Lia.
From WacV Require Import Str Names Types Checker SubSpec CheckerEq CheckerValue CheckerProofs.
From WacV Require Import Aggregator AggregatorSpec AggregatorFrame AggregatorRemap AggregatorChecker AggregatorNames
     AggregatorFlat AggregatorNestedSpec AggregatorNestedDen AggregatorNestedFuel.

Lemma all_some_in {A B} (U : A -> option B) l trs v : all_some (map U l) = Some trs -> In v l -> exists tr, U v = Some tr /\ In tr trs.
Proof.
  intros H. apply all_some_forall2 in H. induction H as [|x y l l' Hx _ IH]; [intros []|]. intros [->|Hin]; [exists y; split; auto; now left|].
  destruct (IH Hin) as [tr [E I]]. exists tr. split; auto. now right.
Qed.
Lemma map_snd_in_l {K A B} (U : A -> option B) (l : list (K * A)) l' kv : map_snd U l = Some l' -> In kv l ->
  exists y, U (snd kv) = Some y /\ In (fst kv, y) l'.
Proof.
  intros H. apply map_snd_forall2 in H. induction H as [|[k x] [k' y] l l' [E Hx] _ IH]; [intros []|]. cbn [fst snd] in *. subst k'.
  intros [<-|Hin]; [exists y; split; auto; now left|]. destruct (IH Hin) as [y0 [E0 I0]]. exists y0. split; auto. now right.
Qed.

Section LeafFuel.
  Variable ord : list (str * id) -> list (str * id).
  Variable cf : nat.
  Variable t : types.

  Definition vt_total (g : nat) : Prop := forall v tr, unfold_vt g t v = Some tr -> vt_resfree tr = true ->
    forall F, (2 * g <= F)%nat -> okm False (remap_value_type ord cf F t v).

  Lemma omap_total g o otr : vt_total g -> omap (unfold_vt g t) o = Some otr ->
    match otr with Some y => vt_resfree y | None => true end = true ->
    forall F, (2 * g <= F)%nat -> okm False (optM (remap_value_type ord cf F t) o).
  Proof.
    intros HV Hu Hr F HF. apply okm_optM. intros x ->. cbn [omap] in Hu. destruct (unfold_vt g t x) as [y|] eqn:E; [|discriminate].
    injection Hu as <-. eapply HV; eauto.
  Qed.

  Lemma vt_total_all : forall g, vt_total g.
  Proof.
    induction g as [|g IH]; intros v tr Hu Hr F HF; [discriminate|]. destruct F as [|f]; [lia|]. cbn [remap_value_type].
    rewrite unfold_vt_eq in Hu. destruct v as [p|r|r|d]; cbn [unfold_vt_body] in Hu.
    - apply okm_ret.
    - destruct (res_name_of (S g) t r); [|discriminate]. injection Hu as <-. discriminate.
    - destruct (res_name_of (S g) t r); [|discriminate]. injection Hu as <-. discriminate.
    - apply okm_fmap. destruct f as [|f]; [lia|]. cbn [remap_defined_type].
      assert (HF' : (2 * g <= f)%nat) by lia.
      apply okm_bind; [apply okm_remapped_get|]. intros hit. destruct hit as [[| |[| | |y]| | |]|]; try apply okm_panic; [apply okm_ret|].
      apply okm_bind_idxM. intros x Hx. rewrite Hx in Hu.
      assert (Hfin : forall x', okm False (y <-- add_def x' ;;; remapped_new (TValue (VDefined d)) (TValue (VDefined y)) ;;; ret y)).
      { intros x'. apply okm_bind; [apply okm_add_def|]. intros y. apply okm_bind; [apply okm_remapped_new|]. intros _. apply okm_ret. }
      apply okm_bind; [|intros x'; apply Hfin].
      destruct x as [l|v|v n|v|o e|cs|fs|fl|el|v|o|o].
      + (* DTuple *) destruct (all_some (map (unfold_vt g t) l)) as [trs|] eqn:El; [|discriminate]. injection Hu as <-.
        apply okm_fmap. apply okm_mapM. intros v Hin.
        destruct (all_some_in _ _ _ _ El Hin) as [tr0 [E0 I0]]. cbn [vt_resfree] in Hr. rewrite forallb_forall in Hr.
        eapply IH; eauto.
      + (* DList *) destruct (unfold_vt g t v) as [trc|] eqn:Ev; [|discriminate]. injection Hu as <-.
        apply okm_fmap. eapply IH; eauto.
      + (* DFsl *) destruct (unfold_vt g t v) as [trc|] eqn:Ev; [|discriminate]. injection Hu as <-.
        apply okm_fmap. eapply IH; eauto.
      + (* DOption *) destruct (unfold_vt g t v) as [trc|] eqn:Ev; [|discriminate]. injection Hu as <-.
        apply okm_fmap. eapply IH; eauto.
      + (* DResult *) destruct (omap (unfold_vt g t) o) as [tro|] eqn:Eo; [|discriminate].
        destruct (omap (unfold_vt g t) e) as [tre|] eqn:Ee; [|discriminate]. injection Hu as <-.
        cbn [vt_resfree] in Hr. apply andb_true_iff in Hr as [Hr1 Hr2].
        apply okm_bind; [eapply omap_total; eauto|]. intros o'. apply okm_bind; [eapply omap_total; eauto|]. intros e'. apply okm_ret.
      + (* DVariant *) destruct (map_snd (omap (unfold_vt g t)) cs) as [trs|] eqn:El; [|discriminate]. injection Hu as <-.
        apply okm_fmap. apply okm_mapM. intros nv Hin. apply okm_fmap.
        destruct (map_snd_in_l _ _ _ _ El Hin) as [y0 [E0 I0]]. cbn [vt_resfree] in Hr. rewrite forallb_forall in Hr.
        specialize (Hr _ I0). cbn [snd] in Hr. eapply omap_total; eauto.
      + (* DRecord *) destruct (map_snd (unfold_vt g t) fs) as [trs|] eqn:El; [|discriminate]. injection Hu as <-.
        apply okm_fmap. apply okm_mapM. intros nv Hin. apply okm_fmap.
        destruct (map_snd_in_l _ _ _ _ El Hin) as [y0 [E0 I0]]. cbn [vt_resfree] in Hr. rewrite forallb_forall in Hr.
        specialize (Hr _ I0). cbn [snd] in Hr. eapply IH; eauto.
      + (* DFlags *) apply okm_ret.
      + (* DEnum *) apply okm_ret.
      + (* DAlias *) apply okm_fmap. eapply IH; eauto.
      + (* DStream *) destruct (omap (unfold_vt g t) o) as [tro|] eqn:Eo; [|discriminate]. injection Hu as <-.
        apply okm_fmap. eapply omap_total; eauto.
      + (* DFuture *) destruct (omap (unfold_vt g t) o) as [tro|] eqn:Eo; [|discriminate]. injection Hu as <-.
        apply okm_fmap. eapply omap_total; eauto.
  Qed.

  Lemma func_total g i ft : unfold_func g t i = Some ft -> ft_resfree ft = true ->
    forall F, (2 * g + 1 <= F)%nat -> okm False (remap_func_type ord cf F t i).
  Proof.
    intros Hu Hr F HF. destruct F as [|f]; [lia|]. cbn [remap_func_type].
    apply okm_bind; [apply okm_remapped_get|]. intros hit. destruct hit as [[|y| | | |]|]; try apply okm_panic; [apply okm_ret|].
    unfold unfold_func in Hu. apply okm_bind_idxM. intros x Hx. rewrite Hx in Hu.
    destruct (map_snd (unfold_vt g t) (f_params x)) as [ps|] eqn:Ep; [|discriminate].
    destruct (omap (unfold_vt g t) (f_result x)) as [r|] eqn:Er; [|discriminate]. injection Hu as <-.
    unfold ft_resfree in Hr. cbn [ft_params ft_result] in Hr. apply andb_true_iff in Hr as [Hr1 Hr2].
    apply okm_bind.
    - apply okm_mapM. intros nv Hin. apply okm_fmap.
      destruct (map_snd_in_l _ _ _ _ Ep Hin) as [y0 [E0 I0]]. rewrite forallb_forall in Hr1. specialize (Hr1 _ I0). cbn [snd] in Hr1.
      eapply (vt_total_all g); eauto. lia.
    - intros ps'. apply okm_bind; [eapply omap_total; eauto using vt_total_all; lia|]. intros r'.
      apply okm_bind; [apply okm_add_func|]. intros y. apply okm_bind; [apply okm_remapped_new|]. intros _. apply okm_ret.
  Qed.

  Theorem leaf_copy_total g k tr : leafk k = true -> unfold g t k = Some tr -> resfree tr = true ->
    forall F, (2 * g + 2 <= F)%nat -> okm False (remap_item_kind ord cf F t k).
  Proof.
    intros Hl Hu Hr F HF. destruct F as [|f]; [lia|]. cbn [remap_item_kind].
    destruct g as [|g]; [discriminate|]. cbn [unfold] in Hu.
    destruct k as [[| |v| | |]|i| | | |v]; try discriminate Hl.
    - destruct (unfold_vt (S g) t v) as [vt|] eqn:Ev; [|discriminate]. injection Hu as <-. cbn [resfree] in Hr.
      apply okm_fmap. destruct f as [|f]; [lia|]. cbn [remap_type].
      apply okm_fmap. eapply (vt_total_all (S g)); eauto. lia.
    - destruct (unfold_func (S g) t i) as [ft|] eqn:Ef; [|discriminate]. injection Hu as <-. cbn [resfree] in Hr.
      apply okm_fmap. eapply func_total; eauto. lia.
    - destruct (unfold_vt (S g) t v) as [vt|] eqn:Ev; [|discriminate]. injection Hu as <-. cbn [resfree] in Hr.
      apply okm_fmap. eapply (vt_total_all (S g)); eauto. lia.
  Qed.

  (** the escape clause [LeafOof] of the nested fuel bound is empty for [L >= 2*g + 2] when every resource-free leaf kind of
      the contributor's collection unfolds within [g] *)
  Corollary no_LeafOof g L : (forall k tr, leaf_den t k tr -> unfold g t k = Some tr) -> (2 * g + 2 <= L)%nat ->
    ~ LeafOof ord cf t L.
  Proof.
    intros Hg HL [F [k [tr [c [HF [[Lk [U R]] H]]]]]]. assert (HF2 : (2 * g + 2 <= F)%nat) by lia.
    exact (leaf_copy_total g k tr Lk (Hg k tr (conj Lk (conj U R))) R F HF2 c H).
  Qed.

  Theorem nested_copy_total g d k tr ids :
    (forall k0 tr0, leaf_den t k0 tr0 -> unfold g t k0 = Some tr0) -> SDen d t k tr ids ->
    forall F c, (2 * d + 2 * g + 2 <= F)%nat -> remap_item_kind ord cf F t k c <> AOof.
  Proof.
    intros Hg HD F c HF H. apply (no_LeafOof g (2 * g + 2) Hg (le_n _)).
    apply (nested_copy_fuel_bound ord cf t (2 * g + 2) d k tr ids HD F c); [lia|exact H].
  Qed.
  Theorem nested_merge_total g d i oid e ids :
    (forall k0 tr0, leaf_den t k0 tr0 -> unfold g t k0 = Some tr0) -> SIDen d t i oid e ids ->
    forall F y c, (2 * d + 2 * g + 4 <= F)%nat -> merge_interface ord cf F y t i c = AOof -> ChkOof cf t.
  Proof.
    intros Hg ID F y c HF H.
    destruct (nested_merge_fuel_bound ord cf t (2 * g + 2) d i oid e ids ID F y c ltac:(lia) H) as [X|X]; [|exact X].
    exfalso. exact (no_LeafOof g (2 * g + 2) Hg (le_n _) X).
  Qed.
End LeafFuel.
