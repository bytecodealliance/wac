(** Merging FLAT instance requirements: interfaces without uses (with or without identifier) whose exports are
    functions, values and value types over resource-free types.  One [merge_interface] step yields the union of the
    export names in first-seen order, keeps the tree of every export already present, and offers every export of the
    contributor with the contributor's tree. *)
From WacV Require Import Str Names Types Checker SubSpec CheckerEq CheckerValue CheckerProofs.
From WacV Require Import Aggregator AggregatorSpec AggregatorFrame AggregatorRemap AggregatorChecker AggregatorNames StrFacts ListFacts.

(** * Leaf kinds denote the same tree in every collection in which they denote at all *)
Lemma res_name_tag g t r n : res_name_of g t r = Some n -> id_tag r = t_tag t.
Proof.
  destruct g as [|g]; [discriminate|]. cbn [res_name_of]. destruct (get_res t r) eqn:E; [|discriminate].
  intros _. unfold get_res in E. now apply lookup_tag in E.
Qed.
Lemma Unf_indep t1 t2 v a b : (t_tag t1 = t_tag t2 -> t1 = t2) -> Unf t1 v a -> Unf t2 v b -> a = b.
Proof.
  intros HS [g1 H1] [g2 H2]. destruct g1 as [|g1]; [discriminate|]. destruct g2 as [|g2]; [discriminate|].
  assert (X : t_tag t1 = t_tag t2 -> a = b).
  { intros E. rewrite <- (HS E) in H2. eapply Unf_det; eexists; eauto. }
  pose proof H1 as H1'. pose proof H2 as H2'. rewrite unfold_vt_eq in H1', H2'. destruct v as [p|r|r|d]; cbn [unfold_vt_body] in H1', H2'.
  - congruence.
  - destruct (res_name_of (S g1) t1 r) eqn:E1; [|discriminate]. destruct (res_name_of (S g2) t2 r) eqn:E2; [|discriminate].
    apply res_name_tag in E1, E2. apply X. congruence.
  - destruct (res_name_of (S g1) t1 r) eqn:E1; [|discriminate]. destruct (res_name_of (S g2) t2 r) eqn:E2; [|discriminate].
    apply res_name_tag in E1, E2. apply X. congruence.
  - apply X. rewrite <- (Unf_def_tag t1 d a), <- (Unf_def_tag t2 d b); [reflexivity | now exists (S g2) | now exists (S g1)].
Qed.
Lemma UnfF_indep t1 t2 i a b : (t_tag t1 = t_tag t2 -> t1 = t2) -> UnfF t1 i a -> UnfF t2 i b -> a = b.
Proof.
  intros HS H1 H2. assert (E : t_tag t1 = t_tag t2) by (rewrite <- (UnfF_tag _ _ _ H1); exact (UnfF_tag _ _ _ H2)).
  rewrite <- (HS E) in H2. exact (UnfF_det _ _ _ _ H1 H2).
Qed.
Lemma UnfK_leaf_indep t1 t2 k a b : (t_tag t1 = t_tag t2 -> t1 = t2) -> leafk k = true -> UnfK t1 k a -> UnfK t2 k b -> a = b.
Proof.
  intros HS L H1 H2. apply (UnfK_leaf_inv _ _ _ L) in H1. apply (UnfK_leaf_inv _ _ _ L) in H2.
  destruct k as [[| |v| | |]|i| | | |v]; try discriminate L.
  - destruct H1 as [x [-> H1]], H2 as [y [-> H2]]. f_equal. eapply Unf_indep; eauto.
  - destruct H1 as [x [-> H1]], H2 as [y [-> H2]]. f_equal. eapply UnfF_indep; eauto.
  - destruct H1 as [x [-> H1]], H2 as [y [-> H2]]. f_equal. eapply Unf_indep; eauto.
Qed.
Lemma UnfK_leaf_ext t t' k tr : ext t t' -> leafk k = true -> UnfK t k tr -> UnfK t' k tr.
Proof.
  intros E L [g H]. exists g. destruct g as [|g]; [discriminate|]. cbn [unfold] in *.
  destruct k as [[| |v| | |]|i| | | |v]; try discriminate L.
  - destruct (unfold_vt (S g) t v) eqn:X; [|discriminate]. now rewrite (unfold_vt_ext _ _ E _ _ _ X).
  - destruct (unfold_func (S g) t i) eqn:X; [|discriminate]. now rewrite (unfold_func_ext _ _ E _ _ _ X).
  - destruct (unfold_vt (S g) t v) eqn:X; [|discriminate]. now rewrite (unfold_vt_ext _ _ E _ _ _ X).
Qed.

Lemma set_nth_length {A} n (x : A) l : length (set_nth n x l) = length l.
Proof. revert n. induction l as [|y l IH]; intros [|n]; cbn [set_nth length]; auto. Qed.
Lemma nth_set_nth_same {A} n (x : A) l y : nth_error l n = Some y -> nth_error (set_nth n x l) n = Some x.
Proof. revert n. induction l as [|z l IH]; intros [|n]; cbn [set_nth nth_error]; try discriminate; auto. Qed.
Lemma nth_set_nth_other {A} n m (x : A) l : n <> m -> nth_error (set_nth n x l) m = nth_error l m.
Proof. revert n m. induction l as [|z l IH]; intros [|n] [|m] N; cbn [set_nth nth_error]; auto; try congruence. Qed.

Definition flat_exports (T : types) (e : list (str * kind)) : Prop :=
  NoDup (map fst e) /\ forall n k, In (n, k) e -> leafk k = true /\ exists tr, UnfK T k tr /\ resfree tr = true.
Definition flat_if (T : types) (x : Types.interface) : Prop := i_uses x = [] /\ flat_exports T (i_exports x).

Lemma flat_exports_ext T T' e : ext T T' -> flat_exports T e -> flat_exports T' e.
Proof.
  intros E [ND H]. split; auto. intros n k Hin. destruct (H n k Hin) as [L [tr [U R]]]. split; auto.
  exists tr. split; auto. eapply UnfK_leaf_ext; eauto.
Qed.

Section Flat.
  Variable ord : list (str * id) -> list (str * id).
  Variable cf : nat.
  Variable Col : types -> Prop.
  Hypothesis Col_same : forall t1 t2, Col t1 -> Col t2 -> t_tag t1 = t_tag t2 -> t1 = t2.
  Variable tag0 : N.
  Hypothesis Col_tag : forall t, Col t -> t_tag t <> tag0.

  (** [k] denotes [tr] in the aggregator's collection or in a contributor's *)
  Definition KT (c : core) (k : kind) (tr : tree) : Prop := UnfK (c_types c) k tr \/ exists t, Col t /\ UnfK t k tr.
  Definition CacheInv (c : core) : Prop :=
    forall a b, In (a, b) (cache (c_chk c)) -> leafk a = true /\ leafk b = true /\ exists tr, KT c a tr /\ KT c b tr.
  Record MInv (c : core) : Prop := {
    mi_tag : t_tag (c_types c) = tag0;
    mi_rinv : RInv Col c;
    mi_cache : CacheInv c }.

  Lemma KT_det c k a b : t_tag (c_types c) = tag0 -> leafk k = true -> KT c k a -> KT c k b -> a = b.
  Proof.
    intros T L [H1|[t1 [C1 H1]]] [H2|[t2 [C2 H2]]].
    - eapply UnfK_leaf_indep; eauto.
    - eapply UnfK_leaf_indep; [| |exact H1|exact H2]; auto. intros E. exfalso. apply (Col_tag _ C2). congruence.
    - eapply UnfK_leaf_indep; [| |exact H1|exact H2]; auto. intros E. exfalso. apply (Col_tag _ C1). congruence.
    - eapply UnfK_leaf_indep; [| |exact H1|exact H2]; auto.
  Qed.
  Lemma KT_ext c c' k tr : ext (c_types c) (c_types c') -> leafk k = true -> KT c k tr -> KT c' k tr.
  Proof. intros E L [H|H]; [left; eapply UnfK_leaf_ext; eauto | right; exact H]. Qed.
  Lemma CacheInv_ext c c' : ext (c_types c) (c_types c') -> c_chk c' = c_chk c -> CacheInv c -> CacheInv c'.
  Proof.
    intros E Ec I a b Hin. rewrite Ec in Hin. destruct (I a b Hin) as [La [Lb [tr [Ha Hb]]]].
    repeat split; auto. exists tr. split; eapply KT_ext; eauto.
  Qed.

  Lemma is_subtype_leaf s at_ a bt b r s' ta tb :
    (t_tag at_ = t_tag bt -> at_ = bt) -> leafk a = true -> leafk b = true -> UnfK at_ a ta -> UnfK bt b tb ->
    (forall x y, In (x, y) (cache s) -> x = a -> y = b -> ta = tb) ->
    is_subtype cf s at_ a bt b = (r, s') ->
    ks s' = ks s /\ (cache s' = cache s \/ (cache s' = (a, b) :: cache s /\ r = Ok tt)) /\ (r = Ok tt -> ta = tb).
  Proof.
    intros HS La Lb Ha Hb Hc H. destruct cf as [|f]; cbn [is_subtype] in H.
    - injection H as <- <-. repeat split; auto. discriminate.
    - destruct (cache_mem (a, b) (cache s)) eqn:Em.
      + injection H as <- <-. repeat split; auto. intros _. apply cache_mem_in in Em. eapply Hc; eauto.
      + destruct (is_subtype_ (is_subtype f) (S f) s at_ a bt b) as [r0 s0] eqn:E0.
        assert (Hs0 : s0 = s).
        { unfold is_subtype_ in E0.
          destruct a as [[| |va| | |]|ia| | | |va]; try discriminate La; destruct b as [[| |vb| | |]|ib| | | |vb]; try discriminate Lb;
            cbn [ty_ lift] in E0; injection E0 as _ <-; reflexivity. }
        subst s0. destruct r0 as [[]| | |].
        * injection H as <- <-. cbn [ks cache]. repeat split; auto.
          intros _. exact (proj1 (leaf_step_sound at_ bt HS _ _ _ _ _ _ _ _ La Lb E0 Ha Hb)).
        * injection H as <- <-. repeat split; auto. discriminate.
        * injection H as <- <-. repeat split; auto. discriminate.
        * injection H as <- <-. repeat split; auto. discriminate.
  Qed.

  Lemma sub_leaf c at_ a bt b ta tb r s' :
    MInv c -> (t_tag at_ = t_tag bt -> at_ = bt) -> leafk a = true -> leafk b = true ->
    UnfK at_ a ta -> UnfK bt b tb -> KT c a ta -> KT c b tb ->
    is_subtype cf (c_chk c) at_ a bt b = (r, s') -> MInv (with_chk c s') /\ (is_ok r = true -> ta = tb).
  Proof.
    intros I HS La Lb Ha Hb Ka Kb E.
    assert (Hcache : forall x y, In (x, y) (cache (c_chk c)) -> x = a -> y = b -> ta = tb).
    { intros x y Hin -> ->. destruct (mi_cache _ I _ _ Hin) as [_ [_ [tr [K1 K2]]]].
      now rewrite (KT_det c a ta tr (mi_tag _ I) La Ka K1), (KT_det c b tb tr (mi_tag _ I) Lb Kb K2). }
    destruct (is_subtype_leaf _ _ _ _ _ _ _ ta tb HS La Lb Ha Hb Hcache E) as [Hk [Hc Hr]]. split.
    - split; cbn [c_types c_remapped c_chk with_chk]; [apply (mi_tag _ I) | apply (mi_rinv _ I) |].
      intros x y Hin. cbn [c_chk with_chk] in Hin. destruct Hc as [Hc|[Hc Hok]]; rewrite Hc in Hin.
      + apply (mi_cache _ I _ _ Hin).
      + destruct Hin as [X|Hin]; [|apply (mi_cache _ I _ _ Hin)]. injection X as <- <-.
        repeat split; auto. exists ta. split; [exact Ka | rewrite (Hr Hok); exact Kb].
    - destruct r as [[]| | |]; cbn [is_ok]; try discriminate. intros _. now apply Hr.
  Qed.

  (** foreign [sk] against the aggregator's [tk] *)
  Lemma sub_fa_leaf t c sk tk r c' ts tg :
    Col t -> MInv c -> leafk sk = true -> leafk tk = true -> UnfK t sk ts -> UnfK (c_types c) tk tg ->
    sub_fa cf t sk tk c = AOk (r, c') ->
    c' = with_chk c (c_chk c') /\ MInv c' /\ (is_ok r = true -> ts = tg).
  Proof.
    intros Ct I Ls Lt Hs Ht H. unfold sub_fa in H.
    destruct (is_subtype cf (c_chk c) t sk (c_types c) tk) as [r0 s0] eqn:E. injection H as <- <-.
    split; [reflexivity|]. apply (sub_leaf c t sk (c_types c) tk ts tg r0 s0); auto; [|right; eauto|now left].
    intros X. elim (Col_tag _ Ct). rewrite X. apply (mi_tag _ I).
  Qed.

  (** the aggregator's [tk] against foreign [sk] *)
  Lemma sub_af_leaf t c sk tk r c' ts tg :
    Col t -> MInv c -> leafk sk = true -> leafk tk = true -> UnfK t sk ts -> UnfK (c_types c) tk tg ->
    sub_af cf t tk sk c = AOk (r, c') ->
    c' = with_chk c (c_chk c') /\ MInv c' /\ (is_ok r = true -> ts = tg).
  Proof.
    intros Ct I Ls Lt Hs Ht H. unfold sub_af in H.
    destruct (is_subtype cf (c_chk c) (c_types c) tk t sk) as [r0 s0] eqn:E. injection H as <- <-.
    split; [reflexivity|].
    destruct (sub_leaf c (c_types c) tk t sk tg ts r0 s0) as [I' Hr]; auto; [|now left|right; eauto|].
    - intros X. elim (Col_tag _ Ct). rewrite <- X. apply (mi_tag _ I).
    - split; [exact I'|]. intros Hok. symmetry. now apply Hr.
  Qed.

  Lemma RInv_set c k k' : RInv Col c -> entry_ok Col (c_types c) k k' -> RInv Col (with_remapped c (rm_ins k k' (c_remapped c))).
  Proof. intros I He. eapply RInv_ins; [exact I | apply ext_refl | reflexivity | exact He]. Qed.

  (** the entry recorded after an accepted check of two leaf kinds with equal trees *)
  Lemma entry_ok_leaf t agg sk tk tr :
    Col t -> leafk sk = true -> leafk tk = true -> UnfK t sk tr -> UnfK agg tk tr -> entry_ok Col agg (ty_of sk) (ty_of tk).
  Proof.
    intros Ct Ls Lt Hs Ht. apply (UnfK_leaf_inv _ _ _ Ls) in Hs. apply (UnfK_leaf_inv _ _ _ Lt) in Ht.
    destruct sk as [[| |vs| | |]|fs| | | |vs]; try discriminate Ls; destruct Hs as [a [-> Hs]];
      destruct tk as [[| |vt| | |]|ft| | | |vt]; try discriminate Lt; destruct Ht as [b [Eb Ht]]; try discriminate Eb;
      injection Eb as <-; cbn [ty_of].
    - destruct vs as [p|r|r|d]; try exact Logic.I. exact (entry_ok_def Col Col_same t Ct _ _ _ _ Hs Ht).
    - exact (entry_ok_func Col Col_same t Ct _ _ _ _ Hs Ht).
    - destruct vs as [p|r|r|d]; try exact Logic.I. exact (entry_ok_def Col Col_same t Ct _ _ _ _ Hs Ht).
  Qed.

  Lemma MInv_ext c c' : MInv c -> Ext c c' -> RInv Col c' -> MInv c'.
  Proof.
    intros I E R. split; auto.
    - rewrite (ext_tag _ _ (x_types _ _ E)). apply (mi_tag _ I).
    - eapply CacheInv_ext; [apply E | apply E | apply (mi_cache _ I)].
  Qed.

  Lemma leaf_pair t c c' sk tk ts tg (K : M unit) :
    Col t -> MInv c -> leafk sk = true -> leafk tk = true -> UnfK t sk ts -> UnfK (c_types c) tk tg ->
    (r1 <-- sub_fa cf t sk tk ;;;
     if is_ok r1 then if replaceable (ty_of sk) (ty_of tk) then remapped_set (ty_of sk) (ty_of tk) else ret tt
     else r2 <-- sub_af cf t tk sk ;;; must AEMismatchExport r2 ;;; K) c = AOk (tt, c') ->
    ts = tg /\ exists s rm, MInv (with_remapped (with_chk c s) rm) /\
      (forall j, rm_get (TInterface j) rm = rm_get (TInterface j) (c_remapped c)) /\
      (c' = with_remapped (with_chk c s) rm \/ K (with_remapped (with_chk c s) rm) = AOk (tt, c')).
  Proof.
    intros Ct I Ls Lt Us Ut H. apply bindM_ok in H as [r1 [c1 [H1 H]]].
    destruct (sub_fa_leaf t c sk tk r1 c1 ts tg Ct I Ls Lt Us Ut H1) as [Ec1 [I1 Ok1]].
    set (s1 := c_chk c1) in Ec1. clearbody s1. subst c1. destruct (is_ok r1).
    - specialize (Ok1 eq_refl). subst tg. split; [reflexivity|]. exists s1. destruct (replaceable (ty_of sk) (ty_of tk)).
      + unfold remapped_set in H. injection H as <-. eexists. split; [|split; [|left; reflexivity]].
        * split; cbn [c_types c_remapped c_chk with_remapped]; [apply (mi_tag _ I1) | | apply (mi_cache _ I1)].
          apply (RInv_set (with_chk c s1)); [apply (mi_rinv _ I1)|]. eapply entry_ok_leaf; eauto.
        * intros j. cbn [c_remapped with_chk]. apply rm_get_ins_other.
          destruct sk as [[| |v| | |]|fi| | | |v]; try discriminate Ls; discriminate.
      + apply ret_ok in H as [_ ->]. exists (c_remapped c). split; [exact I1|]. split; [reflexivity|]. left. destruct c; reflexivity.
    - apply bindM_ok in H as [r2 [c2 [H2 H]]]. apply bindM_ok in H as [u [c3 [H3 H]]].
      destruct (sub_af_leaf t (with_chk c s1) sk tk r2 c2 ts tg Ct I1 Ls Lt Us Ut H2) as [Ec2 [I2 Ok2]].
      set (s2 := c_chk c2) in Ec2. clearbody s2. subst c2.
      destruct r2 as [[]| | |]; cbn [must] in H3; try discriminate. apply ret_ok in H3 as [_ ->].
      split; [now apply Ok2|]. exists s2, (c_remapped c). split; [exact I2|]. split; [reflexivity|]. right. exact H.
  Qed.

  Lemma upd_if_ok existing f c c' x :
    get_if (c_types c) existing = Some x -> upd_if existing f c = AOk (tt, c') ->
    c' = with_types c (t_with_interfaces (c_types c) (set_nth (id_idx existing) (f x) (t_interfaces (c_types c)))).
  Proof.
    intros Hg H. unfold upd_if in H. apply bindM_ok in H as [y [c1 [H1 H]]]. unfold agg_if in H1. rewrite Hg in H1.
    cbn [idxM] in H1. apply ret_ok in H1 as [-> ->]. now injection H as <-.
  Qed.
  Lemma get_if_upd_same T existing y x :
    get_if T existing = Some x ->
    get_if (t_with_interfaces T (set_nth (id_idx existing) y (t_interfaces T))) existing = Some y.
  Proof.
    unfold get_if, lookup. cbn [t_tag t_interfaces t_with_interfaces]. destruct (id_tag existing =? t_tag T); [|discriminate].
    apply nth_set_nth_same.
  Qed.
  Lemma get_if_upd_other T existing y j :
    id_idx j <> id_idx existing ->
    get_if (t_with_interfaces T (set_nth (id_idx existing) y (t_interfaces T))) j = get_if T j.
  Proof.
    intros N. unfold get_if, lookup. cbn [t_tag t_interfaces t_with_interfaces]. destruct (id_tag j =? t_tag T); auto.
    apply nth_set_nth_other. congruence.
  Qed.
  Lemma ext_upd_if T l : ext T (t_with_interfaces T l).
  Proof. split; cbn; auto using prefix_refl. Qed.

  Definition merge_export_body (f : nat) (existing : id) (t : types) (nk : str * kind) : M unit :=
    let '(name, sk) := nk in
    ex <-- agg_if existing ;;;
    let do_remap : M unit :=
        k' <-- remap_item_kind ord cf f t sk ;;; upd_if existing (if_set_export name k') in
    match assoc name (i_exports ex) with
    | Some tk =>
      match nested_pair tk sk existing with
      | Some (target_id, source_id) =>
        merge_interface ord cf f target_id t source_id ;;; remapped_set (ty_of sk) (ty_of tk)
      | None =>
        r1 <-- sub_fa cf t sk tk ;;;
        if is_ok r1 then
          if replaceable (ty_of sk) (ty_of tk) then remapped_set (ty_of sk) (ty_of tk) else ret tt
        else r2 <-- sub_af cf t tk sk ;;; must AEMismatchExport r2 ;;; do_remap
      end
    | None => do_remap
    end.
  Lemma nested_pair_leaf tk sk e : leafk sk = true -> nested_pair tk sk e = None.
  Proof. destruct sk as [[| | | | |]| | | | |]; try discriminate; destruct tk; reflexivity. Qed.
  Lemma merge_interface_S f existing t i :
    merge_interface ord cf (S f) existing t i =
    (merge_interface_used_types ord cf f existing t i ;;;
     src <-- idxM (get_if t i) ;;; forM (merge_export_body f existing t) (i_exports src)).
  Proof. reflexivity. Qed.

  (** what the loop maintains about the interface being merged into *)
  Record LoopSt (existing : id) (c : core) (oid : option str) (exs : list (str * kind)) : Prop := {
    ls_inv : MInv c;
    ls_get : get_if (c_types c) existing = Some (mkif oid [] exs);
    ls_flat : flat_exports (c_types c) exs }.

  (** what one iteration / the whole loop leaves alone *)
  Record Frame (existing : id) (c c' : core) : Prop := {
    fr_ext : ext (c_types c) (c_types c');
    fr_imports : c_imports c' = c_imports c;
    fr_ifaces : c_ifaces c' = c_ifaces c;
    fr_len : length (t_interfaces (c_types c')) = length (t_interfaces (c_types c));
    fr_other : forall j, id_idx j <> id_idx existing -> get_if (c_types c') j = get_if (c_types c) j;
    fr_noif : forall i, rm_get (TInterface i) (c_remapped c') = rm_get (TInterface i) (c_remapped c) }.
  Lemma Frame_refl e c : Frame e c c. Proof. split; auto using ext_refl. Qed.
  Lemma Frame_trans e a b c : Frame e a b -> Frame e b c -> Frame e a c.
  Proof.
    intros [A1 A2 A3 A4 A5 A6] [B1 B2 B3 B4 B5 B6]. split; eauto using ext_trans; try congruence.
    intros j N. rewrite B5, A5; auto.
  Qed.
  Lemma Frame_of_Ext e c c' : Ext c c' -> Frame e c c'.
  Proof.
    intros E. split; try apply E.
    - now rewrite (x_if _ _ E).
    - intros j N. unfold get_if. now rewrite (x_if _ _ E), (ext_tag _ _ (x_types _ _ E)).
  Qed.

  Lemma flat_tree_ext T T' exs n k tr :
    flat_exports T exs -> ext T T' -> assoc n exs = Some k -> (UnfK T k tr <-> UnfK T' k tr).
  Proof.
    intros [_ Hall] E Ha. destruct (Hall n k (assoc_in _ _ _ Ha)) as [Lk [tr0 [U0 _]]]. split; intros Hu.
    - eapply UnfK_leaf_ext; eauto.
    - assert (tr = tr0) as -> by (eapply UnfK_det; [exact Hu|]; eapply UnfK_leaf_ext; eauto). exact U0.
  Qed.

  Lemma do_remap_step f existing t name sk ts c c' oid exs :
    Col t -> leafk sk = true -> UnfK t sk ts -> resfree ts = true -> LoopSt existing c oid exs ->
    (k' <-- remap_item_kind ord cf f t sk ;;; upd_if existing (if_set_export name k')) c = AOk (tt, c') ->
    exists k', LoopSt existing c' oid (ins name k' exs) /\ Frame existing c c' /\ UnfK (c_types c') k' ts /\
      (forall n k tr, name <> n -> assoc n exs = Some k -> UnfK (c_types c) k tr ->
                      exists k2, assoc n (ins name k' exs) = Some k2 /\ UnfK (c_types c') k2 tr) /\
      (forall n k2 tr, assoc n (ins name k' exs) = Some k2 -> UnfK (c_types c') k2 tr ->
                       (exists k, assoc n exs = Some k /\ UnfK (c_types c) k tr) \/ (n = name /\ tr = ts)).
  Proof.
    intros Ct Ls Hs Hr [I Hg Hf] H. apply bindM_ok in H as [k' [c1 [H1 H2]]].
    destruct (leaf_sound ord cf Col Col_same t Ct f sk ts c k' c1 Ls (mi_rinv _ I) Hs Hr H1) as [U1 [E1 [R1 L1]]].
    assert (Hg1 : get_if (c_types c1) existing = Some (mkif oid [] exs)).
    { unfold get_if. rewrite (x_if _ _ E1), (ext_tag _ _ (x_types _ _ E1)). exact Hg. }
    rewrite (upd_if_ok _ _ _ _ _ Hg1 H2). cbn [if_set_export i_id i_uses i_exports].
    set (T1 := c_types c1). set (T2 := t_with_interfaces T1 (set_nth (id_idx existing) (mkif oid [] (ins name k' exs)) (t_interfaces T1))).
    assert (E2 : ext T1 T2) by apply ext_upd_if.
    pose proof (MInv_ext _ _ I E1 R1) as I1.
    assert (U3 : UnfK T2 k' ts) by (eapply UnfK_leaf_ext; eauto).
    assert (E : ext (c_types c) T2) by exact (ext_trans _ _ _ (x_types _ _ E1) E2).
    exists k'. split; [split|split; [|split; [exact U3|split]]].
    - split; cbn [c_types c_remapped c_chk with_types].
      + apply (mi_tag _ I1).
      + intros x y Hx. eapply entry_ok_ext; [exact E2|]. now apply (mi_rinv _ I1).
      + eapply (CacheInv_ext c1); [exact E2 | reflexivity | apply (mi_cache _ I1)].
    - cbn [c_types with_types]. now apply (get_if_upd_same T1 _ _ _ Hg1).
    - cbn [c_types with_types]. destruct Hf as [ND Hall]. split; [now apply nodup_keys_ins|].
      intros n k Hin. apply in_ins in Hin as [[-> ->]|Hin].
      + split; auto. exists ts. split; auto.
      + destruct (Hall n k Hin) as [L [tr [U R]]]. split; auto. exists tr. split; auto.
        eapply UnfK_leaf_ext; [exact E2|auto|]. eapply UnfK_leaf_ext; [apply E1|auto|exact U].
    - eapply Frame_trans; [apply Frame_of_Ext; exact E1|]. split; cbn [c_types c_imports c_ifaces c_remapped with_types]; auto.
      + cbn [t_interfaces t_with_interfaces T2]. apply set_nth_length.
      + intros j N. now apply get_if_upd_other.
    - intros n k tr N Ha Hu. exists k. rewrite assoc_ins_other by auto. split; auto. now apply (flat_tree_ext (c_types c) T2 exs n).
    - intros n k2 tr Ha Hu. destruct (str_eqb_spec name n) as [<-|N].
      + right. rewrite assoc_ins_same in Ha. injection Ha as <-. split; auto. exact (UnfK_det _ _ _ _ Hu U3).
      + left. rewrite assoc_ins_other in Ha by auto. exists k2. split; auto. now apply (flat_tree_ext (c_types c) T2 exs n).
  Qed.

  Lemma merge_body_step f existing t name sk ts c c' oid exs :
    Col t -> leafk sk = true -> UnfK t sk ts -> resfree ts = true -> LoopSt existing c oid exs ->
    merge_export_body f existing t (name, sk) c = AOk (tt, c') ->
    exists exs', LoopSt existing c' oid exs' /\ Frame existing c c' /\
      map fst exs' = (if has_key name exs then map fst exs else map fst exs ++ [name]) /\
      (exists k', assoc name exs' = Some k' /\ UnfK (c_types c') k' ts) /\
      (forall n k tr, assoc n exs = Some k -> UnfK (c_types c) k tr ->
                      exists k', assoc n exs' = Some k' /\ UnfK (c_types c') k' tr) /\
      (forall n k' tr, assoc n exs' = Some k' -> UnfK (c_types c') k' tr ->
                       (exists k, assoc n exs = Some k /\ UnfK (c_types c) k tr) \/ (n = name /\ tr = ts)).
  Proof.
    intros Ct Ls Hs Hr L H. unfold merge_export_body in H.
    apply bindM_ok in H as [ex [c0 [H0 H]]]. unfold agg_if in H0. rewrite (ls_get _ _ _ _ L) in H0. cbn [idxM] in H0.
    apply ret_ok in H0 as [-> ->]. cbn [i_exports] in H. unfold has_key.
    destruct (assoc name exs) as [tk|] eqn:Ea.
    - (* the export exists already *)
      destruct (ls_flat _ _ _ _ L) as [ND Hall]. destruct (Hall name tk (assoc_in _ _ _ Ea)) as [Lt [tg [Ht Rt]]].
      rewrite (nested_pair_leaf tk sk existing Ls) in H.
      destruct (leaf_pair t c c' sk tk ts tg _ Ct (ls_inv _ _ _ _ L) Ls Lt Hs Ht H) as [<- [s1 [rm [I2 [Hrm Hc']]]]].
      assert (L2 : LoopSt existing (with_remapped (with_chk c s1) rm) oid exs).
      { split; [exact I2 | apply (ls_get _ _ _ _ L) | apply (ls_flat _ _ _ _ L)]. }
      assert (F2 : Frame existing c (with_remapped (with_chk c s1) rm)).
      { split; cbn [c_types c_imports c_ifaces c_remapped with_remapped with_chk]; auto using ext_refl. }
      destruct Hc' as [->|HK].
      + (* source <: target accepted: nothing changes but the memo and the remap table *)
        exists exs. split; [exact L2|]. split; [exact F2|]. split; [reflexivity|]. split; [exists tk; auto|].
        split; [eauto|]. intros n k0 tr Hn Hu. left. eauto.
      + (* otherwise the target is a subtype of the source; the source is copied and replaces the export *)
        destruct (do_remap_step f existing t name sk ts _ c' oid exs Ct Ls Hs Hr L2 HK) as [k' [L3 [F3 [U3 [Old' Conv']]]]].
        exists (ins name k' exs). split; [exact L3|]. split; [exact (Frame_trans _ _ _ _ F2 F3)|]. split; [|split; [|split]].
        * apply (keys_ins_old _ _ _ _ Ea).
        * exists k'. split; auto. apply assoc_ins_same.
        * intros n k tr Hn Hu. destruct (str_eqb_spec name n) as [<-|N]; [|now apply (Old' n k tr)].
          exists k'. split; [apply assoc_ins_same|]. assert (k = tk) by congruence. subst k.
          now rewrite (UnfK_det _ _ _ _ Hu Ht).
        * exact Conv'.
    - (* a new export *)
      destruct (do_remap_step f existing t name sk ts c c' oid exs Ct Ls Hs Hr L H) as [k' [L3 [F3 [U3 [Old' Conv']]]]].
      exists (ins name k' exs). split; [exact L3|]. split; [exact F3|]. split; [|split; [|split]].
      + apply (keys_ins_new _ _ _ Ea).
      + exists k'. split; auto. apply assoc_ins_same.
      + intros n k tr Hn Hu. apply (Old' n k tr); auto. intros <-. congruence.
      + exact Conv'.
  Qed.

  Lemma fsu_nil a : first_seen_union a [] = a.
  Proof. unfold first_seen_union. cbn. now rewrite app_nil_r. Qed.
  Lemma existsb_str_in k a : existsb (str_eqb k) a = true <-> In k a.
  Proof.
    rewrite existsb_exists. split.
    - intros [x [Hin E]]. apply str_eqb_eq in E. now subst.
    - intros H. exists k. split; auto. apply str_eqb_refl.
  Qed.
  Lemma fsu_cons_old a n r : In n a -> first_seen_union a (n :: r) = first_seen_union a r.
  Proof. intros H. unfold first_seen_union. cbn [filter]. apply existsb_str_in in H. now rewrite H. Qed.
  Lemma fsu_cons_new a n r : ~ In n a -> ~ In n r -> first_seen_union a (n :: r) = first_seen_union (a ++ [n]) r.
  Proof.
    intros Ha Hr. unfold first_seen_union. cbn [filter].
    assert (existsb (str_eqb n) a = false) as ->.
    { destruct (existsb (str_eqb n) a) eqn:E; auto. apply existsb_str_in in E. contradiction. }
    cbn [negb]. rewrite <- app_assoc. cbn [app]. f_equal. f_equal. apply filter_ext_in. intros k Hk.
    rewrite existsb_app. cbn [existsb]. rewrite orb_false_r.
    destruct (str_eqb k n) eqn:E; [|now rewrite orb_false_r].
    apply str_eqb_eq in E. subst k. contradiction.
  Qed.

  Lemma fsu_subset a b : (forall k, In k b -> In k a) -> first_seen_union a b = a.
  Proof.
    intros H. unfold first_seen_union.
    assert (E : filter (fun k => negb (existsb (str_eqb k) a)) b = []).
    { induction b as [|k b IH]; cbn [filter]; auto.
      assert (existsb (str_eqb k) a = true) as -> by (apply existsb_str_in; apply H; now left).
      cbn [negb]. apply IH. intros k0 Hk0. apply H. now right. }
    rewrite E. apply app_nil_r.
  Qed.

  Lemma has_key_in {V} n (l : list (str * V)) : has_key n l = true <-> In n (map fst l).
  Proof.
    unfold has_key. destruct (assoc n l) eqn:E.
    - split; auto. intros _. eapply assoc_in_keys; eauto.
    - split; [discriminate|]. intros H. apply assoc_none_keys in E. contradiction.
  Qed.

  Lemma merge_loop f existing t oid : forall rest c c' exs,
    Col t -> NoDup (map fst rest) ->
    (forall n k, In (n, k) rest -> leafk k = true /\ exists tr, UnfK t k tr /\ resfree tr = true) ->
    LoopSt existing c oid exs -> forM (merge_export_body f existing t) rest c = AOk (tt, c') ->
    exists exs', LoopSt existing c' oid exs' /\ Frame existing c c' /\
      map fst exs' = first_seen_union (map fst exs) (map fst rest) /\
      (forall n k tr, In (n, k) rest -> UnfK t k tr -> exists k', assoc n exs' = Some k' /\ UnfK (c_types c') k' tr) /\
      (forall n k tr, assoc n exs = Some k -> UnfK (c_types c) k tr ->
                      exists k', assoc n exs' = Some k' /\ UnfK (c_types c') k' tr) /\
      (forall n k' tr, assoc n exs' = Some k' -> UnfK (c_types c') k' tr ->
                       (exists k, assoc n exs = Some k /\ UnfK (c_types c) k tr) \/
                       (exists ek, In (n, ek) rest /\ UnfK t ek tr)).
  Proof.
    induction rest as [|[name sk] rest IH]; intros c c' exs Ct ND Hall L H; cbn [forM] in H.
    - apply ret_ok in H as [_ ->]. exists exs. split; auto. split; [apply Frame_refl|]. split; [now rewrite fsu_nil|].
      split; [intros n k tr []|]. split; [intros n k tr Hn Hu; eauto|]. intros n k tr Hn Hu. left. eauto.
    - apply bindM_ok in H as [[] [c1 [H1 H]]]. cbn [map fst] in ND. inversion ND as [|? ? Hnin ND']; subst.
      destruct (Hall name sk (or_introl eq_refl)) as [Ls [ts [Hs Hr]]].
      destruct (merge_body_step f existing t name sk ts c c1 oid exs Ct Ls Hs Hr L H1) as [exs1 [L1 [F1 [K1 [[k1 [A1 U1]] [Old1 Conv1]]]]]].
      destruct (IH c1 c' exs1 Ct ND' (fun n k Hin => Hall n k (or_intror Hin)) L1 H) as [exs2 [L2 [F2 [K2 [New2 [Old2 Conv2]]]]]].
      exists exs2. split; auto. split; [eapply Frame_trans; eauto|]. split; [|split; [|split]].
      + rewrite K2, K1. cbn [map fst]. destruct (has_key name exs) eqn:Eh.
        * apply has_key_in in Eh. now rewrite fsu_cons_old.
        * rewrite fsu_cons_new; auto. intros X. apply has_key_in in X. congruence.
      + intros n k tr [E|Hin] Hu.
        * injection E as <- <-. assert (tr = ts) as -> by (eapply UnfK_leaf_indep; [| |exact Hu|exact Hs]; auto).
          apply (Old2 _ _ _ A1 U1).
        * now apply (New2 n k tr).
      + intros n k tr Hn Hu. destruct (Old1 n k tr Hn Hu) as [k' [A' U']]. apply (Old2 _ _ _ A' U').
      + intros n k' tr Hn Hu. destruct (Conv2 n k' tr Hn Hu) as [[k1' [A' U']]|[ek [Hin Hek]]].
        * destruct (Conv1 n k1' tr A' U') as [X|[-> ->]]; [now left|]. right. exists sk. split; [now left|exact Hs].
        * right. exists ek. split; [now right|exact Hek].
  Qed.

  Lemma merge_interface_flat F existing t i x c c' oid exs :
    Col t -> get_if t i = Some x -> flat_if t x -> LoopSt existing c oid exs ->
    merge_interface ord cf F existing t i c = AOk (tt, c') ->
    exists exs', LoopSt existing c' oid exs' /\ Frame existing c c' /\
      map fst exs' = first_seen_union (map fst exs) (map fst (i_exports x)) /\
      (forall n k tr, In (n, k) (i_exports x) -> UnfK t k tr -> exists k', assoc n exs' = Some k' /\ UnfK (c_types c') k' tr) /\
      (forall n k tr, assoc n exs = Some k -> UnfK (c_types c) k tr ->
                      exists k', assoc n exs' = Some k' /\ UnfK (c_types c') k' tr) /\
      (forall n k' tr, assoc n exs' = Some k' -> UnfK (c_types c') k' tr ->
                       (exists k, assoc n exs = Some k /\ UnfK (c_types c) k tr) \/
                       (exists ek, In (n, ek) (i_exports x) /\ UnfK t ek tr)).
  Proof.
    intros Ct Hg [Hu [ND Hall]] L H. destruct F as [|f]; [discriminate|]. rewrite merge_interface_S in H.
    apply bindM_ok in H as [[] [c1 [H1 H]]].
    assert (c1 = c) as ->.
    { destruct f as [|f]; [discriminate|]. cbn [merge_interface_used_types] in H1.
      apply bindM_ok in H1 as [src [c0 [H0 H1]]]. rewrite Hg in H0. cbn [idxM] in H0. apply ret_ok in H0 as [-> ->].
      rewrite Hu in H1. cbn [forM] in H1. now apply ret_ok in H1 as [_ ->]. }
    apply bindM_ok in H as [src [c0 [H0 H]]]. rewrite Hg in H0. cbn [idxM] in H0. apply ret_ok in H0 as [-> ->].
    eapply merge_loop; eauto.
  Qed.

  Lemma copy_exports f t : forall l c es c',
    Col t -> MInv c ->
    (forall n k, In (n, k) l -> leafk k = true /\ exists tr, UnfK t k tr /\ resfree tr = true) ->
    mapM (fun nk : str * kind => k' <-- remap_item_kind ord cf f t (snd nk) ;;; ret (fst nk, k')) l c = AOk (es, c') ->
    MInv c' /\ Ext c c' /\ map fst es = map fst l /\
    (forall n k', In (n, k') es -> leafk k' = true /\ exists tr, UnfK (c_types c') k' tr /\ resfree tr = true) /\
    (forall n k tr, In (n, k) l -> UnfK t k tr -> exists k', In (n, k') es /\ UnfK (c_types c') k' tr) /\
    (forall n k', In (n, k') es -> exists k tr, In (n, k) l /\ UnfK t k tr /\ UnfK (c_types c') k' tr).
  Proof.
    induction l as [|[n k] l IH]; intros c es c' Ct I Hall H; cbn [mapM] in H.
    - apply ret_ok in H as [-> ->]. split; auto. split; [apply Ext_refl|]. split; auto. split; [intros ? ? []|]. split; [intros ? ? ? []|intros ? ? []].
    - apply bindM_ok in H as [y [c1 [H1 H]]]. apply bindM_ok in H as [ys [c2 [H2 H]]]. apply ret_ok in H as [-> ->].
      apply bindM_ok in H1 as [k' [c0 [H0 H1]]]. apply ret_ok in H1 as [-> ->]. cbn [fst snd] in *.
      destruct (Hall n k (or_introl eq_refl)) as [Lk [tr [Hu Hr]]].
      destruct (leaf_sound ord cf Col Col_same t Ct f k tr c k' c0 Lk (mi_rinv _ I) Hu Hr H0) as [U1 [E1 [R1 L1]]].
      pose proof (MInv_ext _ _ I E1 R1) as I1.
      destruct (IH c0 ys c2 Ct I1 (fun n0 k0 Hin => Hall n0 k0 (or_intror Hin)) H2) as [I2 [E2 [K2 [F2 [N2 P2]]]]].
      split; auto. split; [eapply Ext_trans; eauto|]. split; [cbn [map fst]; now rewrite K2|]. split; [|split].
      + intros n0 k0 [X|Hin]; [|now apply (F2 n0 k0)]. injection X as <- <-. split; auto. exists tr. split; auto.
        eapply UnfK_leaf_ext; [apply E2|auto|exact U1].
      + intros n0 k0 tr0 [X|Hin] Hu0.
        * injection X as <- <-. exists k'. split; [now left|].
          assert (tr0 = tr) as -> by (eapply UnfK_leaf_indep; [| |exact Hu0|exact Hu]; auto).
          eapply UnfK_leaf_ext; [apply E2|auto|exact U1].
        * destruct (N2 n0 k0 tr0 Hin Hu0) as [k1 [X Y]]. exists k1. split; [now right|auto].
      + intros n0 k0 [X|Hin].
        * injection X as <- <-. exists k, tr. split; [now left|]. split; auto. eapply UnfK_leaf_ext; [apply E2|auto|exact U1].
        * destruct (P2 n0 k0 Hin) as [k1 [tr1 [X [Y Z]]]]. exists k1, tr1. split; [now right|auto].
  Qed.

  Lemma remap_interface_flat F t i x c y c' :
    Col t -> get_if t i = Some x -> flat_if t x -> MInv c ->
    (forall nm, i_id x = Some nm -> rm_get (TInterface i) (c_remapped c) = None) ->
    (forall nm, i_id x = Some nm -> assoc nm (c_ifaces c) = None /\ find_compat nm (ord (c_ifaces c)) = None) ->
    remap_interface ord cf F t i c = AOk (y, c') ->
    exists exs, LoopSt y c' (i_id x) exs /\ id_idx y = length (t_interfaces (c_types c)) /\
      map fst exs = map fst (i_exports x) /\
      (forall n k tr, In (n, k) (i_exports x) -> UnfK t k tr -> exists k', assoc n exs = Some k' /\ UnfK (c_types c') k' tr) /\
      (forall n k' tr, assoc n exs = Some k' -> UnfK (c_types c') k' tr -> exists ek, In (n, ek) (i_exports x) /\ UnfK t ek tr) /\
      ext (c_types c) (c_types c') /\ c_imports c' = c_imports c /\
      c_ifaces c' = match i_id x with Some nm => ins nm y (c_ifaces c) | None => c_ifaces c end /\
      (forall j z, get_if (c_types c) j = Some z -> get_if (c_types c') j = Some z) /\
      (forall i', i' <> i -> rm_get (TInterface i') (c_remapped c') = rm_get (TInterface i') (c_remapped c)) /\
      rm_get (TInterface i) (c_remapped c') =
        match i_id x with Some _ => Some (TInterface y) | None => rm_get (TInterface i) (c_remapped c) end.
  Proof.
    intros Ct Hg [Hu [ND Hall]] I Hnone Hlook H. destruct F as [|f]; [discriminate|]. cbn [remap_interface] in H.
    apply bindM_ok in H as [x0 [c0 [H0 H]]]. rewrite Hg in H0. cbn [idxM] in H0. apply ret_ok in H0 as [-> ->].
    apply bindM_ok in H as [hit [c0 [H0 H]]].
    assert (Hhit : hit = None /\ c0 = c).
    { destruct (i_id x) as [nm|] eqn:Hid.
      - destruct (Hlook nm eq_refl) as [L1 L2]. apply bindM_ok in H0 as [e [c1 [H1 H0]]].
        unfold lookup_iface in H1. rewrite L1, L2 in H1. injection H1 as <- <-. now apply ret_ok in H0 as [-> ->].
      - now apply ret_ok in H0 as [-> ->]. }
    destruct Hhit as [-> ->]. clear H0.
    apply bindM_ok in H as [r [c0 [H0 H]]].
    assert (Hr : r = None /\ c0 = c).
    { destruct (i_id x) as [nm|] eqn:Hid.
      - unfold remapped_get in H0. injection H0 as <- <-. split; auto. exact (Hnone nm eq_refl).
      - now apply ret_ok in H0 as [-> ->]. }
    destruct Hr as [-> ->]. clear H0.
    apply bindM_ok in H as [us [c0 [H0 H]]]. rewrite Hu in H0. cbn [mapM] in H0. apply ret_ok in H0 as [-> ->].
    apply bindM_ok in H as [es [c1 [H1 H]]].
    destruct (copy_exports f t _ _ _ _ Ct I Hall H1) as [I1 [E1 [K1 [F1 [N1 P1]]]]].
    apply bindM_ok in H as [y0 [c2 [H2 H]]]. unfold add_if in H2. injection H2 as <- <-.
    apply bindM_ok in H as [u2 [c4 [H4 H]]]. apply ret_ok in H as [-> ->].
    set (T1 := c_types c1) in *. set (newif := {| i_id := i_id x; i_uses := []; i_exports := es |}) in *.
    set (T2 := t_with_interfaces T1 (t_interfaces T1 ++ [newif])) in *.
    set (ynew := {| id_tag := t_tag T1; id_idx := length (t_interfaces T1) |}) in *.
    set (c3 := with_remapped (with_types c1 T2)
                 (match i_id x with Some _ => rm_ins (TInterface i) (TInterface ynew) (c_remapped c1) | None => c_remapped c1 end)) in *.
    assert (Hc4 : c_types c4 = T2 /\ c_imports c4 = c_imports c1 /\ c_remapped c4 = c_remapped c3 /\ c_chk c4 = c_chk c1 /\
                  c_ifaces c4 = match i_id x with Some nm => ins nm ynew (c_ifaces c) | None => c_ifaces c end).
    { subst c3. destruct (i_id x) as [nm|] eqn:Hid.
      - apply bindM_ok in H4 as [u [c3 [H3 H4]]]. unfold remapped_new in H3. cbn [c_remapped with_types] in H3.
        rewrite (x_noif _ _ E1), (Hnone nm eq_refl) in H3. injection H3 as H3. subst c3.
        unfold iface_new in H4. cbn [c_ifaces with_remapped with_types] in H4. rewrite (x_ifaces _ _ E1) in H4.
        destruct (Hlook nm eq_refl) as [L1 _]. unfold has_key in H4. rewrite L1 in H4. injection H4 as H4. subst c4.
        cbn [c_types c_imports c_remapped c_chk c_ifaces with_ifaces with_remapped with_types]. auto.
      - apply ret_ok in H4 as [_ ->]. cbn [c_types c_imports c_remapped c_chk c_ifaces with_remapped with_types].
        repeat split; auto. apply E1. }
    destruct Hc4 as [Q1 [Q2 [Q3 [Q4 Q5]]]].
    assert (E2 : ext T1 T2) by apply ext_upd_if.
    assert (NDe : NoDup (map fst es)) by now rewrite K1.
    exists es. rewrite Q1, Q2, Q3, Q5.
    split; [split|].
    - split.
      + rewrite Q1. apply (mi_tag _ I1).
      + assert (E4 : ext (c_types c1) (c_types c4)) by (rewrite Q1; exact E2).
        destruct (i_id x) as [nm|].
        * eapply RInv_ins; [apply (mi_rinv _ I1) | exact E4 | exact Q3 | exact Logic.I].
        * intros k k' Hk. rewrite Q3 in Hk. eapply entry_ok_ext; [exact E4|]. now apply (mi_rinv _ I1).
      + apply (CacheInv_ext c1); [rewrite Q1; exact E2 | exact Q4 | apply (mi_cache _ I1)].
    - rewrite Q1. unfold get_if. cbn [t_tag t_interfaces t_with_interfaces T2]. apply lookup_new.
    - rewrite Q1. split; auto. intros n k' Hin. destruct (F1 n k' Hin) as [L [tr [U R]]].
      split; auto. exists tr. split; auto. eapply UnfK_leaf_ext; eauto.
    - split; [cbn [id_idx ynew]; unfold T1; now rewrite (x_if _ _ E1)|]. split; [exact K1|].
      split; [|split; [|split; [|split; [|split; [|split; [|split]]]]]].
      + intros n k tr Hin Hu0. destruct (N1 n k tr Hin Hu0) as [k' [X Y]]. exists k'. split; [now apply in_assoc|].
        eapply UnfK_leaf_ext; [exact E2| |exact Y]. now destruct (F1 n k' X).
      + intros n k' tr Ha Hu0. destruct (P1 n k' (assoc_in _ _ _ Ha)) as [ek [tr1 [X [Y Z]]]]. exists ek. split; auto.
        destruct (F1 n k' (assoc_in _ _ _ Ha)) as [Lk _].
        assert (tr = tr1) as -> by (eapply UnfK_det; [exact Hu0|]; eapply UnfK_leaf_ext; eauto). exact Y.
      + eapply ext_trans; [apply E1|exact E2].
      + apply E1.
      + reflexivity.
      + intros j z Hj. unfold get_if in *. cbn [t_tag t_interfaces t_with_interfaces T2]. unfold T1.
        rewrite (x_if _ _ E1), (ext_tag _ _ (x_types _ _ E1)). eapply lookup_prefix; [apply prefix_app|exact Hj].
      + intros i' N. cbn [c_remapped c3 with_remapped]. destruct (i_id x); [|apply (x_noif _ _ E1)].
        rewrite rm_get_ins_other; [apply (x_noif _ _ E1)|]. congruence.
      + cbn [c_remapped c3 with_remapped]. destruct (i_id x); [apply rm_get_ins_same | apply (x_noif _ _ E1)].
  Qed.
End Flat.
