(** The order on versions is a total order: it compares, field by field, keys from which the version can be read back. *)
From WacV Require Import Str Ord Semver.
From WacV Require Export StrFacts.

(** [split_on] is injective: joining the segments gives the string back. *)
Fixpoint join (c : N) (segs : list str) : str :=
  match segs with
  | [] => []
  | [s] => s
  | s :: r => s ++ c :: join c r
  end.

Lemma join_split c s : join c (split_on c s) = s.
Proof.
  induction s as [|x s IH]; cbn; auto.
  destruct (x =? c) eqn:E.
  - apply N.eqb_eq in E; subst. pose proof (split_on_nonempty c s).
    destruct (split_on c s) eqn:F; try contradiction. cbn in *. now rewrite IH.
  - pose proof (split_on_nonempty c s).
    destruct (split_on c s) as [|seg segs] eqn:F; try contradiction.
    cbn in *. destruct segs; cbn in *; now rewrite <- IH.
Qed.

Lemma split_on_inj c a b : split_on c a = split_on c b -> a = b.
Proof. intros H. rewrite <- (join_split c a), <- (join_split c b). now rewrite H. Qed.

(** Leading-zero trimming loses only the count of zeros. *)
Lemma trim_decomp c s : exists k, s = repeat c k ++ trim_start_matches c s /\
                                   (length s = k + length (trim_start_matches c s))%nat.
Proof.
  induction s as [|x s [k [IH1 IH2]]]; cbn.
  - exists 0%nat; auto.
  - destruct (x =? c) eqn:E.
    + apply N.eqb_eq in E; subst. exists (S k); cbn; split; [congruence|lia].
    + exists 0%nat; auto.
Qed.

Lemma trim_len_inj c a b :
  trim_start_matches c a = trim_start_matches c b -> length a = length b -> a = b.
Proof.
  intros H L. destruct (trim_decomp c a) as [k [A1 A2]], (trim_decomp c b) as [j [B1 B2]].
  rewrite A1, B1, H. f_equal. f_equal. rewrite H in A2. lia.
Qed.

Definition len_total_cmp : str -> str -> comparison := @len_cmp N.

Definition num_pre_cmp (l r : str) := then_with (len_cmp l r) (str_cmp l r).
Definition num_build_cmp (l r : str) :=
  let lv := trim_start_matches c_zero l in
  let rv := trim_start_matches c_zero r in
  then_with (len_cmp lv rv) (then_with (str_cmp lv rv) (len_cmp l r)).

Lemma num_pre_total : total_cmp num_pre_cmp.
Proof.
  unfold num_pre_cmp, len_cmp.
  apply (pair_total (@length N) (fun s : str => s) Nat.compare str_cmp nat_total str_total). auto.
Qed.

Lemma num_build_total : total_cmp num_build_cmp.
Proof.
  unfold num_build_cmp, len_cmp.
  apply (pair_total (fun s : str => length (trim_start_matches c_zero s)) (fun s : str => s)
           Nat.compare
           (fun l r => then_with (str_cmp (trim_start_matches c_zero l) (trim_start_matches c_zero r))
                                 (Nat.compare (length l) (length r)))
           nat_total).
  - apply (pair_total (trim_start_matches c_zero) (@length N) str_cmp Nat.compare str_total nat_total).
    apply trim_len_inj.
  - auto.
Qed.

Lemma pre_seg_cmp_class l r : pre_seg_cmp l r = class_cmp all_digits num_pre_cmp str_cmp Lt l r.
Proof. unfold pre_seg_cmp, class_cmp. destruct (all_digits l), (all_digits r); reflexivity. Qed.

Lemma build_seg_cmp_class l r : build_seg_cmp l r = class_cmp all_digits num_build_cmp str_cmp Lt l r.
Proof. unfold build_seg_cmp, class_cmp. destruct (all_digits l), (all_digits r); reflexivity. Qed.

Lemma total_ext {A} (c c' : A -> A -> comparison) :
  (forall a b, c a b = c' a b) -> total_cmp c' -> total_cmp c.
Proof.
  intros E [He Hr Ha Ht]; split; intros; rewrite ?E in *; eauto.
Qed.

Lemma pre_seg_total : total_cmp pre_seg_cmp.
Proof.
  eapply total_ext; [apply pre_seg_cmp_class|].
  apply class_total; [discriminate | apply num_pre_total | apply str_total].
Qed.

Lemma build_seg_total : total_cmp build_seg_cmp.
Proof.
  eapply total_ext; [apply build_seg_cmp_class|].
  apply class_total; [discriminate | apply num_build_total | apply str_total].
Qed.

Lemma cmp_build_total : total_cmp cmp_build.
Proof.
  unfold cmp_build.
  apply (pull_total (split_on c_dot) (lex_cmp build_seg_cmp)).
  - apply lex_total, build_seg_total.
  - apply split_on_inj.
Qed.

Definition pre_lex (a b : str) := lex_cmp pre_seg_cmp (split_on c_dot a) (split_on c_dot b).

Lemma pre_lex_total : total_cmp pre_lex.
Proof.
  apply (pull_total (split_on c_dot) (lex_cmp pre_seg_cmp)).
  - apply lex_total, pre_seg_total.
  - apply split_on_inj.
Qed.

Lemma cmp_pre_class a b : cmp_pre a b = class_cmp (@is_nil N) pre_lex pre_lex Gt a b.
Proof.
  unfold cmp_pre, class_cmp. destruct a, b; cbn; auto.
Qed.

Lemma cmp_pre_total : total_cmp cmp_pre.
Proof.
  eapply total_ext; [apply cmp_pre_class|].
  apply class_total; [discriminate | apply pre_lex_total | apply pre_lex_total].
Qed.

Definition vkey (v : version) := (major v, (minor v, (patch v, (pre v, build v)))).

Lemma cmp_version_key a b :
  cmp_version a b =
  prod_cmp N.compare (prod_cmp N.compare (prod_cmp N.compare (prod_cmp cmp_pre cmp_build))) (vkey a) (vkey b).
Proof. reflexivity. Qed.

Theorem cmp_version_total : total_cmp cmp_version.
Proof.
  eapply total_ext; [apply cmp_version_key|].
  apply (pull_total vkey).
  - repeat apply prod_total; auto using N_total, cmp_pre_total, cmp_build_total.
  - intros [] []; unfold vkey; cbn; congruence.
Qed.
