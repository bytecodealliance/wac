(** C16 (d): whole histories do not depend on the order oracles.
    The sorted scan of [define_type] is order-independent only when no two entries of [defined] share a node.
    That holds in every state the C06 invariant [Inv] holds in and that was reached through the API: the entries
    of [defined] point to live nodes ([inv_defined]), the slot a new definition gets was dead, and every other
    operation leaves [defined] alone or deletes entries from it. *)
From Coq Require Import List Arith Bool NArith Permutation Lia.
From WacV Require Import Graph GraphInv GraphSteps GraphRemove GraphTheorems Determinism DeterminismProofs.
Import ListNotations.

Lemma length_set_nth {A} (l : list A) n x : length (set_nth l n x) = length l.
Proof. apply GraphInv.length_set_nth. Qed.

Definition distinct_defs (s : gstate) : Prop := NoDup (map snd (defined s)).

Lemma fold_defined {A} (F : gstate -> A -> gstate) :
  (forall s x, defined (F s x) = defined s) -> forall l s, defined (fold_left F l s) = defined s.
Proof. intros HF. induction l as [|x r IH]; simpl; intros s; [reflexivity|]. now rewrite IH. Qed.

Lemma same_defined s s' : defined s' = defined s -> distinct_defs s -> distinct_defs s'.
Proof. unfold distinct_defs. now intros ->. Qed.

Lemma add_node_defined s nd s1 idx : add_node s nd = (s1, idx) -> defined s1 = defined s.
Proof. unfold add_node. destruct (free_nodes s); intros [= <- _]; reflexivity. Qed.

Lemma add_node_fresh u s nd s1 idx : Inv u s -> add_node s nd = (s1, idx) -> ~ In idx (map snd (defined s)).
Proof.
  intros I A Hin. apply in_map_iff in Hin as [[t n] [E Hp]]. simpl in E. subst n.
  destruct (inv_defined u s I t idx Hp) as [x [Gx _]].
  assert (L : live s idx = true) by (unfold live; now rewrite Gx).
  unfold add_node in A. destruct (free_nodes s) as [|i fr] eqn:Ef; inversion A; subst.
  - unfold live, get_node in L. rewrite (proj2 (nth_error_None _ _) (le_n _)) in L. discriminate.
  - destruct (inv_free_dead u s I idx) as [_ Dd]; [rewrite Ef; now left | congruence].
Qed.

Lemma remove_satisfied_all_defined l s s' : remove_satisfied_all s l = inl s' -> defined s' = defined s.
Proof. intros H. apply (remove_satisfied_all_spec l s s' H). Qed.

Lemma remove_one_distinct s n s' : remove_one s n = inl s' -> distinct_defs s -> distinct_defs s'.
Proof.
  unfold remove_one, distinct_defs. intros H D.
  destruct (remove_satisfied_all s (arg_targets (outgoing s n))) as [s1|] eqn:E1; [|discriminate].
  rewrite <- (remove_satisfied_all_defined _ _ _ E1) in D.
  destruct (get_node s1 n) as [nd|]; [|discriminate].
  match type of H with (match ?X with inl _ => _ | inr _ => _ end) = _ => destruct X as [im|]; [|discriminate] end.
  match type of H with (match ?X with inl _ => _ | inr _ => _ end) = _ => destruct X as [ex|]; [|discriminate] end.
  destruct (nk nd); [destruct (existsb _ _); [|discriminate]|..]; inversion H; subst; simpl;
    [now apply NoDup_map_filter | exact D..].
Qed.

Lemma remove_node_rec_distinct : forall fuel s n s',
  remove_node_rec fuel s n = inl s' -> distinct_defs s -> distinct_defs s'.
Proof.
  induction fuel as [|f IH]; intros s n s' H D; [discriminate|].
  rewrite remove_node_rec_S in H.
  assert (Hgo : forall l a b, go_list (remove_node_rec f) a l = inl b -> distinct_defs a -> distinct_defs b).
  { induction l as [|m r IHl]; intros a b Hab Da; cbn in Hab.
    - now inversion Hab; subst.
    - destruct (live a m); [|eauto].
      destruct (remove_node_rec f a m) as [a'|] eqn:E; [|discriminate]. eauto. }
  destruct (go_list (remove_node_rec f) s (dependants s n)) as [s1|] eqn:E; [|discriminate].
  eapply remove_one_distinct; [exact H|]. eapply Hgo; eassumption.
Qed.

Lemma unregister_distinct s id : distinct_defs s -> distinct_defs (fst (unregister s id)).
Proof.
  intros D. unfold unregister.
  destruct (nth_error (pkgs s) (fst id)) as [sl|]; [|exact D].
  destruct (negb (ps_gen sl =? snd id)); [exact D|].
  match goal with |- context [if ?c then _ else _] => destruct c; [exact D|] end.
  cbv zeta.
  match goal with |- context [remove_satisfied_all ?S1 ?L] =>
    destruct (remove_satisfied_all S1 L) as [s2|] eqn:E; [|exact D] end.
  destruct (ps_pkg sl); [|exact D]. unfold distinct_defs. simpl.
  rewrite (fold_defined drop_node (fun _ _ => eq_refl)), (remove_satisfied_all_defined _ _ _ E). simpl.
  now apply NoDup_map_filter.
Qed.

Lemma define_type_distinct u s nm t : Inv u s -> distinct_defs s -> distinct_defs (fst (define_type u s nm t)).
Proof.
  intros I D. destruct (define_type_spec u s nm t) as [->|(td & s1 & idx & new & _ & _ & _ & A & _ & ->)]; [exact D|].
  unfold distinct_defs. simpl. rewrite (add_node_defined _ _ _ _ A). constructor; [|exact D].
  exact (add_node_fresh u s _ s1 idx I A).
Qed.

Lemma step_distinct u s op : Inv u s -> distinct_defs s -> distinct_defs (fst (step u s op)).
Proof.
  intros I D. destruct op as [p|id|nm t|nm k|id|n e|i a n|i a n|n e|n|n nm|n]; cbn [step].
  - destruct (register_spec u s p) as [->|(pk & fp & ->)]; exact D.
  - now apply unregister_distinct.
  - now apply define_type_distinct.
  - destruct (import_spec u s nm k) as [->|(kd & s1 & idx & _ & A & ->)]; [exact D|].
    exact (same_defined s _ (add_node_defined _ _ _ _ A) D).
  - destruct (instantiate_spec u s id) as [->|(pd & s1 & idx & _ & A & ->)]; [exact D|].
    exact (same_defined s _ (add_node_defined _ _ _ _ A) D).
  - destruct (alias_spec u s n e) as [->|(nd & ex & index & kind & s1 & idx & _ & _ & _ & A & ->)]; [exact D|].
    exact (same_defined s _ (add_node_defined _ _ _ _ A) D).
  - destruct (set_arg_spec u s i a n) as [->|(nd & sat & index & _ & _ & ->)]; exact D.
  - destruct (unset_arg_spec u s i a n) as [->|(nd & sat & index & _ & _ & ->)]; exact D.
  - destruct (export_spec u s n e) as [->|(nd & _ & _ & ->)]; exact D.
  - destruct (unexport_spec s n) as [->|(nd & ex & _ & _ & _ & ->)]; exact D.
  - destruct (set_name_spec s n nm) as [->|(nd & _ & ->)]; exact D.
  - unfold remove_node. destruct (remove_node_rec _ s n) as [s1|] eqn:E; [|exact D].
    eapply remove_node_rec_distinct; eassumption.
Qed.

Theorem define_type_with_canonical u s nm t : define_type_with u s (defined s) nm t = define_type u s nm t.
Proof.
  unfold define_type_with, define_type.
  destruct (nth_error (u_tys u) t) as [td|]; [|reflexivity].
  destruct (existsb _ (defined s)); [reflexivity|]. destruct (td_res td); [reflexivity|].
  destruct (existsb (fun p => N.eqb (fst p) nm) (exports s)); [reflexivity|]. destruct (negb _); [reflexivity|].
  destruct (add_node s _) as [s1 idx] eqn:A. pose proof (add_node_defined _ _ _ _ A) as Ed. cbv zeta. unfold sort_by_node.
  match goal with |- context [defined (fold_left ?F (td_deps td) s1)] =>
    rewrite (fold_defined F); [now rewrite Ed|] end.
  intros a x. destruct (x =? t); [reflexivity|]. destruct (alist_get Nat.eqb (defined a) x); [|reflexivity].
  now destruct (has_dep_edge a n idx).
Qed.

Lemma step_with_canonical o k u s op : valid_oracle o -> distinct_defs s -> step_with o k u s op = step u s op.
Proof.
  intros Hv D. destruct op; try reflexivity; simpl.
  - apply unregister_with_canonical. exact Hv.
  - rewrite <- define_type_with_canonical. destruct Hv as [Hd _]. apply define_type_order_indep.
    + apply Hd.
    + eapply Permutation_NoDup; [apply Permutation_map, Permutation_sym, Hd | exact D].
Qed.

Lemma run_from_canonical o u : valid_oracle o ->
  forall ops k s, Inv u s -> distinct_defs s ->
    run_from o u k s ops = run_plain u s ops /\ distinct_defs (fst (run_plain u s ops)).
Proof.
  intros Hv. induction ops as [|op r IH]; intros k s I D; simpl; [now split|].
  rewrite (step_with_canonical o k u s op Hv D).
  pose proof (step_inv u s op I) as I'. pose proof (step_distinct u s op I D) as D'.
  destruct (step u s op) as [s' out]. simpl in I', D'.
  destruct (IH (S k) s' I' D') as [E D'']. rewrite E. destruct (run_plain u s' r). now split.
Qed.

Lemma run_with_canonical o u ops : valid_oracle o ->
  run_with o u ops = run_plain u empty_graph ops /\ distinct_defs (fst (run_plain u empty_graph ops)).
Proof. intros Hv. apply run_from_canonical; [exact Hv | apply inv_empty | constructor]. Qed.

(** for every operation history, the final state (nodes, free lists, adjacency order, all maps, package slots)
    and every returned value are the same whatever orders the hash maps iterate in *)
Theorem history_oracle_indep : forall u ops o1 o2,
    valid_oracle o1 -> valid_oracle o2 -> run_with o1 u ops = run_with o2 u ops.
Proof.
  intros u ops o1 o2 H1 H2.
  now rewrite (proj1 (run_with_canonical o1 u ops H1)), (proj1 (run_with_canonical o2 u ops H2)).
Qed.

(** the invariant behind it, for every history *)
Theorem defined_nodes_distinct : forall u ops o, valid_oracle o -> NoDup (map snd (defined (fst (run_with o u ops)))).
Proof. intros u ops o Hv. destruct (run_with_canonical o u ops Hv) as [E D]. now rewrite E. Qed.
