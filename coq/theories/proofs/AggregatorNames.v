(** What [ins], [rem] and [assoc] do to the aggregator's association lists; then its canonical-name bookkeeping:
    the invariant of (import keys, redirects, contributed names). *)
From WacV Require Import Str Ord Semver Names NamesSpec Types Aggregator AggregatorSpec.
From WacV Require Import SemverProofs NamesProofs CheckerEq StrFacts ListFacts.

Lemma assoc_ins_same {V} k (v : V) l : assoc k (ins k v l) = Some v.
Proof.
  induction l as [|[k' v'] l IH]; cbn [ins assoc].
  - now rewrite str_eqb_refl.
  - destruct (str_eqb k k') eqn:E; cbn [assoc]; rewrite E; auto.
Qed.
Lemma assoc_ins_other {V} k k' (v : V) l : k <> k' -> assoc k' (ins k v l) = assoc k' l.
Proof.
  intros N. induction l as [|[k2 v2] l IH]; cbn [ins assoc].
  - destruct (str_eqb_spec k' k); [congruence|auto].
  - destruct (str_eqb_spec k k2) as [<-|E]; cbn [assoc].
    + destruct (str_eqb_spec k' k); [congruence|auto].
    + now rewrite IH.
Qed.
Lemma assoc_in_keys {V} k (l : list (str * V)) v : assoc k l = Some v -> In k (map fst l).
Proof. intros H. apply assoc_in in H. apply (in_map fst) in H. exact H. Qed.
(** [assoc_none] with [keys] unfolded, for statements written with [map fst] *)
Lemma assoc_none_keys {V} k (l : list (str * V)) : assoc k l = None <-> ~ In k (map fst l).
Proof. apply assoc_none. Qed.
Lemma in_keys_assoc {V} k (l : list (str * V)) : In k (map fst l) -> exists v, assoc k l = Some v.
Proof.
  intros H. destruct (assoc k l) eqn:E; eauto. apply assoc_none_keys in E. contradiction.
Qed.
Lemma keys_ins_new {V} k (v : V) l : assoc k l = None -> map fst (ins k v l) = map fst l ++ [k].
Proof.
  induction l as [|[k' v'] l IH]; cbn [ins assoc map fst app]; auto.
  destruct (str_eqb k k'); [discriminate|]. intros H. cbn [map fst]. now rewrite IH.
Qed.
Lemma keys_ins_old {V} k (v w : V) l : assoc k l = Some w -> map fst (ins k v l) = map fst l.
Proof.
  induction l as [|[k' v'] l IH]; cbn [ins assoc map fst]; [discriminate|].
  destruct (str_eqb k k'); cbn [map fst]; auto. intros H. now rewrite IH.
Qed.
Lemma in_keys_rem {V} k x (l : list (str * V)) :
  NoDup (map fst l) -> (In x (map fst (rem k l)) <-> In x (map fst l) /\ x <> k).
Proof.
  induction l as [|[k' v'] l IH]; cbn [rem map fst]; intros ND.
  - cbn. tauto.
  - inversion ND as [|? ? Hn ND']; subst. destruct (str_eqb_spec k k') as [<-|E].
    + cbn [In]. split.
      * intros H. split; auto. intros ->. contradiction.
      * intros [[->|H] N]; [congruence|auto].
    + cbn [map fst In]. rewrite (IH ND'). split.
      * intros [->|[H N]]; auto.
      * intros [[->|H] N]; auto.
Qed.
Lemma nodup_keys_rem {V} k (l : list (str * V)) : NoDup (map fst l) -> NoDup (map fst (rem k l)).
Proof.
  induction l as [|[k' v'] l IH]; cbn [rem map fst]; intros ND; auto.
  inversion ND as [|? ? Hn ND']; subst. destruct (str_eqb k k') eqn:E; auto.
  cbn [map fst]. constructor; auto. intros H. apply in_keys_rem in H; auto. tauto.
Qed.
Lemma assoc_rem_none {V} k (l : list (str * V)) : NoDup (map fst l) -> assoc k (rem k l) = None.
Proof. intros ND. apply assoc_none_keys. intros H. apply in_keys_rem in H; auto. tauto. Qed.

Lemma in_ins {V} n k name (v : V) l : In (n, k) (ins name v l) -> (n = name /\ k = v) \/ In (n, k) l.
Proof.
  induction l as [|[k' v'] l IH]; cbn [ins].
  - intros [E|[]]. injection E as <- <-. auto.
  - destruct (str_eqb_spec name k') as [<-|E].
    + intros [X|X]; [injection X as <- <-; auto | right; now right].
    + intros [X|X]; [right; now left|]. destruct (IH X) as [Y|Y]; auto. right. now right.
Qed.
Lemma nodup_keys_ins {V} name (v : V) l : NoDup (map fst l) -> NoDup (map fst (ins name v l)).
Proof.
  intros ND. destruct (assoc name l) eqn:E.
  - now rewrite (keys_ins_old _ _ _ _ E).
  - rewrite (keys_ins_new _ _ _ E). apply NoDup_app_one; auto. now apply assoc_none_keys.
Qed.
Lemma assoc_rem_other {V} k k' (l : list (str * V)) : k <> k' -> assoc k' (rem k l) = assoc k' l.
Proof.
  intros N. induction l as [|[k2 v2] l IH]; cbn [rem assoc]; auto.
  destruct (str_eqb_spec k k2) as [<-|E].
  - destruct (str_eqb_spec k' k); [congruence|auto].
  - cbn [assoc]. now rewrite IH.
Qed.
Lemma in_rem {V} k x (l : list (str * V)) : In x (rem k l) -> In x l.
Proof.
  induction l as [|[k2 v2] l IH]; cbn [rem]; auto. destruct (str_eqb k k2); cbn [In]; auto. intros [H|H]; auto.
Qed.
Lemma ins_new_app {V} k (v : V) l : assoc k l = None -> ins k v l = l ++ [(k, v)].
Proof.
  induction l as [|[k2 v2] l IH]; cbn [assoc ins app]; auto. destruct (str_eqb k k2); [discriminate|].
  intros H. now rewrite IH.
Qed.

Definition retarget (e name : str) (r : str * str) : str * str := if str_eqb (snd r) e then (fst r, name) else r.
Lemma assoc_map_retarget e name a rd :
  assoc a (map (retarget e name) rd) =
  match assoc a rd with Some b => Some (if str_eqb b e then name else b) | None => None end.
Proof.
  induction rd as [|[x y] rd IH]; cbn [map assoc]; auto.
  unfold retarget at 1. cbn [snd fst]. destruct (str_eqb y e) eqn:E; cbn [assoc]; destruct (str_eqb a x); auto;
    now rewrite E.
Qed.

(** * Tracks, in the vocabulary of the model ([alt_key]) and of the specification *)
Lemma alt_key_none_version n : alt_key n = None -> version_of n = None.
Proof. intros H. apply alt_key_none in H. unfold version_of. now rewrite H. Qed.

Lemma compat_same_key a b ka va kb vb :
  alt_key a = Some (ka, va) -> alt_key b = Some (kb, vb) -> (compat a b = true <-> ka = kb).
Proof.
  intros A B. rewrite compat_true_iff. split.
  - intros [->|[k [va' [vb' [H1 H2]]]]]; congruence.
  - intros ->. right. exists kb, va, vb. auto.
Qed.
Lemma compat_same_track a b : compat a b = true <-> a = b \/ same_track a b = true.
Proof.
  rewrite compat_is_spec_b. unfold compat_spec_b. rewrite orb_true_iff, str_eqb_eq. tauto.
Qed.

Lemma higher_alt m b km vm kb vb :
  alt_key m = Some (km, vm) -> alt_key b = Some (kb, vb) -> higher m b = version_gtb vm vb.
Proof. intros A B. unfold higher. now rewrite (alt_key_version _ _ _ A), (alt_key_version _ _ _ B). Qed.
Lemma higher_irrefl m : higher m m = false.
Proof.
  unfold higher. destruct (version_of m) as [v|]; auto. unfold version_gt.
  now rewrite (tc_refl _ cmp_version_total).
Qed.
Lemma higher_no_version_l m b : alt_key m = None -> higher m b = false.
Proof. intros H. unfold higher. now rewrite (alt_key_none_version _ H). Qed.

(** not-greater is transitive through a strictly greater step *)
Lemma not_gt_trans a b c : version_gt a b = false -> version_gt c b = true -> version_gt a c = false.
Proof.
  unfold version_gt. pose proof cmp_version_total as T.
  destruct (cmp_version a b) eqn:E1; try discriminate; intros _;
    destruct (cmp_version c b) eqn:E2; try discriminate; intros _.
  - apply (tc_eq _ T) in E1. subst a. rewrite (tc_anti _ T c b), E2. reflexivity.
  - apply (total_gt_lt _ T) in E2. rewrite (tc_trans _ T _ _ _ E1 E2). reflexivity.
Qed.

(** * One step of the bookkeeping, as a relation on (keys, redirects) *)
Definition on_track (name e : str) : Prop :=
  exists ak nv ev, alt_key name = Some (ak, nv) /\ alt_key e = Some (ak, ev).

Inductive NStep (keys : list str) (rd : list (str * str)) (name : str) : list str -> list (str * str) -> Prop :=
| NS_exact : In name keys -> NStep keys rd name keys rd
| NS_new : ~ In name keys -> (forall e, In e keys -> ~ on_track name e) -> NStep keys rd name (keys ++ [name]) rd
| NS_low e ak nv ev : ~ In name keys -> In e keys -> alt_key name = Some (ak, nv) -> alt_key e = Some (ak, ev) ->
                      version_gtb nv ev = false -> NStep keys rd name keys (ins name e rd)
| NS_high e ak nv ev keys' : ~ In name keys -> In e keys -> alt_key name = Some (ak, nv) -> alt_key e = Some (ak, ev) ->
                             version_gtb nv ev = true ->
                             NoDup keys' -> (forall x, In x keys' <-> (In x keys /\ x <> e) \/ x = name) ->
                             NStep keys rd name keys' (ins e name (map (retarget e name) rd)).

Definition canon (rd : list (str * str)) (n : str) : str := match assoc n rd with Some c => c | None => n end.

Record NInv (keys : list str) (rd : list (str * str)) (names : list str) : Prop := {
  ni_nodup : NoDup keys;
  ni_contrib : forall k, In k keys -> In k names;
  ni_one : forall k1 k2, In k1 keys -> In k2 keys -> compat k1 k2 = true -> k1 = k2;
  ni_rd : forall a b, assoc a rd = Some b -> ~ In a keys /\ In b keys /\ In a names /\ compat a b = true;
  ni_total : forall n, In n names -> In (canon rd n) keys;
  ni_high : forall k n, In k keys -> In n names -> compat n k = true -> higher n k = false }.

Lemma NInv_nil : NInv [] [] [].
Proof. split; cbn; try tauto; try discriminate. constructor. Qed.

Lemma on_track_compat name e : on_track name e -> compat name e = true.
Proof. intros [ak [nv [ev [A B]]]]. now apply (compat_same_key _ _ _ _ _ _ A B). Qed.
Lemma compat_on_track name e : compat name e = true -> name <> e -> on_track name e.
Proof.
  intros C N. apply compat_true_iff in C as [->|[k [va [vb [A B]]]]]; [contradiction|].
  exists k, va, vb. auto.
Qed.

Lemma canon_compat keys rd names n : NInv keys rd names -> compat n (canon rd n) = true.
Proof.
  intros I. unfold canon. destruct (assoc n rd) as [c|] eqn:E.
  - now apply (ni_rd _ _ _ I) in E.
  - apply compat_refl.
Qed.

Theorem NStep_preserves keys rd names name keys' rd' :
  NInv keys rd names -> NStep keys rd name keys' rd' -> NInv keys' rd' (name :: names).
Proof.
  intros I S. pose proof I as [ND CT ONE RD TOT HIGH]. destruct S as [Hin | Hnin Hnone | e ak nv ev Hnin He An Ae Hv | e ak nv ev keys' Hnin He An Ae Hv ND' Hk'].
  - (* exact *)
    assert (Hnr : assoc name rd = None).
    { destruct (assoc name rd) eqn:E; auto. apply RD in E. tauto. }
    split.
    + apply ND.
    + intros k Hk. right. now apply CT.
    + apply ONE.
    + intros a b E. destruct (RD a b E) as [? [? [? ?]]]. cbn [In]. auto.
    + intros n [<-|Hn]; [unfold canon; now rewrite Hnr | now apply TOT].
    + intros k n Hk [<-|Hn] C; [|now apply HIGH].
      rewrite (ONE name k Hin Hk C). apply higher_irrefl.
  - (* new *)
    assert (Hnk : forall k, In k keys -> compat name k = false).
    { intros k Hk. destruct (compat name k) eqn:C; auto. exfalso.
      apply (Hnone k Hk). apply compat_on_track; auto. intros ->. contradiction. }
    assert (Hnr : assoc name rd = None).
    { destruct (assoc name rd) as [b|] eqn:E; auto. apply RD in E as [_ [Hb [_ C]]].
      rewrite (Hnk b Hb) in C. discriminate. }
    assert (Hnn : forall n, In n names -> compat n name = false).
    { intros n Hn. destruct (compat n name) eqn:C; auto.
      pose proof (TOT n Hn) as Hc. pose proof (canon_compat _ _ _ n I) as Cc.
      rewrite compat_sym in Cc. pose proof (compat_trans _ _ _ Cc C) as C2. rewrite compat_sym in C2.
      rewrite (Hnk _ Hc) in C2. discriminate. }
    split.
    + apply NoDup_app_one; [apply ND | exact Hnin].
    + intros k Hk. apply in_app_or in Hk as [Hk|[<-|[]]]; cbn [In]; auto.
    + intros k1 k2 H1 H2 C. apply in_app_or in H1 as [H1|[<-|[]]]; apply in_app_or in H2 as [H2|[<-|[]]]; auto.
      * rewrite compat_sym, (Hnk _ H1) in C. discriminate.
      * rewrite (Hnk _ H2) in C. discriminate.
    + intros a b E. destruct (RD a b E) as [Ha [Hb [Hc C]]]. repeat split; auto.
      * intros H. apply in_app_or in H as [H|[<-|[]]]; auto. congruence.
      * apply in_or_app. auto.
      * cbn [In]. auto.
    + intros n [<-|Hn].
      * unfold canon. rewrite Hnr. apply in_or_app. cbn. auto.
      * apply in_or_app. left. now apply TOT.
    + intros k n Hk Hn C. apply in_app_or in Hk as [Hk|[<-|[]]]; destruct Hn as [<-|Hn].
      * rewrite (Hnk _ Hk) in C. discriminate.
      * now apply HIGH.
      * apply higher_irrefl.
      * rewrite (Hnn _ Hn) in C. discriminate.
  - (* lower or equal version: redirect the new name *)
    assert (Cne : compat name e = true) by (apply on_track_compat; exists ak, nv, ev; auto).
    assert (Hne : name <> e) by (intros ->; contradiction).
    split.
    + apply ND.
    + intros k Hk. right. now apply CT.
    + apply ONE.
    + intros a b E. destruct (str_eqb_spec name a) as [<-|Ea].
      * rewrite assoc_ins_same in E. injection E as <-. cbn [In]. auto.
      * rewrite assoc_ins_other in E by auto.
        destruct (RD a b E) as [? [? [? ?]]]. cbn [In]. auto.
    + intros n Hn. unfold canon. destruct (str_eqb_spec name n) as [<-|Ea].
      * now rewrite assoc_ins_same.
      * rewrite assoc_ins_other by auto. destruct Hn as [->|Hn]; [congruence|].
        now apply TOT.
    + intros k n Hk [<-|Hn] C; [|now apply HIGH].
      assert (k = e) as ->.
      { apply ONE; auto. rewrite compat_sym in C. apply (compat_trans _ _ _ C Cne). }
      now rewrite (higher_alt _ _ _ _ _ _ An Ae).
  - (* higher version: the new name becomes the key *)
    assert (Cne : compat name e = true) by (apply on_track_compat; exists ak, nv, ev; auto).
    assert (Hne : name <> e) by (intros ->; contradiction).
    assert (Hhigh : higher name e = true) by now rewrite (higher_alt _ _ _ _ _ _ An Ae).
    assert (Hnr : assoc name rd = None).
    { destruct (assoc name rd) as [b|] eqn:E; auto. exfalso.
      destruct (RD _ _ E) as [_ [Hb [Hnm C]]].
      assert (b = e) as -> by (apply ONE; auto; rewrite compat_sym in C; apply (compat_trans _ _ _ C Cne)).
      rewrite (HIGH e name He Hnm Cne) in Hhigh. discriminate. }
    assert (Hke : forall k, In k keys -> compat name k = true -> k = e).
    { intros k Hk C. apply ONE; auto. rewrite compat_sym in C. apply (compat_trans _ _ _ C Cne). }
    split.
    + exact ND'.
    + intros k Hk. apply Hk' in Hk as [[Hk _]| ->]; cbn [In]; auto.
    + intros k1 k2 H1 H2 C. apply Hk' in H1 as [[H1 N1]| ->]; apply Hk' in H2 as [[H2 N2]| ->]; auto.
      * rewrite compat_sym in C. elim N1. now apply Hke.
      * elim N2. now apply Hke.
    + intros a b E. destruct (str_eqb_spec e a) as [<-|Ea].
      * rewrite assoc_ins_same in E. injection E as <-.
        repeat split.
        -- intros H. apply Hk' in H as [[_ N]|H]; congruence.
        -- apply Hk'. auto.
        -- right. now apply CT.
        -- now rewrite compat_sym.
      * rewrite assoc_ins_other in E by auto. rewrite assoc_map_retarget in E.
        destruct (assoc a rd) as [b0|] eqn:E0; [|discriminate]. injection E as <-.
        destruct (RD _ _ E0) as [Ha [Hb [Hc C]]].
        assert (a <> name) by (intros ->; congruence).
        repeat split.
        -- intros H1. apply Hk' in H1 as [[H1 _]|H1]; auto.
        -- destruct (str_eqb b0 e) eqn:Eb; apply Hk'; auto. left. split; auto. now apply str_eqb_neq.
        -- cbn [In]. auto.
        -- destruct (str_eqb b0 e) eqn:Eb; auto. apply str_eqb_eq in Eb. subst b0.
           rewrite compat_sym in Cne. apply (compat_trans _ _ _ C Cne).
    + intros n Hn. unfold canon. destruct (str_eqb_spec e n) as [<-|Ea].
      * rewrite assoc_ins_same. apply Hk'. auto.
      * rewrite assoc_ins_other by auto. rewrite assoc_map_retarget.
        destruct Hn as [<-|Hn]; [rewrite Hnr; apply Hk'; auto|].
        pose proof (TOT n Hn) as Hc. unfold canon in Hc.
        destruct (assoc n rd) as [b0|] eqn:E0.
        -- destruct (str_eqb b0 e) eqn:Eb; apply Hk'; auto. left. split; auto. now apply str_eqb_neq.
        -- apply Hk'. left. split; auto.
    + intros k n Hk Hn C. apply Hk' in Hk as [[Hk Nk]| ->].
      * destruct Hn as [<-|Hn]; [|now apply HIGH]. elim Nk. now apply Hke.
      * destruct Hn as [<-|Hn]; [apply higher_irrefl|].
        assert (Ce : compat n e = true) by apply (compat_trans _ _ _ C Cne).
        pose proof (HIGH e n He Hn Ce) as Hl.
        destruct (alt_key n) as [[kn vn]|] eqn:Ak; [|now apply higher_no_version_l].
        rewrite (higher_alt _ _ _ _ _ _ Ak An). rewrite (higher_alt _ _ _ _ _ _ Ak Ae) in Hl.
        unfold version_gtb in *. apply (not_gt_trans vn ev nv); unfold version_gt; auto.
Qed.

Section Consequences.
  Variables (keys : list str) (rd : list (str * str)) (names : list str).
  Hypothesis I : NInv keys rd names.

  (** the canonical name was contributed, is on the track, and nothing contributed on the track is higher *)
  Lemma inv_highest n : In n names ->
    In (canon rd n) names /\ compat n (canon rd n) = true /\
    forall m, In m names -> compat n m = true -> higher m (canon rd n) = false.
  Proof.
    intros Hn. pose proof (ni_total _ _ _ I n Hn) as Hc. pose proof (canon_compat _ _ _ n I) as C. repeat split; auto.
    - now apply (ni_contrib _ _ _ I).
    - intros m Hm Cm. apply (ni_high _ _ _ I); auto. rewrite compat_sym in Cm. apply (compat_trans _ _ _ Cm C).
  Qed.

  Lemma inv_one n m : In n names -> In m names -> compat n m = true -> canon rd n = canon rd m.
  Proof.
    intros Hn Hm C. apply (ni_one _ _ _ I); try now apply (ni_total _ _ _ I).
    pose proof (canon_compat _ _ _ n I) as Cn. pose proof (canon_compat _ _ _ m I) as Cm.
    rewrite compat_sym in Cn. apply (compat_trans _ _ _ Cn). apply (compat_trans _ _ _ C Cm).
  Qed.

  (** for every name whatsoever *)
  Lemma inv_idempotent n : canon rd (canon rd n) = canon rd n.
  Proof.
    unfold canon at 2 3. destruct (assoc n rd) as [c|] eqn:E.
    - destruct (ni_rd _ _ _ I _ _ E) as [_ [Hc _]]. unfold canon.
      destruct (assoc c rd) as [d|] eqn:E2; auto. apply (ni_rd _ _ _ I) in E2. tauto.
    - unfold canon. now rewrite E.
  Qed.
End Consequences.

Lemma NStep_other_tracks keys rd names name keys' rd' m :
  NInv keys rd names -> NStep keys rd name keys' rd' -> compat m name = false -> canon rd' m = canon rd m.
Proof.
  intros I S C. assert (Nm : m <> name) by (intros ->; rewrite compat_refl in C; discriminate).
  destruct S as [Hin | Hnin Hnone | e ak nv ev Hnin He An Ae Hv | e ak nv ev keys' Hnin He An Ae Hv ND' Hk']; auto.
  - unfold canon. now rewrite assoc_ins_other by auto.
  - assert (Cne : compat name e = true) by (apply on_track_compat; exists ak, nv, ev; auto).
    assert (Cme : compat m e = false).
    { destruct (compat m e) eqn:X; auto. rewrite compat_sym in Cne. rewrite (compat_trans _ _ _ X Cne) in C. discriminate. }
    assert (Nme : m <> e) by (intros ->; rewrite compat_refl in Cme; discriminate).
    unfold canon. rewrite assoc_ins_other by auto. rewrite assoc_map_retarget.
    destruct (assoc m rd) as [b|] eqn:E; auto. destruct (str_eqb b e) eqn:Eb; auto.
    apply str_eqb_eq in Eb. subst b. apply (ni_rd _ _ _ I) in E as [_ [_ [_ X]]]. congruence.
Qed.
