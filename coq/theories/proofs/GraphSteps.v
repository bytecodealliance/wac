(** C06: every operation except the removals ([remove_node]: [GraphRemove.v], [unregister]: [GraphUnreg.v])
    preserves the invariant, and panics only on a dead identifier. What each builds ([X_spec]), and which of
    them leave the further invariants alone ([Quiet]). *)
From Coq Require Import List Arith Bool NArith Lia.
From WacV Require Import Graph GraphInv GraphLive GraphPrims.
Import ListNotations.

(** the bookkeeping panic sites: reaching one of them means the maps, the edges and the satisfied sets
    disagree. ([PInvalidNodeId]/[PInvalidPackageId] are the documented panics on dead identifiers,
    [PBadUniverse]/[POutOfFuel] are artefacts of the model.) *)
Definition bookkeeping (p : psite) : bool :=
  match p with
  | PSatInsert | PSatRemove | PNotInstantiation | PUnexpectedEdge | PDeadNodeInMap
  | PExportMissing | PImportMissing | PDefinedMissing => true
  | _ => false
  end.
Definition ok_outcome (o : outcome) : Prop := forall p, o = OPanic p -> bookkeeping p = false.

(** Proved of every operation but [remove_node], which may also run out of fuel on a cycle. *)
Definition explained (u : universe) (s : gstate) (o : op) (out : outcome) : Prop :=
  forall p, out = OPanic p -> bookkeeping p = false /\ ~ LiveOp u s o.

Lemma explained_ok u s o out : explained u s o out -> ok_outcome out.
Proof. intros H p E. now apply H. Qed.

Lemma explained_live u s o out : explained u s o out -> LiveOp u s o -> forall p, out <> OPanic p.
Proof. intros H L p E. now apply H in E. Qed.

Lemma dead_explained u s o p : bookkeeping p = false -> ~ LiveOp u s o -> explained u s o (OPanic p).
Proof. intros B N q [= <-]. auto. Qed.

(** closes a branch whose outcome is no panic, or a documented one where only that is asked *)
Ltac ok_triv := solve [ intros ? ?; discriminate | intros ? [= <-]; reflexivity ].

Lemma dead_not_live s n : get_node s n = None -> live s n <> true.
Proof. unfold live. intros ->. discriminate. Qed.

(** The further invariants ([GraphAlias], [GraphRank], [GraphDefExport]) read the operations through these. *)
Lemma register_spec u s p : fst (register u s p) = s \/ exists pk fp, fst (register u s p) = with_pkgs s pk fp.
Proof.
  unfold register. destruct (find_pkg_slot s p); [now left|]. destruct (free_pkgs s) as [|i fp]; [right; eexists _, _; reflexivity|].
  destruct (nth_error (pkgs s) i); [right; eexists _, _; reflexivity|now left].
Qed.

Lemma import_spec u s nm k :
  fst (import_ u s nm k) = s \/
  exists kd s1 idx, alist_get N.eqb (imports s) nm = None /\ add_node s (mk_node (NImport nm) kd None) = (s1, idx) /\
    fst (import_ u s nm k) = with_maps s1 ((nm, idx) :: imports s1) (exports s1) (defined s1).
Proof.
  unfold import_. destruct (nth_error (u_lkinds u) k) as [kd|]; [|now left].
  destruct (alist_get N.eqb (imports s) nm) eqn:Al; [now left|]. destruct (negb _); [now left|].
  destruct (add_node s _) as [s1 idx] eqn:A. right. exists kd, s1, idx. auto.
Qed.

Lemma instantiate_spec u s id :
  fst (instantiate u s id) = s \/
  exists pd s1 idx, pkg_desc u s id = Some pd /\ add_node s (mk_node (NInst []) (pd_inst pd) (Some id)) = (s1, idx) /\
    fst (instantiate u s id) = s1.
Proof.
  unfold instantiate. destruct (pkg_desc u s id) as [pd|] eqn:Pd; [|now left].
  destruct (add_node s _) as [s1 idx] eqn:A. right. exists pd, s1, idx. auto.
Qed.

Lemma alias_spec u s n e :
  fst (alias u s n e) = s \/
  exists nd ex index kind s1 idx,
    get_node s n = Some nd /\ u_inst_exports u (nitem nd) = Some ex /\ get_full ex e 0 = Some (index, kind) /\
    add_node s (mk_node NAlias kind (npkg nd)) = (s1, idx) /\
    fst (alias u s n e) = add_edge s1 {| esrc := n; etgt := idx; ek := EAlias index |}.
Proof.
  unfold alias. destruct (get_node s n) as [nd|]; [|now left].
  destruct (u_inst_exports u (nitem nd)) as [ex|] eqn:U; [|now left].
  destruct (get_full ex e 0) as [[index kind]|] eqn:Gf; [|now left]. destruct (find _ (outgoing s n)); [now left|].
  destruct (add_node s _) as [s1 idx] eqn:A. right. exists nd, ex, index, kind, s1, idx. auto 6.
Qed.

Lemma set_arg_spec u s inst a arg :
  fst (set_arg u s inst a arg) = s \/
  exists nd sat index,
    get_node s inst = Some nd /\ nk nd = NInst sat /\
    fst (set_arg u s inst a arg) =
      set_node (add_edge s {| esrc := arg; etgt := inst; ek := EArg index |}) inst
        (Some {| nk := NInst (index :: sat); npkg := npkg nd; nitem := nitem nd; nname := nname nd; nexport := nexport nd |}).
Proof.
  unfold set_arg. destruct (get_node s inst) as [nd|] eqn:G; [|now left].
  destruct (nk nd) as [| |sat|] eqn:K; try now left. destruct (inst_imports u s nd); [|now left].
  destruct (get_full l a 0) as [[index expected]|]; [|now left].
  destruct (scan_incoming _ index arg); try now left.
  destruct (get_node s arg); [|now left]. destruct (negb _); [now left|].
  unfold add_satisfied. change (get_node (add_edge s _) inst) with (get_node s inst). rewrite G, K.
  destruct (existsb _ sat); [now left|]. right. exists nd, sat, index. auto.
Qed.

Lemma unset_arg_spec u s inst a arg :
  fst (unset_arg u s inst a arg) = s \/
  exists nd sat index,
    get_node s inst = Some nd /\ nk nd = NInst sat /\
    fst (unset_arg u s inst a arg) =
      {| nodes := set_nth (nodes s) inst
                    (Some {| nk := NInst (filter (fun j => negb (j =? index)) sat); npkg := npkg nd; nitem := nitem nd;
                             nname := nname nd; nexport := nexport nd |});
         free_nodes := free_nodes s;
         edges := remove_first (fun e => (esrc e =? arg) && (etgt e =? inst)
                                          && match ek e with EArg i => i =? index | _ => false end) (edges s);
         imports := imports s; exports := exports s; defined := defined s; pkgs := pkgs s; free_pkgs := free_pkgs s |}.
Proof.
  unfold unset_arg. destruct (get_node s inst) as [nd|] eqn:G; [|now left].
  destruct (nk nd) as [| |sat|] eqn:K; try now left. destruct (inst_imports u s nd); [|now left].
  destruct (get_full l a 0) as [[index expected]|]; [|now left].
  destruct (scan_connecting _ index); try now left.
  unfold remove_satisfied. rewrite G, K. destruct (existsb _ sat); [|now left]. right. exists nd, sat, index. auto.
Qed.

Lemma export_spec u s n e :
  fst (export_ u s n e) = s \/
  exists nd, get_node s n = Some nd /\ alist_get N.eqb (exports s) e = None /\
    fst (export_ u s n e) =
      with_maps (set_node s n (Some {| nk := nk nd; npkg := npkg nd; nitem := nitem nd; nname := nname nd; nexport := Some e |}))
                (imports s) (exports_renamed s n ++ [(e, n)]) (defined s).
Proof.
  unfold export_, update_node. destruct (alist_get N.eqb (exports s) e); [now left|].
  destruct (negb _); [now left|]. destruct (get_node s n) as [nd|]; [|now left]. right. exists nd. auto.
Qed.

Lemma unexport_spec s n :
  fst (unexport s n) = s \/
  exists nd ex, get_node s n = Some nd /\ nk nd <> NDef /\ (forall x, In x ex -> In x (exports s)) /\
    fst (unexport s n) =
      with_maps (set_node s n (Some {| nk := nk nd; npkg := npkg nd; nitem := nitem nd; nname := nname nd; nexport := None |}))
                (imports s) (filter (fun p => negb (snd p =? n)) ex) (defined s).
Proof.
  unfold unexport. destruct (get_node s n) as [nd|]; [|now left]. cbn [set_node exports].
  destruct (nk nd) eqn:K; [now left| | |];
    (destruct (nexport nd) as [nm|]; [destruct (swap_remove (exports s) nm) as [ex|] eqn:Sw; [|now left]|];
     right; eexists nd, _; (split; [reflexivity|]); (split; [congruence|]); (split; [|rewrite K; reflexivity]);
     [intros x; now apply swap_remove_In with (k := nm)|auto]).
Qed.

Lemma set_name_spec s n nm :
  fst (set_name s n nm) = s \/
  exists nd, get_node s n = Some nd /\
    fst (set_name s n nm) =
      set_node s n (Some {| nk := nk nd; npkg := npkg nd; nitem := nitem nd; nname := Some nm; nexport := nexport nd |}).
Proof. unfold set_name, update_node. destruct (get_node s n) as [nd|]; [right; exists nd; auto|now left]. Qed.

Lemma set_live_nrel (P : node -> node -> Prop) ns n nd nd' :
  (forall x, P x x) -> getn ns n = Some nd -> P nd nd' -> nrel P ns (set_nth ns n (Some nd')).
Proof.
  intros R G H m. cbn. erewrite getn_set_live by eauto. destruct (Nat.eqb_spec m n) as [->|_].
  - now rewrite G.
  - destruct (getn ns m); cbn; auto.
Qed.

Lemma EdgeOK_set_live ns es n nd nd' :
  EdgeOK ns es -> getn ns n = Some nd -> nk nd = nk nd' -> EdgeOK (set_nth ns n (Some nd')) es.
Proof. intros E G K. eapply EdgeOK_ext; [|eauto]. apply set_live_nrel with (nd := nd); auto. Qed.

Lemma ExOK_set_live ns ex n nd nd' :
  ExOK ns ex -> getn ns n = Some nd -> nexport nd = nexport nd' -> ExOK (set_nth ns n (Some nd')) ex.
Proof. intros X G K. eapply ExOK_ext; [|eauto]. apply set_live_nrel with (nd := nd); auto. Qed.

Lemma InvC_upd u s n nd nd' es ex :
  InvC u s -> getn (nodes s) n = Some nd -> npkg nd = npkg nd' -> kclass (nk nd) (nk nd') ->
  EdgeOK (set_nth (nodes s) n (Some nd')) es -> ExOK (set_nth (nodes s) n (Some nd')) ex ->
  InvC u {| nodes := set_nth (nodes s) n (Some nd'); free_nodes := free_nodes s; edges := es; imports := imports s;
            exports := ex; defined := defined s; pkgs := pkgs s; free_pkgs := free_pkgs s |}.
Proof.
  intros [F E X I D P] G Kp Kc HE HX. constructor; cbn; auto.
  - apply FreeOK_ext with (ns := nodes s); auto using length_set_nth.
    intros m Hm. erewrite getn_set_live by eauto. destruct (Nat.eqb_spec m n); [congruence|auto].
  - eapply ImOK_ext; [|eauto]. apply set_live_nrel with (nd := nd); auto using kclass_refl.
  - eapply DfOK_ext; [|eauto]. apply set_live_nrel with (nd := nd); auto using kclass_refl.
  - eapply PkgOK_drop; [|eauto]. apply set_live_nrel with (nd := nd); auto using kclass_refl.
Qed.

Lemma set_name_inv u s n nm : InvC u s -> InvC u (fst (set_name s n nm)).
Proof.
  intros H. destruct (set_name_spec s n nm) as [->|(nd & G & ->)]; [exact H|].
  rewrite get_node_getn in G. pose proof H as [F E X I D P].
  apply (InvC_upd u s n nd); auto using kclass_refl; [eapply EdgeOK_set_live|eapply ExOK_set_live]; eauto.
Qed.

Lemma set_name_panic u s n nm : explained u s (SetName n nm) (snd (set_name s n nm)).
Proof.
  unfold set_name, update_node. destruct (get_node s n) eqn:G; cbn; [ok_triv|].
  apply dead_explained; [reflexivity|]. now apply dead_not_live.
Qed.

Lemma get_pkg_l_app pk x id p : get_pkg_l pk id = Some p -> get_pkg_l (pk ++ [x]) id = Some p.
Proof.
  unfold get_pkg_l. destruct (nth_error pk (fst id)) as [sl|] eqn:E; [|discriminate].
  rewrite nth_error_app1; [now rewrite E|]. apply nth_error_Some. congruence.
Qed.

Lemma get_pkg_l_set_other pk i x id : fst id <> i -> get_pkg_l (set_nth pk i x) id = get_pkg_l pk id.
Proof.
  intros H. unfold get_pkg_l. rewrite nth_error_set_nth. apply Nat.eqb_neq in H. now rewrite H.
Qed.

Lemma register_inv u s p : InvC u s -> InvC u (fst (register u s p)).
Proof.
  intros H. unfold register. destruct (find_pkg_slot s p); auto.
  pose proof H as [F E X I D P]. destruct (free_pkgs s) as [|i fp] eqn:Fp.
  - constructor; cbn; auto. eapply PkgOK_pkgs; eauto; [|intros i []|constructor].
    intros n nd id G K. destruct (po_live _ _ _ _ P n nd id G K) as [q Q].
    rewrite Q. now apply get_pkg_l_app.
  - destruct (nth_error (pkgs s) i) as [sl|] eqn:Sl; auto.
    constructor; cbn; auto. pose proof P as [A B Fr N]. inversion N as [|? ? Hni N']; subst.
    destruct (Fr i (or_introl eq_refl)) as [sl' [Sl' Nn]]. rewrite Sl in Sl'. injection Sl' as <-.
    eapply PkgOK_pkgs; eauto.
    + intros n nd id G K. destruct (A n nd id G K) as [q Q]. apply get_pkg_l_set_other.
      intros Ei. unfold get_pkg_l in Q. rewrite Ei, Sl, Nn in Q. destruct (ps_gen sl =? snd id); discriminate.
    + intros j Hj. destruct (Fr j (or_intror Hj)) as [sl' [Sl' Nn']]. exists sl'. split; auto.
      rewrite nth_error_set_nth. destruct (Nat.eqb_spec j i); [subst; contradiction|auto].
Qed.

Lemma register_panic u s p : InvC u s -> explained u s (Register p) (snd (register u s p)).
Proof.
  intros H. unfold register. destruct (find_pkg_slot s p); [ok_triv|].
  destruct (free_pkgs s) as [|i fp] eqn:Fp; [ok_triv|].
  destruct (po_free _ _ _ _ (ic_pkg _ _ H) i) as [sl [Sl _]]; [rewrite Fp; now left|]. rewrite Sl. ok_triv.
Qed.

(** leaves [Fr : fresh ..], [F1 : FreeOK ..] and the equations of [s1] with [s]: [E1] edges, [E2] imports,
    [E3] exports, [E4] defined, [E5] pkgs, [E6] free_pkgs *)
Ltac use_add_node A F :=
  let Fr := fresh "Fr" in let F1 := fresh "F1" in
  apply add_node_spec in A as (Fr & F1 & ?E1 & ?E2 & ?E3 & ?E4 & ?E5 & ?E6); [|exact F].

Lemma instantiate_inv u s id : InvC u s -> InvC u (fst (instantiate u s id)).
Proof.
  intros H. destruct (instantiate_spec u s id) as [->|(pd & s1 & idx & Pd & A & ->)]; [exact H|].
  pose proof H as [F E X I D P].
  use_add_node A F. rewrite pkg_desc_l_eq in Pd. constructor; auto.
  - rewrite E1. eapply EdgeOK_fresh; eauto. cbn. now intros sat [= <-].
  - rewrite E3. eapply ExOK_fresh_none; eauto.
  - rewrite E2. eapply ImOK_fresh_other; eauto. cbn. discriminate.
  - rewrite E4. eapply DfOK_fresh_other; eauto. cbn. discriminate.
  - rewrite E5, E6. eapply PkgOK_fresh; eauto; cbn.
    + intros id' [= <-]. unfold pkg_desc_l in Pd. destruct (get_pkg_l (pkgs s) id); [eauto|discriminate].
    + intros sat _. eauto.
Qed.

Lemma instantiate_panic u s id : explained u s (Instantiate id) (snd (instantiate u s id)).
Proof.
  unfold instantiate, pkg_desc. destruct (get_pkg s id) as [q|] eqn:G.
  - destruct (nth_error (u_pkgs u) q) eqn:E; [destruct (add_node s _); ok_triv|].
    apply dead_explained; [reflexivity|]. intros [q' [G' L]]. rewrite G in G'. injection G' as <-.
    apply nth_error_None in E. lia.
  - apply dead_explained; [reflexivity|]. intros [q' [G' _]]. congruence.
Qed.

Lemma import_inv u s nm k : InvC u s -> InvC u (fst (import_ u s nm k)).
Proof.
  intros H. destruct (import_spec u s nm k) as [->|(kd & s1 & idx & Al & A & ->)]; [exact H|].
  pose proof H as [F E X I D P].
  use_add_node A F. apply alist_get_None in Al. constructor; cbn; auto.
  - rewrite E1. eapply EdgeOK_fresh; eauto. cbn. discriminate.
  - rewrite E3. eapply ExOK_fresh_none; eauto.
  - rewrite E2. eapply ImOK_fresh_import; eauto.
  - rewrite E4. eapply DfOK_fresh_other; eauto. cbn. discriminate.
  - rewrite E5, E6. eapply PkgOK_fresh; eauto; cbn; discriminate.
Qed.

Lemma import_panic u s nm k : explained u s (Import nm k) (snd (import_ u s nm k)).
Proof.
  unfold import_. destruct (nth_error (u_lkinds u) k) eqn:E.
  2:{ apply dead_explained; [reflexivity|]. cbn. apply nth_error_None in E. lia. }
  destruct (alist_get N.eqb (imports s) nm); [ok_triv|]. destruct (negb _); [ok_triv|].
  destruct (add_node s _). ok_triv.
Qed.

Lemma alias_inv u s n e : InvC u s -> InvC u (fst (alias u s n e)).
Proof.
  intros H. destruct (alias_spec u s n e) as [->|(nd & ex & index & kind & s1 & idx & G & _ & _ & A & ->)]; [exact H|].
  pose proof H as [F E X I D P].
  use_add_node A F. rewrite get_node_getn in G. constructor; cbn; auto.
  - rewrite E1. destruct Fr as [Fd Fu]. apply (EdgeOK_add_plain _ _ [_]).
    + eapply EdgeOK_fresh; eauto; [split; eauto|]. cbn. discriminate.
    + intros x [<-|[]]. cbn. rewrite (upd_same _ _ _ _ Fu). repeat split; [| |discriminate|now intros x sat [= <-]].
      * apply (liveb_upd_some _ _ _ _ _ Fu). apply liveb_true; eauto.
      * unfold liveb. now rewrite (upd_same _ _ _ _ Fu).
  - rewrite E3. eapply ExOK_fresh_none; eauto.
  - rewrite E2. eapply ImOK_fresh_other; eauto. cbn. discriminate.
  - rewrite E4. eapply DfOK_fresh_other; eauto. cbn. discriminate.
  - rewrite E5, E6. eapply PkgOK_fresh; eauto; cbn; [|discriminate].
    intros id K. eapply po_live; eauto.
Qed.

Lemma alias_panic u s n e : explained u s (Alias n e) (snd (alias u s n e)).
Proof.
  unfold alias. destruct (get_node s n) as [nd|] eqn:G.
  2:{ apply dead_explained; [reflexivity|]. now apply dead_not_live. }
  destruct (u_inst_exports u (nitem nd)) as [ex|]; [|ok_triv].
  destruct (get_full ex e 0) as [[index kind]|]; [|ok_triv].
  destruct (find _ (outgoing s n)); [ok_triv|]. destruct (add_node s _). ok_triv.
Qed.

Lemma fold_left_ind {A B} (P : A -> Prop) (f : A -> B -> A) l a :
  (forall a x, In x l -> P a -> P (f a x)) -> P a -> P (fold_left f l a).
Proof.
  revert a. induction l as [|x l IH]; cbn; intros a H Pa; [exact Pa|].
  apply IH; [intros; apply H; auto|apply H; auto].
Qed.

Lemma insert_sorted_In p l x : In x (insert_sorted_by_node p l) -> x = p \/ In x l.
Proof.
  unfold insert_sorted_by_node. induction l as [|q r IH]; cbn.
  - intros [<-|[]]; auto.
  - destruct (snd p <=? snd q); cbn; intros [<-|H]; auto. apply IH in H as [->|H]; auto.
Qed.

Lemma sorted_In l x : In x (fold_right insert_sorted_by_node [] l) -> In x l.
Proof.
  induction l as [|p l IH]; cbn; auto. intros H. apply insert_sorted_In in H as [->|H]; auto.
Qed.

(** the edges [define_type] adds for type [t] at its new node [idx]: from the definitions [t] refers to,
    and to the definitions that refer to [t] *)
Definition dt_edge (u : universe) (s : gstate) (t idx : nat) (td : tydesc) (e : edge) : Prop :=
  ek e = EDep /\
  ((etgt e = idx /\ exists d, In (d, esrc e) (defined s) /\ In d (td_deps td) /\ d <> t) \/
   (esrc e = idx /\ exists ot od, In (ot, etgt e) (defined s) /\ nth_error (u_tys u) ot = Some od /\ In t (td_deps od))).

Lemma define_type_spec u s nm t :
  fst (define_type u s nm t) = s \/
  exists td s1 idx new,
    nth_error (u_tys u) t = Some td /\
    existsb (fun p => fst p =? t) (defined s) = false /\ existsb (fun p => N.eqb (fst p) nm) (exports s) = false /\
    add_node s {| nk := NDef; npkg := None; nitem := td_kind td; nname := None; nexport := Some nm |} = (s1, idx) /\
    (forall e, In e new -> dt_edge u s t idx td e) /\
    fst (define_type u s nm t) =
      {| nodes := nodes s1; free_nodes := free_nodes s1; edges := new ++ edges s1; imports := imports s1;
         exports := exports s1 ++ [(nm, idx)]; defined := (t, idx) :: defined s1; pkgs := pkgs s1; free_pkgs := free_pkgs s1 |}.
Proof.
  unfold define_type. destruct (nth_error (u_tys u) t) as [td|] eqn:Ty; [|now left].
  destruct (existsb (fun p => fst p =? t) (defined s)) eqn:Ex1; [now left|]. destruct (td_res td); [now left|].
  destruct (existsb (fun p => N.eqb (fst p) nm) (exports s)) eqn:Ex2; [now left|].
  destruct (negb (u_import_name_ok u nm)); [now left|].
  match goal with |- context [add_node s ?nd] => pose proof (add_node_same s nd) as [_ E4] end.
  destruct (add_node s _) as [s1 idx] eqn:A. cbn [fst] in E4. right. exists td, s1, idx.
  (* [Q s']: [s'] is [s1] plus some [dt_edge]s; it holds of [s1] (Q1), after the first fold (Q2) and after
     the fold over the sorted definitions (Q3); the [match goal]s only name those two states *)
  set (Q := fun s' : gstate => exists new, (forall e, In e new -> dt_edge u s t idx td e) /\
     s' = {| nodes := nodes s1; free_nodes := free_nodes s1; edges := new ++ edges s1; imports := imports s1;
             exports := exports s1; defined := defined s1; pkgs := pkgs s1; free_pkgs := free_pkgs s1 |}).
  assert (Qadd : forall s' e, Q s' -> dt_edge u s t idx td e -> Q (add_edge s' e)).
  { intros s' e [new [Hn ->]] He. exists (e :: new). split; [intros x [<-|Hx]; auto|reflexivity]. }
  assert (Qdef : forall s' x, Q s' -> In x (defined s') -> In x (defined s)).
  { intros s' x [new [_ ->]]. cbn. now rewrite E4. }
  assert (Q1 : Q s1) by (exists []; split; [intros ? []|now destruct s1]).
  match goal with |- context [with_maps (fold_left ?f2 (fold_right _ _ (defined ?s2)) _)] => assert (Q2 : Q s2) end.
  { apply fold_left_ind; auto. intros a d Hd Qa. destruct (Nat.eqb_spec d t) as [_|Hne]; auto.
    destruct (alist_get Nat.eqb (defined a) d) as [dn|] eqn:Al; auto. destruct (has_dep_edge a dn idx); auto.
    apply alist_get_nat_In, (Qdef a _ Qa) in Al. apply Qadd; auto. split; [reflexivity|]. left. cbn. eauto. }
  match goal with |- context [with_maps ?s3 _ _ _] => assert (Q3 : Q s3) end.
  { apply fold_left_ind; auto. intros a [ot on] Ho Qa. cbn [fst snd].
    destruct (nth_error (u_tys u) ot) as [od|] eqn:To; auto. apply sorted_In, (Qdef _ _ Q2) in Ho.
    apply fold_left_ind; auto. intros b d Hd Qb. destruct ((d =? t) && _) eqn:C; auto.
    apply andb_true_iff in C as [C _]. apply Nat.eqb_eq in C. subst d.
    apply Qadd; auto. split; [reflexivity|]. right. cbn. eauto 6. }
  destruct Q3 as [new [Hn E3]]. exists new. cbn [fst]. rewrite E3. auto 6.
Qed.

Lemma define_type_inv u s nm t : InvC u s -> InvC u (fst (define_type u s nm t)).
Proof.
  intros H. destruct (define_type_spec u s nm t) as [->|(td & s1 & idx & new & Ty & Ex1 & Ex2 & A & Hn & ->)]; [exact H|].
  pose proof H as [F E X I D P]. use_add_node A F. apply existsb_key_false in Ex2.
  assert (Gi : liveb (nodes s1) idx = true) by (apply liveb_true; rewrite (upd_same _ _ _ _ (proj2 Fr)); eauto).
  assert (Def1 : forall d dn, In (d, dn) (defined s) -> exists x, getn (nodes s1) dn = Some x /\ nk x = NDef).
  { intros d dn Hd. apply (do_def _ _ D) in Hd as [x [Hx Kx]]. exists x. split; auto.
    destruct Fr as [Fd U]. rewrite U. destruct (Nat.eqb_spec dn idx); [congruence|auto]. }
  constructor; cbn; auto.
  - apply EdgeOK_add_plain; [rewrite E1; eapply EdgeOK_fresh; eauto; cbn; discriminate|].
    intros e He. destruct (Hn e He) as [K [[Et (d & Hd & _)]|[Es (ot & od & Hd & _)]]]; destruct (Def1 _ _ Hd) as [x [Gx Kx]].
    + rewrite Et. repeat split; auto; [apply liveb_true; eauto|congruence|].
      intros y sat Gy. rewrite (upd_same _ _ _ _ (proj2 Fr)) in Gy. injection Gy as <-. discriminate.
    + rewrite Es. repeat split; auto; [apply liveb_true; eauto|congruence|].
      intros y sat Gy. rewrite Gx in Gy. injection Gy as <-. congruence.
  - rewrite E3. eapply ExOK_upd_some; eauto; [apply Fr|reflexivity|apply X].
  - rewrite E2. eapply ImOK_fresh_other; eauto. cbn. discriminate.
  - rewrite E4. eapply DfOK_fresh_def; eauto.
  - rewrite E5, E6. eapply PkgOK_fresh; eauto; cbn; discriminate.
Qed.

Lemma define_type_panic u s nm t : explained u s (DefineType nm t) (snd (define_type u s nm t)).
Proof.
  unfold define_type. destruct (nth_error (u_tys u) t) as [td|] eqn:E.
  2:{ apply dead_explained; [reflexivity|]. cbn. apply nth_error_None in E. lia. }
  destruct (existsb (fun p => fst p =? t) (defined s)); [ok_triv|]. destruct (td_res td); [ok_triv|].
  destruct (existsb (fun p => N.eqb (fst p) nm) (exports s)); [ok_triv|]. destruct (negb (u_import_name_ok u nm)); [ok_triv|].
  destruct (add_node s _). ok_triv.
Qed.

Lemma export_inv u s n e : InvC u s -> InvC u (fst (export_ u s n e)).
Proof.
  intros H. destruct (export_spec u s n e) as [->|(nd & G & Al & ->)]; [exact H|]. apply alist_get_None in Al.
  pose proof H as [F E X I D P]. unfold exports_renamed. rewrite G. rewrite get_node_getn in G.
  apply (InvC_upd u s n nd); auto using kclass_refl.
  - eapply EdgeOK_set_live; eauto.
  - destruct (exports_renamed_spec _ _ n nd X G) as (Sub & Keep & ND).
    eapply ExOK_upd_some; eauto; [eapply upd_set_live; eauto|reflexivity|].
    intros Hin. apply Al. apply in_map_iff in Hin as [x [Ex Hx]]. apply in_map_iff. exists x. split; auto.
Qed.

Lemma export_panic u s n e : explained u s (Export n e) (snd (export_ u s n e)).
Proof.
  unfold export_, update_node. destruct (alist_get N.eqb (exports s) e); [ok_triv|].
  destruct (negb _); [ok_triv|]. destruct (get_node s n) eqn:G; [ok_triv|].
  apply dead_explained; [reflexivity|]. now apply dead_not_live.
Qed.

Lemma unexport_cases u s n nd :
  InvC u s -> get_node s n = Some nd ->
  let s1 := set_node s n (Some {| nk := nk nd; npkg := npkg nd; nitem := nitem nd; nname := nname nd;
                                  nexport := None |}) in
  exists ex, match nexport nd with
             | Some nm => match swap_remove (exports s1) nm with Some ex => inl ex | None => inr PExportMissing end
             | None => inl (exports s1)
             end = inl ex /\
             InvC u (with_maps s1 (imports s1) (filter (fun p => negb (snd p =? n)) ex) (defined s1)).
Proof.
  intros H G s1. pose proof H as [F E X I D P]. rewrite get_node_getn in G.
  destruct (exports_after_remove _ _ n nd X G) as (ex & Eq & M & ND). exists ex. split; [exact Eq|].
  apply (InvC_upd u s n nd); auto using kclass_refl.
  - eapply EdgeOK_set_live; eauto.
  - eapply ExOK_unexport; eauto; [eapply upd_set_live; eauto|reflexivity].
Qed.

Lemma unexport_inv u s n : InvC u s -> InvC u (fst (unexport s n)).
Proof.
  intros H. unfold unexport. destruct (get_node s n) as [nd|] eqn:G; auto.
  destruct (nk nd) eqn:K; auto;
    (destruct (unexport_cases u s n nd H G) as [ex [Eq Hi]];
     rewrite K in *; cbn zeta in Eq; rewrite Eq; exact Hi).
Qed.

Lemma unexport_panic u s n : InvC u s -> explained u s (Unexport n) (snd (unexport s n)).
Proof.
  intros H. unfold unexport. destruct (get_node s n) as [nd|] eqn:G.
  2:{ apply dead_explained; [reflexivity|]. now apply dead_not_live. }
  destruct (nk nd) eqn:K; [ok_triv| | |];
    (destruct (unexport_cases u s n nd H G) as [ex [Eq Hi]];
     rewrite K in *; cbn zeta in Eq; rewrite Eq; ok_triv).
Qed.

Lemma set_arg_cases u s inst arg nd sat index an :
  InvC u s -> get_node s inst = Some nd -> nk nd = NInst sat ->
  scan_incoming (incoming s inst) index arg = ScanNone -> get_node s arg = Some an ->
  let s1 := add_edge s {| esrc := arg; etgt := inst; ek := EArg index |} in
  exists s2, add_satisfied s1 inst index = inl (Some s2) /\ InvC u s2.
Proof.
  intros H G K Sc Ga s1. pose proof H as [F E X I D P]. rewrite get_node_getn in *.
  assert (Z : count_arg_l (edges s) inst index = 0).
  { pose proof (scan_incoming_spec (incoming s inst) index arg) as Sp. rewrite Sc in Sp.
    apply filter_length_zero. intros e He. destruct (is_arg inst index e) eqn:Ia; auto.
    apply is_arg_true in Ia as [T Ke]. destruct (Sp e) as (j & Kj & Hj); [|congruence].
    apply filter_In. split; auto. now apply Nat.eqb_eq. }
  destruct (eo_sat _ _ E inst nd sat G K) as [ND Cn].
  assert (Hn : existsb (Nat.eqb index) sat = false).
  { specialize (Cn index). rewrite Z in Cn. destruct (existsb _ sat); [discriminate|auto]. }
  unfold add_satisfied. replace (get_node s1 inst) with (Some nd) by (symmetry; exact G).
  rewrite K, Hn. eexists. split; [reflexivity|].
  apply (InvC_upd u s inst nd); auto.
  - cbn. now rewrite K.
  - apply (EdgeOK_set_arg _ _ _ _ nd sat _ _ E G K); [apply liveb_true; eauto|exact Z|eapply upd_set_live; eauto].
  - eapply ExOK_set_live; eauto.
Qed.

Lemma set_arg_inv u s inst a arg : InvC u s -> InvC u (fst (set_arg u s inst a arg)).
Proof.
  intros H. unfold set_arg. destruct (get_node s inst) as [nd|] eqn:G; auto.
  destruct (nk nd) as [| |sat|] eqn:K; auto. destruct (inst_imports u s nd) as [imps|]; auto.
  destruct (get_full imps a 0) as [[index expected]|]; auto.
  destruct (scan_incoming _ index arg) eqn:Sc; auto.
  destruct (get_node s arg) as [an|] eqn:Ga; auto. destruct (negb (u_sub u _ _)); auto.
  destruct (set_arg_cases u s inst arg nd sat index an H G K Sc Ga) as [s2 [Eq Hi]].
  cbn zeta in Eq. rewrite Eq. exact Hi.
Qed.

Lemma inst_imports_some u s n nd sat :
  InvC u s -> get_node s n = Some nd -> nk nd = NInst sat -> exists imps, inst_imports u s nd = Some imps.
Proof.
  intros H G K. destruct (po_inst _ _ _ _ (ic_pkg _ _ H) n nd sat G K) as [id [pd [Hn Hp]]].
  unfold inst_imports. rewrite Hn, pkg_desc_l_eq, Hp. eauto.
Qed.

(** an instantiation has only argument edges coming in, so the two scans never meet another edge *)
Lemma no_foreign_edge u s inst nd sat (g : edge -> bool) :
  InvC u s -> get_node s inst = Some nd -> nk nd = NInst sat -> (forall e, g e = true -> etgt e = inst) ->
  ~ exists e, In e (filter g (edges s)) /\ forall i, ek e <> EArg i.
Proof.
  intros H G K Hg [e [He Hk]]. apply filter_In in He as [He T]. apply Hg in T.
  destruct (eo_inst_arg _ _ (ic_edge _ _ H) e nd sat He) as [i Hi]; auto; [now rewrite T|]. now apply Hk in Hi.
Qed.

Lemma set_arg_panic u s inst a arg : InvC u s -> explained u s (SetArg inst a arg) (snd (set_arg u s inst a arg)).
Proof.
  intros H. unfold set_arg. destruct (get_node s inst) as [nd|] eqn:G.
  2:{ apply dead_explained; [reflexivity|]. intros [L _]. now apply dead_not_live in L. }
  destruct (nk nd) as [| |sat|] eqn:K; try ok_triv.
  destruct (inst_imports_some u s inst nd sat H G K) as [imps ->].
  destruct (get_full imps a 0) as [[index expected]|]; [|ok_triv].
  destruct (scan_incoming _ index arg) eqn:Sc; try ok_triv.
  - destruct (get_node s arg) as [an|] eqn:Ga.
    2:{ apply dead_explained; [reflexivity|]. intros [_ L]. now apply dead_not_live in L. }
    destruct (negb (u_sub u _ _)); [ok_triv|].
    destruct (set_arg_cases u s inst arg nd sat index an H G K Sc Ga) as [s2 [Eq Hi]].
    cbn zeta in Eq. rewrite Eq. ok_triv.
  - exfalso. pose proof (scan_incoming_spec (incoming s inst) index arg) as Sp. rewrite Sc in Sp.
    revert Sp. apply (no_foreign_edge u s inst nd sat _ H G K). intros e. apply Nat.eqb_eq.
Qed.

Lemma unset_arg_cases u s inst arg nd sat index :
  InvC u s -> get_node s inst = Some nd -> nk nd = NInst sat ->
  scan_connecting (filter (fun e => (esrc e =? arg) && (etgt e =? inst)) (edges s)) index = UFound ->
  let isit := fun e => (esrc e =? arg) && (etgt e =? inst) && match ek e with EArg i => i =? index | _ => false end in
  exists s1, remove_satisfied s inst index = inl s1 /\
    InvC u {| nodes := nodes s1; free_nodes := free_nodes s1; edges := remove_first isit (edges s1);
              imports := imports s1; exports := exports s1; defined := defined s1;
              pkgs := pkgs s1; free_pkgs := free_pkgs s1 |}.
Proof.
  intros H G K Sc isit. pose proof H as [F E X I D P]. rewrite get_node_getn in *.
  pose proof (scan_connecting_spec (filter (fun e => (esrc e =? arg) && (etgt e =? inst)) (edges s)) index) as Sp.
  rewrite Sc in Sp. destruct Sp as (e0 & He0 & K0). apply filter_In in He0 as [He0 C].
  apply andb_true_iff in C as [S0 T0]. apply Nat.eqb_eq in S0, T0.
  assert (Hit : isit e0 = true) by (unfold isit; now rewrite S0, T0, K0, !Nat.eqb_refl).
  destruct (eo_sat _ _ E inst nd sat G K) as [ND Cn].
  assert (Hn : existsb (Nat.eqb index) sat = true).
  { apply existsb_eqb_In. apply (arg_edge_sat _ _ e0 nd sat index E He0 K0); [now rewrite T0|exact K]. }
  unfold remove_satisfied. replace (get_node s inst) with (Some nd) by (symmetry; exact G).
  rewrite K, Hn. eexists. split; [reflexivity|].
  apply (InvC_upd u s inst nd); auto.
  - cbn. now rewrite K.
  - eapply EdgeOK_unset_arg; eauto. eapply upd_set_live; eauto.
  - eapply ExOK_set_live; eauto.
Qed.

Lemma unset_arg_inv u s inst a arg : InvC u s -> InvC u (fst (unset_arg u s inst a arg)).
Proof.
  intros H. unfold unset_arg. destruct (get_node s inst) as [nd|] eqn:G; auto.
  destruct (nk nd) as [| |sat|] eqn:K; auto. destruct (inst_imports u s nd) as [imps|]; auto.
  destruct (get_full imps a 0) as [[index expected]|]; auto.
  destruct (scan_connecting _ index) eqn:Sc; auto.
  destruct (unset_arg_cases u s inst arg nd sat index H G K Sc) as [s1 [Eq Hi]].
  cbn zeta in Hi. rewrite Eq. exact Hi.
Qed.

Lemma unset_arg_panic u s inst a arg : InvC u s -> explained u s (UnsetArg inst a arg) (snd (unset_arg u s inst a arg)).
Proof.
  intros H. unfold unset_arg. destruct (get_node s inst) as [nd|] eqn:G.
  2:{ apply dead_explained; [reflexivity|]. intros [L _]. now apply dead_not_live in L. }
  destruct (nk nd) as [| |sat|] eqn:K; try ok_triv.
  destruct (inst_imports_some u s inst nd sat H G K) as [imps ->].
  destruct (get_full imps a 0) as [[index expected]|]; [|ok_triv].
  destruct (scan_connecting _ index) eqn:Sc; try ok_triv.
  - destruct (unset_arg_cases u s inst arg nd sat index H G K Sc) as [s1 [Eq Hi]]. rewrite Eq. ok_triv.
  - exfalso. pose proof (scan_connecting_spec (filter (fun e => (esrc e =? arg) && (etgt e =? inst)) (edges s)) index) as Sp.
    rewrite Sc in Sp. revert Sp. apply (no_foreign_edge u s inst nd sat _ H G K).
    intros e C. apply andb_true_iff in C as [_ C]. now apply Nat.eqb_eq.
Qed.

Definition nrel3 (a b : node) : Prop := nitem b = nitem a /\ npkg b = npkg a /\ kclass (nk a) (nk b).

Lemma nrel3_refl a : nrel3 a a.
Proof. repeat split. apply kclass_refl. Qed.

(** The operations that neither create alias or definition nodes, nor add alias or dependency edges, nor add to the
    export and definition maps, nor rename an export: all but [alias], [define_type], [export] and the removals.
    The invariants about alias nodes, ranks and exported definitions are indifferent to them. *)
Record Quiet (s s' : gstate) : Prop := {
  qu_old : forall m a b, get_node s m = Some a -> get_node s' m = Some b ->
           nrel3 a b /\ (nk b = NDef -> nexport a = nexport b);
  qu_new : forall m b, get_node s m = None -> get_node s' m = Some b -> nk b <> NAlias /\ nk b <> NDef;
  qu_edges : forall e, In e (edges s') -> In e (edges s) \/ exists i, ek e = EArg i;
  qu_alias : forall e i, ek e = EAlias i -> In e (edges s) -> In e (edges s');
  qu_exports : incl (exports s') (exports s);
  qu_defined : incl (defined s') (defined s) }.

Lemma Quiet_eq s s' :
  nodes s' = nodes s -> edges s' = edges s -> exports s' = exports s -> defined s' = defined s -> Quiet s s'.
Proof.
  intros Hn He Hx Hd. constructor; rewrite ?He, ?Hx, ?Hd; auto using incl_refl; unfold get_node; rewrite Hn.
  - intros m a b G1 G2. rewrite G1 in G2. injection G2 as <-. auto using nrel3_refl.
  - intros m b G1 G2. congruence.
Qed.

Lemma Quiet_set_node s s' n nd nd' :
  get_node s n = Some nd -> nrel3 nd nd' -> (nk nd' = NDef -> nexport nd = nexport nd') ->
  nodes s' = set_nth (nodes s) n (Some nd') ->
  (forall e, In e (edges s') -> In e (edges s) \/ exists i, ek e = EArg i) ->
  (forall e i, ek e = EAlias i -> In e (edges s) -> In e (edges s')) ->
  incl (exports s') (exports s) -> defined s' = defined s -> Quiet s s'.
Proof.
  intros G R Rx Hn He Ha Hx Hd. rewrite get_node_getn in G. constructor; rewrite ?Hd; auto using incl_refl.
  - intros m a b G1 G2. rewrite get_node_getn in *. rewrite Hn in G2. erewrite getn_set_live in G2 by eauto.
    destruct (Nat.eqb_spec m n) as [->|_]; [rewrite G in G1; injection G1 as <-; injection G2 as <-; auto|].
    rewrite G1 in G2. injection G2 as <-. auto using nrel3_refl.
  - intros m b G1 G2. rewrite get_node_getn in *. rewrite Hn in G2. erewrite getn_set_live in G2 by eauto.
    destruct (Nat.eqb_spec m n) as [->|_]; congruence.
Qed.

Lemma Quiet_add_node u s nd s1 idx s' :
  InvC u s -> add_node s nd = (s1, idx) -> nk nd <> NAlias -> nk nd <> NDef ->
  nodes s' = nodes s1 -> edges s' = edges s1 -> exports s' = exports s1 -> defined s' = defined s1 -> Quiet s s'.
Proof.
  intros HI A Ka Kd Hn He Hx Hd. apply add_node_spec in A as ([Fd Fu] & _ & E1 & _ & E3 & E4 & _); [|apply HI].
  constructor; rewrite ?He, ?Hx, ?Hd, ?E1, ?E3, ?E4; auto using incl_refl.
  - intros m a b G1 G2. rewrite get_node_getn in *. rewrite Hn, Fu in G2.
    destruct (Nat.eqb_spec m idx) as [->|_]; [congruence|]. rewrite G1 in G2. injection G2 as <-. auto using nrel3_refl.
  - intros m b G1 G2. rewrite get_node_getn in *. rewrite Hn, Fu in G2.
    destruct (Nat.eqb_spec m idx) as [->|_]; [injection G2 as <-; auto|congruence].
Qed.

Definition quiet_op (o : op) : bool :=
  match o with
  | Register _ | Import _ _ | Instantiate _ | SetArg _ _ _ | UnsetArg _ _ _ | Unexport _ | SetName _ _ => true
  | _ => false
  end.

Lemma step_quiet u s o : InvC u s -> quiet_op o = true -> Quiet s (fst (step u s o)).
Proof.
  intros HI. destruct o as [p|id|nm t|nm k|id|n e|i a n|i a n|n e|n|n nm|n]; try discriminate; intros _; cbn [step].
  - destruct (register_spec u s p) as [->|(pk & fp & ->)]; now apply Quiet_eq.
  - destruct (import_spec u s nm k) as [->|(kd & s1 & idx & _ & A & ->)]; [now apply Quiet_eq|].
    eapply Quiet_add_node; eauto; cbn; discriminate.
  - destruct (instantiate_spec u s id) as [->|(pd & s1 & idx & _ & A & ->)]; [now apply Quiet_eq|].
    eapply Quiet_add_node; eauto; cbn; discriminate.
  - destruct (set_arg_spec u s i a n) as [->|(nd & sat & index & G & K & ->)]; [now apply Quiet_eq|].
    eapply Quiet_set_node; [exact G| | |reflexivity|..]; cbn; auto using incl_refl.
    + repeat split. cbn. now rewrite K.
    + intros e [<-|H]; [right; cbn; eauto|auto].
  - destruct (unset_arg_spec u s i a n) as [->|(nd & sat & index & G & K & ->)]; [now apply Quiet_eq|].
    eapply Quiet_set_node; [exact G| | |reflexivity|..]; cbn; auto using incl_refl.
    + repeat split. cbn. now rewrite K.
    + intros e H. left. eapply remove_first_In; eauto.
    + intros e j Ke. apply remove_first_other. rewrite Ke. apply andb_false_r.
  - destruct (unexport_spec s n) as [->|(nd & ex & G & K & Hex & ->)]; [now apply Quiet_eq|].
    eapply Quiet_set_node; [exact G| | |reflexivity|..]; cbn; auto.
    + repeat split. apply kclass_refl.
    + intros Kd. now contradiction K.
    + intros x Hx. apply filter_In in Hx as [Hx _]. auto.
  - destruct (set_name_spec s n nm) as [->|(nd & G & ->)]; [now apply Quiet_eq|].
    eapply Quiet_set_node; [exact G| | |reflexivity|..]; cbn; auto using incl_refl.
    repeat split. apply kclass_refl.
Qed.
