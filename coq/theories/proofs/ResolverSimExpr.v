(** Simulation of expressions: access chains, then the [new] expression (both
    argument passes, the argument edges of the new node, the completeness check). *)
From Coq Require Import List Arith Bool NArith Lia.
From WacV Require Import Str StrFacts Token Semver Names Ast Graph Resolver LangSpec ResolverProofs ResolverNew ResolverSim
  GraphInv ListFacts AstInd.
Import ListNotations.
Local Open Scope nat_scope.

Section SimExpr.
  Variable u : runiverse.
  Variable self_name : str.
  Variable K : kid -> Prop.
  Hypothesis U : uok u K.
  Notation dv := impl_flags_c04.
  Notation Rel := (Rel u K).

  Notation sim := (sim u K).

  Lemma kind_of_eq st n nd : get_node (rs_g st) n = Some nd -> kind_of n st = inl (nitem nd, st).
  Proof. intros G. unfold kind_of, bind, get_g. now rewrite G. Qed.

  Lemma bind_kind_of {A} st n nd (f : kid -> M A) : get_node (rs_g st) n = Some nd -> bind (kind_of n) f st = f (nitem nd) st.
  Proof. intros G. unfold bind. now rewrite (kind_of_eq _ _ _ G). Qed.

  Lemma bind_gop {A} f (k : outcome -> M A) st :
    bind (gop f) k st = k (snd (f (rs_g st))) {| rs_g := fst (f (rs_g st)); rs_scope := rs_scope st |}.
  Proof. unfold gop, bind, get_g, put_g, ret. destruct (f (rs_g st)); reflexivity. Qed.

  Lemma bind_assoc {A B C} (m : M A) (f : A -> M B) (g : B -> M C) st :
    bind (bind m f) g st = bind m (fun x => bind (f x) g) st.
  Proof. unfold bind. destruct (m st) as [[a s]|e]; reflexivity. Qed.

  Definition access_of (pe : postfix_expr) (v : sval) : SM sval :=
    match pe with
    | PAccess _ id => access dv u v (id_string id) false
    | PNamedAccess _ s => access dv u v (s_value s) true
    end.

  Lemma access_sim st env vm item v pe parent :
    Rel st env vm -> nth_error vm item = Some v ->
    sim item_rel vm env (eval_postfix u item pe parent st) (access_of pe v env).
  Proof.
    intros R V. destruct (rel_val R V) as (nd & G & _ & VK & _).
    rewrite eval_postfix_run, G.
    replace (access_of pe v env) with
      (match inst_exports u (nitem nd) with
       | None => inr INonInstanceAccess
       | Some ex => let nm := access_name pe (map fst ex) in
                    if has_key ex nm then inl (VAccess v nm, env) else inr (IUnknownExport nm)
       end).
    2:{ destruct pe; cbn [access_of]; unfold access, sbind, env_, val_exports; rewrite VK;
          (destruct (inst_exports u (nitem nd)) as [ex|]; [cbn; destruct (has_key ex _)|]; reflexivity). }
    destruct (inst_exports u (nitem nd)) as [ex|] eqn:IE; [|reflexivity]. cbv zeta.
    destruct (has_key ex (access_name pe (map fst ex))) eqn:HKy; [|reflexivity].
    unfold inst_exports in IE. destruct (u_inst_exports u (nitem nd)) as [exN|] eqn:UE; [|discriminate]. injection IE as <-.
    destruct (alias_sim U R G V UE HKy) as (g' & n & vm' & A & P & R' & Vn).
    rewrite A. exists vm'. split; [exact P|]. split; [exact R'|]. split; [apply env_le_refl|exact Vn].
  Qed.

  Lemma lookup_sim st env vm id :
    Rel st env vm ->
    osim (fun n st' v env' => st' = st /\ env' = env /\ nth_error vm n = Some v) (local_item id st) (lookup id env).
  Proof.
    intros R. unfold local_item, lookup, bind, sbind, get_scope, env_.
    pose proof (scope_get (id_string id) (r_scope R)) as X.
    destruct (im_get (rs_scope st) (id_string id)) as [[n a]|].
    - destruct X as (v & -> & V). cbn. auto.
    - rewrite X. reflexivity.
  Qed.

  Lemma chain_sim l : forall st env vm item v parent,
    Rel st env vm -> nth_error vm item = Some v ->
    sim item_rel vm env (postfix_chain u item parent l st) (access_chain dv u v l env).
  Proof.
    induction l as [|pe r IH]; intros st env vm item v parent R V.
    - exact (sim_ret R V).
    - replace (access_chain dv u v (pe :: r)) with (sbind (access_of pe v) (fun w => access_chain dv u w r))
        by (destruct pe; reflexivity).
      cbn [postfix_chain]. eapply sim_bind; [now apply access_sim|]. intros n s1 w e1 vm1 _ _ R1 V1. now apply IH.
  Qed.

  Lemma find_pkg_slot_spec (g : gstate) p i :
    find_pkg_slot g p = Some i -> exists sl, nth_error (pkgs g) i = Some sl /\ ps_pkg sl = Some p.
  Proof.
    intros H. enough (X : exists j sl, i = 0 + j /\ nth_error (pkgs g) j = Some sl /\ ps_pkg sl = Some p).
    { destruct X as (j & sl & -> & X). eauto. }
    revert H. unfold find_pkg_slot. generalize 0 as off. induction (pkgs g) as [|sl r IH]; intros off H; [discriminate|].
    destruct (ps_pkg sl) as [q|] eqn:E; [destruct (Nat.eqb_spec q p) as [->|Ne]|].
    - injection H as <-. exists 0, sl. rewrite Nat.add_0_r. auto.
    - destruct (IH _ H) as (j & sl' & -> & X). exists (Datatypes.S j), sl'. rewrite <- plus_n_Sm. auto.
    - destruct (IH _ H) as (j & sl' & -> & X). exists (Datatypes.S j), sl'. rewrite <- plus_n_Sm. auto.
  Qed.

  Lemma resolve_package_sim st env vm nm v at_ :
    Rel st env vm ->
    osim (fun id st' p env' => env' = env /\ Rel st' env vm /\ get_pkg (rs_g st') id = Some p /\ rs_scope st' = rs_scope st /\
                               exists pd, nth_error (u_pkgs u) p = Some pd)
         (resolve_package u nm v at_ st) (find_pkg u nm v env).
  Proof.
    intros R. unfold resolve_package, find_pkg. destruct (ru_pkg_find u nm v) as [p|] eqn:PF; [|reflexivity].
    assert (Pd : exists pd, nth_error (u_pkgs u) p = Some pd).
    { pose proof (uo_pkg_find _ _ U _ _ _ PF) as L. apply nth_error_Some in L. destruct (nth_error (u_pkgs u) p); eauto. now contradiction L. }
    unfold bind at 1, get_g at 1.
    destruct (find_pkg_slot (rs_g st) p) as [slot|] eqn:FS.
    - apply find_pkg_slot_spec in FS as (sl & N' & P'). rewrite N'. cbn.
      split; auto. split; auto. split; auto. unfold get_pkg. cbn. now rewrite N', Nat.eqb_refl.
    - rewrite bind_gop. unfold register. rewrite FS.
      destruct (r_free R) as [F Fp]. rewrite Fp. cbn.
      split; [reflexivity|]. split; [|split; [|split; auto]].
      + (* only the package table has changed *)
        apply (Rel_same u K st env vm _ _ env R); cbn; auto.
        * split; auto.
        * now apply nodes_kept_same.
        * intros id q. unfold get_pkg. cbn.
          destruct (nth_error (pkgs (rs_g st)) (fst id)) as [sl|] eqn:E; [|discriminate].
          now rewrite (prefix_nth (prefix_snoc _ _) E).
        * apply (r_scope R).
        * apply (r_exports R).
      + unfold get_pkg. cbn. now rewrite nth_error_snoc.
  Qed.

  Lemma inferred_name_eq imports id item st nd :
    get_node (rs_g st) item = Some nd ->
    inferred_name u imports id item st =
      inl (infer_arg_name dv (map fst imports) (id_string id) (instance_id u (nitem nd)) (node_source u (rs_g st) item), st).
  Proof.
    intros G.
    destruct (inferred_name u imports id item st) as [[nm st']|f] eqn:E.
    - apply inferred_name_spec in E as (-> & nd' & G' & ->). rewrite G in G'. injection G' as <-. reflexivity.
    - exfalso. unfold inferred_name in E. unfold bind at 1 in E. rewrite (kind_of_eq _ _ _ G) in E.
      destruct (match instance_id u (nitem nd) with Some i => if has_key imports i then Some i else None | None => None end);
        [discriminate|].
      unfold bind at 1, get_g at 1 in E. unfold node_import_name in E. rewrite G in E.
      destruct (match match nk nd with NImport nm => Some nm | _ => None end with
                | Some nm => if has_key imports (ru_text u nm) then Some (ru_text u nm) else None
                | None => match get_alias_source u (rs_g st) item with
                          | Some (_, nm) => if has_key imports (ru_text u nm) then Some (ru_text u nm) else None
                          | None => None end end); [discriminate|].
      destruct (find_matching_interface_name (id_string id) imports); discriminate.
  Qed.

  Definition expr_sim (e : expr) : Prop :=
    forall st env vm, Rel st env vm -> sim item_rel vm env (eval_expr u self_name e st) (value_of dv u self_name e env).

  Definition args_sim (args : list inst_arg) : Prop :=
    Forall (fun a => match a with ANamed _ e => expr_sim e | _ => True end) args.

  Definition pass1_rel (req0 : bool) (vm : list sval) (a : argtbl * bool) (b : list (str * sval) * bool) : Prop :=
    scope_ok vm (fst a) (fst b) /\ snd a = (req0 && negb (snd b))%bool.

  Lemma pass1_sim imports args : args_sim args -> forall t ex req st env vm,
    Rel st env vm -> scope_ok vm t ex ->
    sim (pass1_rel req) vm env
        (pass1 u (eval_expr u self_name) imports args t req st)
        (explicit_args dv u (fun y => value_of dv u self_name y) (map fst imports) args ex env).
  Proof.
    induction args as [|a r IH]; intros HA t ex req st env vm R T.
    - cbn. apply sim_ret; auto. split; auto. cbn. now rewrite andb_true_r.
    - inversion HA as [|? ? Ha Hr]; subst. destruct a as [id|id|an e|sp]; cbn [pass1 explicit_args].
      + eapply osim_bind; [apply lookup_sim, R|]. intros item s v e0 (-> & -> & V).
        destruct (rel_val R V) as (nd & G & _ & VK & _).
        unfold bind at 1. rewrite (inferred_name_eq imports id item st nd G).
        unfold sbind at 1, env_ at 1, val_path. rewrite VK, (node_source_val U R V).
        set (nm := infer_arg_name dv (map fst imports) (id_string id) (instance_id u (nitem nd)) (val_source v)).
        unfold bind at 1, sbind at 1, tbl_insert, add_explicit. rewrite (scope_has_key nm T).
        destruct (has_key ex nm); [reflexivity|].
        apply IH; auto. now apply scope_ok_snoc.
      + now apply IH.
      + eapply sim_bind; [apply Ha, R|]. intros item s1 v e1 vm1 P1 _ R1 V1.
        unfold bind at 1, sbind at 1, tbl_insert, add_explicit. rewrite named_name_spec.
        assert (T1 : scope_ok vm1 t ex) by (eapply scope_ok_mono; eauto).
        rewrite (scope_has_key _ T1).
        destruct (has_key ex (arg_name_of dv (map fst imports) an)); [reflexivity|].
        apply IH; auto. now apply scope_ok_snoc.
      + destruct r as [|b r]; [|reflexivity]. cbn. apply sim_ret; auto. split; auto. cbn. now rewrite andb_false_r.
  Qed.

  Lemma spread_names_sim item at_ k exN v env :
    val_kind u env v = Some k -> u_inst_exports u k = Some exN -> forall expected t tv any st vm,
    Rel st env vm -> nth_error vm item = Some v -> NoDup expected -> scope_ok vm t tv ->
    exists st' vm' adds,
      spread_names u item at_ expected t any st = inl ((t ++ adds, (any || negb (is_nil adds))%bool), st') /\
      prefix vm vm' /\ Rel st' env vm' /\
      map fst adds = spread_filter t (text_items u exN) expected /\
      scope_ok vm' (t ++ adds) (tv ++ map (fun i => (i, VAccess v i)) (spread_filter t (text_items u exN) expected)).
  Proof.
    intros VK UE. induction expected as [|nm r IH]; intros t tv any st vm R V ND T.
    - exists st, vm, []. cbn. rewrite !app_nil_r, orb_false_r.
      split; [reflexivity|]. split; [apply prefix_refl|]. split; [exact R|]. split; [reflexivity|exact T].
    - apply NoDup_cons_iff in ND as [Hnot ND']. cbn [spread_names]. unfold spread_filter. cbn [filter].
      destruct (has_key t nm) eqn:HKt; cbn [negb andb]; [now apply IH|].
      destruct (rel_val R V) as (nd & G & _ & VK' & _). rewrite VK in VK'. injection VK' as E0.
      assert (UE' : u_inst_exports u (nitem nd) = Some exN) by (rewrite <- E0; exact UE).
      unfold bind at 1. rewrite alias_export_run, G. unfold inst_exports. rewrite UE'.
      destruct (has_key (text_items u exN) nm) eqn:HKe; [|now apply IH].
      destruct (alias_sim U R G V UE' HKe) as (g' & n & vm1 & A & P1 & R1 & Vn).
      rewrite A.
      assert (T1 : scope_ok vm1 (t ++ [(nm, (n, at_))]) (tv ++ [(nm, VAccess v nm)])).
      { apply scope_ok_snoc; [eapply scope_ok_mono; eauto|exact Vn]. }
      destruct (IH (t ++ [(nm, (n, at_))]) (tv ++ [(nm, VAccess v nm)]) true _ vm1 R1 (prefix_nth P1 V) ND' T1)
        as (st' & vm' & adds & E & P' & R' & MF & T').
      assert (FE : spread_filter (t ++ [(nm, (n, at_))]) (text_items u exN) r = spread_filter t (text_items u exN) r).
      { unfold spread_filter. apply filter_ext_in. intros x Hx. rewrite has_key_snoc_other; auto. intros ->. contradiction. }
      exists st', vm', ((nm, (n, at_)) :: adds). rewrite E. cbn [is_nil negb]. rewrite orb_true_r.
      rewrite <- app_assoc. cbn [app]. split; [reflexivity|]. split; [exact (prefix_trans P1 P')|]. split; [exact R'|].
      split; [cbn; now rewrite MF, FE|]. rewrite <- !app_assoc in T'. cbn [app] in T'. rewrite FE in T'. exact T'.
  Qed.

  Lemma spread_bound_snoc {V} (names : list str) (ex : list (str * V)) : forall rest before sp,
    spread_bound names ex before (rest ++ [sp]) =
    spread_bound names ex before rest ++ map (fun i => (i, sp)) (spread_binds names ex (before ++ rest) sp).
  Proof.
    induction rest as [|q r IH]; intros before sp; cbn [spread_bound app].
    - now rewrite !app_nil_r.
    - rewrite IH, <- !app_assoc. reflexivity.
  Qed.

  Definition spread_vals (names : list str) (explicit : list (str * sval)) (acc : list (spread_src sval)) : list (str * sval) :=
    map (fun b => (fst b, VAccess (sp_val (snd b)) (fst b))) (spread_bound names explicit [] acc).

  Definition pass2_inv (names : list str) (explicit : list (str * sval)) (vm : list sval) (t : argtbl)
             (acc : list (spread_src sval)) : Prop :=
    scope_ok vm t (explicit ++ spread_vals names explicit acc).

  Lemma has_key_app {V} (a b : list (str * V)) k : has_key (a ++ b) k = (has_key a k || has_key b k)%bool.
  Proof. unfold has_key. rewrite im_get_app. destruct (im_get a k); auto. Qed.

  Lemma find_existsb {A} (f : A -> bool) l : (find f l = None) <-> existsb f l = false.
  Proof. induction l as [|a l IH]; cbn; [tauto|]. destruct (f a); [split; discriminate|exact IH]. Qed.

  Lemma im_get_keyed {V} (f : str -> V) l nm :
    im_get (map (fun i => (i, f i)) l) nm = if mem nm l then Some (f nm) else None.
  Proof.
    induction l as [|a l IH]; cbn; auto. destruct (str_eqb a nm) eqn:E; cbn.
    - apply str_eqb_eq in E. now subst.
    - exact IH.
  Qed.

  Lemma spread_vals_get names (explicit : list (str * sval)) nm : In nm names -> has_key explicit nm = false ->
    forall rest before, existsb (fun q => mem nm (sp_exports q)) before = false ->
    im_get (map (fun b => (fst b, VAccess (sp_val (snd b)) (fst b))) (spread_bound names explicit before rest)) nm
    = option_map (fun sp => VAccess (sp_val sp) nm) (find (fun sp => mem nm (sp_exports sp)) rest).
  Proof.
    intros Hin Hex. induction rest as [|sp r IH]; intros before Hb; [reflexivity|].
    cbn [spread_bound find]. rewrite map_app, map_map, im_get_app. cbn [fst snd].
    rewrite (im_get_keyed (fun i => VAccess (sp_val sp) i)).
    assert (M : mem nm (spread_binds names explicit before sp) = mem nm (sp_exports sp)).
    { unfold spread_binds. destruct (mem nm (sp_exports sp)) eqn:E.
      - apply mem_In. apply filter_In. split; auto. now rewrite Hex, E, Hb.
      - destruct (mem nm (filter _ names)) eqn:E2; auto. apply mem_In, filter_In in E2 as [_ E2].
        rewrite E, andb_false_r in E2. discriminate. }
    rewrite M. destruct (mem nm (sp_exports sp)) eqn:E; [reflexivity|].
    apply IH. rewrite existsb_app. cbn. now rewrite Hb, E.
  Qed.

  Lemma bound_value names (explicit : list (str * sval)) spreads fill nm : In nm names ->
    im_get (explicit ++ spread_vals names explicit spreads) nm = binding_value nm (bind_import explicit spreads fill nm).
  Proof.
    intros Hin. rewrite im_get_app. unfold bind_import. destruct (im_get explicit nm) as [v|] eqn:Ge; [reflexivity|].
    unfold spread_vals. rewrite (spread_vals_get names explicit nm Hin) by (auto; unfold has_key; now rewrite Ge).
    unfold first_spread. destruct (find _ spreads); [reflexivity|]. destruct fill; reflexivity.
  Qed.

  Lemma table_keys names explicit vm t acc i : pass2_inv names explicit vm t acc -> In i names ->
    has_key t i = (has_key explicit i || existsb (fun q => mem i (sp_exports q)) acc)%bool.
  Proof.
    intros T Hi. rewrite (scope_has_key i T), has_key_app. destruct (has_key explicit i) eqn:He; [reflexivity|].
    unfold has_key, spread_vals. rewrite (spread_vals_get names explicit i Hi He acc [] eq_refl).
    destruct (find (fun sp => mem i (sp_exports sp)) acc) eqn:Fd.
    - destruct (existsb (fun q => mem i (sp_exports q)) acc) eqn:Ex; [reflexivity|]. apply find_existsb in Ex. congruence.
    - apply find_existsb in Fd. now rewrite Fd.
  Qed.

  (** [a]: bound explicitly; [b]: bound by an earlier spread; [c]: exported by this spread *)
  Lemma unbound_export (a b c : bool) : (negb (a || b) && c = negb a && c && negb b)%bool.
  Proof. destruct a, b, c; reflexivity. Qed.

  Lemma pass2_sim names explicit args : NoDup names -> forall t acc st env vm,
    Rel st env vm -> pass2_inv names explicit vm t acc ->
    sim (pass2_inv names explicit) vm env (pass2 u args names t st) (spread_args u names explicit args acc env).
  Proof.
    intros ND. induction args as [|a r IH]; intros t acc st env vm R T.
    - cbn. apply sim_ret; auto.
    - destruct a as [id|id|an e|sp]; cbn [pass2 spread_args]; try (now apply IH).
      unfold spread_arg. rewrite bind_assoc.
      eapply osim_bind; [apply lookup_sim, R|]. intros item s v e0 (-> & -> & V).
      destruct (rel_val R V) as (nd & G & _ & VK & _).
      rewrite bind_assoc, (bind_kind_of _ _ _ _ G). unfold sbind at 1, env_ at 1.
      unfold val_exports. rewrite VK. unfold inst_exports.
      destruct (u_inst_exports u (nitem nd)) as [exN|] eqn:UE; [|reflexivity].
      destruct (spread_names_sim item (off (id_span id)) (nitem nd) exN v env VK UE names t _ false st vm R V ND T)
        as (st' & vm' & adds & E & P' & R' & MF & T').
      unfold bind at 1. unfold bind at 1. rewrite E. cbn [orb].
      set (sp := {| sp_val := v; sp_exports := map fst (text_items u exN) |}).
      assert (FE : spread_filter t (text_items u exN) names = spread_binds names explicit acc sp).
      { unfold spread_filter, spread_binds. apply filter_ext_in. intros i Hi. rewrite (table_keys names explicit vm t acc i T Hi).
        cbn [sp_exports sp]. rewrite (has_key_mem (text_items u exN)). apply unbound_export. }
      unfold spread_effective. rewrite <- FE, <- MF.
      destruct adds as [|a0 adds]; [reflexivity|]. cbn [is_nil negb map].
      eapply sim_weaken; [exact P'|apply env_le_refl|]. apply IH; auto.
      unfold pass2_inv, spread_vals. rewrite spread_bound_snoc, map_app, app_assoc. cbn [app]. rewrite <- FE.
      rewrite map_map. cbn [fst snd sp_val sp]. exact T'.
  Qed.

  (** the graph while the arguments of a fresh instantiation are being set *)
  Section Cur.
    Variable g2 : gstate.
    Variable id : pkgid.
    Variable pd : pkgdesc.
    Let inst := length (nodes g2).
    Let imps := pd_imports pd.

    Definition inode (sat : list nat) : node :=
      {| nk := NInst sat; npkg := Some id; nitem := pd_inst pd; nname := None; nexport := None |}.

    Definition cur (sat : list nat) (newE : list edge) : gstate :=
      {| nodes := nodes g2 ++ [Some (inode sat)]; free_nodes := []; edges := newE ++ edges g2;
         imports := imports g2; exports := exports g2; defined := defined g2; pkgs := pkgs g2; free_pkgs := [] |}.

    Hypothesis NF : nofree g2.
    Hypothesis PD : pkg_desc u g2 id = Some pd.
    Hypothesis EB : forall e, In e (edges g2) -> etgt e < inst.

    Lemma instantiate_cur : instantiate u g2 id = (cur [] [], ONode inst).
    Proof.
      unfold instantiate. rewrite PD. destruct NF as [F Fp]. unfold add_node. rewrite F. unfold cur, mk_node, inode. cbn.
      rewrite Fp. reflexivity.
    Qed.

    Lemma get_node_cur_inst sat newE : get_node (cur sat newE) inst = Some (inode sat).
    Proof. unfold get_node, cur. cbn. unfold inst. now rewrite nth_error_snoc. Qed.

    Lemma scan_none es idx arg :
      (forall e, In e es -> exists i, ek e = EArg i /\ i <> idx) -> scan_incoming es idx arg = ScanNone.
    Proof.
      induction es as [|e r IH]; intros H; cbn; auto. destruct (H e (or_introl eq_refl)) as (i & -> & Ne).
      apply Nat.eqb_neq in Ne. rewrite Ne. apply IH. intros e' He'. apply H. now right.
    Qed.

    Lemma incoming_cur sat newE :
      (forall e, In e newE -> etgt e = inst) -> incoming (cur sat newE) inst = newE.
    Proof.
      intros H. unfold incoming, cur. cbn. rewrite filter_app.
      replace (filter (fun e => etgt e =? inst) (edges g2)) with (@nil edge).
      - rewrite app_nil_r. induction newE as [|e r IH]; cbn; auto. rewrite (H e (or_introl eq_refl)), Nat.eqb_refl.
        f_equal. apply IH. intros e' He'. apply H. now right.
      - symmetry. induction (edges g2) as [|e r IH]; cbn; auto.
        assert (L : etgt e < inst) by (apply EB; now left). apply Nat.lt_neq, Nat.eqb_neq in L. rewrite L.
        apply IH. intros e' He'. apply EB. now right.
    Qed.

    Lemma inst_imports_cur sat newE : inst_imports u (cur sat newE) (inode sat) = Some imps.
    Proof.
      unfold inst_imports, inode. cbn [npkg]. unfold pkg_desc, get_pkg in *. cbn [pkgs cur].
      destruct (nth_error (pkgs g2) (fst id)) as [sl|]; [|discriminate].
      destruct (ps_gen sl =? snd id); [|discriminate]. destruct (ps_pkg sl) as [p|]; [|discriminate].
      destruct (nth_error (u_pkgs u) p); [|discriminate]. now injection PD as ->.
    Qed.

    Lemma set_arg_cur_bad sat newE a n :
      get_full imps a 0 = None -> set_arg u (cur sat newE) inst a n = (cur sat newE, OErr InvalidArgumentName).
    Proof. intros GF. unfold set_arg. rewrite get_node_cur_inst. cbn [nk inode]. now rewrite inst_imports_cur, GF. Qed.

    Lemma set_arg_cur_ok sat newE a n an idx expected :
      (forall e, In e newE -> etgt e = inst) -> get_node g2 n = Some an ->
      get_full imps a 0 = Some (idx, expected) -> scan_incoming newE idx n = ScanNone -> existsb (Nat.eqb idx) sat = false ->
      set_arg u (cur sat newE) inst a n =
        if u_sub u (nitem an) expected then (cur (idx :: sat) ({| esrc := n; etgt := inst; ek := EArg idx |} :: newE), OUnit)
        else (cur sat newE, OErr ArgumentTypeMismatch).
    Proof.
      intros HT G GF SN NS. unfold set_arg. rewrite get_node_cur_inst. cbn [nk inode].
      rewrite inst_imports_cur, GF, (incoming_cur sat newE HT), SN, (get_node_snoc g2 (cur sat newE) _ n an eq_refl G).
      destruct (u_sub u (nitem an) expected); cbn [negb]; [|reflexivity].
      unfold add_satisfied.
      change (get_node (add_edge (cur sat newE) {| esrc := n; etgt := inst; ek := EArg idx |}) inst) with (get_node (cur sat newE) inst).
      rewrite get_node_cur_inst. cbn [nk inode]. rewrite NS.
      f_equal. unfold set_node, add_edge, cur. cbn. unfold inst. rewrite set_nth_app_mid. reflexivity.
    Qed.

    Definition arg_idx (nm : str) : nat :=
      match get_full imps (ru_intern u nm) 0 with Some (i, _) => i | None => 0 end.
    Definition edge_of (p : str * (nat * N)) : edge :=
      {| esrc := fst (snd p); etgt := inst; ek := EArg (arg_idx (fst p)) |}.
  End Cur.

  Lemma check_args_cons imports nm v r e :
    check_args u imports ((nm, v) :: r) e =
      match im_get imports nm with
      | None => inr (IUnknownArgument nm)
      | Some expected =>
          match val_kind u e v with
          | Some k => if u_sub u k expected then check_args u imports r e else inr (IArgumentMismatch nm)
          | None => inr (IArgumentMismatch nm)
          end
      end.
  Proof.
    cbn [check_args]. destruct (im_get imports nm); [|reflexivity]. unfold sbind, env_.
    destruct (val_kind u e v) as [kk|]; [|reflexivity]. destruct (u_sub u kk k); reflexivity.
  Qed.

  Lemma NoDup_map_text (l : list (name * kid)) :
    (forall n k, In (n, k) l -> ru_intern u (ru_text u n) = n) -> NoDup (map fst l) -> NoDup (map fst (text_items u l)).
  Proof.
    intros H ND. induction l as [|[n k] l IH]; cbn; [constructor|]. cbn in ND. inversion ND as [|? ? Hn ND']; subst.
    constructor.
    - intros Hi. apply Hn. unfold text_items in Hi. rewrite map_map in Hi. cbn in Hi. apply in_map_iff in Hi as ([n' k'] & E & Hi').
      cbn in E. assert (n' = n).
      { rewrite <- (H n' k' (or_intror Hi')), E. apply (H n k). now left. }
      subst. apply in_map_iff. exists (n, k'). auto.
    - apply IH; auto. intros n' k' Hi. apply (H n' k'). now right.
  Qed.

  Lemma NoDup_app_str (l1 l2 : list str) :
    NoDup l1 -> NoDup l2 -> (forall a, In a l1 -> ~ In a l2) -> NoDup (l1 ++ l2).
  Proof.
    induction l1 as [|a l1 IH]; intros N1 N2 D; cbn; auto. inversion N1; subst. constructor.
    - rewrite in_app_iff. intros [H|H]; [contradiction|]. apply (D a); [now left|exact H].
    - apply IH; auto. intros b Hb. apply D. now right.
  Qed.

  Lemma spreads_from_nodup expected : forall t recs t',
    spreads_from u expected t recs t' -> NoDup expected -> NoDup (map fst t) -> NoDup (map fst t').
  Proof.
    induction 1 as [t|t r rest t' MF NE FA SF IH]; intros ND NDt; auto. apply IH; auto.
    rewrite map_app, MF. apply NoDup_app_str; auto.
    - unfold spread_filter. now apply NoDup_filter.
    - intros a Ha Hf. unfold spread_filter in Hf. apply filter_In in Hf as [_ Hf].
      apply has_key_In in Ha. rewrite Ha in Hf. discriminate.
  Qed.

  Definition model_tail (pkg : package_name) (id : pkgid) (imports : list (str * kid)) (t2 : argtbl) (req : bool) : M nat :=
    o <- gop (fun g => instantiate u g id) ;;
    match o with
    | ONode inst =>
        _ <- set_args u inst t2 ;;
        if req : bool then
          match find (fun p => negb (has_key t2 (fst p))) imports with
          | Some p => err (EMissingInstantiationArg (fst p) (off (pn_span pkg)))
          | None => ret inst
          end
        else ret inst
    | OPanic p => panic (RGraph p)
    | _ => panic RBadUniverse
    end.

  Definition spec_tail (p : nat) (imports : list (str * kid)) (explicit : list (str * sval))
             (spreads : list (spread_src sval)) (fill : bool) : SM sval :=
    let names := map fst imports in
    let from_spreads := map (fun b => (fst b, VAccess (sp_val (snd b)) (fst b))) (spread_bound names explicit [] spreads) in
    sbind (check_args u imports (explicit ++ from_spreads)) (fun _ =>
    let bs := map (fun i => (i, bind_import explicit spreads fill i)) names in
    match find (fun b => match snd b with BMissing => true | _ => false end) bs with
    | Some (i, _) => ill (IMissingArgument i)
    | None =>
        fun e => inl (VInst (length (se_insts e)),
                      {| se_names := se_names e; se_imports := se_imports e;
                         se_insts := se_insts e ++ [{| si_pkg := p; si_bindings := bs |}];
                         se_exports := se_exports e |})
    end).

  Lemma missing_find names explicit vm t2 spreads fill (imports : list (str * kid)) :
    pass2_inv names explicit vm t2 spreads -> (forall p, In p imports -> In (fst p) names) ->
    find (fun b : str * binding sval => match snd b with BMissing => true | _ => false end)
         (map (fun i => (i, bind_import explicit spreads fill i)) (map fst imports)) =
    if fill then None
    else option_map (fun p => (fst p, BMissing)) (find (fun p => negb (has_key t2 (fst p))) imports).
  Proof.
    intros I. induction imports as [|[i k] l IH]; intros Hn; cbn; [now destruct fill|].
    specialize (IH (fun p Hp => Hn p (or_intror Hp))).
    rewrite (scope_has_key i I). unfold has_key. rewrite (bound_value names explicit spreads fill i (Hn (i, k) (or_introl eq_refl))).
    unfold bind_import. destruct (im_get explicit i); [exact IH|]. destruct (first_spread spreads i); [exact IH|].
    destruct fill; [exact IH|reflexivity].
  Qed.

  Lemma in_rev_map {A B} (f : A -> B) l e : In e (rev (map f l)) <-> exists q, In q l /\ e = f q.
  Proof. rewrite <- in_rev, in_map_iff. split; intros (q & A0 & B0); exists q; auto. Qed.

  Section New.
    Variables (s2 : rstate) (env2 : senv) (vm2 : list sval) (id : pkgid) (p : nat) (pd : pkgdesc).
    Hypothesis R : Rel s2 env2 vm2.
    Hypothesis GP : get_pkg (rs_g s2) id = Some p.
    Hypothesis Ppd : nth_error (u_pkgs u) p = Some pd.
    Let g2 := rs_g s2.
    Let inst := length (nodes g2).
    Let imps := pd_imports pd.
    Let names := map fst (text_items u imps).

    Lemma new_pkg_desc : pkg_desc u g2 id = Some pd.
    Proof. unfold pkg_desc, g2. now rewrite GP. Qed.

    Lemma new_edges_old e : In e (edges g2) -> etgt e < inst.
    Proof. intros He. apply (r_edges R e He). Qed.

    Lemma new_imports_interned n k : In (n, k) imps -> ru_intern u (ru_text u n) = n.
    Proof. exact (uo_intern_imports _ _ U p pd n k Ppd). Qed.

    Lemma import_lookup nm :
      match im_get (text_items u imps) nm with
      | Some kd => get_full imps (ru_intern u nm) 0 = Some (arg_idx pd nm, kd) /\ nth_error imps (arg_idx pd nm) = Some (ru_intern u nm, kd)
      | None => get_full imps (ru_intern u nm) 0 = None
      end.
    Proof.
      pose proof (get_full_text u K imps nm U new_imports_interned 0) as X. destruct (im_get (text_items u imps) nm) as [kd|]; auto.
      destruct X as (idx & GF & Nt). cbn in GF. unfold arg_idx. fold imps. rewrite GF. auto.
    Qed.

    Lemma arg_idx_inj d nm :
      has_key (text_items u imps) d = true -> has_key (text_items u imps) nm = true -> arg_idx pd d = arg_idx pd nm -> d = nm.
    Proof.
      unfold has_key. intros Hd Hn E. pose proof (import_lookup d) as Xd. pose proof (import_lookup nm) as Xn.
      destruct (im_get (text_items u imps) d); [|discriminate]. destruct (im_get (text_items u imps) nm); [|discriminate].
      destruct Xd as [_ Nd], Xn as [_ Nn]. rewrite E, Nn in Nd. injection Nd as Ei _.
      rewrite <- (uo_text_intern _ _ U d), <- Ei. apply (uo_text_intern _ _ U).
    Qed.

    (** [done]: the entries passed so far, latest first *)
    Lemma set_args_sim r tv : scope_ok vm2 r tv -> forall done sc,
      NoDup (map fst r) ->
      (forall q, In q done -> has_key (text_items u imps) (fst q) = true /\ ~ In (fst q) (map fst r)) ->
      osim (fun _ st' _ env' =>
              env' = env2 /\
              st' = {| rs_g := cur g2 id pd (rev (map (fun q => arg_idx pd (fst q)) r) ++ map (fun q => arg_idx pd (fst q)) done)
                                    (rev (map (edge_of g2 pd) r) ++ map (edge_of g2 pd) done);
                       rs_scope := sc |} /\
              Forall (fun q => has_key (text_items u imps) (fst q) = true) r)
           (set_args u inst r {| rs_g := cur g2 id pd (map (fun q => arg_idx pd (fst q)) done) (map (edge_of g2 pd) done);
                                 rs_scope := sc |})
           (check_args u (text_items u imps) tv env2).
    Proof.
      induction 1 as [|[nm [n at_]] [nm' v] r tv' [En V] T' IH]; intros done sc ND HD.
      - cbn. auto.
      - cbn in En, V. subst nm'. apply NoDup_cons_iff in ND as [Hnot ND'].
        destruct (rel_val R V) as (an & G & _ & VK & _). pose proof (import_lookup nm) as IL.
        cbn [set_args]. rewrite bind_gop, check_args_cons. cbn [rs_g rs_scope]. unfold inst.
        destruct (im_get (text_items u imps) nm) as [kd|] eqn:IG.
        + destruct IL as [GF Nt].
          assert (HKn : has_key (text_items u imps) nm = true) by (unfold has_key; now rewrite IG).
          (* the names of the table are pairwise different *)
          assert (Other : forall q, In q done -> arg_idx pd (fst q) <> arg_idx pd nm).
          { intros q Hq E. destruct (HD q Hq) as [Vq Nq]. apply Nq. left. symmetry. now apply arg_idx_inj. }
          assert (Fresh : forall e, In e (map (edge_of g2 pd) done) -> exists i, ek e = EArg i /\ i <> arg_idx pd nm).
          { intros e He. apply in_map_iff in He as (q & <- & Hq). exists (arg_idx pd (fst q)). split; [reflexivity|now apply Other]. }
          assert (NS : existsb (Nat.eqb (arg_idx pd nm)) (map (fun q => arg_idx pd (fst q)) done) = false).
          { destruct (existsb _ _) eqn:Ex; [|reflexivity]. exfalso.
            apply existsb_exists in Ex as (i & Hi & Ei). apply Nat.eqb_eq in Ei. subst i.
            apply in_map_iff in Hi as (q & E & Hq). exact (Other q Hq E). }
          assert (HT : forall e, In e (map (edge_of g2 pd) done) -> etgt e = inst).
          { intros e He. apply in_map_iff in He as (q & <- & _). reflexivity. }
          rewrite VK, (set_arg_cur_ok g2 id pd new_pkg_desc new_edges_old _ _ _ n an _ _ HT G GF (scan_none _ _ _ Fresh) NS).
          destruct (u_sub u (nitem an) kd); [|reflexivity]. cbn [fst snd].
          eapply osim_impl; [|apply (IH ((nm, (n, at_)) :: done) sc ND')].
          * intros [] st' [] env' (-> & -> & Fa). cbn [map rev fst snd]. rewrite <- !app_assoc.
            split; [reflexivity|]. split; [reflexivity|]. constructor; [exact HKn|exact Fa].
          * intros q [<-|Hq]; [split; [exact HKn|exact Hnot]|].
            destruct (HD q Hq) as [Vq Nq]. split; [exact Vq|]. intros X. apply Nq. now right.
        + rewrite (set_arg_cur_bad g2 id pd new_pkg_desc _ _ _ n IL). reflexivity.
    Qed.

    Variables (explicit : list (str * sval)) (spreads : list (spread_src sval)) (t2 : argtbl).
    Hypothesis I : pass2_inv names explicit vm2 t2 spreads.
    Hypothesis NDt : NoDup (map fst t2).

    Lemma new_arg_edges fill :
      Forall (fun q => has_key (text_items u imps) (fst q) = true) t2 ->
      arg_edges_ok u (cur g2 id pd (rev (map (fun q => arg_idx pd (fst q)) t2)) (rev (map (edge_of g2 pd) t2)))
                   (vm2 ++ [VInst (length (se_insts env2))]) inst
                   {| si_pkg := p; si_bindings := map (fun i => (i, bind_import explicit spreads fill i)) names |}.
    Proof.
      intros Valid.
      set (newE' := rev (map (edge_of g2 pd) t2)).
      assert (NDi : NoDup (map fst imps)) by exact (uo_imports_nodup _ _ U p pd Ppd).
      assert (EdgeChar : forall nm src, has_key (text_items u imps) nm = true ->
                (In {| esrc := src; etgt := inst; ek := EArg (arg_idx pd nm) |} (newE' ++ edges g2) <->
                 exists at_, In (nm, (src, at_)) t2)).
      { intros nm src Hv. rewrite in_app_iff. split.
        - intros [Hn|Ho]; [|apply new_edges_old in Ho; cbn in Ho; lia].
          apply in_rev_map in Hn as ([nm' [n' at']] & Hq & E). unfold edge_of in E. cbn in E. injection E as -> Ei.
          rewrite Forall_forall in Valid. pose proof (Valid _ Hq) as Hv'. cbn in Hv'.
          assert (nm' = nm) by (symmetry; eapply arg_idx_inj; eauto). subst. eauto.
        - intros (at_ & Hq). left. apply in_rev_map. exists (nm, (src, at_)). split; auto. }
      exists pd. cbn [si_pkg si_bindings cur edges]. fold newE'. split; [exact Ppd|].
      split; [rewrite map_map; cbn; apply map_id|].
      intros idx i kd b N1 N2.
      set (nm := ru_text u i).
      assert (Hb : b = bind_import explicit spreads fill nm).
      { unfold names, imps in N2. rewrite nth_error_map, (text_names_nth u _ _ _ _ N1) in N2. now injection N2 as <-. }
      assert (Hin : In nm names) by exact (nth_error_In _ _ (text_names_nth u _ _ _ _ N1)).
      assert (Hv : has_key (text_items u imps) nm = true) by (apply has_key_In; exact Hin).
      assert (Hidx : arg_idx pd nm = idx).
      { unfold arg_idx, nm. rewrite (new_imports_interned i kd (nth_error_In _ _ N1)).
        pose proof (get_full_nodup imps NDi idx i kd 0 N1) as GFN. unfold imps in GFN. now rewrite GFN. }
      pose proof (scope_get nm I) as SG. rewrite (bound_value names explicit spreads fill nm Hin), <- Hb in SG.
      destruct (im_get t2 nm) as [[n at_]|] eqn:G2.
      - destruct SG as (v & -> & Vn). exists n. rewrite <- Hidx.
        split; [apply EdgeChar; auto; exists at_; now apply im_get_In|].
        split; [apply (prefix_nth (prefix_snoc vm2 _) Vn)|].
        intros src' He. apply EdgeChar in He as (at' & Hq'); auto.
        pose proof (In_im_get _ _ _ NDt Hq') as X. rewrite G2 in X. now injection X as <- _.
      - rewrite SG. intros src He. rewrite <- Hidx in He. apply EdgeChar in He as (at_ & Hq); auto.
        pose proof (In_im_get _ _ _ NDt Hq) as X. congruence.
    Qed.

    Lemma new_node_sim fill :
      Forall (fun q => has_key (text_items u imps) (fst q) = true) t2 ->
      sim item_rel vm2 env2
        (inl (inst,
              {| rs_g := cur g2 id pd (rev (map (fun q => arg_idx pd (fst q)) t2)) (rev (map (edge_of g2 pd) t2));
                 rs_scope := rs_scope s2 |}))
        (inl (VInst (length (se_insts env2)),
              {| se_names := se_names env2; se_imports := se_imports env2;
                 se_insts := se_insts env2 ++
                   [{| si_pkg := p; si_bindings := map (fun i => (i, bind_import explicit spreads fill i)) names |}];
                 se_exports := se_exports env2 |})).
    Proof.
      intros Valid.
      set (j := length (se_insts env2)).
      set (si := {| si_pkg := p; si_bindings := map (fun i => (i, bind_import explicit spreads fill i)) names |}).
      assert (Tn : forall nm n at_, In (nm, (n, at_)) t2 -> n < inst).
      { intros nm n at_ Hin. unfold inst, g2. rewrite <- (r_len R). pose proof I as T. clear -T Hin. induction T as [|a b l l' [E V] H IH]; [destruct Hin|].
        destruct Hin as [->|Hin]; [|auto]. cbn in V. apply nth_error_Some. congruence. }
      exists (vm2 ++ [VInst j]). split; [apply prefix_snoc|].
      split; [|split; [split; cbn; [apply prefix_refl|apply prefix_snoc]|]].
      2:{ exact (rel_new_val (VInst j) R). }
      apply (Rel_add u K s2 env2 vm2 _ _ (inode id pd (rev (map (fun q => arg_idx pd (fst q)) t2))) (VInst j)
               (rev (map (edge_of g2 pd) t2)) R);
        cbn [cur nodes free_nodes free_pkgs pkgs edges exports se_names se_exports se_imports se_insts]; try reflexivity.
      - intros e Hn. apply in_rev_map in Hn as ([nm [n at_]] & Hq & ->). unfold edge_of. cbn [etgt esrc ek fst snd].
        split; [reflexivity|]. split; [exact (Tn _ _ _ Hq)|]. intros idx X. discriminate.
      - split; cbn; [apply prefix_refl|apply prefix_snoc].
      - assert (Sj : nth_error (se_insts env2 ++ [si]) j = Some si) by apply nth_error_snoc.
        unfold node_ok. cbn [nitem nk npkg inode].
        split; [exact (uo_K_inst _ _ U p pd Ppd)|].
        split; [cbn [val_kind se_insts]; rewrite Sj; cbn [si_pkg si]; unfold pkg_world; now rewrite Ppd|].
        split; [discriminate|]. split; [eauto|].
        exists si, id. split; [exact Sj|]. split; [reflexivity|].
        split; [unfold get_pkg; cbn; exact GP|].
        exact (new_arg_edges fill Valid).
      - apply (imports_ok_snoc u g2) with (x := Some (inode id pd (rev (map (fun q => arg_idx pd (fst q)) t2))));
          [reflexivity|reflexivity|apply (r_imports R)].
      - intros j' A B. rewrite app_length in B. cbn in B. f_equal. unfold j. lia.
    Qed.

    Lemma new_finish pkg fill :
      sim item_rel vm2 env2
          (model_tail pkg id (text_items u imps) t2 (negb fill) s2)
          (spec_tail p (text_items u imps) explicit spreads fill env2).
    Proof.
      unfold model_tail, spec_tail. rewrite bind_gop, (instantiate_cur (rs_g s2) id pd (r_free R) new_pkg_desc). cbn [fst snd].
      eapply osim_bind.
      { apply (set_args_sim t2 _ I [] (rs_scope s2) NDt). intros q []. }
      intros [] st' [] env' (-> & -> & Valid). rewrite !app_nil_r.
      rewrite (missing_find names explicit vm2 t2 spreads fill (text_items u imps) I (fun q Hq => in_map fst _ _ Hq)).
      destruct fill; cbn [negb]; [exact (new_node_sim true Valid)|].
      destruct (find (fun q => negb (has_key t2 (fst q))) (text_items u imps)) as [q|]; [reflexivity|].
      exact (new_node_sim false Valid).
    Qed.
  End New.

  Lemma new_sim pkg args : args_sim args -> forall st env vm,
    Rel st env vm ->
    sim item_rel vm env
        (new_expr u self_name (eval_expr u self_name) pkg args st)
        (new_value dv u self_name (fun y => value_of dv u self_name y) pkg args env).
  Proof.
    intros HA st env vm R. unfold new_expr, new_value.
    destruct (str_eqb (pn_name pkg) self_name); [reflexivity|].
    eapply osim_bind; [apply resolve_package_sim, R|]. intros id s0 p e0 (-> & R0 & GP0 & Sc0 & pd & Ppd).
    unfold bind at 1, get_g at 1. unfold pkg_desc at 1. rewrite GP0, Ppd. unfold pkg_world. rewrite Ppd.
    set (imps := pd_imports pd). set (imports := text_items u imps). set (names := map fst imports).
    assert (ND : NoDup names).
    { apply NoDup_map_text; [intros n k H; eapply (uo_intern_imports _ _ U); eauto|eapply (uo_imports_nodup _ _ U); eauto]. }
    eapply osim_bind_eq; [exact (pass1_sim imports args HA [] [] true s0 env vm R0 (Forall2_nil _))|].
    intros [t1 req] s1 [explicit fill] e1 P1 _ (vm1 & Pv1 & R1 & L1 & T1 & Rq). cbn [fst snd] in T1, Rq. cbn [andb] in Rq.
    lazy beta iota.
    assert (I0 : pass2_inv names explicit vm1 t1 []).
    { unfold pass2_inv, spread_vals. cbn. now rewrite app_nil_r. }
    eapply osim_bind_eq; [exact (pass2_sim names explicit args ND t1 [] s1 e1 vm1 R1 I0)|].
    intros t2 s2 spreads e2 P2 _ (vm2 & Pv2 & R2 & L2 & I2).
    assert (HF : args_framed (eval_expr u self_name) args) by (apply Forall_forall; intros a _; destruct a; auto; apply mframe_eval_expr).
    destruct (mframe_pass1 u (eval_expr u self_name) imports args HF _ _ _ _ _ P1 (r_free R0)) as [G1 _].
    destruct (mframe_pass2 u names args _ _ _ _ P2 (gf_free _ _ G1)) as [G2 _].
    assert (GP2 : get_pkg (rs_g s2) id = Some p) by (apply (gf_pkgs _ _ G2), (gf_pkgs _ _ G1); exact GP0).
    assert (NDt : NoDup (map fst t2)).
    { destruct (pass1_inl u (eval_expr u self_name) imports args _ _ _ _ _ _ P1 (NoDup_nil _)) as (ND1 & _).
      destruct (pass2_inl u names args _ _ _ _ P2 (gf_free _ _ G1) ND) as (recs & _ & _ & SF & _).
      eapply spreads_from_nodup; eauto. }
    subst req.
    change (sim item_rel vm env (model_tail pkg id imports t2 (negb fill) s2) (spec_tail p imports explicit spreads fill e2)).
    eapply sim_weaken; [eapply prefix_trans; eauto|eapply env_le_trans; eauto|].
    apply (new_finish s2 e2 vm2 id p pd R2 GP2 Ppd explicit spreads t2 I2 NDt pkg fill).
  Qed.

  Theorem expr_sim_all e : expr_sim e.
  Proof.
    apply (expr_ind' (expr_sim)
             (fun p => forall st env vm, Rel st env vm ->
                sim item_rel vm env (eval_primary u self_name p st) (primary_value dv u self_name p env))
             (argP expr_sim)); try (intros; exact I).
    - intros sp p post Hp st env vm R.
      change (eval_expr u self_name (Expr sp p post) st)
        with (bind (eval_primary u self_name p) (fun n => postfix_chain u n (off (primary_span p)) post) st).
      change (value_of dv u self_name (Expr sp p post) env)
        with (sbind (primary_value dv u self_name p) (fun v => access_chain dv u v post) env).
      eapply sim_bind; [apply Hp, R|]. intros n s1 v e1 vm1 _ _ R1 V1. now apply chain_sim.
    - intros sp pkg args HA st env vm R.
      change (eval_primary u self_name (PNew sp pkg args) st) with (new_expr u self_name (eval_expr u self_name) pkg args st).
      change (primary_value dv u self_name (PNew sp pkg args) env)
        with (new_value dv u self_name (fun y => value_of dv u self_name y) pkg args env).
      apply new_sim; auto.
    - intros sp inner Hi st env vm R. exact (Hi st env vm R).
    - intros i st env vm R. eapply osim_impl; [|apply lookup_sim, R]. intros n st' v env' (-> & -> & V).
      exact (sim_ret R V).
    - intros n x H. exact H.
  Qed.
End SimExpr.
