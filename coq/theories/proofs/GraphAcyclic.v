(** C06: [remove_node] on a live node does not panic when the alias/dependency edges are acyclic:
    the fuel [S (length (nodes s))] suffices (the chain of nested calls visits distinct live slots) and
    the node is still there after its dependants were removed (they are strictly above it). *)
From Coq Require Import List Arith Bool NArith Lia.
From WacV Require Import Graph GraphInv GraphSteps GraphRemove GraphTheorems GraphLive.
Import ListNotations.

Definition dep_edge (e : edge) : Prop := forall i, ek e <> EArg i.
Definition Ranked (rk : nat -> nat) (s : gstate) : Prop :=
  forall e, In e (edges s) -> dep_edge e -> rk (esrc e) < rk (etgt e).
Definition Acyclic (s : gstate) : Prop := exists rk, Ranked rk s.

Lemma dependants_edge s n m :
  In m (dependants s n) -> exists e, In e (edges s) /\ esrc e = n /\ etgt e = m /\ dep_edge e.
Proof.
  unfold dependants, outgoing. rewrite in_flat_map. intros [e [He H]]. apply filter_In in He as [He Hs].
  apply Nat.eqb_eq in Hs. exists e. destruct (ek e) as [j|j|] eqn:K; cbn in H; try destruct H as [<-|[]]; try contradiction;
    repeat split; auto; intros i; congruence.
Qed.

Lemma stack_bound (stack : list nat) len : NoDup stack -> (forall x, In x stack -> x < len) -> length stack <= len.
Proof.
  intros ND H. rewrite <- (seq_length len 0). apply NoDup_incl_length; auto.
  intros x Hx. apply in_seq. specialize (H x Hx). lia.
Qed.

Lemma remove_node_rec_total u rk fuel : forall s n stack,
  InvC u s -> Ranked rk s -> live s n = true -> NoDup stack ->
  (forall x, In x stack -> x < length (nodes s) /\ rk x <= rk n) ->
  length (nodes s) < fuel + length stack ->
  exists s', remove_node_rec fuel s n = inl s' /\
             (forall m, rk m <= rk n -> m <> n -> live s' m = live s m).
Proof.
  induction fuel as [|f IH]; intros s n stack HI HR Ln ND Hst Hf.
  { exfalso. assert (length stack <= length (nodes s)); [|lia].
    apply stack_bound; auto. intros x Hx. apply Hst. exact Hx. }
  rewrite remove_node_rec_S.
  assert (G : forall l s0, (forall m, In m l -> rk n < rk m) -> InvC u s0 -> Ranked rk s0 ->
              length (nodes s0) = length (nodes s) -> (forall x, rk x <= rk n -> live s0 x = live s x) ->
              exists s1, go_list (remove_node_rec f) s0 l = inl s1 /\ InvC u s1 /\
                         (forall x, rk x <= rk n -> live s1 x = live s x)).
  { induction l as [|m r IHl]; intros s0 Hl H0 R0 L0 Lv0; cbn; [eauto|].
    assert (Hr : forall m0, In m0 r -> rk n < rk m0) by (intros; apply Hl; now right).
    destruct (live s0 m) eqn:Lm; [|apply IHl; auto].
    assert (Hm : rk n < rk m) by (apply Hl; now left).
    destruct (IH s0 m (m :: stack) H0 R0 Lm) as [s1 [E1 Lv1]].
    - constructor; auto. intros Hx. apply Hst in Hx. lia.
    - intros x [<-|Hx]; [split; [now apply live_lt|lia]|]. apply Hst in Hx. rewrite L0. lia.
    - cbn. lia.
    - rewrite E1. pose proof (remove_node_rec_ok u f s0 m H0) as Ok. rewrite E1 in Ok.
      destruct Ok as (I1 & _ & _ & I4 & A1 & _).
      apply IHl; auto.
      + intros e He. apply R0. auto.
      + congruence.
      + intros x Hx. rewrite <- Lv0 by auto. apply Lv1; [lia|intros ->; lia]. }
  destruct (G (dependants s n) s) as [s1 [E1 [I1 Lv1]]]; auto.
  { intros m Hm. apply dependants_edge in Hm as [e [He [Es [Et De]]]]. rewrite <- Es, <- Et. now apply HR. }
  rewrite E1. assert (Ln1 : live s1 n = true) by (rewrite Lv1; auto).
  apply live_get in Ln1 as [nd Gn]. destruct (remove_one_live u s1 n nd I1 Gn) as [s2 [-> [J1 J2]]].
  eexists. split; [reflexivity|]. intros m Hm Hne. rewrite (RemOne_live _ _ _ J2).
  apply Nat.eqb_neq in Hne. rewrite Hne. now apply Lv1.
Qed.

Lemma remove_node_total u s n :
  InvC u s -> Acyclic s -> live s n = true -> exists s', remove_node s n = (s', OUnit).
Proof.
  intros HI [rk HR] L. unfold remove_node.
  destruct (remove_node_rec_total u rk (S (length (nodes s))) s n [n] HI HR L) as [s' [E _]].
  - constructor; [intros []|constructor].
  - intros x [<-|[]]. split; [now apply live_lt|lia].
  - cbn. lia.
  - rewrite E. eauto.
Qed.

Lemma step_no_panic_live_acyclic u s o :
  Inv u s -> Acyclic s -> LiveOp u s o -> forall p, snd (step u s o) <> OPanic p.
Proof.
  intros H A L. apply Inv_iff in H.
  destruct o; try (eapply explained_live; [apply step_explained; [exact H|discriminate]|exact L]).
  cbn [step LiveOp] in *. destruct (remove_node_total u s n H A L) as [s' ->]. discriminate.
Qed.
