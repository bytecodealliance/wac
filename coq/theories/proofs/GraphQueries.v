(** C06: the queries on the export map, [get_args] and [list_imports] in terms of the state, and the
    converses of three documented errors. *)
From Coq Require Import List Arith Bool NArith Lia.
From WacV Require Import Graph GraphInv GraphLive GraphAlias.
Import ListNotations.

Lemma exports_reflect u s :
  Inv u s ->
  (forall nm n, alist_get N.eqb (exports s) nm = Some n -> live s n = true) /\
  (forall n nd nm, get_node s n = Some nd -> nexport nd = Some nm -> alist_get N.eqb (exports s) nm = Some n).
Proof.
  intros H. split.
  - intros nm n G. apply alist_get_In in G. eapply inv_exports_live; eauto.
  - intros n nd nm G E. apply In_alist_get; [apply (inv_exports_keys _ _ H)|]. eapply inv_node_export; eauto.
Qed.

Lemma get_args_spec u s n nm src :
  Inv u s ->
  (In (nm, src) (get_args u s n) <->
   exists nd sat imps e i k,
     get_node s n = Some nd /\ nk nd = NInst sat /\ inst_imports u s nd = Some imps /\
     In e (edges s) /\ etgt e = n /\ esrc e = src /\ ek e = EArg i /\ nth_error imps i = Some (nm, k) /\
     In i sat /\ live s src = true).
Proof.
  intros H. unfold get_args. split.
  - destruct (get_node s n) as [nd|] eqn:G; [|intros []].
    destruct (nk nd) as [| |sat|] eqn:K, (inst_imports u s nd) as [imps|] eqn:Im; try (intros []; fail).
    rewrite in_flat_map. intros [e [He Hin]].
    unfold incoming in He. apply filter_In in He as [He T]. apply Nat.eqb_eq in T.
    destruct (ek e) as [j|i|] eqn:Ke; try destruct Hin. destruct (nth_error imps i) as [[nm' k]|] eqn:Nt; [|destruct Hin].
    destruct Hin as [[= <- <-]|[]]. exists nd, sat, imps, e, i, k. repeat split; auto.
    + apply (sat_iff_edge u s n nd sat H G K). eauto.
    + apply (inv_edges_live _ _ H e He).
  - intros (nd & sat & imps & e & i & k & G & K & Im & He & T & S & Ke & Nt & _). rewrite G, K, Im.
    apply in_flat_map. exists e. split.
    + unfold incoming. apply filter_In. split; auto. now apply Nat.eqb_eq.
    + rewrite Ke, Nt, S. now left.
Qed.

(** imports: explicit ones are the import nodes, implicit ones the unsatisfied arguments *)
Lemma list_imports_explicit u s nm k n :
  In (nm, k, Some n) (list_imports u s) <-> exists nd, get_node s n = Some nd /\ nk nd = NImport nm /\ nitem nd = k.
Proof.
  unfold list_imports. rewrite in_app_iff, !in_flat_map. split.
  - intros [[m [Hm Hin]]|[m [Hm Hin]]].
    + destruct (get_node s m) as [nd|]; [|destruct Hin].
      destruct (nk nd) as [| |sat|], (inst_imports u s nd) as [imps|]; try (destruct Hin; fail).
      apply in_flat_map in Hin as [p [_ Hp]].
      destruct (existsb _ sat); [destruct Hp|]. destruct Hp as [E|[]]. discriminate.
    + destruct (get_node s m) as [nd|] eqn:G; [|destruct Hin]. destruct (nk nd) eqn:K; try (destruct Hin; fail).
      destruct Hin as [[= <- <- <-]|[]]. eauto.
  - intros [nd [G [K I]]]. right. exists n. split.
    + apply node_ids_live. unfold live. now rewrite G.
    + rewrite G, K, I. now left.
Qed.

Lemma list_imports_implicit u s nm k :
  Inv u s ->
  (In (nm, k, None) (list_imports u s) <->
   exists n nd sat imps i,
     get_node s n = Some nd /\ nk nd = NInst sat /\ inst_imports u s nd = Some imps /\
     nth_error imps i = Some (nm, k) /\ ~ exists e, In e (edges s) /\ etgt e = n /\ ek e = EArg i).
Proof.
  intros H. unfold list_imports. rewrite in_app_iff, !in_flat_map. split.
  - intros [[m [Hm Hin]]|[m [Hm Hin]]].
    + destruct (get_node s m) as [nd|] eqn:G; [|destruct Hin].
      destruct (nk nd) as [| |sat|] eqn:K, (inst_imports u s nd) as [imps|] eqn:Im; try (destruct Hin; fail).
      apply in_flat_map in Hin as [[i [nm' k']] [Hp Hx]].
      cbn [fst snd] in Hx. destruct (existsb (Nat.eqb i) sat) eqn:Ex; [destruct Hx|]. destruct Hx as [[= <- <-]|[]].
      apply combine_seq_In in Hp as [_ Hp]. rewrite Nat.sub_0_r in Hp.
      exists m, nd, sat, imps, i. repeat split; auto. intros He.
      apply (sat_iff_edge u s m nd sat H G K) in He. apply existsb_eqb_notIn in Ex. contradiction.
    + destruct (get_node s m) as [nd|]; [|destruct Hin]. destruct (nk nd); try (destruct Hin; fail).
      destruct Hin as [E|[]]. discriminate.
  - intros (n & nd & sat & imps & i & G & K & Im & Nt & Hno). left. exists n. split.
    + apply node_ids_live. unfold live. now rewrite G.
    + rewrite G, K, Im. apply in_flat_map. exists (i, (nm, k)). split.
      * apply combine_seq_In. rewrite Nat.sub_0_r. split; [lia|auto].
      * cbn [fst snd]. replace (existsb (Nat.eqb i) sat) with false; [now left|].
        symmetry. apply existsb_eqb_notIn. intros Hi. apply Hno. now apply (sat_iff_edge u s n nd sat H G K).
Qed.

Lemma import_exists_iff u s nm k n :
  k < length (u_lkinds u) ->
  (snd (import_ u s nm k) = OErr (ImportAlreadyExists n) <-> alist_get N.eqb (imports s) nm = Some n).
Proof.
  intros L. split.
  - intros H. apply import_errors in H as [[n' [[= ->] H]]|[H _]]; [auto|discriminate].
  - intros H. unfold import_. destruct (nth_error (u_lkinds u) k) eqn:E; [now rewrite H|].
    apply nth_error_None in E. lia.
Qed.

Lemma unexport_def_iff s n :
  snd (unexport s n) = OErr MustExportDefinition <-> exists nd, get_node s n = Some nd /\ nk nd = NDef.
Proof.
  split.
  - intros H. now apply unexport_errors in H.
  - intros [nd [G K]]. unfold unexport. now rewrite G, K.
Qed.

Lemma define_type_defined_iff u s nm t :
  t < length (u_tys u) ->
  (snd (define_type u s nm t) = OErr TypeAlreadyDefined <-> exists n, In (t, n) (defined s)).
Proof.
  intros L. split.
  - intros H. apply define_type_errors in H as [td [_ [[_ H]|[[H _]|[[H _]|[H _]]]]]]; auto; discriminate.
  - intros [n H]. unfold define_type. destruct (nth_error (u_tys u) t) eqn:E.
    + now rewrite (proj2 (existsb_fst_nat _ t)) by eauto.
    + apply nth_error_None in E. lia.
Qed.
