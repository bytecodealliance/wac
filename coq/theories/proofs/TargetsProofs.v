(** Proofs for property C11: the two target checks against the declarative conformance.
    Both checks, and the executable specification, give every import of the composition and every export of the
    world one of three statuses (fine, outside the other side, mismatched) by a table lookup and a test of the entry
    found; they differ in the lookup ([im_get], or [nm_get] on a filled [NameMap]) and in stopping at the first bad
    status or recording all.  Once a lookup IMPLEMENTS a matching discipline (its answers are the discipline's),
    everything else is about lists of statuses. *)
From WacV Require Import Str Ord Semver Names NamesSpec Types SubSpec Targets TargetsSpec.
From WacV Require Import StrFacts SemverProofs NamesProofs NameMapProofs.

Lemma or_iff (A B C D : Prop) : (A <-> B) -> (C <-> D) -> (A \/ C <-> B \/ D).
Proof. tauto. Qed.
Lemma and_iff (A B C D : Prop) : (A <-> B) -> (C <-> D) -> (A /\ C <-> B /\ D).
Proof. tauto. Qed.

Lemma ex_and_iff {A} (R P Q : A -> Prop) :
  (forall a, P a <-> Q a) -> ((exists a, R a /\ P a) <-> exists a, R a /\ Q a).
Proof. intros H. split; intros [a [Ra Pa]]; exists a; (split; [exact Ra|]); now apply H. Qed.

Lemma in_keys {V} (l : list (str * V)) k : In k (map fst l) <-> exists x, In (k, x) l.
Proof.
  rewrite in_map_iff. split.
  - intros [[k' x] [E H]]. cbn in E. subst. eauto.
  - intros [x H]. exists (k, x). auto.
Qed.

Lemma consistent_incl {V} (a b : list (str * V)) : incl a b -> consistent b -> consistent a.
Proof. intros I C n x y H1 H2. apply (C n x y); now apply I. Qed.

Lemma consistent_app_l {V} (a b : list (str * V)) : consistent (a ++ b) -> consistent a.
Proof. apply consistent_incl, incl_appl, incl_refl. Qed.

Lemma consistent_single {V} n (x : V) : consistent [(n, x)].
Proof. intros m a b [H1|[]] [H2|[]]. congruence. Qed.
Lemma consistent_nil {V} : consistent (@nil (str * V)).
Proof. intros m a b []. Qed.

Definition implements {V} (d : discipline) (es : list (str * V)) (get : str -> option V) : Prop :=
  forall q, (forall x, get q = Some x <-> consult d es q x) /\ (get q = None <-> absent d es q).

(** [NameMap] filled with shadowing inserts (targets.rs [all_imports], [component_exports]) *)
Section Shadow.
  Context {V : Type}.
  Implicit Types (es : list (str * V)) (m : namemap V).

  (** a shadowing insert cannot fail (the two [unwrap]s are safe) *)
  Lemma nm_insert_shadow m n (x : V) : exists m', nm_insert m n true x = Some m' /\
    defs m' = fst (im_insert (defs m) n x) /\
    forall k, im_get (alts m') k = alt_step k (im_get (alts m) k) (n, x).
  Proof.
    unfold nm_insert, alt_step. cbn [fst]. destruct (im_insert (defs m) n x) as [d prev]. cbn [fst].
    replace (match prev with Some _ => Some d | None => Some d end) with (Some d) by now destruct prev.
    destruct (alt_key n) as [[ak v]|]; [|eexists; split; [reflexivity|]; now split].
    destruct (im_insert (alts m) ak (n, v)) as [a prevk] eqn:IA.
    assert (prevk = im_get (alts m) ak) as -> by (rewrite <- im_insert_snd with (v := (n, v)); now rewrite IA).
    assert (forall k, im_get a k = if str_eqb ak k then Some (n, v) else im_get (alts m) k) as Hga.
    { intros k. replace a with (fst (im_insert (alts m) ak (n, v))) by now rewrite IA. apply im_get_insert. }
    (* old entry restored, new entry kept, no old entry: compare the lookups at [ak] and elsewhere *)
    destruct (im_get (alts m) ak) as [[pk pv]|] eqn:Eb; [destruct (version_ltb v pv) eqn:L|];
      eexists; (split; [reflexivity|]); (split; [reflexivity|]); intros k; cbn [alts];
      rewrite ?im_get_insert, Hga; destruct (str_eqb_spec ak k) as [<-|N]; auto; rewrite Eb, ?L; reflexivity.
  Qed.

  Lemma nm_fill_total (l : list (str * V)) : forall m, exists m', nm_fill m l = Some m'.
  Proof.
    induction l as [|[n x] l IH]; intros m; cbn; eauto. destruct (nm_insert_shadow m n x) as [m1 [-> _]]. apply IH.
  Qed.

  Lemma lt_vle_trans a b c : version_ltb a b = true -> vle b c -> version_ltb a c = true.
  Proof.
    pose proof cmp_version_total as T. rewrite !version_ltb_lt. unfold vle. intros H1 H2.
    destruct (cmp_version b c) eqn:E; try congruence.
    - apply (tc_eq _ T) in E. now subst.
    - eapply (tc_trans _ T); eauto.
  Qed.

  (** [n] (key [k], version [v]) has been seen: the best entry is at least as high, and is [n] itself on a tie *)
  Definition seen (n : str) (v : version) (acc : option (str * version)) : Prop :=
    exists pn pv, acc = Some (pn, pv) /\ (version_ltb v pv = true \/ (pn, pv) = (n, v)).

  Lemma seen_step n k v acc (e : str * V) : alt_key n = Some (k, v) -> seen n v acc -> seen n v (alt_step k acc e).
  Proof.
    pose proof cmp_version_total as T.
    intros AK [pn [pv [-> H]]]. unfold alt_step.
    destruct (alt_key (fst e)) as [[k' v']|] eqn:AE; [|exists pn, pv; auto].
    destruct (str_eqb_spec k' k) as [->|N]; [|exists pn, pv; auto].
    destruct (version_ltb v' pv) eqn:L; [exists pn, pv; auto|].
    exists (fst e), v'. split; auto. apply not_lt_vle in L.
    destruct H as [H|H].
    - left. eapply lt_vle_trans; eauto.
    - injection H as -> ->. unfold vle in L. destruct (cmp_version v v') eqn:C; try congruence.
      + apply (tc_eq _ T) in C. subst v'. right. f_equal. eapply alt_key_inj; eauto.
      + left. now apply version_ltb_lt.
  Qed.

  Lemma seen_here n k v acc (x : V) : alt_key n = Some (k, v) -> seen n v (alt_step k acc (n, x)).
  Proof.
    intros AK. unfold alt_step. cbn. rewrite AK, str_eqb_refl. destruct acc as [[pn pv]|].
    - destruct (version_ltb v pv) eqn:L; [exists pn, pv | exists n, v]; auto.
    - exists n, v. auto.
  Qed.

  Lemma alt_best_seen n k v es : alt_key n = Some (k, v) -> In n (map fst es) -> seen n v (alt_best k es).
  Proof.
    intros AK. induction es as [|[n0 x0] es IH] using rev_ind; [intros []|].
    rewrite map_app, in_app_iff, alt_best_snoc. intros [I|[<-|[]]].
    - now apply seen_step, IH.
    - now apply seen_here.
  Qed.

  Lemma im_insert_same es n x : im_get es n = Some x -> fst (im_insert es n x) = es.
  Proof.
    induction es as [|[k0 v0] es IH]; cbn; try discriminate. destruct (str_eqb k0 n); cbn.
    - intros H. now injection H as ->.
    - intros H. specialize (IH H). destruct (im_insert es n x); cbn in *. now rewrite IH.
  Qed.

  Lemma alt_step_again es n (x : V) k : In n (map fst es) -> alt_step k (alt_best k es) (n, x) = alt_best k es.
  Proof.
    intros I. unfold alt_step. cbn [fst]. destruct (alt_key n) as [[ak v]|] eqn:AK; auto.
    destruct (str_eqb_spec ak k) as [<-|N]; auto.
    destruct (alt_best_seen n ak v es AK I) as [pn [pv [-> Hs]]].
    destruct (version_ltb v pv) eqn:L; auto. destruct Hs as [Hs|Hs]; congruence.
  Qed.

  Lemma acc_step_get es n x :
    acc_step es (n, x) = match im_get es n with Some _ => es | None => es ++ [(n, x)] end.
  Proof.
    unfold acc_step. cbn [fst]. destruct (existsb (str_eqb n) (map fst es)) eqn:X.
    - destruct (im_get es n) eqn:G; auto. apply im_get_none_existsb in G. congruence.
    - apply im_get_none_existsb in X. now rewrite X.
  Qed.

  (** as an insert without shadowing: a repeated name changes nothing, a fresh one is appended *)
  Lemma Rel_insert m es n x : Rel m es -> (forall y, im_get es n = Some y -> y = x) ->
    exists m', nm_insert m n true x = Some m' /\ Rel m' (acc_step es (n, x)).
  Proof.
    intros [Hd Ha] C. destruct (nm_insert_shadow m n x) as [m' [I [Hd' Ha']]]. exists m'. split; [exact I|].
    rewrite Hd in Hd'. rewrite acc_step_get. destruct (im_get es n) as [y|] eqn:G.
    - rewrite (C y eq_refl) in G. split.
      + now rewrite Hd', im_insert_same.
      + intros k. rewrite Ha', Ha. apply alt_step_again, in_keys. exists x. now apply im_get_in.
    - split.
      + now rewrite Hd', im_insert_fresh.
      + intros k. now rewrite Ha', Ha, alt_best_snoc.
  Qed.

  Lemma nm_fill_rel l : forall m es, Rel m es -> consistent (es ++ l) ->
    exists m', nm_fill m l = Some m' /\ Rel m' (fold_left acc_step l es).
  Proof.
    induction l as [|[n x] l IH]; intros m es R C; cbn [nm_fill fold_left]; [eauto|].
    destruct (Rel_insert m es n x R) as [m1 [-> R1]].
    { intros y G. apply (C n); apply in_or_app; [left; now apply im_get_in | right; now left]. }
    apply IH; auto. refine (consistent_incl _ _ _ C). unfold acc_step. destruct (existsb _ _).
    - apply incl_app_app; [apply incl_refl | apply incl_tl, incl_refl].
    - rewrite <- app_assoc. apply incl_refl.
  Qed.

  Lemma accepted_keys (l : list (str * V)) n : In n (map fst l) -> In n (map fst (accepted l)).
  Proof.
    induction l as [|[k v] l IH] using rev_ind; [intros []|].
    unfold accepted in *. rewrite map_app, fold_left_app. cbn [fold_left]. rewrite acc_step_get. intros I.
    destruct (im_get (fold_left acc_step l []) k) as [y|] eqn:G; [|rewrite map_app; apply in_or_app];
      apply in_app_or in I as [I|[<-|[]]]; auto.
    - apply in_keys. exists y. now apply im_get_in.
    - right. now left.
  Qed.

  Lemma accepted_in (l : list (str * V)) n x : consistent l -> (In (n, x) (accepted l) <-> In (n, x) l).
  Proof.
    intros C. split; [apply accepted_incl|]. intros H.
    assert (In n (map fst (accepted l))) as K by (apply accepted_keys, in_keys; eauto).
    apply in_keys in K as [y K]. now rewrite (C n x y H (accepted_incl _ _ K)).
  Qed.

  Lemma nm_get_rel m l q : Rel m (accepted l) -> nm_get m q = spec_get l q.
  Proof.
    intros [Hd Ha]. rewrite <- nm_get_spec. destruct (Rel_build l) as [Hd' Ha']. unfold nm_get. rewrite Hd, Hd'.
    destruct (im_get (accepted l) q); auto. destruct (alt_key q) as [[ak vq]|]; auto. now rewrite Ha, Ha'.
  Qed.

  Lemma Highest_accepted (l : list (str * V)) q x : consistent l -> (Highest l q x <-> is_highest (accepted l) q x).
  Proof.
    intros C. unfold Highest, is_highest, vle.
    split; intros [n [v [I [S [Vn M]]]]]; exists n, v; apply (accepted_in l _ _ C) in I; repeat split; auto;
      intros n' x' v' I'; apply (M n' x' v'); now apply (accepted_in l _ _ C).
  Qed.
End Shadow.

Section Implements.
  Context {V : Type}.
  Implicit Types (es : list (str * V)) (m : namemap V).

  Lemma consult_absent d es q x : consult d es q x -> absent d es q -> False.
  Proof.
    destruct d; cbn.
    - intros I N. apply N, in_keys. eauto.
    - intros [H|[_ [n [v [I [St _]]]]]] A.
      + destruct (A _ _ H) as [N _]. now apply N.
      + destruct (A _ _ I) as [_ N]. congruence.
  Qed.

  Lemma consult_fun d es q x y : consistent es -> consult d es q x -> consult d es q y -> x = y.
  Proof.
    intros C. destruct d; cbn; [apply C|]. intros [H1|[N1 H1]] [H2|[N2 H2]].
    - eapply C; eauto.
    - exfalso. apply N2, in_keys. eauto.
    - exfalso. apply N1, in_keys. eauto.
    - apply Highest_accepted in H1, H2; auto. exact (highest_unique _ q x y (accepted_nodup es) H1 H2).
  Qed.

  Lemma implements_sound d es (get : str -> option V) : consistent es ->
    (forall q x, get q = Some x -> consult d es q x) -> (forall q, get q = None -> absent d es q) ->
    implements d es get.
  Proof.
    intros C S1 S2 q. split.
    - intros x. split; [apply S1|]. intros Cx. destruct (get q) as [y|] eqn:Gq.
      + f_equal. eapply consult_fun; eauto.
      + exfalso. eapply consult_absent; eauto.
    - split; [apply S2|]. intros A. destruct (get q) as [y|] eqn:Gq; auto.
      exfalso. eapply consult_absent; eauto.
  Qed.

  Lemma exact_implements es : consistent es -> implements Exact es (im_get es).
  Proof.
    intros C. apply implements_sound; auto; cbn.
    - intros q x. apply im_get_in.
    - intros q. apply im_get_none_iff.
  Qed.

  (** via [spec_get], whose declarative consequences NameMapProofs has *)
  Theorem semver_implements l m :
    consistent l -> nm_fill nm_empty l = Some m -> implements Semver l (nm_get m).
  Proof.
    intros C F. destruct (nm_fill_rel l nm_empty [] (conj eq_refl (fun _ => eq_refl)) C) as [m' [F' R]].
    rewrite F in F'. injection F' as <-. fold (accepted l) in R.
    apply implements_sound; auto; intros q; rewrite (nm_get_rel m l q R).
    - intros x E. destruct (im_get (accepted l) q) as [y|] eqn:Gq.
      + apply im_get_in in Gq. rewrite (spec_get_exact l q y Gq) in E. injection E as <-.
        left. now apply accepted_in.
      + right. split.
        * intros I. apply im_get_none_iff in Gq. now apply Gq, accepted_keys.
        * rewrite <- find_exact_im_get in Gq. apply Highest_accepted; auto. now apply spec_get_highest.
    - intros E n x I. apply (spec_get_none l q E n x). now apply accepted_in.
  Qed.
End Implements.

Lemma implements_exists {V} d (es : list (str * V)) : consistent es -> exists get, implements d es get.
Proof.
  intros C. destruct d.
  - exists (im_get es). now apply exact_implements.
  - destruct (nm_fill_total es nm_empty) as [m F]. exists (nm_get m). now apply semver_implements.
Qed.

Definition status_at {V} (get : str -> option V) (q : str) (test : V -> bool) : status :=
  match get q with
  | None => StOutside
  | Some x => if test x then StOk else StMismatch
  end.

Lemma consult_same {V} (es : list (str * V)) q :
  (forall m, In m (map fst es) -> same_track m q = true -> m = q) ->
  (forall x, consult Semver es q x <-> consult Exact es q x) /\ (absent Semver es q <-> absent Exact es q).
Proof.
  intros H. split.
  - intros x. cbn. split; auto. intros [I|[N [n [v [I [S _]]]]]]; auto.
    exfalso. apply N. assert (n = q) as <- by (apply H; auto; apply in_keys; eauto). apply in_keys. eauto.
  - cbn. split.
    + intros A I. apply in_keys in I as [x I]. destruct (A _ _ I) as [N _]. now apply N.
    + intros A n x I. split.
      * intros ->. apply A. apply in_keys. eauto.
      * destruct (same_track n q) eqn:S; auto. exfalso. apply A.
        assert (n = q) as <- by (apply H; auto; apply in_keys; eauto). apply in_keys; eauto.
Qed.

Lemma status_at_get {V} (get : str -> option V) q test :
  (status_at get q test = StOk <-> exists x, get q = Some x /\ test x = true) /\
  (status_at get q test = StOutside <-> get q = None) /\
  (status_at get q test = StMismatch <-> exists x, get q = Some x /\ test x = false).
Proof.
  unfold status_at. destruct (get q) as [x|]; [destruct (test x) eqn:T|];
    repeat split; try discriminate; eauto; intros [y [E Ty]]; congruence.
Qed.

Lemma status_at_ok {V} (get : str -> option V) q test :
  status_at get q test = StOk <-> exists x, get q = Some x /\ test x = true.
Proof. apply status_at_get. Qed.

Lemma status_at_spec {V} d (es : list (str * V)) get q test : implements d es get ->
  (status_at get q test = StOk <-> exists x, consult d es q x /\ test x = true) /\
  (status_at get q test = StOutside <-> absent d es q) /\
  (status_at get q test = StMismatch <-> exists x, consult d es q x /\ test x = false).
Proof.
  intros G. destruct (G q) as [GS GN]. rewrite <- GN. setoid_rewrite <- GS. apply status_at_get.
Qed.

Lemma has_name_iff {V} (es : list (str * V)) q : has_name es q = true <-> In q (map fst es).
Proof.
  unfold has_name. rewrite existsb_exists, in_map_iff. split.
  - intros [e [H E]]. apply str_eqb_eq in E. eauto.
  - intros [e [E H]]. exists e. split; auto. now apply str_eqb_eq.
Qed.

Lemma vle_b_iff a b : vle_b a b = true <-> cmp_version a b <> Gt.
Proof. unfold vle_b. destruct (cmp_version a b); split; congruence. Qed.

Lemma highest_b_iff {V} (es : list (str * V)) q e :
  highest_b es q e = true <->
  same_track (fst e) q = true /\ exists v, version_of (fst e) = Some v /\
    forall n' x' v', In (n', x') es -> same_track n' q = true -> version_of n' = Some v' -> cmp_version v' v <> Gt.
Proof.
  unfold highest_b. rewrite andb_true_iff. apply and_iff_compat_l.
  destruct (version_of (fst e)) as [v|].
  - rewrite forallb_forall. split.
    + intros H. exists v. split; auto. intros n' x' v' I S Vn. specialize (H _ I). cbn in H.
      rewrite S, Vn in H. now apply vle_b_iff.
    + intros [v0 [E H]]. injection E as <-. intros [n' x'] I. cbn.
      destruct (same_track n' q) eqn:S; auto. destruct (version_of n') as [v'|] eqn:Vn; auto.
      apply vle_b_iff. eapply H; eauto.
  - split; [discriminate|]. intros [v [E _]]. discriminate.
Qed.

Lemma consulted_iff {V} d (es : list (str * V)) q x :
  (exists e, In e (consulted d es q) /\ snd e = x) <-> consult d es q x.
Proof.
  assert ((exists e, In e (filter (fun e => str_eqb (fst e) q) es) /\ snd e = x) <-> In (q, x) es) as EX.
  { split.
    - intros [[n y] [H E]]. apply filter_In in H as [H Q]. cbn in *. apply str_eqb_eq in Q. now subst.
    - intros H. exists (q, x). split; auto. apply filter_In. split; auto. apply str_eqb_refl. }
  destruct d; cbn; auto.
  destruct (has_name es q) eqn:Hn.
  - apply has_name_iff in Hn. rewrite EX. split; auto. intros [H|[N _]]; auto. contradiction.
  - assert (~ In q (map fst es)) as N by (rewrite <- has_name_iff; congruence). split.
    + intros [[n y] [H E]]. apply filter_In in H as [H Q]. cbn in E. subst y. right. split; auto.
      apply highest_b_iff in Q as [S [v [Vn M]]]. exists n, v. cbn in *. auto.
    + intros [H|[_ [n [v [I [S [Vn M]]]]]]].
      * exfalso. apply N. apply in_keys. eauto.
      * exists (n, x). split; auto. apply filter_In. split; auto. apply highest_b_iff. cbn. eauto.
Qed.

Lemma classify_ok {V} d (es : list (str * V)) q test :
  classify d es q test = StOk <-> exists x, consult d es q x /\ test x = true.
Proof.
  unfold classify.
  assert (existsb (fun e => test (snd e)) (consulted d es q) = true <-> exists x, consult d es q x /\ test x = true) as H.
  { rewrite existsb_exists. split.
    - intros [e [I T]]. exists (snd e). split; auto. apply consulted_iff. eauto.
    - intros [x [C T]]. apply consulted_iff in C as [e [I E]]. exists e. subst. auto. }
  rewrite <- H. destruct (consulted d es q) as [|e l]; cbn; [split; discriminate|].
  destruct (test (snd e) || existsb _ l); split; congruence.
Qed.

Lemma classify_get {V} d (es : list (str * V)) get q test : implements d es get ->
  classify d es q test = status_at get q test.
Proof.
  intros G. unfold classify, status_at. pose proof (consulted_iff d es q) as CI.
  set (l := consulted d es q) in *. clearbody l.
  generalize (G q). destruct (get q) as [x|]; intros [GS _].
  - assert (forall e, In e l -> snd e = x) as H.
    { intros e I. assert (Some x = Some (snd e)) by (apply GS, CI; eauto). congruence. }
    destruct (proj2 (CI x)) as [e0 [I0 _]]; [now apply GS|].
    destruct l as [|e l]; [destruct I0|].
    replace (existsb (fun e1 => test (snd e1)) (e :: l)) with (test x); [reflexivity|].
    symmetry. destruct (test x) eqn:T.
    + apply existsb_exists. exists e0. split; auto. now rewrite (H e0 I0).
    + apply not_true_is_false. intros X. apply existsb_exists in X as [e1 [I1 T1]].
      rewrite (H e1 I1) in T1. congruence.
  - destruct l as [|e l]; auto.
    assert (None = Some (snd e)) by (apply GS, CI; exists e; split; [now left|reflexivity]). discriminate.
Qed.

Lemma classify_same {V} (es : list (str * V)) q test :
  (forall m, In m (map fst es) -> same_track m q = true -> m = q) ->
  classify Semver es q test = classify Exact es q test.
Proof.
  intros H. unfold classify. replace (consulted Semver es q) with (consulted Exact es q); auto.
  cbn. destruct (has_name es q) eqn:Hn; auto.
  apply filter_ext_in. intros e I. destruct (str_eqb_spec (fst e) q) as [E|N].
  - exfalso. assert (has_name es q = true) by (apply has_name_iff; rewrite <- E; now apply in_map). congruence.
  - symmetry. unfold highest_b. destruct (same_track (fst e) q) eqn:S; auto.
    destruct N. apply H; auto. now apply in_map.
Qed.

Lemma first_bad_ext {A} (st st' : A -> status) l :
  (forall a, In a l -> st a = st' a) -> first_bad st l = first_bad st' l.
Proof.
  induction l as [|b l IH]; intros H; cbn; auto.
  rewrite <- (H b) by now left. rewrite IH; auto. intros a I. apply H. now right.
Qed.

Lemma first_bad_none {A} (st : A -> status) l : first_bad st l = None <-> forall a, In a l -> st a = StOk.
Proof.
  induction l as [|b l IH]; cbn.
  - split; auto. intros _ a [].
  - destruct (st b) eqn:E;
      try (split; [discriminate|]; intros H; rewrite (H b (or_introl eq_refl)) in E; discriminate).
    rewrite IH. split; [intros H a [<-|I]|]; auto.
Qed.

Lemma first_bad_app {A} (st : A -> status) pre l :
  Forall (fun b => st b = StOk) pre -> first_bad st (pre ++ l) = first_bad st l.
Proof. induction 1 as [|b pre E F IH]; cbn; auto. now rewrite E. Qed.

Lemma first_bad_some {A} (st : A -> status) l a s :
  first_bad st l = Some (a, s) <->
  s <> StOk /\ first_failing (fun b => st b = StOk) (fun b => st b = s) l a.
Proof.
  unfold first_failing. split.
  - induction l as [|b l IH]; cbn; [discriminate|]. destruct (st b) eqn:E.
    1: { intros H. destruct (IH H) as [N [pre [post [-> [F Pa]]]]]. split; auto. exists (b :: pre), post. auto. }
    all: intros H; injection H as <- <-; split; [discriminate|]; exists [], l; auto.
  - intros [N [pre [post [-> [F Pa]]]]]. rewrite (first_bad_app st pre _ F). cbn. rewrite Pa. now destruct s.
Qed.

Lemma first_bad_not_ok {A} (st : A -> status) l a : first_bad st l <> Some (a, StOk).
Proof. intros H. apply first_bad_some in H as [N _]. now apply N. Qed.

Lemma first_bad_in {A} (st : A -> status) l a s : first_bad st l = Some (a, s) -> In a l /\ st a = s.
Proof.
  intros H. apply first_bad_some in H as [_ [pre [post [-> [_ S]]]]]. split; auto. apply in_elt.
Qed.

Definition classifies {A} (st : A -> status) (ok out mis : A -> Prop) : Prop :=
  forall a, (st a = StOk <-> ok a) /\ (st a = StOutside <-> out a) /\ (st a = StMismatch <-> mis a).

Lemma first_failing_iff {A} (ok ok' P P' : A -> Prop) l a :
  (forall b, ok b <-> ok' b) -> (P a <-> P' a) -> (first_failing ok P l a <-> first_failing ok' P' l a).
Proof.
  intros Hok HP. unfold first_failing.
  split; intros [pre [post [H [F Pa]]]]; exists pre, post; (split; [exact H|]); (split; [|now apply HP]);
    (eapply Forall_impl; [|exact F]); intros b; apply Hok.
Qed.

Lemma first_bad_spec {A} (st : A -> status) ok out mis l : classifies st ok out mis ->
  (first_bad st l = None <-> Forall ok l) /\
  (forall a, first_bad st l = Some (a, StOutside) <-> first_failing ok out l a) /\
  (forall a, first_bad st l = Some (a, StMismatch) <-> first_failing ok mis l a).
Proof.
  intros D. split; [|split].
  - rewrite first_bad_none, Forall_forall. split; intros H a I; apply (D a); auto.
  - intros a. rewrite first_bad_some, (first_failing_iff _ ok _ out l a); [|intros b; apply D|apply D].
    split; [tauto | split; [discriminate | assumption]].
  - intros a. rewrite first_bad_some, (first_failing_iff _ ok _ mis l a); [|intros b; apply D|apply D].
    split; [tauto | split; [discriminate | assumption]].
Qed.

Definition status_eqb (a b : status) : bool :=
  match a, b with
  | StOk, StOk | StOutside, StOutside | StMismatch, StMismatch => true
  | _, _ => false
  end.
(** the names of the items with status [s]: the shape of the specification's set printers *)
Definition names {A} (nm : A -> str) (st : A -> status) (s : status) (l : list A) : list str :=
  map nm (filter (fun a => status_eqb (st a) s) l).

Lemma names_cons {A} (nm : A -> str) st s a l :
  names nm st s (a :: l) = if status_eqb (st a) s then nm a :: names nm st s l else names nm st s l.
Proof. unfold names. cbn. now destruct (status_eqb (st a) s). Qed.

Lemma names_iff {A} (nm : A -> str) st s l n :
  In n (names nm st s l) <-> exists a, In a l /\ nm a = n /\ st a = s.
Proof.
  assert (forall a b, status_eqb a b = true <-> a = b) as E by (intros [] []; cbn; split; congruence).
  unfold names. rewrite in_map_iff. split.
  - intros [a [N I]]. apply filter_In in I as [I S]. apply E in S. eauto.
  - intros [a [I [N S]]]. exists a. split; auto. apply filter_In. split; auto. now apply E.
Qed.

Lemma names_class {A} (nm : A -> str) st s l n (P : A -> Prop) :
  (forall a, st a = s <-> P a) -> (In n (names nm st s l) <-> exists a, In a l /\ nm a = n /\ P a).
Proof.
  intros H. rewrite names_iff. split; intros [a [I [N S]]]; exists a; (split; [exact I|]); (split; [exact N|]);
    now apply H.
Qed.

Lemma no_names {A} (nm : A -> str) (st : A -> status) l :
  (forall n, ~ In n (names nm st StOutside l)) /\ (forall n, ~ In n (names nm st StMismatch l)) <->
  forall a, In a l -> st a = StOk.
Proof.
  split.
  - intros [H1 H2] a I. destruct (st a) eqn:E; auto; exfalso; [apply (H1 (nm a)) | apply (H2 (nm a))];
      apply names_iff; eauto.
  - intros H. split; intros n I; apply names_iff in I as [a [I [_ S]]]; rewrite (H a I) in S; discriminate.
Qed.

Lemma set_add_in s x y : In y (set_add s x) <-> In y s \/ x = y.
Proof.
  unfold set_add. destruct (existsb (str_eqb x) s) eqn:E.
  - apply existsb_exists in E as [z [Hz E]]. apply str_eqb_eq in E. subst z. split; auto.
    intros [H| <-]; auto.
  - rewrite in_app_iff. cbn. split; intros [H|H]; auto. destruct H as [H|[]]; auto.
Qed.

Lemma map_put_keys (m : list (str * extern)) k v y :
  In y (map fst (map_put m k v)) <-> In y (map fst m) \/ k = y.
Proof.
  unfold map_put. induction m as [|[k0 v0] m IH]; cbn.
  - split; [intros [H|[]]; now right | intros [[]|H]; now left].
  - destruct (str_eqb_spec k0 k) as [->|N]; cbn.
    + split; auto. intros [H| <-]; auto.
    + destruct (im_insert m k v) as [m' o]; cbn in *. rewrite IH. symmetry. apply or_assoc.
Qed.

(** [out] is the set that receives the items of this side that are outside the other side, [other] the set
    that the other side's loop fills *)
Definition records {A} (step : report -> A -> report) (nm : A -> str) (st : A -> status)
    (out other : report -> list str) : Prop :=
  forall r a,
    match st a with
    | StOk => step r a = r
    | StOutside => out (step r a) = set_add (out r) (nm a) /\ other (step r a) = other r /\
                   r_mismatched (step r a) = r_mismatched r
    | StMismatch => out (step r a) = out r /\ other (step r a) = other r /\
                    exists side, r_mismatched (step r a) = map_put (r_mismatched r) (nm a) side
    end.

Lemma records_fold {A} (step : report -> A -> report) nm st out other : records step nm st out other ->
  forall l r n,
    (In n (out (fold_left step l r)) <-> In n (out r) \/ In n (names nm st StOutside l)) /\
    (In n (other (fold_left step l r)) <-> In n (other r)) /\
    (In n (map fst (r_mismatched (fold_left step l r))) <->
     In n (map fst (r_mismatched r)) \/ In n (names nm st StMismatch l)).
Proof.
  intros R. induction l as [|a l IH]; intros r n; cbn [fold_left].
  - cbn. repeat split; auto; intros [H|[]]; exact H.
  - destruct (IH (step r a) n) as [H1 [H2 H3]]. specialize (R r a). rewrite !names_cons.
    destruct (st a); cbn [status_eqb In].
    + rewrite R. apply IH.
    + destruct R as [Ro [Rt Rm]]. rewrite Ro, set_add_in, or_assoc in H1. rewrite Rt in H2. rewrite Rm in H3. auto.
    + destruct R as [Ro [Rt [side Rm]]]. rewrite Ro in H1. rewrite Rt in H2.
      rewrite Rm, map_put_keys, or_assoc in H3. auto.
Qed.

Definition reports {A B} (r : report) (ni : A -> str) (si : A -> status) (li : list A)
    (ne : B -> str) (se : B -> status) (le : list B) : Prop :=
  forall n,
    (In n (r_not_in_target r) <-> In n (names ni si StOutside li)) /\
    (In n (r_missing r) <-> In n (names ne se StOutside le)) /\
    (In n (map fst (r_mismatched r)) <-> In n (names ni si StMismatch li) \/ In n (names ne se StMismatch le)).

Lemma is_nil_iff {A} (l : list A) : is_nil l = true <-> forall x, ~ In x l.
Proof.
  destruct l as [|a l]; cbn; split; auto; [discriminate|]. intros H. destruct (H a). now left.
Qed.

Lemma reports_ok {A B} r (ni : A -> str) si li (ne : B -> str) se le : reports r ni si li ne se le ->
  (report_ok r = true <-> (forall a, In a li -> si a = StOk) /\ (forall b, In b le -> se b = StOk)).
Proof.
  intros R. unfold report_ok.
  replace (is_nil (r_mismatched r)) with (is_nil (map fst (r_mismatched r))) by now destruct (r_mismatched r).
  rewrite !andb_true_iff, !is_nil_iff, <- (no_names ni si li), <- (no_names ne se le).
  split.
  - intros [[H1 H2] H3]. repeat split; intros n I; [apply (H1 n)|apply (H3 n)|apply (H2 n)|apply (H3 n)];
      apply (R n); auto.
  - intros [[H1 H2] [H3 H4]]. repeat split; intros n I; apply (R n) in I; [apply (H1 n)|apply (H3 n)|]; auto.
    destruct I as [I|I]; [apply (H2 n)|apply (H4 n)]; auto.
Qed.

Section Verdicts.
  Variable K : Type.
  Variable promote : K -> K.
  Variable sub : K -> K -> bool.

  Definition istat (gi : str -> option K) (i : str * K * bool) : status :=
    status_at gi (iname i) (fun e => sub (promote e) (ikind i)).
  Definition estat (ge : str -> option K) (x : str * K) : status :=
    status_at ge (fst x) (fun y => sub y (promote (snd x))).

  Lemma istat_classifies d w gi : implements d (wtable w) gi ->
    classifies (istat gi) (import_ok promote sub d w) (import_outside d w) (import_mismatch promote sub d w).
  Proof. intros G i. exact (status_at_spec d _ gi _ _ G). Qed.

  Lemma estat_classifies d c ge : implements d (c_exports c) ge ->
    classifies (estat ge) (export_ok promote sub d c) (export_missing d c) (export_mismatch promote sub d c).
  Proof. intros G x. exact (status_at_spec d _ ge _ _ G). Qed.

  Definition import_err (r : option (str * K * bool * status)) : option terror :=
    match r with
    | None => None
    | Some (i, StOutside) => Some (ImportNotInTarget (iname i))
    | Some (i, _) => Some (TargetMismatch EImport (iname i))
    end.
  Definition export_err (r : option (str * K * status)) : option terror :=
    match r with
    | None => None
    | Some (x, StOutside) => Some (MissingTargetExport (fst x))
    | Some (x, _) => Some (TargetMismatch EExport (fst x))
    end.
  Definition first_failure (ri : option (str * K * bool * status)) (re : option (str * K * status)) : rverdict :=
    match import_err ri with
    | Some e => RErr e
    | None => match export_err re with Some e => RErr e | None => ROk end
    end.

  Section Lists.
    Variable si : str * K * bool -> status.
    Variable se : str * K -> status.
    Variable li : list (str * K * bool).
    Variable le : list (str * K).
    Notation v := (first_failure (first_bad si li) (first_bad se le)).

    Lemma first_failure_iff v0 : v = v0 <->
      match v0 with
      | ROk => first_bad si li = None /\ first_bad se le = None
      | RErr (ImportNotInTarget n) => exists i, iname i = n /\ first_bad si li = Some (i, StOutside)
      | RErr (TargetMismatch EImport n) => exists i, iname i = n /\ first_bad si li = Some (i, StMismatch)
      | RErr (MissingTargetExport n) =>
          first_bad si li = None /\ exists x, fst x = n /\ first_bad se le = Some (x, StOutside)
      | RErr (TargetMismatch EExport n) =>
          first_bad si li = None /\ exists x, fst x = n /\ first_bad se le = Some (x, StMismatch)
      end.
    Proof.
      unfold first_failure. split.
      - intros <-. destruct (first_bad si li) as [[i []]|] eqn:Ei; cbn; eauto; [now apply first_bad_not_ok in Ei|].
        destruct (first_bad se le) as [[x []]|] eqn:Ee; cbn; eauto. now apply first_bad_not_ok in Ee.
      - destruct v0 as [|[n|[|] n|n]];
          [intros [-> ->] | intros [i [<- ->]] | intros [i [<- ->]] | intros [-> [x [<- ->]]] | intros [-> [x [<- ->]]]];
          reflexivity.
    Qed.

    Lemma first_failure_ok : v = ROk <-> (forall i, In i li -> si i = StOk) /\ (forall x, In x le -> se x = StOk).
    Proof. rewrite <- !first_bad_none. apply (first_failure_iff ROk). Qed.

    Lemma reports_agree r : reports r iname si li fst se le -> agree v (SReport r).
    Proof.
      intros R. destruct v as [|[n|[|] n|n]] eqn:E; apply (proj1 (first_failure_iff _)) in E; cbn [agree] in *.
      - apply (reports_ok _ _ _ _ _ _ _ R). split; now apply first_bad_none.
      - destruct E as [i [N H]]. apply first_bad_in in H as [I S]. apply (R n), names_iff. eauto.
      - destruct E as [i [N H]]. apply first_bad_in in H as [I S]. apply (R n). left. apply names_iff. eauto.
      - destruct E as [_ [x [N H]]]. apply first_bad_in in H as [I S]. apply (R n). right. apply names_iff. eauto.
      - destruct E as [_ [x [N H]]]. apply first_bad_in in H as [I S]. apply (R n), names_iff. eauto.
    Qed.
  End Lists.

  Lemma rt_imports_first_bad w l :
    rt_imports promote sub w l = import_err (first_bad (istat (im_get (wtable w))) l).
  Proof.
    induction l as [|[[n k] b] l IH]; cbn; auto. unfold istat at 1, status_at, rt_expected, wtable. cbn.
    rewrite im_get_app. destruct (im_get (tw_implicit w) n) as [e|]; [|destruct (im_get (tw_imports w) n) as [e|]];
      auto; destruct (sub _ _); auto.
  Qed.

  Lemma rt_exports_first_bad c l :
    rt_exports promote sub c l = export_err (first_bad (estat (im_get (c_exports c))) l).
  Proof.
    induction l as [|[n e] l IH]; cbn; auto. unfold estat at 1, status_at. cbn.
    destruct (im_get _ n); auto. destruct (sub _ _); auto.
  Qed.

  Lemma rs_imports_first_bad wi l :
    rs_imports promote sub wi l = import_err (first_bad (istat (nm_get wi)) l).
  Proof.
    induction l as [|[[n k] b] l IH]; cbn; auto. unfold istat at 1, status_at. cbn.
    destruct (nm_get wi n); auto. destruct (sub _ _); auto.
  Qed.

  Lemma rs_exports_first_bad ce l :
    rs_exports promote sub ce l = export_err (first_bad (estat (nm_get ce)) l).
  Proof.
    induction l as [|[n e] l IH]; cbn; auto. unfold estat at 1, status_at. cbn.
    destruct (nm_get ce n); auto. destruct (sub _ _); auto.
  Qed.

  Lemma resolve_target_ff (w : tworld K) (c : comp K) :
    resolve_target promote sub w c =
    first_failure (first_bad (istat (im_get (wtable w))) (c_imports c))
            (first_bad (estat (im_get (c_exports c))) (tw_exports w)).
  Proof. unfold resolve_target, first_failure. now rewrite rt_imports_first_bad, rt_exports_first_bad. Qed.

  Lemma fills (w : tworld K) (c : comp K) :
    exists wi ce, nm_fill nm_empty (wtable w) = Some wi /\ nm_fill nm_empty (c_exports c) = Some ce.
  Proof.
    destruct (nm_fill_total (wtable w) nm_empty) as [wi Fw], (nm_fill_total (c_exports c) nm_empty) as [ce Fc]. eauto.
  Qed.

  Section Filled.
    Variable w : tworld K.
    Variable c : comp K.
    Variable wi ce : namemap K.
    Hypothesis Fw : nm_fill nm_empty (wtable w) = Some wi.
    Hypothesis Fc : nm_fill nm_empty (c_exports c) = Some ce.

    Lemma resolve_sv_ff :
      resolve_target_sv promote sub w c =
      Some (first_failure (first_bad (istat (nm_get wi)) (c_imports c)) (first_bad (estat (nm_get ce)) (tw_exports w))).
    Proof.
      unfold resolve_target_sv, all_imports, first_failure. fold (wtable w).
      rewrite Fw, Fc, rs_imports_first_bad, rs_exports_first_bad.
      destruct (import_err _); auto. destruct (export_err _); auto.
    Qed.

    Lemma st_import_records :
      records (st_import promote sub wi) iname (istat (nm_get wi)) r_not_in_target r_missing.
    Proof.
      intros r [[nm k] b]. unfold st_import, istat, status_at, iname, ikind. cbn [fst snd].
      destruct (nm_get wi nm) as [e|]; [destruct (sub _ _)|]; cbn; eauto.
    Qed.

    Lemma st_export_records :
      records (st_export promote sub ce) fst (estat (nm_get ce)) r_missing r_not_in_target.
    Proof.
      intros r [nm k]. unfold st_export, estat, status_at. cbn [fst snd].
      destruct (nm_get ce nm) as [e|]; [destruct (sub _ _)|]; cbn; eauto.
    Qed.

    Lemma standalone_reports :
      exists r, standalone_target promote sub w c = SReport r /\
                reports r iname (istat (nm_get wi)) (c_imports c) fst (estat (nm_get ce)) (tw_exports w).
    Proof.
      unfold standalone_target, all_imports. fold (wtable w). rewrite Fw, Fc.
      eexists. split; [reflexivity|]. intros n.
      destruct (records_fold _ _ _ _ _ st_export_records (tw_exports w)
                  (fold_left (st_import promote sub wi) (c_imports c) empty_report) n) as [E1 [E2 E3]].
      destruct (records_fold _ _ _ _ _ st_import_records (c_imports c) empty_report n) as [I1 [I2 I3]].
      cbn [empty_report r_not_in_target r_missing r_mismatched map In] in I1, I2, I3.
      split; [|split].
      - rewrite E2, I1. split; [intros [[]|H]; exact H | now right].
      - rewrite E1, I2. split; [intros [[]|H]; exact H | now right].
      - rewrite E3, I3. split; [intros [[[]|H]|H]; auto | intros [H|H]; auto].
    Qed.
  End Filled.

  Theorem standalone_never_panics (w : tworld K) (c : comp K) : standalone_target promote sub w c <> SPanic.
  Proof.
    destruct (fills w c) as [wi [ce [Fw Fc]]]. destruct (standalone_reports w c wi ce Fw Fc) as [r [-> _]].
    discriminate.
  Qed.

  Theorem agree_sv (w : tworld K) (c : comp K) :
    exists v, resolve_target_sv promote sub w c = Some v /\ agree v (standalone_target promote sub w c).
  Proof.
    destruct (fills w c) as [wi [ce [Fw Fc]]]. destruct (standalone_reports w c wi ce Fw Fc) as [r [-> R]].
    eexists. split; [exact (resolve_sv_ff w c wi ce Fw Fc)|]. now apply reports_agree.
  Qed.

  (** the Ok verdict without any assumption on the tables: first entries are consulted *)
  Lemma resolve_ok_core (w : tworld K) (c : comp K) :
    resolve_target promote sub w c = ROk <->
    (forall i, In i (c_imports c) ->
       exists e, im_get (wtable w) (iname i) = Some e /\ sub (promote e) (ikind i) = true) /\
    (forall x, In x (tw_exports w) ->
       exists y, im_get (c_exports c) (fst x) = Some y /\ sub y (promote (snd x)) = true).
  Proof.
    rewrite resolve_target_ff, first_failure_ok. unfold istat, estat. now setoid_rewrite status_at_ok.
  Qed.

  Lemma spec_first_lookup d w c gi ge : implements d (wtable w) gi -> implements d (c_exports c) ge ->
    spec_first promote sub d w c =
    first_failure (first_bad (istat gi) (c_imports c)) (first_bad (estat ge) (tw_exports w)).
  Proof.
    intros GI GE. unfold spec_first, first_failure.
    rewrite (first_bad_ext (import_status promote sub d w) (istat gi)),
            (first_bad_ext (export_status promote sub d c) (estat ge)).
    - destruct (first_bad (istat gi) _) as [[i []]|]; try reflexivity.
      destruct (first_bad (estat ge) _) as [[x []]|]; reflexivity.
    - intros x _. now apply classify_get.
    - intros i _. now apply classify_get.
  Qed.

  Theorem conforms_b_iff d (w : tworld K) (c : comp K) :
    conforms_b promote sub d w c = true <-> Conforms promote sub d w c.
  Proof.
    unfold conforms_b, Conforms. rewrite andb_true_iff, !forallb_forall, !Forall_forall.
    assert (forall s, is_ok s = true <-> s = StOk) as OK by (intros []; cbn; split; congruence).
    setoid_rewrite OK. unfold import_status, export_status. setoid_rewrite classify_ok. reflexivity.
  Qed.

  Section Pair.
    Variable w : tworld K.
    Variable c : comp K.
    Hypothesis WF : wf_pair w c.

    Theorem spec_first_exact_is_model : spec_first promote sub Exact w c = resolve_target promote sub w c.
    Proof. rewrite resolve_target_ff. apply spec_first_lookup; apply exact_implements, WF. Qed.

    Theorem spec_first_semver_is_model :
      resolve_target_sv promote sub w c = Some (spec_first promote sub Semver w c).
    Proof.
      destruct (fills w c) as [wi [ce [Fw Fc]]]. rewrite (resolve_sv_ff w c wi ce Fw Fc). f_equal.
      symmetry. apply spec_first_lookup; apply semver_implements; auto; apply WF.
    Qed.

    Theorem spec_first_spec d :
      (spec_first promote sub d w c = ROk <-> Conforms promote sub d w c) /\
      (forall n, spec_first promote sub d w c = RErr (ImportNotInTarget n) <-> diag_import_not_in_target promote sub d w c n) /\
      (forall n, spec_first promote sub d w c = RErr (TargetMismatch EImport n) <-> diag_import_mismatch promote sub d w c n) /\
      (forall n, spec_first promote sub d w c = RErr (MissingTargetExport n) <-> diag_missing_export promote sub d w c n) /\
      (forall n, spec_first promote sub d w c = RErr (TargetMismatch EExport n) <-> diag_export_mismatch promote sub d w c n).
    Proof.
      destruct WF as [CW CE].
      destruct (implements_exists d _ CW) as [gi GI], (implements_exists d _ CE) as [ge GE].
      rewrite (spec_first_lookup d w c gi ge GI GE).
      destruct (first_bad_spec _ _ _ _ (c_imports c) (istat_classifies d w gi GI)) as [IN [IO IM]].
      destruct (first_bad_spec _ _ _ _ (tw_exports w) (estat_classifies d c ge GE)) as [EN [EO EM]].
      pose proof (first_failure_iff (istat gi) (estat ge) (c_imports c) (tw_exports w)) as V.
      split; [|split; [|split; [|split]]]; try intros n; (etransitivity; [exact (V _)|]).
      - apply and_iff; assumption.
      - apply ex_and_iff, IO.
      - apply ex_and_iff, IM.
      - apply and_iff; [exact IN | apply ex_and_iff, EO].
      - apply and_iff; [exact IN | apply ex_and_iff, EM].
    Qed.

    Lemma status_classifies d :
      classifies (import_status promote sub d w) (import_ok promote sub d w) (import_outside d w)
              (import_mismatch promote sub d w) /\
      classifies (export_status promote sub d c) (export_ok promote sub d c) (export_missing d c)
              (export_mismatch promote sub d c).
    Proof.
      destruct WF as [CW CE].
      destruct (implements_exists d _ CW) as [gi GI], (implements_exists d _ CE) as [ge GE].
      split; intros a; unfold import_status, export_status.
      - rewrite (classify_get d _ gi _ _ GI). now apply istat_classifies.
      - rewrite (classify_get d _ ge _ _ GE). now apply estat_classifies.
    Qed.

    Theorem spec_sets_spec d :
      (forall n, In n (spec_not_in_target promote sub d w c) <-> in_not_in_target d w c n) /\
      (forall n, In n (spec_missing promote sub d w c) <-> in_missing d w c n) /\
      (forall n, In n (spec_mismatched promote sub d w c) <-> in_mismatched promote sub d w c n).
    Proof.
      destruct (status_classifies d) as [DI DE]. split; [|split]; intros n.
      - apply (names_class iname (import_status promote sub d w) StOutside). intros i. apply (DI i).
      - apply (names_class fst (export_status promote sub d c) StOutside). intros x. apply (DE x).
      - unfold spec_mismatched, in_mismatched. rewrite in_app_iff. apply or_iff.
        + apply (names_class iname (import_status promote sub d w) StMismatch). intros i. apply (DI i).
        + apply (names_class fst (export_status promote sub d c) StMismatch). intros x. apply (DE x).
    Qed.

    Theorem standalone_spec :
      exists r, standalone_target promote sub w c = SReport r /\
        (forall n, In n (r_not_in_target r) <-> in_not_in_target Semver w c n) /\
        (forall n, In n (r_missing r) <-> in_missing Semver w c n) /\
        (forall n, In n (map fst (r_mismatched r)) <-> in_mismatched promote sub Semver w c n) /\
        (report_ok r = true <-> Conforms promote sub Semver w c).
    Proof.
      destruct (fills w c) as [wi [ce [Fw Fc]]]. destruct (standalone_reports w c wi ce Fw Fc) as [r [-> R]].
      pose proof (istat_classifies Semver w _ (semver_implements _ _ (proj1 WF) Fw)) as DI.
      pose proof (estat_classifies Semver c _ (semver_implements _ _ (proj2 WF) Fc)) as DE.
      exists r. split; [reflexivity|]. split; [|split; [|split]].
      - intros n. rewrite (proj1 (R n)). apply names_class. intros i. apply (DI i).
      - intros n. rewrite (proj1 (proj2 (R n))). apply names_class. intros x. apply (DE x).
      - intros n. rewrite (proj2 (proj2 (R n))).
        apply or_iff; apply names_class; [intros i; apply (DI i) | intros x; apply (DE x)].
      - rewrite (reports_ok _ _ _ _ _ _ _ R). unfold Conforms. rewrite !Forall_forall.
        split; intros [HI HE]; split; intros a I; [apply (DI a)|apply (DE a)|apply (DI a)|apply (DE a)]; auto.
    Qed.

    Lemma resolve_sv_ok : resolve_target_sv promote sub w c = Some ROk <-> Conforms promote sub Semver w c.
    Proof. rewrite spec_first_semver_is_model, <- (proj1 (spec_first_spec Semver)). split; congruence. Qed.

    Hypothesis EX : exact_names w c.

    Lemma spec_first_same : spec_first promote sub Semver w c = spec_first promote sub Exact w c.
    Proof.
      destruct EX as [E1 E2]. unfold spec_first.
      rewrite (first_bad_ext (import_status promote sub Semver w) (import_status promote sub Exact w)),
              (first_bad_ext (export_status promote sub Semver c) (export_status promote sub Exact c)); auto.
      - intros x I. apply classify_same. intros m Hm. apply E2; auto. now apply in_map.
      - intros i I. apply classify_same. auto.
    Qed.

    Lemma conforms_same : Conforms promote sub Semver w c <-> Conforms promote sub Exact w c.
    Proof.
      rewrite <- (proj1 (spec_first_spec Semver)), <- (proj1 (spec_first_spec Exact)), spec_first_same. reflexivity.
    Qed.

    Theorem agree_when_exact : agree (resolve_target promote sub w c) (standalone_target promote sub w c).
    Proof.
      destruct (agree_sv w c) as [v [E A]].
      rewrite spec_first_semver_is_model, spec_first_same, spec_first_exact_is_model in E. now injection E as <-.
    Qed.
  End Pair.
End Verdicts.

(** The witness of the disagreement: the composition imports [x:y/z@0.2.0], the world [x:y/z@0.2.1]. *)
Definition n_xyz_020 : str := [120;58;121;47;122;64;48;46;50;46;48].
Definition n_xyz_021 : str := [120;58;121;47;122;64;48;46;50;46;49].
Definition w_refute : tworld N := mktworld [] [(n_xyz_021, 0)] [].
Definition c_refute : comp N := mkcomp [(n_xyz_020, 0, false)] [].

Lemma refute_wf : wf_pair w_refute c_refute.
Proof. split; cbn; [apply consistent_single | apply consistent_nil]. Qed.

Lemma refute_facts :
  resolve_target (fun k => k) N.eqb w_refute c_refute = RErr (ImportNotInTarget n_xyz_020) /\
  standalone_target (fun k => k) N.eqb w_refute c_refute = SReport (mkreport [] [] []).
Proof. vm_compute. split; reflexivity. Qed.

Lemma assoc_im_get {B} (l : list (str * B)) k : assoc k l = im_get l k.
Proof. induction l as [|[k0 v0] l IH]; cbn; auto. rewrite str_eqb_sym. destruct (str_eqb k0 k); auto. Qed.

Lemma SubCM_comp ia ea ib eb : SubCM (XComp ia ea) (XComp ib eb) <->
  (forall k a, In (k, a) ia -> exists b, im_get ib k = Some b /\ SubCM b a) /\
  (forall k b, In (k, b) eb -> exists a, im_get ea k = Some a /\ SubCM a b).
Proof.
  unfold SubCM. split.
  - intros H. inversion H as [| |ia' ea' ib' eb' HI HE| | | | | | | |]; subst.
    split; intros k x I; [destruct (HI k x I) as [y [G S]] | destruct (HE k x I) as [y [G S]]];
      exists y; rewrite <- assoc_im_get; auto.
  - intros [HI HE]. constructor; intros k x I; [destruct (HI k x I) as [y [G S]] | destruct (HE k x I) as [y [G S]]];
      exists y; rewrite assoc_im_get; auto.
Qed.

Section CM.
  Variable sub : tree -> tree -> bool.
  Hypothesis sub_dec : forall a b, sub a b = true <-> SubCM a b.

  Definition promote_stable (w : tworld tree) : Prop :=
    forall n e, In (n, e) (wtable w ++ tw_exports w) -> tree_promote e = e.
  Definition comp_tree (c : comp tree) : tree := XComp (map fst (c_imports c)) (c_exports c).
  Definition world_tree (w : tworld tree) : tree := XComp (wtable w) (tw_exports w).

  Theorem target_iff_cm_subtype (w : tworld tree) (c : comp tree) :
    promote_stable w ->
    (resolve_target tree_promote sub w c = ROk <-> SubCM (comp_tree c) (world_tree w)).
  Proof.
    intros PS. rewrite resolve_ok_core. unfold comp_tree, world_tree. split.
    - intros [HI HE]. apply SubCM_comp. split.
      + intros k a Hin. apply in_map_iff in Hin as [[[k' a'] b'] [Ei Hi]]. cbn in Ei. injection Ei as -> ->.
        destruct (HI _ Hi) as [e [G S]]. exists e. split; [exact G|].
        apply sub_dec. rewrite <- (PS k e); [exact S|]. apply in_or_app. left. now apply im_get_in.
      + intros k b Hin. destruct (HE (k, b) Hin) as [y [G S]]. cbn in *. exists y.
        split; auto. apply sub_dec. rewrite <- (PS k b); auto. apply in_or_app. now right.
    - intros H. apply SubCM_comp in H as [HI HE]. split.
      + intros i Hi. destruct (HI (iname i) (ikind i)) as [e [G S]].
        { apply in_map_iff. exists i. split; auto. unfold iname, ikind. now destruct (fst i). }
        exists e. split; auto. apply sub_dec.
        rewrite (PS (iname i) e); auto. apply in_or_app. left. now apply im_get_in.
      + intros [k b] Hx. destruct (HE k b Hx) as [y [G S]]. exists y. cbn.
        split; auto. apply sub_dec. rewrite (PS k b); auto. apply in_or_app. now right.
  Qed.
End CM.
