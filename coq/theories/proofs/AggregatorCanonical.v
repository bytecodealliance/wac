(** The aggregator's name bookkeeping follows [NStep]; consequences for whole aggregation histories. *)
From WacV Require Import Str Ord Semver Names NamesSpec Types Checker Aggregator AggregatorSpec.
From WacV Require Import SemverProofs NamesProofs CheckerEq AggregatorNames AggregatorFrame StrFacts ListFacts.

Lemma find_on_track_some {V} ak (l : list (str * V)) n v :
  find_on_track ak l = Some (n, v) -> In (n, v) l /\ exists ver, alt_key n = Some (ak, ver).
Proof.
  induction l as [|[n' v'] l IH]; cbn [find_on_track]; [discriminate|].
  destruct (alt_key n') as [[k ver]|] eqn:A.
  - destruct (str_eqb k ak) eqn:E.
    + intros H. injection H as <- <-. apply str_eqb_eq in E. subst k. split; [now left | eauto].
    + intros H. apply IH in H as [H1 H2]. split; [now right | auto].
  - intros H. apply IH in H as [H1 H2]. split; [now right | auto].
Qed.
Lemma find_on_track_none {V} ak (l : list (str * V)) :
  find_on_track ak l = None -> forall n v k ver, In (n, v) l -> alt_key n = Some (k, ver) -> k <> ak.
Proof.
  induction l as [|[n' v'] l IH]; cbn [find_on_track]; intros H n v k ver Hin A; [contradiction|].
  destruct Hin as [E|Hin].
  - injection E as -> ->. rewrite A in H. destruct (str_eqb k ak) eqn:E; [discriminate|]. now apply str_eqb_neq.
  - destruct (alt_key n') as [[k' ver']|]; [destruct (str_eqb k' ak); [discriminate|]|]; eapply IH; eauto.
Qed.

Lemma find_compat_some {V} name (l : list (str * V)) en v : find_compat name l = Some (en, v) -> In (en, v) l /\ on_track name en.
Proof.
  unfold find_compat. destruct (alt_key name) as [[ak nv]|] eqn:An; [|discriminate]. intros Ef.
  apply find_on_track_some in Ef as [Hin [ev Ae]]. split; [exact Hin|]. now exists ak, nv, ev.
Qed.
Lemma find_compat_none {V} name (l : list (str * V)) e v : find_compat name l = None -> In (e, v) l -> ~ on_track name e.
Proof.
  intros Ef Hin [ak [nv [ev [An Ae]]]]. unfold find_compat in Ef. rewrite An in Ef.
  now apply (find_on_track_none _ _ Ef e v ak ev Hin Ae).
Qed.

Section Step.
  Variable ord : list (str * id) -> list (str * id).
  Variable cf : nat.

  Lemma aggregate_cases fuel a s name t k a' s' :
    aggregate ord cf fuel a s name t k = AOk (a', s') ->
    (exists existing c, assoc name (a_imports a) = Some existing /\
                        merge_item_kind ord cf fuel existing t k (core_of a s) = AOk (tt, c) /\
                        a' = agg_of c (c_imports c) (a_redirects a) /\ s' = c_chk c) \/
    (exists en ek c im rd, assoc name (a_imports a) = None /\ find_compat name (a_imports a) = Some (en, ek) /\
                           merge_item_kind ord cf fuel ek t k (core_of a s) = AOk (tt, c) /\
                           rename (c_imports c) (a_redirects a) name en = Some (im, rd) /\
                           a' = agg_of c im rd /\ s' = c_chk c) \/
    (exists k' c, assoc name (a_imports a) = None /\ find_compat name (a_imports a) = None /\
                  remap_item_kind ord cf fuel t k (core_of a s) = AOk (k', c) /\ has_key name (c_imports c) = false /\
                  a' = agg_of c (ins name k' (c_imports c)) (a_redirects a) /\ s' = c_chk c).
  Proof.
    unfold aggregate. destruct (assoc name (a_imports a)) as [existing|] eqn:Ea.
    - destruct (merge_item_kind ord cf fuel existing t k (core_of a s)) as [[[] c]| | |] eqn:Em; try discriminate.
      intros H. injection H as <- <-. left. exists existing, c. auto.
    - destruct (find_compat name (a_imports a)) as [[en ek]|] eqn:Ef.
      + destruct (merge_item_kind ord cf fuel ek t k (core_of a s)) as [[[] c]| | |] eqn:Em; try discriminate.
        destruct (rename (c_imports c) (a_redirects a) name en) as [[im rd]|] eqn:Er; try discriminate.
        intros H. injection H as <- <-. right. left. exists en, ek, c, im, rd. auto 10.
      + destruct (remap_item_kind ord cf fuel t k (core_of a s)) as [[k' c]| | |] eqn:Em; try discriminate.
        destruct (has_key name (c_imports c)) eqn:Eh; try discriminate.
        intros H. injection H as <- <-. right. right. exists k', c. auto 10.
  Qed.

  Lemma aggregate_NStep fuel a s name t k a' s' :
    owner_free t -> NoDup (map fst (a_imports a)) ->
    aggregate ord cf fuel a s name t k = AOk (a', s') ->
    NStep (map fst (a_imports a)) (a_redirects a) name (map fst (a_imports a')) (a_redirects a').
  Proof.
    intros OF ND H.
    apply aggregate_cases in H as [[existing [c [Ea [Hm [-> ->]]]]] | [[en [ek [c [im [rd [Ea [Ef [Hm [Hr [-> ->]]]]]]]]]] | [k' [c [Ea [Ef [Hm [Hh [-> ->]]]]]]]]];
      cbn [a_imports a_redirects agg_of].
    - (* exact name *)
      rewrite (si_merge_item_kind ord cf t OF fuel existing k _ _ _ Hm). apply NS_exact. eapply assoc_in_keys; eauto.
    - (* a semver-compatible import *)
      assert (Hnin : ~ In name (map fst (a_imports a))) by now apply assoc_none_keys.
      apply find_compat_some in Ef as [Hin [ak [nv [ev [An Ae]]]]].
      assert (Hen : In en (map fst (a_imports a))) by (apply (in_map fst) in Hin; exact Hin).
      rewrite (si_merge_item_kind ord cf t OF fuel ek k _ _ _ Hm) in Hr. cbn [core_of c_imports] in Hr.
      unfold rename in Hr. rewrite An, Ae in Hr. destruct (version_gtb nv ev) eqn:Hv.
      + destruct (assoc en (a_imports a)) as [mk|] eqn:Eme; [|discriminate]. injection Hr as <- <-.
        assert (Hnr : assoc name (rem en (a_imports a)) = None).
        { apply assoc_none_keys. intros X. apply in_keys_rem in X; auto. tauto. }
        rewrite (keys_ins_new _ _ _ Hnr).
        eapply (NS_high _ _ _ en ak nv ev); eauto.
        * apply NoDup_app_one; [now apply nodup_keys_rem|]. intros X. apply in_keys_rem in X; auto. tauto.
        * intros x. rewrite in_app_iff, in_keys_rem by auto. cbn [In]. intuition.
      + injection Hr as <- <-. eapply (NS_low _ _ _ en ak nv ev); eauto.
    - (* a new import *)
      rewrite (si_remap_item_kind ord cf t OF fuel k _ _ _ Hm). cbn [core_of c_imports].
      rewrite (keys_ins_new _ _ _ Ea). apply NS_new; [now apply assoc_none_keys|].
      intros e He. apply in_keys_assoc in He as [v Hv]. exact (find_compat_none _ _ e v Ef (assoc_in _ _ _ Hv)).
  Qed.

  Lemma aggregate_all_inv fuel : forall l a s pos a' s' names,
    Forall (fun c : str * (types * kind) => owner_free (fst (snd c))) l ->
    NInv (map fst (a_imports a)) (a_redirects a) names ->
    aggregate_all ord cf fuel a s l pos = inl (a', s') ->
    NInv (map fst (a_imports a')) (a_redirects a') (rev (map fst l) ++ names).
  Proof.
    induction l as [|[name [t k]] l IH]; intros a s pos a' s' names HF I; cbn [aggregate_all].
    - intros H. injection H as <- <-. exact I.
    - inversion HF as [|? ? OF HF']; subst. cbn [fst snd] in OF.
      destruct (aggregate ord cf fuel a s name t k) as [[a1 s1]| | |] eqn:E; try discriminate.
      intros H. apply aggregate_NStep in E; auto; [|apply (ni_nodup _ _ _ I)].
      pose proof (NStep_preserves _ _ _ _ _ _ I E) as I1.
      specialize (IH _ _ _ _ _ _ HF' I1 H). cbn [map fst rev]. now rewrite <- app_assoc.
  Qed.

  Lemma aggregate_other_tracks fuel a s name t k a' s' names m :
    owner_free t -> NInv (map fst (a_imports a)) (a_redirects a) names ->
    aggregate ord cf fuel a s name t k = AOk (a', s') ->
    compat m name = false -> Aggregator.canonical a' m = Aggregator.canonical a m.
  Proof.
    intros OF I E C. apply aggregate_NStep in E; auto; [|apply (ni_nodup _ _ _ I)].
    exact (NStep_other_tracks _ _ _ _ _ _ m I E C).
  Qed.
End Step.

Lemma higher_versions m b : higher m b = true -> exists vm vb, version_of m = Some vm /\ version_of b = Some vb /\ version_gt vm vb = true.
Proof. unfold higher. destruct (version_of m) as [vm|], (version_of b) as [vb|]; try discriminate. eauto. Qed.
Lemma version_gt_trans a b c : version_gt a b = true -> version_gt b c = true -> version_gt a c = true.
Proof.
  unfold version_gt. pose proof cmp_version_total as T.
  destruct (cmp_version a b) eqn:E1; try discriminate. destruct (cmp_version b c) eqn:E2; try discriminate. intros _ _.
  apply (total_gt_lt _ T) in E1, E2. pose proof (tc_trans _ T _ _ _ E2 E1) as E3.
  apply (total_gt_lt _ T) in E3. now rewrite E3.
Qed.
Lemma higher_trans a b c : higher a b = true -> higher b c = true -> higher a c = true.
Proof.
  intros H1 H2. apply higher_versions in H1 as [va [vb [Ea [Eb G1]]]]. apply higher_versions in H2 as [vb' [vc [Eb' [Ec G2]]]].
  unfold higher. rewrite Ea, Ec. assert (vb' = vb) by congruence. subst vb'. eapply version_gt_trans; eauto.
Qed.
Lemma higher_trans_neg a b c : higher a b = false -> higher c b = true -> higher a c = false.
Proof.
  intros H1 H2. apply higher_versions in H2 as [vc [vb [Ec [Eb G]]]]. unfold higher in *. rewrite Eb in H1. rewrite Ec.
  destruct (version_of a) as [va|]; auto. eapply not_gt_trans; eauto.
Qed.

Section SpecCanonical.
  Variable n : str.
  Let f (best m : str) : str := if same_track n m && higher m best then m else best.

  Lemma spec_fold_inv : forall l best,
    let c := fold_left f l best in
    (c = best \/ (In c l /\ same_track n c = true /\ higher c best = true)) /\
    (forall m, In m l -> same_track n m = true -> higher m c = false) /\
    (forall x, higher x best = false -> higher x c = false).
  Proof.
    induction l as [|m r IH]; intros best; cbn [fold_left].
    - split; [now left|]. split; [intros ? []|auto].
    - destruct (IH (f best m)) as [A [B C]]. set (c := fold_left f r (f best m)) in *.
      assert (Hdom : forall x, higher x best = false -> higher x (f best m) = false).
      { intros x Hx. unfold f. destruct (same_track n m && higher m best) eqn:E; auto.
        apply andb_true_iff in E as [_ E]. eapply higher_trans_neg; eauto. }
      split; [|split].
      + destruct A as [A|[A1 [A2 A3]]].
        * unfold f in A. destruct (same_track n m && higher m best) eqn:E; [|now left].
          apply andb_true_iff in E as [E1 E2]. right. rewrite A. cbn [In]. auto.
        * right. split; [now right|]. split; auto. unfold f in A3.
          destruct (same_track n m && higher m best) eqn:E; auto. apply andb_true_iff in E as [_ E]. eapply higher_trans; eauto.
      + intros m' [<-|Hm'] Ht; [|now apply B]. apply C. unfold f. rewrite Ht. cbn [andb].
        destruct (higher m best) eqn:E; [apply higher_irrefl|exact E].
      + intros x Hx. apply C. now apply Hdom.
  Qed.

  Lemma spec_canonical_props names :
    let c := spec_canonical names n in
    (c = n \/ (In c names /\ same_track n c = true)) /\
    (forall m, In m names -> same_track n m = true -> higher m c = false).
  Proof.
    destruct (spec_fold_inv names n) as [A [B _]]. unfold spec_canonical. fold f. split; auto.
    destruct A as [A|[A1 [A2 _]]]; auto.
  Qed.
End SpecCanonical.

Lemma same_track_refl_of a b : same_track a b = true -> same_track a a = true.
Proof.
  unfold same_track. destruct (name_track a) as [[[ba ta] va]|]; [|discriminate]. intros _.
  rewrite str_eqb_refl. cbn [andb]. now apply track_eqb_eq.
Qed.
Lemma higher_false_both a b va vb :
  version_of a = Some va -> version_of b = Some vb -> higher a b = false -> higher b a = false -> va = vb.
Proof.
  unfold higher. intros -> ->. unfold version_gt. pose proof cmp_version_total as T. rewrite (tc_anti _ T vb va).
  destruct (cmp_version vb va) eqn:E; cbn [CompOpp]; try discriminate. intros _ _. symmetry. now apply (tc_eq _ T).
Qed.

Lemma same_track_version a b : same_track a b = true -> exists vb, version_of b = Some vb.
Proof.
  unfold same_track, version_of. destruct (name_track a) as [[[ba ta] va]|]; [|discriminate].
  destruct (name_track b) as [[[bb tb] vb]|]; [|discriminate]. eauto.
Qed.

Lemma highest_unique names n c1 c2 :
  In c1 names -> In c2 names -> compat_spec_b n c1 = true -> compat_spec_b n c2 = true ->
  (forall m, In m names -> compat_spec_b n m = true -> higher m c1 = false) ->
  (forall m, In m names -> compat_spec_b n m = true -> higher m c2 = false) -> c1 = c2.
Proof.
  intros I1 I2 C1 C2 H1 H2. unfold compat_spec_b in C1, C2. apply orb_true_iff in C1, C2.
  destruct (same_track n n) eqn:Tn.
  - assert (T1 : same_track n c1 = true) by (destruct C1 as [E|E]; auto; apply str_eqb_eq in E; now rewrite <- E).
    assert (T2 : same_track n c2 = true) by (destruct C2 as [E|E]; auto; apply str_eqb_eq in E; now rewrite <- E).
    assert (G12 : higher c1 c2 = false) by (apply H2; auto; unfold compat_spec_b; rewrite T1; apply orb_true_r).
    assert (G21 : higher c2 c1 = false) by (apply H1; auto; unfold compat_spec_b; rewrite T2; apply orb_true_r).
    destruct (same_track_version _ _ T1) as [v1 V1]. destruct (same_track_version _ _ T2) as [v2 V2].
    pose proof (higher_false_both _ _ _ _ V1 V2 G12 G21) as ->.
    apply (same_track_same_version_name c1 c2 _ (same_track_trans _ _ _ (eq_trans (same_track_sym c1 n) T1) T2) V1 V2).
  - assert (forall x, same_track n x = false).
    { intros x. destruct (same_track n x) eqn:E; auto. apply same_track_refl_of in E. congruence. }
    destruct C1 as [E1|E1]; [|rewrite H in E1; discriminate]. destruct C2 as [E2|E2]; [|rewrite H in E2; discriminate].
    apply str_eqb_eq in E1, E2. congruence.
Qed.

Section History.
  Variable ord : list (str * id) -> list (str * id).
  Variables (cf fuel : nat) (tag : N).
  Variable l : list (str * (types * kind)).
  Variables (a : agg) (s : st).
  Hypothesis OFl : Forall (fun c : str * (types * kind) => owner_free (fst (snd c))) l.
  Hypothesis Hrun : aggregate_all ord cf fuel (agg0 tag) st0 l 0 = inl (a, s).

  Let names := map fst l.

  Lemma history_inv : NInv (map fst (imports a)) (a_redirects a) (rev names).
  Proof.
    pose proof (aggregate_all_inv ord cf fuel l (agg0 tag) st0 0 a s [] OFl NInv_nil Hrun) as H.
    now rewrite app_nil_r in H.
  Qed.

  Theorem history_canonical_is_highest n : In n names ->
    In (Aggregator.canonical a n) names /\ compat_spec_b n (Aggregator.canonical a n) = true /\
    (forall m, In m names -> compat_spec_b n m = true -> higher m (Aggregator.canonical a n) = false) /\
    (forall m, In m names -> compat_spec_b n m = true -> Aggregator.canonical a m = Aggregator.canonical a n).
  Proof.
    intros Hn. apply in_rev in Hn. destruct (inv_highest _ _ _ history_inv n Hn) as [H1 [H2 H3]].
    repeat split.
    - now apply in_rev.
    - now rewrite <- compat_is_spec_b.
    - intros m Hm C. apply H3; [now apply -> in_rev | now rewrite compat_is_spec_b].
    - intros m Hm C. symmetry. apply (inv_one _ _ _ history_inv); auto; [now apply -> in_rev | now rewrite compat_is_spec_b].
  Qed.

  Theorem history_redirects_total n : In n names -> In (Aggregator.canonical a n) (map fst (imports a)).
  Proof. intros Hn. apply (ni_total _ _ _ history_inv). now apply -> in_rev. Qed.

  Theorem history_canonical_idempotent n : Aggregator.canonical a (Aggregator.canonical a n) = Aggregator.canonical a n.
  Proof. apply (inv_idempotent _ _ _ history_inv). Qed.

  Theorem history_one_import_per_track k1 k2 :
    In k1 (map fst (imports a)) -> In k2 (map fst (imports a)) -> compat_spec_b k1 k2 = true -> k1 = k2.
  Proof. intros H1 H2 C. apply (ni_one _ _ _ history_inv); auto. now rewrite compat_is_spec_b. Qed.

  Theorem history_imports_contributed k : In k (map fst (imports a)) -> In k names /\ Aggregator.canonical a k = k.
  Proof.
    intros H. split.
    - apply in_rev. now apply (ni_contrib _ _ _ history_inv).
    - unfold Aggregator.canonical. destruct (assoc k (a_redirects a)) eqn:E; auto.
      apply (ni_rd _ _ _ history_inv) in E. unfold imports in H. tauto.
  Qed.

  Theorem history_canonical_is_spec n : In n names -> Aggregator.canonical a n = spec_canonical names n.
  Proof.
    intros Hn. destruct (history_canonical_is_highest n Hn) as [H1 [H2 [H3 _]]].
    destruct (spec_canonical_props n names) as [A B].
    assert (C : compat_spec_b n (spec_canonical names n) = true /\ In (spec_canonical names n) names).
    { unfold compat_spec_b. destruct A as [->|[I T]]; [|now rewrite T, orb_true_r]. now rewrite str_eqb_refl. }
    apply (highest_unique names n); try tauto.
    intros m Hm Cm. unfold compat_spec_b in Cm. apply orb_true_iff in Cm as [E|T]; [|now apply B].
    apply str_eqb_eq in E. subst m. destruct A as [->|[_ T]]; [apply higher_irrefl|].
    apply B; auto. exact (same_track_refl_of _ _ T).
  Qed.
End History.

Section TwoOrders.
  Variables ord ord' : list (str * id) -> list (str * id).
  Variables (cf fuel cf' fuel' : nat) (tag tag' : N).
  Variables l l' : list (str * (types * kind)).
  Variables (a a' : agg) (s s' : st).
  Hypothesis OFl : Forall (fun c : str * (types * kind) => owner_free (fst (snd c))) l.
  Hypothesis OFl' : Forall (fun c : str * (types * kind) => owner_free (fst (snd c))) l'.
  Hypothesis Hperm : forall n, In n (map fst l) <-> In n (map fst l').
  Hypothesis Hrun : aggregate_all ord cf fuel (agg0 tag) st0 l 0 = inl (a, s).
  Hypothesis Hrun' : aggregate_all ord' cf' fuel' (agg0 tag') st0 l' 0 = inl (a', s').

  Theorem canonical_order_indep n : In n (map fst l) -> Aggregator.canonical a n = Aggregator.canonical a' n.
  Proof.
    intros Hn. destruct (history_canonical_is_highest ord cf fuel tag l a s OFl Hrun n Hn) as [A1 [A2 [A3 _]]].
    destruct (history_canonical_is_highest ord' cf' fuel' tag' l' a' s' OFl' Hrun' n (proj1 (Hperm n) Hn)) as [B1 [B2 [B3 _]]].
    apply (highest_unique (map fst l) n); auto.
    - now apply Hperm.
    - intros m Hm. apply B3. now apply Hperm.
  Qed.

  Theorem import_names_order_indep k : In k (map fst (imports a)) -> In k (map fst (imports a')).
  Proof.
    intros Hk. destruct (history_imports_contributed ord cf fuel tag l a s OFl Hrun k Hk) as [Hn Hc].
    rewrite <- Hc, (canonical_order_indep k Hn).
    apply (history_redirects_total ord' cf' fuel' tag' l' a' s' OFl' Hrun'). now apply Hperm.
  Qed.
End TwoOrders.
