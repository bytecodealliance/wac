(** Fuel is only a bound: every result of the aggregator model other than "out of fuel" is stable under more fuel
    (for the whole mutually recursive family remap_* / merge_interface, for [merge_item_kind], [aggregate] and
    [aggregate_all]).  So a statement about a successful aggregation at some fuel is a statement about every larger fuel. *)
From WacV Require Import Str Ord Semver Names Types Checker Aggregator.
From WacV Require Import SemverProofs CheckerEq AggregatorFrame.

Definition le_r {A} (r r' : AR A) : Prop := r = AOof \/ r = r'.
Definition leM {A} (m m' : M A) : Prop := forall c, le_r (m c) (m' c).

Lemma leM_refl {A} (m : M A) : leM m m. Proof. intros c. now right. Qed.
Lemma leM_oof {A} (m : M A) : leM oof m. Proof. intros c. now left. Qed.
Lemma leM_bind {A B} (m m' : M A) (k k' : A -> M B) : leM m m' -> (forall x, leM (k x) (k' x)) -> leM (bindM m k) (bindM m' k').
Proof.
  intros Hm Hk c. unfold bindM. destruct (Hm c) as [E|E].
  - rewrite E. now left.
  - rewrite <- E. destruct (m c) as [[x c']| | |]; [apply Hk | now right | now right | now left].
Qed.
Lemma leM_mapM {A B} (f f' : A -> M B) l : (forall x, In x l -> leM (f x) (f' x)) -> leM (mapM f l) (mapM f' l).
Proof.
  induction l as [|a l IH]; intros H; cbn [mapM]; [apply leM_refl|].
  apply leM_bind; [apply H; now left|]. intros y. apply leM_bind; [apply IH; intros; apply H; now right|]. intros ys. apply leM_refl.
Qed.
Lemma leM_forM {A} (f f' : A -> M unit) l : (forall x, In x l -> leM (f x) (f' x)) -> leM (forM f l) (forM f' l).
Proof.
  induction l as [|a l IH]; intros H; cbn [forM]; [apply leM_refl|].
  apply leM_bind; [apply H; now left|]. intros _. apply IH. intros; apply H; now right.
Qed.
Lemma leM_optM {A B} (f f' : A -> M B) o : (forall x, o = Some x -> leM (f x) (f' x)) -> leM (optM f o) (optM f' o).
Proof.
  destruct o as [a|]; intros H; cbn [optM]; [|apply leM_refl]. apply leM_bind; [now apply H|]. intros y. apply leM_refl.
Qed.

Ltac mono_step :=
  match goal with
  | |- leM ?m ?m => apply leM_refl
  | |- leM oof _ => apply leM_oof
  | |- leM (bindM _ _) (bindM _ _) => apply leM_bind; [|intro]
  | |- leM (mapM _ ?l) (mapM _ ?l) => apply leM_mapM; intros ? ?
  | |- leM (forM _ ?l) (forM _ ?l) => apply leM_forM; intros ? ?
  | |- leM (optM _ ?o) (optM _ ?o) => apply leM_optM; intros ? ?
  | |- leM (match ?e with _ => _ end) (match ?e with _ => _ end) => destruct e
  | |- leM (let '(_, _) := ?e in _) (let '(_, _) := ?e in _) => destruct e
  | |- leM (if ?e then _ else _) (if ?e then _ else _) => destruct e
  | |- leM _ _ => solve [auto]
  end.

Section Mono.
  Variable ord : list (str * id) -> list (str * id).
  Variable cf : nat.

  (** unfolding equations of the three functions that call themselves *)
  Lemma remap_resource_S f t r :
    remap_resource ord cf (S f) t r =
    (hit <-- remapped_get (TResource r) ;;;
     match hit with
     | Some (TResource y) => ret y
     | Some _ => panic
     | None =>
       x <-- idxM (get_res t r) ;;;
       al <-- optM (fun a : option id * id =>
                      let '(owner, source) := a in
                      o' <-- optM (remap_interface ord cf f t) owner ;;;
                      match o' with
                      | Some ow =>
                        i <-- agg_if ow ;;;
                        name <-- idxM (i_id i) ;;;
                        c <-- get ;;;
                        if has_key name (c_imports c) then ret tt
                        else fun c => AOk (tt, with_imports c (ins name (KInstance ow) (c_imports c)))
                      | None => ret tt
                      end ;;;
                      s' <-- remap_resource ord cf f t source ;;;
                      ret (o', s')) (res_alias x) ;;;
       y <-- add_res (mkres (res_name x) al) ;;;
       remapped_new (TResource r) (TResource y) ;;;
       ret y
     end).
  Proof. reflexivity. Qed.

  Lemma remap_interface_S f t i :
    remap_interface ord cf (S f) t i =
    (x <-- idxM (get_if t i) ;;;
     hit <-- match i_id x with
             | Some name => e <-- lookup_iface ord name ;;; ret (match e with Some e => Some (name, e) | None => None end)
             | None => ret None
             end ;;;
     match hit with
     | Some (name, existing) =>
       merge_interface ord cf f existing t i ;;;
       iface_set name existing ;;;
       ret existing
     | None =>
       r <-- match i_id x with
             | Some _ => remapped_get (TInterface i)
             | None => ret None
             end ;;;
       match r with
       | Some (TInterface y) => ret y
       | Some _ => panic
       | None =>
         us <-- mapM (fun nu : str * used =>
                        ui <-- idxM (get_if t (fst (snd nu))) ;;;
                        match i_id ui with
                        | None => fail AEUsedNoIdRemap
                        | Some _ => y <-- remap_interface ord cf f t (fst (snd nu)) ;;; ret (fst nu, (y, snd (snd nu)))
                        end) (i_uses x) ;;;
         es <-- mapM (fun nk : str * kind => k' <-- remap_item_kind ord cf f t (snd nk) ;;; ret (fst nk, k')) (i_exports x) ;;;
         y <-- add_if (mkif (i_id x) us es) ;;;
         match i_id x with
         | Some name => remapped_new (TInterface i) (TInterface y) ;;; iface_new name y
         | None => ret tt
         end ;;;
         ret y
       end
     end).
  Proof. reflexivity. Qed.

  Definition mbody (f : nat) (existing : id) (t : types) (nk : str * kind) : M unit :=
    let '(name, sk) := nk in
    ex <-- agg_if existing ;;;
    match assoc name (i_exports ex) with
    | Some tk =>
      match nested_pair tk sk existing with
      | Some (target_id, source_id) =>
        merge_interface ord cf f target_id t source_id ;;; remapped_set (ty_of sk) (ty_of tk)
      | None =>
        r1 <-- sub_fa cf t sk tk ;;;
        if is_ok r1 then
          if replaceable (ty_of sk) (ty_of tk) then remapped_set (ty_of sk) (ty_of tk) else ret tt
        else r2 <-- sub_af cf t tk sk ;;; must AEMismatchExport r2 ;;;
             (k' <-- remap_item_kind ord cf f t sk ;;; upd_if existing (if_set_export name k'))
      end
    | None => k' <-- remap_item_kind ord cf f t sk ;;; upd_if existing (if_set_export name k')
    end.
  Lemma merge_interface_S' f existing t i :
    merge_interface ord cf (S f) existing t i =
    (merge_interface_used_types ord cf f existing t i ;;;
     src <-- idxM (get_if t i) ;;; forM (mbody f existing t) (i_exports src)).
  Proof. reflexivity. Qed.

  Definition mono_stmt (f : nat) : Prop :=
    (forall t k, leM (remap_item_kind ord cf f t k) (remap_item_kind ord cf (S f) t k)) /\
    (forall t x, leM (remap_type ord cf f t x) (remap_type ord cf (S f) t x)) /\
    (forall t r, leM (remap_resource ord cf f t r) (remap_resource ord cf (S f) t r)) /\
    (forall t i, leM (remap_func_type ord cf f t i) (remap_func_type ord cf (S f) t i)) /\
    (forall t v, leM (remap_value_type ord cf f t v) (remap_value_type ord cf (S f) t v)) /\
    (forall t d, leM (remap_defined_type ord cf f t d) (remap_defined_type ord cf (S f) t d)) /\
    (forall t i, leM (remap_interface ord cf f t i) (remap_interface ord cf (S f) t i)) /\
    (forall t w, leM (remap_world ord cf f t w) (remap_world ord cf (S f) t w)) /\
    (forall e t i, leM (merge_interface ord cf f e t i) (merge_interface ord cf (S f) e t i)) /\
    (forall e t i, leM (merge_interface_used_types ord cf f e t i) (merge_interface_used_types ord cf (S f) e t i)).

  Lemma mono_all : forall f, mono_stmt f.
  Proof.
    induction f as [|f IH].
    - repeat split; intros; apply leM_oof.
    - destruct IH as [Hk [Hty [Hr [Hf [Hv [Hd [Hi [Hw [Hm Hu]]]]]]]]].
      repeat split; intros.
      + cbn [remap_item_kind]. repeat mono_step.
      + cbn [remap_type]. repeat mono_step.
      + rewrite (remap_resource_S (S f)), (remap_resource_S f). repeat mono_step.
      + cbn [remap_func_type]. repeat mono_step.
      + cbn [remap_value_type]. repeat mono_step.
      + cbn [remap_defined_type]. repeat mono_step.
      + rewrite (remap_interface_S (S f)), (remap_interface_S f). repeat mono_step.
      + cbn [remap_world]. repeat mono_step.
      + rewrite (merge_interface_S' (S f)), (merge_interface_S' f). unfold mbody. repeat mono_step.
      + cbn [merge_interface_used_types]. repeat mono_step.
  Qed.

  Lemma leM_merge_item_kind f e t k : leM (merge_item_kind ord cf f e t k) (merge_item_kind ord cf (S f) e t k).
  Proof.
    destruct (mono_all f) as [Hk [_ [_ [_ [_ [_ [Hi [_ [Hm _]]]]]]]]].
    unfold merge_item_kind, merge_type, merge_world, merge_world_used_types.
    repeat mono_step.
  Qed.

  Lemma le_r_bind {A B} (r r' : AR A) (K : A -> AR B) res :
    le_r r r' ->
    match r with AOk x => K x | AErr e => AErr e | APanic => APanic | AOof => AOof end = res -> res <> AOof ->
    match r' with AOk x => K x | AErr e => AErr e | APanic => APanic | AOof => AOof end = res.
  Proof. intros [->|<-] E N; [now elim N | exact E]. Qed.

  Theorem aggregate_fuel_S f a s name t k r :
    aggregate ord cf f a s name t k = r -> r <> AOof -> aggregate ord cf (S f) a s name t k = r.
  Proof.
    unfold aggregate. destruct (assoc name (a_imports a)) as [existing|].
    - apply le_r_bind, leM_merge_item_kind.
    - destruct (find_compat name (a_imports a)) as [[en ek]|].
      + apply le_r_bind, leM_merge_item_kind.
      + apply le_r_bind, (proj1 (mono_all f)).
  Qed.

  Theorem aggregate_fuel_mono f f' a s name t k r :
    (f <= f')%nat -> aggregate ord cf f a s name t k = r -> r <> AOof -> aggregate ord cf f' a s name t k = r.
  Proof. induction 1 as [|f' _ IH]; auto. intros H N. apply aggregate_fuel_S; auto. Qed.

  (** a whole history: either the same final state, or the same first failure *)
  Theorem aggregate_all_fuel_mono f f' : (f <= f')%nat -> forall l a s pos res,
    aggregate_all ord cf f a s l pos = res -> (forall p, res <> inr (p, AOof)) -> aggregate_all ord cf f' a s l pos = res.
  Proof.
    intros Lf. induction l as [|[name [t k]] l IH]; intros a s pos res H N; cbn [aggregate_all] in *; auto.
    destruct (aggregate ord cf f a s name t k) as [[a1 s1]| | |] eqn:E.
    - rewrite (aggregate_fuel_mono f f' a s name t k _ Lf E); [|discriminate]. now apply IH.
    - rewrite (aggregate_fuel_mono f f' a s name t k _ Lf E); [exact H|discriminate].
    - rewrite (aggregate_fuel_mono f f' a s name t k _ Lf E); [exact H|discriminate].
    - exfalso. apply (N pos). now symmetry.
  Qed.
End Mono.
