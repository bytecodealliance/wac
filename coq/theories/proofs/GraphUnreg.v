(** C06: [unregister] preserves the invariant, never reaches a bookkeeping panic and succeeds on a live
    package identifier. (What it removes and what it keeps: [GraphFrame.unregister_frame].) *)
From Coq Require Import List Arith Bool NArith Lia.
From WacV Require Import Graph GraphInv GraphPrims GraphSteps GraphRemove.
Import ListNotations.

Lemma pkg_eqb_true a id : pkg_eqb a (Some id) = true <-> a = Some id.
Proof.
  destruct a as [[i g]|], id as [j h]; cbn; [|split; discriminate].
  rewrite andb_true_iff, !Nat.eqb_eq. split; [intros [-> ->]|intros [= -> ->]]; auto.
Qed.

Definition nw_g (f : node -> bool) (p : nat * option node) : list nat :=
  match snd p with Some nd => if f nd then [fst p] else [] | None => [] end.

Lemma nw_in f l a n :
  In n (flat_map (nw_g f) (combine (seq a (length l)) l)) <->
  a <= n /\ exists nd, nth_error l (n - a) = Some (Some nd) /\ f nd = true.
Proof.
  rewrite in_flat_map. split.
  - intros [[i x] [Hi Hn]]. apply combine_seq_In in Hi as [L Hi]. unfold nw_g in Hn. cbn [fst snd] in Hn.
    destruct x as [nd|]; [|destruct Hn]. destruct (f nd) eqn:Fn; [|destruct Hn]. destruct Hn as [<-|[]]. eauto.
  - intros [L [nd [H1 H2]]]. exists (n, Some nd). split; [now apply combine_seq_In|]. unfold nw_g. cbn. rewrite H2. now left.
Qed.

Lemma nw_nodup f l : forall a, NoDup (flat_map (nw_g f) (combine (seq a (length l)) l)).
Proof.
  induction l as [|x l IH]; intros a; cbn [length seq combine flat_map]; [constructor|].
  unfold nw_g at 1. cbn [fst snd]. destruct x as [nd|]; [destruct (f nd)|]; cbn [app]; auto.
  constructor; auto. intros H. apply nw_in in H as [H _]. lia.
Qed.

Lemma nodes_where_In s f n : In n (nodes_where s f) <-> exists nd, getn (nodes s) n = Some nd /\ f nd = true.
Proof.
  unfold nodes_where. change (In n (flat_map (nw_g f) (combine (seq 0 (length (nodes s))) (nodes s))) <->
                              exists nd, getn (nodes s) n = Some nd /\ f nd = true).
  rewrite nw_in, Nat.sub_0_r. unfold getn. split.
  - intros [_ [nd [H1 H2]]]. exists nd. now rewrite H1.
  - intros [nd [H1 H2]]. split; [lia|]. exists nd. destruct (nth_error (nodes s) n) as [[x|]|]; try discriminate.
    injection H1 as ->. auto.
Qed.

Lemma nodes_where_NoDup s f : NoDup (nodes_where s f).
Proof. unfold nodes_where. apply (nw_nodup f (nodes s) 0). Qed.

Definition mem (l : list nat) (m : nat) : bool := existsb (Nat.eqb m) l.

Lemma mem_In l m : mem l m = true <-> In m l.
Proof. apply existsb_eqb_In. Qed.

Lemma drop_all_nodes l : forall s m,
  getn (nodes (fold_left drop_node l s)) m = if mem l m then None else getn (nodes s) m.
Proof.
  induction l as [|a r IH]; intros s m; cbn [fold_left]; [reflexivity|].
  rewrite IH. cbn [drop_node nodes]. rewrite getn_set_none. unfold mem. cbn [existsb].
  destruct (m =? a); cbn; destruct (existsb _ r); auto.
Qed.

Lemma drop_all_edges l : forall s,
  edges (fold_left drop_node l s) = filter (fun e => negb (mem l (esrc e)) && negb (mem l (etgt e))) (edges s).
Proof.
  induction l as [|a r IH]; intros s; cbn [fold_left].
  - symmetry. apply filter_keep_all. reflexivity.
  - rewrite IH. cbn [drop_node edges]. rewrite filter_filter. apply filter_ext. intros e. unfold mem. cbn [existsb].
    destruct (esrc e =? a), (etgt e =? a), (existsb _ r), (existsb _ r); reflexivity.
Qed.

Lemma drop_all_rest l : forall s,
  imports (fold_left drop_node l s) = imports s /\ exports (fold_left drop_node l s) = exports s /\
  defined (fold_left drop_node l s) = defined s /\ pkgs (fold_left drop_node l s) = pkgs s /\
  free_pkgs (fold_left drop_node l s) = free_pkgs s.
Proof. induction l as [|a r IH]; intros s; cbn [fold_left]; [auto|]. apply (IH (drop_node s a)). Qed.

Lemma drop_all_free l : forall s,
  NoDup l -> (forall m, In m l -> liveb (nodes s) m = true) -> FreeOK (nodes s) (free_nodes s) ->
  FreeOK (nodes (fold_left drop_node l s)) (free_nodes (fold_left drop_node l s)).
Proof.
  induction l as [|a r IH]; intros s ND L F; cbn [fold_left]; auto.
  inversion ND as [|? ? Hn ND']; subst. apply IH; auto.
  - intros m Hm. cbn [drop_node nodes]. unfold liveb. rewrite getn_set_none.
    destruct (Nat.eqb_spec m a) as [->|Hne]; [contradiction|]. apply (L m). now right.
  - cbn [drop_node nodes free_nodes]. specialize (L a (or_introl eq_refl)). apply liveb_true in L as [nd L].
    eapply FreeOK_drop; eauto.
Qed.

Lemma victims_mem s s2 id l :
  (forall m, orel (cleared l m) (getn (nodes s) m) (getn (nodes s2) m)) ->
  forall m, mem (nodes_where s2 (fun nd => pkg_eqb (npkg nd) (Some id))) m = node_pkg_is s id m.
Proof.
  intros Hc m. apply eq_true_iff_eq. rewrite mem_In, nodes_where_In. unfold node_pkg_is. rewrite get_node_getn.
  specialize (Hc m). destruct (getn (nodes s) m) as [a|], (getn (nodes s2) m) as [b|]; cbn in Hc; try contradiction.
  - destruct Hc as (_ & C1 & _). rewrite <- C1. split; [intros [x [[= <-] H]]; auto|eauto].
  - split; [intros [x [H _]]; discriminate|discriminate].
Qed.

Lemma PkgOK_unregister u ns pk fp i g sl :
  PkgOK u ns pk fp -> nth_error pk i = Some sl -> ps_gen sl = g -> ps_pkg sl <> None ->
  (forall n nd, getn ns n = Some nd -> npkg nd <> Some (i, g)) ->
  PkgOK u ns (set_nth pk i {| ps_pkg := None; ps_gen := S g |}) (i :: fp).
Proof.
  intros P Sl G Pp Hno. pose proof P as [A B Fr N].
  assert (Li : i < length pk) by (apply nth_error_Some; congruence).
  eapply PkgOK_pkgs; eauto.
  - intros n nd id Gn K. destruct (A n nd id Gn K) as [q Q]. destruct (Nat.eq_dec (fst id) i) as [Ei|Ei].
    + exfalso. unfold get_pkg_l in Q. rewrite Ei, Sl in Q. destruct (Nat.eqb_spec (ps_gen sl) (snd id)) as [Eg|Eg]; [|discriminate].
      apply (Hno n nd Gn). rewrite K. destruct id as [a b]. cbn in *. subst. reflexivity.
    + now apply get_pkg_l_set_other.
  - intros j [<-|Hj].
    + eexists. rewrite nth_error_set_nth, Nat.eqb_refl. apply Nat.ltb_lt in Li. rewrite Li. split; reflexivity.
    + destruct (Fr j Hj) as [sl' [Sl' Nn]]. rewrite nth_error_set_nth.
      destruct (Nat.eqb_spec j i) as [->|Hne]; [|eauto]. apply Nat.ltb_lt in Li. rewrite Li. eexists. split; reflexivity.
  - constructor; auto. intros Hi. destruct (Fr i Hi) as [sl' [Sl' Nn]]. congruence.
Qed.

Lemma unregister_outcome u s id :
  InvC u s -> snd (unregister s id) = OUnit \/ unregister s id = (s, OPanic PInvalidPackageId) /\ get_pkg s id = None.
Proof.
  intros HI. unfold unregister, get_pkg. destruct (nth_error (pkgs s) (fst id)) as [sl|]; [|auto].
  destruct (ps_gen sl =? snd id); cbn [negb]; [|auto].
  assert (Hlive : forallb (fun p => live s (snd p)) (exports s) && forallb (fun p => live s (snd p)) (defined s)
                  && forallb (fun p => live s (snd p)) (imports s) = true).
  { destruct (maps_live u s HI) as (Mx & Mi & Md). rewrite !andb_true_iff. repeat split; apply forallb_forall; auto. }
  rewrite Hlive. cbn [negb].
  set (q := fun e => node_pkg_is s id (esrc e) && negb (node_pkg_is s id (etgt e))).
  change (flat_map _ (edges s)) with (arg_pairs q (edges s)). set (s1 := with_maps s _ _ _).
  destruct (remove_satisfied_all_ok (arg_pairs q (edges s)) s1) as [s2 ->].
  { apply arg_pairs_NoDup. intros t i. eapply count_le_1, HI. }
  { intros p Hp. eapply (arg_pairs_sat_has (nodes s)); [apply HI|exact Hp]. }
  destruct (ps_pkg sl); auto.
Qed.

(** what a successful call does: the nodes of the package are purged ([s3]; the indexes cleared are those of
    the arguments supplied across the package boundary), then the slot is freed *)
Lemma unregister_unit s id s' :
  unregister s id = (s', OUnit) ->
  let npi := node_pkg_is s id in
  exists sl s3,
    nth_error (pkgs s) (fst id) = Some sl /\ ps_gen sl = snd id /\ ps_pkg sl <> None /\
    Purged npi (arg_pairs (fun e => npi (esrc e) && negb (npi (etgt e))) (edges s)) s s3 /\
    pkgs s3 = pkgs s /\ free_pkgs s3 = free_pkgs s /\
    (FreeOK (nodes s) (free_nodes s) -> FreeOK (nodes s3) (free_nodes s3)) /\
    s' = with_pkgs s3 (set_nth (pkgs s) (fst id) {| ps_pkg := None; ps_gen := S (ps_gen sl) |}) (fst id :: free_pkgs s).
Proof.
  unfold unregister. destruct (nth_error (pkgs s) (fst id)) as [sl|]; [|discriminate].
  destruct (Nat.eqb_spec (ps_gen sl) (snd id)) as [Gen|_]; cbn [negb]; [|discriminate]. destruct (negb _); [discriminate|].
  destruct (remove_satisfied_all _ _) as [s2|] eqn:R; [|discriminate].
  destruct (ps_pkg sl) eqn:Pp; [|discriminate]. intros [= <-].
  exists sl, (fold_left drop_node (nodes_where s2 (fun nd => pkg_eqb (npkg nd) (Some id))) s2).
  apply remove_satisfied_all_spec in R as (Hc & L & R1 & R2 & R3 & R4 & R5 & R6 & R7).
  cbn [with_maps nodes free_nodes edges imports exports defined pkgs free_pkgs] in *.
  pose proof (victims_mem s s2 id _ Hc) as Hd. set (victims := nodes_where s2 _) in *.
  destruct (drop_all_rest victims s2) as (S1 & S2 & S3 & S4 & S5).
  assert (Hkeep : forall {A} (m : list (A * nat)) x,
             In x (filter (fun p => negb (node_pkg_is s id (snd p))) m) <-> In x m /\ node_pkg_is s id (snd x) = false).
  { intros A m x. rewrite filter_In, negb_true_iff. reflexivity. }
  rewrite S4, S5, R6, R7, Pp.
  split; [reflexivity|]. split; [exact Gen|]. split; [discriminate|]. split; [|split; [reflexivity|split; [reflexivity|split; [|reflexivity]]]].
  - constructor; rewrite ?S1, ?S2, ?S3, ?R3, ?R4, ?R5; auto using NoDup_map_filter.
    + intros m. rewrite drop_all_nodes, Hd. destruct (node_pkg_is s id m); [reflexivity|apply Hc].
    + rewrite drop_all_edges, R2. apply filter_ext. intros e. now rewrite !Hd.
  - intros F. apply drop_all_free.
    + apply nodes_where_NoDup.
    + intros m Hm. apply nodes_where_In in Hm as [nd [G _]]. apply liveb_true; eauto.
    + rewrite R1. eapply FreeOK_ext; eauto. intros m Hm. specialize (Hc m). rewrite Hm in Hc.
      destruct (getn (nodes s2) m); [destruct Hc|auto].
Qed.

Lemma unregister_cases s id : fst (unregister s id) = s \/ unregister s id = (fst (unregister s id), OUnit).
Proof.
  unfold unregister. destruct (nth_error (pkgs s) (fst id)) as [sl|]; [|now left].
  destruct (negb (ps_gen sl =? snd id)); [now left|]. destruct (negb _); [now left|].
  destruct (remove_satisfied_all _ _); [|now left]. destruct (ps_pkg sl); [now right|now left].
Qed.

Lemma unregister_inv u s id : InvC u s -> InvC u (fst (unregister s id)).
Proof.
  intros HI. destruct (unregister_cases s id) as [->|R]; [exact HI|].
  destruct (unregister_unit s id _ R) as (sl & s3 & Sl & Gen & Pp & Pu & Ep & Ef & HF & ->).
  destruct (Purged_inv u _ _ _ s s3 HI Pu eq_refl) as [F3 E3 X3 I3 D3 P3]; auto.
  { intros e _ T. rewrite T. apply andb_true_r. }
  { apply HF, HI. }
  constructor; auto. cbn [with_pkgs nodes pkgs free_pkgs]. rewrite Ep, Ef in P3. eapply PkgOK_unregister; eauto.
  intros n nd G K. pose proof (pu_nodes _ _ _ _ Pu n) as H. destruct (node_pkg_is s id n) eqn:Dn; [congruence|].
  rewrite G in H. destruct (getn (nodes s) n) as [a|] eqn:Ga; [|destruct H].
  destruct H as (_ & C & _). unfold node_pkg_is in Dn. rewrite get_node_getn, Ga, <- C, K, Gen in Dn.
  destruct id as [i g]. cbn in Dn. now rewrite !Nat.eqb_refl in Dn.
Qed.

Lemma unregister_panic u s id : InvC u s -> explained u s (Unregister id) (snd (unregister s id)).
Proof.
  intros H p E. destruct (unregister_outcome u s id H) as [Ok|[R G]]; [congruence|].
  rewrite R in E. injection E as <-. split; [reflexivity|]. cbn. congruence.
Qed.
