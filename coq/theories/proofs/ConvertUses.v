(** [use_synthesis_spec] (here [uses_replay]): the [uses] fields written by the conversion are exactly what the first-owner rule
    ([ConvertSpec.replay]) computes from the type items in the order in which the conversion meets them (the ghost log
    [cs_log]: one entry per successful [use_or_own] call, oldest first), and the converter's [owners] table is the
    rule's origin table.  Corollaries: an entry never points to the interface it is in, and it always names an item
    that was ORIGINAL (first owner) in the interface it points to. *)
From WacV Require Import Str StrFacts Types CheckerEq Convert ConvertSpec ConvertProofs ConvertFrame ConvertCache.
Set Warnings "-unused-intro-pattern".

Definition usite_of (x : site) : usite := (st_owner x, st_name x, st_rf x, st_cr x).

Lemma replay_app fuel g a : forall b st,
  replay fuel g (a ++ b) st = match replay fuel g a st with Some st' => replay fuel g b st' | None => None end.
Proof.
  induction a as [|x a IH]; intros b st; cbn [app replay]; [reflexivity|].
  destruct (site_step fuel g st x) as [st'|]; [apply IH | reflexivity].
Qed.
Lemma replay_snoc fuel g a x st st' :
  replay fuel g a st = Some st' -> replay fuel g (a ++ [x]) st = site_step fuel g st' x.
Proof. intro H. rewrite replay_app, H. cbn [replay]. destruct (site_step fuel g st' x); reflexivity. Qed.

Lemma owner_eqb_eq a b : owner_eqb a b = true <-> a = b.
Proof.
  destruct a as [x|x], b as [y|y]; cbn [owner_eqb]; try (split; [discriminate | intro H; discriminate]).
  - rewrite ideqb_eq. split; [now intros -> | now intros [= ->]].
  - rewrite ideqb_eq. split; [now intros -> | now intros [= ->]].
Qed.
Lemma owner_eqb_refl a : owner_eqb a a = true.
Proof. now apply owner_eqb_eq. Qed.
Lemma owner_eqb_neq a b : owner_eqb a b = false <-> a <> b.
Proof.
  split.
  - intros H E. apply owner_eqb_eq in E. congruence.
  - intro H. destruct (owner_eqb a b) eqn:E; [apply owner_eqb_eq in E; contradiction | reflexivity].
Qed.

Lemma uses_for_app o a b :
  uses_for o (a ++ b) =
  fold_left (fun acc p => if owner_eqb o (fst p) then imap_insert (fst (snd p)) (snd (snd p)) acc else acc) b (uses_for o a).
Proof. unfold uses_for. apply fold_left_app. Qed.
Lemma fold_uses_absent o (l : list (owner * (str * used))) : forall acc : list (str * used), (forall p, In p l -> fst p <> o) ->
  fold_left (fun acc p => if owner_eqb o (fst p) then imap_insert (fst (snd p)) (snd (snd p)) acc else acc) l acc = acc.
Proof.
  induction l as [|p l IH]; intros acc H; cbn [fold_left]; [reflexivity|].
  assert (E : owner_eqb o (fst p) = false).
  { apply owner_eqb_neq. intro X. apply (H p (or_introl eq_refl)). now symmetry. }
  rewrite E. apply IH. intros q Hq. apply H. now right.
Qed.
Lemma uses_for_absent o l : (forall p, In p l -> fst p <> o) -> uses_for o l = [].
Proof. apply fold_uses_absent. Qed.

Definition slot_uses (t : types) (o : owner) : option (list (str * used)) :=
  match o with
  | OwIface i => option_map i_uses (get_if t i)
  | OwWorld w => option_map w_uses (get_world t w)
  end.

(** existing slots keep their [uses]; a new slot starts without *)
Definition uses_frame (t t' : types) : Prop :=
  forall o, slot_uses t' o = slot_uses t o \/ (slot_uses t o = None /\ slot_uses t' o = Some []).
Lemma uses_frame_refl t : uses_frame t t.
Proof. intro o. now left. Qed.
Lemma uses_frame_trans t1 t2 t3 : uses_frame t1 t2 -> uses_frame t2 t3 -> uses_frame t1 t3.
Proof.
  intros A B o. destruct (A o) as [A1|[A1 A2]], (B o) as [B1|[B1 B2]].
  - left. congruence.
  - right. split; congruence.
  - right. split; congruence.
  - congruence.
Qed.
(** a change that leaves the interface and world arenas alone *)
Lemma uses_frame_same t t' :
  t_tag t' = t_tag t -> t_interfaces t' = t_interfaces t -> t_worlds t' = t_worlds t -> uses_frame t t'.
Proof. intros H1 H2 H3 o. left. destruct o; cbn [slot_uses]; unfold get_if, get_world; now rewrite H1, ?H2, ?H3. Qed.

Lemma lookup_snoc_old {A} tag (l : list A) x i y : lookup tag l i = Some y -> lookup tag (l ++ [x]) i = Some y.
Proof. intro H. apply lookup_some in H as [H1 H2]. apply lookup_intro; [exact H1 | now apply nth_error_app_some]. Qed.
Lemma lookup_snoc_inv {A} tag (l : list A) x i y :
  lookup tag (l ++ [x]) i = Some y -> lookup tag l i = Some y \/ (lookup tag l i = None /\ y = x).
Proof.
  intro H. apply lookup_some in H as [H1 H2]. destruct (Nat.lt_ge_cases (id_idx i) (length l)) as [Hl|Hl].
  - left. rewrite nth_error_app1 in H2 by exact Hl. now apply lookup_intro.
  - right. rewrite nth_error_app2 in H2 by exact Hl. split.
    + unfold lookup. destruct (id_tag i =? tag); [|reflexivity]. now apply nth_error_None.
    + destruct (id_idx i - length l)%nat as [|k]; cbn in H2; [congruence | now destruct k].
Qed.

Lemma uses_frame_add_if t d : i_uses d = [] -> uses_frame t (snd (add_if t d)).
Proof.
  intros Hd o. destruct o as [i|w]; cbn [slot_uses add_if snd]; unfold get_if, get_world; cbn [t_tag t_interfaces t_worlds]; [|now left].
  destruct (lookup (t_tag t) (t_interfaces t ++ [d]) i) as [y|] eqn:E.
  - apply lookup_snoc_inv in E as [E|[E ->]]; [left; now rewrite E | right; rewrite E; cbn; now rewrite Hd].
  - left. destruct (lookup (t_tag t) (t_interfaces t) i) as [y|] eqn:E'; [|reflexivity].
    apply (lookup_snoc_old _ _ d) in E'. congruence.
Qed.
Lemma uses_frame_add_world t d : w_uses d = [] -> uses_frame t (snd (add_world t d)).
Proof.
  intros Hd o. destruct o as [i|w]; cbn [slot_uses add_world snd]; unfold get_if, get_world; cbn [t_tag t_interfaces t_worlds]; [now left|].
  destruct (lookup (t_tag t) (t_worlds t ++ [d]) w) as [y|] eqn:E.
  - apply lookup_snoc_inv in E as [E|[E ->]]; [left; now rewrite E | right; rewrite E; cbn; now rewrite Hd].
  - left. destruct (lookup (t_tag t) (t_worlds t) w) as [y|] eqn:E'; [|reflexivity].
    apply (lookup_snoc_old _ _ d) in E'. congruence.
Qed.

Lemma lookup_set_nth {A} tag (l : list A) i j x y :
  nth_error l (id_idx i) = Some y ->
  lookup tag (set_nth (id_idx i) x l) j =
  if Nat.eqb (id_idx i) (id_idx j) then (if id_tag j =? tag then Some x else None) else lookup tag l j.
Proof.
  intro H. unfold lookup. destruct (id_tag j =? tag); [|now destruct (Nat.eqb _ _)].
  destruct (Nat.eqb (id_idx i) (id_idx j)) eqn:E.
  - apply Nat.eqb_eq in E. rewrite <- E. eapply nth_error_set_nth_eq. exact H.
  - apply Nat.eqb_neq in E. now apply nth_error_set_nth_neq.
Qed.

(** updating a slot: its [uses] become [f]'s, all others stay *)
Lemma slot_uses_upd_if t me f t' x :
  upd_if t me f = Some t' -> get_if t me = Some x ->
  forall o, slot_uses t' o = if owner_eqb o (OwIface me) then Some (i_uses (f x)) else slot_uses t o.
Proof.
  unfold upd_if. intros H E. rewrite E in H. injection H as <-. apply lookup_some in E as [E1 E2].
  intros [i|w]; cbn [slot_uses owner_eqb]; unfold get_if, get_world; cbn [t_tag t_interfaces t_worlds]; [|reflexivity].
  rewrite (lookup_set_nth _ _ me i (f x) x E2). unfold id_eqb.
  destruct (Nat.eqb (id_idx me) (id_idx i)) eqn:En.
  - rewrite (Nat.eqb_sym (id_idx i)), En, andb_true_r. rewrite E1.
    destruct (id_tag i =? t_tag t) eqn:Et; [reflexivity|]. unfold lookup. now rewrite Et.
  - rewrite (Nat.eqb_sym (id_idx i)), En, andb_false_r. reflexivity.
Qed.
Lemma slot_uses_upd_world t me f t' x :
  upd_world t me f = Some t' -> get_world t me = Some x ->
  forall o, slot_uses t' o = if owner_eqb o (OwWorld me) then Some (w_uses (f x)) else slot_uses t o.
Proof.
  unfold upd_world. intros H E. rewrite E in H. injection H as <-. apply lookup_some in E as [E1 E2].
  intros [i|w]; cbn [slot_uses owner_eqb]; unfold get_if, get_world; cbn [t_tag t_interfaces t_worlds]; [reflexivity|].
  rewrite (lookup_set_nth _ _ me w (f x) x E2). unfold id_eqb.
  destruct (Nat.eqb (id_idx me) (id_idx w)) eqn:En.
  - rewrite (Nat.eqb_sym (id_idx w)), En, andb_true_r. rewrite E1.
    destruct (id_tag w =? t_tag t) eqn:Et; [reflexivity|]. unfold lookup. now rewrite Et.
  - rewrite (Nat.eqb_sym (id_idx w)), En, andb_false_r. reflexivity.
Qed.
(** an update that keeps the [uses] of the slot *)
Lemma uses_frame_upd_if t me f t' : upd_if t me f = Some t' -> (forall x, i_uses (f x) = i_uses x) -> uses_frame t t'.
Proof.
  intros H Hf o. left. destruct (get_if t me) as [x|] eqn:E; [|unfold upd_if in H; rewrite E in H; discriminate].
  rewrite (slot_uses_upd_if _ _ _ _ _ H E). destruct (owner_eqb o (OwIface me)) eqn:Eo; [|reflexivity].
  apply owner_eqb_eq in Eo. subst. cbn [slot_uses]. now rewrite E, Hf.
Qed.
Lemma uses_frame_upd_world t me f t' : upd_world t me f = Some t' -> (forall x, w_uses (f x) = w_uses x) -> uses_frame t t'.
Proof.
  intros H Hf o. left. destruct (get_world t me) as [x|] eqn:E; [|unfold upd_world in H; rewrite E in H; discriminate].
  rewrite (slot_uses_upd_world _ _ _ _ _ H E). destruct (owner_eqb o (OwWorld me)) eqn:Eo; [|reflexivity].
  apply owner_eqb_eq in Eo. subst. cbn [slot_uses]. now rewrite E, Hf.
Qed.

Section Uses.
  Variable g : vgraph.
  Variable hf : nat.

  Definition log_ok (s : cstate) : Prop :=
    exists st, replay hf g (map usite_of (cs_log s)) ust0 = Some st /\
      u_origins st = cs_owners s /\
      (forall o x, slot_uses (cs_types s) o = Some x -> x = uses_for o (u_entries st)) /\
      (forall p, In p (u_entries st) -> slot_uses (cs_types s) (fst p) <> None).

  (** owners, log untouched; slots keep their uses *)
  Definition quiet (s s' : cstate) : Prop :=
    cs_log s' = cs_log s /\ cs_owners s' = cs_owners s /\ uses_frame (cs_types s) (cs_types s').
  Lemma quiet_refl s : quiet s s.
  Proof. repeat split. apply uses_frame_refl. Qed.
  Lemma quiet_trans a b c : quiet a b -> quiet b c -> quiet a c.
  Proof. intros [A1 [A2 A3]] [B1 [B2 B3]]. repeat split; try congruence. eapply uses_frame_trans; eassumption. Qed.

  Lemma log_ok_quiet s s' : quiet s s' -> log_ok s -> log_ok s'.
  Proof.
    intros [Q1 [Q2 Q3]] [st [H1 [H2 [H3 H4]]]]. exists st. rewrite Q1, Q2. split; [exact H1|]. split; [exact H2|]. split.
    - intros o x Hx. destruct (Q3 o) as [E|[E1 E2]].
      + apply H3. congruence.
      + rewrite E2 in Hx. injection Hx as <-. symmetry. apply uses_for_absent. intros p Hp Ho. subst o. exact (H4 p Hp E1).
    - intros p Hp. destruct (Q3 (fst p)) as [E|[E1 E2]]; [rewrite E; now apply H4 | exfalso; exact (H4 p Hp E1)].
  Qed.

  Definition still (s s' : cstate) : Prop :=
    cs_log s' = cs_log s /\ cs_owners s' = cs_owners s /\
    t_tag (cs_types s') = t_tag (cs_types s) /\ t_interfaces (cs_types s') = t_interfaces (cs_types s) /\
    t_worlds (cs_types s') = t_worlds (cs_types s).
  Lemma still_refl s : still s s.
  Proof. repeat split. Qed.
  Lemma still_quiet s s' : still s s' -> quiet s s'.
  Proof. intros [A1 [A2 [A3 [A4 A5]]]]. repeat split; try assumption. now apply uses_frame_same. Qed.

  Lemma put_still s v e : still s (cache_put s v e).
  Proof. repeat split. Qed.
  Lemma log_ok_still s s' : still s s' -> log_ok s -> log_ok s'.
  Proof. intro H. apply log_ok_quiet, still_quiet, H. Qed.

  Definition lg_ok {R} (F : cstate -> cres (R * cstate)) : Prop := keeps log_ok (fun _ _ => True) F.

  Lemma c_module_lg v : lg_ok (c_module g v).
  Proof.
    intros s r s' L H. split; [|exact I]. revert L. apply log_ok_still.
    destruct (c_module_run _ _ _ _ _ H) as [[_ ->]|[mt [_ [_ [_ ->]]]]]; [apply still_refl | repeat split].
  Qed.
  Lemma c_resource_lg name v : lg_ok (c_resource hf g name v).
  Proof.
    intros s r s' L H. split; [|exact I]. revert L. apply log_ok_still.
    destruct (c_resource_run _ _ _ _ _ _ _ H) as [[_ ->]|[rid [rr [_ [_ [_ [[src [ownr [_ [_ ->]]]]|[_ [_ ->]]]]]]]]];
      [apply still_refl | repeat split | repeat split].
  Qed.

  Lemma use_or_own_log vn ow name rf cr s s' :
    log_ok s -> use_or_own hf g vn ow name rf cr s = COk s' -> log_ok s'.
  Proof.
    intros [st [H1 [H2 [H3 H4]]]] H. unfold use_or_own in H.
    assert (SN : replay hf g (map usite_of (cs_log s ++ [mksite vn ow name rf cr])) ust0 = site_step hf g st (ow, name, rf, cr)).
    { rewrite map_app. cbn [map usite_of st_owner st_name st_rf st_cr]. now apply replay_snoc. }
    unfold site_step in SN. rewrite H2 in SN.
    destruct (find_owner hf g (cs_owners s) rf) as [[[other orig]|]|] eqn:Ef; [| |discriminate].
    - inv_bind H as s1 Hs1. injection H as <-.
      (* [s1]: the uses of [ow] extended, or nothing *)
      assert (X : cs_owners s1 = cs_owners s /\ cs_log s1 = cs_log s /\
                  (forall o x, slot_uses (cs_types s1) o = Some x -> x = uses_for o (u_entries st ++ use_entry ow name other orig)) /\
                  (forall p, In p (u_entries st ++ use_entry ow name other orig) -> slot_uses (cs_types s1) (fst p) <> None)).
      { unfold use_entry. destruct other as [i|w].
        2:{ injection Hs1 as <-. rewrite app_nil_r. auto. }
        destruct (owner_eqb ow (OwIface i)) eqn:Eo.
        { injection Hs1 as <-. rewrite app_nil_r. auto. }
        set (u := (i, if str_eqb name orig then None else Some orig)) in *.
        assert (UF : forall o, uses_for o (u_entries st ++ [(ow, (name, u))]) =
                               if owner_eqb o ow then imap_insert name u (uses_for o (u_entries st)) else uses_for o (u_entries st)).
        { intro o. rewrite uses_for_app. cbn [fold_left fst snd]. reflexivity. }
        destruct ow as [me|me].
        - destruct (upd_if _ _ _) as [t|] eqn:Eu; [|discriminate]. injection Hs1 as <-. cbn [cs_owners cs_log cs_types with_types].
          destruct (get_if (cs_types s) me) as [x|] eqn:Ex; [|unfold upd_if in Eu; rewrite Ex in Eu; discriminate].
          pose proof (slot_uses_upd_if _ _ _ _ _ Eu Ex) as SU. cbn [i_uses] in SU.
          split; [reflexivity|]. split; [reflexivity|]. split.
          + intros o y Hy. rewrite SU in Hy. rewrite UF. destruct (owner_eqb o (OwIface me)) eqn:Eq.
            * injection Hy as <-. apply owner_eqb_eq in Eq. subst o. f_equal. apply H3. cbn [slot_uses]. now rewrite Ex.
            * now apply H3.
          + intros p Hp. rewrite SU. destruct (owner_eqb (fst p) (OwIface me)) eqn:Eq; [discriminate|].
            apply in_app_or in Hp as [Hp|[<-|[]]]; [now apply H4|]. cbn [fst] in Eq. rewrite owner_eqb_refl in Eq. discriminate.
        - destruct (upd_world _ _ _) as [t|] eqn:Eu; [|discriminate]. injection Hs1 as <-. cbn [cs_owners cs_log cs_types with_types].
          destruct (get_world (cs_types s) me) as [x|] eqn:Ex; [|unfold upd_world in Eu; rewrite Ex in Eu; discriminate].
          pose proof (slot_uses_upd_world _ _ _ _ _ Eu Ex) as SU. cbn [w_uses] in SU.
          split; [reflexivity|]. split; [reflexivity|]. split.
          + intros o y Hy. rewrite SU in Hy. rewrite UF. destruct (owner_eqb o (OwWorld me)) eqn:Eq.
            * injection Hy as <-. apply owner_eqb_eq in Eq. subst o. f_equal. apply H3. cbn [slot_uses]. now rewrite Ex.
            * now apply H3.
          + intros p Hp. rewrite SU. destruct (owner_eqb (fst p) (OwWorld me)) eqn:Eq; [discriminate|].
            apply in_app_or in Hp as [Hp|[<-|[]]]; [now apply H4|]. cbn [fst] in Eq. rewrite owner_eqb_refl in Eq. discriminate. }
      destruct X as [X1 [X2 [X3 X4]]].
      assert (RT : cs_types (remember_owner cr (other, orig) s1) = cs_types s1 /\
                   cs_log (remember_owner cr (other, orig) s1) = cs_log s1 /\
                   cs_owners (remember_owner cr (other, orig) s1) =
                   match nassoc cr (cs_owners s1) with Some _ => cs_owners s1 | None => (cr, (other, orig)) :: cs_owners s1 end)
        by (unfold remember_owner; destruct (nassoc cr (cs_owners s1)); auto).
      destruct RT as [R1 [R2 R3]].
      eexists. cbn [log_site cs_log cs_owners cs_types]. rewrite R1, R2, R3, X1, X2. split; [exact SN|].
      cbn [u_origins u_entries]. auto.
    - destruct (nassoc cr (cs_owners s)); [discriminate|]. injection H as <-.
      eexists. cbn [log_site cs_log cs_owners cs_types]. split; [exact SN|]. cbn [u_origins u_entries]. auto.
  Qed.

  Lemma reset_self_owner_still me k s s' : reset_self_owner me k s = COk s' -> still s s'.
  Proof.
    unfold reset_self_owner.
    destruct k as [[res| | | | | ]| | | | | ]; try (intro H; injection H as <-; apply still_refl).
    destruct (get_res (cs_types s) res) as [r|]; [|discriminate].
    destruct (res_alias r) as [[[o|] src]|]; try (intro H; injection H as <-; apply still_refl).
    destruct (id_eqb o me); [|intro H; injection H as <-; apply still_refl].
    unfold upd_res. destruct (get_res _ _); [|discriminate]. intro H. injection H as <-. repeat split.
  Qed.
  Lemma put_if_export_quiet me n k s s' : put_if_export me n k s = COk s' -> quiet s s'.
  Proof.
    unfold put_if_export. destruct (get_if _ _) as [x|]; [|discriminate]. destruct (assoc _ _); [discriminate|].
    destruct (upd_if _ _ _) as [t|] eqn:E; [|discriminate]. intro H. injection H as <-. repeat split.
    eapply uses_frame_upd_if; [exact E | reflexivity].
  Qed.
  Lemma put_world_import_quiet me n k s s' : put_world_import me n k s = COk s' -> quiet s s'.
  Proof.
    unfold put_world_import. destruct (get_world _ _) as [x|]; [|discriminate]. destruct (assoc _ _); [discriminate|].
    destruct (upd_world _ _ _) as [t|] eqn:E; [|discriminate]. intro H. injection H as <-. repeat split.
    eapply uses_frame_upd_world; [exact E | reflexivity].
  Qed.
  Lemma put_world_export_quiet me n k s s' : put_world_export me n k s = COk s' -> quiet s s'.
  Proof.
    unfold put_world_export. destruct (get_world _ _) as [x|]; [|discriminate]. destruct (assoc _ _); [discriminate|].
    destruct (upd_world _ _ _) as [t|] eqn:E; [|discriminate]. intro H. injection H as <-. repeat split.
    eapply uses_frame_upd_world; [exact E | reflexivity].
  Qed.

  (** only [use_or_own] writes [uses], [owners] and the log; a new slot starts without [uses] *)
  Lemma quiet_lg (F : cstate -> cres cstate) : (forall s s', F s = COk s' -> quiet s s') -> keeps1 log_ok (fun _ _ => True) F.
  Proof. intros HF s s' L H. split; [|exact I]. exact (log_ok_quiet s s' (HF s s' H) L). Qed.

  Lemma c_entity_lg fuel n e : lg_ok (c_entity hf fuel g n e).
  Proof.
    apply (c_entity_walk g hf log_ok (fun _ _ _ _ => True) (fun _ _ _ => True) (fun _ _ _ => True)); try (intros; exact I).
    - intros v s0 s dd x s1 L _ H. destruct (mk_def_run _ _ _ _ H) as [_ ->]. repeat split. revert L. apply log_ok_still. repeat split.
    - intros; split; exact I.
    - intros d nd s s1 x _ _ _ L _ _. split; [|exact I]. revert L. apply log_ok_still, put_still.
    - intros v a ps r s s2 ft f t _ _ _ L _ Ea. split; [|exact I]. revert L. apply log_ok_still.
      unfold add_func in Ea. injection Ea as <- <-. repeat split.
    - exact c_module_lg.
    - exact c_resource_lg.
    - intros v s0 vn ow nm rf cr s s' L H. split; [|exact I]. eapply use_or_own_log; eassumption.
    - intros v s0 me k. apply quiet_lg. intros s s' H. apply still_quiet. exact (reset_self_owner_still _ _ _ _ H).
    - intros v s0 x me t nm k _. apply quiet_lg. apply put_if_export_quiet.
    - intros v s0 x me t nm k _. apply quiet_lg. apply put_world_import_quiet.
    - intros v s0 x me t nm k _. apply quiet_lg. apply put_world_export_quiet.
    - intros s nm me t L Ea. revert L. apply log_ok_quiet. repeat split. cbn [with_types cs_types].
      replace t with (snd (add_if (cs_types s) (mkif (iface_id_of nm) [] []))) by now rewrite Ea. now apply uses_frame_add_if.
    - intros s nm me t L Ea. revert L. apply log_ok_quiet. repeat split. cbn [with_types cs_types].
      replace t with (snd (add_world (cs_types s) (mkworld (iface_id_of nm) [] [] []))) by now rewrite Ea. now apply uses_frame_add_world.
    - intros v ex s nm me t s1 _ _ _ _ L _. split; [|exact I]. revert L. apply log_ok_still, put_still.
    - intros v im ex s nm me t s1 _ _ _ _ L _. split; [|exact I]. revert L. apply log_ok_still, put_still.
  Qed.
  Lemma collect_lg fuel l acc s m s' : log_ok s -> collect (c_entity hf fuel g) l acc s = COk (m, s') -> log_ok s'.
  Proof.
    intros L H.
    exact (proj1 (collect_keeps log_ok (fun _ _ => True) (fun _ => I) (fun _ _ _ _ _ => I) _ l acc (fun n e _ => c_entity_lg fuel n e) s m s' L H)).
  Qed.

  (** no slot of the initial collection has [uses] (e.g. the empty collection) *)
  Definition uses_free (t : types) : Prop := forall o x, slot_uses t o = Some x -> x = [].

  Theorem uses_replay fuel t0 imports exports s :
    uses_free t0 -> conv_items hf fuel g t0 = COk (imports, exports, s) ->
    exists st, replay hf g (map usite_of (cs_log s)) ust0 = Some st /\
               u_origins st = cs_owners s /\
               forall o x, slot_uses (cs_types s) o = Some x -> x = uses_for o (u_entries st).
  Proof.
    intros Hf H. unfold conv_items in H. inv_bind H as [im s1] H1. inv_bind H as [ex s2] H2. injection H as _ _ <-.
    assert (L0 : log_ok (cs_init t0)).
    { exists ust0. cbn. repeat split; try reflexivity; [|intros p []]. intros o x Hx. exact (Hf o x Hx). }
    pose proof (collect_lg fuel _ _ _ _ _ L0 H1) as L1. pose proof (collect_lg fuel _ _ _ _ _ L1 H2) as [st [A [B [C D]]]].
    exists st. auto.
  Qed.
End Uses.

(** an origin is always the (owner, name) of an ORIGINAL item: one met when no identifier on its alias chain had an origin *)
Definition original (fuel : nat) (g : vgraph) (sites : list usite) (O : owner) (m : str) : Prop :=
  exists pre rf cr post st, sites = pre ++ (O, m, rf, cr) :: post /\
    replay fuel g pre ust0 = Some st /\ find_owner fuel g (u_origins st) rf = Some None.

Lemma find_owner_in fuel g ow : forall v x, find_owner fuel g ow v = Some (Some x) -> exists c, nassoc c ow = Some x.
Proof.
  induction fuel as [|f IH]; intros v x; [discriminate|]. cbn [find_owner].
  destruct (nassoc v ow) as [y|] eqn:E; [intro H; injection H as <-; eauto|].
  destruct (peel_of g v); [apply IH | discriminate].
Qed.

Lemma replay_facts fuel g : forall post pre st st',
  replay fuel g pre ust0 = Some st -> replay fuel g post st = Some st' ->
  (forall c O m, nassoc c (u_origins st) = Some (O, m) -> original fuel g pre O m) ->
  (forall o n i om, In (o, (n, (i, om))) (u_entries st) ->
     o <> OwIface i /\ original fuel g pre (OwIface i) (match om with Some x => x | None => n end)) ->
  (forall c O m, nassoc c (u_origins st') = Some (O, m) -> original fuel g (pre ++ post) O m) /\
  (forall o n i om, In (o, (n, (i, om))) (u_entries st') ->
     o <> OwIface i /\ original fuel g (pre ++ post) (OwIface i) (match om with Some x => x | None => n end)).
Proof.
  assert (Ext : forall a b O m, original fuel g a O m -> original fuel g (a ++ b) O m).
  { intros a b O m [p [rf [cr [q [st [E [R F]]]]]]]. exists p, rf, cr, (q ++ b), st. split; [|auto]. rewrite E, <- app_assoc. reflexivity. }
  induction post as [|[[[o n] rf] cr] post IH]; intros pre st st' Hpre H Ho He; cbn [replay] in H.
  - injection H as <-. rewrite app_nil_r. auto.
  - destruct (site_step fuel g st (o, n, rf, cr)) as [st1|] eqn:Es; [|discriminate].
    assert (Hpre1 : replay fuel g (pre ++ [(o, n, rf, cr)]) ust0 = Some st1) by (rewrite (replay_snoc _ _ _ _ _ _ Hpre); exact Es).
    change (pre ++ (o, n, rf, cr) :: post) with (pre ++ [(o, n, rf, cr)] ++ post). rewrite app_assoc.
    apply (IH _ st1 st' Hpre1 H).
    + intros c O m Hc. unfold site_step in Es.
      destruct (find_owner fuel g (u_origins st) rf) as [[[other orig]|]|] eqn:Ef; try discriminate; injection Es as <-;
        cbn [u_origins] in Hc.
      * apply find_owner_in in Ef as [c0 Hc0]. apply Ext.
        destruct (nassoc cr (u_origins st)) eqn:Ecr; [eapply Ho; exact Hc|]. cbn [nassoc] in Hc.
        destruct (Nat.eqb c cr); [injection Hc as <- <-; eapply Ho; exact Hc0 | eapply Ho; exact Hc].
      * cbn [nassoc] in Hc. destruct (Nat.eqb c cr).
        -- injection Hc as <- <-. exists pre, rf, cr, [], st. auto.
        -- apply Ext. eapply Ho. exact Hc.
    + intros o' n' i om Hin. unfold site_step in Es.
      destruct (find_owner fuel g (u_origins st) rf) as [[[other orig]|]|] eqn:Ef; try discriminate; injection Es as <-;
        cbn [u_entries] in Hin.
      * apply in_app_or in Hin as [Hin|Hin].
        -- destruct (He _ _ _ _ Hin) as [E1 E2]. split; [exact E1 | now apply Ext].
        -- unfold use_entry in Hin. destruct other as [j|w]; [|destruct Hin].
           destruct (owner_eqb o (OwIface j)) eqn:Eo; [destruct Hin|]. destruct Hin as [Hin|[]]. injection Hin as <- <- <- <-.
           split; [now apply owner_eqb_neq|]. apply Ext. apply find_owner_in in Ef as [c0 Hc0].
           destruct (str_eqb n orig) eqn:En; [apply str_eqb_eq in En; subst orig|]; eapply Ho; exact Hc0.
      * destruct (He _ _ _ _ Hin) as [E1 E2]. split; [exact E1 | now apply Ext].
Qed.

Theorem replay_entries_sound fuel g sites st :
  replay fuel g sites ust0 = Some st ->
  forall o n i om, In (o, (n, (i, om))) (u_entries st) ->
    o <> OwIface i /\ original fuel g sites (OwIface i) (match om with Some x => x | None => n end).
Proof.
  intros H. destruct (replay_facts fuel g sites [] ust0 st eq_refl H) as [_ X]; [intros ? ? ? X; discriminate | intros ? ? ? ? [] | exact X].
Qed.

(** every origin is the created identifier of a type item of the list *)
Lemma replay_origin_keys fuel g : forall sites st0 st,
  replay fuel g sites st0 = Some st ->
  forall c, nassoc c (u_origins st) <> None ->
    nassoc c (u_origins st0) <> None \/ exists o n rf, In (o, n, rf, c) sites.
Proof.
  induction sites as [|[[[o n] rf] cr] sites IH]; intros st0 st H c Hc; cbn [replay] in H; [injection H as <-; now left|].
  destruct (site_step fuel g st0 (o, n, rf, cr)) as [st1|] eqn:Es; [|discriminate].
  destruct (IH _ _ H c Hc) as [H1|[o' [n' [rf' Hin]]]]; [|right; exists o', n', rf'; now right].
  destruct (Nat.eqb c cr) eqn:E.
  - apply Nat.eqb_eq in E. subst c. right. exists o, n, rf. now left.
  - left. unfold site_step in Es. destruct (find_owner fuel g (u_origins st0) rf) as [[[other orig]|]|]; try discriminate;
      injection Es as <-; cbn [u_origins] in H1.
    + destruct (nassoc cr (u_origins st0)); [exact H1|]. cbn [nassoc] in H1. now rewrite E in H1.
    + cbn [nassoc] in H1. now rewrite E in H1.
Qed.

(** [use_or_own] panics exactly when the referenced type has no origin although the created identifier has one ... *)
Lemma dup_owner_exact hf g vn ow name rf cr s :
  use_or_own hf g vn ow name rf cr s = CPanic PDupOwner <->
  find_owner hf g (cs_owners s) rf = Some None /\ nassoc cr (cs_owners s) <> None.
Proof.
  unfold use_or_own. destruct (find_owner hf g (cs_owners s) rf) as [[[other orig]|]|].
  - split; [|intros [X _]; discriminate]. intro H. exfalso.
    destruct other as [i|w]; [|discriminate]. destruct (owner_eqb ow (OwIface i)); [discriminate|].
    destruct ow as [me|me]; [destruct (upd_if _ _ _)|destruct (upd_world _ _ _)]; discriminate.
  - destruct (nassoc cr (cs_owners s)); split; try discriminate; auto.
    + intros _. split; [reflexivity | discriminate].
    + intros [_ X]. now exfalso.
  - split; [discriminate | intros [X _]; discriminate].
Qed.

(** ... and then an EARLIER type item has the same created identifier: the situation of finding F1 *)
Theorem dup_owner_situation hf g vn ow name rf cr s :
  log_ok g hf s -> use_or_own hf g vn ow name rf cr s = CPanic PDupOwner ->
  find_owner hf g (cs_owners s) rf = Some None /\ exists x, In x (cs_log s) /\ st_cr x = cr.
Proof.
  intros [st [H1 [H2 _]]] H. apply dup_owner_exact in H as [Hf Hc]. split; [exact Hf|].
  rewrite <- H2 in Hc. destruct (replay_origin_keys _ _ _ _ _ H1 cr Hc) as [X|[o [n [rf' Hin]]]]; [now exfalso|].
  apply in_map_iff in Hin as [x [Ex Hin]]. exists x. split; [exact Hin|]. unfold usite_of in Ex. now injection Ex.
Qed.

