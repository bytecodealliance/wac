(** Facts about the specification SubSpec.v: the decision procedure decides the declarative relation;
    value types are invariant; reflexivity, transitivity; independence of the resource parameter on
    resource-free trees. *)
From WacV Require Import Str Types StrFacts ListFacts SubSpec CheckerEq.

Definition OptP {A} (P : A -> Prop) (o : option A) : Prop := match o with Some x => P x | None => True end.

(** [Forall] from a proof for every element; the function stays outside the [fix], so that a recursive call may be
    passed for it. *)
Definition Forall_all {A} (P : A -> Prop) (f : forall x, P x) : forall l, Forall P l :=
  fix go l := match l return Forall P l with [] => Forall_nil _ | x :: r => Forall_cons x (f x) (go r) end.

(** induction on [vtree] with hypotheses for the children inside lists and options, which the generated principle lacks *)
Section VtreeInd.
  Variable P : vtree -> Prop.
  Hypothesis Hprim : forall p, P (VTPrim p).
  Hypothesis Hborrow : forall n, P (VTBorrow n).
  Hypothesis Hown : forall n, P (VTOwn n).
  Hypothesis Htuple : forall l, Forall P l -> P (VTTuple l).
  Hypothesis Hlist : forall t, P t -> P (VTList t).
  Hypothesis Hfsl : forall t n, P t -> P (VTFsl t n).
  Hypothesis Hoption : forall t, P t -> P (VTOption t).
  Hypothesis Hresult : forall o e, OptP P o -> OptP P e -> P (VTResult o e).
  Hypothesis Hvariant : forall c, Forall (fun kv => OptP P (snd kv)) c -> P (VTVariant c).
  Hypothesis Hrecord : forall f, Forall (fun kv => P (snd kv)) f -> P (VTRecord f).
  Hypothesis Hflags : forall l, P (VTFlags l).
  Hypothesis Henum : forall l, P (VTEnum l).
  Hypothesis Hstream : forall o, OptP P o -> P (VTStream o).
  Hypothesis Hfuture : forall o, OptP P o -> P (VTFuture o).

  Fixpoint vtree_ind' (t : vtree) : P t :=
    let opt (o : option vtree) : OptP P o :=
        match o return OptP P o with Some x => vtree_ind' x | None => I end in
    match t return P t with
    | VTPrim p => Hprim p
    | VTBorrow n => Hborrow n
    | VTOwn n => Hown n
    | VTTuple l => Htuple l (Forall_all P vtree_ind' l)
    | VTList x => Hlist x (vtree_ind' x)
    | VTFsl x n => Hfsl x n (vtree_ind' x)
    | VTOption x => Hoption x (vtree_ind' x)
    | VTResult o e => Hresult o e (opt o) (opt e)
    | VTVariant c => Hvariant c (Forall_all _ (fun kv => opt (snd kv)) c)
    | VTRecord f => Hrecord f (Forall_all _ (fun kv => vtree_ind' (snd kv)) f)
    | VTFlags l => Hflags l
    | VTEnum l => Henum l
    | VTStream o => Hstream o (opt o)
    | VTFuture o => Hfuture o (opt o)
    end.
End VtreeInd.

(** the head constructor as a number: [Sub] relates only trees with the same head ([Sub_head], used by
    CheckerProofs.is_subtype_spec) *)
Definition thead (t : tree) : N :=
  match t with
  | XFunc _ => 0 | XInst _ => 1 | XComp _ _ => 2 | XMod _ => 3 | XValue _ => 4 | XTRes _ => 5 | XTFunc _ => 6
  | XTValue _ => 7 | XTInst _ => 8 | XTComp _ _ => 9 | XTMod _ => 10
  end.
(** No rule relates trees with different head constructors, and each head has one rule: a derivation is its
    premise on the diagonal, [False] off it (what [inversion] derives case by case, at a fraction of the proof term).
    Likewise [Sub_iff] below. *)
Lemma VSub_iff RES a b : VSub RES a b <->
  match a, b with
  | VTPrim p, VTPrim q => p = q
  | VTBorrow n, VTBorrow m | VTOwn n, VTOwn m => RES n m
  | VTTuple x, VTTuple y => Forall2 (VSub RES) x y
  | VTList x, VTList y | VTOption x, VTOption y => VSub RES x y
  | VTFsl x n, VTFsl y m => n = m /\ VSub RES x y
  | VTResult ao ae, VTResult bo be => Opt2 (VSub RES) ao bo /\ Opt2 (VSub RES) ae be
  | VTVariant x, VTVariant y => Forall2 (fun u v => fst u = fst v /\ Opt2 (VSub RES) (snd u) (snd v)) x y
  | VTRecord x, VTRecord y => Forall2 (fun u v => fst u = fst v /\ VSub RES (snd u) (snd v)) x y
  | VTFlags x, VTFlags y | VTEnum x, VTEnum y => x = y
  | VTStream x, VTStream y | VTFuture x, VTFuture y => Opt2 (VSub RES) x y
  | _, _ => False
  end.
Proof.
  split; [destruct 1; auto|].
  destruct a, b; try contradiction; intro H; decompose [and] H; subst; constructor; assumption.
Qed.
Lemma Sub_head RES PG a b : Sub RES PG a b -> thead a = thead b.
Proof. destruct 1; reflexivity. Qed.

(** Pointwise lifting whose hypothesis speaks only of the elements of the first list (the shape the induction
    hypotheses of [vtree_ind'] have). *)
Lemma Forall2_from_Forall {A} (P Q : A -> A -> Prop) l : forall m,
  Forall (fun x => forall y, P x y -> Q x y) l -> Forall2 P l m -> Forall2 Q l m.
Proof. intros m HF H2. induction H2; inversion HF; subst; constructor; auto. Qed.

Lemma opt2_case {A} (P : A -> A -> Prop) (p : A -> A -> bool) (a b : option A) :
  OptP (fun x => forall y, p x y = true <-> P x y) a ->
  (match a, b with None, None => true | Some u, Some v => p u v | _, _ => false end = true <-> Opt2 P a b).
Proof.
  destruct a as [x|], b as [y|]; cbn [OptP]; intro H.
  - rewrite H. split; [now constructor | now inversion 1].
  - split; [discriminate | inversion 1].
  - split; [discriminate | inversion 1].
  - split; [constructor | reflexivity].
Qed.
(** Any function that satisfies the recursion equation of zip-and-test decides [Forall2]: the nested [fix]es of
    [vsub_b] and [forall2_b] are such functions. *)
Lemma zip_test_iff {A} (P : A -> A -> Prop) (p : A -> A -> bool) (go : list A -> list A -> bool) :
  (forall l m, go l m = match l, m with [], [] => true | x :: l', y :: m' => p x y && go l' m' | _, _ => false end) ->
  forall l, Forall (fun x => forall y, p x y = true <-> P x y) l -> forall m, go l m = true <-> Forall2 P l m.
Proof.
  intros Hgo l H. induction H as [|x l Hx _ IH]; intros [|y m]; rewrite Hgo.
  - split; [constructor | reflexivity].
  - split; [discriminate | inversion 1].
  - split; [discriminate | inversion 1].
  - rewrite andb_true_iff, Hx, IH. split; [intros []; now constructor | inversion 1; now subst].
Qed.
Lemma named_iff {A} (P : A -> A -> Prop) (p : A -> A -> bool) (x y : str * A) :
  (p (snd x) (snd y) = true <-> P (snd x) (snd y)) ->
  (str_eqb (fst x) (fst y) && p (snd x) (snd y) = true <-> fst x = fst y /\ P (snd x) (snd y)).
Proof. intros H. now rewrite andb_true_iff, str_eqb_eq, H. Qed.

Section Decide.
  Variable RES : str -> str -> Prop.
  Variable res_b : str -> str -> bool.
  Hypothesis res_b_iff : forall n m, res_b n m = true <-> RES n m.

  Lemma vsub_b_iff a : forall b, vsub_b res_b a b = true <-> VSub RES a b.
  Proof.
    induction a using vtree_ind'; intros b; rewrite VSub_iff; destruct b; cbn [vsub_b];
      try (split; [discriminate | contradiction]).
    - apply primeqb_eq.
    - apply res_b_iff.
    - apply res_b_iff.
    - apply (zip_test_iff _ (vsub_b res_b)); [intros [|] [|]; reflexivity | exact H].
    - apply IHa.
    - now rewrite andb_true_iff, N.eqb_eq, IHa.
    - apply IHa.
    - now rewrite andb_true_iff, (opt2_case (VSub RES)), (opt2_case (VSub RES)).
    - apply (zip_test_iff _ (fun x y => str_eqb (fst x) (fst y) && opt2_b (vsub_b res_b) (snd x) (snd y)));
        [intros [|[]] [|[]]; reflexivity|].
      eapply Forall_impl; [|exact H]. intros x Hx y. apply named_iff, opt2_case, Hx.
    - apply (zip_test_iff _ (fun x y => str_eqb (fst x) (fst y) && vsub_b res_b (snd x) (snd y)));
        [intros [|[]] [|[]]; reflexivity|].
      eapply Forall_impl; [|exact H]. intros x Hx y. apply named_iff, Hx.
    - apply (listeqb_eq _ str_eqb_eq).
    - apply (listeqb_eq _ str_eqb_eq).
    - now apply (opt2_case (VSub RES)).
    - now apply (opt2_case (VSub RES)).
  Qed.
End Decide.

(** The side condition of [VSub_change] passes to the children. *)
Lemma or_forallb {A} (f : A -> bool) l (M : Prop) : forallb f l = true \/ M -> forall x, In x l -> f x = true \/ M.
Proof. intros [H|H] x Hx; [left; exact (proj1 (forallb_forall _ _) H x Hx) | now right]. Qed.
Lemma or_andb (x y : bool) (M : Prop) : x && y = true \/ M -> (x = true \/ M) /\ (y = true \/ M).
Proof. intros [H|H]; [apply andb_true_iff in H; tauto | tauto]. Qed.

Lemma VSub_change (R R' : str -> str -> Prop) a : forall b,
  (vt_resfree a = true \/ (forall n m, R n m -> R' n m)) -> VSub R a b -> VSub R' a b.
Proof.
  assert (Hopt : forall o bo, OptP (fun a => forall b, vt_resfree a = true \/ (forall n m, R n m -> R' n m) -> VSub R a b -> VSub R' a b) o ->
            match o with Some y => vt_resfree y | None => true end = true \/ (forall n m, R n m -> R' n m) ->
            Opt2 (VSub R) o bo -> Opt2 (VSub R') o bo).
  { intros o bo IH Hc H. destruct H; constructor. now apply IH. }
  induction a using vtree_ind'; intros b Hc HS; inversion HS; subst; constructor.
  1,2: destruct Hc as [Hc|Hc]; [discriminate | auto].
  - eapply Forall2_from_Forall; [|eassumption]. rewrite Forall_forall in *. intros x Hx y.
    apply (H x Hx), (or_forallb _ _ _ Hc x Hx).
  - now apply IHa.
  - now apply IHa.
  - now apply IHa.
  - apply Hopt; [assumption | apply (or_andb _ _ _ Hc) | assumption].
  - apply Hopt; [assumption | apply (or_andb _ _ _ Hc) | assumption].
  - eapply Forall2_from_Forall; [|eassumption]. rewrite Forall_forall in *. intros x Hx y [E Hy].
    split; [exact E|]. apply Hopt; [exact (H x Hx) | exact (or_forallb _ _ _ Hc x Hx) | exact Hy].
  - eapply Forall2_from_Forall; [|eassumption]. rewrite Forall_forall in *. intros x Hx y [E Hy].
    split; [exact E|]. apply (H x Hx); [exact (or_forallb _ _ _ Hc x Hx) | exact Hy].
  - now apply Hopt.
  - now apply Hopt.
Qed.

Lemma Forall2_eq {A} (l m : list A) : Forall2 eq l m <-> l = m.
Proof. split; [induction 1; congruence | intros ->; induction m; constructor; auto]. Qed.
Lemma Opt2_eq {A} (a b : option A) : Opt2 eq a b <-> a = b.
Proof. split; [now destruct 1; subst | intros ->; destruct b; now constructor]. Qed.
Lemma named_eq {A} (x y : str * A) : fst x = fst y /\ snd x = snd y <-> x = y.
Proof. destruct x, y; cbn. split; [intros [-> ->]; reflexivity | intros H; now injection H]. Qed.
Lemma Forall2_iff {A} (P Q : A -> A -> Prop) l m :
  Forall (fun x => forall y, P x y <-> Q x y) l -> (Forall2 P l m <-> Forall2 Q l m).
Proof. intros H. split; apply Forall2_from_Forall; (eapply Forall_impl; [|exact H]); intros x Hx y; apply Hx. Qed.
Lemma Opt2_iff {A} (P Q : A -> A -> Prop) (a b : option A) :
  OptP (fun x => forall y, P x y <-> Q x y) a -> (Opt2 P a b <-> Opt2 Q a b).
Proof. intros H. split; destruct 1; constructor; now apply H. Qed.

(** The same induction as [vsub_b_iff], with [eq] in the place of the test. *)
Theorem VSub_eq_iff a : forall b, VSub eq a b <-> a = b.
Proof.
  induction a using vtree_ind'; intros b; rewrite VSub_iff; destruct b; try (split; [contradiction | discriminate]).
  - split; congruence.
  - split; congruence.
  - split; congruence.
  - rewrite (Forall2_iff _ eq _ _ H), Forall2_eq. split; congruence.
  - rewrite IHa. split; congruence.
  - rewrite IHa. split; [intros [-> ->]; reflexivity | intros E; now injection E].
  - rewrite IHa. split; congruence.
  - rewrite (Opt2_iff _ eq _ _ H), (Opt2_iff _ eq _ _ H0), !Opt2_eq.
    split; [intros [-> ->]; reflexivity | intros E; now injection E].
  - rewrite (Forall2_iff _ eq), Forall2_eq; [split; congruence|].
    eapply Forall_impl; [|exact H]. intros x Hx y. rewrite (Opt2_iff _ eq _ _ Hx), Opt2_eq. apply named_eq.
  - rewrite (Forall2_iff _ eq), Forall2_eq; [split; congruence|].
    eapply Forall_impl; [|exact H]. intros x Hx y. rewrite (Hx (snd y)). apply named_eq.
  - split; congruence.
  - split; congruence.
  - rewrite (Opt2_iff _ eq _ _ H), Opt2_eq. split; congruence.
  - rewrite (Opt2_iff _ eq _ _ H), Opt2_eq. split; congruence.
Qed.
Lemma VSub_eq_refl a : VSub eq a a.
Proof. now apply VSub_eq_iff. Qed.
Lemma VSub_eq_inv a : forall b, VSub eq a b -> a = b.
Proof. intro b. apply VSub_eq_iff. Qed.

(** The export and import clauses of [Sub] and [MSub] all have this shape ([look] is [assoc] or [assoc2]). *)
Section Covers.
  Variables K A : Type.
  Variable look : K -> list (K * A) -> option A.
  Hypothesis look_in : forall k l v, look k l = Some v -> In (k, v) l.
  Hypothesis in_look : forall k l v, NoDup (keys l) -> In (k, v) l -> look k l = Some v.

  Definition covers (R : A -> A -> Prop) (ea eb : list (K * A)) : Prop :=
    forall k b, In (k, b) eb -> exists a, look k ea = Some a /\ R a b.

  Lemma covers_nil R ea : covers R ea [].
  Proof. intros k b []. Qed.
  Lemma covers_cons R ea k y eb :
    covers R ea ((k, y) :: eb) <-> (exists x, look k ea = Some x /\ R x y) /\ covers R ea eb.
  Proof.
    split.
    - intros H. split; [apply H; now left | intros k' y' Hin; apply H; now right].
    - intros [H1 H2] k' y' [E|Hin]; [injection E as <- <-; exact H1 | now apply H2].
  Qed.

  Lemma covers_refl (R : A -> A -> Prop) e : NoDup (keys e) -> (forall k x, In (k, x) e -> R x x) -> covers R e e.
  Proof. intros N H k x Hin. exists x. split; [now apply in_look | now apply (H k)]. Qed.

  Lemma covers_trans (R1 R2 R3 : A -> A -> Prop) ea eb ec :
    (forall k x y z, In (k, y) eb -> R1 x y -> R2 y z -> R3 x z) -> covers R1 ea eb -> covers R2 eb ec -> covers R3 ea ec.
  Proof.
    intros T H1 H2 k z Hin. destruct (H2 _ _ Hin) as [y [Ey Hy]]. apply look_in in Ey.
    destruct (H1 _ _ Ey) as [x [Ex Hx]]. exists x. split; [assumption | now apply (T k x y z)].
  Qed.

  Lemma covers_mono (R R' : A -> A -> Prop) ea eb :
    (forall k x y, In (k, x) ea -> In (k, y) eb -> R x y -> R' x y) -> covers R ea eb -> covers R' ea eb.
  Proof.
    intros M H k y Hin. destruct (H _ _ Hin) as [x [Ex Hx]]. exists x. split; [assumption|].
    apply (M k); auto.
  Qed.

  Lemma covers_b_iff (r : A -> A -> bool) (R : A -> A -> Prop) ea eb :
    (forall k x y, In (k, x) ea -> In (k, y) eb -> (r x y = true <-> R x y)) ->
    forallb (fun kb => match look (fst kb) ea with Some x => r x (snd kb) | None => false end) eb = true
    <-> covers R ea eb.
  Proof.
    intros Hr. rewrite forallb_forall. split.
    - intros H k y Hin. specialize (H _ Hin). cbn [fst snd] in H.
      destruct (look k ea) as [x|] eqn:E; [|discriminate]. exists x. split; [reflexivity|]. apply (Hr k); auto.
    - intros H [k y] Hin. destruct (H _ _ Hin) as [x [E Hx]]. cbn [fst snd]. rewrite E. apply (Hr k); auto.
  Qed.
End Covers.
Arguments covers {K A} look R ea eb.

Lemma Sub_iff RES PG a b : Sub RES PG a b <->
  match a, b with
  | XFunc f, XFunc g | XTFunc f, XTFunc g => FSub RES f g
  | XInst ea, XInst eb | XTInst ea, XTInst eb => covers assoc (Sub RES PG) ea eb
  | XComp ia ea, XComp ib eb | XTComp ia ea, XTComp ib eb =>
    covers assoc (Sub RES PG) ib ia /\ covers assoc (Sub RES PG) ea eb
  | XMod x, XMod y | XTMod x, XTMod y => MSub PG x y
  | XValue x, XValue y | XTValue x, XTValue y => VSub RES x y
  | XTRes n, XTRes m => RES n m
  | _, _ => False
  end.
Proof.
  split; [destruct 1; auto|].
  destruct a, b; try contradiction; intro H; decompose [and] H; constructor; assumption.
Qed.

Lemma limits_b_iff ai am bi bm : limits_b ai am bi bm = true <-> limits_ok ai am bi bm.
Proof.
  unfold limits_b, limits_ok. rewrite andb_true_iff, N.leb_le.
  destruct bm as [y|]; [destruct am as [x|]|]; rewrite ?N.leb_le; intuition discriminate.
Qed.
Lemma limits_ok_refl i m : limits_ok i m i m.
Proof. split; [reflexivity | destruct m; [reflexivity | exact I]]. Qed.
Lemma limits_ok_trans ai am bi bm ci cm : limits_ok ai am bi bm -> limits_ok bi bm ci cm -> limits_ok ai am ci cm.
Proof.
  intros [H1 H2] [H3 H4]. split; [now transitivity bi|].
  destruct cm as [z|]; [|exact I]. destruct bm as [y|]; [|contradiction]. destruct am as [x|]; [|contradiction].
  now transitivity y.
Qed.
Lemma pagecm_b_iff a b : pagecm_b a b = true <-> PageCM a b.
Proof. unfold pagecm_b, PageCM. apply N.eqb_eq. Qed.
Lemma popt_eqb_iff a b : popt_eqb a b = true <-> a = b.
Proof. apply optNeqb_eq. Qed.

Definition mod_ok (ok : coreextern -> Prop) (m : moduletype) : Prop :=
  (forall k x, In (k, x) (m_imports m) -> ok x) /\ (forall k x, In (k, x) (m_exports m) -> ok x).

Section Core.
  Variable PG : option N -> option N -> Prop.

  Lemma ESub_iff a b : ESub PG a b <->
    match a, b with
    | CEFunc f, CEFunc g | CETag f, CETag g => f = g
    | CETable ae ai am a64 ash, CETable be bi bm b64 bsh => ae = be /\ limits_ok ai am bi bm /\ a64 = b64 /\ ash = bsh
    | CEMemory a64 ash ai am ap, CEMemory b64 bsh bi bm bp => a64 = b64 /\ ash = bsh /\ limits_ok ai am bi bm /\ PG ap bp
    | CEGlobal av am ash, CEGlobal bv bm bsh => av = bv /\ am = bm /\ ash = bsh
    | _, _ => False
    end.
  Proof.
    split; [destruct 1; auto|].
    destruct a, b; try contradiction; intro H; decompose [and] H; subst; constructor; assumption.
  Qed.

  Section Dec.
    Variable pg_b : option N -> option N -> bool.
    Hypothesis pg_b_iff : forall a b, pg_b a b = true <-> PG a b.

    Lemma esub_b_iff a b : esub_b pg_b a b = true <-> ESub PG a b.
    Proof.
      rewrite ESub_iff. destruct a, b; cbn [esub_b]; try (split; [discriminate | contradiction]).
      - apply cfeqb_eq.
      - rewrite !andb_true_iff, refeqb_eq, limits_b_iff, !booleqb_eq. tauto.
      - rewrite !andb_true_iff, limits_b_iff, !booleqb_eq, pg_b_iff. tauto.
      - rewrite !andb_true_iff, cteqb_eq, !booleqb_eq. tauto.
      - apply cfeqb_eq.
    Qed.

    Lemma msub_b_iff a b : msub_b pg_b a b = true <-> MSub PG a b.
    Proof.
      unfold msub_b. rewrite andb_true_iff.
      rewrite (covers_b_iff _ _ assoc2 (@assoc2_in _) (esub_b pg_b) (ESub PG)) by (intros; apply esub_b_iff).
      rewrite (covers_b_iff _ _ assoc (@assoc_in _) (esub_b pg_b) (ESub PG)) by (intros; apply esub_b_iff). reflexivity.
    Qed.
  End Dec.

  Lemma ESub_refl : (forall a, PG a a) -> forall a, ESub PG a a.
  Proof. intros PG_refl a. destruct a; constructor; auto using limits_ok_refl. Qed.
  Lemma MSub_refl : (forall a, PG a a) ->
    forall m, NoDup (keys (m_imports m)) -> NoDup (keys (m_exports m)) -> MSub PG m m.
  Proof.
    intros PG_refl m N1 N2. split.
    - apply (covers_refl _ _ assoc2 (@in_assoc2 _)); [assumption | intros; now apply ESub_refl].
    - apply (covers_refl _ _ assoc (@in_assoc _)); [assumption | intros; now apply ESub_refl].
  Qed.

  Lemma ESub_trans : (forall a b c, PG a b -> PG b c -> PG a c) -> forall a b c, ESub PG a b -> ESub PG b c -> ESub PG a c.
  Proof. intros PG_trans a b c H1 H2. destruct H1; inversion H2; subst; constructor; eauto using limits_ok_trans. Qed.
  Lemma MSub_trans : (forall a b c, PG a b -> PG b c -> PG a c) -> forall a b c, MSub PG a b -> MSub PG b c -> MSub PG a c.
  Proof.
    intros PG_trans a b c [I1 E1] [I2 E2]. split.
    - apply (covers_trans _ _ assoc2 (@assoc2_in _) (ESub PG) (ESub PG) _ _ _ _ (fun _ z y x _ H H' => ESub_trans PG_trans z y x H H') I2 I1).
    - apply (covers_trans _ _ assoc (@assoc_in _) (ESub PG) (ESub PG) _ _ _ _ (fun _ x y z _ => ESub_trans PG_trans x y z) E1 E2).
  Qed.
End Core.

Lemma ESub_change (PG PG' : option N -> option N -> Prop) (ok : coreextern -> Prop) a b :
  (forall x y m64 sh i1 m1 i2 m2, ok (CEMemory m64 sh i1 m1 x) -> ok (CEMemory m64 sh i2 m2 y) -> PG x y -> PG' x y) ->
  ok a -> ok b -> ESub PG a b -> ESub PG' a b.
Proof. intros H Oa Ob HS. inversion HS; subst; constructor; auto. eapply H; eassumption. Qed.
Lemma MSub_change (PG PG' : option N -> option N -> Prop) (ok : coreextern -> Prop) a b :
  (forall x y m64 sh i1 m1 i2 m2, ok (CEMemory m64 sh i1 m1 x) -> ok (CEMemory m64 sh i2 m2 y) -> PG x y -> PG' x y) ->
  mod_ok ok a -> mod_ok ok b -> MSub PG a b -> MSub PG' a b.
Proof.
  intros H [Ai Ae] [Bi Be] [I1 E1]. split.
  - apply (covers_mono _ _ assoc2 (@assoc2_in _) (ESub PG)); [|exact I1]. intros k y x Hy Hx. apply (ESub_change PG PG' ok); eauto.
  - apply (covers_mono _ _ assoc (@assoc_in _) (ESub PG)); [|exact E1]. intros k x y Hx Hy. apply (ESub_change PG PG' ok); eauto.
Qed.

Lemma list_max_le n l : (list_max l <= n)%nat <-> Forall (fun x => (x <= n)%nat) l.
Proof.
  induction l as [|x l IH]; cbn [list_max]; split; intro H.
  - constructor. - lia.
  - constructor; [lia | apply IH; lia].
  - inversion H; subst. apply IH in H3. lia.
Qed.
Lemma depth_child (l : list (str * tree)) k x n : (tdepth (XInst l) <= S n)%nat -> In (k, x) l -> (tdepth x <= n)%nat.
Proof.
  intros H Hin. apply le_S_n, list_max_le in H. rewrite Forall_forall in H. apply H.
  apply in_map_iff. exists (k, x). split; [reflexivity | assumption].
Qed.
Lemma depth_comp i e n : (tdepth (XComp i e) <= n)%nat -> (tdepth (XInst i) <= n)%nat /\ (tdepth (XInst e) <= n)%nat.
Proof. cbn [tdepth]. lia. Qed.
Lemma tdepth_pos t : ~ (tdepth t <= 0)%nat.
Proof. destruct t; apply Nat.nle_succ_0. Qed.

Lemma all_snd_iff {K A} (P : A -> Prop) (l : list (K * A)) :
  (fix go (l : list (K * A)) : Prop := match l with [] => True | (_, x) :: r => P x /\ go r end) l
  <-> forall k x, In (k, x) l -> P x.
Proof.
  induction l as [|[k x] l IH]; [split; [intros _ ? ? [] | constructor]|]. rewrite IH. split.
  - intros [H1 H2] k' x' [E|Hin]; [injection E as <- <-; assumption | eauto].
  - intros H. split; [apply (H k); now left | intros k' x' Hin; apply (H k'); now right].
Qed.

Section DecideItems.
  Variable RES : str -> str -> Prop.
  Variable res_b : str -> str -> bool.
  Hypothesis res_b_iff : forall n m, res_b n m = true <-> RES n m.
  Variable PG : option N -> option N -> Prop.
  Variable pg_b : option N -> option N -> bool.
  Hypothesis pg_b_iff : forall a b, pg_b a b = true <-> PG a b.

  Lemma fsub_b_iff f g : fsub_b res_b f g = true <-> FSub RES f g.
  Proof.
    unfold fsub_b, FSub, opt2_b. rewrite !andb_true_iff, booleqb_eq, (opt2_case (VSub RES)).
    - rewrite (zip_test_iff (fun x y => fst x = fst y /\ VSub RES (snd x) (snd y))
                            (fun x y => str_eqb (fst x) (fst y) && vsub_b res_b (snd x) (snd y)) (forall2_b _)); [tauto | |].
      + intros [|] [|]; reflexivity.
      + apply Forall_forall. intros x _ y. apply named_iff, (vsub_b_iff RES res_b res_b_iff).
    - destruct (ft_result f); [intro; apply (vsub_b_iff RES res_b res_b_iff) | exact I].
  Qed.

  Lemma sub_f_iff n : forall a b, (tdepth a <= n)%nat -> (tdepth b <= n)%nat ->
    (sub_f res_b pg_b (S n) a b = true <-> Sub RES PG a b).
  Proof.
    induction n as [|n IH]; intros a b Ha Hb; [destruct (tdepth_pos a Ha)|].
    assert (Hcov : forall ea eb, (tdepth (XInst ea) <= S n)%nat -> (tdepth (XInst eb) <= S n)%nat ->
              forallb (fun kb => match assoc (fst kb) ea with
                                 | Some x => sub_f res_b pg_b (S n) x (snd kb) | None => false end) eb = true
              <-> covers assoc (Sub RES PG) ea eb).
    { intros ea eb Hea Heb. apply (covers_b_iff _ _ assoc (@assoc_in _)).
      intros k x y Hx Hy. apply IH; [exact (depth_child ea k x n Hea Hx) | exact (depth_child eb k y n Heb Hy)]. }
    rewrite Sub_iff. destruct a, b; try (split; [discriminate | contradiction]);
      cbn [sub_f]; try destruct (depth_comp _ _ _ Ha) as [Hai Hae], (depth_comp _ _ _ Hb) as [Hbi Hbe].
    (* goals in the order func inst comp mod value tres tfunc tvalue tinst tcomp tmod; an item and its type-level twin
       are closed by the same lemma, hence the pairs: funcs, values, (resource,) instances, components, then modules *)
    1,7: apply fsub_b_iff.
    4,6: apply (vsub_b_iff RES res_b res_b_iff).
    4: apply res_b_iff.
    1,4: apply (Hcov _ _ Ha Hb).
    1,3: now rewrite andb_true_iff, (Hcov _ _ Hbi Hai), (Hcov _ _ Hae Hbe).
    all: apply (msub_b_iff PG pg_b pg_b_iff).
  Qed.
End DecideItems.

Theorem sub_b_iff a b : sub_b a b = true <-> SubCM a b.
Proof.
  unfold sub_b, SubCM. apply sub_f_iff; [|apply pagecm_b_iff|apply Nat.le_max_l|apply Nat.le_max_r].
  intros n m. unfold nores_b, NoRes. split; [discriminate | tauto].
Qed.
Theorem sub_names_b_iff a b : sub_names_b a b = true <-> Sub eq eq a b.
Proof. unfold sub_names_b. apply sub_f_iff; [apply str_eqb_eq | apply popt_eqb_iff | apply Nat.le_max_l | apply Nat.le_max_r]. Qed.

Lemma FSub_eq_iff f g : FSub eq f g <-> f = g.
Proof.
  unfold FSub. rewrite (Forall2_iff _ eq), Forall2_eq, (Opt2_iff _ eq), Opt2_eq.
  - destruct f as [p1 r1 a1], g as [p2 r2 a2]; cbn [ft_async ft_params ft_result].
    split; [intros [-> [-> ->]]; reflexivity | intros H; injection H as -> -> ->; auto].
  - destruct (ft_result f); [intro; apply VSub_eq_iff | exact I].
  - apply Forall_forall. intros x _ y. rewrite VSub_eq_iff. apply named_eq.
Qed.

Lemma FSub_change (R R' : str -> str -> Prop) f g :
  (ft_resfree f = true \/ (forall n m, R n m -> R' n m)) -> FSub R f g -> FSub R' f g.
Proof.
  intros Hc [H1 [H2 H3]]. apply or_andb in Hc as [Hp Hr]. split; [assumption|]. split.
  - eapply Forall2_from_Forall; [|exact H2]. apply Forall_forall. intros x Hin y [E1 E2].
    split; [assumption|]. exact (VSub_change R R' _ _ (or_forallb _ _ _ Hp x Hin) E2).
  - revert Hr. destruct H3; intro Hr; constructor. now apply (VSub_change R R').
Qed.

Fixpoint wf_tree (t : tree) : Prop :=
  let all := fix go (l : list (str * tree)) : Prop :=
               match l with [] => True | (_, x) :: r => wf_tree x /\ go r end in
  match t with
  | XInst e | XTInst e => NoDup (keys e) /\ all e
  | XComp i e | XTComp i e => (NoDup (keys i) /\ all i) /\ (NoDup (keys e) /\ all e)
  | XMod m | XTMod m => NoDup (keys (m_imports m)) /\ NoDup (keys (m_exports m))
  | _ => True
  end.

Section ReflTrans.
  Variable PG : option N -> option N -> Prop.
  Hypothesis PG_refl : forall a, PG a a.
  Hypothesis PG_trans : forall a b c, PG a b -> PG b c -> PG a c.
  Notation SubP := (Sub eq PG).

  Lemma Sub_refl n : forall a, (tdepth a <= n)%nat -> wf_tree a -> SubP a a.
  Proof.
    induction n as [|n IH]; intros a Ha Hw; [destruct (tdepth_pos a Ha)|].
    assert (Hcov : forall e, (tdepth (XInst e) <= S n)%nat ->
                             NoDup (keys e) /\ (fix go (l : list (str * tree)) : Prop :=
                                                  match l with [] => True | (_, x) :: r => wf_tree x /\ go r end) e ->
                             covers assoc SubP e e).
    { intros e He [Hn Hall]. apply (covers_refl _ _ assoc (@in_assoc _)); [assumption|]. intros k x Hin.
      apply IH; [exact (depth_child e k x n He Hin) | exact (proj1 (all_snd_iff _ _) Hall k x Hin)]. }
    (* funcs: FSub_eq_iff; values: VSub_eq_refl; resource: eq_refl; modules: MSub_refl; instances and both halves of
       components: Hcov *)
    destruct a; cbn [wf_tree] in Hw; constructor;
      try apply FSub_eq_iff; try apply VSub_eq_refl; try reflexivity;
      try (apply (MSub_refl PG PG_refl); tauto); try (apply Hcov; [exact Ha | tauto]);
      apply Hcov; (apply (depth_comp _ _ _ Ha) || tauto).
  Qed.

  Lemma Sub_trans n : forall a b c, (tdepth b <= n)%nat -> SubP a b -> SubP b c -> SubP a c.
  Proof.
    induction n as [|n IH]; intros a b c Hb H1 H2; [destruct (tdepth_pos b Hb)|].
    assert (Hcov : forall ea eb ec, (tdepth (XInst eb) <= S n)%nat ->
              covers assoc SubP ea eb -> covers assoc SubP eb ec -> covers assoc SubP ea ec).
    { intros ea eb ec Heb. apply (covers_trans _ _ assoc (@assoc_in _)). intros k x y z Hy.
      apply IH. exact (depth_child eb k y n Heb Hy). }
    destruct H1; inversion H2; subst; constructor;
      try (eapply Hcov; [|eassumption|eassumption]; (exact Hb || apply (depth_comp _ _ _ Hb))).
    1,5: apply FSub_eq_iff; transitivity g; now apply FSub_eq_iff.
    1,5: eapply (MSub_trans PG PG_trans); eassumption.
    1,3: apply VSub_eq_iff; transitivity b; now apply VSub_eq_iff.
    congruence.
  Qed.
End ReflTrans.

(** Changing the parameters.  [ok] is a condition on core externs under which the page-size relation may be
    changed (e.g. "canonical": the default page size is never spelled out); [tokm] lifts it to trees. *)
Fixpoint tokm (ok : coreextern -> Prop) (t : tree) : Prop :=
  let all := fix go (l : list (str * tree)) : Prop :=
               match l with [] => True | (_, x) :: r => tokm ok x /\ go r end in
  match t with
  | XInst e | XTInst e => all e
  | XComp i e | XTComp i e => all i /\ all e
  | XMod m | XTMod m => mod_ok ok m
  | _ => True
  end.

Section Change.
  Variables R R' : str -> str -> Prop.
  Variables PG PG' : option N -> option N -> Prop.
  Variable ok : coreextern -> Prop.
  Hypothesis HPG : forall x y m64 sh i1 m1 i2 m2,
    ok (CEMemory m64 sh i1 m1 x) -> ok (CEMemory m64 sh i2 m2 y) -> PG x y -> PG' x y.

  (** what the change asks of either tree; the induction runs on the depth bound *)
  Definition chg (n : nat) (t : tree) : Prop :=
    (tdepth t <= n)%nat /\ tokm ok t /\ (resfree t = true \/ forall n m, R n m -> R' n m).
  Lemma chg_child n e k x : chg (S n) (XInst e) -> In (k, x) e -> chg n x.
  Proof.
    intros [D [O C]] Hin. split; [exact (depth_child e k x n D Hin)|].
    split; [exact (proj1 (all_snd_iff _ _) O k x Hin) | exact (or_forallb _ _ _ C (k, x) Hin)].
  Qed.
  Lemma chg_comp n i e : chg n (XComp i e) -> chg n (XInst i) /\ chg n (XInst e).
  Proof.
    intros [D [[Oi Oe] C]]. apply depth_comp in D as [Di De]. apply or_andb in C as [Ci Ce]. repeat split; assumption.
  Qed.

  Lemma Sub_change n : forall a b, chg n a -> chg n b -> Sub R PG a b -> Sub R' PG' a b.
  Proof.
    induction n as [|n IH]; intros a b Ga Gb HS; [destruct (tdepth_pos a (proj1 Ga))|].
    assert (Hcov : forall ea eb, chg (S n) (XInst ea) -> chg (S n) (XInst eb) ->
              covers assoc (Sub R PG) ea eb -> covers assoc (Sub R' PG') ea eb).
    { intros ea eb Gea Geb. apply (covers_mono _ _ assoc (@assoc_in _)). intros k x y Hx Hy.
      apply IH; [exact (chg_child n ea k x Gea Hx) | exact (chg_child n eb k y Geb Hy)]. }
    pose proof Ga as [_ [Oa Ca]]. pose proof Gb as [_ [Ob _]]. destruct HS; constructor.
    (* goals in the order func inst comp mod value tres tfunc tvalue tinst tcomp tmod, a component gives two goals;
       an item and its type-level twin are closed by the same lemma, hence the pairs: funcs, values, (resource,)
       modules, instances, then components *)
    1,8: exact (FSub_change R R' f g Ca H).
    5,7: exact (VSub_change R R' a b Ca H).
    5: destruct Ca as [C|C]; [discriminate | auto].
    4,8: now apply (MSub_change PG PG' ok).
    1,4: now apply Hcov.
    all: apply chg_comp in Ga as [Gi Ge], Gb as [Gi' Ge']; now apply Hcov.
  Qed.
End Change.

Lemma tokm_true t : tokm (fun _ => True) t.
Proof.
  assert (H : forall n t, (tdepth t <= n)%nat -> tokm (fun _ => True) t).
  { induction n as [|n IH]; intros t0 Ht; [destruct (tdepth_pos t0 Ht)|].
    destruct t0; cbn [tokm]; try exact I; try (split; intros; exact I);
      try apply depth_comp in Ht as [? ?]; repeat split; apply all_snd_iff; intros k x Hin; apply IH;
      (eapply depth_child; [|exact Hin]); assumption. }
  apply (H (tdepth t)). apply le_n.
Qed.

(** Memory types that never spell out the default page size. *)
Definition ce_canon (c : coreextern) : Prop :=
  match c with CEMemory _ _ _ _ p => p <> Some 16 | _ => True end.
Definition tcanon : tree -> Prop := tokm ce_canon.

Lemma page_log2_canon a b : a <> Some 16 -> b <> Some 16 -> (page_log2 a = page_log2 b <-> a = b).
Proof. destruct a, b; cbn [page_log2]; intros Ha Hb; split; intro H; try congruence. Qed.

(** Soundness direction: whatever a name-comparing relation with a page relation finer than [PageCM] accepts on
    resource-free trees is in the component-model relation. *)
Theorem SubP_SubCM (PG : option N -> option N -> Prop) a b : (forall x y, PG x y -> PageCM x y) ->
  resfree a = true -> resfree b = true -> Sub eq PG a b -> SubCM a b.
Proof.
  intros HP Ra Rb. unfold SubCM.
  apply (Sub_change eq NoRes PG PageCM (fun _ => True) ltac:(intros; now apply HP) (Nat.max (tdepth a) (tdepth b)));
    (split; [apply Nat.le_max_l || apply Nat.le_max_r | split; [apply tokm_true | now left]]).
Qed.
(** Completeness direction: on trees whose memory types satisfy [ok], when [PageCM] implies [PG] on such memories. *)
Theorem SubCM_SubP (PG : option N -> option N -> Prop) (ok : coreextern -> Prop) a b :
  (forall x y m64 sh i1 m1 i2 m2, ok (CEMemory m64 sh i1 m1 x) -> ok (CEMemory m64 sh i2 m2 y) -> PageCM x y -> PG x y) ->
  tokm ok a -> tokm ok b -> SubCM a b -> Sub eq PG a b.
Proof.
  intros HP Ca Cb. unfold SubCM.
  apply (Sub_change NoRes eq PageCM PG ok HP (Nat.max (tdepth a) (tdepth b)));
    (split; [apply Nat.le_max_l || apply Nat.le_max_r | split; [assumption | right; intros ? ? []]]).
Qed.
