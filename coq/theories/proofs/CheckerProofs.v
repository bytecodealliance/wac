(** Item-level rules of the checker: functions, core externs and modules, instances, components;
    the memo invariant; the main characterisation [is_subtype_spec]. *)
From WacV Require Import Str Types StrFacts C07Flags Checker SubSpec CheckerEq SubSpecProofs CheckerValue.
Set Warnings "-unused-intro-pattern".

Section Func.
  Variables at_ bt : types.
  Hypothesis same : t_tag at_ = t_tag bt -> at_ = bt.

  Lemma func_params_spec g F k : (g <= F)%nat -> forall x y lx ly,
    map_snd (unfold_vt g at_) x = Some lx -> map_snd (unfold_vt g bt) y = Some ly -> length x = length y ->
    decides (func_params F k at_ x bt y) (lx = ly).
  Proof.
    intros HF.
    apply (zip_rule_spec _ _ (fun a b => if negb (str_eqb (fst a) (fst b)) then Err EFuncParamName
                                         else value_type F k at_ (snd a) bt (snd b))).
    - intros [|[an u] a] [|[bn v] b]; try reflexivity. cbn [func_params fst snd]. now destruct (negb _).
    - intros a b ta tb. apply named_rule_spec. intros tu tv. now apply value_type_spec.
  Qed.

  Lemma func_spec g F k a b fa fb : (g <= F)%nat ->
    unfold_func g at_ a = Some fa -> unfold_func g bt b = Some fb -> decides (func F k at_ a bt b) (fa = fb).
  Proof.
    intros HF Ha Hb. unfold func. unfold unfold_func in Ha, Hb.
    destruct (get_func at_ a) as [x|] eqn:Ea; [|discriminate]. destruct (get_func bt b) as [y|] eqn:Eb; [|discriminate].
    destruct (id_eqb a b) eqn:Eid.
    - apply decides_ok. apply ideqb_eq in Eid. subst b.
      pose proof (same (lookup_same_tag Ea Eb)) as Et.
      rewrite <- Et in Hb, Eb. rewrite Ea in Eb. injection Eb as <-. rewrite Ha in Hb. now injection Hb.
    - cbn [idx bind].
      destruct (map_snd (unfold_vt g at_) (f_params x)) as [pa|] eqn:Pa; [|discriminate].
      destruct (omap (unfold_vt g at_) (f_result x)) as [ra|] eqn:Ra; [|discriminate].
      destruct (map_snd (unfold_vt g bt) (f_params y)) as [pb|] eqn:Pb; [|discriminate].
      destruct (omap (unfold_vt g bt) (f_result y)) as [rb|] eqn:Rb; [|discriminate].
      injection Ha as <-. injection Hb as <-.
      destruct (ef k x y) as [e f] eqn:Hef.
      destruct (Bool.eqb (f_async x) (f_async y)) eqn:Easync; cbn [negb].
      2:{ apply decides_err. intro H. injection H as _ _ H. apply booleqb_eq in H. congruence. }
      apply (proj1 (booleqb_eq _ _)) in Easync.
      destruct (Nat.eqb (length (f_params x)) (length (f_params y))) eqn:El; cbn [negb].
      2:{ apply decides_err. apply Nat.eqb_neq in El. intro H. injection H as H _ _. apply El.
          apply map_snd_length in Pa, Pb. congruence. }
      apply Nat.eqb_eq in El.
      eapply decides_iff; [|eapply decides_bind; [exact (func_params_spec g F k HF _ _ _ _ Pa Pb El)|]].
      2: { refine (opt_rule_spec _ _ (fun u v => value_type F k at_ u bt v)
                     (fun o p => match o, p with
                                 | None, None => ok
                                 | Some u, Some v => value_type F k at_ u bt v
                                 | _, _ => match f_result e, f_result f with
                                           | Some _, None => Err (EFuncResult true)
                                           | None, Some _ => Err (EFuncResult false)
                                           | _, _ => Panic
                                           end
                                 end)
                     (fun u v tu tv => value_type_spec at_ bt same g F k u v tu tv HF) eq_refl (fun _ _ => eq_refl)
                     _ _ _ _ _ _ Ra Rb).
           all: intros u Rx Ry; destruct k; injection Hef as <- <-; rewrite Rx, Ry; eauto. }
      split; [intros [-> ->]; f_equal; assumption | intros H; injection H; auto].
  Qed.
End Func.

(** The page-size relation the checker implements: equality of the [Option]s, or (once the source normalises the
    default) equality of the page sizes they denote.  [SubX] is the relation the checker decides. *)
Definition PGx : option N -> option N -> Prop := if psl_default_normalised then PageCM else eq.
Notation SubX := (Sub eq PGx).
Lemma PGx_refl a : PGx a a.
Proof. unfold PGx, PageCM. destruct psl_default_normalised; reflexivity. Qed.
Lemma PGx_trans a b c : PGx a b -> PGx b c -> PGx a c.
Proof. unfold PGx, PageCM. destruct psl_default_normalised; congruence. Qed.
Lemma PGx_PageCM a b : PGx a b -> PageCM a b.
Proof. unfold PGx, PageCM. destruct psl_default_normalised; congruence. Qed.
Lemma page_size_eqb_iff a b : page_size_eqb a b = true <-> PGx a b.
Proof.
  unfold page_size_eqb, PGx, PageCM. destruct psl_default_normalised.
  - apply N.eqb_eq.
  - apply optNeqb_eq.
Qed.

Lemma limits_match_b ai am bi bm : limits_match ai am bi bm = limits_b ai am bi bm.
Proof. unfold limits_match, limits_b. now destruct am, bm. Qed.
Lemma core_extern_esub k a b : decides (core_extern k a b) (esub_b page_size_eqb a b = true).
Proof.
  destruct a as [f|e i m t64 sh|m64 sh i m p|v mu sh|f], b as [f'|e' i' m' t64' sh'|m64' sh' i' m' p'|v' mu' sh'|f'];
    cbn [core_extern esub_b]; unfold core_func; try (destruct k; apply decides_err; discriminate); rewrite ?limits_match_b.
  - destruct (corefunc_eqb f f'); [apply decides_ok; reflexivity | apply decides_err; discriminate].
  - destruct (reftype_eqb e e'), (limits_b i m i' m'), (Bool.eqb t64 t64'), (Bool.eqb sh sh');
      first [apply decides_ok; reflexivity | apply decides_err; discriminate].
  - destruct (Bool.eqb sh sh'), (Bool.eqb m64 m64'), (limits_b i m i' m'), (page_size_eqb p p');
      first [apply decides_ok; reflexivity | apply decides_err; discriminate].
  - destruct (Bool.eqb mu mu'), (coretype_eqb v v'), (Bool.eqb sh sh'); first [apply decides_ok; reflexivity | apply decides_err; discriminate].
  - destruct (corefunc_eqb f f'); [apply decides_ok; reflexivity | apply decides_err; discriminate].
Qed.
Lemma core_extern_spec k a b : decides (core_extern k a b) (ESub PGx a b).
Proof. eapply decides_iff; [apply (esub_b_iff PGx _ page_size_eqb_iff) | apply core_extern_esub]. Qed.

(** A loop over the entries of [eb] that looks each key up in [ea], as [module_imports] and [module_exports] are. *)
Lemma lookup_loop_spec {K A} (look : K -> list (K * A) -> option A) (P : A -> A -> Prop) (step : A -> A -> R unit)
      (miss : R unit) (loop : list (K * A) -> R unit) ea :
  (forall eb, loop eb = match eb with
                        | [] => ok
                        | (k, y) :: rest => match look k ea with Some x => _ <- step x y ;; loop rest | None => miss end
                        end) ->
  (forall x y, decides (step x y) (P x y)) -> (exists e, miss = Err e) ->
  forall eb, decides (loop eb) (covers look P ea eb).
Proof.
  intros Hloop Hstep [e He]. induction eb as [|[k y] eb IH]; rewrite Hloop.
  - apply decides_ok, covers_nil.
  - eapply decides_iff; [symmetry; apply covers_cons|]. destruct (look k ea) as [x|].
    + eapply decides_iff; [|apply (decides_bind _ _ _ _ (Hstep x y) IH)].
      split; [intros [H1 H2]; eauto | intros [[x' [E H1]] H2]; injection E as <-; auto].
    + rewrite He. apply decides_err. intros [[x [E _]] _]. discriminate.
Qed.

Lemma module_imports_spec prev k b a :
  decides (module_imports prev k a b) (covers assoc2 (ESub PGx) b a).
Proof.
  eapply (lookup_loop_spec assoc2) with (step := core_extern k) (loop := fun a => module_imports prev k a b).
  - now intros [|[key ae] rest].
  - apply core_extern_spec.
  - destruct prev; eauto.
Qed.
Lemma module_exports_spec k a b :
  decides (module_exports k a b) (covers assoc (ESub PGx) a b).
Proof.
  eapply (lookup_loop_spec assoc) with (step := core_extern Cov) (loop := module_exports k a).
  - now intros [|[key be] rest].
  - apply core_extern_spec.
  - destruct k; eauto.
Qed.

Definition unfold_inst (U : kind -> option tree) (t : types) (i : id) : option (list (str * tree)) :=
  match get_if t i with None => None | Some x => map_snd U (i_exports x) end.
Definition unfold_comp (U : kind -> option tree) (t : types) (w : id) : option (list (str * tree) * list (str * tree)) :=
  match get_world t w with
  | None => None
  | Some x => match map_snd U (w_imports x), map_snd U (w_exports x) with
              | Some i, Some e => Some (i, e)
              | _, _ => None
              end
  end.
Definition unfold_body (U : kind -> option tree) (fuel : nat) (t : types) (k : kind) : option tree :=
  match k with
  | KFunc i => option_map XFunc (unfold_func fuel t i)
  | KInstance i => option_map XInst (unfold_inst U t i)
  | KComponent w => option_map (fun ie => XComp (fst ie) (snd ie)) (unfold_comp U t w)
  | KModule m => option_map XMod (get_mod t m)
  | KValue v => option_map XValue (unfold_vt fuel t v)
  | KType (TResource r) => option_map XTRes (res_name_of fuel t r)
  | KType (TFunc i) => option_map XTFunc (unfold_func fuel t i)
  | KType (TValue v) => option_map XTValue (unfold_vt fuel t v)
  | KType (TInterface i) => option_map XTInst (unfold_inst U t i)
  | KType (TWorld w) => option_map (fun ie => XTComp (fst ie) (snd ie)) (unfold_comp U t w)
  | KType (TModule m) => option_map XTMod (get_mod t m)
  end.
Lemma unfold_eq f t k : unfold (S f) t k = unfold_body (unfold f t) (S f) t k.
Proof. destruct k as [[]| | | | |]; reflexivity. Qed.
Lemma unfold_inst_some U t i e : unfold_inst U t i = Some e ->
  exists x, get_if t i = Some x /\ map_snd U (i_exports x) = Some e.
Proof. unfold unfold_inst. destruct (get_if t i) as [x|]; [eauto | discriminate]. Qed.
Lemma unfold_comp_some U t w i e : unfold_comp U t w = Some (i, e) ->
  exists x, get_world t w = Some x /\ map_snd U (w_imports x) = Some i /\ map_snd U (w_exports x) = Some e.
Proof.
  unfold unfold_comp. destruct (get_world t w) as [x|]; [|discriminate].
  destruct (map_snd U (w_imports x)) eqn:E1; [|discriminate]. destruct (map_snd U (w_exports x)) eqn:E2; [|discriminate].
  intro H. injection H as <- <-. eauto.
Qed.

Definition khead (k : kind) : N :=
  match k with
  | KFunc _ => 0 | KInstance _ => 1 | KComponent _ => 2 | KModule _ => 3 | KValue _ => 4
  | KType (TResource _) => 5 | KType (TFunc _) => 6 | KType (TValue _) => 7 | KType (TInterface _) => 8
  | KType (TWorld _) => 9 | KType (TModule _) => 10
  end.
Lemma unfold_head g t k tr : unfold g t k = Some tr -> thead tr = khead k.
Proof.
  destruct g as [|g]; [discriminate|]. rewrite unfold_eq.
  destruct k as [[]| | | | |]; cbn [unfold_body]; intro H; apply option_map_some in H as [z [_ ->]]; reflexivity.
Qed.

Lemma unfold_inv g t k tr : unfold (S g) t k = Some tr ->
  match tr with
  | XInst e | XTInst e => exists i x, get_if t i = Some x /\ map_snd (unfold g t) (i_exports x) = Some e
  | XComp i e | XTComp i e =>
    exists w x, get_world t w = Some x /\
                map_snd (unfold g t) (w_imports x) = Some i /\ map_snd (unfold g t) (w_exports x) = Some e
  | XMod m | XTMod m => exists i, get_mod t i = Some m
  | _ => True
  end.
Proof.
  rewrite unfold_eq. destruct k as [[r|i|v|i|w|m]|i|i|w|m|v]; cbn [unfold_body]; intro H;
    apply option_map_some in H as [z [E ->]]; try exact I.
  1,4: apply unfold_inst_some in E; eauto.
  1,3: destruct z; apply unfold_comp_some in E; eauto.
  all: eauto.
Qed.

Lemma unfold_func_S f t i ft : unfold_func f t i = Some ft -> unfold_func (S f) t i = Some ft.
Proof.
  unfold unfold_func. destruct (get_func t i) as [x|]; [|discriminate].
  destruct (map_snd (unfold_vt f t) (f_params x)) as [ps|] eqn:E1; [|discriminate].
  destruct (omap (unfold_vt f t) (f_result x)) as [r|] eqn:E2; [|discriminate].
  assert (He : ext_some (unfold_vt f t) (unfold_vt (S f) t)) by (intros v tr; apply unfold_vt_S).
  now rewrite (map_snd_ext _ _ _ _ He E1), (omap_ext _ _ _ _ He E2).
Qed.

Lemma unfold_S f t : forall k tr, unfold f t k = Some tr -> unfold (S f) t k = Some tr.
Proof.
  induction f as [|f IH]; intros k tr; [discriminate|].
  rewrite (unfold_eq f), (unfold_eq (S f)).
  assert (He : ext_some (unfold f t) (unfold (S f) t)) by exact IH.
  assert (Hi : forall i e, unfold_inst (unfold f t) t i = Some e -> unfold_inst (unfold (S f) t) t i = Some e).
  { intros i e. unfold unfold_inst. destruct (get_if t i); [|discriminate]. now apply map_snd_ext. }
  assert (Hc : forall i e, unfold_comp (unfold f t) t i = Some e -> unfold_comp (unfold (S f) t) t i = Some e).
  { intros i e. unfold unfold_comp. destruct (get_world t i) as [x|]; [|discriminate].
    destruct (map_snd (unfold f t) (w_imports x)) eqn:E1; [|discriminate].
    destruct (map_snd (unfold f t) (w_exports x)) eqn:E2; [|discriminate].
    now rewrite (map_snd_ext _ _ _ _ He E1), (map_snd_ext _ _ _ _ He E2). }
  unfold unfold_body. destruct k as [[r|i|v|i|w|m]|i|i|w|m|v]; apply option_map_ext; intro y; auto;
    try apply unfold_func_S; try apply unfold_vt_S; try apply res_name_of_S.
Qed.
Lemma unfold_mono f f' t k tr : (f <= f')%nat -> unfold f t k = Some tr -> unfold f' t k = Some tr.
Proof. induction 1 as [|m Hle IH]; [auto|]. intro Hu. apply unfold_S. auto. Qed.
Lemma unfold_func_mono f f' t i ft : (f <= f')%nat -> unfold_func f t i = Some ft -> unfold_func f' t i = Some ft.
Proof. induction 1 as [|m Hle IH]; [auto|]. intro Hu. apply unfold_func_S. auto. Qed.

Lemma desc_vt_total g t : forall F v tr, (g <= F)%nat -> unfold_vt g t v = Some tr -> exists D, desc_vt F t v = Ok D.
Proof.
  induction g as [|g IH]; intros F v tr HF Hu; [discriminate|]. destruct F as [|F]; [lia|].
  destruct v as [p|r|r|d]; cbn [desc_vt]; try (eexists; reflexivity).
  rewrite unfold_vt_eq in Hu. cbn [unfold_vt_body] in Hu.
  destruct (get_def t d) as [x|]; [|discriminate]. cbn [idx bind].
  destruct x; try (eexists; reflexivity). apply (IH F v tr); [lia | assumption].
Qed.
Lemma desc_kind_total g t F k tr : (g <= F)%nat -> unfold g t k = Some tr -> exists D, desc_kind F t k = Ok D.
Proof.
  intros HF Hu. destruct g as [|g]; [discriminate|]. rewrite unfold_eq in Hu.
  destruct k as [[r|i|v|i|w|m]|i|i|w|m|v]; cbn [desc_kind desc_ty]; try (eexists; reflexivity).
  cbn [unfold_body] in Hu. destruct (unfold_vt (S g) t v) as [tv|] eqn:E; [|discriminate].
  apply (desc_vt_total (S g) t F v tv HF E).
Qed.

Definition nodup_types (t : types) : Prop :=
  (forall i x, nth_error (t_interfaces t) i = Some x -> NoDup (keys (i_exports x))) /\
  (forall i x, nth_error (t_worlds t) i = Some x -> NoDup (keys (w_imports x)) /\ NoDup (keys (w_exports x))) /\
  (forall i m, nth_error (t_modules t) i = Some m -> NoDup (keys (m_imports m)) /\ NoDup (keys (m_exports m))).

Lemma lookup_nth {A} tag (l : list A) i x : lookup tag l i = Some x -> nth_error l (id_idx i) = Some x.
Proof. unfold lookup. destruct (id_tag i =? tag); [auto | discriminate]. Qed.

Lemma map_snd_cons {K A B} (U : A -> option B) (k : K) (x : A) l l' :
  map_snd U ((k, x) :: l) = Some l' -> exists y r, U x = Some y /\ map_snd U l = Some r /\ l' = (k, y) :: r.
Proof.
  unfold map_snd. cbn [map all_some fst snd]. destruct (U x) as [y|]; [|discriminate].
  destruct (all_some _) as [r|]; [|discriminate]. intro H. injection H as <-. eauto.
Qed.
Lemma all_some_forall2 {A B} (U : A -> option B) l l' :
  all_some (map U l) = Some l' -> Forall2 (fun x y => U x = Some y) l l'.
Proof.
  revert l'. induction l as [|x l IH]; intros l'; cbn [map all_some].
  - intro H. injection H as <-. constructor.
  - destruct (U x) as [y|] eqn:E; [|discriminate]. destruct (all_some (map U l)) as [r|]; [|discriminate].
    intro H. injection H as <-. constructor; auto.
Qed.
Lemma map_snd_forall2 {K A B} (U : A -> option B) (l : list (K * A)) l' :
  map_snd U l = Some l' -> Forall2 (fun a b => fst a = fst b /\ U (snd a) = Some (snd b)) l l'.
Proof.
  revert l'. induction l as [|[k x] l IH]; intros l' H.
  - unfold map_snd in H. cbn in H. injection H as <-. constructor.
  - apply map_snd_cons in H as [y [r [Hy [Hr ->]]]]. constructor; [cbn; auto | auto].
Qed.
Lemma map_snd_keys {K A B} (U : A -> option B) (l : list (K * A)) l' : map_snd U l = Some l' -> keys l' = keys l.
Proof.
  revert l'. induction l as [|[k x] l IH]; intros l' H.
  - unfold map_snd in H. cbn in H. injection H as <-. reflexivity.
  - apply map_snd_cons in H as [y [r [_ [Hr ->]]]]. unfold keys in *. cbn [map fst]. f_equal. now apply IH.
Qed.
Lemma map_snd_in {K A B} (U : A -> option B) (l : list (K * A)) l' k y :
  map_snd U l = Some l' -> In (k, y) l' -> exists x, In (k, x) l /\ U x = Some y.
Proof.
  revert l'. induction l as [|[k' x] l IH]; intros l' H Hin.
  - unfold map_snd in H. cbn in H. injection H as <-. destruct Hin.
  - apply map_snd_cons in H as [y' [r [Hy [Hr ->]]]]. destruct Hin as [E|Hin].
    + injection E as -> ->. exists x. split; [now left | assumption].
    + destruct (IH _ Hr Hin) as [x' [H1 H2]]. exists x'. split; [now right | assumption].
  Qed.
Lemma map_snd_some_in {K A B} (U : A -> option B) (l : list (K * A)) l' k x :
  map_snd U l = Some l' -> In (k, x) l -> exists y, U x = Some y.
Proof.
  revert l'. induction l as [|[k' x'] l IH]; intros l' H Hin; [destruct Hin|].
  apply map_snd_cons in H as [y [r [Hy [Hr ->]]]]. destruct Hin as [Eq|Hin].
  - injection Eq as -> ->. eauto.
  - eapply IH; eassumption.
Qed.
Lemma map_snd_all {K A B} (P : B -> Prop) (U : A -> option B) (l : list (K * A)) l' :
  map_snd U l = Some l' -> (forall x y, U x = Some y -> P y) -> forall k y, In (k, y) l' -> P y.
Proof. intros H HP k y Hin. destruct (map_snd_in _ _ _ _ _ H Hin) as [x [_ Hx]]. exact (HP _ _ Hx). Qed.
Lemma map_snd_assoc {A B} (U : A -> option B) (l : list (str * A)) l' k :
  map_snd U l = Some l' -> assoc k l' = match assoc k l with Some x => U x | None => None end.
Proof.
  revert l'. induction l as [|[k' x] l IH]; intros l' H.
  - unfold map_snd in H. cbn in H. injection H as <-. reflexivity.
  - apply map_snd_cons in H as [y [r [Hy [Hr ->]]]]. cbn [assoc]. destruct (str_eqb k k'); [now rewrite Hy | now apply IH].
Qed.

Lemma wf_all_intro (l : list (str * tree)) :
  (forall k x, In (k, x) l -> wf_tree x) ->
  (fix go (l : list (str * tree)) : Prop := match l with [] => True | (_, x) :: r => wf_tree x /\ go r end) l.
Proof. apply all_snd_iff. Qed.

Lemma unfold_wf_tree t : nodup_types t -> forall g k tr, unfold g t k = Some tr -> wf_tree tr.
Proof.
  intros [Ni [Nw Nm]]. induction g as [|g IH]; intros k tr Hu; [discriminate|].
  assert (Hl : forall (l : list (str * kind)) l', map_snd (unfold g t) l = Some l' -> NoDup (keys l) ->
                 NoDup (keys l') /\ (fix go (l : list (str * tree)) : Prop := match l with [] => True | (_, x) :: r => wf_tree x /\ go r end) l').
  { intros l l' H N. split; [now rewrite (map_snd_keys _ _ _ H) | apply wf_all_intro, (map_snd_all _ _ _ _ H), IH]. }
  apply unfold_inv in Hu. destruct tr; cbn [wf_tree]; try exact I.
  1,4: destruct Hu as [i [x [E H]]]; apply (Hl _ _ H), (Ni _ _ (lookup_nth _ _ _ _ E)).
  1,3: destruct Hu as [w [x [E [H1 H2]]]]; destruct (Nw _ _ (lookup_nth _ _ _ _ E));
    split; [now apply (Hl _ _ H1) | now apply (Hl _ _ H2)].
  all: destruct Hu as [i E]; apply (Nm _ _ (lookup_nth _ _ _ _ E)).
Qed.

Lemma unfold_vt_tag g t v tr : unfold_vt g t v = Some tr ->
  match v with VPrim _ => True | VBorrow i | VOwn i | VDefined i => id_tag i = t_tag t end.
Proof.
  destruct g as [|g]; [discriminate|]. rewrite unfold_vt_eq. destruct v as [p|r|r|d]; cbn [unfold_vt_body]; [auto | | |].
  - cbn [res_name_of]. destruct (get_res t r) eqn:E; [|discriminate]. intros _. apply (lookup_tag _ _ _ _ E).
  - cbn [res_name_of]. destruct (get_res t r) eqn:E; [|discriminate]. intros _. apply (lookup_tag _ _ _ _ E).
  - destruct (get_def t d) eqn:E; [|discriminate]. intros _. apply (lookup_tag _ _ _ _ E).
Qed.

Definition kind_id (k : kind) : option id :=
  match k with
  | KFunc i | KInstance i | KComponent i | KModule i
  | KType (TResource i) | KType (TFunc i) | KType (TInterface i) | KType (TWorld i) | KType (TModule i) => Some i
  | KValue v | KType (TValue v) => match v with VPrim _ => None | VBorrow i | VOwn i | VDefined i => Some i end
  end.
Lemma unfold_tag g t k tr i : unfold g t k = Some tr -> kind_id k = Some i -> id_tag i = t_tag t.
Proof.
  destruct g as [|g]; [discriminate|]. rewrite unfold_eq.
  destruct k as [[r|f|v|j|w|m]|f|j|w|m|v]; cbn [unfold_body kind_id]; intros H Hi; apply option_map_some in H as [z [E _]].
  1: cbn [res_name_of] in E; destruct (get_res t r) eqn:X; [|discriminate]; injection Hi as <-; apply (lookup_tag _ _ _ _ X).
  1,6: unfold unfold_func in E; destruct (get_func t f) eqn:X; [|discriminate]; injection Hi as <-; apply (lookup_tag _ _ _ _ X).
  1,8: apply unfold_vt_tag in E; destruct v; try discriminate Hi; injection Hi as <-; exact E.
  1,4: apply unfold_inst_some in E as [x [X _]]; injection Hi as <-; apply (lookup_tag _ _ _ _ X).
  1,3: destruct z; apply unfold_comp_some in E as [x [X _]]; injection Hi as <-; apply (lookup_tag _ _ _ _ X).
  all: injection Hi as <-; apply (lookup_tag _ _ _ _ E).
Qed.

Section Items.
  Variable E : types -> Prop.
  Hypothesis E_same : forall t1 t2, E t1 -> E t2 -> t_tag t1 = t_tag t2 -> t1 = t2.
  Hypothesis E_nodup : forall t, E t -> nodup_types t.

  Lemma unfold_indep g1 g2 t1 t2 k a b : E t1 -> E t2 ->
    unfold g1 t1 k = Some a -> unfold g2 t2 k = Some b -> a = b.
  Proof.
    intros H1 H2 Ha Hb. destruct (kind_id k) as [i|] eqn:Ei.
    - assert (Et : t1 = t2).
      { apply E_same; auto. rewrite <- (unfold_tag _ _ _ _ _ Ha Ei). apply (unfold_tag _ _ _ _ _ Hb Ei). }
      subst t2.
      apply (unfold_mono g1 (Nat.max g1 g2)) in Ha; [|lia]. apply (unfold_mono g2 (Nat.max g1 g2)) in Hb; [|lia]. congruence.
    - destruct g1 as [|g1]; [discriminate|]. destruct g2 as [|g2]; [discriminate|]. rewrite unfold_eq in Ha, Hb.
      destruct k as [[| |[]| | |]| | | | |[]]; try discriminate Ei; cbn in Ha, Hb; congruence.
  Qed.

  Definition cache_ok (c : list (kind * kind)) : Prop :=
    forall x y, In (x, y) c -> forall xt yt g tx ty, E xt -> E yt ->
      unfold g xt x = Some tx -> unfold g yt y = Some ty -> SubX tx ty.

  Definition post (P : Prop) (s : st) (rs : SR) : Prop :=
    decides (fst rs) P /\ cache_ok (cache (snd rs)) /\ (fst rs = Ok tt -> ks (snd rs) = ks s) /\
    incl (cache s) (cache (snd rs)).

  Lemma post_iff (P Q : Prop) s rs : (P <-> Q) -> post P s rs -> post Q s rs.
  Proof. intros H [H1 H2]. split; [eapply decides_iff; eassumption | assumption]. Qed.
  Lemma post_lift (P : Prop) s r : cache_ok (cache s) -> decides r P -> post P s (lift r s).
  Proof. intros Hc Hd. unfold post, lift. cbn [fst snd]. repeat split; auto. apply incl_refl. Qed.
  Lemma post_sbind (P Q : Prop) s r s1 k :
    post P s (r, s1) -> (r = Ok tt -> post Q s1 (k s1)) -> post (P /\ Q) s (sbind (r, s1) k).
  Proof.
    intros [Hd [Hc [Hk Hi]]] Hn. cbn [fst snd] in *. destruct Hd as [[-> HP]|[[e ->] HP]].
    - cbn [sbind]. destruct (Hn eq_refl) as [Hd' [Hc' [Hk' Hi']]]. repeat split.
      + eapply decides_iff; [|exact Hd']. tauto.
      + assumption.
      + intro H. rewrite (Hk' H). auto.
      + eapply incl_tran; eassumption.
    - cbn [sbind]. repeat split; cbn [fst snd]; auto; try discriminate. apply decides_err. tauto.
  Qed.

  Section Level.
    Variable g : nat.
    Variable rec : st -> types -> kind -> types -> kind -> SR.
    Hypothesis Hrec : forall s xt x yt y tx ty, E xt -> E yt -> cache_ok (cache s) ->
      unfold g xt x = Some tx -> unfold g yt y = Some ty -> post (SubX tx ty) s (rec s xt x yt y).
    Variable vf : nat.
    Hypothesis Hvf : (S g <= vf)%nat.

    (** The loops over the exports of an instance or component, and (with the sides swapped) over the imports of a
        component: look the name up on the other side, recurse, go on with the state that comes back. *)
    Lemma lookup_loop_post xt yt (mk : st -> err) (loop : st -> list (str * kind) -> SR) a a' :
      E xt -> E yt -> map_snd (unfold g xt) a = Some a' ->
      (forall s b, loop s b = match b with
                              | [] => (ok, s)
                              | (k, bk) :: rest =>
                                match assoc k a with
                                | Some ak => sbind (rec s xt ak yt bk) (fun s' => loop s' rest)
                                | None => (_ <- desc_kind vf yt bk ;; Err (mk s), s)
                                end
                              end) ->
      forall b b' s, map_snd (unfold g yt) b = Some b' -> cache_ok (cache s) ->
      post (covers assoc SubX a' b') s (loop s b).
    Proof.
      intros Hx Hy Ha Hloop. induction b as [|[k bk] b IH]; intros b' s Hb Hc; rewrite Hloop.
      - injection Hb as <-. apply (post_lift _ s ok Hc). apply decides_ok, covers_nil.
      - apply map_snd_cons in Hb as [tb [r [Hb1 [Hb2 ->]]]].
        eapply post_iff; [symmetry; apply covers_cons|]. rewrite (map_snd_assoc _ a a' k Ha).
        destruct (assoc k a) as [ak|] eqn:Ek.
        + destruct (map_snd_some_in _ a a' k ak Ha (assoc_in _ _ _ Ek)) as [ta Hta]. rewrite Hta.
          pose proof (Hrec s xt ak yt bk ta tb Hx Hy Hc Hta Hb1) as Hp. destruct (rec s xt ak yt bk) as [r1 s1].
          eapply post_iff; [|apply (post_sbind (SubX ta tb) (covers assoc SubX a' r) s r1 s1 _ Hp)].
          * split; [intros [H1 H2]; eauto | intros [[ta' [Eq Hs]] H2]; injection Eq as <-; auto].
          * intros ->. destruct Hp as [_ [Hc1 _]]. apply (IH r s1 Hb2 Hc1).
        + destruct (desc_kind_total g yt vf bk tb ltac:(lia) Hb1) as [D ->]. cbn [bind].
          apply (post_lift _ s (Err (mk s)) Hc). apply decides_err. intros [[x [Eq _]] _]. discriminate.
    Qed.

    Lemma covers_SubX_refl xt i e : E xt -> unfold_inst (unfold g xt) xt i = Some e -> covers assoc SubX e e.
    Proof.
      intros He Hu.
      assert (Hk : unfold (S g) xt (KInstance i) = Some (XInst e)) by (rewrite unfold_eq; cbn [unfold_body]; now rewrite Hu).
      pose proof (unfold_wf_tree xt (E_nodup _ He) _ _ _ Hk) as Hw.
      pose proof (Sub_refl PGx PGx_refl (tdepth (XInst e)) (XInst e) (le_n _) Hw) as Hs. now inversion Hs.
    Qed.

    Lemma interface_spec s xt a yt b ea eb : E xt -> E yt -> cache_ok (cache s) ->
      unfold_inst (unfold g xt) xt a = Some ea -> unfold_inst (unfold g yt) yt b = Some eb ->
      post (covers assoc SubX ea eb) s (interface rec vf s xt a yt b).
    Proof.
      intros Hx Hy Hc Ha Hb. unfold interface.
      destruct (unfold_inst_some _ _ _ _ Ha) as [ia [Ea Ha']], (unfold_inst_some _ _ _ _ Hb) as [ib [Eb Hb']]. rewrite Ea, Eb.
      destruct (id_eqb a b) eqn:Eid.
      - apply ideqb_eq in Eid. subst b. apply post_lift; [assumption|]. apply decides_ok.
        pose proof (E_same _ _ Hx Hy (lookup_same_tag Ea Eb)) as Et.
        subst yt. rewrite Ha in Hb. injection Hb as <-. now apply (covers_SubX_refl xt a).
      - apply (lookup_loop_post xt yt (fun s0 => match vkind (ks s0) with Cov => EInstMissing | Contra => EInstUnexpected end)
                 (fun s0 b0 => instance_exports rec vf s0 xt (i_exports ia) yt b0) (i_exports ia) ea Hx Hy Ha');
          [now intros ? [|[]] | exact Hb' | exact Hc].
    Qed.

    Lemma world_spec s xt a yt b ia ea ib eb : E xt -> E yt -> cache_ok (cache s) ->
      unfold_comp (unfold g xt) xt a = Some (ia, ea) -> unfold_comp (unfold g yt) yt b = Some (ib, eb) ->
      post (covers assoc SubX ib ia /\ covers assoc SubX ea eb) s (world_ rec vf s xt a yt b).
    Proof.
      intros Hx Hy Hc Ha Hb. unfold world_.
      apply unfold_comp_some in Ha as [wa [Ea [A1 A2]]], Hb as [wb [Eb [B1 B2]]]. rewrite Ea, Eb.
      set (s1 := set_ks s (invert (ks s))).
      pose proof (lookup_loop_post yt xt (fun _ => match vkind (ks s) with Cov => ECompImpMissing | Contra => ECompImpUnexpected end)
                    (fun s0 a0 => world_imports rec vf (vkind (ks s)) s0 xt a0 yt (w_imports wb)) (w_imports wb) ib Hy Hx B1
                    ltac:(now intros ? [|[]]) (w_imports wa) ia s1 A1 Hc) as Hp. cbn beta in Hp.
      destruct (world_imports _ _ _ s1 _ (w_imports wa) _ (w_imports wb)) as [r1 s2] eqn:Eloop.
      destruct Hp as [D1 [Hc2 [Hk2 I1]]]. cbn [fst snd] in *.
      destruct D1 as [[-> P1]|[[e ->] P1]]; cbn [sbind].
      - specialize (Hk2 eq_refl). unfold revert. rewrite Hk2. unfold s1. cbn [set_ks ks invert].
        pose proof (lookup_loop_post xt yt (fun s0 => match vkind (ks s0) with Cov => ECompExpMissing | Contra => ECompExpUnexpected end)
                      (fun s0 b0 => world_exports rec vf s0 xt (w_exports wa) yt b0) (w_exports wa) ea Hx Hy A2
                      ltac:(now intros ? [|[]]) (w_exports wb) eb (set_ks s2 (ks s)) B2 Hc2) as Hp2. cbn beta in Hp2.
        destruct Hp2 as [D2 [C2 [K2 I2]]]. unfold post. repeat split; auto.
        + eapply decides_iff; [|exact D2]. tauto.
        + eapply incl_tran; [exact I1 | exact I2].
      - unfold post. cbn [fst snd]. repeat split; auto; try discriminate. apply decides_err. tauto.
    Qed.

    Lemma module_spec s xt a yt b ma mb : E xt -> E yt -> cache_ok (cache s) ->
      get_mod xt a = Some ma -> get_mod yt b = Some mb -> post (MSub PGx ma mb) s (module_ s xt a yt b).
    Proof.
      intros Hx Hy Hc Ea Eb. unfold module_. rewrite Ea, Eb.
      destruct (id_eqb a b) eqn:Eid.
      - apply ideqb_eq in Eid. subst b. apply post_lift; [assumption|]. apply decides_ok.
        pose proof (E_same _ _ Hx Hy (lookup_same_tag Ea Eb)) as Et.
        subst yt. assert (ma = mb) by congruence. subst mb.
        destruct (E_nodup _ Hx) as [_ [_ Nm]]. destruct (Nm _ _ (lookup_nth _ _ _ _ Ea)). now apply (MSub_refl PGx PGx_refl).
      - pose proof (module_exports_spec (vkind (ks s)) (m_exports ma) (m_exports mb)) as H2. cbv zeta.
        destruct (module_imports_spec (vkind (ks s)) (vkind (ks (set_ks s (invert (ks s))))) (m_imports mb) (m_imports ma))
          as [[-> P1]|[[e ->] P1]].
        + apply (post_lift _ s _ Hc). eapply decides_iff; [|exact H2]. unfold MSub. tauto.
        + unfold post. cbn [fst snd set_ks cache]. repeat split; auto; try discriminate; [|apply incl_refl].
          apply decides_err. unfold MSub. tauto.
    Qed.
  End Level.

  Lemma cache_mem_in p c : cache_mem p c = true <-> In p c.
  Proof.
    unfold cache_mem. rewrite existsb_exists. split.
    - intros [q [Hin Hq]]. unfold pair_eqb in Hq. apply andb_true_iff in Hq as [H1 H2].
      apply kindeqb_eq in H1, H2. destruct p, q; cbn [fst snd] in *. now subst.
    - intro Hin. exists p. split; [assumption|]. unfold pair_eqb. apply andb_true_iff. split; now apply kindeqb_eq.
  Qed.

  (** Main characterisation: on kinds that have a denotation, the checker (with any memo that satisfies the
      invariant, any variance stack) returns Ok or Err, Ok exactly on the pairs of [SubX]; the invariant is
      kept, the memo only grows, and the variance stack is restored on Ok. *)
  Lemma is_subtype_spec g : forall F s xt x yt y tx ty, (g <= F)%nat -> E xt -> E yt -> cache_ok (cache s) ->
    unfold g xt x = Some tx -> unfold g yt y = Some ty -> post (SubX tx ty) s (is_subtype F s xt x yt y).
  Proof.
    induction g as [|g IH]; intros F s xt x yt y tx ty HF Hx Hy Hc Hux Huy; [discriminate|].
    destruct F as [|F]; [lia|]. cbn [is_subtype].
    destruct (cache_mem (x, y) (cache s)) eqn:Emem.
    { apply cache_mem_in in Emem. apply post_lift; [assumption|]. apply decides_ok. apply (Hc x y Emem xt yt (S g) tx ty Hx Hy Hux Huy). }
    assert (Hrec : forall s xt x yt y tx ty, E xt -> E yt -> cache_ok (cache s) ->
              unfold g xt x = Some tx -> unfold g yt y = Some ty -> post (SubX tx ty) s (is_subtype F s xt x yt y)).
    { intros. apply IH; auto. lia. }
    assert (Hcore : post (SubX tx ty) s (is_subtype_ (is_subtype F) (S F) s xt x yt y)).
    { pose proof Hux as Hux'. pose proof Huy as Huy'. rewrite unfold_eq in Hux', Huy'. unfold unfold_body in Hux', Huy'.
      assert (Hoff : khead x <> khead y -> forall r, (exists e, r = Err e) -> post (SubX tx ty) s (lift r s)).
      { intros Hh r [e ->]. apply post_lift; [assumption|]. apply decides_err. intro S. apply Sub_head in S.
        now rewrite (unfold_head _ _ _ _ Hux), (unfold_head _ _ _ _ Huy) in S. }
      pose proof (desc_kind_total (S g) xt (S F) x tx HF Hux) as Dx.
      pose proof (desc_kind_total (S g) yt (S F) y ty HF Huy) as Dy.
      pose proof (E_same xt yt Hx Hy) as same.
      destruct x as [[xr|xi|xv|xi|xw|xm]|xi|xi|xw|xm|xv], y as [[yr|yi|yv|yi|yw|ym]|yi|yi|yw|ym|yv];
        cbn [is_subtype_ ty_];
        try (apply Hoff; [discriminate | apply mismatch_err; [exact Dx | exact Dy]]);
        clear Hoff Dx Dy; apply option_map_some in Hux' as [z [Ez ->]], Huy' as [z0 [Ez0 ->]];
        (eapply post_iff; [symmetry; apply Sub_iff|]); cbv beta iota.
      1: { apply post_lift; [assumption|]. apply (resource_spec xt yt same (S g) (S F) _ _ _ _ _ HF Ez Ez0). }
      (* goals in the order tres tfunc tvalue tinst tcomp tmod func inst comp mod value; an item and its type-level
         twin are closed by the same lemma, hence the pairs: funcs, values, instances, components, then modules *)
      1,6: apply post_lift; [assumption|]; (eapply decides_iff; [symmetry; apply FSub_eq_iff|]);
        apply (func_spec xt yt same (S g) (S F) _ _ _ _ _ HF Ez Ez0).
      1,8: apply post_lift; [assumption|]; (eapply decides_iff; [symmetry; apply VSub_eq_iff|]);
        apply (value_type_spec xt yt same (S g) (S F) _ _ _ _ _ HF Ez Ez0).
      1,4: apply (interface_spec g (is_subtype F) Hrec (S F) HF s xt _ yt _ z z0 Hx Hy Hc Ez Ez0).
      1,3: destruct z as [ia ea], z0 as [ib eb];
        apply (world_spec g (is_subtype F) Hrec (S F) HF s xt _ yt _ ia ea ib eb Hx Hy Hc Ez Ez0).
      all: apply (module_spec s xt _ yt _ z z0 Hx Hy Hc Ez Ez0). }
    destruct (is_subtype_ (is_subtype F) (S F) s xt x yt y) as [r s'] eqn:Er.
    destruct Hcore as [D [C [K I]]]. cbn [fst snd] in *.
    destruct D as [[-> P]|[[e ->] P]].
    - unfold post. cbn [fst snd ks cache]. repeat split; auto.
      + now apply decides_ok.
      + intros x' y' [Eq|Hin]; [|now apply C].
        injection Eq as <- <-. intros xt' yt' g' tx' ty' Hx' Hy' Hux'' Huy''.
        rewrite (unfold_indep _ _ _ _ _ _ _ Hx' Hx Hux'' Hux), (unfold_indep _ _ _ _ _ _ _ Hy' Hy Huy'' Huy). exact P.
      + intros p Hp. right. now apply I.
    - unfold post. cbn [fst snd]. repeat split; auto; try discriminate. now apply decides_err.
  Qed.
End Items.
