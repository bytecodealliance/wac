(** C04: the hypotheses of the simulation theorem are satisfiable: a universe with an injective name
    table (strings as positives: every code point in unary), checked against [uok]. *)
From Coq Require Import List Arith Bool NArith String Lia.
From WacV Require Import Str StrLit Token Lexer LexImpl Semver Names Ast Parser Graph Resolver LangSpec
  ResolverProofs ResolverSim ResolverSimStmt ResolverWitness.
Import ListNotations.
Local Open Scope N_scope.

Fixpoint zeros (n : nat) (p : positive) : positive := match n with O => p | Datatypes.S m => xO (zeros m p) end.

Fixpoint enc_str (s : str) : positive :=
  match s with
  | [] => xH
  | c :: r => zeros (N.to_nat c) (xI (enc_str r))
  end.

Fixpoint dec_pos (p : positive) (acc : N) : str :=
  match p with
  | xH => []
  | xO q => dec_pos q (acc + 1)
  | xI q => acc :: dec_pos q 0
  end.

Lemma dec_zeros n q acc : dec_pos (zeros n q) acc = dec_pos q (acc + N.of_nat n).
Proof.
  revert acc. induction n as [|n IH]; intros acc; cbn [zeros dec_pos].
  - now rewrite N.add_0_r.
  - rewrite IH. f_equal. lia.
Qed.

Lemma dec_enc s : dec_pos (enc_str s) 0 = s.
Proof.
  induction s as [|c r IH]; cbn [enc_str]; [reflexivity|].
  rewrite dec_zeros. cbn [dec_pos]. rewrite IH, N.add_0_l, N2Nat.id. reflexivity.
Qed.

Definition intern_str (s : str) : name := Npos (enc_str s).
Definition text_name (n : name) : str := match n with N0 => [] | Npos p => dec_pos p 0 end.

Lemma text_intern s : text_name (intern_str s) = s.
Proof. apply dec_enc. Qed.

Definition n_ (s : str) : name := intern_str s.

(** the witness universe of [ResolverWitness], with this name table *)
Definition v_graph : universe := {|
  u_inst_exports := fun k => if k =? 1 then Some [(n_ (L"f"), 0); (n_ (L"x:y/f"), 0)]
                             else if k =? 2 then Some [(n_ (L"g"), 0)] else None;
  u_pkgs := [ {| pd_inst := 1; pd_imports := [] |};
              {| pd_inst := 2; pd_imports := [(n_ (L"f"), 0); (n_ (L"x:y/f"), 0)] |} ];
  u_tys := [];
  u_lkinds := [0; 1; 2];
  u_sub := N.eqb;
  u_import_name_ok := fun _ => true;
  u_export_name_ok := fun _ => true |}.

Definition v_universe : runiverse := {|
  ru_graph := v_graph;
  ru_intern := intern_str;
  ru_text := text_name;
  ru_pkg_find := ru_pkg_find w_universe;
  ru_pkg_defs := fun _ => [];
  ru_proj_exports := fun _ => None;
  ru_promote := fun k => k;
  ru_kind_id := fun _ => None;
  ru_func_kind := fun s => match s with [] => Some 0 | _ => None end |}.

Definition v_K (k : kid) : Prop := k < 3.

Lemma v_uok : uok v_universe v_K.
Proof.
  constructor.
  - exact text_intern.
  - intros p pd n k Hp Hin. destruct p as [|[|[|p]]]; cbn in Hp; try discriminate; injection Hp as <-; cbn in Hin.
    + destruct Hin.
    + destruct Hin as [[= <- _]|[[= <- _]|[]]]; cbn [ru_text ru_intern v_universe]; unfold n_; now rewrite text_intern.
  - intros k ex n k' He Hin. cbn in He. destruct (k =? 1).
    + injection He as <-. destruct Hin as [[= <- _]|[[= <- _]|[]]]; cbn [ru_text ru_intern v_universe]; unfold n_; now rewrite text_intern.
    + destruct (k =? 2); [|discriminate]. injection He as <-.
      destruct Hin as [[= <- _]|[]]; cbn [ru_text ru_intern v_universe]; unfold n_; now rewrite text_intern.
  - intros nm v p H. cbn in H. destruct v; [discriminate|]. cbn.
    destruct (str_eqb nm _); [injection H as <-; lia|]. destruct (str_eqb nm _); [injection H as <-; lia|discriminate].
  - intros p pd Hp. destruct p as [|[|[|p]]]; cbn in Hp; try discriminate; injection Hp as <-; cbn.
    + constructor.
    + constructor; [|constructor; [intros []|constructor]]. intros [E|[]]. vm_compute in E. discriminate.
  - intros k Hk. unfold v_K in Hk. assert (E : k = 0 \/ k = 1 \/ k = 2) by lia.
    destruct E as [-> | [-> | ->]]; reflexivity.
  - intros k Hk. exact Hk.
  - intros s k H. cbn in H. destruct s; [injection H as <-; unfold v_K; lia|discriminate].
  - intros p s k [].
  - intros k ex s k' _ H. discriminate.
  - intros p pd Hp. destruct p as [|[|[|p]]]; cbn in Hp; try discriminate; injection Hp as <-; unfold v_K; cbn; lia.
  - intros k ex n k' _ He Hin. cbn in He. destruct (k =? 1).
    + injection He as <-. destruct Hin as [[= _ <-]|[[= _ <-]|[]]]; unfold v_K; lia.
    + destruct (k =? 2); [|discriminate]. injection He as <-. destruct Hin as [[= _ <-]|[]]; unfold v_K; lia.
Qed.

(** ... and the simulation theorem applies to a concrete program with all four argument forms *)
Definition v_checks (src : str) : bool :=
  match parse src with
  | Some d =>
      match pd_targets (doc_directive d), resolve v_universe d with
      | None, inl _ => true
      | _, _ => false
      end
  | None => false
  end.

Lemma v_checks_args : v_checks w_args = true.
Proof. vm_compute. reflexivity. Qed.

(** what [v_checks] establishes, for any source: stated about a variable so that nothing is evaluated again *)
Lemma v_checks_instance src d :
  v_checks src = true -> parse src = Some d ->
  exists st env vm, resolve v_universe d = inl st /\ denote impl_flags_c04 v_universe d = inl env /\ Rel v_universe v_K st env vm.
Proof.
  unfold v_checks. intros C P. rewrite P in C.
  destruct (pd_targets (doc_directive d)) eqn:NT; [discriminate|].
  pose proof (resolve_simulates_denote v_universe v_K d v_uok NT) as S.
  destruct (resolve v_universe d) as [st|f]; [|discriminate].
  destruct (denote impl_flags_c04 v_universe d) as [env|i]; [|destruct S].
  destruct S as (vm & R). exists st, env, vm. split; [reflexivity|]. split; [reflexivity|exact R].
Qed.

Lemma v_instance d :
  parse w_args = Some d ->
  exists st env vm, resolve v_universe d = inl st /\ denote impl_flags_c04 v_universe d = inl env /\ Rel v_universe v_K st env vm.
Proof. exact (v_checks_instance w_args d v_checks_args). Qed.

Lemma v_checks_parses src : v_checks src = true -> exists d, parse src = Some d.
Proof. unfold v_checks. destruct (parse src) as [d|]; [eauto|discriminate]. Qed.

Lemma v_parses : exists d, parse w_args = Some d.
Proof. exact (v_checks_parses w_args v_checks_args). Qed.
