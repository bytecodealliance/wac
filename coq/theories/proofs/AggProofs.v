(** The name bookkeeping of the aggregator model ([agg_add], [canonical_name]) against the
    specification's [canon_in]: after ANY sequence of successful aggregations, every aggregated name is
    answered by the highest-versioned aggregated name on its semver track, there is exactly one entry
    per track, and the entry carries the sort every sharer asked for (C03).
    This is the encoder's import table (model/EncodeModel.v), not the type aggregator of model/Aggregator.v;
    [higher a b] here is WiringSpec's (b above a). *)
From Coq Require Import List Bool.
From WacV Require Import Str Ord Semver Names NamesSpec SemverProofs NamesProofs NameMapProofs
  Wiring WiringSpec EncodeModel WiringDecode StrFacts ListFacts.
Import ListNotations.
Local Open Scope nat_scope.

Lemma version_ltb_irrefl v : version_ltb v v = false.
Proof. unfold version_ltb. now rewrite (tc_refl _ cmp_version_total). Qed.

Lemma version_ltb_trans a b c : version_ltb a b = true -> version_ltb b c = true -> version_ltb a c = true.
Proof. rewrite !version_ltb_lt. apply (tc_trans _ cmp_version_total). Qed.

Lemma version_ltb_total a b : version_ltb a b = false -> version_ltb b a = false -> a = b.
Proof.
  pose proof cmp_version_total as T. unfold version_ltb. rewrite (tc_anti _ T a b).
  destruct (cmp_version a b) eqn:E; cbn; try discriminate. intros _ _. now apply (tc_eq _ T).
Qed.

Lemma version_le_lt a b c : version_ltb b a = false -> version_ltb b c = true -> version_ltb a c = true.
Proof.
  intros H1 H2. destruct (version_ltb a b) eqn:E.
  - eapply version_ltb_trans; eauto.
  - assert (a = b) by (apply version_ltb_total; auto). now subst.
Qed.

Lemma higher_irrefl a : higher a a = false.
Proof. unfold higher. destruct (alt_key a) as [[k v]|]; auto. apply version_ltb_irrefl. Qed.

Lemma higher_antisym a b : compat a b = true -> higher a b = false -> higher b a = false -> a = b.
Proof.
  intros C H1 H2. apply compat_true_iff in C as [?|[k [va [vb [Ka Kb]]]]]; auto.
  unfold higher in *. rewrite Ka, Kb in *. assert (va = vb) by (apply version_ltb_total; auto). subst.
  eapply alt_key_inj; eauto.
Qed.

(** [a <= b < c] on one track *)
Lemma higher_le_lt a b c : compat a b = true -> higher b a = false -> higher b c = true -> higher a c = true.
Proof.
  intros C H1 H2. unfold higher in *.
  destruct (alt_key b) as [[kb vb]|] eqn:Kb; try discriminate.
  destruct (alt_key c) as [[kc vc]|] eqn:Kc; try discriminate.
  apply compat_true_iff in C as [->|[k [va [vb' [Ka Kb']]]]].
  - rewrite Kb in *. rewrite version_ltb_irrefl in H1. exact H2.
  - rewrite Ka in *. rewrite Kb in Kb'. injection Kb' as <- <-. eapply version_le_lt; eauto.
Qed.

Lemma higher_lt_le a b c : compat b c = true -> higher a b = true -> higher c b = false -> higher a c = true.
Proof.
  (* a < b <= c *)
  intros C H1 H2. unfold higher in *.
  destruct (alt_key a) as [[ka va]|] eqn:Ka; try discriminate.
  destruct (alt_key b) as [[kb vb]|] eqn:Kb; try discriminate.
  apply compat_true_iff in C as [<-|[k [vb' [vc [Kb' Kc]]]]].
  - rewrite Kb. exact H1.
  - rewrite Kc in *. rewrite Kb in Kb'. injection Kb' as <- <-.
    destruct (version_ltb vb vc) eqn:E.
    + eapply version_ltb_trans; eauto.
    + assert (vb = vc) by (apply version_ltb_total; auto). now subst.
Qed.

Lemma higher_trans a b c : higher a b = true -> higher b c = true -> higher a c = true.
Proof.
  unfold higher. destruct (alt_key a) as [[ka va]|]; try discriminate.
  destruct (alt_key b) as [[kb vb]|]; try discriminate. destruct (alt_key c) as [[kc vc]|]; try discriminate.
  apply version_ltb_trans.
Qed.

Lemma canon_fold_spec q : forall names best, compat best q = true ->
  let c := fold_left (fun best n => if compat n q && higher best n then n else best) names best in
  (c = best \/ In c names) /\ compat c q = true /\ higher c best = false /\
  (forall n, In n names -> compat n q = true -> higher c n = false).
Proof.
  induction names as [|m r IH]; intros best Cb; cbn.
  - repeat split; auto. apply higher_irrefl. intros n [].
  - destruct (compat m q && higher best m) eqn:E.
    + apply andb_true_iff in E as [Cm Hm].
      destruct (IH m Cm) as [I1 [I2 [I3 I4]]]. repeat split; auto.
      * destruct I1 as [->|?]; auto.
      * destruct (higher (fold_left _ r m) best) eqn:X; auto.
        rewrite (higher_trans _ _ _ X Hm) in I3. discriminate.
      * intros n [<-|In_n] Cn; auto.
    + destruct (IH best Cb) as [I1 [I2 [I3 I4]]]. repeat split; auto.
      * destruct I1 as [->|?]; auto.
      * intros n [<-|In_n] Cn; auto.
        apply andb_false_iff in E as [E|E]; [congruence|].
        destruct (higher (fold_left _ r best) m) eqn:X; auto.
        assert (Cnb : compat m best = true) by (rewrite (compat_sym best) in Cb; exact (compat_trans _ _ _ Cn Cb)).
        rewrite (higher_lt_le _ _ _ Cnb X E) in I3. discriminate.
Qed.

Lemma canon_in_spec names q :
  let c := canon_in names q in
  (c = q \/ In c names) /\ compat c q = true /\ higher c q = false /\
  (forall n, In n names -> compat n q = true -> higher c n = false).
Proof. apply canon_fold_spec, compat_refl. Qed.

(** the maximum is unique: [canon_in] depends only on the SET of names *)
Lemma canon_in_unique names q c :
  (c = q \/ In c names) -> compat c q = true ->
  (forall n, In n names -> compat n q = true -> higher c n = false) -> higher c q = false ->
  canon_in names q = c.
Proof.
  intros Hc Cc Hmax Hq.
  destruct (canon_in_spec names q) as [I1 [I2 [I3 I4]]]. set (c' := canon_in names q) in *.
  apply higher_antisym.
  - rewrite compat_sym in Cc. exact (compat_trans _ _ _ I2 Cc).
  - destruct Hc as [->|Hc]; auto.
  - destruct I1 as [E|I1]; [rewrite E; exact Hq | now apply Hmax].
Qed.

Lemma canon_in_set names names' q : (forall x, In x names <-> In x names') -> canon_in names q = canon_in names' q.
Proof.
  intros S. destruct (canon_in_spec names' q) as [I1 [I2 [I3 I4]]].
  apply canon_in_unique; auto.
  - destruct I1 as [?|I1]; auto. right. now apply S.
  - intros n In_n. apply I4. now apply S.
Qed.

Lemma find_entry_some nm l x : find_entry nm l = Some x -> In x l /\ ae_name x = nm.
Proof.
  unfold find_entry. intros H. apply find_some in H as [I E]. apply str_eqb_eq in E. auto.
Qed.
Lemma find_entry_none nm l : find_entry nm l = None -> ~ In nm (map ae_name l).
Proof.
  unfold find_entry. intros H I. apply in_map_iff in I as [x [E I]].
  pose proof (find_none _ _ H x I) as F. cbn in F. rewrite E, str_eqb_refl in F. discriminate.
Qed.

Lemma find_compat_some nm l x : find_compat nm l = Some x ->
  In x l /\ compat nm (ae_name x) = true /\
  exists k nv xv, alt_key nm = Some (k, nv) /\ alt_key (ae_name x) = Some (k, xv).
Proof.
  unfold find_compat. destruct (alt_key nm) as [[k nv]|] eqn:K; try discriminate.
  intros H. apply find_some in H as [I E]. destruct (alt_key (ae_name x)) as [[k' xv]|] eqn:K'; try discriminate.
  apply str_eqb_eq in E. subst k'. repeat split; auto.
  - apply compat_true_iff. right. eauto.
  - eauto.
Qed.

Lemma find_none_incompat nm l : find_entry nm l = None -> find_compat nm l = None ->
  forall x, In x l -> compat nm (ae_name x) = false.
Proof.
  intros H1 H2 x I. destruct (compat nm (ae_name x)) eqn:C; auto. exfalso.
  apply compat_true_iff in C as [E|[k [va [vb [Ka Kb]]]]].
  - apply (find_entry_none _ _ H1). rewrite E. now apply in_map.
  - unfold find_compat in H2. rewrite Ka in H2. pose proof (find_none _ _ H2 x I) as F. cbn in F.
    rewrite Kb, str_eqb_refl in F. discriminate.
Qed.

Lemma str_assoc_some {A} k (l : list (str * A)) v : str_assoc k l = Some v -> In (k, v) l.
Proof.
  induction l as [|[k' v'] r IH]; cbn; try discriminate.
  destruct (str_eqb_spec k' k) as [->|E]; auto. intros H. injection H as <-. auto.
Qed.
Lemma str_assoc_none {A} k (l : list (str * A)) : str_assoc k l = None -> ~ In k (map fst l).
Proof.
  induction l as [|[k' v'] r IH]; cbn; auto.
  destruct (str_eqb_spec k' k) as [E|E]; try discriminate. intros H [?|?]; [congruence | now apply IH].
Qed.

Definition anames (a : agg) : list str := map ae_name (a_imps a).

Record AggInv (a : agg) (H : list (str * sort)) : Prop := {
  ai_nodup : NoDup (anames a);
  ai_track : forall x y, In x (anames a) -> In y (anames a) -> compat x y = true -> x = y;
  ai_redir : forall k v, In (k, v) (a_redir a) ->
             compat k v = true /\ In v (anames a) /\ ~ In k (anames a) /\ In k (map fst H);
  ai_hist_in : forall x, In x (anames a) -> In x (map fst H);
  ai_covered : forall nm s, In (nm, s) H -> In nm (anames a) \/ In nm (map fst (a_redir a));
  ai_sort : forall nm s x, In (nm, s) H -> In x (a_imps a) -> compat nm (ae_name x) = true -> ae_sort x = s;
  ai_max : forall nm s x, In (nm, s) H -> In x (anames a) -> compat nm x = true -> higher x nm = false }.

Lemma agg_inv_empty : AggInv agg_empty [].
Proof. constructor; cbn; try tauto; try constructor. Qed.

Lemma in_snoc {A} (x y : A) l : In x (l ++ [y]) -> In x l \/ y = x.
Proof. intros I. apply in_app_or in I as [I|[I|[]]]; auto. Qed.
Lemma in_names_snoc {B} k (l : list (str * B)) e : In k (map fst l) -> In k (map fst (l ++ [e])).
Proof. intros I. rewrite map_app. apply in_or_app. now left. Qed.
Lemma in_names_last {B} (l : list (str * B)) k v : In k (map fst (l ++ [(k, v)])).
Proof. rewrite map_app. apply in_or_app. right. now left. Qed.

Lemma agg_canonical a H nm s : AggInv a H -> In (nm, s) H ->
  In (canonical_name a nm) (anames a) /\ compat nm (canonical_name a nm) = true.
Proof.
  intros AI I. unfold canonical_name. destruct (str_assoc nm (a_redir a)) as [c|] eqn:A.
  - apply str_assoc_some in A. destruct (ai_redir _ _ AI _ _ A) as [? [? _]]. auto.
  - destruct (ai_covered _ _ AI _ _ I) as [I'|I'].
    + split; auto. apply compat_refl.
    + now elim (str_assoc_none _ _ A).
Qed.

Lemma agg_add_inv a H nm s iid a' :
  AggInv a H -> agg_add a nm s iid = AggOk a' -> AggInv a' (H ++ [(nm, s)]).
Proof.
  intros AI R. pose proof AI as [ND TR RD HI CV SO MX]. unfold agg_add in R.
  assert (HI' : forall x, In x (anames a) -> In x (map fst (H ++ [(nm, s)]))) by (intros x I; apply in_names_snoc, HI, I).
  assert (RD' : forall k v, In (k, v) (a_redir a) ->
                  compat k v = true /\ In v (anames a) /\ ~ In k (anames a) /\ In k (map fst (H ++ [(nm, s)]))).
  { intros k v I. destruct (RD _ _ I) as [? [? [? ?]]]. auto using in_names_snoc. }
  destruct (find_entry nm (a_imps a)) as [ex|] eqn:FE.
  - (* the name is an entry already *)
    apply find_entry_some in FE as [Iex Eex].
    destruct (sort_eqb (ae_sort ex) s) eqn:ES; try discriminate. injection R as <-. apply sort_eqb_eq in ES.
    assert (In_nm : In nm (anames a)) by (rewrite <- Eex; now apply in_map).
    assert (Unm : forall x, In x (anames a) -> compat nm x = true -> x = nm).
    { intros x Ix C. apply TR; auto. now rewrite compat_sym. }
    constructor; auto.
    + intros nm0 s0 I. apply in_snoc in I as [I|[= <- <-]]; [exact (CV _ _ I) | now left].
    + intros nm0 s0 x I Ix C. apply in_snoc in I as [I|[= <- <-]]; [exact (SO _ _ _ I Ix C)|].
      rewrite (NoDup_map_inj ae_name _ x ex ND Ix Iex); auto. rewrite Eex. apply Unm; auto. now apply in_map.
    + intros nm0 s0 x I Ix C. apply in_snoc in I as [I|[= <- <-]]; [exact (MX _ _ _ I Ix C)|].
      rewrite (Unm _ Ix C). apply higher_irrefl.
  - destruct (find_compat nm (a_imps a)) as [ex|] eqn:FC.
    + (* an entry on the same track *)
      pose proof (find_entry_none _ _ FE) as Nnm.
      apply find_compat_some in FC as [Iex [Cex [k [nv [xv [Kn Kx]]]]]].
      destruct (negb (sort_eqb (ae_sort ex) s)) eqn:ES; try discriminate.
      apply negb_false_iff, sort_eqb_eq in ES. rewrite Kn, Kx in R.
      assert (In_ex : In (ae_name ex) (anames a)) by now apply in_map.
      assert (Uk : forall y, In y (anames a) -> compat nm y = true -> y = ae_name ex).
      { intros y Iy Cy. apply TR; auto. rewrite compat_sym in Cy. exact (compat_trans _ _ _ Cy Cex). }
      assert (Uex : forall x, In x (a_imps a) -> compat nm (ae_name x) = true -> x = ex).
      { intros x Ix Cx. apply (NoDup_map_inj ae_name _ _ _ ND Ix Iex), Uk; auto. now apply in_map. }
      assert (Hx : higher (ae_name ex) nm = version_ltb xv nv) by (unfold higher; now rewrite Kx, Kn).
      destruct (version_ltb xv nv) eqn:LT; injection R as <-.
      * (* the new name is higher: it replaces the entry *)
        assert (Nh : ~ In nm (map fst H)).
        { intros I. apply in_map_iff in I as [[nm0 s0] [E I]]. cbn in E. subst nm0.
          pose proof (MX _ _ _ I In_ex Cex). congruence. }
        set (a' := Build_agg _ _).
        assert (AN : anames a' = filter (fun y => negb (str_eqb y (ae_name ex))) (anames a) ++ [nm]).
        { unfold anames. cbn. rewrite map_app. cbn. f_equal. clear. induction (a_imps a) as [|b r IH]; cbn; auto.
          destruct (negb (str_eqb (ae_name b) (ae_name ex))); cbn; now rewrite IH. }
        assert (FI : forall y, In y (filter (fun y => negb (str_eqb y (ae_name ex))) (anames a) ++ [nm]) <->
                               (In y (anames a) /\ y <> ae_name ex) \/ nm = y).
        { intros y. rewrite in_app_iff, filter_In, negb_true_iff, str_eqb_neq. cbn. tauto. }
        constructor; rewrite ?AN; subst a'.
        -- apply NoDup_app_one; [now apply NoDup_filter|]. intros I. apply filter_In in I. tauto.
        -- intros x y Ix Iy C. apply FI in Ix as [[Ix Nx]|<-], Iy as [[Iy Ny]|<-]; auto.
           ++ elim Nx. apply Uk; auto. now rewrite compat_sym.
           ++ elim Ny. now apply Uk.
        -- intros k0 v I. cbn in I. destruct I as [[= <- <-]|I].
           ++ repeat split; [now rewrite compat_sym | apply FI; auto | | exact (HI' _ In_ex)].
              intros I. apply FI in I as [[_ N]|E]; [now apply N | apply Nnm; rewrite E; exact In_ex].
           ++ apply in_map_iff in I as [[k1 v1] [E I]]. cbn in E. destruct (RD _ _ I) as [C1 [I1 [N1 H1]]].
              assert (N1' : ~ In k1 (filter (fun y => negb (str_eqb y (ae_name ex))) (anames a) ++ [nm])).
              { intros I'. apply FI in I' as [[I' _]|E']; [exact (N1 I') | subst k1; exact (Nh H1)]. }
              destruct (str_eqb_spec v1 (ae_name ex)) as [Ev|Ev]; injection E as <- <-; (repeat split; [ | | exact N1' | now apply in_names_snoc]).
              ** subst v1. rewrite compat_sym in Cex. exact (compat_trans _ _ _ C1 Cex).
              ** apply FI. auto.
              ** exact C1.
              ** apply FI. auto.
        -- intros x I. apply FI in I as [[I _]|<-]; [exact (HI' _ I) | apply in_names_last].
        -- intros nm0 s0 I. apply in_snoc in I as [I|[= <- <-]]; [|left; apply FI; auto].
           destruct (CV _ _ I) as [I'|I'].
           ++ destruct (str_eqb_spec nm0 (ae_name ex)) as [->|N0]; [right; now left | left; apply FI; auto].
           ++ right. cbn. right. rewrite map_map. apply in_map_iff in I' as [[k1 v1] [E I']]. cbn in E. subst k1.
              apply in_map_iff. exists (nm0, v1). split; auto. cbn. now destruct (str_eqb v1 (ae_name ex)).
        -- intros nm0 s0 x I Ix C. cbn in Ix. apply in_snoc in Ix as [Ix|<-].
           ++ apply filter_In in Ix as [Ix Nx]. apply in_snoc in I as [I|[= <- <-]]; [exact (SO _ _ _ I Ix C)|].
              rewrite (Uex _ Ix C), str_eqb_refl in Nx. discriminate.
           ++ cbn [ae_name ae_sort] in *. apply in_snoc in I as [I|[= <- <-]]; [|exact ES].
              exact (SO _ _ _ I Iex (compat_trans _ _ _ C Cex)).
        -- intros nm0 s0 x I Ix C. apply FI in Ix as [[Ix Nx]|<-].
           ++ apply in_snoc in I as [I|[= <- <-]]; [exact (MX _ _ _ I Ix C)|]. elim Nx. now apply Uk.
           ++ apply in_snoc in I as [I|[= <- <-]]; [|apply higher_irrefl].
              (* nm0 <= ex < nm *)
              pose proof (MX _ _ _ I In_ex (compat_trans _ _ _ C Cex)) as M0.
              destruct (higher nm nm0) eqn:X; auto.
              rewrite (higher_trans _ _ _ Hx X) in M0. discriminate.
      * (* the entry stays; the new name redirects to it *)
        constructor; auto.
        -- intros k0 v I. cbn in I. destruct I as [[= <- <-]|I]; [|exact (RD' _ _ I)].
           repeat split; auto. apply in_names_last.
        -- intros nm0 s0 I. cbn. apply in_snoc in I as [I|[= <- <-]]; [|auto]. destruct (CV _ _ I); auto.
        -- intros nm0 s0 x I Ix C. apply in_snoc in I as [I|[= <- <-]]; [exact (SO _ _ _ I Ix C)|].
           now rewrite (Uex _ Ix C).
        -- intros nm0 s0 x I Ix C. apply in_snoc in I as [I|[= <- <-]]; [exact (MX _ _ _ I Ix C)|].
           rewrite (Uk _ Ix C). exact Hx.
    + (* a new track *)
      injection R as <-.
      pose proof (find_entry_none _ _ FE) as Nnm.
      pose proof (find_none_incompat _ _ FE FC) as Inc.
      set (a' := Build_agg _ _).
      assert (AN : anames a' = anames a ++ [nm]) by (unfold anames; cbn; now rewrite map_app).
      assert (Inc' : forall y, In y (anames a) -> compat nm y = false).
      { intros y I. apply in_map_iff in I as [x [<- I]]. auto. }
      (* no name of the history is on the track of [nm]: the entry that answers it would be *)
      assert (NH : forall nm0 s0, In (nm0, s0) H -> compat nm0 nm = false).
      { intros nm0 s0 I. destruct (agg_canonical _ _ _ _ AI I) as [Ix Cx]. destruct (compat nm0 nm) eqn:C; auto.
        rewrite compat_sym in C. pose proof (Inc' _ Ix) as F. rewrite (compat_trans _ _ _ C Cx) in F. discriminate. }
      constructor; rewrite ?AN; subst a'.
      * now apply NoDup_app_one.
      * intros x y Ix Iy C. apply in_snoc in Ix as [Ix|<-]; apply in_snoc in Iy as [Iy|<-]; auto.
        -- rewrite compat_sym, (Inc' _ Ix) in C. discriminate.
        -- rewrite (Inc' _ Iy) in C. discriminate.
      * intros k v I. cbn in I. destruct (RD' _ _ I) as [C1 [I1 [N1 H1]]]. repeat split; auto.
        -- apply in_or_app. auto.
        -- intros I'. apply in_snoc in I' as [I'|<-]; auto. rewrite (Inc' _ I1) in C1. discriminate.
      * intros x I. apply in_snoc in I as [I|<-]; [exact (HI' _ I) | apply in_names_last].
      * intros nm0 s0 I. cbn. apply in_snoc in I as [I|[= <- <-]].
        -- destruct (CV _ _ I); auto. left. apply in_or_app. auto.
        -- left. apply in_or_app. right. now left.
      * intros nm0 s0 x I Ix C. cbn in Ix. apply in_snoc in Ix as [Ix|<-]; apply in_snoc in I as [I|[= <- <-]].
        -- exact (SO _ _ _ I Ix C).
        -- rewrite (Inc _ Ix) in C. discriminate.
        -- cbn in C. rewrite (NH _ _ I) in C. discriminate.
        -- reflexivity.
      * intros nm0 s0 x I Ix C. apply in_snoc in Ix as [Ix|<-]; apply in_snoc in I as [I|[= <- <-]].
        -- exact (MX _ _ _ I Ix C).
        -- rewrite (Inc' _ Ix) in C. discriminate.
        -- rewrite (NH _ _ I) in C. discriminate.
        -- apply higher_irrefl.
Qed.

Lemma agg_canon_eq a H nm s : AggInv a H -> In (nm, s) H -> canonical_name a nm = canon_in (map fst H) nm.
Proof.
  intros AI I. destruct (agg_canonical _ _ _ _ AI I) as [Ic Cc]. symmetry. apply canon_in_unique.
  - right. now apply (ai_hist_in _ _ AI).
  - now rewrite compat_sym.
  - intros n In_n Cn. apply in_map_iff in In_n as [[n0 s0] [E In_n]]. cbn in E. subst n0.
    exact (ai_max _ _ AI _ _ _ In_n Ic (compat_trans _ _ _ Cn Cc)).
  - exact (ai_max _ _ AI _ _ _ I Ic Cc).
Qed.

Lemma agg_entry_sort a H nm s x : AggInv a H -> In (nm, s) H -> In x (a_imps a) ->
  ae_name x = canonical_name a nm -> ae_sort x = s.
Proof.
  intros AI I Ix E. destruct (agg_canonical _ _ _ _ AI I) as [_ Cc].
  apply (ai_sort _ _ AI _ _ _ I Ix). now rewrite E.
Qed.

Fixpoint agg_run (a : agg) (L : list (str * sort * option str)) : option agg :=
  match L with
  | [] => Some a
  | (nm, s, iid) :: r => match agg_add a nm s iid with AggOk a' => agg_run a' r | AggKindMismatch => None end
  end.

Lemma agg_run_inv L : forall a H a', AggInv a H -> agg_run a L = Some a' ->
  AggInv a' (H ++ map (fun x : str * sort * option str => (fst (fst x), snd (fst x))) L).
Proof.
  induction L as [|[[nm s] iid] r IH]; intros a H a' AI R; cbn in *.
  - injection R as <-. now rewrite app_nil_r.
  - destruct (agg_add a nm s iid) as [a1|] eqn:A; try discriminate.
    pose proof (agg_add_inv _ _ _ _ _ _ AI A) as AI1.
    specialize (IH _ _ _ AI1 R). now rewrite <- app_assoc in IH.
Qed.

(** C03: for EVERY order in which import requirements are aggregated, every requirement is answered by
    ONE entry; that entry is named for the highest version among all aggregated names on the semver
    track of the requirement and carries the sort the requirement asked for. *)
Theorem canonical_is_highest_on_track L a nm s iid :
  agg_run agg_empty L = Some a -> In (nm, s, iid) L ->
  let c := canonical_name a nm in
  In c (map (fun x : str * sort * option str => fst (fst x)) L) /\ compat c nm = true /\
  (forall n s' i', In (n, s', i') L -> compat n nm = true -> higher c n = false) /\
  exists x, In x (a_imps a) /\ ae_name x = c /\ ae_sort x = s /\
            (forall y, In y (a_imps a) -> compat (ae_name y) nm = true -> y = x).
Proof.
  intros R I. pose proof (agg_run_inv _ _ _ _ agg_inv_empty R) as AI. cbn in AI.
  set (H := map (fun x : str * sort * option str => (fst (fst x), snd (fst x))) L) in *.
  assert (IH : In (nm, s) H) by (apply in_map_iff; exists (nm, s, iid); auto).
  destruct (agg_canonical _ _ _ _ AI IH) as [Ic Cc]. cbn.
  repeat split.
  - pose proof (ai_hist_in _ _ AI _ Ic) as Hc. unfold H in Hc. rewrite map_map in Hc. exact Hc.
  - now rewrite compat_sym.
  - intros n s' i' In_n Cn. apply (ai_max _ _ AI n s' _); [|exact Ic|exact (compat_trans _ _ _ Cn Cc)].
    apply in_map_iff. exists (n, s', i'). split; [reflexivity | auto].
  - apply in_map_iff in Ic as [x [Ex Ix]]. exists x. repeat split; auto.
    + exact (agg_entry_sort _ _ _ _ _ AI IH Ix Ex).
    + intros y Iy Cy. apply (NoDup_map_inj ae_name _ _ _ (ai_nodup _ _ AI) Iy Ix), (ai_track _ _ AI); [now apply in_map..|].
      rewrite Ex. exact (compat_trans _ _ _ Cy Cc).
Qed.
