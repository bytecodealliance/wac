(** Order facts used by the encoder simulation: what a topological enumeration gives, position
    lemmas, and fuel-independence of the specification's provenance function. *)
From Coq Require Import List Arith Bool NArith Lia.
From WacV Require Import Str Graph Wiring WiringSpec GraphInv ListFacts.
Import ListNotations.
Local Open Scope nat_scope.

Lemma index_of_app_notin n pre post : ~ In n pre -> index_of n (pre ++ n :: post) = length pre.
Proof.
  induction pre as [|m r IH]; cbn; intros H.
  - now rewrite Nat.eqb_refl.
  - destruct (m =? n) eqn:E; [apply Nat.eqb_eq in E; tauto|]. rewrite IH; auto.
Qed.

Lemma index_of_lt n l : In n l -> index_of n l < length l.
Proof.
  induction l as [|m r IH]; cbn; [tauto|]. intros H.
  destruct (m =? n) eqn:E; [lia|]. apply Nat.eqb_neq in E. destruct H; [congruence|]. apply IH in H. lia.
Qed.

Lemma nodupb_NoDup l : nodupb l = true -> NoDup l.
Proof.
  induction l as [|x r IH]; cbn; intros H; constructor.
  - apply andb_true_iff in H as [H _]. apply negb_true_iff in H. intros I. apply existsb_eqb_In in I. congruence.
  - apply andb_true_iff in H as [_ H]. auto.
Qed.

Lemma filter_app_mid {A} (f : A -> bool) pre x post :
  f x = true -> filter f (pre ++ x :: post) = filter f pre ++ x :: filter f post.
Proof. intros H. rewrite filter_app. cbn. now rewrite H. Qed.

Section Topo.
  Variable e : wenv.
  Variable u : universe.
  Variable g : gstate.
  Variable ord : list nat.

  Record Topo : Prop := {
    to_nodup : NoDup ord;
    to_live : forall n, In n ord -> live g n = true;
    to_all : forall n, In n (node_ids g) -> In n ord;
    to_edges : forall ed, In ed (edges g) -> index_of (esrc ed) ord < index_of (etgt ed) ord }.

  Lemma topo_orderb_Topo : topo_orderb g ord = true -> Topo.
  Proof.
    unfold topo_orderb. rewrite !andb_true_iff. intros [[[N A] L] E]. constructor.
    - now apply nodupb_NoDup.
    - intros n I. rewrite forallb_forall in L. auto.
    - intros n I. rewrite forallb_forall in A. apply A in I. now apply existsb_eqb_In in I.
    - intros ed I. rewrite forallb_forall in E. apply E in I. unfold precedes in I. now apply Nat.ltb_lt.
  Qed.

  Hypothesis T : Topo.

  Lemma ord_length : length ord <= length (nodes g).
  Proof.
    assert (I : incl ord (seq 0 (length (nodes g)))).
    { intros n H. apply in_seq. split; [lia|]. cbn. apply (to_live T) in H. unfold live, get_node in H.
      destruct (nth_error (nodes g) n) eqn:E; [|discriminate]. apply nth_error_Some. congruence. }
    pose proof (NoDup_incl_length (to_nodup T) I) as H. now rewrite seq_length in H.
  Qed.

  Lemma alias_source_precedes n src en :
    get_alias_source u g n = Some (src, en) -> index_of src ord < index_of n ord.
  Proof.
    unfold get_alias_source.
    destruct (find _ (incoming g n)) as [ed|] eqn:F; try discriminate.
    apply find_some in F as [I _]. unfold incoming in I. apply filter_In in I as [I Tn]. apply Nat.eqb_eq in Tn.
    destruct (ek ed); try discriminate. destruct (get_node g (esrc ed)); try discriminate.
    destruct (u_inst_exports u (nitem n0)); try discriminate. destruct (nth_error l i) as [[nm k]|]; try discriminate.
    intros H. injection H as <- <-. rewrite <- Tn. now apply (to_edges T).
  Qed.

  (** provenance does not depend on the fuel once it exceeds the node's position *)
  Lemma prov_of_stable : forall k n f, index_of n ord < k -> k <= f -> In n ord ->
    prov_of e u g f ord n = prov_of e u g k ord n.
  Proof.
    induction k as [|k IH]; intros n f Hk Hf I; [lia|].
    destruct f as [|f]; [lia|]. cbn.
    destruct (get_node g n) as [nd|]; auto. destruct (nk nd); auto.
    destruct (get_alias_source u g n) as [[src en]|] eqn:A; auto.
    pose proof (alias_source_precedes _ _ _ A) as P.
    assert (Is : In src ord).
    { destruct (in_dec Nat.eq_dec src ord) as [?|N]; auto. exfalso.
      (* a node outside the order has the maximal index: it cannot precede *)
      assert (index_of src ord = length ord).
      { clear -N. induction ord as [|m r IHr]; cbn in *; auto. destruct (m =? src) eqn:E; [apply Nat.eqb_eq in E; tauto|].
        rewrite IHr; auto. }
      pose proof (index_of_lt _ _ I). lia. }
    rewrite (IH src f) by (auto; lia). reflexivity.
  Qed.

  Lemma node_prov_unfold n : In n ord ->
    node_prov e u g ord n = prov_of e u g (S (index_of n ord)) ord n.
  Proof.
    intros I. unfold node_prov. apply prov_of_stable; auto.
    pose proof (index_of_lt _ _ I). pose proof ord_length. lia.
  Qed.

  Lemma node_prov_alias n nd src en :
    In n ord -> get_node g n = Some nd -> nk nd = NAlias -> get_alias_source u g n = Some (src, en) ->
    In src ord -> node_prov e u g ord n = PAli (node_prov e u g ord src) (nstr e en).
  Proof.
    intros I G K A Is. rewrite (node_prov_unfold n I), (node_prov_unfold src Is).
    pose proof (alias_source_precedes _ _ _ A) as P.
    remember (prov_of e u g (S (index_of src ord)) ord src) as rhs eqn:R.
    cbn [prov_of]. rewrite G, K, A. f_equal. subst rhs. apply prov_of_stable; auto; lia.
  Qed.

  Lemma node_prov_inst n nd sat : get_node g n = Some nd -> nk nd = NInst sat -> node_prov e u g ord n = PInst (rank g ord n).
  Proof. intros G K. unfold node_prov. cbn. now rewrite G, K. Qed.
  Lemma node_prov_def n nd : get_node g n = Some nd -> nk nd = NDef -> node_prov e u g ord n = PExp (def_name e g n).
  Proof. intros G K. unfold node_prov. cbn. now rewrite G, K. Qed.
  Lemma node_prov_import n nd nm : get_node g n = Some nd -> nk nd = NImport nm ->
    node_prov e u g ord n = PImp (canon e u g (nstr e nm)).
  Proof. intros G K. unfold node_prov. cbn. now rewrite G, K. Qed.
End Topo.
