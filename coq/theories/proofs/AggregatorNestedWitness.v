(** NESTED instance requirements: an executable check of the hypothesis ([den_f]: is this kind a nested-flat requirement?),
    non-vacuity of the nested theorems on concrete histories - among them the histories in which one anonymous interface
    has TWO parents, which refuted the statements before the repair (an anonymous interface is now copied once per mention;
    the same case lines are replayed on the real aggregator) - and the witness that refutes the statements for nested
    interfaces WITH an identifier. *)
From Coq Require Import ZArith Lia Permutation.
From WacV Require Import Str Names NamesSpec Types Checker SubSpec CheckerEq SubSpecProofs CheckerValue CheckerProofs.
From WacV Require Import Aggregator AggregatorSpec AggregatorFrame AggregatorRemap AggregatorChecker AggregatorNames
     AggregatorCanonical AggregatorFlat AggregatorHistory AggregatorWitness
     AggregatorNestedSpec AggregatorNestedDen AggregatorNestedHistory StrFacts.

(** [den_f] / [iden_f]: a sound executable test for [SDen] / [SIDen] *)
Fixpoint nodupb (l : list str) : bool :=
  match l with [] => true | x :: r => negb (existsb (str_eqb x) r) && nodupb r end.
Lemma nodupb_sound l : nodupb l = true -> NoDup l.
Proof.
  induction l as [|x l IH]; cbn [nodupb]; intros H; constructor; apply andb_true_iff in H as [H1 H2]; auto.
  intros Hin. apply negb_true_iff in H1. assert (X : existsb (str_eqb x) l = true); [|congruence].
  apply existsb_exists. exists x. split; auto. apply str_eqb_refl.
Qed.

Fixpoint den_kids (F : kind -> option (tree * list id)) (exs : list (str * kind))
  : option (list (str * tree) * list (str * list id)) :=
  match exs with
  | [] => Some ([], [])
  | (n, k) :: r => match F k, den_kids F r with
                   | Some (tr, ids), Some (e, ol) => Some ((n, tr) :: e, (n, ids) :: ol)
                   | _, _ => None
                   end
  end.
Definition own_of (ol : list (str * list id)) (n : str) : list id := match assoc n ol with Some l => l | None => [] end.

Definition iden_f (F : kind -> option (tree * list id)) (T : types) (y : id) : option (option str * list (str * tree) * list id) :=
  match get_if T y with
  | Some (mkif oid [] exs) =>
    if nodupb (map fst exs) then
      match den_kids F exs with
      | Some (e, ol) => Some (oid, e, y :: flat_map (own_of ol) (map fst exs))
      | None => None
      end
    else None
  | _ => None
  end.
(** [G] = fuel for the leaves' trees, [d] = nesting depth *)
Fixpoint den_f (G d : nat) (T : types) (k : kind) : option (tree * list id) :=
  match d with
  | O => None
  | S d' =>
    match k with
    | KInstance y => match iden_f (den_f G d' T) T y with
                     | Some (None, e, ids) => Some (XInst e, ids)
                     | _ => None
                     end
    | _ => if leafk k then match unfold G T k with
                           | Some tr => if resfree tr then Some (tr, []) else None
                           | None => None
                           end
           else None
    end
  end.

Lemma den_kids_sound F : forall exs e ol, den_kids F exs = Some (e, ol) -> NoDup (map fst exs) ->
  kids (fun k tr ids => F k = Some (tr, ids)) (own_of ol) exs e.
Proof.
  induction exs as [|[n k] r IH]; intros e ol H ND; cbn [den_kids] in H.
  - injection H as <- <-. constructor.
  - destruct (F k) as [[tr ids]|] eqn:Ek; [|discriminate]. destruct (den_kids F r) as [[e' ol']|] eqn:Er; [|discriminate].
    injection H as <- <-. cbn [map fst] in ND. inversion ND as [|? ? Hn ND']; subst. constructor.
    + cbn [fst snd]. split; auto. unfold own_of. cbn [assoc]. now rewrite str_eqb_refl.
    + apply (kids_impl (fun k tr ids => F k = Some (tr, ids)) (fun k tr ids => F k = Some (tr, ids)) (own_of ol') (own_of ((n, ids) :: ol')) r e');
        [|now apply IH].
      intros m k0 tr0 Hin Hf. unfold own_of. cbn [assoc]. destruct (str_eqb m n) eqn:E; auto.
      apply str_eqb_eq in E. subst m. exfalso. apply Hn. change n with (fst (n, k0)). now apply in_map.
Qed.

Lemma iden_f_sound (P : kind -> tree -> list id -> Prop) F T y oid e ids :
  (forall k tr ids0, F k = Some (tr, ids0) -> P k tr ids0) ->
  iden_f F T y = Some (oid, e, ids) -> IDenP anyshape P T y oid e ids.
Proof.
  intros HF H. unfold iden_f in H. destruct (get_if T y) as [[oid0 [|] exs]|] eqn:Hg; try discriminate.
  destruct (nodupb (map fst exs)) eqn:Hn; [|discriminate]. apply nodupb_sound in Hn.
  destruct (den_kids F exs) as [[e0 ol]|] eqn:Ek; [|discriminate]. injection H as <- <- <-.
  exists exs, (own_of ol). split; [exact Hg|]. split; [exact Hn|]. split; [|split; [exact Logic.I|reflexivity]].
  eapply kids_impl; [|eapply den_kids_sound; eauto]. intros n k tr Hin Hf. now apply HF.
Qed.

Lemma den_f_sound G T : forall d k tr ids, den_f G d T k = Some (tr, ids) -> SDen d T k tr ids.
Proof.
  induction d as [|d IH]; intros k tr ids H; [discriminate|]. cbn [den_f] in H.
  assert (Hleaf : (if leafk k then match unfold G T k with
                                   | Some tr => if resfree tr then Some (tr, []) else None
                                   | None => None
                                   end else None) = Some (tr, ids) -> SDen (S d) T k tr ids).
  { destruct (leafk k) eqn:L; [|discriminate]. destruct (unfold G T k) as [tr0|] eqn:U; [|discriminate].
    destruct (resfree tr0) eqn:R; [|discriminate]. intros X. injection X as <- <-. cbn [DenG]. left.
    split; [|reflexivity]. split; auto. split; auto. now exists G. }
  destruct k as [x|f|y|w|m|v]; try (now apply Hleaf).
  destruct (iden_f (den_f G d T) T y) as [[[[nm|] e] ids0]|] eqn:E; try discriminate. injection H as <- <-.
  cbn [DenG]. right. exists y, e. split; auto. split; auto. eapply iden_f_sound; eauto.
Qed.
Lemma iden_f_den G T d y oid e ids : iden_f (den_f G d T) T y = Some (oid, e, ids) -> SIDen d T y oid e ids.
Proof. intros H. eapply iden_f_sound; eauto. intros k tr ids0. apply den_f_sound. Qed.

(** the executable form of "contribution [c] is a nested contribution": *)
Definition ncontrib_b (G d : nat) (c : str * (types * kind)) : bool :=
  match snd (snd c) with
  | KInstance i => match iden_f (den_f G d (fst (snd c))) (fst (snd c)) i with
                   | Some (oid, e, ids) => match oid with None => true | Some nm => str_eqb nm (fst c) end
                   | None => false
                   end
  | _ => false
  end.
Lemma ncontrib_b_sound (Col : types -> Prop) G d c :
  Col (fst (snd c)) -> owner_free (fst (snd c)) -> ncontrib_b G d c = true -> nested_contrib Col c.
Proof.
  intros Ct OF H. unfold ncontrib_b in H. destruct (snd (snd c)) as [| |i| | |] eqn:Ek; try discriminate.
  destruct (iden_f (den_f G d (fst (snd c))) (fst (snd c)) i) as [[[oid e] ids]|] eqn:E; [|discriminate].
  exists (XInst e), ids. split; auto. split; auto. exists d, i, oid, e. split; auto. split; [eapply iden_f_den; eauto|].
  split; auto. destruct oid as [nm|]; auto. right. apply str_eqb_eq in H. now subst.
Qed.

(** * Non-vacuity: three versions of one track, interfaces named by their import name, nested two levels deep
      a:b/c@0.2.1 {n: {p: {f}}, h}   a:b/c@0.2.0 {n: {p: {g}, q: {f}}}   a:b/c@0.2.3 {n: {p: {f}}, k}
      merge to  a:b/c@0.2.3 {n: {p: {f, g}, q: {f}}, h, k} *)
Definition n_021 : str := [97;58;98;47;99;64;48;46;50;46;49].          (* a:b/c@0.2.1 *)
Definition n_020 : str := [97;58;98;47;99;64;48;46;50;46;48].          (* a:b/c@0.2.0; [n_023] is AggregatorWitness.n_023 *)
Definition w_deep_t0 : types :=
  mktypes 1 [] [] [mkfunc [] None false; mkfunc [] (Some (VPrim PString)) false]
    [mkif None [] [([102], KFunc (mkid 1 0))];
     mkif None [] [([112], KInstance (mkid 1 0))];
     mkif (Some n_021) [] [([110], KInstance (mkid 1 1)); ([104], KFunc (mkid 1 1))]] [] [].
Definition w_deep_t1 : types :=
  mktypes 2 [] [] [mkfunc [] None false; mkfunc [([120], VPrim PU8)] None false]
    [mkif None [] [([103], KFunc (mkid 2 1))];
     mkif None [] [([102], KFunc (mkid 2 0))];
     mkif None [] [([112], KInstance (mkid 2 0)); ([113], KInstance (mkid 2 1))];
     mkif (Some n_020) [] [([110], KInstance (mkid 2 2))]] [] [].
Definition w_deep_t2 : types :=
  mktypes 3 [] [] [mkfunc [] None false]
    [mkif None [] [([102], KFunc (mkid 3 0))];
     mkif None [] [([112], KInstance (mkid 3 0))];
     mkif (Some n_023) [] [([110], KInstance (mkid 3 1)); ([107], KFunc (mkid 3 0))]] [] [].
Definition w_deep : list (str * (types * kind)) :=
  [(n_021, (w_deep_t0, KInstance (mkid 1 2))); (n_020, (w_deep_t1, KInstance (mkid 2 3))); (n_023, (w_deep_t2, KInstance (mkid 3 2)))].
Definition deep_col (t : types) : Prop := t = w_deep_t0 \/ t = w_deep_t1 \/ t = w_deep_t2.
Lemma deep_col_same t1 t2 : deep_col t1 -> deep_col t2 -> t_tag t1 = t_tag t2 -> t1 = t2.
Proof. intros [->|[->| ->]] [->|[->| ->]]; cbn; auto; discriminate. Qed.
Lemma deep_col_tag t : deep_col t -> t_tag t <> 0.
Proof. intros [->|[->| ->]]; cbn; discriminate. Qed.
Lemma w_deep_nested : Forall (nested_contrib deep_col) w_deep.
Proof.
  assert (OF : forall t, t_resources t = [] -> owner_free t) by (intros t E r H; rewrite E in H; contradiction).
  repeat constructor; apply (ncontrib_b_sound deep_col 4 3); cbn [fst snd]; try (apply OF; reflexivity);
    try (vm_compute; reflexivity); unfold deep_col; auto.
Qed.
Example deep_run :
  exists a s, run w_deep = inl (a, s) /\ map fst (imports a) = [n_023] /\
    merged_tree a n_021 =
    Some (XInst [([110], XInst [([112], XInst [([102], XFunc (mkft [] None false));
                                               ([103], XFunc (mkft [([120], VTPrim PU8)] None false))]);
                                ([113], XInst [([102], XFunc (mkft [] None false))])]);
                 ([104], XFunc (mkft [] (Some (VTPrim PString)) false));
                 ([107], XFunc (mkft [] None false))]) /\
    spec_merge [(n_021, XInst [([110], XInst [([112], XInst [([102], XFunc (mkft [] None false))])]);
                               ([104], XFunc (mkft [] (Some (VTPrim PString)) false))]);
                (n_020, XInst [([110], XInst [([112], XInst [([103], XFunc (mkft [([120], VTPrim PU8)] None false))]);
                                              ([113], XInst [([102], XFunc (mkft [] None false))])])]);
                (n_023, XInst [([110], XInst [([112], XInst [([102], XFunc (mkft [] None false))])]);
                               ([107], XFunc (mkft [] None false))])] =
    match merged_tree a n_021 with Some t => Some [(n_023, t)] | None => None end.
Proof. eexists _, _. conj_vc. Qed.

(** * Regression (known finding nested-interface-with-two-parents, repaired): a nested interface with TWO parents inside
      one contributor.
      foo: {n: I, m: I} with I = {f}  (one anonymous interface under two export names), then foo: {n: {g}}.
      Before the repair [remap_interface] copied I once and the merge below [n] also enlarged [m]: the merged requirement
      demanded [g] of [m] although no contributor asked for it.  Now every mention of I gets its own copy and the merged
      requirement is the union {n: {f, g}, m: {f}}.  Both contributions are nested contributions ([ncontrib_b]): the
      theorems of section 4 of props/C09.v apply to this history. *)
Definition w_dag_t0 : types :=
  mktypes 1 [] [] [mkfunc [] None false]
    [mkif None [] [([102], KFunc (mkid 1 0))];
     mkif None [] [([110], KInstance (mkid 1 0)); ([109], KInstance (mkid 1 0))]] [] [].
Definition w_dag_t1 : types :=
  mktypes 2 [] [] [mkfunc [] None false]
    [mkif None [] [([103], KFunc (mkid 2 0))];
     mkif None [] [([110], KInstance (mkid 2 0))]] [] [].
Definition w_dag_t2 : types :=
  mktypes 3 [] [] [mkfunc [([120], VPrim PU8)] None false]
    [mkif None [] [([103], KFunc (mkid 3 0))];
     mkif None [] [([109], KInstance (mkid 3 0))]] [] [].
Definition foo : str := [102;111;111].
Definition w_dag : list (str * (types * kind)) :=
  [(foo, (w_dag_t0, KInstance (mkid 1 1))); (foo, (w_dag_t1, KInstance (mkid 2 1)))].
Definition w_dag3 : list (str * (types * kind)) := w_dag ++ [(foo, (w_dag_t2, KInstance (mkid 3 1)))].
Definition dag_col (t : types) : Prop := t = w_dag_t0 \/ t = w_dag_t1 \/ t = w_dag_t2.
Lemma dag_col_same t1 t2 : dag_col t1 -> dag_col t2 -> t_tag t1 = t_tag t2 -> t1 = t2.
Proof. intros [->|[->| ->]] [->|[->| ->]]; cbn; auto; discriminate. Qed.
Lemma dag_col_tag t : dag_col t -> t_tag t <> 0.
Proof. intros [->|[->| ->]]; cbn; discriminate. Qed.
Lemma w_dag3_nested : Forall (nested_contrib dag_col) w_dag3.
Proof.
  assert (OF : forall t, t_resources t = [] -> owner_free t) by (intros t E r H; rewrite E in H; contradiction).
  repeat constructor; apply (ncontrib_b_sound dag_col 4 3); cbn [fst snd]; try (apply OF; reflexivity);
    try (vm_compute; reflexivity); unfold dag_col; auto.
Qed.

Theorem shared_child_now_union :
  exists a s tm ta tb, run w_dag = inl (a, s) /\ merged_tree a foo = Some tm /\
    req_tree (nth 0 w_dag dflt) = Some ta /\ req_tree (nth 1 w_dag dflt) = Some tb /\ tmerge ta tb = Some tm /\
    tm = XInst [([110], XInst [([102], XFunc (mkft [] None false)); ([103], XFunc (mkft [] None false))]);
                ([109], XInst [([102], XFunc (mkft [] None false))])] /\
    sub_b tm ta = true /\ sub_b tm tb = true /\
    ncontrib_b 4 3 (nth 0 w_dag dflt) = true /\ ncontrib_b 4 3 (nth 1 w_dag dflt) = true.
Proof. eexists _, _, _, _, _. conj_vc. Qed.

(** ... and a third contribution {m: {g: func(x: u8)}}, which conflicts with nothing anybody required (the specification
    merges all three), is accepted in every order; the merged requirement is the specification's in both orders (before the
    repair the order 1,2,3 failed and 2,3,1 succeeded) *)
Theorem shared_child_order_independent :
  exists l' a s a' s' ta tb tc tab tabc, Permutation w_dag3 l' /\ run w_dag3 = inl (a, s) /\ run l' = inl (a', s') /\
    req_tree (nth 0 w_dag3 dflt) = Some ta /\ req_tree (nth 1 w_dag3 dflt) = Some tb /\ req_tree (nth 2 w_dag3 dflt) = Some tc /\
    tmerge ta tb = Some tab /\ tmerge tab tc = Some tabc /\ merged_tree a foo = Some tabc /\
    exists t', merged_tree a' foo = Some t' /\ sub_b t' tabc = true /\ sub_b tabc t' = true.
Proof.
  exists [nth 1 w_dag3 dflt; nth 2 w_dag3 dflt; nth 0 w_dag3 dflt]. eexists _, _, _, _, _, _, _, _, _.
  split; [unfold w_dag3, w_dag; cbn [app nth]; apply Permutation_cons_append|].
  do 8 (split; [vm_compute; reflexivity|]). eexists. conj_vc.
Qed.

(** * Refutation: sharing through the interface table.  A nested interface with an identifier is unified with the
      interface of that identifier already in the table: foo: {n: d{f}}, then bar: {n: d{g}} - both [n]s are ONE interface
      afterwards, so foo requires [g] below [n] although only bar asked for it (known finding
      interface-id-under-two-import-names, nested form). *)
Definition w_tab_t0 : types :=
  mktypes 1 [] [] [mkfunc [] None false]
    [mkif (Some [100]) [] [([102], KFunc (mkid 1 0))];
     mkif None [] [([110], KInstance (mkid 1 0))]] [] [].
Definition w_tab_t1 : types :=
  mktypes 2 [] [] [mkfunc [] None false]
    [mkif (Some [100]) [] [([103], KFunc (mkid 2 0))];
     mkif None [] [([110], KInstance (mkid 2 0))]] [] [].
Definition bar : str := [98;97;114].
Definition w_tab : list (str * (types * kind)) :=
  [(foo, (w_tab_t0, KInstance (mkid 1 1))); (bar, (w_tab_t1, KInstance (mkid 2 1)))].
Theorem table_shared_child_not_union :
  exists l a s tm ta, run l = inl (a, s) /\ length l = 2%nat /\ compat_spec_b (fst (nth 0 l dflt)) (fst (nth 1 l dflt)) = false /\
    merged_tree a (fst (nth 0 l dflt)) = Some tm /\ req_tree (nth 0 l dflt) = Some ta /\
    sub_b ta tm = false /\ sub_b tm ta = true.
Proof. exists w_tab. eexists _, _, _, _. conj_vc. Qed.
