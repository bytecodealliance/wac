(** C06: how each part of the invariant behaves under the primitive changes of the node table, the edge
    list, the maps and the package table. *)
From Coq Require Import List Arith Bool NArith Lia.
From WacV Require Import Graph ListFacts GraphInv.
Import ListNotations.

Lemma kclass_sym k k' : kclass k k' -> kclass k' k.
Proof. destruct k, k'; cbn; auto. Qed.
Lemma kclass_import k k' nm : kclass k k' -> (k = NImport nm <-> k' = NImport nm).
Proof. destruct k, k'; cbn; intros H; split; intros E; try discriminate; congruence. Qed.
Lemma kclass_def k k' : kclass k k' -> (k = NDef <-> k' = NDef).
Proof. destruct k, k'; cbn; intros H; split; intros E; try discriminate; congruence. Qed.
Lemma kclass_inst k k' sat : kclass k k' -> k = NInst sat -> exists sat', k' = NInst sat'.
Proof. destruct k, k'; cbn; intros H E; try discriminate; eauto. Qed.

(** [fresh ns ns' idx nd] is what [add_node] does, reusing a free slot or appending *)
Definition upd (ns ns' : list (option node)) (n : nat) (x : option node) : Prop :=
  forall m, getn ns' m = if m =? n then x else getn ns m.
Definition fresh (ns ns' : list (option node)) (idx : nat) (nd : node) : Prop :=
  getn ns idx = None /\ upd ns ns' idx (Some nd).

Lemma upd_same ns ns' n x : upd ns ns' n x -> getn ns' n = x.
Proof. intros U. rewrite U. now rewrite Nat.eqb_refl. Qed.
Lemma upd_other ns ns' n x m : upd ns ns' n x -> m <> n -> getn ns' m = getn ns m.
Proof. intros U H. rewrite U. apply Nat.eqb_neq in H. now rewrite H. Qed.

Lemma upd_set_live ns n nd x : getn ns n = Some nd -> upd ns (set_nth ns n x) n x.
Proof. intros H m. eapply getn_set_live; eauto. Qed.

Lemma liveb_upd_some ns ns' n nd m : upd ns ns' n (Some nd) -> liveb ns m = true -> liveb ns' m = true.
Proof.
  intros U H. unfold liveb. rewrite U. destruct (m =? n); auto.
Qed.

Lemma FreeOK_ext ns ns' fr :
  length ns' = length ns -> (forall m, getn ns m = None -> getn ns' m = None) -> FreeOK ns fr -> FreeOK ns' fr.
Proof.
  intros L H [D N]. constructor; auto. intros i Hi. destruct (D i Hi). split; [lia|auto].
Qed.

Lemma FreeOK_drop ns fr n nd : getn ns n = Some nd -> FreeOK ns fr -> FreeOK (set_nth ns n None) (n :: fr).
Proof.
  intros H [D N]. constructor.
  - intros i [<-|Hi].
    + rewrite length_set_nth. split; [eapply getn_lt; eauto|]. rewrite getn_set_none. now rewrite Nat.eqb_refl.
    + destruct (D i Hi). rewrite length_set_nth. split; auto. rewrite getn_set_none. destruct (i =? n); auto.
  - constructor; auto. intros Hi. destruct (D n Hi). congruence.
Qed.

Lemma add_node_spec s nd s1 idx :
  FreeOK (nodes s) (free_nodes s) -> add_node s nd = (s1, idx) ->
  fresh (nodes s) (nodes s1) idx nd /\ FreeOK (nodes s1) (free_nodes s1) /\
  edges s1 = edges s /\ imports s1 = imports s /\ exports s1 = exports s /\ defined s1 = defined s /\
  pkgs s1 = pkgs s /\ free_pkgs s1 = free_pkgs s.
Proof.
  intros [D N] H. unfold add_node in H. destruct (free_nodes s) as [|j fr] eqn:F.
  - injection H as <- <-. cbn. split; [split|split; [constructor|repeat split; auto]].
    + apply getn_ge. lia.
    + intros m. apply getn_app_one.
    + intros i [].
    + constructor.
  - injection H as <- <-. cbn. destruct (D j (or_introl eq_refl)) as [L G].
    split; [split|split; [constructor|repeat split; auto]]; auto.
    + intros m. rewrite getn_set_nth. apply Nat.ltb_lt in L. now rewrite L.
    + intros i Hi. inversion N; subst. destruct (D i (or_intror Hi)) as [Li Gi].
      rewrite length_set_nth. split; auto. rewrite getn_set_nth.
      destruct (Nat.eqb_spec i j); [subst; contradiction|auto].
    + now inversion N.
Qed.

Lemma add_node_same s nd : edges (fst (add_node s nd)) = edges s /\ defined (fst (add_node s nd)) = defined s.
Proof. unfold add_node. destruct (free_nodes s); cbn; auto. Qed.

Lemma ExOK_drop d ns ns' ex ex' :
  dropped d (fun a b => nexport a = nexport b) ns ns' -> ExOK ns ex ->
  (forall x, In x ex' <-> In x ex /\ d (snd x) = false) -> NoDup (map fst ex') -> ExOK ns' ex'.
Proof.
  intros D [L K Nd] M ND. constructor; auto.
  - intros nm n H. apply M in H as [H E]. cbn in E. apply L in H. apply liveb_true in H as [nd H].
    destruct (dropped_keep _ _ _ _ _ _ D H E) as [nd' [H' _]]. apply liveb_true; eauto.
  - intros n nd' nm H E. destruct (dropped_some _ _ _ _ _ _ D H) as [Hd [nd [G P]]].
    apply M. split; auto. apply (Nd n nd); congruence.
Qed.

Lemma ExOK_ext ns ns' ex : nrel (fun a b => nexport a = nexport b) ns ns' -> ExOK ns ex -> ExOK ns' ex.
Proof. intros D X. eapply ExOK_drop; eauto; [|apply X]. intros x; tauto. Qed.

Lemma ExOK_fresh_none ns ns' idx nd ex : fresh ns ns' idx nd -> nexport nd = None -> ExOK ns ex -> ExOK ns' ex.
Proof.
  intros [G U] E [L K Nd]. constructor; auto.
  - intros nm n H. eapply liveb_upd_some; eauto.
  - intros n nd' nm H E'. rewrite U in H. destruct (n =? idx); [congruence|eauto].
Qed.

(** node [n] becomes a node exported as [e]; entries of [n] may have left the map before (a renamed
    definition). Covers a fresh node ([ex0 = ex]: no entry designates a dead slot) *)
Lemma ExOK_upd_some ns ns' n nd' e ex ex0 :
  upd ns ns' n (Some nd') -> nexport nd' = Some e -> ~ In e (map fst ex0) ->
  (forall x, In x ex0 -> In x ex) -> (forall x, In x ex -> snd x <> n -> In x ex0) -> NoDup (map fst ex0) ->
  ExOK ns ex -> ExOK ns' (ex0 ++ [(e, n)]).
Proof.
  intros U E Hn Sub Keep ND [L K Nd]. constructor.
  - intros nm m H. apply in_app_or in H as [H|[[= <- <-]|[]]].
    + eapply liveb_upd_some; eauto.
    + apply liveb_true. exists nd'. now apply upd_same in U.
  - rewrite map_app. cbn. apply NoDup_app_one; auto.
  - intros m nd2 nm H E'. rewrite U in H. apply in_or_app. destruct (Nat.eqb_spec m n) as [->|Hne].
    + right. left. congruence.
    + left. apply Keep; eauto.
Qed.

Lemma ExOK_export ns ns' n nd nd' e ex :
  getn ns n = Some nd -> upd ns ns' n (Some nd') -> nexport nd' = Some e -> ~ In e (map fst ex) ->
  ExOK ns ex -> ExOK ns' (ex ++ [(e, n)]).
Proof. intros G U E Hn X. eapply ExOK_upd_some; eauto. apply X. Qed.

Lemma exports_renamed_spec ns ex n nd :
  ExOK ns ex -> getn ns n = Some nd ->
  let ex0 := match nk nd, nexport nd with NDef, Some previous => shift_remove ex previous | _, _ => ex end in
  (forall x, In x ex0 -> In x ex) /\ (forall x, In x ex -> snd x <> n -> In x ex0) /\ NoDup (map fst ex0).
Proof.
  intros [L K Nd] G ex0. subst ex0. destruct (nk nd); [|repeat split; auto ..].
  destruct (nexport nd) as [previous|] eqn:E; [|repeat split; auto]. repeat split.
  - intros x. apply shift_remove_In.
  - intros [k v] Hin Hne. apply shift_remove_In_iff; auto. split; auto. cbn in *. intros ->. apply Hne.
    eapply NoDup_keys_inj; eauto.
  - now apply shift_remove_NoDup.
Qed.

Lemma ExOK_unexport ns ns' n nd' ex ex' :
  upd ns ns' n (Some nd') -> nexport nd' = None ->
  (forall x, In x ex' <-> In x ex /\ snd x <> n) -> NoDup (map fst ex') ->
  ExOK ns ex -> ExOK ns' ex'.
Proof.
  intros U E M ND [L K Nd]. constructor; auto.
  - intros nm m H. apply M in H as [H _]. eapply liveb_upd_some; eauto.
  - intros m nd2 nm H E'. rewrite U in H. destruct (Nat.eqb_spec m n) as [->|Hne]; [congruence|].
    apply M. split; eauto.
Qed.

Lemma exports_after_remove ns ex n nd :
  ExOK ns ex -> getn ns n = Some nd ->
  exists ex1, match nexport nd with
              | Some nm => match swap_remove ex nm with Some ex => inl ex | None => inr PExportMissing end
              | None => inl ex
              end = inl ex1 /\
    let ex' := filter (fun p : name * nat => negb (snd p =? n)) ex1 in
    (forall x, In x ex' <-> In x ex /\ snd x <> n) /\ NoDup (map fst ex').
Proof.
  intros [L K Nd] G. destruct (nexport nd) as [nm|] eqn:E.
  - destruct (swap_remove ex nm) as [ex1|] eqn:Sw.
    2:{ exfalso. revert Sw. apply swap_remove_Some. pose proof (Nd n nd nm G E) as Hi. apply (in_map fst) in Hi. exact Hi. }
    exists ex1. split; [reflexivity|]. split.
    + intros x. rewrite filter_In, negb_true_iff, Nat.eqb_neq. split; intros [H1 H2]; split; auto.
      * eapply swap_remove_In; eauto.
      * eapply swap_remove_keep; eauto. intros <-. apply H2. destruct x as [k v]. eapply NoDup_keys_inj; eauto.
    + apply NoDup_map_filter. eapply swap_remove_NoDup; eauto.
  - exists ex. split; [reflexivity|]. split; [|now apply NoDup_map_filter].
    intros x. rewrite filter_In, negb_true_iff, Nat.eqb_neq. reflexivity.
Qed.

Lemma ImOK_drop d ns ns' im im' :
  dropped d (fun a b => kclass (nk a) (nk b)) ns ns' -> ImOK ns im ->
  (forall x, In x im' <-> In x im /\ d (snd x) = false) -> NoDup (map fst im') -> ImOK ns' im'.
Proof.
  intros D [I K] M ND. constructor; auto. intros nm n. rewrite M, I. cbn. split.
  - intros [[nd [G E]] Hd]. destruct (dropped_keep _ _ _ _ _ _ D G Hd) as [nd' [G' C]].
    exists nd'. split; auto. now apply (kclass_import _ _ nm) in C as [C _]; auto.
  - intros [nd' [G' E']]. destruct (dropped_some _ _ _ _ _ _ D G') as [Hd [nd [G C]]]. split; auto.
    exists nd. split; auto. now apply (kclass_import _ _ nm) in C as [_ C]; auto.
Qed.

Lemma ImOK_ext ns ns' im : nrel (fun a b => kclass (nk a) (nk b)) ns ns' -> ImOK ns im -> ImOK ns' im.
Proof. intros D X. eapply ImOK_drop; eauto; [|apply X]. intros x; tauto. Qed.

Lemma ImOK_fresh_other ns ns' idx nd im :
  fresh ns ns' idx nd -> (forall nm, nk nd <> NImport nm) -> ImOK ns im -> ImOK ns' im.
Proof.
  intros [G U] E [I K]. constructor; auto. intros nm n. rewrite I. split; intros [x [H1 H2]].
  - exists x. split; auto. rewrite U. destruct (Nat.eqb_spec n idx); [congruence|auto].
  - rewrite U in H1. destruct (n =? idx); [injection H1 as <-; now apply E in H2|eauto].
Qed.

Lemma ImOK_fresh_import ns ns' idx nd im nm :
  fresh ns ns' idx nd -> nk nd = NImport nm -> ~ In nm (map fst im) -> ImOK ns im -> ImOK ns' ((nm, idx) :: im).
Proof.
  intros [G U] E Hn [I K]. constructor; [|cbn; constructor; auto]. intros nm' n. cbn. rewrite I. split.
  - intros [[= <- <-]|[x [H1 H2]]].
    + exists nd. split; auto. now apply upd_same in U.
    + exists x. split; auto. rewrite U. destruct (Nat.eqb_spec n idx); [congruence|auto].
  - intros [x [H1 H2]]. rewrite U in H1. destruct (Nat.eqb_spec n idx) as [->|Hne].
    + left. injection H1 as <-. congruence.
    + right. eauto.
Qed.

(** the kind of node [n] is read off [nd], a node of the class of the one in the table *)
Lemma imports_after_remove ns im n nd0 nd :
  ImOK ns im -> getn ns n = Some nd0 -> kclass (nk nd0) (nk nd) ->
  exists im', match nk nd with
              | NImport nm => match alist_get N.eqb im nm with
                              | Some _ => inl (filter (fun p => negb (N.eqb (fst p) nm)) im)
                              | None => inr PImportMissing
                              end
              | _ => inl im
              end = inl im' /\
    (forall x, In x im' <-> In x im /\ snd x <> n) /\ NoDup (map fst im').
Proof.
  intros [I K] G C.
  assert (Hother : (forall nm, nk nd <> NImport nm) -> forall x, In x im <-> In x im /\ snd x <> n).
  { intros Hk [k v]. split; [|tauto]. intros H. split; auto. cbn. intros ->.
    apply I in H as [x [H1 H2]]. rewrite G in H1. injection H1 as <-. apply (kclass_import _ _ k C) in H2. now apply Hk in H2. }
  destruct (nk nd) as [|nm|sat|] eqn:E; try (exists im; split; [reflexivity|split; [apply Hother; congruence|auto]]).
  pose proof (proj2 (kclass_import _ _ nm C) eq_refl) as E0. assert (Hin : In (nm, n) im) by (apply I; eauto).
  destruct (alist_get N.eqb im nm) eqn:Al.
  2:{ exfalso. apply alist_get_None in Al. apply Al. apply (in_map fst) in Hin. exact Hin. }
  eexists. split; [reflexivity|]. split; [|now apply NoDup_map_filter].
  intros [k v]. rewrite filter_In, negb_true_iff. cbn. rewrite N.eqb_neq. split; intros [H1 H2]; split; auto.
  - intros ->. apply I in H1 as [x [H1 H3]]. rewrite G in H1. injection H1 as <-. congruence.
  - intros ->. apply H2. eapply NoDup_keys_inj; eauto.
Qed.

Lemma DfOK_drop d ns ns' df df' :
  dropped d (fun a b => kclass (nk a) (nk b)) ns ns' -> DfOK ns df ->
  (forall x, In x df' <-> In x df /\ d (snd x) = false) -> DfOK ns' df'.
Proof.
  intros D [A B] M. constructor.
  - intros t n H. apply M in H as [H Hd]. cbn in Hd. apply A in H as [nd [G E]].
    destruct (dropped_keep _ _ _ _ _ _ D G Hd) as [nd' [G' C]]. exists nd'. split; auto.
    now apply kclass_def in C as [C _]; auto.
  - intros n nd' G' E'. destruct (dropped_some _ _ _ _ _ _ D G') as [Hd [nd [G C]]].
    apply kclass_def in C as [_ C]. destruct (B n nd G (C E')) as [t H]. exists t. apply M. auto.
Qed.

Lemma DfOK_ext ns ns' df : nrel (fun a b => kclass (nk a) (nk b)) ns ns' -> DfOK ns df -> DfOK ns' df.
Proof. intros D X. eapply DfOK_drop; eauto. intros x; tauto. Qed.

Lemma DfOK_fresh_other ns ns' idx nd df : fresh ns ns' idx nd -> nk nd <> NDef -> DfOK ns df -> DfOK ns' df.
Proof.
  intros [G U] E [A B]. constructor.
  - intros t n H. apply A in H as [x [H1 H2]]. exists x. split; auto. rewrite U.
    destruct (Nat.eqb_spec n idx); [congruence|auto].
  - intros n nd' H1 H2. rewrite U in H1. destruct (n =? idx); [congruence|eauto].
Qed.

Lemma DfOK_fresh_def ns ns' idx nd df t :
  fresh ns ns' idx nd -> nk nd = NDef -> DfOK ns df -> DfOK ns' ((t, idx) :: df).
Proof.
  intros [G U] E [A B]. constructor.
  - intros t' n [[= <- <-]|H].
    + exists nd. split; auto. now apply upd_same in U.
    + apply A in H as [x [H1 H2]]. exists x. split; auto. rewrite U.
      destruct (Nat.eqb_spec n idx); [congruence|auto].
  - intros n nd' H1 H2. rewrite U in H1. destruct (Nat.eqb_spec n idx) as [->|Hne].
    + exists t. now left.
    + destruct (B n nd' H1 H2) as [t' H]. exists t'. now right.
Qed.

(** [g] stands for the rest of the state *)
Lemma defined_after_remove {T} (g : list (nat * nat) -> T) ns df n nd0 nd :
  DfOK ns df -> getn ns n = Some nd0 -> kclass (nk nd0) (nk nd) ->
  exists df', match nk nd with
              | NDef => if existsb (fun p => snd p =? n) df
                        then inl (g (filter (fun p => negb (snd p =? n)) df)) else inr PDefinedMissing
              | _ => inl (g df)
              end = inl (g df') /\
    forall x, In x df' <-> In x df /\ snd x <> n.
Proof.
  intros [A B] G C.
  assert (Hother : nk nd <> NDef -> forall x, In x df <-> In x df /\ snd x <> n).
  { intros Hk [t m]. split; [|tauto]. intros H. split; auto. cbn. intros ->.
    apply A in H as [x [Gx Kx]]. rewrite G in Gx. injection Gx as <-. now apply (kclass_def _ _ C) in Kx. }
  destruct (nk nd) eqn:E; try (exists df; split; [reflexivity|apply Hother; congruence]).
  destruct (B n nd0 G (proj2 (kclass_def _ _ C) eq_refl)) as [t Ht].
  replace (existsb (fun p : nat * nat => snd p =? n) df) with true.
  2:{ symmetry. apply existsb_exists. exists (t, n). split; auto. apply Nat.eqb_refl. }
  eexists. split; [reflexivity|]. intros x. rewrite filter_In, negb_true_iff, Nat.eqb_neq. reflexivity.
Qed.

Lemma PkgOK_drop u d ns ns' pk fp :
  dropped d (fun a b => npkg a = npkg b /\ kclass (nk a) (nk b)) ns ns' -> PkgOK u ns pk fp -> PkgOK u ns' pk fp.
Proof.
  intros D [A B C E]. constructor; auto.
  - intros n nd' id G' H. destruct (dropped_some _ _ _ _ _ _ D G') as [_ [nd [G [P1 P2]]]].
    apply (A n nd); congruence.
  - intros n nd' sat G' H. destruct (dropped_some _ _ _ _ _ _ D G') as [_ [nd [G [P1 P2]]]].
    apply kclass_sym in P2. destruct (kclass_inst _ _ _ P2 H) as [sat0 H0].
    destruct (B n nd sat0 G H0) as [id [pd [X Y]]]. exists id, pd. split; congruence.
Qed.

Lemma PkgOK_fresh u ns ns' idx nd pk fp :
  fresh ns ns' idx nd ->
  (forall id, npkg nd = Some id -> exists p, get_pkg_l pk id = Some p) ->
  (forall sat, nk nd = NInst sat -> exists id pd, npkg nd = Some id /\ pkg_desc_l u pk id = Some pd) ->
  PkgOK u ns pk fp -> PkgOK u ns' pk fp.
Proof.
  intros [G U] H1 H2 [A B C E]. constructor; auto.
  - intros n nd' id G' H. rewrite U in G'. destruct (n =? idx); [injection G' as <-; auto|eauto].
  - intros n nd' sat G' H. rewrite U in G'. destruct (n =? idx); [injection G' as <-; eauto|eauto].
Qed.

(** the package table may change as long as the identifiers in use keep their meaning *)
Lemma PkgOK_pkgs u ns pk fp pk' fp' :
  PkgOK u ns pk fp ->
  (forall n nd id, getn ns n = Some nd -> npkg nd = Some id -> get_pkg_l pk' id = get_pkg_l pk id) ->
  (forall i, In i fp' -> exists sl, nth_error pk' i = Some sl /\ ps_pkg sl = None) -> NoDup fp' ->
  PkgOK u ns pk' fp'.
Proof.
  intros [A B C E] H F N. constructor; auto.
  - intros n nd id G X. rewrite (H n nd id G X). eauto.
  - intros n nd sat G X. destruct (B n nd sat G X) as [id [pd [Y Z]]]. exists id, pd. split; auto.
    unfold pkg_desc_l in *. now rewrite (H n nd id G Y).
Qed.

Lemma count_arg_dead ns es n i : EdgeOK ns es -> getn ns n = None -> count_arg_l es n i = 0.
Proof.
  intros [A _ _ _] G. apply filter_length_zero. intros e H. destruct (A e H) as [_ L].
  destruct (is_arg n i e) eqn:E; auto. apply is_arg_true in E as [<- _].
  apply liveb_true in L as [? L]. congruence.
Qed.

Lemma arg_edge_sat ns es e nd sat i :
  EdgeOK ns es -> In e es -> ek e = EArg i -> getn ns (etgt e) = Some nd -> nk nd = NInst sat -> In i sat.
Proof.
  intros O He K G Kn. destruct (eo_sat _ _ O _ nd sat G Kn) as [_ Cn]. specialize (Cn i).
  apply existsb_eqb_In. destruct (existsb _ sat); auto.
  assert (1 <= count_arg_l es (etgt e) i) by (apply (filter_length_pos _ _ e He); now apply is_arg_true). lia.
Qed.

Lemma EdgeOK_fresh ns ns' idx nd es :
  fresh ns ns' idx nd -> (forall sat, nk nd = NInst sat -> sat = []) -> EdgeOK ns es -> EdgeOK ns' es.
Proof.
  intros [G U] Hs O. pose proof O as [A B C S].
  assert (Hne : forall e, In e es -> etgt e <> idx).
  { intros e H <-. destruct (A e H) as [_ L]. apply liveb_true in L as [? L]. congruence. }
  constructor.
  - intros e H. destruct (A e H). split; eapply liveb_upd_some; eauto.
  - intros e i H E. destruct (B e i H E) as [x [sat [H1 H2]]]. exists x, sat. split; auto.
    rewrite (upd_other _ _ _ _ _ U); auto.
  - intros e x sat H H1 H2. rewrite (upd_other _ _ _ _ _ U) in H1; eauto.
  - intros n x sat H1 H2. rewrite U in H1. destruct (Nat.eqb_spec n idx) as [->|Hn]; [|eauto].
    injection H1 as <-. apply Hs in H2 as ->. split; [constructor|]. intros i. cbn.
    eapply count_arg_dead; eauto.
Qed.

Lemma EdgeOK_add_plain ns es new :
  EdgeOK ns es ->
  (forall e, In e new -> liveb ns (esrc e) = true /\ liveb ns (etgt e) = true /\ (forall i, ek e <> EArg i) /\
                         forall nd sat, getn ns (etgt e) = Some nd -> nk nd <> NInst sat) ->
  EdgeOK ns (new ++ es).
Proof.
  intros O. induction new as [|e new IH]; intros H; [exact O|].
  destruct (H e (or_introl eq_refl)) as (L1 & L2 & K & T). destruct IH as [A B C S]; [intros x Hx; apply H; now right|].
  cbn [app]. constructor.
  - intros x [<-|Hx]; auto.
  - intros x i [<-|Hx] E; [now apply K in E|eauto].
  - intros x nd sat [<-|Hx] G E; [now apply T in E|eauto].
  - intros n nd sat G E. destruct (S n nd sat G E) as [N Cn]. split; auto. intros i. rewrite <- Cn.
    unfold count_arg_l. cbn. destruct (is_arg n i e) eqn:X; auto.
    apply is_arg_true in X as [_ X]. now apply K in X.
Qed.

Lemma EdgeOK_set_arg ns ns' es inst nd sat arg index :
  EdgeOK ns es -> getn ns inst = Some nd -> nk nd = NInst sat -> liveb ns arg = true ->
  count_arg_l es inst index = 0 ->
  upd ns ns' inst (Some {| nk := NInst (index :: sat); npkg := npkg nd; nitem := nitem nd; nname := nname nd;
                           nexport := nexport nd |}) ->
  EdgeOK ns' ({| esrc := arg; etgt := inst; ek := EArg index |} :: es).
Proof.
  intros [A B C S] G K La Z U.
  assert (Lv : forall m, liveb ns m = true -> liveb ns' m = true) by (intros m; eapply liveb_upd_some; eauto).
  destruct (S inst nd sat G K) as [ND Cn].
  assert (Hnot : ~ In index sat).
  { specialize (Cn index). rewrite Z in Cn. apply existsb_eqb_notIn. destruct (existsb _ sat); [discriminate|auto]. }
  constructor.
  - intros e [<-|H]; cbn.
    + split; apply Lv; auto. apply liveb_true; eauto.
    + destruct (A e H); auto.
  - intros e i [<-|H] E; cbn.
    + rewrite (upd_same _ _ _ _ U). eexists _, _. split; [reflexivity|]. reflexivity.
    + destruct (B e i H E) as [x [st [H1 H2]]]. rewrite U. destruct (Nat.eqb_spec (etgt e) inst) as [Eq|Hne].
      * eexists _, _. split; reflexivity.
      * eauto.
  - intros e x st [<-|H] H1 H2; cbn; eauto. rewrite U in H1.
    destruct (Nat.eqb_spec (etgt e) inst) as [Eq|Hne]; [|eauto]. apply (C e nd sat); auto; congruence.
  - intros n x st H1 H2. rewrite U in H1. unfold count_arg_l. cbn [filter].
    destruct (Nat.eqb_spec n inst) as [->|Hne].
    + injection H1 as <-. cbn in H2. injection H2 as <-. split; [constructor; auto|].
      intros i. unfold is_arg at 1. cbn [etgt ek]. rewrite Nat.eqb_refl. cbn [andb existsb].
      specialize (Cn i). unfold count_arg_l in Cn.
      destruct (Nat.eqb_spec index i) as [->|Hi].
      * rewrite Nat.eqb_refl. cbn. rewrite Cn. apply existsb_eqb_notIn in Hnot. now rewrite Hnot.
      * replace (i =? index) with false by (symmetry; apply Nat.eqb_neq; congruence). cbn. exact Cn.
    + destruct (S n x st H1 H2) as [N Cx]. split; auto. intros i. rewrite <- Cx.
      unfold is_arg at 1. cbn [etgt ek]. replace (inst =? n) with false by (symmetry; apply Nat.eqb_neq; congruence).
      reflexivity.
Qed.

Lemma existsb_eqb_filter (i : nat) f sat : existsb (Nat.eqb i) (filter f sat) = existsb (Nat.eqb i) sat && f i.
Proof.
  induction sat as [|j sat IH]; cbn; [reflexivity|].
  destruct (f j) eqn:Fj; cbn; rewrite IH; destruct (Nat.eqb_spec i j) as [->|_]; cbn; rewrite ?Fj, ?andb_false_r; auto.
Qed.

Lemma remove_first_In f es e : In e (remove_first f es) -> In e es.
Proof. induction es as [|x es IH]; cbn; auto. destruct (f x); cbn; intuition. Qed.

Lemma remove_first_other f es e : f e = false -> (In e (remove_first f es) <-> In e es).
Proof.
  intros H. induction es as [|x es IH]; cbn; [tauto|]. destruct (f x) eqn:E.
  - split; auto. intros [->|Hi]; [congruence|auto].
  - cbn. tauto.
Qed.

Lemma remove_first_same (f g : edge -> bool) es :
  (forall e, f e = true -> g e = false) -> filter g (remove_first f es) = filter g es.
Proof.
  intros H. induction es as [|x es IH]; cbn; auto. destruct (f x) eqn:E.
  - now rewrite (H x E).
  - cbn. now rewrite IH.
Qed.

Lemma remove_first_less (f g : edge -> bool) es e0 :
  (forall e, f e = true -> g e = true) -> In e0 es -> f e0 = true ->
  S (length (filter g (remove_first f es))) = length (filter g es).
Proof.
  intros H. induction es as [|x es IH]; cbn; [tauto|]. intros Hin F0. destruct (f x) eqn:E.
  - now rewrite (H x E).
  - destruct Hin as [->|Hin]; [congruence|]. cbn. destruct (g x); cbn; rewrite IH; auto.
Qed.

Lemma EdgeOK_unset_arg ns ns' es inst nd sat arg index e0 :
  let isit := fun e => (esrc e =? arg) && (etgt e =? inst) && match ek e with EArg i => i =? index | _ => false end in
  EdgeOK ns es -> getn ns inst = Some nd -> nk nd = NInst sat -> In e0 es -> isit e0 = true ->
  upd ns ns' inst (Some {| nk := NInst (filter (fun j => negb (j =? index)) sat); npkg := npkg nd; nitem := nitem nd;
                           nname := nname nd; nexport := nexport nd |}) ->
  EdgeOK ns' (remove_first isit es).
Proof.
  intros isit [A B C S] G K Hin Hit U.
  assert (Lv : forall m, liveb ns m = true -> liveb ns' m = true) by (intros m; eapply liveb_upd_some; eauto).
  assert (Hisit : forall e, isit e = true -> is_arg inst index e = true).
  { intros e H. unfold isit in H. apply andb_true_iff in H as [H1 H2]. apply andb_true_iff in H1 as [_ H1].
    unfold is_arg. now rewrite H1, H2. }
  assert (Same : forall n i, n <> inst \/ i <> index -> filter (is_arg n i) (remove_first isit es) = filter (is_arg n i) es).
  { intros n i Hne. apply remove_first_same. intros e H. apply Hisit, is_arg_true in H as [H3 H4].
    destruct (is_arg n i e) eqn:X; auto. apply is_arg_true in X as [X1 X2]. destruct Hne; congruence. }
  constructor.
  - intros e H. apply remove_first_In in H. destruct (A e H); auto.
  - intros e i H E. apply remove_first_In in H. destruct (B e i H E) as [x [st [H1 H2]]]. rewrite U.
    destruct (Nat.eqb_spec (etgt e) inst) as [Eq|Hne]; [eexists _, _; split; reflexivity|eauto].
  - intros e x st H H1 H2. apply remove_first_In in H. rewrite U in H1.
    destruct (Nat.eqb_spec (etgt e) inst) as [Eq|Hne]; [|eauto]. apply (C e nd sat); auto; congruence.
  - intros n x st H1 H2. rewrite U in H1. unfold count_arg_l. destruct (Nat.eqb_spec n inst) as [->|Hne].
    + injection H1 as <-. cbn in H2. injection H2 as <-. destruct (S inst nd sat G K) as [ND Cn].
      split; [now apply NoDup_filter|]. intros i. destruct (Nat.eqb_spec i index) as [->|Hi].
      * assert (X := remove_first_less isit (is_arg inst index) es e0 Hisit Hin Hit).
        fold (count_arg_l es inst index) in X. rewrite Cn in X.
        rewrite existsb_eqb_filter, Nat.eqb_refl, andb_false_r. destruct (existsb (Nat.eqb index) sat); lia.
      * rewrite Same by auto. fold (count_arg_l es inst i). rewrite Cn, existsb_eqb_filter. apply Nat.eqb_neq in Hi. now rewrite Hi, andb_true_r.
    + destruct (S n x st H1 H2) as [N Cx]. split; auto. intros i. rewrite <- Cx. unfold count_arg_l. now rewrite Same by auto.
Qed.

(** removing a set [d] of nodes together with their edges, the satisfied indexes of the arguments they
    supplied to surviving instantiations being cleared *)
Lemma EdgeOK_purge d ns ns' es :
  EdgeOK ns es ->
  dropped d (fun a b => kclass (nk a) (nk b)) ns ns' ->
  (forall m nd nd' sat sat', getn ns m = Some nd -> getn ns' m = Some nd' -> nk nd = NInst sat -> nk nd' = NInst sat' ->
     exists f, sat' = filter f sat /\
       forall i, f i = false <-> exists e, In e es /\ d (esrc e) = true /\ is_arg m i e = true) ->
  EdgeOK ns' (filter (fun e => negb (d (esrc e)) && negb (d (etgt e))) es).
Proof.
  intros [A B C S] D H.
  constructor.
  - intros e He. apply filter_In in He as [He Hd]. apply andb_true_iff in Hd as [D1 D2].
    apply negb_true_iff in D1, D2. destruct (A e He) as [L1 L2].
    apply liveb_true in L1 as [x1 L1], L2 as [x2 L2].
    destruct (dropped_keep _ _ _ _ _ _ D L1 D1) as [y1 [Y1 _]].
    destruct (dropped_keep _ _ _ _ _ _ D L2 D2) as [y2 [Y2 _]]. split; apply liveb_true; eauto.
  - intros e i He E. apply filter_In in He as [He Hd]. apply andb_true_iff in Hd as [D1 D2].
    apply negb_true_iff in D2. destruct (B e i He E) as [x [st [G K]]].
    destruct (dropped_keep _ _ _ _ _ _ D G D2) as [y [Y P]]. destruct (kclass_inst _ _ _ P K) as [st' K'].
    eauto.
  - intros e y st' He Y K'. apply filter_In in He as [He _].
    destruct (dropped_some _ _ _ _ _ _ D Y) as [_ [x [G P]]]. apply kclass_sym in P.
    destruct (kclass_inst _ _ _ P K') as [st K]. eauto.
  - intros n y st' Y K'. destruct (dropped_some _ _ _ _ _ _ D Y) as [Dn [x [G P]]].
    pose proof P as P'. apply kclass_sym in P'. destruct (kclass_inst _ _ _ P' K') as [st K].
    destruct (H n x y st st' G Y K K') as [f [-> Hf]]. destruct (S n x st G K) as [ND Cn].
    split; [now apply NoDup_filter|]. intros i. unfold count_arg_l. rewrite filter_filter.
    assert (E1 : length (filter (fun e => (negb (d (esrc e)) && negb (d (etgt e))) && is_arg n i e) es)
                 = length (filter (fun e => is_arg n i e && negb (d (esrc e))) es)).
    { f_equal. apply filter_ext_in. intros e _. destruct (is_arg n i e) eqn:X.
      - apply is_arg_true in X as [X _]. rewrite X, Dn. destruct (d (esrc e)); reflexivity.
      - now rewrite andb_false_r. }
    rewrite E1. specialize (Cn i). unfold count_arg_l in Cn.
    rewrite (filter_length_split (is_arg n i) (fun e => d (esrc e))) in Cn.
    destruct (f i) eqn:Fi.
    + assert (Z : length (filter (fun e => is_arg n i e && d (esrc e)) es) = 0).
      { apply filter_length_zero. intros e He. destruct (is_arg n i e && d (esrc e)) eqn:X; auto.
        apply andb_true_iff in X as [X1 X2]. assert (f i = false) by (apply Hf; eauto). congruence. }
      rewrite Z in Cn. cbn in Cn. now rewrite Cn, existsb_eqb_filter, Fi, andb_true_r.
    + rewrite existsb_eqb_filter, Fi, andb_false_r. apply Hf in Fi as [e [He [X1 X2]]].
      assert (P1 : 1 <= length (filter (fun e => is_arg n i e && d (esrc e)) es)).
      { apply filter_length_pos with (x := e); auto. now rewrite X1, X2. }
      destruct (existsb (Nat.eqb i) st); lia.
Qed.

Lemma EdgeOK_ext ns ns' es : nrel (fun a b => nk a = nk b) ns ns' -> EdgeOK ns es -> EdgeOK ns' es.
Proof.
  intros D O. rewrite <- (filter_keep_all (fun e => negb false && negb false) es) by reflexivity.
  apply (EdgeOK_purge (fun _ => false) ns); auto.
  - eapply dropped_impl; [|exact D]. intros a b ->. apply kclass_refl.
  - intros m nd nd' sat sat' G G' K K'. specialize (D m). cbn in D. rewrite G, G' in D. cbn in D. rewrite K, K' in D.
    injection D as <-. exists (fun _ => true). split; [symmetry; now apply filter_keep_all|].
    intros i. split; [discriminate|]. intros (e & _ & X & _). discriminate.
Qed.

Lemma maps_live u s :
  InvC u s ->
  (forall x, In x (exports s) -> live s (snd x) = true) /\ (forall x, In x (imports s) -> live s (snd x) = true) /\
  (forall x, In x (defined s) -> live s (snd x) = true).
Proof.
  intros [F E X I D P]. split; [|split]; intros [k n] H; cbn; rewrite live_liveb.
  - eapply xo_live; eauto.
  - apply (io_iff _ _ I) in H as [nd [G _]]. apply liveb_true; eauto.
  - apply (do_def _ _ D) in H as [nd [G _]]. apply liveb_true; eauto.
Qed.
