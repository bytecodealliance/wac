(** C16: proofs about the order-parametrised models of [model/Determinism.v] and the site obligations. *)
From Coq Require Import List Arith Bool NArith String Permutation Sorting.Sorted Lia.
From WacV Require Import ListFacts Graph HashSiteTypes HashSites Determinism.
Import ListNotations.

Theorem sites_all_modelled : incl found_sites modelled_sites.
Proof. apply site_inclb_sound. vm_compute. reflexivity. Qed.

Lemma forallb_In {A} (f : A -> bool) (l : list A) : forallb f l = true -> forall x, In x l -> f x = true.
Proof. intros H x Hx. rewrite forallb_forall in H. auto. Qed.

Lemma forallb_negb_In {A} (f : A -> bool) (l : list A) :
  forallb (fun x => negb (f x)) l = true -> forall x, In x l -> f x = false.
Proof. intros H x Hx. apply negb_true_iff. exact (forallb_In _ _ H x Hx). Qed.

Theorem frontend_has_no_hash_iteration :
  (forall f, In f frontend_files -> In f scanned_files /\ is_frontend_file f = true) /\
  (forall s, In s found_sites -> is_frontend_file (s_file s) = false) /\
  (forall b, In b hash_bindings -> is_frontend_file (b_file b) = false).
Proof.
  split; [|split].
  - intros f Hf.
    assert (H : forallb (fun f => string_mem f scanned_files && is_frontend_file f) frontend_files = true)
      by (vm_compute; reflexivity).
    pose proof (forallb_In _ _ H f Hf) as E. apply andb_prop in E. destruct E as [E1 E2]. split; [|exact E2].
    unfold string_mem in E1. apply existsb_exists in E1. destruct E1 as [y [Hy Ey]]. apply String.eqb_eq in Ey. subst. exact Hy.
  - apply (forallb_negb_In (fun s => is_frontend_file (s_file s))). vm_compute. reflexivity.
  - apply (forallb_negb_In (fun b => is_frontend_file (b_file b))). vm_compute. reflexivity.
Qed.

(** every site the translator found was typed as a hash container by declarations (nothing ambiguous, nothing
    in a position the translator has no rule for) *)
Theorem sites_all_resolved : forall s, In s found_sites -> s_res s = RHash.
Proof.
  intros s Hs.
  assert (H : forallb (fun s => resolution_eqb (s_res s) RHash) found_sites = true) by (vm_compute; reflexivity).
  apply resolution_eqb_eq. exact (forallb_In _ _ H s Hs).
Qed.

Lemma find_perm {A B} (f : A -> bool) (g : A -> B) (l1 l2 : list A) :
  (forall x y, In x l1 -> In y l1 -> f x = true -> f y = true -> g x = g y) ->
  Permutation l1 l2 -> option_map g (find f l1) = option_map g (find f l2).
Proof.
  intros U P. destruct (find f l1) as [x|] eqn:E1, (find f l2) as [y|] eqn:E2; cbn; try reflexivity.
  - apply find_some in E1 as [Hx Fx]. apply find_some in E2 as [Hy Fy]. f_equal.
    apply U; auto. eapply Permutation_in; [apply Permutation_sym|]; eassumption.
  - apply find_some in E1 as [Hx Fx]. pose proof (find_none _ _ E2 x (Permutation_in _ P Hx)). congruence.
  - apply find_some in E2 as [Hy Fy]. pose proof (find_none _ _ E1 y (Permutation_in _ (Permutation_sym P) Hy)). congruence.
Qed.

Section Alist.
  Context {K V : Type} (eqb : K -> K -> bool).
  Hypothesis eqb_spec : forall a b, eqb a b = true <-> a = b.

  Lemma alist_get_Some_In : forall (l : list (K * V)) k v, alist_get eqb l k = Some v -> In (k, v) l.
  Proof.
    induction l as [|[k' v'] r IH]; simpl; intros k v H; [discriminate|].
    destruct (eqb k' k) eqn:E.
    - apply eqb_spec in E. inversion H. subst. left. reflexivity.
    - right. apply IH. exact H.
  Qed.

  Lemma alist_get_In_Some : forall (l : list (K * V)) k v, NoDup (map fst l) -> In (k, v) l -> alist_get eqb l k = Some v.
  Proof.
    induction l as [|[k' v'] r IH]; simpl; intros k v Hnd Hin; [contradiction|].
    inversion Hnd as [|? ? Hni Hnd']; subst.
    destruct Hin as [E|Hin].
    - inversion E; subst. assert (eqb k k = true) as -> by (apply eqb_spec; reflexivity). reflexivity.
    - destruct (eqb k' k) eqn:E.
      + apply eqb_spec in E. subst. exfalso. apply Hni. apply in_map_iff. exists (k, v). split; [reflexivity|exact Hin].
      + apply IH; assumption.
  Qed.

  Lemma alist_get_None_notin : forall (l : list (K * V)) k, alist_get eqb l k = None -> ~ In k (map fst l).
  Proof.
    induction l as [|[k' v'] r IH]; simpl; intros k H; [tauto|].
    destruct (eqb k' k) eqn:E; [discriminate|].
    intros [E'|Hin]; [subst; assert (eqb k k = true) by (apply eqb_spec; reflexivity); congruence|].
    exact (IH k H Hin).
  Qed.

  Lemma alist_get_find (l : list (K * V)) k : alist_get eqb l k = option_map snd (find (fun p => eqb (fst p) k) l).
  Proof. induction l as [|[k' v] r IH]; simpl; [reflexivity|]. now destruct (eqb k' k). Qed.

  Lemma alist_get_perm : forall (l1 l2 : list (K * V)) k,
      NoDup (map fst l1) -> Permutation l1 l2 -> alist_get eqb l1 k = alist_get eqb l2 k.
  Proof.
    intros l1 l2 k Hnd Hp. rewrite !alist_get_find. apply find_perm; [|exact Hp].
    intros [k1 v1] [k2 v2] H1 H2 F1 F2. simpl in *. apply eqb_spec in F1, F2. subst.
    exact (NoDup_keys_inj l1 k v1 v2 Hnd H1 H2).
  Qed.
  Lemma alist_get_app (l m : list (K * V)) k :
    alist_get eqb (l ++ m) k = match alist_get eqb l k with Some v => Some v | None => alist_get eqb m k end.
  Proof. induction l as [|[k' v] r IH]; simpl; [reflexivity|]. destruct (eqb k' k); auto. Qed.

  Lemma alist_get_pushed_perm (xs ys m : list (K * V)) k :
    NoDup (map fst xs) -> Permutation xs ys -> alist_get eqb (rev xs ++ m) k = alist_get eqb (rev ys ++ m) k.
  Proof.
    intros Hnd Hp. rewrite !alist_get_app, (alist_get_perm (rev xs) (rev ys)); [reflexivity| |].
    - rewrite map_rev. now apply NoDup_rev.
    - eapply Permutation_trans; [apply Permutation_sym, Permutation_rev|].
      eapply Permutation_trans; [exact Hp|apply Permutation_rev].
  Qed.
End Alist.

(** a loop that computes one entry per visited element and fails as soon as one has none *)
Section Collect.
  Context {P X : Type} (f : P -> option X).

  Fixpoint collect (l : list P) : option (list X) :=
    match l with
    | [] => Some []
    | p :: r => match f p, collect r with Some x, Some xs => Some (x :: xs) | _, _ => None end
    end.

  Lemma collect_perm l l' : Permutation l l' ->
    match collect l, collect l' with
    | Some xs, Some ys => Permutation xs ys
    | None, None => True
    | _, _ => False
    end.
  Proof.
    induction 1 as [|p l l' _ IH|p q l|l l' l'' _ IH1 _ IH2]; cbn.
    - constructor.
    - destruct (f p); [|exact I]. destruct (collect l), (collect l'); try contradiction; auto.
    - destruct (f p), (f q), (collect l); auto; try apply perm_swap; try apply Permutation_refl.
    - destruct (collect l), (collect l'), (collect l''); try contradiction; auto. eapply Permutation_trans; eassumption.
  Qed.

  Lemma collect_map {Y} (g : X -> Y) (h : P -> Y) : (forall p x, f p = Some x -> g x = h p) ->
    forall l xs, collect l = Some xs -> map g xs = map h l.
  Proof.
    intros Hf. induction l as [|p r IH]; cbn; intros xs H; [now inversion H|].
    destruct (f p) as [x|] eqn:E; [|discriminate]. destruct (collect r) as [ys|]; [|discriminate].
    inversion H; subst. cbn. now rewrite (Hf p x E), (IH ys eq_refl).
  Qed.
End Collect.

Lemma nat_eqb_spec : forall a b, Nat.eqb a b = true <-> a = b. Proof. intros. apply Nat.eqb_eq. Qed.
Lemma N_eqb_spec : forall a b, N.eqb a b = true <-> a = b. Proof. intros. apply N.eqb_eq. Qed.

Lemma canon_retain {A} (eqb : A -> A -> bool) (eqb_spec : forall a b, eqb a b = true <-> a = b)
      (keep : A -> bool) (m visit : list A) :
  Permutation visit m -> canon eqb m (retain_visit keep visit) = filter keep m.
Proof.
  intros Hp. unfold canon, retain_visit. apply filter_ext_in. intros x Hx.
  destruct (keep x) eqn:Ek.
  - apply existsb_exists. exists x. split; [|apply eqb_spec; reflexivity].
    apply filter_In. split; [|exact Ek]. eapply Permutation_in; [apply Permutation_sym; exact Hp|exact Hx].
  - destruct (existsb (eqb x) (filter keep visit)) eqn:E; [|reflexivity].
    apply existsb_exists in E. destruct E as [y [Hy Ey]]. apply eqb_spec in Ey. subst y.
    apply filter_In in Hy. destruct Hy as [_ Hy]. congruence.
Qed.

Lemma Permutation_filter_compat {A} (f : A -> bool) (l l' : list A) :
  Permutation l l' -> Permutation (filter f l) (filter f l').
Proof.
  induction 1 as [|x l l' P IH|x y l|l l' l'' P1 IH1 P2 IH2]; cbn.
  - constructor.
  - destruct (f x); [constructor|]; exact IH.
  - destruct (f x), (f y); try constructor; try apply Permutation_refl.
  - eapply Permutation_trans; eassumption.
Qed.

(** the set of entries that survive a [retain] does not depend on the visiting order *)
Theorem retain_order_indep {A} (keep : A -> bool) (l1 l2 : list A) :
  Permutation l1 l2 -> Permutation (retain_visit keep l1) (retain_visit keep l2).
Proof. apply Permutation_filter_compat. Qed.

Lemma nn_eqb_spec : forall a b, nn_eqb a b = true <-> a = b.
Proof. exact (pair_eqb_eq _ _ Nat.eqb_eq Nat.eqb_eq). Qed.
Lemma np_eqb_spec : forall a b, np_eqb a b = true <-> a = b.
Proof. exact (pair_eqb_eq _ _ N.eqb_eq Nat.eqb_eq). Qed.

Theorem unregister_with_canonical : forall o k s id, valid_oracle o -> unregister_with o k s id = unregister s id.
Proof.
  intros o k s id [Hd Hi]. unfold unregister_with, unregister.
  rewrite (canon_retain np_eqb np_eqb_spec _ (imports s) (o_imports o k (imports s)) (Hi k (imports s))).
  rewrite (canon_retain nn_eqb nn_eqb_spec _ (defined s) (o_defined o k (defined s)) (Hd k (defined s))).
  reflexivity.
Qed.

Theorem unregister_retains_order_indep : forall o1 o2 k1 k2 s id,
    valid_oracle o1 -> valid_oracle o2 -> unregister_with o1 k1 s id = unregister_with o2 k2 s id.
Proof. intros. rewrite !unregister_with_canonical by assumption. reflexivity. Qed.

(** (b) [define_type]: sorting by a unique key erases the iteration order *)

Definition le_node (a b : nat * nat) : Prop := snd a <= snd b.

Lemma insert_sorted_cons p q r :
  insert_sorted_by_node p (q :: r) = if snd p <=? snd q then p :: q :: r else q :: insert_sorted_by_node p r.
Proof. reflexivity. Qed.

Lemma insert_sorted_perm : forall p l, Permutation (insert_sorted_by_node p l) (p :: l).
Proof.
  intros p l. induction l as [|q r IH]; [apply Permutation_refl|]. rewrite insert_sorted_cons.
  destruct (snd p <=? snd q); [apply Permutation_refl|].
  eapply Permutation_trans; [apply perm_skip; exact IH|]. apply perm_swap.
Qed.

Lemma sort_by_node_perm : forall d, Permutation (sort_by_node d) d.
Proof.
  unfold sort_by_node. induction d as [|p r IH]; simpl; [constructor|].
  eapply Permutation_trans; [apply insert_sorted_perm|]. apply perm_skip. exact IH.
Qed.

Lemma insert_sorted_sorted : forall p l, StronglySorted le_node l -> StronglySorted le_node (insert_sorted_by_node p l).
Proof.
  intros p l. induction l as [|q r IH]; intros Hs; [repeat constructor|]. rewrite insert_sorted_cons.
  inversion Hs as [|? ? Hr Hall]; subst. destruct (snd p <=? snd q) eqn:E.
  - apply Nat.leb_le in E. constructor; [exact Hs|]. constructor; [exact E|].
    eapply Forall_impl; [|exact Hall]. intros x Hx. unfold le_node in *. lia.
  - apply Nat.leb_gt in E. constructor; [apply IH; exact Hr|].
    apply Forall_forall. intros x Hx. apply (Permutation_in _ (insert_sorted_perm p r)) in Hx.
    destruct Hx as [<-|Hx]; [unfold le_node; lia|]. rewrite Forall_forall in Hall. auto.
Qed.

Lemma sort_by_node_sorted : forall d, StronglySorted le_node (sort_by_node d).
Proof.
  unfold sort_by_node. induction d as [|p r IH]; simpl; [constructor|]. apply insert_sorted_sorted. exact IH.
Qed.

(** a list has one sorted arrangement, if the order relates no two different elements of it both ways:
    the heads of two arrangements are each below the other *)
Lemma sorted_perm_unique {A} (R : A -> A -> Prop) : forall l1 l2,
    (forall x y, In x l1 -> In y l1 -> R x y -> R y x -> x = y) ->
    StronglySorted R l1 -> StronglySorted R l2 -> Permutation l1 l2 -> l1 = l2.
Proof.
  induction l1 as [|a r1 IH]; intros l2 Anti H1 H2 Hp.
  - apply Permutation_nil in Hp. now subst.
  - destruct l2 as [|b r2]; [apply Permutation_sym, Permutation_nil in Hp; discriminate|].
    inversion H1 as [|? ? S1 A1]; inversion H2 as [|? ? S2 A2]; subst. rewrite Forall_forall in A1, A2.
    assert (a = b).
    { destruct (Permutation_in _ (Permutation_sym Hp) (in_eq b r2)) as [E|Hb]; [exact E|].
      destruct (Permutation_in _ Hp (in_eq a r1)) as [E|Ha]; [now symmetry|].
      apply Anti; [now left | now right | auto | auto]. }
    subst b. f_equal. apply IH; auto.
    + intros x y Hx Hy. apply Anti; now right.
    + eapply Permutation_cons_inv, Hp.
Qed.

Theorem sort_by_node_order_indep : forall d1 d2,
    Permutation d1 d2 -> NoDup (map snd d1) -> sort_by_node d1 = sort_by_node d2.
Proof.
  intros d1 d2 Hp Hnd. apply (sorted_perm_unique le_node).
  - intros x y Hx Hy L1 L2. apply (NoDup_map_inj snd (sort_by_node d1)); auto; [|unfold le_node in *; lia].
    eapply Permutation_NoDup; [apply Permutation_map, Permutation_sym, sort_by_node_perm|exact Hnd].
  - apply sort_by_node_sorted.
  - apply sort_by_node_sorted.
  - eapply Permutation_trans; [apply sort_by_node_perm|]. eapply Permutation_trans; [exact Hp|].
    apply Permutation_sym. apply sort_by_node_perm.
Qed.

Theorem define_type_order_indep : forall u s d1 d2 nm t,
    Permutation d1 d2 -> NoDup (map snd d1) -> define_type_with u s d1 nm t = define_type_with u s d2 nm t.
Proof.
  intros u s d1 d2 nm t Hp Hnd. unfold define_type_with.
  rewrite (sort_by_node_order_indep d1 d2 Hp Hnd). reflexivity.
Qed.

(** what the fix removed: without the sort the result follows the iteration order *)
Definition u_refute : universe :=
  {| u_inst_exports := fun _ => None; u_pkgs := [];
     u_tys := [ {| td_res := false; td_kind := 0%N; td_deps := [] |};
                {| td_res := false; td_kind := 1%N; td_deps := [0] |};
                {| td_res := false; td_kind := 2%N; td_deps := [0] |} ];
     u_lkinds := []; u_sub := fun _ _ => true; u_import_name_ok := fun _ => true; u_export_name_ok := fun _ => true |}.

Theorem define_type_unsorted_refuted :
  exists u ops o1 o2, valid_oracle o1 /\ valid_oracle o2 /\
    edges (run_unsorted_from o1 u 0 empty_graph ops) <> edges (run_unsorted_from o2 u 0 empty_graph ops).
Proof.
  exists u_refute, [DefineType 1%N 1; DefineType 2%N 2; DefineType 0%N 0], id_oracle, rev_oracle.
  split; [|split].
  - split; intros; apply Permutation_refl.
  - split; intros; simpl; apply Permutation_sym, Permutation_rev.
  - vm_compute. discriminate.
Qed.

Lemma populate_collect encoded canonical visit : forall ni,
    populate_node_indexes encoded canonical visit ni =
    option_map (fun xs => rev xs ++ ni)
               (collect (fun p => option_map (pair (snd p)) (encoded (canonical (fst p)))) visit).
Proof.
  induction visit as [|[nm nd] r IH]; intros ni; simpl; [reflexivity|].
  destruct (encoded (canonical nm)) as [idx|]; simpl; [|reflexivity].
  rewrite IH. destruct (collect _ r); simpl; [|reflexivity]. now rewrite <- app_assoc.
Qed.

(** the loop over the [explicit_imports] HashMap: whichever order the map yields its entries in, the resulting
    [node_indexes] answers every lookup in the same way (and panics in the same cases) *)
Theorem encode_explicit_imports_order_indep : forall encoded canonical v1 v2 ni node,
    Permutation v1 v2 -> NoDup (map snd v1) ->
    ni_lookup (populate_node_indexes encoded canonical v1 ni) node =
    ni_lookup (populate_node_indexes encoded canonical v2 ni) node.
Proof.
  intros encoded canonical v1 v2 ni node Hp Hnd. rewrite !populate_collect.
  set (f := fun p : name * nat => option_map (pair (snd p)) (encoded (canonical (fst p)))).
  pose proof (collect_perm f v1 v2 Hp) as E.
  destruct (collect f v1) as [xs|] eqn:E1, (collect f v2) as [ys|]; simpl; try contradiction; [|reflexivity].
  f_equal. apply (alist_get_pushed_perm Nat.eqb nat_eqb_spec); [|exact E].
  rewrite (collect_map f fst snd) with (l := v1); [exact Hnd| |exact E1].
  intros p x. unfold f. destruct (encoded (canonical (fst p))); [|discriminate]. now intros [= <-].
Qed.

Theorem redirect_update_order_indep : forall old new v1 v2 key,
    Permutation v1 v2 -> NoDup (map fst v1) ->
    alist_get N.eqb (redirect_visit old new v1) key = alist_get N.eqb (redirect_visit old new v2) key.
Proof.
  intros old new v1 v2 key Hp Hnd. apply (alist_get_perm N.eqb N_eqb_spec).
  - unfold redirect_visit. rewrite map_map. simpl. exact Hnd.
  - unfold redirect_visit. apply Permutation_map. exact Hp.
Qed.

Lemma find_track_find track key l :
  find_track track key l =
  option_map snd (find (fun p => match track (fst p) with Some k => N.eqb k key | None => false end) l).
Proof.
  induction l as [|[nm i] r IH]; simpl; [reflexivity|].
  destruct (track nm) as [k|]; [destruct (N.eqb k key)|]; auto.
Qed.

(** if all names of a track map to one interface, the first match does not depend on the order *)
Theorem find_track_order_indep : forall track key l1 l2,
    track_consistent track l1 -> Permutation l1 l2 -> find_track track key l1 = find_track track key l2.
Proof.
  intros track key l1 l2 Hc Hp. rewrite !find_track_find. apply find_perm; [|exact Hp].
  intros [n1 a] [n2 b] H1 H2 F1 F2. simpl in *.
  destruct (track n1) as [k1|] eqn:T1; [|discriminate]. destruct (track n2) as [k2|] eqn:T2; [|discriminate].
  apply N.eqb_eq in F1, F2. subst. exact (Hc n1 a n2 b key H1 H2 T1 T2).
Qed.

(** ... but [remap_interface] does not keep tracks consistent: an interface that uses a type of another
    interface of its own semver track registers both (names 0, 1, 2 share track 7; interface 0 uses interface 1) *)
Definition track_w (n : name) : option N := if N.leb n 2 then Some 7%N else None.
Definition src_w : list iface :=
  [ {| if_name := Some 0%N; if_uses := [1] |}; {| if_name := Some 1%N; if_uses := [] |}; {| if_name := Some 2%N; if_uses := [] |} ].

Theorem remap_breaks_track_consistency :
  ~ track_consistent track_w (a_interfaces (fst (remap 5 src_w track_w (fun l => l) empty_agg 0))).
Proof.
  intros H. specialize (H 0%N 1 1%N 0 7%N). vm_compute in H.
  assert (1 = 0) by (apply H; auto). discriminate.
Qed.

(** the aggregated interface that a third name of the track is merged into depends on the iteration order *)
Theorem find_semver_compatible_interface_refuted :
  exists src track o1 o2,
    (forall l, Permutation (o1 l) l) /\ (forall l, Permutation (o2 l) l) /\
    let a1 := fst (remap 5 src track o1 empty_agg 0) in
    let a2 := fst (remap 5 src track o2 empty_agg 0) in
    a1 = a2 /\ snd (remap 5 src track o1 a1 2) <> snd (remap 5 src track o2 a2 2).
Proof.
  exists src_w, track_w, (fun l => l), (fun l => rev l).
  split; [intros; apply Permutation_refl|].
  split; [intros; apply Permutation_sym, Permutation_rev|].
  vm_compute. split; [reflexivity|discriminate].
Qed.

Theorem world_include_missing_refuted :
  exists l1 l2 : list name, Permutation l1 l2 /\ missing_reported l1 <> missing_reported l2.
Proof.
  exists [1%N; 2%N], [2%N; 1%N]. split; [apply perm_swap|]. vm_compute. discriminate.
Qed.

Lemma existsb_perm {A} (f : A -> bool) l l' : Permutation l l' -> existsb f l = existsb f l'.
Proof.
  induction 1 as [|x l l' _ IH|x y l|l l' l'' _ IH1 _ IH2]; cbn; [reflexivity| |now destruct (f x), (f y)|congruence].
  now rewrite IH.
Qed.

Theorem world_include_missing_fixed_order_indep : forall with_items r1 r2,
    Permutation r1 r2 -> missing_reported_fixed with_items r1 = missing_reported_fixed with_items r2.
Proof.
  intros w r1 r2 Hp. unfold missing_reported_fixed. induction w as [|n r IH]; simpl; [reflexivity|].
  now rewrite (existsb_perm _ r1 r2 Hp), IH.
Qed.

Theorem plug_sequence_refuted :
  exists g1 g2 : list (name * list nat), Permutation g1 g2 /\ plug_sequence g1 <> plug_sequence g2.
Proof.
  exists [(1%N, [0]); (2%N, [1])], [(2%N, [1]); (1%N, [0])]. split; [apply perm_swap|]. vm_compute. discriminate.
Qed.

(** (c') [resolve_imports] (fix 591363d): the minimum does not depend on the iteration order of the two hash maps *)
Lemma fold_min_le_all l x : forall y, In y (x :: l) -> fold_left Nat.min l x <= y.
Proof.
  revert x. induction l as [|a l IH]; intros x y Hin; cbn in *.
  - destruct Hin as [->|[]]. apply Nat.le_refl.
  - destruct Hin as [->|[->|Hin]].
    + etransitivity; [apply IH; left; reflexivity | apply Nat.le_min_l].
    + etransitivity; [apply IH; left; reflexivity | apply Nat.le_min_r].
    + apply IH. right. exact Hin.
Qed.

Lemma fold_min_in l x : In (fold_left Nat.min l x) (x :: l).
Proof.
  revert x. induction l as [|a l IH]; intros x; cbn.
  - left; reflexivity.
  - destruct (IH (Nat.min x a)) as [H|H].
    + rewrite <- H. destruct (Nat.min_dec x a) as [E|E]; rewrite E; [left|right; left]; reflexivity.
    + right; right; exact H.
Qed.

Definition list_min (dflt : nat) (l : list nat) : nat :=
  match l with [] => dflt | x :: r => fold_left Nat.min r x end.

Lemma list_min_perm dflt l1 l2 : Permutation l1 l2 -> list_min dflt l1 = list_min dflt l2.
Proof.
  intros P. destruct l1 as [|x r], l2 as [|y s]; [reflexivity| | |].
  - apply Permutation_nil in P. discriminate.
  - apply Permutation_sym, Permutation_nil in P. discriminate.
  - apply Nat.le_antisymm.
    + apply fold_min_le_all. eapply Permutation_in; [apply Permutation_sym; exact P|]. apply fold_min_in.
    + apply fold_min_le_all. eapply Permutation_in; [exact P|]. apply fold_min_in.
Qed.

Lemma compat_nodes_perm {K} (compat : K -> bool) (v1 v1' v2 v2' : list (K * nat)) :
  Permutation v1 v1' -> Permutation v2 v2' ->
  Permutation (map snd (filter (fun p => compat (fst p)) (v1 ++ v2)))
              (map snd (filter (fun p => compat (fst p)) (v1' ++ v2'))).
Proof.
  intros P1 P2. apply Permutation_map. rewrite !filter_app.
  apply Permutation_app; apply Permutation_filter_compat; assumption.
Qed.

Theorem conflict_first_order_indep compat v1 v1' v2 v2' dflt :
  Permutation v1 v1' -> Permutation v2 v2' ->
  conflict_first compat v1 v2 dflt = conflict_first compat v1' v2' dflt.
Proof. intros P1 P2. apply (list_min_perm dflt), compat_nodes_perm; assumption. Qed.

Definition class_is_relevant (c : class) : bool := match c with OrderRelevant _ _ => true | OrderIrrelevant _ _ => false end.

(** backed by a theorem about a model function, or explicitly "by inspection" ([DebugNotRendered]) *)
Definition class_justified (c : class) : bool :=
  match c with
  | OrderIrrelevant DebugNotRendered None => true          (* by inspection *)
  | OrderIrrelevant DebugNotRendered (Some _) => false
  | OrderIrrelevant NotAHashContainer _ => false           (* would need a reason of its own *)
  | OrderIrrelevant _ (Some _) => true                     (* a model function with an order-independence theorem *)
  | OrderIrrelevant _ None => false
  | OrderRelevant _ _ => false
  end.

Definition classes_of (s : site) : list class := map snd (filter (fun p => site_eqb s (fst p)) modelled).

Theorem current_sites_order_irrelevant_and_justified :
  forall s, In s found_sites ->
    classes_of s <> [] /\ forall c, In c (classes_of s) -> class_is_relevant c = false /\ class_justified c = true.
Proof.
  intros s Hs.
  assert (H : forallb (fun s => negb (match classes_of s with [] => true | _ => false end) &&
                                forallb (fun c => negb (class_is_relevant c) && class_justified c) (classes_of s))
                      found_sites = true) by (vm_compute; reflexivity).
  pose proof (forallb_In _ _ H s Hs) as E. apply andb_prop in E. destruct E as [E1 E2]. split.
  - intros C. rewrite C in E1. discriminate.
  - intros c Hc. pose proof (forallb_In _ _ E2 c Hc) as E. apply andb_prop in E. destruct E as [A B].
    split; [apply negb_true_iff; exact A|exact B].
Qed.
