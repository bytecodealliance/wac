(** C05, part F: the resolver alone (no denotation).

    - the parts of the resolver functions that have no name of their own, named, with the unfolding equations and
      the inversion of a successful run; the simulation proofs of parts B-E start from the same inversions;
    - [frame]: a step extends the arenas and leaves the interface and world arenas untouched;
    - [resolve_ty_run]: the one traversal of [resolve_ty], of which [frame], the simulation and the ranking are instances;
    - [flat]: no export of an interface or world of the collection is itself an interface type, a world type
      or a component; every collection the resolver builds from a flat one is flat.  Package paths that
      project through exports can therefore never name an interface or a world;
    - the arena-level specifications [resource_decl_spec] (names and signatures of resource members) and
      [use_items_spec] ([use] binds the very same type). *)
From WacV Require Import Str StrFacts Types CheckerProofs Decls WitDenote DeclsProofsA AstInd.
From WacV Require Ast.

Definition tys_go (cur : scope) :=
  fix go (t : types) (l : list Ast.ty) {struct l} : dres (list valtype * types) :=
    match l with
    | [] => DOk ([], t)
    | y :: r => do (v, t1) <- resolve_ty cur t y ;;
                do (vs, t2) <- go t1 r ;;
                DOk (v :: vs, t2)
    end.
Lemma resolve_tuple_eq cur t ts sp :
  resolve_ty cur t (Ast.TyTuple ts sp) = (do (vs, t1) <- tys_go cur t ts ;; defined t1 (DTuple vs)).
Proof. reflexivity. Qed.

Definition oty_step (cur : scope) (t : types) (o : option Ast.ty) : dres (option valtype * types) :=
  match o with
  | Some y => do (v, t1) <- resolve_ty cur t y ;; DOk (Some v, t1)
  | None => DOk (None, t)
  end.
Lemma resolve_result_eq cur t o e sp :
  resolve_ty cur t (Ast.TyResult o e sp) =
  (do (ov, t1) <- oty_step cur t o ;; do (ev, t2) <- oty_step cur t1 e ;; defined t2 (DResult ov ev)).
Proof. reflexivity. Qed.

(** * Parameter, field and case lists are one loop: resolve an element, reject a key already met, append *)
Section AccGo.
  Context {X V : Type} (step : types -> X -> dres (V * types)) (key : X -> str) (dup : derr).
  Fixpoint acc_go (t : types) (acc : list (str * V)) (l : list X) : dres (list (str * V) * types) :=
    match l with
    | [] => DOk (acc, t)
    | p :: r => do (v, t1) <- step t p ;;
                if has (key p) acc then DErr dup else acc_go t1 (acc ++ [(key p, v)]) r
    end.
  Lemma acc_go_unique (g : types -> list (str * V) -> list X -> dres (list (str * V) * types)) :
    (forall t acc, g t acc [] = DOk (acc, t)) ->
    (forall t acc p r, g t acc (p :: r) =
       (do (v, t1) <- step t p ;; if has (key p) acc then DErr dup else g t1 (acc ++ [(key p, v)]) r)) ->
    forall l t acc, g t acc l = acc_go t acc l.
  Proof.
    intros H0 HS. induction l as [|p r IH]; intros t acc; [apply H0|]. rewrite HS. cbn [acc_go]. apply dbind_ext.
    intros [v t1]. destruct (has _ acc); [reflexivity | apply IH].
  Qed.
End AccGo.

Lemma params_go_acc cur : forall ps t acc,
  params_go cur t acc ps =
  acc_go (fun t p => resolve_ty cur t (Ast.nt_ty p)) (fun p => nm (Ast.nt_id p)) EDuplicateParameter t acc ps.
Proof. apply (acc_go_unique _ _ _ (params_go cur)); reflexivity. Qed.
Lemma fields_go_acc cur : forall fs t acc,
  fields_go cur t acc fs =
  acc_go (fun t f => resolve_ty cur t (Ast.fd_ty f)) (fun f => nm (Ast.fd_id f)) EDuplicateRecordField t acc fs.
Proof. apply (acc_go_unique _ _ _ (fields_go cur)); reflexivity. Qed.
Lemma cases_go_acc cur : forall cs t acc,
  cases_go cur t acc cs =
  acc_go (fun t c => oty_step cur t (Ast.vc_ty c)) (fun c => nm (Ast.vc_id c)) EDuplicateVariantCase t acc cs.
Proof. apply (acc_go_unique _ _ _ (cases_go cur)); reflexivity. Qed.

Definition frame (t t' : types) : Prop :=
  aext t t' /\ t_interfaces t' = t_interfaces t /\ t_worlds t' = t_worlds t.

Lemma frame_refl t : frame t t.
Proof. split; [apply aext_refl | auto]. Qed.
Lemma frame_trans a b c : frame a b -> frame b c -> frame a c.
Proof. intros [H1 [H2 H3]] [G1 [G2 G3]]. split; [eapply aext_trans; eassumption | split; congruence]. Qed.
Lemma frame_add_defined t d : frame t (fst (add_defined t d)).
Proof. split; [apply aext_add_defined | auto]. Qed.
Lemma frame_add_resource t d : frame t (fst (add_resource t d)).
Proof. split; [apply aext_add_resource | auto]. Qed.
Lemma frame_add_func t d : frame t (fst (add_func t d)).
Proof. split; [apply aext_add_func | auto]. Qed.
Lemma frame_aext {t t'} : frame t t' -> aext t t'.
Proof. now intros [H _]. Qed.

Lemma value_ty_frame {t d x t'} :
  value_ty t d = DOk (x, t') -> frame t t' /\ exists i, x = TValue (VDefined i) /\ get_def t' i = Some d.
Proof.
  unfold value_ty, add_defined. intro H. injection H as <- <-. split; [apply (frame_add_defined t d)|].
  eexists. split; [reflexivity | apply (get_def_new t d)].
Qed.

(** * One traversal of [resolve_ty]

    A run of [resolve_ty] only appends to the defined arena.  What a traversal establishes is given by an invariant [J]
    of the collection and a fact [Q t x v], stable under [frame], about the value type [v] that the expression [x]
    resolved to, with one rule per construct: a leaf gets [Q] from what the scope holds, and a type constructor whose
    arguments satisfy [Q] may be appended ([def_rule]).  [frame] itself is the instance with nothing to establish;
    the simulation (part B) and the ranking of the defined arena (part R) are the other two. *)
Definition orel {A B} (Q : A -> B -> Prop) (o : option A) (o' : option B) : Prop :=
  match o, o' with Some x, Some y => Q x y | None, None => True | _, _ => False end.

Definition def_rule (J : types -> Prop) (Q : types -> Ast.ty -> valtype -> Prop) (x : Ast.ty) (t : types) (d : deftype) :=
  J t -> J (fst (add_defined t d)) /\ Q (fst (add_defined t d)) x (VDefined (snd (add_defined t d))).

Set Implicit Arguments.
Record ty_rules (cur : scope) (J : types -> Prop) (Q : types -> Ast.ty -> valtype -> Prop) : Prop := {
  Q_frame : forall t t' x v, frame t t' -> Q t x v -> Q t' x v;
  R_prim : forall t p sp, Q t (Ast.TyPrim p sp) (VPrim (prim_of p));
  R_tuple : forall t ts sp vs, Forall2 (Q t) ts vs -> def_rule J Q (Ast.TyTuple ts sp) t (DTuple vs);
  R_list : forall t y sp v, Q t y v -> def_rule J Q (Ast.TyList y sp) t (DList v);
  R_option : forall t y sp v, Q t y v -> def_rule J Q (Ast.TyOption y sp) t (DOption v);
  R_result : forall t o e sp ov ev,
    orel (Q t) o ov -> orel (Q t) e ev -> def_rule J Q (Ast.TyResult o e sp) t (DResult ov ev);
  R_borrow : forall t i sp r, J t -> assoc (nm i) cur = Some (TResource r) -> Q t (Ast.TyBorrow i sp) (VBorrow r);
  R_own : forall t i r, J t -> assoc (nm i) cur = Some (TResource r) -> Q t (Ast.TyIdent i) (VOwn r);
  R_value : forall t i v, J t -> assoc (nm i) cur = Some (TValue v) -> Q t (Ast.TyIdent i) v }.
Unset Implicit Arguments.

Section TyRun.
  Context {cur : scope} {J : types -> Prop} {Q : types -> Ast.ty -> valtype -> Prop} (R : ty_rules cur J Q).

  Definition run {A B} (P : types -> A -> B -> Prop) (t : types) (x : A) (r : B * types) : Prop :=
    frame t (snd r) /\ J (snd r) /\ P (snd r) x (fst r).

  Lemma run_here {A B} (P : types -> A -> B -> Prop) t x v : J t -> P t x v -> run P t x (v, t).
  Proof. intros Hj Hq. split; [apply frame_refl | auto]. Qed.
  Lemma run_after {A B} (P : types -> A -> B -> Prop) {t t1 x r} : frame t t1 -> run P t1 x r -> run P t x r.
  Proof. intros X1 [X2 H]. split; [eapply frame_trans; eassumption | exact H]. Qed.
  Lemma defined_run {x t d r} : def_rule J Q x t d -> defined t d = DOk r -> J t -> run Q t x r.
  Proof.
    intros Hd H Hj. destruct (Hd Hj) as [Hj' Hq]. unfold defined, add_defined in H. injection H as <-.
    split; [apply (frame_add_defined t d) | split; [exact Hj' | exact Hq]].
  Qed.

  Definition ty_run (x : Ast.ty) : Prop := forall t r, resolve_ty cur t x = DOk r -> J t -> run Q t x r.

  Lemma tys_go_run ts : Forall ty_run ts ->
    forall t r, tys_go cur t ts = DOk r -> J t -> run (fun t => Forall2 (Q t)) t ts r.
  Proof.
    induction 1 as [|y l Hy _ IH]; intros t r H Hj.
    - cbn in H. injection H as <-. apply run_here; [exact Hj | constructor].
    - cbn [tys_go] in H. dinv H as [[v t1] [E1 H]]. dinv H as [[vs t2] [E2 H]]. injection H as <-.
      destruct (Hy _ _ E1 Hj) as (X1 & Hj1 & Q1). destruct (IH _ _ E2 Hj1) as (X2 & Hj2 & Q2).
      apply (run_after _ X1). split; [exact X2 | split; [exact Hj2|]].
      constructor; [apply (Q_frame R _ _ X2 Q1) | exact Q2].
  Qed.
  Lemma oty_run o : optP ty_run o ->
    forall t r, oty_step cur t o = DOk r -> J t -> run (fun t => orel (Q t)) t o r.
  Proof.
    destruct o as [y|]; intros Hy t r H Hj; cbn [oty_step] in H.
    - dinv H as [[v t1] [E1 H]]. injection H as <-. exact (Hy _ _ E1 Hj).
    - injection H as <-. apply run_here; [exact Hj | exact I].
  Qed.

  Theorem resolve_ty_run : forall x, ty_run x.
  Proof.
    apply ty_ind'; unfold ty_run.
    - intros p sp t r H Hj. cbn in H. injection H as <-. apply run_here; [exact Hj | apply (R_prim R)].
    - intros ts sp Hts t r H Hj. rewrite resolve_tuple_eq in H. dinv H as [[vs t1] [E1 H]].
      destruct (tys_go_run ts Hts _ _ E1 Hj) as (X1 & Hj1 & Q1).
      exact (run_after _ X1 (defined_run (R_tuple R _ sp Q1) H Hj1)).
    - intros y sp IH t r H Hj. cbn [resolve_ty] in H. dinv H as [[v1 t1] [E1 H]].
      destruct (IH _ _ E1 Hj) as (X1 & Hj1 & Q1).
      exact (run_after _ X1 (defined_run (R_list R _ _ sp _ Q1) H Hj1)).
    - intros y sp IH t r H Hj. cbn [resolve_ty] in H. dinv H as [[v1 t1] [E1 H]].
      destruct (IH _ _ E1 Hj) as (X1 & Hj1 & Q1).
      exact (run_after _ X1 (defined_run (R_option R _ _ sp _ Q1) H Hj1)).
    - intros o e sp Ho He t r H Hj. rewrite resolve_result_eq in H.
      dinv H as [[ov t1] [E1 H]]. dinv H as [[ev t2] [E2 H]].
      destruct (oty_run o Ho _ _ E1 Hj) as (X1 & Hj1 & Q1). destruct (oty_run e He _ _ E2 Hj1) as (X2 & Hj2 & Q2).
      cbn [fst snd] in *.
      assert (Q1' : orel (Q t2) o ov).
      { destruct o, ov; cbn [orel] in *; auto. apply (Q_frame R _ _ X2 Q1). }
      exact (run_after _ X1 (run_after _ X2 (defined_run (R_result R _ _ _ sp _ _ Q1' Q2) H Hj2))).
    - intros i sp t r H Hj. cbn [resolve_ty] in H. dinv H as [it [E1 H]]. apply lookup_in_ok in E1.
      destruct it; try discriminate. injection H as <-. apply run_here; [exact Hj | now apply (R_borrow R)].
    - intros y sp _ t r H. discriminate H.
    - intros i t r H Hj. cbn [resolve_ty] in H. dinv H as [it [E1 H]]. apply lookup_in_ok in E1.
      destruct it; try discriminate; injection H as <-; (apply run_here; [exact Hj|]).
      + now apply (R_own R).
      + now apply (R_value R).
  Qed.

  Lemma oty_step_run o t r : oty_step cur t o = DOk r -> J t -> run (fun t => orel (Q t)) t o r.
  Proof. apply oty_run. destruct o; [apply resolve_ty_run | exact I]. Qed.
End TyRun.

Lemma frame_rules cur : ty_rules cur (fun _ => True) (fun _ _ _ => True).
Proof. constructor; unfold def_rule; auto. Qed.
Lemma resolve_ty_frame {cur t x v t'} : resolve_ty cur t x = DOk (v, t') -> frame t t'.
Proof. intro H. exact (proj1 (resolve_ty_run (frame_rules cur) x _ _ H I)). Qed.

Lemma acc_go_frame {X V} (step : types -> X -> dres (V * types)) key dup :
  (forall t p v t1, step t p = DOk (v, t1) -> frame t t1) ->
  forall l t acc res t', acc_go step key dup t acc l = DOk (res, t') ->
    frame t t' /\ exists vs, res = acc ++ vs /\ map fst vs = map key l.
Proof.
  intro Hstep. induction l as [|p r IH]; intros t acc res t' H; cbn [acc_go] in H.
  - injection H as <- <-. split; [apply frame_refl|]. exists []. now rewrite app_nil_r.
  - dinv H as [[v t1] [E1 H]]. destruct (has _ acc); [discriminate|]. destruct (IH _ _ _ _ H) as [X2 [vs [-> Hk]]].
    split; [eapply frame_trans; [eapply Hstep; exact E1 | exact X2]|].
    exists ((key p, v) :: vs). rewrite <- app_assoc. cbn [app map fst]. now rewrite Hk.
Qed.
Lemma params_go_frame {cur ps t acc ps' t'} : params_go cur t acc ps = DOk (ps', t') ->
  frame t t' /\ exists l, ps' = acc ++ l /\ map fst l = map (fun p => nm (Ast.nt_id p)) ps.
Proof. rewrite params_go_acc. apply acc_go_frame. intros t0 p v t1. apply resolve_ty_frame. Qed.
Lemma fields_go_frame cur fs t acc fs' t' : fields_go cur t acc fs = DOk (fs', t') -> frame t t'.
Proof. rewrite fields_go_acc. intro H. eapply acc_go_frame; [|exact H]. intros t0 p v t1. apply resolve_ty_frame. Qed.
Lemma cases_go_frame cur cs t acc cs' t' : cases_go cur t acc cs = DOk (cs', t') -> frame t t'.
Proof. rewrite cases_go_acc. intro H. eapply acc_go_frame; [|exact H]. intros t0 p v t1 H1. exact (proj1 (oty_step_run (frame_rules cur) _ _ _ H1 I)). Qed.

Definition self_pre (k : fkind) (res : option id) : list (str * valtype) :=
  match k, res with FMethod, Some r => [(self_name, VBorrow r)] | _, _ => [] end.

Definition self_acc (k : fkind) (res : option id) : dres (list (str * valtype)) :=
  match k with
  | FMethod => match res with Some r => DOk [(self_name, VBorrow r)] | None => DPanic 1 end
  | _ => DOk []
  end.
Definition result_step (cur : scope) (t : types) (rs : Ast.result_list) (k : fkind) (res : option id)
  : dres (option valtype * types) :=
  match rs with
  | Ast.RLEmpty =>
    match k with
    | FConstructor => match res with Some r => DOk (Some (VOwn r), t) | None => DPanic 2 end
    | _ => DOk (None, t)
    end
  | Ast.RLScalar y =>
    do (v, t2) <- resolve_ty cur t y ;;
    match cb_vt (cb_fuel t2) t2 v with
    | None => DFuel
    | Some true => DErr EBorrowInResult
    | Some false => DOk (Some v, t2)
    end
  | Ast.RLNamed _ => DUnmodelled
  end.
Definition func_added (t : types) (params : list (str * valtype)) (result : option valtype) : id * types :=
  (snd (add_func t (mkfunc params result false)), fst (add_func t (mkfunc params result false))).

Lemma func_type_eq cur t ps rs k res :
  func_type cur t ps rs k res =
  (do acc0 <- self_acc k res ;; do (params, t1) <- params_go cur t acc0 ps ;;
   do (result, t2) <- result_step cur t1 rs k res ;; DOk (func_added t2 params result)).
Proof. reflexivity. Qed.

Lemma self_acc_ok k res acc : self_acc k res = DOk acc -> acc = self_pre k res /\ (k = FMethod -> res <> None).
Proof.
  destruct k; cbn; try (intro H; injection H as <-; split; [reflexivity | easy]).
  destruct res; [intro H; injection H as <-; split; [reflexivity | easy] | discriminate].
Qed.
Lemma self_acc_pre k res : (k = FMethod -> res <> None) -> self_acc k res = DOk (self_pre k res).
Proof. intro Hk. destruct k; try reflexivity. destruct res; [reflexivity|]. now destruct Hk. Qed.

Lemma func_type_inv {cur t ps rs k res i t'} : func_type cur t ps rs k res = DOk (i, t') ->
  exists params t1 result t2,
    (k = FMethod -> res <> None) /\
    params_go cur t (self_pre k res) ps = DOk (params, t1) /\ result_step cur t1 rs k res = DOk (result, t2) /\
    i = snd (add_func t2 (mkfunc params result false)) /\ t' = fst (add_func t2 (mkfunc params result false)).
Proof.
  rewrite func_type_eq. intro H. dinv H as [acc0 [E0 H]]. dinv H as [[params t1] [E1 H]]. dinv H as [[result t2] [E2 H]].
  apply self_acc_ok in E0 as [-> Hk]. injection H as <- <-. exists params, t1, result, t2. auto.
Qed.

Lemma func_type_scalar {cur t ps y k res params t1 vr t2} :
  (k = FMethod -> res <> None) ->
  params_go cur t (self_pre k res) ps = DOk (params, t1) -> resolve_ty cur t1 y = DOk (vr, t2) ->
  func_type cur t ps (Ast.RLScalar y) k res =
  match cb_vt (cb_fuel t2) t2 vr with
  | None => DFuel
  | Some true => DErr EBorrowInResult
  | Some false => DOk (func_added t2 params (Some vr))
  end.
Proof.
  intros Hk Hp Hr. rewrite func_type_eq, (self_acc_pre _ _ Hk). cbn [dbind]. rewrite Hp. cbn [dbind result_step].
  rewrite Hr. cbn [dbind]. destruct (cb_vt (cb_fuel t2) t2 vr) as [[|]|]; reflexivity.
Qed.

Lemma result_step_frame {cur t rs k res ro t'} : result_step cur t rs k res = DOk (ro, t') ->
  frame t t' /\ (rs = Ast.RLEmpty -> ro = match k with FConstructor => option_map VOwn res | _ => None end).
Proof.
  destruct rs as [|y|rs']; cbn [result_step]; intro H.
  - assert (Ht : t' = t /\ ro = match k with FConstructor => option_map VOwn res | _ => None end).
    { destruct k; try (injection H as <- <-; auto). destruct res; [injection H as <- <-; auto | discriminate]. }
    destruct Ht as [-> ->]. split; [apply frame_refl | reflexivity].
  - dinv H as [[v t2] [E H]]. destruct (cb_vt _ _ _) as [[|]|]; try discriminate. injection H as <- <-.
    split; [eapply resolve_ty_frame; exact E | discriminate].
  - discriminate.
Qed.

Lemma func_type_frame {cur t ps rs k res i t'} :
  func_type cur t ps rs k res = DOk (i, t') ->
  frame t t' /\ exists rest result,
    get_func t' i = Some (mkfunc (self_pre k res ++ rest) result false) /\
    map fst rest = map (fun p => nm (Ast.nt_id p)) ps /\
    (rs = Ast.RLEmpty -> result = match k with FConstructor => option_map VOwn res | _ => None end).
Proof.
  intro H. destruct (func_type_inv H) as (params & t1 & result & t2 & _ & E1 & E2 & -> & ->).
  destruct (params_go_frame E1) as [X1 [rest [-> Hrest]]].
  destruct (result_step_frame E2) as [X2 Hres]. split.
  - eapply frame_trans; [exact X1|]. eapply frame_trans; [exact X2|]. apply frame_add_func.
  - exists rest, result. split; [apply get_func_new | auto].
Qed.

Lemma func_type_ref_frame cur t r f t' : func_type_ref cur t r = DOk (f, t') -> frame t t'.
Proof.
  destruct r as [fn|i]; cbn [func_type_ref]; intro H.
  - apply func_type_frame in H. tauto.
  - dinv H as [it [E1 H]]. destruct it; try discriminate. injection H as <- <-. apply frame_refl.
Qed.

Definition leafk (k : kind) : bool :=
  match k with KType (TInterface _) | KType (TWorld _) | KComponent _ => false | _ => true end.
Definition leafx (l : list (str * kind)) : bool := forallb (fun kv => leafk (snd kv)) l.

Lemma type_alias_frame cur t n k x t' : type_alias cur t n k = DOk (x, t') -> frame t t' /\ leafk (KType x) = true.
Proof.
  intro H. destruct k as [fn|y].
  - cbn [type_alias] in H. dinv H as [[i t1] [E1 H]]. injection H as <- <-. apply func_type_frame in E1. tauto.
  - assert (Hg : forall y0, (do (v, t1) <- resolve_ty cur t y0 ;; value_ty t1 (DAlias v)) = DOk (x, t') ->
                            frame t t' /\ leafk (KType x) = true).
    { intros y0 H0. dinv H0 as [[v t1] [E1 H0]]. destruct (value_ty_frame H0) as [X2 [i [-> _]]].
      split; [eapply frame_trans; [eapply resolve_ty_frame; exact E1 | exact X2] | reflexivity]. }
    destruct y as [p sp|ts sp|y sp|y sp|o r sp|i sp|y sp|i]; try (cbn [type_alias] in H; apply (Hg _ H)).
    cbn [type_alias] in H. dinv H as [it [E1 H]]. destruct it as [r|f|v|j|w|m]; try discriminate.
    + destruct (get_res t r) as [x0|]; [|discriminate]. unfold add_resource in H. injection H as <- <-.
      split; [apply (frame_add_resource t) | reflexivity].
    + destruct (get_func t f) as [x0|]; [|discriminate]. unfold add_func in H. injection H as <- <-.
      split; [apply (frame_add_func t) | reflexivity].
    + destruct (value_ty_frame H) as [X2 [i0 [-> _]]]. split; [exact X2 | reflexivity].
Qed.

Lemma plain_decl_frame {cur t d x t'} : plain_decl cur t d = DOk (x, t') -> frame t t' /\ leafk (KType x) = true.
Proof.
  intro H. destruct d as [docs id ms|docs id cs|docs id fs|docs id fl|docs id cs|docs id k]; cbn [plain_decl] in H.
  - discriminate.
  - dinv H as [[c t1] [E1 H]]. destruct (value_ty_frame H) as [X2 [i [-> _]]].
    split; [eapply frame_trans; [eapply cases_go_frame; exact E1 | exact X2] | reflexivity].
  - dinv H as [[c t1] [E1 H]]. destruct (value_ty_frame H) as [X2 [i [-> _]]].
    split; [eapply frame_trans; [eapply fields_go_frame; exact E1 | exact X2] | reflexivity].
  - dinv H as [l [E1 H]]. destruct (value_ty_frame H) as [X2 [i [-> _]]]. split; [exact X2 | reflexivity].
  - dinv H as [l [E1 H]]. destruct (value_ty_frame H) as [X2 [i [-> _]]]. split; [exact X2 | reflexivity].
  - eapply type_alias_frame; exact H.
Qed.

Lemma register_ok sc n x sc' : register sc n x = DOk sc' -> has n sc = false /\ sc' = (n, x) :: sc.
Proof. unfold register. destruct (has n sc); [discriminate|]. intro H. injection H as <-. auto. Qed.

Lemma resource_decl_eq dup l i ms :
  resource_decl dup l i ms =
  (do cur1 <- register (l_cur l) (nm i) (TResource (snd (add_resource (l_types l) (mkres (nm i) None)))) ;;
   if has (nm i) (l_exts l) then DErr dup else
   do (exts, t2) <- methods_go cur1 (nm i) (snd (add_resource (l_types l) (mkres (nm i) None))) []
                      (l_exts l ++ [(nm i, KType (TResource (snd (add_resource (l_types l) (mkres (nm i) None)))))])
                      (fst (add_resource (l_types l) (mkres (nm i) None))) ms ;;
   DOk (mkloc cur1 (l_uses l) exts t2)).
Proof. reflexivity. Qed.

Definition item_plain (dup : derr) (l : loc) (d : Ast.item_type_decl) : dres loc :=
  do (x, t1) <- plain_decl (l_cur l) (l_types l) d ;;
  do cur1 <- register (l_cur l) (decl_name d) x ;;
  if has (decl_name d) (l_exts l) then DErr dup
  else DOk (mkloc cur1 (l_uses l) (l_exts l ++ [(decl_name d, KType x)]) t1).

Definition is_resource (d : Ast.item_type_decl) : bool := match d with Ast.DResource _ _ _ => true | _ => false end.
Lemma is_resource_inv {d} : is_resource d = true -> exists docs i ms, d = Ast.DResource docs i ms.
Proof. destruct d; try discriminate. eauto. Qed.
Lemma item_type_decl_plain dup l d : is_resource d = false -> item_type_decl dup l d = item_plain dup l d.
Proof. destruct d; [discriminate | reflexivity ..]. Qed.

Definition use_local (it : Ast.use_item) : str :=
  match Ast.ui_as it with Some a => nm a | None => nm (Ast.ui_id it) end.
Definition use_rec (iface : id) (it : Ast.use_item) : used :=
  (iface, match Ast.ui_as it with Some _ => Some (nm (Ast.ui_id it)) | None => None end).

Lemma use_items_cons iface l it rest :
  use_items iface l (it :: rest) =
  match get_if (l_types l) iface with
  | None => DPanic 9
  | Some x =>
    match assoc (nm (Ast.ui_id it)) (i_exports x) with
    | None => DErr EUndefinedInterfaceType
    | Some (KType ((TResource _ | TValue _) as y)) =>
      if has (use_local it) (l_exts l) then DErr EUseConflict else
      do cur1 <- register (l_cur l) (use_local it) y ;;
      use_items iface (mkloc cur1 (imap_set (use_local it) (use_rec iface it) (l_uses l))
                             (imap_set (use_local it) (KType y) (l_exts l)) (l_types l)) rest
    | Some _ => DErr ENotInterfaceValueType
    end
  end.
Proof. reflexivity. Qed.

Definition member_kind (m : Ast.resource_method) : mkind :=
  match m with
  | Ast.RMConstructor _ _ _ => MCtor
  | Ast.RMMethod _ _ s _ => if s then MStatic else MMethod
  end.
Definition member_params (m : Ast.resource_method) : list Ast.named_type :=
  match m with Ast.RMConstructor _ _ ps => ps | Ast.RMMethod _ _ _ ft => Ast.ft_params ft end.
Definition declared_names (m : Ast.resource_method) : list str := map (fun p => nm (Ast.nt_id p)) (member_params m).

(** what the arena holds for member [m] of resource [r]: a function whose parameters are, for a method,
    [self: borrow<r>] followed by the declared ones, and otherwise exactly the declared ones (so a static
    function or a constructor has no [self]); a constructor returns [own<r>]. *)
Definition member_fn_ok (t : types) (r : id) (m : Ast.resource_method) (k : kind) : Prop :=
  exists f ft, k = KFunc f /\ get_func t f = Some ft /\
    match member_kind m with
    | MMethod => exists rest, f_params ft = (self_name, VBorrow r) :: rest /\ map fst rest = declared_names m
    | MStatic => map fst (f_params ft) = declared_names m
    | MCtor => map fst (f_params ft) = declared_names m /\ f_result ft = Some (VOwn r)
    | MFree => False
    end.

Definition member_fkind (m : Ast.resource_method) : fkind :=
  match m with
  | Ast.RMConstructor _ _ _ => FConstructor
  | Ast.RMMethod _ _ s _ => if s then FStatic else FMethod
  end.
Definition member_results (m : Ast.resource_method) : Ast.result_list :=
  match m with Ast.RMConstructor _ _ _ => Ast.RLEmpty | Ast.RMMethod _ _ _ ft => Ast.ft_results ft end.

Lemma method_name_kind rname m :
  method_name rname (member_key m) (member_fkind m) = member_name rname (member_key m) (member_kind m).
Proof. destruct m as [docs sp ps|docs i [|] ft]; reflexivity. Qed.

Lemma methods_go_step {cur rname r names exts t m rest exts' t'} :
  methods_go cur rname r names exts t (m :: rest) = DOk (exts', t') ->
  exists f t1,
    mem (member_key m) names = false /\
    func_type cur t (member_params m) (member_results m) (member_fkind m) (Some r) = DOk (f, t1) /\
    has (method_name rname (member_key m) (member_fkind m)) exts = false /\
    methods_go cur rname r (member_key m :: names)
               (exts ++ [(method_name rname (member_key m) (member_fkind m), KFunc f)]) t1 rest = DOk (exts', t').
Proof.
  intro H. cbn [methods_go] in H. dinv H as [[[[names1 en] f] t1] [E1 H]].
  assert (Hm : mem (member_key m) names = false /\ names1 = member_key m :: names /\
               en = method_name rname (member_key m) (member_fkind m) /\
               func_type cur t (member_params m) (member_results m) (member_fkind m) (Some r) = DOk (f, t1)).
  { clear H. destruct m as [docs sp ps|docs i s ft]; cbv [name_of] in E1; cbv [nm member_key member_params member_results member_fkind];
      (destruct (mem _ names); [discriminate|]);
      dinv E1 as [[f0 t0] [E0 E1]]; injection E1 as <- <- <- <-; auto. }
  destruct Hm as (Em & -> & -> & Ef). destruct (has _ exts) eqn:Eh; [discriminate|]. exists f, t1. auto.
Qed.

Lemma leafx_app l1 l2 : leafx (l1 ++ l2) = leafx l1 && leafx l2.
Proof. apply forallb_app. Qed.

Lemma methods_go_frame : forall ms cur rname r names exts t exts' t',
  methods_go cur rname r names exts t ms = DOk (exts', t') ->
  frame t t' /\ exists fs, exts' = exts ++ fs /\
    map fst fs = map (fun m => member_name rname (member_key m) (member_kind m)) ms /\
    Forall2 (fun m kv => member_fn_ok t' r m (snd kv)) ms fs.
Proof.
  induction ms as [|m rest IH]; intros cur rname r names exts t exts' t' H.
  - cbn in H. injection H as <- <-. split; [apply frame_refl|]. exists []. rewrite app_nil_r. repeat split. constructor.
  - destruct (methods_go_step H) as (f & t1 & _ & Ef & _ & H1).
    destruct (func_type_frame Ef) as [X1 [ps' [res' [G [Hn Hres]]]]].
    destruct (IH _ _ _ _ _ _ _ _ H1) as [X2 [fs [-> [Hk Hf]]]].
    split; [eapply frame_trans; eassumption|]. eexists (_ :: fs). rewrite <- app_assoc. split; [reflexivity|].
    cbn [map fst]. rewrite Hk, method_name_kind. split; [reflexivity|]. constructor; [|exact Hf].
    eexists f, _. split; [reflexivity|]. split; [eapply aext_get_func; [apply frame_aext; exact X2 | exact G]|].
    cbn [f_params f_result]. destruct m as [docs sp ps|docs i [|] ft]; cbn [member_kind member_fkind self_pre app] in *.
    + split; [exact Hn | now apply Hres].
    + exact Hn.
    + exists ps'. split; [reflexivity | exact Hn].
Qed.

Lemma member_fn_leaf t r ms fs : Forall2 (fun m kv => member_fn_ok t r m (snd kv)) ms fs -> leafx fs = true.
Proof.
  induction 1 as [|m kv ms fs [f [ft [Ek _]]] _ IH]; [reflexivity|]. unfold leafx in *. cbn [forallb]. now rewrite Ek, IH.
Qed.

Lemma resource_decl_spec {dup l i ms l'} :
  resource_decl dup l i ms = DOk l' ->
  let n := nm i in
  let r := mkid (t_tag (l_types l)) (length (t_resources (l_types l))) in
  frame (l_types l) (l_types l') /\
  get_res (l_types l') r = Some (mkres n None) /\
  l_cur l' = (n, TResource r) :: l_cur l /\ l_uses l' = l_uses l /\
  exists fs, l_exts l' = l_exts l ++ (n, KType (TResource r)) :: fs /\
             map fst fs = map (fun m => member_name n (member_key m) (member_kind m)) ms /\
             Forall2 (fun m kv => member_fn_ok (l_types l') r m (snd kv)) ms fs.
Proof.
  intros H n r. rewrite resource_decl_eq in H.
  set (nr := mkres (nm i) None) in *. change (snd (add_resource (l_types l) nr)) with r in H.
  set (t1 := fst (add_resource (l_types l) nr)) in *.
  dinv H as [cur1 [E1 H]]. unfold register in E1. destruct (has (nm i) (l_cur l)); [discriminate|]. injection E1 as <-.
  destruct (has (nm i) (l_exts l)); [discriminate|]. dinv H as [[exts t2] [E2 H]]. injection H as <-.
  cbn [l_types l_cur l_exts l_uses].
  destruct (methods_go_frame _ _ _ _ _ _ _ _ _ E2) as [X2 [fs [-> [Hn Hf]]]].
  split; [eapply frame_trans; [apply (frame_add_resource (l_types l) nr) | exact X2]|].
  split; [eapply aext_get_res; [apply frame_aext; exact X2 | apply (get_res_new (l_types l) nr)]|].
  split; [reflexivity|]. split; [reflexivity|]. exists fs. rewrite <- app_assoc. auto.
Qed.

Lemma item_type_decl_frame {dup l d l'} : item_type_decl dup l d = DOk l' ->
  frame (l_types l) (l_types l') /\ (leafx (l_exts l) = true -> leafx (l_exts l') = true).
Proof.
  intro H. destruct (is_resource d) eqn:Er.
  - destruct (is_resource_inv Er) as (docs & i & ms & ->). cbn [item_type_decl] in H.
    destruct (resource_decl_spec H) as [X1 [_ [_ [_ [fs [-> [_ Hf]]]]]]].
    split; [exact X1|]. intro Hx. rewrite leafx_app, Hx. unfold leafx at 1. cbn [forallb snd leafk andb].
    eapply member_fn_leaf; exact Hf.
  - rewrite (item_type_decl_plain _ _ _ Er) in H. unfold item_plain in H. dinv H as [[x t1] [E1 H]]. dinv H as [cur1 [E2 H]].
    destruct (has _ (l_exts l)); [discriminate|]. injection H as <-. cbn [l_types l_exts].
    destruct (plain_decl_frame E1) as [X1 Hl]. split; [exact X1|]. intro Hx.
    rewrite leafx_app, Hx. unfold leafx. cbn [forallb snd]. now rewrite Hl.
Qed.

Definition usable (y : ty) : Prop := (exists r, y = TResource r) \/ (exists v, y = TValue v).

Lemma use_items_step {iface l it rest l' x} :
  get_if (l_types l) iface = Some x -> use_items iface l (it :: rest) = DOk l' ->
  exists y, assoc (nm (Ast.ui_id it)) (i_exports x) = Some (KType y) /\ usable y /\
            has (use_local it) (l_exts l) = false /\ has (use_local it) (l_cur l) = false /\
            use_items iface (mkloc ((use_local it, y) :: l_cur l) (imap_set (use_local it) (use_rec iface it) (l_uses l))
                                   (l_exts l ++ [(use_local it, KType y)]) (l_types l)) rest = DOk l'.
Proof.
  intros Hg H. rewrite use_items_cons, Hg in H.
  destruct (assoc (nm (Ast.ui_id it)) (i_exports x)) as [k|]; [|discriminate].
  assert (Hgen : exists y, k = KType y /\ usable y /\
            (if has (use_local it) (l_exts l) then DErr EUseConflict else
             do cur1 <- register (l_cur l) (use_local it) y ;;
             use_items iface (mkloc cur1 (imap_set (use_local it) (use_rec iface it) (l_uses l))
                                    (imap_set (use_local it) (KType y) (l_exts l)) (l_types l)) rest) = DOk l').
  { destruct k as [y| | | | |]; try discriminate. destruct y as [r| |v| | |]; try discriminate.
    - exists (TResource r). split; [reflexivity|]. split; [left; eauto | exact H].
    - exists (TValue v). split; [reflexivity|]. split; [right; eauto | exact H]. }
  clear H. destruct Hgen as [y [-> [Hu H]]]. exists y.
  destruct (has (use_local it) (l_exts l)) eqn:Eh2; [discriminate|]. dinv H as [cur1 [E1 H]].
  apply register_ok in E1 as [Eh1 ->]. rewrite (imap_set_fresh Eh2) in H. auto.
Qed.

Lemma use_items_keep iface : forall items l l' k y,
  use_items iface l items = DOk l' -> assoc k (l_cur l) = Some y -> assoc k (l_cur l') = Some y.
Proof.
  induction items as [|it rest IH]; intros l l' k y H Ha.
  - cbn in H. now injection H as <-.
  - destruct (get_if (l_types l) iface) as [x|] eqn:Hg; [|rewrite use_items_cons, Hg in H; discriminate].
    destruct (use_items_step Hg H) as [y0 [_ [_ [_ [Eh1 H1]]]]].
    apply (IH _ _ _ _ H1). cbn [l_cur assoc]. destruct (str_eqb k (use_local it)) eqn:E; [|exact Ha].
    apply str_eqb_eq in E. subst k. unfold has in Eh1. rewrite Ha in Eh1. discriminate.
Qed.

Lemma use_items_spec iface x : forall items l l',
  get_if (l_types l) iface = Some x -> use_items iface l items = DOk l' ->
  l_types l' = l_types l /\
  exists ys,
    Forall2 (fun it y => assoc (nm (Ast.ui_id it)) (i_exports x) = Some (KType y) /\ usable y /\
                         assoc (use_local it) (l_cur l') = Some y) items ys /\
    l_exts l' = l_exts l ++ map (fun p => (use_local (fst p), KType (snd p))) (combine items ys) /\
    l_cur l' = rev (map (fun p => (use_local (fst p), snd p)) (combine items ys)) ++ l_cur l /\
    l_uses l' = fold_left (fun u it => imap_set (use_local it) (use_rec iface it) u) items (l_uses l).
Proof.
  induction items as [|it rest IH]; intros l l' Hg H.
  - cbn in H. injection H as <-. split; [reflexivity|]. exists []. cbn. rewrite app_nil_r. repeat split. constructor.
  - destruct (use_items_step Hg H) as [y [Ea [Hu [Eh2 [Eh1 H1]]]]].
    edestruct IH as [Ht [ys [Hf [Hx [Hc Hus]]]]]; [|exact H1|]; [exact Hg|]. cbn [l_types l_exts l_cur l_uses] in *.
    split; [exact Ht|]. exists (y :: ys). split; [|split; [|split]].
    + constructor; [|exact Hf]. split; [exact Ea|]. split; [exact Hu|].
      apply (use_items_keep _ _ _ _ _ _ H1). cbn [l_cur assoc]. now rewrite str_eqb_refl.
    + rewrite Hx, <- app_assoc. reflexivity.
    + rewrite Hc. cbn [combine map rev fst snd]. rewrite <- app_assoc. reflexivity.
    + exact Hus.
Qed.

(** with the invariant "every used name is an extern of the body" (which every body built by the resolver has) the
    uses are appended *)
Lemma use_items_uses iface : forall items l l',
  (forall k, has k (l_uses l) = true -> has k (l_exts l) = true) ->
  use_items iface l items = DOk l' ->
  l_uses l' = l_uses l ++ map (fun it => (use_local it, use_rec iface it)) items /\
  (forall k, has k (l_uses l') = true -> has k (l_exts l') = true).
Proof.
  induction items as [|it rest IH]; intros l l' Hinv H.
  - cbn in H. injection H as <-. rewrite app_nil_r. auto.
  - destruct (get_if (l_types l) iface) as [x|] eqn:Hg; [|rewrite use_items_cons, Hg in H; discriminate].
    destruct (use_items_step Hg H) as [y [_ [_ [Eh2 [_ H1]]]]].
    assert (Eh3 : has (use_local it) (l_uses l) = false).
    { destruct (has (use_local it) (l_uses l)) eqn:E; [|reflexivity]. rewrite (Hinv _ E) in Eh2. discriminate. }
    rewrite (imap_set_fresh Eh3) in H1.
    assert (Hinv1 : forall k, has k (l_uses l ++ [(use_local it, use_rec iface it)]) = true ->
                              has k (l_exts l ++ [(use_local it, KType y)]) = true).
    { intros k. rewrite !has_app. intro Hk. apply orb_true_iff in Hk as [Hk|Hk].
      - now rewrite (Hinv _ Hk).
      - unfold has in *. cbn [assoc] in *. destruct (str_eqb k (use_local it)); [apply orb_true_r | discriminate]. }
    edestruct IH as [Hu Hinv']; [|exact H1|]; [exact Hinv1|]. cbn [l_uses] in Hu. split; [|exact Hinv']. rewrite Hu, <- app_assoc. reflexivity.
Qed.

Lemma use_items_leaf iface : forall items l l',
  use_items iface l items = DOk l' -> l_types l' = l_types l /\ (leafx (l_exts l) = true -> leafx (l_exts l') = true).
Proof.
  induction items as [|it rest IH]; intros l l' H.
  - cbn in H. injection H as <-. auto.
  - destruct (get_if (l_types l) iface) as [x|] eqn:Hg; [|rewrite use_items_cons, Hg in H; discriminate].
    destruct (use_items_step Hg H) as [y [_ [Hu [_ [_ H1]]]]].
    destruct (IH _ _ H1) as [Ht Hl]. cbn [l_types l_exts] in Ht, Hl. split; [exact Ht|]. intro Hx. apply Hl.
    rewrite leafx_app, Hx. unfold leafx. cbn [forallb snd]. destruct Hu as [[r ->]|[v ->]]; reflexivity.
Qed.

Lemma use_type_leaf {root pkgs l u l'} :
  use_type root pkgs l u = DOk l' -> l_types l' = l_types l /\ (leafx (l_exts l) = true -> leafx (l_exts l') = true).
Proof. unfold use_type. intro H. dinv H as [iface [E1 H]]. eapply use_items_leaf; exact H. Qed.

Definition flat (t : types) : Prop :=
  (forall x, In x (t_interfaces t) -> leafx (i_exports x) = true) /\
  (forall x, In x (t_worlds t) -> leafx (w_exports x) = true).

Lemma flat_frame {t t'} : frame t t' -> flat t -> flat t'.
Proof. intros [_ [H1 H2]] [F1 F2]. split; [rewrite H1 | rewrite H2]; assumption. Qed.
Lemma flat_get_if t i x : flat t -> get_if t i = Some x -> leafx (i_exports x) = true.
Proof. intros [F _] H. apply F. apply lookup_nth in H. eapply nth_error_In; exact H. Qed.
Lemma flat_get_world t i x : flat t -> get_world t i = Some x -> leafx (w_exports x) = true.
Proof. intros [_ F] H. apply F. apply lookup_nth in H. eapply nth_error_In; exact H. Qed.
Lemma flat_add_interface t x : flat t -> leafx (i_exports x) = true -> flat (fst (add_interface t x)).
Proof.
  intros [F1 F2] Hx. split; cbn [add_interface fst t_interfaces t_worlds]; [|exact F2].
  intros y Hy. apply in_app_or in Hy as [Hy|[<-|[]]]; auto.
Qed.
Lemma flat_add_world t x : flat t -> leafx (w_exports x) = true -> flat (fst (add_world t x)).
Proof.
  intros [F1 F2] Hx. split; cbn [add_world fst t_interfaces t_worlds]; [exact F1|].
  intros y Hy. apply in_app_or in Hy as [Hy|[<-|[]]]; auto.
Qed.
Lemma leafx_assoc l k v : leafx l = true -> assoc k l = Some v -> leafk v = true.
Proof.
  unfold leafx. induction l as [|[k' v'] l IH]; cbn [forallb assoc snd]; [discriminate|].
  intro H. apply andb_true_iff in H as [H1 H2]. destruct (str_eqb k k'); [intro E; now injection E as <- | now apply IH].
Qed.
Lemma leafx_snoc l k v : leafx l = true -> leafk v = true -> leafx (l ++ [(k, v)]) = true.
Proof. intros H1 H2. rewrite leafx_app, H1. unfold leafx. cbn [forallb snd]. now rewrite H2. Qed.

Lemma split_on_single c : forall s first, split_on c s = [first] -> first = s /\ existsb (fun x => x =? c) s = false.
Proof.
  induction s as [|x r IH]; intros first H; cbn [split_on existsb] in *.
  - injection H as <-. auto.
  - destruct (x =? c) eqn:E.
    + injection H as _ H. now apply split_on_nonempty in H.
    + destruct (split_on c r) as [|seg segs] eqn:Er; [now apply split_on_nonempty in Er|].
      injection H as <- ->. destruct (IH _ eq_refl) as [-> Hn]. auto.
Qed.

Lemma project_leaf t : flat t -> forall segs k k', segs <> [] -> project t k segs = DOk k' -> leafk k' = true.
Proof.
  intros Hf. induction segs as [|sg rest IH]; intros k k' Hne H; [congruence|].
  cbn [project] in H. dinv H as [exports [E1 H]].
  assert (Hx : leafx exports = true).
  { destruct k as [[r|f|v|i|w|m]|f|i|w|m|v]; try discriminate.
    - destruct (get_if t i) as [x|] eqn:G; [|discriminate]. injection E1 as <-. eapply flat_get_if; eassumption.
    - destruct (get_world t w) as [x|] eqn:G; [|discriminate]. injection E1 as <-. eapply flat_get_world; eassumption.
    - destruct (get_if t i) as [x|] eqn:G; [|discriminate]. injection E1 as <-. eapply flat_get_if; eassumption.
    - destruct (get_world t w) as [x|] eqn:G; [|discriminate]. injection E1 as <-. eapply flat_get_world; eassumption. }
  destruct (assoc sg exports) as [k1|] eqn:Ea; [|discriminate]. pose proof (leafx_assoc _ _ _ Hx Ea) as Hk1.
  destruct rest as [|sg2 rest2].
  - cbn in H. now injection H as <-.
  - eapply IH; [discriminate | exact H].
Qed.

Lemma path_item_cases root pkgs t pp k : flat t -> path_item root pkgs t pp = DOk k ->
  (str_eqb (Ast.pp_name pp) (pk_own pkgs) = true /\ existsb (fun c => c =? 47) (Ast.pp_segments pp) = false /\
   exists x, assoc (Ast.pp_segments pp) root = Some x /\ k = KType x) \/
  (str_eqb (Ast.pp_name pp) (pk_own pkgs) = true /\ leafk k = true) \/
  (str_eqb (Ast.pp_name pp) (pk_own pkgs) = false /\ exists x, assoc (Ast.pp_string pp) (pk_ext pkgs) = Some x /\ k = KType x).
Proof.
  intros Hf H. unfold path_item in H. destruct (str_eqb (Ast.pp_name pp) (pk_own pkgs)) eqn:Eo.
  - destruct (split_on 47 (Ast.pp_segments pp)) as [|first rest] eqn:Es; [discriminate|].
    destruct (assoc first root) as [x|] eqn:Ea; [|discriminate]. destruct rest as [|sg rest].
    + cbn in H. injection H as <-. destruct (split_on_single _ _ _ Es) as [-> Hn]. left. eauto.
    + right. left. split; [reflexivity|]. eapply project_leaf; [exact Hf | | exact H]. discriminate.
  - destruct (assoc (Ast.pp_string pp) (pk_ext pkgs)) as [x|] eqn:Ea; [|discriminate]. injection H as <-. right. right. eauto.
Qed.

Definition interface_item_step (root : scope) (pkgs : pkgtab) (l : loc) (it : Ast.interface_item) : dres loc :=
  match it with
  | Ast.IIUse u => use_type root pkgs l u
  | Ast.IIType d => item_type_decl EDuplicateInterfaceExport l d
  | Ast.IIExport _ i r =>
    do (f, t1) <- func_type_ref (l_cur l) (l_types l) r ;;
    if has (nm i) (l_exts l) then DErr EDuplicateInterfaceExport
    else DOk (mkloc (l_cur l) (l_uses l) (l_exts l ++ [(nm i, KFunc f)]) t1)
  end.
Lemma interface_items_cons root pkgs l it rest :
  interface_items root pkgs l (it :: rest) = (do l1 <- interface_item_step root pkgs l it ;; interface_items root pkgs l1 rest).
Proof. reflexivity. Qed.

Lemma interface_item_step_frame {root pkgs l it l1} : interface_item_step root pkgs l it = DOk l1 ->
  frame (l_types l) (l_types l1) /\ (leafx (l_exts l) = true -> leafx (l_exts l1) = true).
Proof.
  intro E1. destruct it as [u|d|docs i r]; cbn [interface_item_step] in E1.
  - destruct (use_type_leaf E1) as [-> Hl]. split; [apply frame_refl | exact Hl].
  - eapply item_type_decl_frame; exact E1.
  - dinv E1 as [[f t1] [E0 E1]]. destruct (has _ (l_exts l)); [discriminate|]. injection E1 as <-. cbn [l_types l_exts].
    split; [eapply func_type_ref_frame; exact E0|]. intro Hx. now apply leafx_snoc.
Qed.

Lemma interface_items_frame root pkgs : forall items l l', interface_items root pkgs l items = DOk l' ->
  frame (l_types l) (l_types l') /\ (leafx (l_exts l) = true -> leafx (l_exts l') = true).
Proof.
  induction items as [|it rest IH]; intros l l' H.
  - cbn in H. injection H as <-. split; [apply frame_refl | auto].
  - rewrite interface_items_cons in H. dinv H as [l1 [E1 H]]. destruct (interface_item_step_frame E1) as [X1 L1].
    destruct (IH _ _ H) as [X2 L2]. split; [eapply frame_trans; eassumption | auto].
Qed.

Lemma interface_body_flat root pkgs t idn items i t' :
  flat t -> interface_body root pkgs t idn items = DOk (i, t') -> flat t'.
Proof.
  intros Hf H. unfold interface_body in H. dinv H as [l [E1 H]].
  destruct (interface_items_frame _ _ _ _ _ E1) as [X1 L1]. cbn [l_types l_exts] in *.
  unfold add_interface in H. injection H as <- <-.
  apply (flat_add_interface (l_types l) (mkif idn (l_uses l) (l_exts l))); [eapply flat_frame; eassumption|].
  cbn [i_exports]. now apply L1.
Qed.

Definition wflat (w : wst) : Prop := flat (w_types w) /\ leafx (w_exp w) = true.

Lemma put_flat imp w n k t : flat t -> leafx (w_exp w) = true -> leafk k = true -> has n (side imp w) = false ->
  wflat (put imp w n k t).
Proof.
  intros Hf Hx Hk Hh. unfold put, side, with_imports, with_exports, wflat, w_types, w_imp in *.
  destruct imp; cbn [w_loc l_types w_exp].
  - auto.
  - rewrite (imap_set_fresh Hh). split; [exact Hf | now apply leafx_snoc].
Qed.

Lemma iface_path_inv {imp w found w'} : iface_path imp w found = DOk w' ->
  exists x d n, found = DOk (KType (TInterface x)) /\ get_if (w_types w) x = Some d /\ i_id d = Some n /\
                has n (side imp w) = false /\ w' = put imp w n (KInstance x) (w_types w).
Proof.
  unfold iface_path. intro H. dinv H as [it [E1 H]].
  destruct it as [[r|f|v|i|wd|m]|f|i|wd|m|v]; try discriminate.
  destruct (get_if (w_types w) i) as [d|] eqn:G; [|discriminate]. destruct (i_id d) as [n|] eqn:En; [|discriminate].
  destruct (has n (side imp w)) eqn:Eh; [discriminate|]. injection H as <-. exists i, d, n. auto.
Qed.

Lemma iface_path_flat imp w found w' : wflat w -> iface_path imp w found = DOk w' -> wflat w'.
Proof.
  intros [Hf Hx] H. destruct (iface_path_inv H) as (x & d & n & _ & _ & _ & Eh & ->). now apply put_flat.
Qed.

Lemma world_item_path_flat root pkgs imp w p w' : wflat w -> world_item_path root pkgs imp w p = DOk w' -> wflat w'.
Proof.
  intros [Hf Hx] H. destruct p as [i et|pp|i]; cbn [world_item_path] in H.
  - destruct (has (name_of i) (side imp w)) eqn:Eh; [discriminate|]. dinv H as [[k t1] [E1 H]]. injection H as <-.
    assert (Hk : flat t1 /\ leafk k = true).
    { destruct et as [j|fn|items].
      - dinv E1 as [it [E0 E1]]. destruct it; try discriminate; injection E1 as <- <-; auto.
      - dinv E1 as [[x t0] [E0 E1]]. injection E1 as <- <-. apply func_type_frame in E0 as [X1 _].
        split; [eapply flat_frame; eassumption | reflexivity].
      - dinv E1 as [[x t0] [E0 E1]]. injection E1 as <- <-. split; [eapply interface_body_flat; eassumption | reflexivity]. }
    destruct Hk as [Hf1 Hk]. now apply put_flat.
  - eapply iface_path_flat; [split; eassumption | exact H].
  - eapply iface_path_flat; [split; eassumption | exact H].
Qed.

Definition world_item_step (root : scope) (pkgs : pkgtab) (w : wst) (it : Ast.world_item) : dres wst :=
  match it with
  | Ast.WIUse u => do l <- use_type root pkgs (w_loc w) u ;; DOk (mkwst l (w_exp w))
  | Ast.WIType d => do l <- item_type_decl EDuplicateWorldItem (w_loc w) d ;; DOk (mkwst l (w_exp w))
  | Ast.WIImport _ p => world_item_path root pkgs true w p
  | Ast.WIExport _ p => world_item_path root pkgs false w p
  | Ast.WIInclude _ _ _ => DOk w
  end.
Lemma world_items_go_cons root pkgs w it rest :
  world_items_go root pkgs w (it :: rest) = (do w1 <- world_item_step root pkgs w it ;; world_items_go root pkgs w1 rest).
Proof. reflexivity. Qed.

Lemma world_item_step_flat {root pkgs w it w1} : wflat w -> world_item_step root pkgs w it = DOk w1 -> wflat w1.
Proof.
  intros [Hf Hx] E1. destruct it as [u|d|docs p|docs p|docs r its]; cbn [world_item_step] in E1.
  - dinv E1 as [l [E0 E1]]. injection E1 as <-. destruct (use_type_leaf E0) as [Ht _].
    unfold wflat, w_types in *. cbn [w_loc w_exp]. split; [rewrite Ht; exact Hf | exact Hx].
  - dinv E1 as [l [E0 E1]]. injection E1 as <-. destruct (item_type_decl_frame E0) as [X1 _].
    unfold wflat, w_types in *. cbn [w_loc w_exp]. split; [eapply flat_frame; eassumption | exact Hx].
  - eapply world_item_path_flat; [split; eassumption | exact E1].
  - eapply world_item_path_flat; [split; eassumption | exact E1].
  - injection E1 as <-. split; assumption.
Qed.

Lemma world_items_go_flat root pkgs : forall items w w', wflat w -> world_items_go root pkgs w items = DOk w' -> wflat w'.
Proof.
  induction items as [|it rest IH]; intros w w' Hw H.
  - cbn in H. now injection H as <-.
  - rewrite world_items_go_cons in H. dinv H as [w1 [E1 H]]. eapply IH; [|exact H]. eapply world_item_step_flat; eassumption.
Qed.

Lemma include_go_leaf : forall src target repl used target' used',
  leafx target = true -> leafx src = true -> include_go target repl used src = DOk (target', used') -> leafx target' = true.
Proof.
  induction src as [|[n k] rest IH]; intros target repl used target' used' Ht Hs H.
  - cbn in H. now injection H as <- <-.
  - cbn [include_go] in H. dinv H as [[n1 repl1] [E1 H]]. unfold leafx in Hs. cbn [forallb snd] in Hs.
    apply andb_true_iff in Hs as [Hk Hs]. eapply IH; [|exact Hs|exact H].
    unfold or_insert. destruct (has n1 target); [exact Ht | now apply leafx_snoc].
Qed.

Definition world_ref_kind (root : scope) (pkgs : pkgtab) (t : types) (r : Ast.world_ref) : dres kind :=
  match r with
  | Ast.WRIdent i => do x <- lookup_in root i ;; DOk (KType x)
  | Ast.WRPackage pp => path_item root pkgs t pp
  end.

Lemma world_kind_inv {A} (it : kind) (K : id -> dres A) r :
  match it with KType (TWorld x) | KComponent x => K x | _ => DErr ENotWorld end = DOk r ->
  exists x, (it = KType (TWorld x) \/ it = KComponent x) /\ K x = DOk r.
Proof. destruct it as [[r0|f|v|i|x|m]|f|i|x|m|v]; try discriminate; eauto. Qed.

Lemma world_include_inv {root pkgs w r items w'} : world_include root pkgs w r items = DOk w' ->
  exists repl it x other imps used1 exps used2,
    repl_go [] items = DOk repl /\ world_ref_kind root pkgs (w_types w) r = DOk it /\
    (it = KType (TWorld x) \/ it = KComponent x) /\ get_world (w_types w) x = Some other /\
    include_go (w_imp w) repl [] (w_imports other) = DOk (imps, used1) /\
    include_go (w_exp w) repl used1 (w_exports other) = DOk (exps, used2) /\
    existsb (fun it => negb (mem (name_of (Ast.ii_from it)) used2)) items = false /\
    w' = mkwst (mkloc (l_cur (w_loc w)) (l_uses (w_loc w)) imps (w_types w)) exps.
Proof.
  unfold world_include. fold (world_ref_kind root pkgs (w_types w) r). intro H.
  dinv H as [repl [E1 H]]. dinv H as [it [E2 H]]. destruct (world_kind_inv _ _ _ H) as (x & Hit & H1). clear H.
  destruct (get_world (w_types w) x) as [other|] eqn:G; [|discriminate].
  dinv H1 as [[imps used1] [E3 H1]]. dinv H1 as [[exps used2] [E4 H1]].
  destruct (existsb _ items) eqn:Em; [discriminate|]. injection H1 as <-.
  exists repl, it, x, other, imps, used1, exps, used2. auto 10.
Qed.

Lemma world_include_flat root pkgs w r items w' : wflat w -> world_include root pkgs w r items = DOk w' -> wflat w'.
Proof.
  intros [Hf Hx] H. destruct (world_include_inv H) as (repl & it & x & other & imps & used1 & exps & used2 &
    _ & _ & _ & G & _ & E4 & _ & ->).
  split; cbn [w_types w_loc l_types w_exp]; [exact Hf|].
  eapply include_go_leaf; [exact Hx | eapply flat_get_world; eassumption | exact E4].
Qed.

Lemma world_includes_go_flat root pkgs : forall items w w', wflat w -> world_includes_go root pkgs w items = DOk w' -> wflat w'.
Proof.
  induction items as [|it rest IH]; intros w w' Hw H.
  - cbn in H. now injection H as <-.
  - destruct it as [u|d|docs p|docs p|docs r its]; cbn [world_includes_go] in H; try (eapply IH; eassumption).
    dinv H as [w1 [E1 H]]. eapply IH; [|exact H]. eapply world_include_flat; eassumption.
Qed.

Lemma world_body_flat root pkgs t idn items i t' : flat t -> world_body root pkgs t idn items = DOk (i, t') -> flat t'.
Proof.
  intros Hf H. unfold world_body in H. dinv H as [w1 [E1 H]]. dinv H as [w2 [E2 H]].
  assert (Hw1 : wflat w1). { eapply world_items_go_flat; [|exact E1]. split; [exact Hf | reflexivity]. }
  destruct (world_includes_go_flat _ _ _ _ _ Hw1 E2) as [Hf2 Hx2].
  unfold add_world in H. injection H as <- <-.
  apply (flat_add_world (w_types w2) (mkworld idn (l_uses (w_loc w2)) (w_imp w2) (w_exp w2))); assumption.
Qed.

Lemma type_statement_inv {pn pkgs s x s'} : type_statement pn pkgs s x = DOk s' ->
  exists n y t1,
    match x with
    | Ast.TSInterface _ i items =>
      exists j, interface_body (r_root s) pkgs (r_types s) (Some (item_id pn (nm i))) items = DOk (j, t1) /\
                n = nm i /\ y = TInterface j
    | Ast.TSWorld _ i items =>
      exists j, world_body (r_root s) pkgs (r_types s) (Some (item_id pn (nm i))) items = DOk (j, t1) /\
                n = nm i /\ y = TWorld j
    | Ast.TSType d => is_resource d = false /\ plain_decl (r_root s) (r_types s) d = DOk (y, t1) /\ n = decl_name d
    end /\
    has n (r_root s) = false /\
    s' = mkrst ((n, y) :: r_root s) t1 (r_exports s ++ [n]) (r_defs s ++ [(n, KType y)]).
Proof.
  unfold type_statement. intro H. dinv H as [[[n y] t1] [E1 H]]. destruct (mem n (r_exports s)); [discriminate|].
  dinv H as [root1 [E2 H]]. apply register_ok in E2 as [Eh ->]. injection H as <-. exists n, y, t1. split; [|auto].
  destruct x as [docs i items|docs i items|d].
  - dinv E1 as [[j t0] [E0 E1]]. injection E1 as <- <- <-. eauto.
  - dinv E1 as [[j t0] [E0 E1]]. injection E1 as <- <- <-. eauto.
  - destruct d; try discriminate; dinv E1 as [[y0 t0] [E0 E1]]; injection E1 as <- <- <-; auto.
Qed.

Lemma type_statement_flat pn pkgs s x s' : flat (r_types s) -> type_statement pn pkgs s x = DOk s' -> flat (r_types s').
Proof.
  intros Hf H. destruct (type_statement_inv H) as (n & y & t1 & Hx & _ & ->). cbn [r_types].
  destruct x as [docs i items|docs i items|d].
  - destruct Hx as (j & E & _). eapply interface_body_flat; eassumption.
  - destruct Hx as (j & E & _). eapply world_body_flat; eassumption.
  - destruct Hx as (_ & E & _). apply plain_decl_frame in E as [X1 _]. eapply flat_frame; eassumption.
Qed.

Lemma statements_go_flat pn pkgs : forall l s s', flat (r_types s) -> statements_go pn pkgs s l = DOk s' -> flat (r_types s').
Proof.
  induction l as [|st rest IH]; intros s s' Hf H.
  - cbn in H. now injection H as <-.
  - destruct st as [| x | |]; cbn [statements_go] in H; try discriminate.
    dinv H as [s1 [E1 H]]. eapply IH; [|exact H]. eapply type_statement_flat; eassumption.
Qed.
