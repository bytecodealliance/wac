(** C13: a property of commands that holds of the fixed commands, of the [source(span)] copy of every
    token satisfying a token predicate [T], and of the doc lines printed for such a token's doc
    comments, holds of every command the (repaired) printer issues for the tree of a derivation over
    tokens satisfying [T]. (Used with [T] = "the lexer produced this token": lexical class of every
    copied text, cleanliness of every doc line.) *)
From WacV Require Import Str Token Lexer LexTables LexImpl LexerSound Semver Ast Parser Grammar ParserComb ParserProofs ParserTop.
From WacV Require Import Printer PrintSpec PrinterText PrinterProofs PrinterWf.
From Coq Require Import Lia.
Local Open Scope nat_scope.

Section Leaves.
Variable T : rtoken -> Prop.
Variable P : cmd -> Prop.
Let d := impl_flags.
Let fx := repaired.
Hypothesis Ptok : forall k, P (CTok k).
Hypothesis Psp : P CSp.
Hypothesis Pindent : P CIndent.
Hypothesis Pnewline : P CNewline.
Hypothesis Prawnl : P CRawNl.
Hypothesis Pinc : P CInc.
Hypothesis Pdec : P CDec.
Hypothesis Psrc : forall t, T t -> P (CSrc (tk t) (tsp t)).
Hypothesis Pdocs : forall t, T t -> Forall P (p_docs fx (tdocs t)).

Definition acc2 (it : lexitem) : Prop := match it with LTok t => T t | _ => True end.
Definition Acc2 (ts : list lexitem) : Prop := Forall acc2 ts.
Definition step2 {A} (G : drel A) (pr : A -> list cmd) : Prop :=
  forall ts r x, G ts r x -> Acc2 ts -> Forall P (pr x) /\ Acc2 r.

(** Splits a list of commands into single ones; the fixed commands hold by the section's hypotheses, the
    rest is looked for among the hypotheses at hand. *)
Ltac fb :=
  repeat first [ apply Forall_nil | assumption
               | match goal with |- Forall _ (_ ++ _) => apply Forall_app_intro end
               | match goal with |- Forall _ (_ :: _) =>
                   apply Forall_cons; [first [apply Ptok | exact Psp | exact Pindent | exact Pnewline | exact Prawnl
                                             | exact Pinc | exact Pdec | assumption | idtac] |] end ].

Lemma tok_acc2 k ts r t : tok k ts r t -> Acc2 ts -> T t /\ tk t = k /\ Acc2 r.
Proof. intros [-> Hk] H. inversion H; subst. auto. Qed.

Lemma docs_acc2 k ts r t : tok k ts r t -> Acc2 ts -> Forall P (p_docs fx (docs_of ts)).
Proof. intros [-> Hk] H. inversion H; subst. cbn [docs_of]. now apply Pdocs. Qed.

Lemma g_id_docs ts r i : g_id ts r i -> Acc2 ts -> Forall P (p_docs fx (docs_of ts)).
Proof. intros (t & Ht & _). eapply docs_acc2; eauto. Qed.

Lemma l_id : step2 g_id (fun i => [src_id i]).
Proof.
  intros ts r i (t & Ht & ->) Ha. destruct (tok_acc2 _ _ _ _ Ht Ha) as (H1 & H2 & H3). split; [|exact H3].
  constructor; [|constructor]. unfold src_id. cbn [mk_ident id_span]. rewrite <- H2. now apply Psrc.
Qed.

Lemma l_string : step2 g_string (fun s => [src_str s]).
Proof.
  intros ts r s (t & Ht & Hs) Ha. destruct (tok_acc2 _ _ _ _ Ht Ha) as (H1 & H2 & H3). split; [|exact H3].
  unfold strlit_of in Hs. destruct (unquote (ttext t)); [|discriminate]. inversion Hs; subst s.
  constructor; [|constructor]. unfold src_str. cbn [s_span]. rewrite <- H2. now apply Psrc.
Qed.

Lemma l_package_name : step2 g_package_name (fun p => [CSrc TPackageName (pn_span p)]).
Proof.
  intros ts r p (t & Ht & Hp) Ha. destruct (tok_acc2 _ _ _ _ Ht Ha) as (H1 & H2 & H3). split; [|exact H3].
  constructor; [|constructor]. rewrite (package_name_of_span _ _ Hp), <- H2. now apply Psrc.
Qed.

Lemma l_package_path : step2 g_package_path (fun p => [src_path p]).
Proof.
  intros ts r p (t & Ht & Hp) Ha. destruct (tok_acc2 _ _ _ _ Ht Ha) as (H1 & H2 & H3). split; [|exact H3].
  constructor; [|constructor]. unfold src_path. rewrite (package_path_of_span _ _ Hp), <- H2. now apply Psrc.
Qed.

Lemma l_seplist {A} (G : drel A) pr :
  step2 G pr -> forall ts r x, seplist G ts r x -> Acc2 ts -> Forall (fun a => Forall P (pr a)) (fst x) /\ Acc2 r.
Proof.
  intros HG ts r x H. induction H as [ts|ts r a Ha|ts r1 r a c Ha Hc|ts r1 r2 r a c l tr Ha Hc Hl IH Hne]; intros Hacc.
  - split; [constructor|exact Hacc].
  - destruct (HG _ _ _ Ha Hacc) as [H1 H2]. cbn. auto.
  - destruct (HG _ _ _ Ha Hacc) as [H1 H2]. destruct (tok_acc2 _ _ _ _ Hc H2) as (_ & _ & H3). cbn. auto.
  - destruct (HG _ _ _ Ha Hacc) as [H1 H2]. destruct (tok_acc2 _ _ _ _ Hc H2) as (_ & _ & H3).
    destruct (IH H3) as [H4 H5]. cbn in *. auto.
Qed.

Lemma l_many {A} (G : drel A) pr :
  step2 G pr -> forall ts r l, many G ts r l -> Acc2 ts -> Forall (fun a => Forall P (pr a)) l /\ Acc2 r.
Proof.
  intros HG ts r l H. induction H as [ts|ts r1 r a l Ha Hl IH]; intros Hacc.
  - split; [constructor|exact Hacc].
  - destruct (HG _ _ _ Ha Hacc) as [H1 H2]. destruct (IH H2) as [H3 H4]. auto.
Qed.

Lemma l_opt {A} k (G : drel A) pr :
  step2 G pr -> forall ts r o, opt k G ts r o -> Acc2 ts ->
  match o with Some a => Forall P (pr a) | None => True end /\ Acc2 r.
Proof.
  intros HG ts r o H Hacc. destruct H as [ts|ts r1 r t a Ht Ha]; [auto|].
  destruct (tok_acc2 _ _ _ _ Ht Hacc) as (_ & _ & H1). exact (HG _ _ _ Ha H1).
Qed.

(** One step of unpacking a production: tokens, leaves, and (extensible) known productions. *)
Ltac lext := fail.
Ltac use2 G L :=
  match goal with
  | Hg : G ?ts _ _, Ha : Acc2 ?ts |- _ =>
      let H1 := fresh "Hf" in let H2 := fresh "Ha" in destruct (L _ _ _ Hg Ha) as [H1 H2]; clear Hg
  end.
Ltac lstep :=
  match goal with
  | H : borrow_any_type _ = true |- _ => discriminate H
  | H : named_results _ = true |- _ => discriminate H
  | Ha : Acc2 (_ :: _) |- _ => inversion Ha; subst; clear Ha
  | H : Forall P [_] |- _ => apply Forall_inv in H
  | Ht : tok _ ?ts _ _, Ha : Acc2 ?ts |- _ =>
      let H1 := fresh "Ht" in let H2 := fresh "Hk" in let H3 := fresh "Ha" in
      destruct (tok_acc2 _ _ _ _ Ht Ha) as (H1 & H2 & H3); clear Ht
  | IH : Acc2 ?ts -> _, Ha : Acc2 ?ts |- _ =>
      let H1 := fresh "Hf" in let H2 := fresh "Ha" in destruct (IH Ha) as [H1 H2]; clear IH
  | _ => first [use2 g_id l_id | use2 g_string l_string | use2 g_package_name l_package_name | use2 g_package_path l_package_path | lext]
  end.

Lemma l_type_both :
  (forall ts r t, g_type d ts r t -> Acc2 ts -> Forall P (p_ty t) /\ Acc2 r) /\
  (forall ts r x, g_types d ts r x -> Acc2 ts -> Forall (fun t => Forall P (p_ty t)) (fst x) /\ Acc2 r).
Proof.
  apply (g_type_types_ind d (fun ts r t => Acc2 ts -> Forall P (p_ty t) /\ Acc2 r)
                            (fun ts r x => Acc2 ts -> Forall (fun t => Forall P (p_ty t)) (fst x) /\ Acc2 r));
    intros; subst; cbn [fst] in *; repeat lstep; try rewrite p_ty_tuple; cbn [p_ty];
    (split; [|assumption]); fb; try (apply Forall_comma_sep; auto).
Qed.
Definition l_type : step2 (g_type d) p_ty := proj1 l_type_both.

Ltac lext ::= use2 (g_type d) l_type.

(** The doc lines of the node that starts at [ts]. *)
Ltac dfirst :=
  match goal with
  | Ht : tok _ ?ts _ _, Ha : Acc2 ?ts |- context [docs_of ?ts] => pose proof (docs_acc2 _ _ _ _ Ht Ha)
  | Hg : g_id ?ts _ _, Ha : Acc2 ?ts |- context [docs_of ?ts] => pose proof (g_id_docs _ _ _ Hg Ha)
  end.
Ltac fin := (split; [|assumption]); fb.

Lemma l_named_type : step2 (g_named_type d) p_named_type.
Proof. intros ts r x H Ha. unfold g_named_type in H. unpack. subst. unfold p_named_type. cbn [nt_id nt_ty]. repeat lstep. fin. Qed.

Lemma l_params : step2 (g_params d) p_named_types.
Proof.
  intros ts r x [tr H] Ha. destruct (l_seplist _ _ l_named_type _ _ _ H Ha) as [H1 H2]. split; [|exact H2].
  unfold p_named_types. apply Forall_comma_sep; auto.
Qed.

Ltac lext ::= first [use2 (g_type d) l_type | use2 (g_named_type d) l_named_type | use2 (g_params d) l_params].

Lemma l_results :
  step2 (g_results d) (fun x => match x with RLEmpty => [] | RLScalar t => [CSp; CTok TArrow; CSp] ++ p_ty t
                                         | RLNamed rs => [CSp; CTok TArrow; CSp; CTok TOpenParen] ++ p_named_types rs ++ [CTok TCloseParen] end).
Proof. intros ts r x H Ha. destruct H; repeat lstep; fin. Qed.

Lemma l_func_type : step2 (g_func_type d) p_func_type.
Proof.
  intros ts r x H Ha. unfold g_func_type in H. unpack. subst. unfold p_func_type. cbn [ft_params ft_results]. repeat lstep.
  match goal with Ho : opt _ _ _ _ ?res |- _ =>
    destruct (l_opt _ _ _ l_results _ _ _ Ho ltac:(eassumption)) as [Hx Hy]; destruct res as [res|] end; fin.
Qed.

Ltac lext ::= first [use2 (g_type d) l_type | use2 (g_named_type d) l_named_type | use2 (g_params d) l_params | use2 (g_func_type d) l_func_type].

Lemma l_variant_case : step2 (g_variant_case d) (fun c => CIndent :: p_variant_case fx c).
Proof.
  intros ts r x H Ha. unfold g_variant_case in H. unpack. subst. unfold p_variant_case. cbn [vc_docs vc_id vc_ty].
  dfirst. repeat lstep.
  match goal with Ho : opt _ _ _ _ ?o |- _ =>
    assert (Hstep : step2 (fun a b x => exists b1 c, g_type d a b1 x /\ tok TCloseParen b1 b c)
                          (fun t => [CTok TOpenParen] ++ p_ty t ++ [CTok TCloseParen]))
      by (intros ? ? ? ? ?; unpack; repeat lstep; fin);
    destruct (l_opt _ _ _ Hstep _ _ _ Ho ltac:(eassumption)) as [Hx Hy]; destruct o end; fin.
Qed.

Lemma l_field : step2 (g_field d) (p_field fx).
Proof.
  intros ts r x H Ha. unfold g_field in H. unpack. subst. unfold p_field. cbn [fd_docs fd_id fd_ty].
  match goal with Hn : g_named_type _ ?ts _ _ |- _ => unfold g_named_type in Hn end. unpack. subst. cbn [nt_id nt_ty].
  dfirst. repeat lstep. fin.
Qed.

Lemma l_flag : step2 g_flag (p_flag fx).
Proof. intros ts r x H Ha. unfold g_flag in H. unpack. subst. unfold p_flag. cbn [fl_docs fl_id]. dfirst. repeat lstep. fin. Qed.

Lemma l_enum_case : step2 g_enum_case (p_enum_case fx).
Proof. intros ts r x H Ha. unfold g_enum_case in H. unpack. subst. unfold p_enum_case. cbn [ec_docs ec_id]. dfirst. repeat lstep. fin. Qed.

Lemma l_braced {A} kw (item : drel A) (pr : A -> list cmd) mk :
  step2 item pr ->
  (forall dcs i l, p_item_type_decl fx (mk dcs i l) = p_block fx dcs kw i (comma_lines pr l)) ->
  step2 (g_braced kw item mk) (p_item_type_decl fx).
Proof.
  intros Hs Hpr ts r x H Ha. unfold g_braced in H. unpack. subst.
  match goal with Ht : tok kw ?ts _ _, Ha : Acc2 ?ts |- _ => pose proof (docs_acc2 _ _ _ _ Ht Ha) as Hd end.
  repeat lstep.
  use2 (seplist item) (l_seplist _ _ Hs).
  repeat lstep. split; [|assumption]. rewrite Hpr. unfold p_block. fb.
  apply Forall_comma_lines; auto.
Qed.

Lemma l_type_decl : step2 (g_type_decl d) (p_item_type_decl fx).
Proof.
  intros ts r x H Ha. destruct H.
  - exact (l_braced _ _ _ DVariant l_variant_case (fun _ _ _ => eq_refl) _ _ _ H Ha).
  - exact (l_braced _ _ _ DRecord l_field (fun _ _ _ => eq_refl) _ _ _ H Ha).
  - exact (l_braced _ _ _ DFlags l_flag (fun _ _ _ => eq_refl) _ _ _ H Ha).
  - exact (l_braced _ _ _ DEnum l_enum_case (fun _ _ _ => eq_refl) _ _ _ H Ha).
  - cbn [p_item_type_decl]. dfirst. repeat lstep. fin.
  - cbn [p_item_type_decl]. dfirst. repeat lstep. fin.
Qed.

Lemma l_resource_item : step2 (g_resource_item d) (p_resource_method fx).
Proof.
  intros ts r x H Ha. destruct H; cbn [p_resource_method]; dfirst.
  - repeat lstep. fin.
  - repeat lstep.
    match goal with Ho : opt _ _ _ _ ?st |- _ =>
      assert (Hstep : step2 (fun a b (x : unit) => a = b) (fun _ => [])) by (intros ? ? ? -> ?; split; [constructor|assumption]);
      destruct (l_opt _ _ _ Hstep _ _ _ Ho ltac:(eassumption)) as [Hx Hy]; destruct st end; repeat lstep; fin.
Qed.

Lemma l_item_type_decl : step2 (g_item_type_decl d) (p_item_type_decl fx).
Proof.
  intros ts r x H Ha. destruct H.
  - cbn [p_item_type_decl]. unfold p_block. dfirst. repeat lstep. fin.
  - cbn [p_item_type_decl]. unfold p_block. dfirst. repeat lstep.
    use2 (many (g_resource_item d)) (l_many _ _ l_resource_item).
    repeat lstep. fin. apply Forall_spaced; auto.
  - exact (l_type_decl _ _ _ H Ha).
Qed.

Ltac lext ::= first [use2 (g_type d) l_type | use2 (g_named_type d) l_named_type | use2 (g_params d) l_params | use2 (g_func_type d) l_func_type | use2 (g_item_type_decl d) l_item_type_decl].

Lemma l_use_item : step2 g_use_item p_use_item.
Proof.
  intros ts r x H Ha. unfold g_use_item in H. unpack. subst. unfold p_use_item. cbn [ui_id ui_as]. repeat lstep.
  match goal with Ho : opt _ _ _ _ ?o |- _ =>
    assert (Hstep : step2 g_id (fun a => [CSp; CTok TAsKeyword; CSp; src_id a]))
      by (intros ? ? ? ? ?; repeat lstep; fin);
    destruct (l_opt _ _ _ Hstep _ _ _ Ho ltac:(eassumption)) as [Hx Hy]; destruct o end; fin.
Qed.

Lemma l_use : step2 (g_use d) (p_use fx).
Proof.
  intros ts r x H Ha. unfold g_use in H. unpack. subst. unfold p_use. cbn [u_docs u_path u_items]. dfirst. repeat lstep.
  match goal with Hp : g_use_path _ _ _ |- _ => destruct Hp end; cbn [p_use_path]; repeat lstep;
  use2 (seplist g_use_item) (l_seplist _ _ l_use_item);
  repeat lstep; fin; apply Forall_comma_sep; auto.
Qed.

Lemma l_func_type_ref : step2 (g_func_type_ref d) p_func_type_ref.
Proof. intros ts r x H Ha. destruct H; cbn [p_func_type_ref]; repeat lstep; fin. Qed.

Lemma l_interface_item : step2 (g_interface_item d) (p_interface_item fx).
Proof.
  intros ts r x H Ha. destruct H; cbn [p_interface_item].
  - exact (l_use _ _ _ H Ha).
  - exact (l_item_type_decl _ _ _ H Ha).
  - dfirst. repeat lstep. use2 (g_func_type_ref d) l_func_type_ref. repeat lstep. fin.
Qed.

Lemma l_interface_body : step2 (g_interface_body d) (fun items => CTok TOpenBrace :: p_items (p_interface_item fx) items).
Proof.
  intros ts r x H Ha. unfold g_interface_body in H. unpack. repeat lstep.
  use2 (many (g_interface_item d)) (l_many _ _ l_interface_item).
  repeat lstep. unfold p_items. fin. apply Forall_spaced; auto.
Qed.

Lemma l_inline_interface : step2 (g_inline_interface d) (p_inline_interface fx).
Proof.
  intros ts r x H Ha. unfold g_inline_interface in H. unpack. repeat lstep. use2 (g_interface_body d) l_interface_body.
  unfold p_inline_interface. split; [|assumption]. inversion Hf; subst. fb.
Qed.

Lemma l_extern_type : step2 (g_extern_type d) (p_extern_type fx).
Proof.
  intros ts r x H Ha. destruct H; cbn [p_extern_type]; [repeat lstep; fin|exact (l_inline_interface _ _ _ H Ha)|repeat lstep; fin].
Qed.

Lemma l_world_item_path : step2 (g_world_item_path d) (p_world_item_path fx).
Proof.
  intros ts r x H Ha. destruct H; cbn [p_world_item_path]; repeat lstep; try use2 (g_extern_type d) l_extern_type; fin.
Qed.

Lemma l_include_item : step2 g_include_item p_include_item.
Proof. intros ts r x H Ha. unfold g_include_item in H. unpack. subst. unfold p_include_item. cbn [ii_from ii_to]. repeat lstep. fin. Qed.

Lemma l_world_item : step2 (g_world_item d) (p_world_item fx).
Proof.
  intros ts r x H Ha. destruct H; cbn [p_world_item].
  - exact (l_use _ _ _ H Ha).
  - exact (l_item_type_decl _ _ _ H Ha).
  - dfirst. repeat lstep. use2 (g_world_item_path d) l_world_item_path. repeat lstep. fin.
  - dfirst. repeat lstep. use2 (g_world_item_path d) l_world_item_path. repeat lstep. fin.
  - dfirst. repeat lstep.
    assert (Hstep : step2 (fun a b items => exists b1 b2 o c tr,
                  tok TOpenBrace a b1 o /\ seplist g_include_item b1 b2 (items, tr) /\
                  (items <> [] \/ empty_include_with d = true) /\ tok TCloseBrace b2 b c)
                  (fun items => [CSp; CTok TWithKeyword; CSp; CTok TOpenBrace; CNewline; CInc] ++
                                comma_lines p_include_item items ++ [CDec; CIndent; CTok TCloseBrace])).
    { intros ? ? ? ? ?. unpack. repeat lstep.
      use2 (seplist g_include_item) (l_seplist _ _ l_include_item).
      repeat lstep. fin. apply Forall_comma_lines; auto. }
    match goal with Hw : g_world_ref _ _ _ |- _ => destruct Hw end; cbn [p_world_ref]; repeat lstep;
    (match goal with Ho : opt _ _ _ _ ?o |- _ =>
       destruct (l_opt _ _ _ Hstep _ _ _ Ho ltac:(eassumption)) as [Hx Hy]; destruct o as [[|y l]|] end);
    repeat lstep; fin.
Qed.

Lemma l_type_statement : step2 (g_type_statement d) (p_type_statement fx).
Proof.
  intros ts r x H Ha. destruct H; cbn [p_type_statement].
  - dfirst. repeat lstep. use2 (g_interface_body d) l_interface_body. split; [|assumption]. inversion Hf0; subst. fb.
  - dfirst. repeat lstep.
    use2 (many (g_world_item d)) (l_many _ _ l_world_item).
    repeat lstep. unfold p_items. fin. apply Forall_spaced; auto.
  - exact (l_type_decl _ _ _ H Ha).
Qed.

Lemma l_postfix : step2 g_postfix p_postfix.
Proof. intros ts r x H Ha. destruct H; cbn [p_postfix]; repeat lstep; fin. Qed.

Lemma l_arg_name : step2 g_arg_name p_arg_name.
Proof. intros ts r x H Ha. destruct H; cbn [p_arg_name]; repeat lstep; fin. Qed.

Lemma b_args l : Forall (fun a => Forall P (p_arg0 a)) l -> Forall P (p_args l).
Proof.
  induction 1 as [|a l Ha _ IH]; cbn [p_args]; [constructor|]. unfold p_arg_line. fb.
  destruct (is_fill a && nil_args l)%bool; fb.
Qed.

Lemma b_new_args l : Forall (fun a => Forall P (p_arg0 a)) l -> Forall P (p_new_args l).
Proof.
  intros H. pose proof (b_args _ H) as Hb. unfold p_new_args. destruct l as [|a [|b l]]; [fb| |]; destruct a; fb.
Qed.

Lemma l_expr : step2 (g_expr d) (p_expr fx).
Proof.
  intros ts r x H. revert ts r x H.
  apply (g_expr_mut d (fun ts r x => Acc2 ts -> Forall P (p_expr fx x) /\ Acc2 r)
                      (fun ts r p => Acc2 ts -> Forall P (p_primary fx p) /\ Acc2 r)
                      (fun ts r x => Acc2 ts -> Forall (fun a => Forall P (p_arg0 a)) (fst x) /\ Acc2 r)
                      (fun ts r a => Acc2 ts -> Forall P (p_arg0 a) /\ Acc2 r));
    intros; subst; cbn [fst] in *.
  - repeat lstep.
    use2 (many g_postfix) (l_many _ _ l_postfix).
    unfold mk_expr. cbn [p_expr]. fin. now apply Forall_flat_map.
  - repeat lstep. rewrite p_new_eq. fin. now apply b_new_args.
  - repeat lstep. cbn [p_primary]. fin.
  - repeat lstep. cbn [p_primary]. fin.
  - split; [constructor|assumption].
  - repeat lstep. cbn [fst]. auto.
  - repeat lstep. cbn [fst]. auto.
  - repeat lstep. cbn [fst] in *. auto.
  - repeat lstep. cbn [p_arg0]. fin.
  - repeat lstep. cbn [p_arg0]. fin.
  - repeat lstep. use2 g_arg_name l_arg_name. repeat lstep. cbn [p_arg0]. fin.
  - repeat lstep. cbn [p_arg0]. fin.
Qed.

Lemma l_extern_name : step2 g_extern_name p_extern_name.
Proof. intros ts r x H Ha. destruct H; cbn [p_extern_name]; repeat lstep; fin. Qed.

Lemma l_statement : step2 (g_statement d) (p_statement fx).
Proof.
  intros ts r x H Ha. destruct H; cbn [p_statement].
  - dfirst. repeat lstep.
    assert (Hstep : step2 g_extern_name (fun n => [CSp; CTok TAsKeyword; CSp] ++ p_extern_name n))
      by (intros ? ? ? ? ?; use2 g_extern_name l_extern_name; fin).
    match goal with Ho : opt _ _ _ _ ?o |- _ => destruct (l_opt _ _ _ Hstep _ _ _ Ho ltac:(eassumption)) as [Hx Hy]; destruct o end;
    repeat lstep;
    (match goal with Hi : g_import_type _ _ _ _ |- _ => destruct Hi end); cbn [p_import_type]; repeat lstep;
    try use2 (g_inline_interface d) l_inline_interface; repeat lstep; fin.
  - exact (l_type_statement _ _ _ H Ha).
  - dfirst. repeat lstep. use2 (g_expr d) l_expr. repeat lstep. fin.
  - dfirst. repeat lstep. use2 (g_expr d) l_expr.
    match goal with Ho : g_export_options _ _ _ |- _ => destruct Ho end; repeat lstep; try use2 g_extern_name l_extern_name; repeat lstep; fin.
Qed.

Theorem l_document ts x : g_document d ts [] x -> Acc2 ts -> Forall P (p_document fx x).
Proof.
  intros H Ha. unfold g_document in H. unpack. subst. unfold g_package_decl in *. unpack. subst.
  unfold p_document, p_directive. cbn [doc_docs doc_directive pd_package pd_targets doc_statements fx_targets_keyword fx repaired].
  dfirst. repeat lstep.
  match goal with Ho : opt _ _ _ _ ?o |- _ => destruct (l_opt _ _ _ l_package_path _ _ _ Ho ltac:(eassumption)) as [Hx Hy]; destruct o end;
  repeat lstep;
  use2 (many (g_statement d)) (l_many _ _ l_statement);
  fb; try (inversion Hx; subst; assumption); apply Forall_spaced; auto.
Qed.

End Leaves.
