(** [lex_sound] (tiling part): the tokens of [lex] tile the source. Between two tokens lies only
    skippable material (white space, line comments, nested block comments); every token text is the
    slice of the source at its span; spans are given in UTF-8 bytes of whole characters (offsets are
    [byte_len] of a character prefix), are in bounds and strictly increasing. *)
From WacV Require Import Str Token Lexer.
From Coq Require Import Lia.

Local Open Scope nat_scope.

Lemma run_len_le p s : run_len p s <= length s.
Proof. induction s as [|c s IH]; cbn; [lia|]. destruct (p c); lia. Qed.

Lemma id_tail_len_le au : forall s up, id_tail_len au up s <= length s.
Proof.
  fix IH 1. intros s up. destruct s as [|c r]; cbn [id_tail_len length]; [lia|].
  destruct (if up then upper_cont c else lower_cont c).
  - specialize (IH r up). lia.
  - destruct (c =? c_minus)%N; [|lia]. destruct r as [|c2 r2]; [lia|]. cbn [length].
    destruct (is_lower c2); [specialize (IH r2 false); lia|].
    destruct (au && is_upper c2); [specialize (IH r2 true); lia|lia].
Qed.

Lemma words_len_le au s : words_len au s <= length s.
Proof.
  destruct s as [|c r]; cbn [words_len length]; [lia|].
  destruct (is_lower c); [pose proof (id_tail_len_le au r false); lia|].
  destruct (au && is_upper c); [pose proof (id_tail_len_le au r true); lia|lia].
Qed.

Lemma id_len_le au s : id_len au s <= length s.
Proof.
  destruct s as [|c r]; cbn [id_len length]; [lia|]. destruct (c =? c_percent)%N.
  - pose proof (words_len_le au r). destruct (words_len au r); lia.
  - apply (words_len_le au (c :: r)).
Qed.

Lemma firstn_add {A} a b (l : list A) : firstn (a + b) l = firstn a l ++ firstn b (skipn a l).
Proof.
  revert l. induction a as [|a IH]; intros l; [reflexivity|]. destruct l as [|x l]; cbn [plus firstn skipn app].
  - now rewrite firstn_nil.
  - now rewrite IH.
Qed.

Lemma skipn_plus {A} (a b : nat) (l : list A) : skipn (a + b) l = skipn b (skipn a l).
Proof.
  revert l. induction a as [|a IH]; intros l; cbn [Nat.add skipn]; auto.
  destruct l as [|x l]; cbn [skipn]; [now destruct b|]. apply IH.
Qed.

Lemma skipn_length_le {A} n (l : list A) : n <= length l -> length (skipn n l) = length l - n.
Proof. intros _. apply skipn_length. Qed.

Lemma seg_loop_le fuel au sep : forall s, seg_loop fuel au sep s <= length s.
Proof.
  induction fuel as [|f IH]; intros s; cbn [seg_loop]; [lia|].
  destruct s as [|c r]; [cbn; lia|]. destruct (c =? sep)%N; [|lia].
  pose proof (id_len_le au r). destruct (id_len au r) as [|n] eqn:E; [lia|].
  specialize (IH (skipn (S n) r)). rewrite skipn_length in IH. cbn [length]. lia.
Qed.

Lemma semver_rest_le : forall s ing, semver_rest ing s <= length s.
Proof.
  fix IH 1. intros s ing. destruct s as [|c r]; cbn [semver_rest length]; [lia|].
  destruct (ing && semver_char c); [specialize (IH r true); lia|].
  destruct (c =? c_period)%N; [|lia]. destruct r as [|c2 r2]; [lia|]. cbn [length].
  destruct (semver_char c2); [specialize (IH r2 true); lia|lia].
Qed.

Lemma semver_len_le s : semver_len s <= length s.
Proof.
  unfold semver_len. pose proof (run_len_le is_digit s). destruct (run_len is_digit s) as [|dd] eqn:E; [lia|].
  pose proof (semver_rest_le (skipn (S dd) s) false). rewrite skipn_length in H0. lia.
Qed.

Lemma version_tail_len_le s : version_tail_len s <= length s.
Proof.
  destruct s as [|c r]; cbn [version_tail_len length]; [lia|]. destruct (c =? c_atsign)%N; [|lia].
  pose proof (semver_len_le r). destruct (semver_len r); lia.
Qed.

Lemma firstn_app_S {A} (a : list A) c b : firstn (S (length a)) (a ++ c :: b) = a ++ [c].
Proof. induction a as [|x a IH]; cbn [length app firstn]; [reflexivity|]. cbn [length app firstn] in IH. now rewrite IH. Qed.

Lemma find_char_spec c : forall s n, find_char c s = Some n ->
  exists body rest, s = body ++ c :: rest /\ length body = n /\ forallb (fun x => negb (x =? c)%N) body = true.
Proof.
  induction s as [|x s IH]; intros n; cbn [find_char]; [discriminate|]. destruct (x =? c)%N eqn:E.
  - intros H; inversion H; subst. apply N.eqb_eq in E. subst x. exists [], s. repeat split.
  - destruct (find_char c s) as [m|]; [|discriminate]. intros H; inversion H; subst.
    destruct (IH m eq_refl) as (body & rest & -> & Hl & Hn). exists (x :: body), rest. repeat split.
    + cbn [length]. now rewrite Hl.
    + cbn [forallb]. rewrite E. exact Hn.
Qed.

Lemma find_char_lt c s n : find_char c s = Some n -> n < length s.
Proof. intros H. destruct (find_char_spec _ _ _ H) as (body & rest & -> & <- & _). rewrite app_length. cbn [length]. lia. Qed.

Lemma starts_with_length p : forall s, starts_with p s = true -> length p <= length s.
Proof.
  induction p as [|x p IH]; intros s; cbn [starts_with length]; [lia|].
  destruct s as [|y s]; [discriminate|]. intros H. apply andb_true_iff in H. destruct H as [_ H]. apply IH in H. cbn. lia.
Qed.

Lemma best_symbol_none tbl s : best_symbol tbl s = None ->
  forall y k', In (y, k') tbl -> starts_with y s = true -> y = [].
Proof.
  induction tbl as [|[x t] tbl IH]; cbn [best_symbol]; [intros _ y k' []|].
  destruct (starts_with x s && negb (is_nil_str x)) eqn:E.
  - destruct (best_symbol tbl s) as [[? ?]|]; [destruct (_ <? _)|]; discriminate.
  - intros Hb y k' [Hy|Hy] Hsy; [|eauto]. inversion Hy; subst. rewrite Hsy in E. destruct y; [reflexivity|discriminate].
Qed.

Lemma best_symbol_spec tbl s : forall k n, best_symbol tbl s = Some (k, n) ->
  (exists x, In (x, k) tbl /\ starts_with x s = true /\ x <> [] /\ n = length x) /\
  (forall y k', In (y, k') tbl -> starts_with y s = true -> y <> [] -> length y <= n).
Proof.
  induction tbl as [|[x t] tbl IH]; intros k n; cbn [best_symbol]; [discriminate|].
  destruct (starts_with x s && negb (is_nil_str x)) eqn:E.
  - apply andb_true_iff in E. destruct E as [Es Ene]. assert (Hx : x <> []) by (intros ->; discriminate).
    destruct (best_symbol tbl s) as [[t' n']|] eqn:Eb.
    + destruct (IH t' n' eq_refl) as [(x' & Hin & Hs' & Hne' & ->) Hmax].
      destruct (length x <? length x') eqn:El.
      * apply Nat.ltb_lt in El. intros H; inversion H; subst. split.
        -- exists x'. repeat split; auto. now right.
        -- intros y k' [Hy|Hy] Hsy Hney; [inversion Hy; subst; lia|eauto].
      * apply Nat.ltb_ge in El. intros H; inversion H; subst. split.
        -- exists x. repeat split; auto. now left.
        -- intros y k' [Hy|Hy] Hsy Hney; [inversion Hy; subst; lia|]. specialize (Hmax _ _ Hy Hsy Hney). lia.
    + intros H; inversion H; subst. split.
      * exists x. repeat split; auto. now left.
      * intros y k' [Hy|Hy] Hsy Hney; [inversion Hy; subst; lia|].
        exfalso. apply Hney. exact (best_symbol_none _ _ Eb _ _ Hy Hsy).
  - intros H. destruct (IH k n H) as [(x' & Hin & Hs' & Hne' & ->) Hmax]. split.
    + exists x'. repeat split; auto. now right.
    + intros y k' [Hy|Hy] Hsy Hney; [|eauto]. inversion Hy; subst. rewrite Hsy in E. destruct y; [congruence|discriminate].
Qed.

Lemma best_symbol_bound tbl s k n : best_symbol tbl s = Some (k, n) -> 0 < n <= length s.
Proof.
  intros H. destruct (best_symbol_spec _ _ _ _ H) as [(x & _ & Hs & Hne & ->) _]. apply starts_with_length in Hs.
  destruct x; [congruence|cbn [length] in *; lia].
Qed.

Lemma scan_token_bound cfg fuel s k n : scan_token cfg fuel s = ScanTok k n -> 0 < n <= length s.
Proof.
  unfold scan_token. destruct s as [|c r]; [discriminate|].
  destruct (c =? c_quote)%N.
  { destruct (find_char c_quote r) as [m|] eqn:E; [|discriminate]. intros H; inversion H; subst.
    apply find_char_lt in E. cbn. lia. }
  pose proof (id_len_le (allow_upper cfg) (c :: r)) as Hid.
  destruct (id_len (allow_upper cfg) (c :: r)) as [|n0] eqn:Eid.
  { destruct (best_symbol (symbols cfg) (c :: r)) as [[k' n']|] eqn:Eb; [|discriminate].
    intros H; inversion H; subst. eapply best_symbol_bound; eauto. }
  set (rest1 := skipn (S n0) (c :: r)) in *.
  assert (Hr1 : length rest1 = length (c :: r) - S n0) by (unfold rest1; apply skipn_length).
  destruct (head_is c_minus rest1) eqn:Ehd.
  { assert (0 < length rest1) by (destruct rest1; [discriminate|cbn; lia]).
    destruct (q_pkgzone cfg && is_kw_prefix (firstn (S n0) (c :: r)) (keywords cfg)); [discriminate|].
    destruct (q_dash cfg); intros H0; inversion H0; subst; lia. }
  pose proof (seg_loop_le fuel (allow_upper cfg) c_colon rest1) as Hs2.
  destruct (seg_loop fuel (allow_upper cfg) c_colon rest1) as [|m2] eqn:Es2.
  { destruct (head_is c_colon rest1 && q_kwcolon cfg); intros H; inversion H; subst; lia. }
  set (pkg := S n0 + S m2) in *. set (after := skipn pkg (c :: r)) in *.
  assert (Ha : length after = length (c :: r) - pkg) by (unfold after; apply skipn_length).
  destruct (q_pkgzone cfg && (head_is c_minus after || head_is c_colon after)); [discriminate|].
  pose proof (seg_loop_le fuel (allow_upper cfg) c_slash after) as Hs3.
  destruct (seg_loop fuel (allow_upper cfg) c_slash after) as [|m3] eqn:Es3.
  - pose proof (version_tail_len_le after) as Hv. set (v := version_tail_len after) in *.
    intros H0; injection H0 as _ <-. unfold pkg in *. lia.
  - set (path := pkg + S m3) in *. pose proof (version_tail_len_le (skipn path (c :: r))) as Hv.
    rewrite skipn_length in Hv. set (v := version_tail_len (skipn path (c :: r))) in *.
    intros H0; injection H0 as _ <-. unfold path, pkg in *. lia.
Qed.

Inductive skippable : str -> Prop :=
| sk_nil : skippable []
| sk_ws c r : is_ws c = true -> skippable r -> skippable (c :: r)
| sk_line body r :
    Forall (fun x => x <> c_nl) body -> skippable r -> skippable (c_slash :: c_slash :: body ++ r)
| sk_block n text r :
    block_comment_length text = Some n -> skippable r ->
    skippable (firstn n (c_slash :: c_star :: text) ++ r).

Lemma byte_len_app a b : byte_len (a ++ b) = (byte_len a + byte_len b)%N.
Proof. induction a as [|c a IH]; cbn [app byte_len]; [reflexivity|]. rewrite IH. lia. Qed.

Lemma utf8_len_pos c : (0 < utf8_len c)%N.
Proof. unfold utf8_len. destruct (c <? 128)%N, (c <? 2048)%N, (c <? 65536)%N; lia. Qed.

Lemma run_len_forall p s : Forall (fun x => p x = true) (firstn (run_len p s) s).
Proof. induction s as [|c s IH]; cbn; [constructor|]. destruct (p c) eqn:E; cbn; constructor; auto. Qed.

Lemma is_ws_byte c : is_ws c = true -> utf8_len c = 1%N.
Proof.
  unfold is_ws. rewrite !orb_true_iff, !N.eqb_eq. intros [[[[->| ->]| ->]| ->]| ->]; reflexivity.
Qed.

(** Case analysis on a code point down to the depth of the numerals the lexer matches on. The loop
    ends: [tac] closes a branch as soon as the bits fixed so far differ from every matched numeral, and
    on a branch that is exactly a matched numeral [p] is used up ([xH]), so [destruct p] fails. *)
Ltac numcase x tac :=
  let p := fresh "p" in
  destruct x as [|p]; [tac|];
  repeat (destruct p as [p|p|]; try tac); try tac.

Lemma doc_of_comment_line rest : doc_of_comment (47 :: 47 :: rest)%N <> None.
Proof.
  destruct rest as [|x t]; [cbn; discriminate|].
  numcase x ltac:(cbn; discriminate).
Qed.

Lemma strip_suffix2_app a b body : strip_suffix2 a b (body ++ [a; b]) = Some body.
Proof.
  unfold strip_suffix2. rewrite rev_app_distr. cbn [rev app]. rewrite !N.eqb_refl. cbn. now rewrite rev_involutive.
Qed.

Lemma doc_of_comment_block body : doc_of_comment (47 :: 42 :: body ++ [42; 47])%N <> None.
Proof.
  destruct body as [|x body]; [cbn; discriminate|].
  cbn [app].
  numcase x ltac:(cbn; discriminate).
  (* x = 42: a doc block comment `/** ... */` *)
  change (match body ++ [42; 47]%N with
          | [47%N] => Some None
          | _ => match strip_suffix2 c_star c_slash (body ++ [42; 47]%N) with
                 | Some b => Some (Some (trim b)) | None => None end
          end <> None).
  change [42; 47]%N with [c_star; c_slash]. rewrite strip_suffix2_app.
  destruct body as [|y body]; [cbn; discriminate|]. cbn [app].
  destruct body as [|z body]; cbn [app]; numcase y ltac:(cbn; discriminate).
Qed.

Lemma block_len_suffix : forall k s depth n,
  length s <= k -> block_len depth s = Some n -> exists pre, firstn n s = pre ++ [c_star; c_slash].
Proof.
  induction k as [|k IH]; intros s depth n Hk; destruct s as [|c r]; cbn [block_len]; try discriminate.
  { cbn in Hk. lia. }
  destruct r as [|c2 r2]; [discriminate|]. cbn [length] in Hk.
  destruct ((c =? c_slash)%N && (c2 =? c_star)%N) eqn:E1.
  - destruct (block_len (S depth) r2) as [m|] eqn:Em; [|discriminate]. intros H; inversion H; subst.
    destruct (IH r2 _ _ ltac:(lia) Em) as (pre & Hp). exists (c :: c2 :: pre). cbn [firstn app]. now rewrite Hp.
  - destruct ((c =? c_star)%N && (c2 =? c_slash)%N) eqn:E2.
    + destruct depth as [|d].
      * intros H; inversion H; subst. apply andb_true_iff in E2. destruct E2 as [Ea Eb].
        apply N.eqb_eq in Ea, Eb. subst. now exists [].
      * destruct (block_len d r2) as [m|] eqn:Em; [|discriminate]. intros H; inversion H; subst.
        destruct (IH r2 _ _ ltac:(lia) Em) as (pre & Hp). exists (c :: c2 :: pre). cbn [firstn app]. now rewrite Hp.
    + destruct (block_len depth (c2 :: r2)) as [m|] eqn:Em; [|discriminate]. intros H; inversion H; subst.
      destruct (IH (c2 :: r2) _ _ ltac:(cbn; lia) Em) as (pre & Hp). exists (c :: pre).
      change (firstn (S m) (c :: c2 :: r2)) with (c :: firstn m (c2 :: r2)). now rewrite Hp.
Qed.

Lemma block_comment_text r2 n :
  block_comment_length r2 = Some n ->
  exists body, firstn n (c_slash :: c_star :: r2) = c_slash :: c_star :: body ++ [c_star; c_slash].
Proof.
  unfold block_comment_length. destruct (block_len 0 r2) as [m|] eqn:E; [|discriminate].
  intros H; inversion H; subst. destruct (block_len_suffix _ _ _ _ (le_n _) E) as (pre & Hp).
  exists pre. cbn [firstn]. now rewrite Hp.
Qed.

Lemma push_doc_some alive docs text o : doc_of_comment text <> None -> push_doc alive docs text o <> None.
Proof. unfold push_doc. destruct alive; [|discriminate]. destruct (doc_of_comment text) as [[d|]|]; congruence. Qed.

Lemma push_doc_cases alive docs text o docs1 :
  push_doc alive docs text o = Some docs1 ->
  docs1 = docs \/ exists d, docs1 = docs ++ [(d, {| off := o; slen := byte_len text |})].
Proof.
  unfold push_doc. destruct alive; [|intros H; inversion H; now left].
  destruct (doc_of_comment text) as [[d|]|]; intros H; inversion H; [right; now exists d|now left].
Qed.

Definition doc_in (o : N) (g : str) (dc : doc) : Prop :=
  exists g1 t g2, g = g1 ++ t ++ g2 /\ snd dc = {| off := o + byte_len g1; slen := byte_len t |}.
Definition docs_in (o : N) (g : str) (docs docs' : list doc) : Prop :=
  exists new, docs' = docs ++ new /\ Forall (doc_in o g) new.

Lemma doc_in_shift o p g dc : doc_in (o + byte_len p) g dc -> doc_in o (p ++ g) dc.
Proof.
  intros (g1 & t & g2 & -> & Hsp). exists (p ++ g1), t, g2. rewrite Hsp, byte_len_app, <- app_assoc. split; [reflexivity|]. f_equal. lia.
Qed.

(** What [skip_gap] returns on [s] at byte offset [o]: it splits off a skippable prefix [g] and stops
    there, or reports the block comment after [g] that is never closed. It never panics ([push_doc]
    is only given comment texts), and it runs out of fuel only if the fuel does not exceed [|s|]. *)
Definition gap_spec (fuel : nat) (o : N) (s : str) (docs : list doc) (res : gapres) : Prop :=
  match res with
  | GapOk o' s' docs' => exists g, s = g ++ s' /\ skippable g /\ o' = (o + byte_len g)%N /\ docs_in o g docs docs'
  | GapErr _ sp => exists g rest, s = g ++ rest /\ skippable g /\ sp = {| off := o + byte_len g; slen := byte_len rest |}
  | GapPanic => False
  | GapFuel => fuel <= length s
  end.

Lemma gap_spec_here fuel o s docs : gap_spec fuel o s docs (GapOk o s docs).
Proof. exists []. repeat split; [constructor|cbn; lia|]. exists []. now rewrite app_nil_r. Qed.

(** One turn of the loop skips the piece [p]: a white-space character or a whole comment. *)
Lemma gap_spec_step p f o s r docs docs1 res :
  s = p ++ r -> p <> [] -> (forall g, skippable g -> skippable (p ++ g)) ->
  docs1 = docs \/ (exists d, docs1 = docs ++ [(d, {| off := o; slen := byte_len p |})]) ->
  gap_spec f (o + byte_len p) r docs1 res -> gap_spec (S f) o s docs res.
Proof.
  intros -> Hp Hsk Hd1. destruct res as [o' s' docs'|e sp| |]; cbn [gap_spec].
  - intros (g & -> & Hg & -> & new & -> & Hnew). exists (p ++ g). rewrite byte_len_app, app_assoc.
    repeat split; [auto|lia|].
    pose proof (Forall_impl _ (doc_in_shift o p g) Hnew) as Hnew'.
    destruct Hd1 as [->|(d & ->)]; [now exists new|]. exists ((d, {| off := o; slen := byte_len p |}) :: new).
    rewrite <- app_assoc. split; [reflexivity|]. constructor; [|exact Hnew']. exists [], p, g. split; [reflexivity|].
    cbn [snd byte_len]. now rewrite N.add_0_r.
  - intros (g & rest & -> & Hg & ->). exists (p ++ g), rest. rewrite byte_len_app, app_assoc. repeat split; [auto|].
    f_equal. lia.
  - auto.
  - rewrite app_length. destruct p; [congruence|cbn [length]; lia].
Qed.

Lemma skip_gap_spec fuel : forall o s alive docs, gap_spec fuel o s docs (skip_gap fuel o s alive docs).
Proof.
  induction fuel as [|f IH]; intros o s alive docs; cbn [skip_gap]; [cbn; lia|].
  destruct s as [|c r]; [apply gap_spec_here|].
  destruct (is_ws c) eqn:Ews.
  { apply (gap_spec_step [c] f o _ r docs docs); [reflexivity|discriminate|intros g; now apply sk_ws|now left|].
    cbn [byte_len]. rewrite (is_ws_byte _ Ews), N.add_0_r. apply IH. }
  destruct (c =? c_slash)%N eqn:Esl; [|apply gap_spec_here]. apply N.eqb_eq in Esl. subst c.
  destruct r as [|c2 r2]; [apply gap_spec_here|].
  destruct (c2 =? c_slash)%N eqn:E2.
  { apply N.eqb_eq in E2. subst c2. set (n := run_len (fun x => negb (x =? c_nl)%N) r2).
    pose proof (push_doc_some alive docs (c_slash :: c_slash :: firstn n r2) o (doc_of_comment_line _)) as Hp.
    destruct (push_doc alive docs (c_slash :: c_slash :: firstn n r2) o) as [docs1|] eqn:Ep; [|congruence].
    apply (gap_spec_step (c_slash :: c_slash :: firstn n r2) f o _ (skipn n r2) docs docs1);
      [|discriminate| |exact (push_doc_cases _ _ _ _ _ Ep)|apply IH].
    - cbn [app]. now rewrite firstn_skipn.
    - intros g Hg. cbn [app]. apply sk_line; [|exact Hg]. pose proof (run_len_forall (fun x => negb (x =? c_nl)%N) r2) as Hf.
      fold n in Hf. eapply Forall_impl; [|exact Hf]. cbn. intros a Ha. now apply negb_true_iff, N.eqb_neq in Ha. }
  destruct (c2 =? c_star)%N eqn:E3; [|apply gap_spec_here]. apply N.eqb_eq in E3. subst c2.
  destruct (block_comment_length r2) as [n|] eqn:Eb.
  - destruct (block_comment_text _ _ Eb) as (body & Ht).
    pose proof (push_doc_some alive docs (c_slash :: c_star :: body ++ [c_star; c_slash]) o (doc_of_comment_block body)) as Hp.
    rewrite <- Ht in Hp.
    destruct (push_doc alive docs (firstn n (c_slash :: c_star :: r2)) o) as [docs1|] eqn:Ep; [|congruence].
    apply (gap_spec_step (firstn n (c_slash :: c_star :: r2)) f o _ (skipn n (c_slash :: c_star :: r2)) docs docs1);
      [| | |exact (push_doc_cases _ _ _ _ _ Ep)|apply IH].
    + symmetry. apply firstn_skipn.
    + rewrite Ht. discriminate.
    + intros g Hg. now apply sk_block.
  - exists [], (c_slash :: c_star :: r2). repeat split; [constructor|]. cbn [byte_len]. now rewrite N.add_0_r.
Qed.

Lemma skip_gap_ok fuel o s alive docs o' s' docs' :
  skip_gap fuel o s alive docs = GapOk o' s' docs' ->
  exists g, s = g ++ s' /\ skippable g /\ o' = (o + byte_len g)%N.
Proof.
  intros H. pose proof (skip_gap_spec fuel o s alive docs) as Hs. rewrite H in Hs. destruct Hs as (g & ? & ? & ? & _). now exists g.
Qed.

Lemma skip_gap_err fuel o s alive docs e sp :
  skip_gap fuel o s alive docs = GapErr e sp ->
  exists g rest, s = g ++ rest /\ skippable g /\ off sp = (o + byte_len g)%N /\ slen sp = byte_len rest.
Proof.
  intros H. pose proof (skip_gap_spec fuel o s alive docs) as Hs. rewrite H in Hs.
  destruct Hs as (g & rest & -> & Hg & ->). exists g, rest. auto.
Qed.

(** [tiles o s items]: [s] (which starts at byte offset [o] of the source) is skippable material and
    tokens in alternation, ending either with skippable material up to the end of the source or with
    one error / unmodelled item located after skippable material. *)
Inductive tiles : N -> str -> list lexitem -> Prop :=
| tiles_end o g : skippable g -> tiles o g []
| tiles_tok o g t rest items :
    skippable g -> ttext t <> [] ->
    tsp t = {| off := o + byte_len g; slen := byte_len (ttext t) |} ->
    tiles (o + byte_len g + byte_len (ttext t))%N rest items ->
    tiles o (g ++ ttext t ++ rest) (LTok t :: items)
| tiles_stop o g rest it :
    skippable g ->
    match it with
    | LErr _ sp | LUnmodelled sp => off sp = (o + byte_len g)%N
    | LTok _ => False
    | _ => True
    end ->
    tiles o (g ++ rest) [it].

Lemma lex_loop_tiles cfg fuel : forall o s, tiles o s (lex_loop fuel cfg o s).
Proof.
  induction fuel as [|f IH]; intros o s; cbn [lex_loop].
  { apply (tiles_stop o [] s LFuel); [constructor|exact I]. }
  destruct (skip_gap (S f) o s true []) as [o1 s1 docs|e sp| |] eqn:Eg.
  - apply skip_gap_ok in Eg. destruct Eg as (g & -> & Hg & ->).
    destruct s1 as [|c1 r1].
    + rewrite app_nil_r. now constructor.
    + destruct (scan_token cfg (S f) (c1 :: r1)) as [k n|e n|] eqn:Es.
      * pose proof (scan_token_bound _ _ _ _ _ Es) as [Hn1 Hn2].
        rewrite <- (firstn_skipn n (c1 :: r1)) at 1.
        apply (tiles_tok o g {| tk := k; tsp := _; ttext := firstn n (c1 :: r1); tdocs := docs |}); auto.
        cbn [ttext]. destruct n; [lia|]. discriminate.
      * apply (tiles_stop o g (c1 :: r1) (LErr e _)); auto.
      * apply (tiles_stop o g (c1 :: r1) (LUnmodelled _)); auto.
  - apply skip_gap_err in Eg. destruct Eg as (g & rest & -> & Hg & Ho & _). apply (tiles_stop o g rest (LErr e sp)); auto.
  - apply (tiles_stop o [] s LPanic); [constructor|exact I].
  - apply (tiles_stop o [] s LFuel); [constructor|exact I].
Qed.

(** Consequences of a tiling: spans are in bounds and ordered; only a token has a successor. *)
Lemma tiles_bounds : forall o s items, tiles o s items ->
  Forall (fun it => match it with
                    | LTok t => (o <= off (tsp t) /\ off (tsp t) + slen (tsp t) <= o + byte_len s)%N
                    | _ => True end) items.
Proof.
  induction 1 as [o g Hg|o g t rest items Hg Hne Hsp Ht IH|o g rest it Hg Hit].
  - constructor.
  - constructor.
    + rewrite Hsp. cbn [off slen]. rewrite !byte_len_app. lia.
    + eapply Forall_impl; [|exact IH]. intros [t'| | | |]; auto. rewrite !byte_len_app. lia.
  - constructor; [|constructor]. destruct it; auto. contradiction.
Qed.

Lemma tiles_stops : forall o s items, tiles o s items ->
  forall pre it post, items = pre ++ it :: post -> post <> [] -> exists t, it = LTok t.
Proof.
  induction 1 as [o g Hg|o g t rest items Hg Hne Hsp Ht IH|o g rest it0 Hg Hit]; intros pre it post E Hp.
  - destruct pre; discriminate.
  - destruct pre as [|x pre]; inversion E; subst; eauto.
  - destruct pre as [|x pre]; inversion E; subst; [congruence|]. destruct pre; discriminate.
Qed.
