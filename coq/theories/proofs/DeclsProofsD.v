(** C05, part D: worlds -- items, paths, [include]. *)
From Coq Require Import String.
From WacV Require Import Str StrLit StrFacts Types Decls WitDenote
     DeclsProofsA DeclsProofsF DeclsProofsB DeclsProofsC.
From WacV Require Ast.

Definition Rwst (w : wst) (wb : wbody) : Prop :=
  Rloc (w_loc w) (wb_imp wb) /\ Rexts (w_types w) (w_exp w) (wb_exp wb).

Lemma side_wside imp w wb : Rwst w wb -> Rexts (w_types w) (side imp w) (wside imp wb).
Proof. intros [[_ H1] H2]. destruct imp; assumption. Qed.

Lemma w_types_put imp w n k t : w_types (put imp w n k t) = t.
Proof. destruct imp; reflexivity. Qed.

Lemma put_sim imp w wb n k tr t1 :
  Rwst w wb -> aext (w_types w) t1 -> has n (side imp w) = false -> uk t1 k tr ->
  Rwst (put imp w n k t1) (wput imp wb n tr).
Proof.
  intros [[He Hi] Hx] X1 Hh Hk. unfold put, wput, side, with_imports, with_exports, Rwst, Rloc, w_types, w_imp in *.
  destruct imp; cbn [w_loc w_exp l_types l_cur l_exts wb_imp wb_exp b_env b_items]; rewrite (imap_set_fresh Hh).
  - split; [split|]; [eapply Renv_aext; eassumption | apply R2_snoc; [eapply Rexts_aext; eassumption | exact Hk]
                      | eapply Rexts_aext; eassumption].
  - split; [split|]; [eapply Renv_aext; eassumption | eapply Rexts_aext; eassumption
                      | apply R2_snoc; [eapply Rexts_aext; eassumption | exact Hk]].
Qed.

Lemma iface_path_sim imp w wb found so w' :
  Rwst w wb ->
  (forall k, found = DOk k -> leafk k = false -> exists x s, k = KType x /\ so = Some s /\ rel_item (w_types w) x s) ->
  iface_path imp w found = DOk w' ->
  w_types w' = w_types w /\ exists wb', den_path_iface imp wb so = Some wb' /\ Rwst w' wb'.
Proof.
  intros Hw Hfound H. destruct (iface_path_inv H) as (x & d & n & E1 & G & En & Eh & ->).
  destruct (Hfound _ E1 eq_refl) as [x0 [s [Ek [-> Hs]]]]. injection Ek as <-.
  apply rel_item_inv in Hs as (d' & e & -> & G' & Hx). rewrite G in G'. injection G' as <-. rewrite En, w_types_put.
  split; [reflexivity|].
  cbn [den_path_iface]. rewrite <- (R2_has n (side_wside imp _ _ Hw)), Eh. eexists. split; [reflexivity|].
  apply put_sim; [exact Hw | apply aext_refl | exact Eh | eapply uk_inst; eassumption].
Qed.

Lemma world_item_path_sim {root pkgs genv penv imp w wb p w'} :
  flat (w_types w) -> Renv (w_types w) root genv -> Rpk (w_types w) pkgs penv -> Rwst w wb ->
  world_item_path root pkgs imp w p = DOk w' ->
  aext (w_types w) (w_types w') /\ exists wb', den_world_path genv penv imp wb p = Some wb' /\ Rwst w' wb'.
Proof.
  intros Hf Hg Hp Hw H. destruct p as [i et|pp|i]; cbn [world_item_path den_world_path] in *.
  - change (name_of i) with (nm i) in H. destruct (has (nm i) (side imp w)) eqn:Eh; [discriminate|].
    dinv H as [[k t1] [E1 H]]. injection H as <-. rewrite w_types_put.
    rewrite <- (R2_has (nm i) (side_wside imp _ _ Hw)), Eh.
    assert (Hk : aext (w_types w) t1 /\ exists tr,
              match et with
              | Ast.ETIdent j =>
                match match assoc (nm j) (b_env (wb_imp wb)) with Some s => Some s | None => assoc (nm j) genv end with
                | Some (SIface _ e) => Some (XInst e)
                | Some (SFunc f) => Some (XFunc f)
                | _ => None
                end
              | Ast.ETFunc f => option_map XFunc (den_func (b_env (wb_imp wb)) MFree [] (Ast.ft_params f) (Ast.ft_results f))
              | Ast.ETInterface items => option_map XInst (den_iface genv penv items)
              end = Some tr /\ uk t1 k tr).
    { destruct Hw as [[He Hi] Hx]. destruct et as [j|fn|items].
      - dinv E1 as [it [E0 E1]]. change (name_of j) with (nm j) in E0.
        assert (Hit : exists s, match assoc (nm j) (b_env (wb_imp wb)) with Some s => Some s | None => assoc (nm j) genv end = Some s
                                /\ rel_item (w_types w) it s).
        { destruct (assoc (nm j) (l_cur (w_loc w))) as [x|] eqn:Ea.
          - injection E0 as <-. destruct (R2_assoc_some He Ea) as [s [As Hs]]. exists s. now rewrite As.
          - rewrite (R2_assoc_none He Ea). apply (lookup_in_sim Hg E0). }
        destruct Hit as [s [-> Hs]]. apply rel_item_inv in Hs.
        destruct it; try discriminate; injection E1 as <- <-; (split; [apply aext_refl|]).
        + destruct Hs as [ft [-> Huf]]. exists (XFunc ft). split; [reflexivity | now apply uk_func].
        + destruct Hs as (d & e & -> & G & Hx'). exists (XInst e). split; [reflexivity | eapply uk_inst; eassumption].
      - dinv E1 as [[x t0] [E0 E1]]. injection E1 as <- <-.
        destruct (func_type_free_sim He E0) as [X1 [ft [D1 U1]]].
        split; [exact X1|]. exists (XFunc ft). cbn [kmap] in D1. rewrite D1. split; [reflexivity | now apply uk_func].
      - dinv E1 as [[x t0] [E0 E1]]. injection E1 as <- <-.
        destruct (interface_body_sim Hf Hg Hp E0) as [X1 [e [D1 [_ [d [G [_ Hx']]]]]]].
        split; [exact X1|]. exists (XInst e). rewrite D1. split; [reflexivity | eapply uk_inst; eassumption]. }
    destruct Hk as [X1 [tr [-> Hk]]]. split; [exact X1|]. eexists. split; [reflexivity|]. now apply put_sim.
  - destruct (iface_path_sim imp w wb (path_item root pkgs (w_types w) pp) (den_path genv penv pp) w' Hw) as [Ht R1]; [|exact H|].
    + intros k Hk Hl. eapply path_item_sim; eassumption.
    + rewrite Ht. split; [apply aext_refl | exact R1].
  - destruct (iface_path_sim imp w wb (do x <- lookup_in root i ;; DOk (KType x)) (assoc (nm i) genv) w' Hw) as [Ht R1]; [|exact H|].
    + intros k Hk Hl. dinv Hk as [x [E0 Hk]]. injection Hk as <-.
      destruct (lookup_in_sim Hg E0) as [s [As Hs]]. eauto.
    + rewrite Ht. split; [apply aext_refl | exact R1].
Qed.

Lemma world_item_step_sim {root pkgs genv penv w wb it w1} :
  flat (w_types w) -> Renv (w_types w) root genv -> Rpk (w_types w) pkgs penv -> Rwst w wb ->
  world_item_step root pkgs w it = DOk w1 ->
  aext (w_types w) (w_types w1) /\ exists wb1, Rwst w1 wb1 /\
    forall rest, den_world_items genv penv wb (it :: rest) = den_world_items genv penv wb1 rest.
Proof.
  intros Hf Hg Hp Hw E1. destruct it as [u|d|docs p|docs p|docs r its]; cbn [world_item_step den_world_items] in *.
  - destruct Hw as [Hl Hx]. dinv E1 as [l [E0 E1]]. injection E1 as <-.
    destruct (use_type_sim Hf Hg Hp Hl E0) as [Ht [b' [D1 R1]]].
    unfold w_types in *. cbn [w_loc]. rewrite Ht. split; [apply aext_refl|]. rewrite D1. eexists. split; [|reflexivity].
    split; cbn [w_loc w_exp wb_imp wb_exp]; [exact R1 | unfold w_types; cbn [w_loc]; rewrite Ht; exact Hx].
  - destruct Hw as [Hl Hx]. dinv E1 as [l [E0 E1]]. injection E1 as <-.
    destruct (item_type_decl_sim Hl E0) as [X1 [b' [D1 R1]]]. unfold w_types in *. cbn [w_loc].
    split; [exact X1|]. rewrite D1. eexists. split; [|reflexivity].
    split; cbn [w_loc w_exp wb_imp wb_exp]; [exact R1 | unfold w_types; cbn [w_loc]; eapply Rexts_aext; eassumption].
  - destruct (world_item_path_sim Hf Hg Hp Hw E1) as [X1 [wb1 [D1 R1]]]. rewrite D1. eauto.
  - destruct (world_item_path_sim Hf Hg Hp Hw E1) as [X1 [wb1 [D1 R1]]]. rewrite D1. eauto.
  - injection E1 as <-. split; [apply aext_refl|]. exists wb. auto.
Qed.

Lemma world_items_go_sim root pkgs genv penv : forall items w wb w',
  wflat w -> Renv (w_types w) root genv -> Rpk (w_types w) pkgs penv -> Rwst w wb ->
  world_items_go root pkgs w items = DOk w' ->
  aext (w_types w) (w_types w') /\ exists wb', den_world_items genv penv wb items = Some wb' /\ Rwst w' wb'.
Proof.
  induction items as [|it rest IH]; intros w wb w' Hf Hg Hp Hw H.
  - cbn in H. injection H as <-. split; [apply aext_refl|]. exists wb. auto.
  - rewrite world_items_go_cons in H. dinv H as [w1 [E1 H]].
    destruct (world_item_step_sim (proj1 Hf) Hg Hp Hw E1) as [X1 [wb1 [R1 D1]]].
    destruct (IH _ _ _ (world_item_step_flat Hf E1) (Renv_aext X1 Hg) (Rpk_aext X1 Hp) R1 H) as [X2 [wb' [D2 R2']]].
    split; [eapply aext_trans; eassumption|]. exists wb'. split; [|exact R2']. rewrite D1. exact D2.
Qed.

Definition ren_of (items : list Ast.include_item) : list (str * str) :=
  map (fun it => (nm (Ast.ii_from it), nm (Ast.ii_to it))) items.

Lemma repl_go_ok : forall items acc repl, repl_go acc items = DOk repl ->
  repl = acc ++ ren_of items /\ (distinct (map fst acc) = true -> distinct (map fst repl) = true).
Proof.
  induction items as [|it rest IH]; intros acc repl H; cbn [repl_go] in H.
  - injection H as <-. unfold ren_of. cbn [map]. rewrite app_nil_r. auto.
  - change (name_of (Ast.ii_from it)) with (nm (Ast.ii_from it)) in H. change (name_of (Ast.ii_to it)) with (nm (Ast.ii_to it)) in H.
    destruct (has (nm (Ast.ii_from it)) acc) eqn:Eh; [discriminate|]. destruct (IH _ _ H) as [-> Hd].
    split; [unfold ren_of; cbn [map]; now rewrite <- app_assoc|]. intro Hd0. apply Hd.
    rewrite map_app. cbn [map fst]. rewrite distinct_snoc, Hd0, <- has_keys, Eh. reflexivity.
Qed.

Lemma mem_app k l1 l2 : mem k (l1 ++ l2) = mem k l1 || mem k l2.
Proof. rewrite !mem_existsb. apply existsb_app. Qed.

(** every used renaming belongs to a plain name met so far *)
Definition UInv (used done : list str) : Prop :=
  forall k, mem k used = true -> has_colon k = false /\ mem k done = true.

Lemma is_id_has_colon n : is_id n = has_colon n.
Proof. reflexivity. Qed.

Lemma include_go_sim t ren : forall src src', Rexts t src src' ->
  forall target target' used done tgt used',
  Rexts t target target' -> UInv used done ->
  include_go target ren used src = DOk (tgt, used') ->
  exists tgt', den_include_side ren target' src' = Some tgt' /\ Rexts t tgt tgt' /\ UInv used' (done ++ map fst src).
Proof.
  induction 1 as [|[n kd] [n' tr] src src' [Hn Hk] _ IH]; intros target target' used done tgt used' Ht Hinv H.
  - cbn in H. injection H as <- <-. exists target'. cbn [map]. rewrite app_nil_r. auto.
  - cbn [fst snd] in Hn, Hk. subst n'. cbn [include_go] in H. dinv H as [[n1 used1] [E1 H]].
    cbn [den_include_side]. cbv zeta. unfold renamed. rewrite is_id_has_colon.
    cbn [map fst]. change (done ++ n :: map fst src) with (done ++ [n] ++ map fst src). rewrite app_assoc.
    unfold replace_name in E1. destruct (has_colon n) eqn:Ec.
    + (* an interface id: never renamed, merged when present *)
      injection E1 as <- <-.
      assert (Hinv1 : UInv used (done ++ [n])).
      { intros k Hk'. destruct (Hinv k Hk') as [H1 H2]. split; [exact H1|]. now rewrite mem_app, H2. }
      unfold or_insert in H. rewrite <- (R2_has n Ht). destruct (has n target) eqn:Eh.
      * apply (IH _ _ _ _ _ _ Ht Hinv1 H).
      * apply (IH _ _ _ _ _ _ (R2_snoc _ _ _ _ _ _ Ht Hk) Hinv1 H).
    + (* a plain name: renamed when a replacement exists, on either side *)
      assert (Hstep : n1 = match assoc n ren with Some m => m | None => n end /\ has n1 target = false /\
                      UInv used1 (done ++ [n])).
      { destruct (assoc n ren) as [to|] eqn:Er.
        - destruct (has to target) eqn:Eh; [discriminate|]. injection E1 as <- <-. split; [reflexivity|]. split; [exact Eh|].
          intros k Hk'. cbn [mem] in Hk'. rewrite mem_app. cbn [mem]. rewrite orb_false_r.
          destruct (str_eqb k n) eqn:E.
          + apply str_eqb_eq in E. subst k. split; [exact Ec | apply orb_true_r].
          + cbn [orb] in Hk'. destruct (Hinv k Hk') as [H1 H2]. split; [exact H1 | now rewrite H2].
        - destruct (has n target) eqn:Eh; [discriminate|]. injection E1 as <- <-. split; [reflexivity|]. split; [exact Eh|].
          intros k Hk'. destruct (Hinv k Hk') as [H1 H2]. split; [exact H1|]. now rewrite mem_app, H2. }
      destruct Hstep as [-> [Eh Hinv1]].
      unfold or_insert in H. rewrite Eh in H. rewrite <- (R2_has _ Ht), Eh.
      apply (IH _ _ _ _ _ _ (R2_snoc _ _ _ _ _ _ Ht Hk) Hinv1 H).
Qed.

Definition world_ref_sem (genv : env) (penv : penv_t) (r : Ast.world_ref) : option sem :=
  match r with
  | Ast.WRIdent i => assoc (nm i) genv
  | Ast.WRPackage pp => den_path genv penv pp
  end.

Lemma den_include_eq genv penv w r items :
  den_include genv penv w r items =
  (if negb (distinct (map fst (ren_of items))) then None else
   match world_ref_sem genv penv r with
   | Some (SWorld wi we) =>
     if negb (forallb (fun kv => negb (is_id (fst kv)) && (bound (fst kv) wi || bound (fst kv) we)) (ren_of items)) then None else
     match den_include_side (ren_of items) (b_items (wb_imp w)) wi, den_include_side (ren_of items) (wb_exp w) we with
     | Some i1, Some e1 => Some (mkwbody (mkbody (b_env (wb_imp w)) i1) e1)
     | _, _ => None
     end
   | _ => None
   end).
Proof. reflexivity. Qed.

Lemma world_ref_sim {root pkgs genv penv t r k} :
  flat t -> Renv t root genv -> Rpk t pkgs penv -> world_ref_kind root pkgs t r = DOk k -> leafk k = false ->
  exists x s, k = KType x /\ world_ref_sem genv penv r = Some s /\ rel_item t x s.
Proof.
  intros Hf Hg Hp H Hl. destruct r as [i|pp]; cbn [world_ref_sem world_ref_kind] in *.
  - dinv H as [x [E0 H]]. injection H as <-. destruct (lookup_in_sim Hg E0) as [s [As Hs]]. eauto.
  - eapply path_item_sim; eassumption.
Qed.

Lemma world_include_sim {root pkgs genv penv w wb r items w'} :
  flat (w_types w) -> Renv (w_types w) root genv -> Rpk (w_types w) pkgs penv -> Rwst w wb ->
  world_include root pkgs w r items = DOk w' ->
  w_types w' = w_types w /\ exists wb', den_include genv penv wb r items = Some wb' /\ Rwst w' wb'.
Proof.
  intros Hf Hg Hp Hw H.
  destruct (world_include_inv H) as (repl & it & x & other & imps & used1 & exps & used2 &
    E1 & E2 & Hit & G & E3 & E4 & Emiss & ->).
  destruct (repl_go_ok _ _ _ E1) as [-> Hd]. cbn [app] in *. specialize (Hd eq_refl).
  (* a component is a leaf of no path: the included item is a world type *)
  assert (Hl : leafk it = false) by (destruct Hit as [-> | ->]; reflexivity).
  destruct (world_ref_sim Hf Hg Hp E2 Hl) as [x0 [s [Ek [Ds Hs]]]].
  destruct Hit as [-> | ->]; [|discriminate]. injection Ek as <-.
  apply rel_item_inv in Hs as (other' & wi & we & -> & G' & Hwi & Hwe). rewrite G in G'. injection G' as <-.
  destruct Hw as [[He Hi] Hx]. unfold w_imp, w_types in *.
  assert (Hinv0 : UInv [] []) by (intros k Hk; discriminate).
  destruct (include_go_sim _ (ren_of items) _ _ Hwi _ _ _ _ _ _ Hi Hinv0 E3) as [i1 [D1 [R1 Hinv1]]].
  cbn [app] in Hinv1.
  destruct (include_go_sim _ (ren_of items) _ _ Hwe _ _ _ _ _ _ Hx Hinv1 E4) as [e1 [D2 [R2' Hinv2]]].
  cbn [w_loc l_types]. split; [reflexivity|].
  rewrite den_include_eq, Hd, Ds. cbn [negb].
  assert (Hall : forallb (fun kv => negb (is_id (fst kv)) && (bound (fst kv) wi || bound (fst kv) we)) (ren_of items) = true).
  { apply forallb_forall. intros kv Hin. unfold ren_of in Hin. apply in_map_iff in Hin as [it0 [<- Hin]]. cbn [fst].
    assert (Hu : mem (nm (Ast.ii_from it0)) used2 = true).
    { destruct (mem (nm (Ast.ii_from it0)) used2) eqn:E; [reflexivity|].
      assert (existsb (fun it => negb (mem (name_of (Ast.ii_from it)) used2)) items = true); [|congruence].
      apply existsb_exists. exists it0. split; [exact Hin|]. change (name_of (Ast.ii_from it0)) with (nm (Ast.ii_from it0)).
      now rewrite E. }
    destruct (Hinv2 _ Hu) as [Ec Em]. rewrite is_id_has_colon, Ec. cbn [negb andb].
    rewrite mem_app, !mem_existsb, (R2_keys _ _ _ Hwi), (R2_keys _ _ _ Hwe), <- !bound_keys in Em. exact Em. }
  rewrite Hall. cbn [negb]. rewrite D1, D2. eexists. split; [reflexivity|].
  split; [split|]; cbn [w_loc w_exp l_cur l_exts l_types wb_imp wb_exp b_env b_items]; assumption.
Qed.

Lemma world_includes_go_sim root pkgs genv penv : forall items w wb w',
  wflat w -> Renv (w_types w) root genv -> Rpk (w_types w) pkgs penv -> Rwst w wb ->
  world_includes_go root pkgs w items = DOk w' ->
  w_types w' = w_types w /\ exists wb', den_world_includes genv penv wb items = Some wb' /\ Rwst w' wb'.
Proof.
  induction items as [|it rest IH]; intros w wb w' Hf Hg Hp Hw H.
  - cbn in H. injection H as <-. split; [reflexivity|]. exists wb. auto.
  - destruct it as [u|d|docs p|docs p|docs r its]; cbn [world_includes_go den_world_includes] in *;
      try (eapply IH; eassumption).
    dinv H as [w1 [E1 H]].
    destruct (world_include_sim (proj1 Hf) Hg Hp Hw E1) as [Ht [wb1 [D1 R1]]].
    assert (Hf1 : wflat w1) by (eapply world_include_flat; eassumption).
    rewrite <- Ht in Hg, Hp. destruct (IH _ _ _ Hf1 Hg Hp R1 H) as [Ht2 [wb' [D2 R2']]].
    split; [congruence|]. exists wb'. rewrite D1. auto.
Qed.

Lemma world_body_sim {root pkgs genv penv t idn items i t'} :
  flat t -> Renv t root genv -> Rpk t pkgs penv ->
  world_body root pkgs t idn items = DOk (i, t') ->
  aext t t' /\ exists wi we, den_world genv penv items = Some (wi, we) /\ rel_item t' (TWorld i) (SWorld wi we).
Proof.
  intros Hf Hg Hp H. unfold world_body in H. dinv H as [w1 [E1 H]]. dinv H as [w2 [E2 H]].
  set (w0 := mkwst (mkloc [] [] [] t) []) in *.
  assert (Hw0 : Rwst w0 (mkwbody (mkbody [] []) [])) by (split; [split|]; apply R2_nil).
  assert (Hf0 : wflat w0) by (split; [exact Hf | reflexivity]).
  destruct (world_items_go_sim _ _ _ _ _ _ _ _ Hf0 Hg Hp Hw0 E1) as [X1 [wb1 [D1 R1]]].
  change (w_types w0) with t in X1.
  assert (Hf1 : wflat w1) by (eapply world_items_go_flat; eassumption).
  destruct (world_includes_go_sim _ _ _ _ _ _ _ _ Hf1 (Renv_aext X1 Hg) (Rpk_aext X1 Hp) R1 E2)
    as [Ht [wb2 [D2 [[_ Ri] Rx]]]].
  set (x := mkworld idn (l_uses (w_loc w2)) (w_imp w2) (w_exp w2)) in *. unfold add_world in H. injection H as <- <-.
  assert (X2 : aext (w_types w2) (fst (add_world (w_types w2) x))) by apply aext_add_world.
  split; [rewrite Ht in *; eapply aext_trans; eassumption|].
  exists (b_items (wb_imp wb2)), (wb_exp wb2). unfold den_world. rewrite D1, D2. split; [reflexivity|].
  apply (RI_world _ _ x); [apply get_world_new | |]; cbn [w_imports w_exports x].
  - eapply Rexts_aext; [exact X2 | exact Ri].
  - eapply Rexts_aext; [exact X2 | exact Rx].
Qed.

(** * HISTORICAL regression record: [include ... with] before the repair

    The algorithm of resolution.rs BEFORE commit 0d98072 (a regression record; not part of
    model/Decls.v): [replace_name] removed a renaming from the map after its first use, so when the included
    world both imports and exports the plain name [f], [include w with { f as g }] renamed only the import. *)
Fixpoint remove_key_prefix {B} (k : str) (l : list (str * B)) : list (str * B) :=
  match l with
  | [] => []
  | (k', v) :: r => if str_eqb k k' then r else (k', v) :: remove_key_prefix k r
  end.
Definition replace_name_prefix (target : list (str * kind)) (n : str) (repl : list (str * str))
  : dres (str * list (str * str)) :=
  if has_colon n then DOk (n, repl) else
  let '(n1, repl1) := match assoc n repl with Some to => (to, remove_key_prefix n repl) | None => (n, repl) end in
  if has n1 target then DErr EWorldIncludeConflict else DOk (n1, repl1).
Fixpoint include_go_prefix (target : list (str * kind)) (repl : list (str * str)) (src : list (str * kind))
  : dres (list (str * kind) * list (str * str)) :=
  match src with
  | [] => DOk (target, repl)
  | (n, k) :: rest =>
    do (n1, repl1) <- replace_name_prefix target n repl ;;
    include_go_prefix (or_insert n1 k target) repl1 rest
  end.

Definition rb_f : str := L"f".
Definition rb_g : str := L"g".
Definition rb_other : world := mkworld None [] [(rb_f, KFunc (mkid 0 0))] [(rb_f, KFunc (mkid 0 0))].
Definition rb_types : types := mktypes 0 [] [] [mkfunc [] None false] [] [rb_other] [].
Definition rb_span : Token.span := {| Token.off := 0; Token.slen := 0 |}.
Definition rb_ident (s : str) : Ast.ident := {| Ast.id_string := s; Ast.id_span := rb_span |}.
Definition rb_items : list Ast.include_item := [{| Ast.ii_from := rb_ident rb_f; Ast.ii_to := rb_ident rb_g |}].
Definition rb_root : scope := [(L"w", TWorld (mkid 0 0))].
Definition rb_ft : ftree := mkft [] None false.
Definition rb_genv : env := [(L"w", SWorld [(rb_f, XFunc rb_ft)] [(rb_f, XFunc rb_ft)])].
Definition rb_w0 : wst := mkwst (mkloc [] [] [] rb_types) [].
Definition rb_wb0 : wbody := mkwbody (mkbody [] []) [].

(** the pre-fix algorithm on the witness: imports [g], exports still [f] *)
Lemma include_prefix_witness :
  exists imps repl1 exps repl2,
    include_go_prefix [] (ren_of rb_items) (w_imports rb_other) = DOk (imps, repl1) /\
    include_go_prefix [] repl1 (w_exports rb_other) = DOk (exps, repl2) /\
    map fst imps = [rb_g] /\ map fst exps = [rb_f].
Proof. do 4 eexists. repeat split; vm_compute; reflexivity. Qed.

(** the current model and the denotation on the same witness: [g] on both sides *)
Lemma include_current_witness :
  (exists w', world_include rb_root (mkpkgs [] []) rb_w0 (Ast.WRIdent (rb_ident (L"w"))) rb_items = DOk w' /\
              map fst (w_imp w') = [rb_g] /\ map fst (w_exp w') = [rb_g]) /\
  (exists wb', den_include rb_genv (mkpenv [] []) rb_wb0 (Ast.WRIdent (rb_ident (L"w"))) rb_items = Some wb' /\
               map fst (b_items (wb_imp wb')) = [rb_g] /\ map fst (wb_exp wb') = [rb_g]).
Proof. split; eexists; (split; [vm_compute; reflexivity|]); split; vm_compute; reflexivity. Qed.
