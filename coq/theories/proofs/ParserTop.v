(** Whole-document statements: [Document::parse] against [g_document], the implementation /
    documentation delta by computed witnesses, and the declarative form of the documented placement
    rule for the fill [...] ([args_ok_doc_spec]). *)
From Coq Require Import String.
From WacV Require Import Str StrLit Token Lexer LexTables LexImpl LexSpec Semver Ast Parser Grammar ParserComb ParserProofs.
From Coq Require Import Lia.
Local Open Scope nat_scope.

Definition doc_env (d : deviations) (base : lexcfg) (src : str) : env :=
  let items := lex (cfg_with d base) src in
  {| dv := d; cx := mk_ctx src items; fuel := S (length items) |}.

Lemma parse_document_sound d base src doc r :
  parse_document d base src = POk doc r -> r = [] /\ g_document d (lex (cfg_with d base) src) [] doc.
Proof.
  unfold parse_document. intros H. apply parse_document_items_sound in H. destruct H as [H ->]. auto.
Qed.

Lemma parse_document_complete d base src doc :
  g_document d (lex (cfg_with d base) src) [] doc -> parse_document d base src = POk doc [].
Proof.
  intros H. unfold parse_document.
  apply (parse_document_items_complete (doc_env d base src)); [exact H|]. cbn. lia.
Qed.

Definition is_ok {A} (r : pres A) : bool := match r with POk _ [] => true | _ => false end.

(** Texts on which the implementation's grammar and the documented one differ, one per flag (none for
    [pkg_separator_zone]: the model does not predict those lexemes). *)
Definition w_arrow_empty_results : str := L"package a:b; type f = func() ->;".
Definition w_result_underscore_forms : str := L"package a:b; type t = result<_>;".
Definition w_uppercase_words : str := L"package a:b; let FOO = foo-BAR;".
Definition w_empty_new_args : str := L"package a:b; let x = new c:d {};".
Definition w_fill_alone : str := L"package a:b; let x = new c:d { ... };".
Definition w_fill_anywhere : str := L"package a:b; let x = new c:d { ..., y, ..., };".
Definition w_empty_use_items : str := L"package a:b; interface i { use x.{}; }".
Definition w_empty_include_with : str := L"package a:b; world w { include x with {}; }".
Definition w_named_results : str := L"package a:b; type f = func() -> (a: u8);".
Definition w_borrow_any_type : str := L"package a:b; type t = borrow<list<u8>>;".
Definition w_dangling_dash : str := L"package a:b; let x = foo-;".
Definition w_keyword_colon : str := L"package a:b; interface i { record: func(); }".

Definition accepts_impl (s : str) : bool := is_ok (parse_document impl_flags impl_cfg s).
Definition accepts_doc (s : str) : bool := is_ok (parse_document doc_flags doc_cfg s).

Lemma delta_witnesses :
  map (fun s => (accepts_impl s, accepts_doc s))
      [w_arrow_empty_results; w_result_underscore_forms; w_uppercase_words; w_empty_new_args; w_fill_alone;
       w_fill_anywhere; w_empty_use_items; w_empty_include_with; w_dangling_dash; w_keyword_colon;
       w_named_results; w_borrow_any_type]
  = [(true, false); (true, false); (true, false); (true, false); (true, false);
     (true, false); (true, false); (true, false); (true, false); (true, false);
     (false, true); (false, true)].
Proof. vm_compute. reflexivity. Qed.

(** A document both grammars accept, with the same tree (non-vacuity of the agreement). *)
Definition w_common : str :=
  L"package a:b@1.0.0 targets c:d/e; import f: func(x: list<u8>) -> result<string, u32>; let y = new g:h { f, ... }.z; export y as ""q"";".

Lemma common_accepted :
  is_ok (parse_document impl_flags impl_cfg w_common) = true /\
  parse_document impl_flags impl_cfg w_common = parse_document doc_flags doc_cfg w_common.
Proof. vm_compute. split; reflexivity. Qed.

(** The placement rule for the fill [...] under the documented flags, in declarative form:
    LANGUAGE.md [instantiation-args ::= instantiation-arg (',' instantiation-arg)* (',' '...'?)?] --
    a non-empty list of proper arguments, optionally followed by a final [...] (then no comma after it). *)
Lemma args_ok_doc_spec args tr :
  args_ok doc_flags args tr = true <->
  exists init, init <> [] /\ forallb (fun a => negb (is_fill a)) init = true /\
               (args = init \/ (exists sp, args = init ++ [AFill sp] /\ tr = false)).
Proof.
  assert (Hex : forall l, existsb is_fill l = false <-> forallb (fun a => negb (is_fill a)) l = true).
  { induction l as [|a l IH]; cbn; [tauto|]. rewrite orb_false_iff, andb_true_iff, IH, negb_true_iff. tauto. }
  destruct args as [|a0 rest]; [cbn; split; [discriminate|]|].
  { intros (init & Hne & _ & [H|(sp & H & _)]); [congruence|]. destruct init; [congruence|discriminate]. }
  destruct (exists_last (l := a0 :: rest)) as (ini & lastx & E); [discriminate|].
  assert (Hrl : removelast (a0 :: rest) = ini) by (rewrite E; apply removelast_last).
  assert (Hl : forall dflt, last (a0 :: rest) dflt = lastx) by (intros; rewrite E; apply last_last).
  assert (Hok : args_ok doc_flags (a0 :: rest) tr =
                match ini with
                | [] => negb (is_fill lastx)
                | _ => negb (existsb is_fill ini) && (negb (is_fill lastx) || negb tr)
                end).
  { destruct rest as [|a1 rest'].
    - destruct ini as [|x ini]; [cbn in E; inversion E; subst|destruct ini; discriminate].
      destruct lastx; cbn; try reflexivity. now destruct tr.
    - destruct ini as [|x ini]; [destruct rest'; discriminate|].
      rewrite <- Hrl, <- (Hl (AInferred {| id_string := []; id_span := {| off := 0; slen := 0 |} |})).
      destruct a0; reflexivity. }
  rewrite Hok, E. clear Hok. split.
  - intros H. destruct (is_fill lastx) eqn:Ef.
    + destruct ini as [|x ini]; [discriminate|]. cbn [negb orb] in H. apply andb_true_iff in H. destruct H as [H1 H2].
      apply negb_true_iff in H1, H2. exists (x :: ini). split; [discriminate|]. split; [now apply Hex|].
      right. destruct lastx; try discriminate. eauto.
    + exists (ini ++ [lastx]). split; [destruct ini; discriminate|]. split; [|now left].
      rewrite forallb_app. cbn. rewrite Ef. cbn. rewrite andb_true_r.
      destruct ini as [|x ini]; [reflexivity|]. apply andb_true_iff in H. destruct H as [H _].
      apply negb_true_iff in H. now apply Hex.
  - intros (init & Hne & Hall & [H|(sp & H & ->)]).
    + assert (init = ini ++ [lastx]) by congruence. subst init. rewrite forallb_app in Hall.
      apply andb_true_iff in Hall. destruct Hall as [H1 H2]. cbn in H2. rewrite andb_true_r in H2.
      destruct ini as [|x ini]; [exact H2|]. rewrite H2. cbn [orb]. rewrite andb_true_r.
      apply negb_true_iff. now apply Hex.
    + apply app_inj_tail in H. destruct H as [-> ->]. destruct init as [|x init]; [congruence|].
      cbn [is_fill negb orb]. rewrite andb_true_r. apply negb_true_iff. now apply Hex.
Qed.
