(** Token kinds are a finite enumeration: [token_code] is the position in [all_tokens], so
    [token_eqb] decides equality and a boolean property checked on [all_tokens] holds of every kind. *)
From WacV Require Import Str Token.

Lemma token_code_nth a : nth_error all_tokens (N.to_nat (token_code a)) = Some a.
Proof. destruct a; reflexivity. Qed.

Lemma token_eqb_eq a b : token_eqb a b = true <-> a = b.
Proof.
  unfold token_eqb. rewrite N.eqb_eq. split; [|now intros ->].
  intros H. pose proof (token_code_nth a) as Ha. rewrite H, token_code_nth in Ha. now inversion Ha.
Qed.

Lemma token_eqb_refl a : token_eqb a a = true.
Proof. now apply token_eqb_eq. Qed.

Lemma token_eqb_neq a b : token_eqb a b = false <-> a <> b.
Proof. rewrite <- token_eqb_eq. now destruct (token_eqb a b). Qed.

Lemma all_tokens_complete k : In k all_tokens.
Proof. eapply nth_error_In, token_code_nth. Qed.

Lemma forall_tokens (P : token -> bool) : forallb P all_tokens = true -> forall k, P k = true.
Proof. intros H k. rewrite forallb_forall in H. apply H, all_tokens_complete. Qed.
