From Coq Require Import List Arith NArith.
From WacV Require Import Str Names Ast Graph Resolver LangSpec ResolverProofs ResolverInv ResolverSim ResolverSimStmt
  Wiring WiringSpec EncodeModel WiringDecode WiringCorrect ValidEncInv.
Import ListNotations.
Local Open Scope nat_scope.

Lemma rel_no_defs (u : runiverse) K st env vm : Rel u K st env vm -> forall n, is_def (rs_g st) n = false.
Proof.
  intros R n. unfold is_def. destruct (get_node (rs_g st) n) as [nd|] eqn:G; [|reflexivity].
  destruct (rel_node_val R G) as (v & _ & _ & _ & ND & _). destruct (nk nd); auto. now contradiction ND.
Qed.

(** C04, end to end with C01/C02: for a document the resolver model accepts, the model of the structural
    encoder, whenever it succeeds, emits a log that decodes to the wiring of the graph the document
    denotes. *)
Theorem resolved_document_wiring (u : runiverse) K d e st dc tau ord stE names :
  uok u K -> pd_targets (doc_directive d) = None -> resolve u d = inl st ->
  UnivOK e u -> topo_orderb (rs_g st) ord = true ->
  encode_with_order e u (rs_g st) dc tau ord = ROk (stE, names) ->
  (forall p, In p (e_dedup stE) -> fst p = snd p) ->
  exists env vm,
    denote impl_flags_c04 u d = inl env /\ Rel u K st env vm /\
    option_map (erase_defs (def_names e (rs_g st))) (decode_wiring names (e_log stE))
      = Some (wiring_spec e u (rs_g st) dc ord).
Proof.
  intros U NT E UO TO EN DD. pose proof (resolve_simulates_denote u K d U NT) as S. rewrite E in S.
  destruct (denote impl_flags_c04 u d) as [env|i]; [|destruct S]. destruct S as (vm & R).
  exists env, vm. split; [reflexivity|]. split; [exact R|].
  destruct (resolve_reachable u d st E) as [ops Eops].
  apply (wiring_correct e u (rs_g st) dc tau ord stE names); auto. rewrite Eops. apply enc_inv_reachable; auto.
Qed.
