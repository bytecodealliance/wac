(** Concrete instances, evaluated by the kernel ([vm_compute]): one where [wiring_correct]'s
    conclusion is a non-trivial equality (two instantiations of one package sharing an implicit import,
    an alias passed as argument, an export, names), the witness showing that the
    side condition of [wiring_correct] about import dedup cannot be dropped for the faithful model of the current code,
    and the regression instance of the repaired definition-rename defect
    (both replayed on the real implementation: tools/props/c02.py W_DEF, W_DEDUP). *)
From Coq Require Import String.
From Coq Require Import List Arith Bool NArith.
From WacV Require Import Str StrLit Graph Wiring WiringSpec EncodeModel.
Import ListNotations.
Local Open Scope nat_scope.

Definition w_pool (n : name) : str :=
  match n with
  | 0 => L"f" | 1 => L"a:b/t" | 2 => L"my-t" | 3 => L"x" | 4 => L"run" | 5 => L"foo" | 6 => L"bar" | _ => L"g"
  end%N.

(** kinds: 0 func, 1 instance {x: func} with interface id a:b/t, 2 instance {run: func, x: func} (package instance),
    3 type, 4 instance {x: func} without id *)
Definition w_universe : universe :=
  {| u_inst_exports := fun k => match k with
                                | 1%N => Some [(3%N, 0%N)] | 2%N => Some [(4%N, 0%N); (3%N, 0%N)] | 4%N => Some [(3%N, 0%N)]
                                | _ => None end;
     u_pkgs := [ {| pd_inst := 2%N; pd_imports := [(1%N, 1%N); (0%N, 0%N)] |} ];
     u_tys := [ {| td_res := false; td_kind := 3%N; td_deps := [] |} ];
     u_lkinds := [0%N; 1%N; 4%N];
     u_sub := N.eqb;
     u_import_name_ok := fun _ => true;
     u_export_name_ok := fun _ => true |}.

Definition w_env : wenv :=
  {| we_name := w_pool;
     we_pkg_name := fun _ => L"test:p";
     we_pkg_version := fun _ => Some (L"1.0.0");
     we_digest := fun p => N.of_nat p;
     we_sort := fun k => match k with 0%N => SFunc | 3%N => SType | _ => SInstance end;
     we_iid := fun k => match k with 1%N => Some (L"a:b/t") | _ => None end |}.

(** a type encoder that emits one type definition per call and answers with the newest type *)
Definition w_tau : tyenc := fun l _ => ([ITypeDef], cnt SType l).

Definition encoded (ops : list op) (dc : bool) : option (wiring * wiring * list (str * str)) :=
  let g := run w_universe ops in
  match toposort g with
  | None => None
  | Some ord =>
      match encode_with_order w_env w_universe g dc w_tau ord with
      | ROk (st, names) =>
          match decode_wiring names (e_log st) with
          | Some w => Some (erase_defs (def_names w_env g) w, wiring_spec w_env w_universe g dc ord, e_dedup st)
          | None => None
          end
      | RErr _ => None
      end
  end.

(** two instantiations of one package; the first one's export [x] is aliased and passed to the second as [f];
    both leave [a:b/t] to the implicit import; the alias is exported and named *)
Definition ops_good : list op :=
  [Register 0; Instantiate (0, 0); Instantiate (0, 0); Alias 0 3%N; SetArg 1 0%N 2; Export 2 6%N; SetName 1 5%N; DefineType 7%N 0].

Lemma good_instance :
  exists w, encoded ops_good true = Some (w, w, []) /\ length (w_insts w) = 2 /\ length (w_exports w) = 2
            /\ encoded ops_good false = match encoded ops_good false with Some (a, _, d) => Some (a, a, d) | None => None end
            /\ encoded ops_good false <> None.
Proof. eexists. vm_compute. repeat split; discriminate. Qed.

(** regression instance of a repaired defect (known-findings C02/C03-def-extra-export-name): a definition
    exported under another name is RENAMED, the export map and the encoded component agree *)
Definition ops_def_two_names : list op := [DefineType 5%N 0; Export 0 6%N].
Lemma def_renamed_instance :
  exports (run w_universe ops_def_two_names) = [(6%N, 0)] /\
  exists w, encoded ops_def_two_names true = Some (w, w, []) /\ length (w_exports w) = 1.
Proof. split; [reflexivity|]. eexists. vm_compute. split; reflexivity. Qed.

(** finding: explicit import [my-t] of the interface a:b/t that is also imported implicitly *)
Definition ops_dedup : list op := [Register 0; Instantiate (0, 0); Import 2%N 1; Export 1 6%N].
Lemma dedup_refutes :
  match encoded ops_dedup true with
  | Some (dec, spec, dd) => dd = [(L"my-t", L"a:b/t")] /\ dec <> spec
  | None => False
  end.
Proof. vm_compute. split; [reflexivity | discriminate]. Qed.
