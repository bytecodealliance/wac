(** Tree-level algebra of the specification's merge [tmerge] (spec/AggregatorSpec.v) on NESTED-FLAT requirement trees:
    trees built from resource-free functions, values and value types by nesting instances with pairwise different export
    names ([wt]).  Nothing here mentions the aggregator: these are the laws the model's nested merge is shown to compute
    (AggregatorNestedMerge.v) and from which the C09 statements about nested instance requirements are derived
    (AggregatorNestedHistory.v, AggregatorNestedTheorems.v): on such trees [tmerge] is the meet of the preorder [SubCM], and it fails only where the two
    trees have no common refinement. *)
From Coq Require Import ZArith Lia.
From WacV Require Import Str Names Types Checker SubSpec CheckerEq CheckerProofs SubSpecProofs AggregatorSpec.
From WacV Require Import Aggregator AggregatorNames AggregatorFlat StrFacts.

Definition leaf_tree (tr : tree) : Prop :=
  match tr with XFunc f => ft_resfree f = true | XValue v | XTValue v => vt_resfree v = true | _ => False end.

Fixpoint wt (d : nat) (tr : tree) : Prop :=
  match d with
  | O => False
  | S d' => leaf_tree tr \/ exists e, tr = XInst e /\ NoDup (map fst e) /\ forall k x, In (k, x) e -> wt d' x
  end.

Lemma wt_mono : forall d d' tr, (d <= d')%nat -> wt d tr -> wt d' tr.
Proof.
  induction d as [|d IH]; intros d' tr L H; [destruct H|]. destruct d' as [|d']; [lia|].
  cbn [wt] in *. destruct H as [H|[e [-> [ND H]]]]; [now left|]. right. exists e. split; [reflexivity|]. split; [exact ND|].
  intros k x Hin. apply (IH d'); [lia|]. eapply H; eauto.
Qed.
Lemma wt_inst d e : wt (S d) (XInst e) <-> NoDup (map fst e) /\ forall k x, In (k, x) e -> wt d x.
Proof.
  cbn [wt]. split.
  - intros [[]|[e0 [E [ND H]]]]. injection E as <-. auto.
  - intros [ND H]. right. exists e. auto.
Qed.
Lemma wt_depth : forall d tr, wt d tr -> (tdepth tr <= d)%nat.
Proof.
  induction d as [|d IH]; intros tr H; [destruct H|]. cbn [wt] in H. destruct H as [H|[e [-> [ND H]]]].
  - destruct tr; cbn [leaf_tree] in H; try contradiction; cbn [tdepth]; lia.
  - cbn [tdepth]. apply le_n_S. apply list_max_le. apply Forall_forall. intros n Hn. apply in_map_iff in Hn as [[k x] [<- Hin]].
    cbn [snd]. apply IH. eapply H; eauto.
Qed.
Lemma wt_resfree : forall d tr, wt d tr -> resfree tr = true.
Proof.
  induction d as [|d IH]; intros tr H; [destruct H|]. cbn [wt] in H. destruct H as [H|[e [-> [ND H]]]].
  - destruct tr; cbn [leaf_tree] in H; try contradiction; cbn [resfree]; exact H.
  - change (forallb (fun kv => resfree (snd kv)) e = true). apply forallb_forall. intros [k x] Hin. cbn [snd]. apply IH. eapply H; eauto.
Qed.
Lemma wt_wf : forall d tr, wt d tr -> wf_tree tr.
Proof.
  induction d as [|d IH]; intros tr H; [destruct H|]. cbn [wt] in H. destruct H as [H|[e [-> [ND H]]]].
  - destruct tr; cbn [leaf_tree] in H; try contradiction; exact I.
  - change (NoDup (keys e) /\ (fix go (l : list (str * tree)) : Prop :=
                                 match l with [] => True | (_, x) :: r => wf_tree x /\ go r end) e).
    split; [exact ND|]. apply wf_all_intro. intros k x Hin. apply IH. eapply H; eauto.
Qed.
Lemma wt_subn_refl d tr : wt d tr -> Sub eq eq tr tr.
Proof. intros H. eapply (Sub_refl eq); [reflexivity | apply le_n | eapply wt_wf; eauto]. Qed.
Lemma wt_sub_refl d tr : wt d tr -> SubCM tr tr.
Proof.
  intros H. apply (SubP_SubCM eq); [intros x y ->; reflexivity | eapply wt_resfree; eauto | eapply wt_resfree; eauto
                                    | eapply wt_subn_refl; eauto].
Qed.
Lemma wt_tequiv_refl d tr : wt d tr -> tequiv tr tr = true.
Proof. intros H. unfold tequiv. rewrite (proj2 (sub_names_b_iff tr tr) (wt_subn_refl _ _ H)). reflexivity. Qed.

(** on leaves every instance of the relation is equality *)
Lemma leaf_sub_eq (R : str -> str -> Prop) PG a b :
  (forall n m, R n m -> n = m) -> leaf_tree a \/ leaf_tree b -> Sub R PG a b -> a = b.
Proof.
  intros HR L H. destruct H; cbn [leaf_tree] in L; try tauto; f_equal.
  - apply FSub_eq_iff. eapply FSub_change; [right; exact HR|eassumption].
  - apply VSub_eq_inv. eapply VSub_change; [right; exact HR|eassumption].
  - apply VSub_eq_inv. eapply VSub_change; [right; exact HR|eassumption].
Qed.
Lemma nores_eq : forall n m : str, NoRes n m -> n = m. Proof. intros n m []. Qed.

Lemma ins_cases {B} k (v : B) l : ins k v l = match assoc k l with Some _ => set_assoc k v l | None => l ++ [(k, v)] end.
Proof.
  induction l as [|[k' v'] l IH]; cbn [ins assoc set_assoc app]; [reflexivity|]. destruct (str_eqb k k'); [reflexivity|].
  rewrite IH. now destruct (assoc k l).
Qed.
Lemma ins_same {B} k (v : B) l : assoc k l = Some v -> ins k v l = l.
Proof.
  induction l as [|[k' v'] l IH]; cbn [ins assoc]; [discriminate|]. destruct (str_eqb k k'); intros H; [now injection H as ->|now rewrite IH].
Qed.

Definition merged_at (m : tree -> tree -> option tree) (l : list (str * tree)) (k : str) (b : tree) : option tree :=
  match assoc k l with Some a => m a b | None => Some b end.
Lemma merged_at_ext (m m' : tree -> tree -> option tree) : (forall x y z, m x y = Some z -> m' x y = Some z) ->
  forall l k b r, merged_at m l k b = Some r -> merged_at m' l k b = Some r.
Proof. intros H l k b r. unfold merged_at. destruct (assoc k l); auto. Qed.

Lemma union_with_nil m ea : union_with m ea [] = Some ea.
Proof. reflexivity. Qed.
Lemma union_with_cons m ea k b r :
  union_with m ea ((k, b) :: r) = match merged_at m ea k b with Some y => union_with m (ins k y ea) r | None => None end.
Proof.
  unfold union_with, merged_at. cbn [fold_left fst snd]. destruct (assoc k ea) as [x|] eqn:E; [|now rewrite ins_cases, E].
  destruct (m x b) as [y|]; [now rewrite ins_cases, E|]. induction r; cbn [fold_left]; auto.
Qed.
Lemma union_with_ext m m' : (forall x y z, m x y = Some z -> m' x y = Some z) ->
  forall eb ea em, union_with m ea eb = Some em -> union_with m' ea eb = Some em.
Proof.
  intros H. induction eb as [|[k b] r IH]; intros ea em; [auto|]. rewrite !union_with_cons.
  destruct (merged_at m ea k b) as [y|] eqn:E; [|discriminate]. rewrite (merged_at_ext _ _ H _ _ _ _ E). apply IH.
Qed.

(** the merge descends only into two instances of one sort; everything else must be equivalent *)
Definition inst_view (a b : tree) : option ((list (str * tree) -> tree) * list (str * tree) * list (str * tree)) :=
  match a, b with
  | XInst ea, XInst eb => Some (XInst, ea, eb)
  | XTInst ea, XTInst eb => Some (XTInst, ea, eb)
  | _, _ => None
  end.
Lemma tmerge_f_S n a b :
  tmerge_f (S n) a b = match inst_view a b with
                       | Some (C, ea, eb) => option_map C (union_with (tmerge_f n) ea eb)
                       | None => if tequiv a b then Some a else None
                       end.
Proof. destruct a; try reflexivity; destruct b; reflexivity. Qed.
Lemma inst_view_some a b C ea eb : inst_view a b = Some (C, ea, eb) ->
  a = C ea /\ b = C eb /\ forall e, tdepth (C e) = S (list_max (map (fun kv => tdepth (snd kv)) e)).
Proof. destruct a; try discriminate; destruct b; try discriminate; intros H; injection H as <- <- <-; auto. Qed.
Lemma inst_view_leaf a b : leaf_tree a \/ leaf_tree b -> inst_view a b = None.
Proof. destruct a; try reflexivity; destruct b; try reflexivity; cbn [leaf_tree]; tauto. Qed.

Lemma tmerge_f_cases n d a b m : wt d a -> wt d b -> tmerge_f (S n) a b = Some m ->
  (leaf_tree a /\ a = b /\ m = a) \/
  (exists ea eb em, a = XInst ea /\ b = XInst eb /\ m = XInst em /\ union_with (tmerge_f n) ea eb = Some em).
Proof.
  intros Wa Wb H. rewrite tmerge_f_S in H. destruct d as [|d]; [destruct Wa|]. cbn [wt] in Wa, Wb.
  assert (L : leaf_tree a \/ leaf_tree b -> leaf_tree a /\ a = b /\ m = a).
  { intros L. rewrite (inst_view_leaf _ _ L) in H. destruct (tequiv a b) eqn:E; [|discriminate]. injection H as <-.
    unfold tequiv in E. apply andb_true_iff in E as [E _]. apply sub_names_b_iff in E.
    assert (a = b) as <- by (apply (leaf_sub_eq eq eq); auto). tauto. }
  destruct Wa as [La|[ea [-> _]]]; [left; apply L; now left|]. destruct Wb as [Lb|[eb [-> _]]]; [left; apply L; now right|].
  right. cbn [inst_view] in H. destruct (union_with (tmerge_f n) ea eb) as [em|] eqn:E; [|discriminate]. injection H as <-. exists ea, eb, em. auto.
Qed.

Lemma union_with_nodup m : forall eb ea em, NoDup (map fst ea) -> union_with m ea eb = Some em -> NoDup (map fst em).
Proof.
  induction eb as [|[k b] r IH]; intros ea em ND H; [now injection H as <-|].
  rewrite union_with_cons in H. destruct (merged_at m ea k b) as [y|]; [|discriminate]. apply IH in H; auto. now apply nodup_keys_ins.
Qed.

Lemma union_with_names m : forall eb ea em, NoDup (map fst eb) -> union_with m ea eb = Some em ->
  map fst em = first_seen_union (map fst ea) (map fst eb).
Proof.
  induction eb as [|[k b] r IH]; intros ea em ND H.
  - rewrite union_with_nil in H. injection H as <-. cbn [map]. now rewrite fsu_nil.
  - cbn [map fst] in ND. inversion ND as [|? ? Hn ND']; subst. rewrite union_with_cons in H.
    destruct (merged_at m ea k b) as [y|]; [|discriminate]. rewrite (IH _ _ ND' H). cbn [map fst]. destruct (assoc k ea) as [x|] eqn:Ex.
    + rewrite (keys_ins_old _ _ _ _ Ex), fsu_cons_old; auto. eapply assoc_in_keys; eauto.
    + rewrite (keys_ins_new _ _ _ Ex), fsu_cons_new; auto. now apply assoc_none_keys.
Qed.

Lemma union_with_child m : forall eb ea em, NoDup (map fst eb) -> union_with m ea eb = Some em ->
  forall k, match assoc k ea, assoc k eb with
            | Some a, Some b => exists y, m a b = Some y /\ assoc k em = Some y
            | Some a, None => assoc k em = Some a
            | None, Some b => assoc k em = Some b
            | None, None => assoc k em = None
            end.
Proof.
  induction eb as [|[k b] r IH]; intros ea em ND H k0.
  - rewrite union_with_nil in H. injection H as <-. cbn [assoc]. destruct (assoc k0 ea); auto.
  - cbn [map fst] in ND. inversion ND as [|? ? Hn ND']; subst. rewrite union_with_cons in H.
    destruct (merged_at m ea k b) as [y|] eqn:Ey; [|discriminate]. specialize (IH _ _ ND' H k0).
    cbn [assoc]. destruct (str_eqb k0 k) eqn:Ek.
    + apply str_eqb_eq in Ek. subst k0. rewrite assoc_ins_same, (proj2 (assoc_none_keys _ _) Hn) in IH. unfold merged_at in Ey.
      destruct (assoc k ea) as [x|]; [eauto|]. now injection Ey as ->.
    + rewrite assoc_ins_other in IH; [exact IH|]. intros ->. rewrite str_eqb_refl in Ek. discriminate.
Qed.

Lemma union_with_some m : forall eb ea, NoDup (map fst eb) ->
  (forall k a b, assoc k ea = Some a -> In (k, b) eb -> exists y, m a b = Some y) -> exists em, union_with m ea eb = Some em.
Proof.
  induction eb as [|[k b] r IH]; intros ea ND H; [now exists ea|].
  cbn [map fst] in ND. inversion ND as [|? ? Hn ND']; subst. rewrite union_with_cons.
  assert (Ey : exists y, merged_at m ea k b = Some y).
  { unfold merged_at. destruct (assoc k ea) as [x|] eqn:Ex; [|eauto]. apply (H k x b Ex). now left. }
  destruct Ey as [y ->]. apply IH; auto. intros k0 a0 b0 E Hin. rewrite assoc_ins_other in E.
  - apply (H k0 a0 b0 E). now right.
  - intros ->. apply Hn. change k0 with (fst (k0, b0)). now apply in_map.
Qed.

Theorem tmerge_f_upper : forall n d a b m, wt d a -> wt d b -> tmerge_f n a b = Some m ->
  wt d m /\ (forall z, SubCM a z -> SubCM m z) /\ (forall z, SubCM b z -> SubCM m z).
Proof.
  induction n as [|n IHn]; intros d a b m Wa Wb H; [discriminate|].
  destruct (tmerge_f_cases n d a b m Wa Wb H) as [[L [<- ->]]|[ea [eb [em [-> [-> [-> Hu]]]]]]]; [auto|].
  destruct d as [|d]; [destruct Wa|]. apply wt_inst in Wa as [NDa Ha], Wb as [NDb Hb].
  pose proof (union_with_child _ _ _ _ NDb Hu) as Hc. pose proof (union_with_nodup _ _ _ _ NDa Hu) as NDm.
  assert (Hm : forall k x b y, assoc k ea = Some x -> assoc k eb = Some b -> tmerge_f n x b = Some y ->
                 wt d y /\ (forall z, SubCM x z -> SubCM y z) /\ (forall z, SubCM b z -> SubCM y z)).
  { intros k x b y Ex Eb. apply IHn; eauto using assoc_in. }
  split; [apply wt_inst; split; [exact NDm|]|split].
  - intros k y Hin. apply (in_assoc _ _ _ NDm) in Hin. specialize (Hc k). rewrite Hin in Hc.
    destruct (assoc k ea) as [x|] eqn:Ex, (assoc k eb) as [b|] eqn:Eb; try discriminate.
    + destruct Hc as [y' [Ey E]]. injection E as <-. apply (Hm k x b y Ex Eb Ey).
    + injection Hc as ->. eauto using assoc_in.
    + injection Hc as ->. eauto using assoc_in.
  - intros z Hz. inversion Hz as [| ? ez Hcov | | | | | | | | |]; subst. constructor. intros k c Hin.
    destruct (Hcov k c Hin) as [x [Ex Sx]]. specialize (Hc k). rewrite Ex in Hc.
    destruct (assoc k eb) as [b|] eqn:Eb; [|eauto]. destruct Hc as [y [Ey E]]. exists y. split; [exact E|].
    apply (proj1 (proj2 (Hm k x b y Ex Eb Ey))), Sx.
  - intros z Hz. inversion Hz as [| ? ez Hcov | | | | | | | | |]; subst. constructor. intros k c Hin.
    destruct (Hcov k c Hin) as [b [Eb Sb]]. specialize (Hc k). rewrite Eb in Hc.
    destruct (assoc k ea) as [x|] eqn:Ex; [|eauto]. destruct Hc as [y [Ey E]]. exists y. split; [exact E|].
    apply (proj2 (proj2 (Hm k x b y Ex Eb Ey))), Sb.
Qed.

Corollary tmerge_f_sub n d a b m : wt d a -> wt d b -> tmerge_f n a b = Some m -> wt d m /\ SubCM m a /\ SubCM m b.
Proof.
  intros Wa Wb H. destruct (tmerge_f_upper n d a b m Wa Wb H) as [Wm [Ma Mb]].
  split; auto. split; [apply Ma | apply Mb]; eapply wt_sub_refl; eauto.
Qed.

Theorem tmerge_f_absorb : forall n d a b, wt d a -> wt d b -> SubCM a b -> (d <= n)%nat -> tmerge_f n a b = Some a.
Proof.
  induction n as [|n IHn]; intros d a b Wa Wb HS L; [destruct d; [destruct Wa | lia]|].
  destruct d as [|d]; [destruct Wa|]. pose proof Wa as Wa0. cbn [wt] in Wa, Wb.
  destruct Wb as [Lb|[eb [-> [NDb Hb]]]].
  - assert (a = b) as <- by (apply (leaf_sub_eq NoRes PageCM); auto using nores_eq).
    rewrite tmerge_f_S, inst_view_leaf, (wt_tequiv_refl _ _ Wa0); auto.
  - destruct Wa as [La|[ea [-> [NDa Ha]]]].
    { exfalso. apply (leaf_sub_eq NoRes) in HS; auto using nores_eq. subst a. exact La. }
    cbn [tmerge_f]. inversion HS as [| ? ? Hcov | | | | | | | | |]; subst.
    assert (Hu : forall r, (forall k b, In (k, b) r -> In (k, b) eb) -> union_with (tmerge_f n) ea r = Some ea).
    { induction r as [|[k b] r IHr]; intros Hsub; [reflexivity|]. rewrite union_with_cons. unfold merged_at.
      destruct (Hcov k b (Hsub k b (or_introl eq_refl))) as [a' [Ea Sa]]. rewrite Ea.
      rewrite (IHn d a' b); auto; [|eapply Ha; eauto using assoc_in | eapply Hb; eauto; apply Hsub; now left | lia].
      rewrite (ins_same _ _ _ Ea). apply IHr. intros k0 b0 Hin. apply Hsub. now right. }
    rewrite Hu; auto.
Qed.

Corollary tmerge_f_idem n d a : wt d a -> (d <= n)%nat -> tmerge_f n a a = Some a.
Proof. intros W L. eapply tmerge_f_absorb; eauto. eapply wt_sub_refl; eauto. Qed.

Theorem tmerge_f_glb : forall n d a b m z, wt d a -> wt d b -> tmerge_f n a b = Some m -> SubCM z a -> SubCM z b -> SubCM z m.
Proof.
  induction n as [|n IHn]; intros d a b m z Wa Wb H Za Zb; [discriminate|].
  destruct (tmerge_f_cases n d a b m Wa Wb H) as [[L [<- ->]]|[ea [eb [em [-> [-> [-> Hu]]]]]]]; [auto|].
  destruct d as [|d]; [destruct Wa|]. apply wt_inst in Wa as [NDa Ha], Wb as [NDb Hb].
  pose proof (union_with_child _ _ _ _ NDb Hu) as Hc. pose proof (union_with_nodup _ _ _ _ NDa Hu) as NDm.
  inversion Za as [| ez ? Hca | | | | | | | | |]; subst. inversion Zb as [| ? ? Hcb | | | | | | | | |]; subst.
  constructor. intros k y Hin. apply (in_assoc _ _ _ NDm) in Hin. specialize (Hc k). rewrite Hin in Hc.
  destruct (assoc k ea) as [x|] eqn:Ex, (assoc k eb) as [b|] eqn:Eb; try discriminate;
    try apply assoc_in in Ex; try apply assoc_in in Eb.
  - destruct Hc as [y' [Ey E]]. injection E as <-. destruct (Hca k x Ex) as [c [Ec Sc]], (Hcb k b Eb) as [c' [Ec' Sc']].
    assert (c' = c) by congruence. subst c'. exists c. split; [exact Ec|]. apply (IHn d x b y c); eauto.
  - injection Hc as ->. auto.
  - injection Hc as ->. auto.
Qed.

Lemma tmerge_f_mono : forall n a b m, tmerge_f n a b = Some m -> forall n', (n <= n')%nat -> tmerge_f n' a b = Some m.
Proof.
  induction n as [|n IH]; intros a b m H n' L; [discriminate|]. destruct n' as [|n']; [lia|].
  rewrite tmerge_f_S in H |- *. destruct (inst_view a b) as [[[C ea] eb]|]; [|exact H].
  destruct (union_with (tmerge_f n) ea eb) as [em|] eqn:E; [|discriminate].
  rewrite (union_with_ext (tmerge_f n) (tmerge_f n') (fun x y z Ez => IH x y z Ez n' ltac:(lia)) _ _ _ E). exact H.
Qed.

Definition dbound (e : list (str * tree)) (n : nat) : Prop := forall k x, In (k, x) e -> (tdepth x <= n)%nat.
Lemma dbound_list_max e n : dbound e n <-> (list_max (map (fun kv => tdepth (snd kv)) e) <= n)%nat.
Proof.
  rewrite list_max_le, Forall_forall. split.
  - intros H x Hx. apply in_map_iff in Hx as [[k y] [<- Hin]]. eapply H; eauto.
  - intros H k x Hin. apply H. apply in_map_iff. exists (k, x). auto.
Qed.

Lemma tmerge_f_lower : forall n a b m, tmerge_f n a b = Some m ->
  forall n', (tdepth a < n')%nat -> (tdepth b < n')%nat ->
    tmerge_f n' a b = Some m /\ (tdepth m <= Nat.max (tdepth a) (tdepth b))%nat.
Proof.
  induction n as [|n IH]; intros a b m H n' La Lb; [discriminate|]. destruct n' as [|n']; [lia|].
  assert (Hu : forall eb ea em M, (M < n')%nat -> dbound ea M -> dbound eb M -> union_with (tmerge_f n) ea eb = Some em ->
                                  union_with (tmerge_f n') ea eb = Some em /\ dbound em M).
  { induction eb as [|[k b0] r IHr]; intros ea em M LM Da Db Hm.
    - rewrite union_with_nil in *. injection Hm as <-. auto.
    - rewrite union_with_cons in *. destruct (merged_at (tmerge_f n) ea k b0) as [y|] eqn:Ey; [|discriminate].
      assert (merged_at (tmerge_f n') ea k b0 = Some y /\ (tdepth y <= M)%nat) as [-> Dy].
      { pose proof (Db k b0 (or_introl eq_refl)) as Dbk. unfold merged_at in *. destruct (assoc k ea) as [x|] eqn:Ex.
        - pose proof (Da _ _ (assoc_in _ _ _ Ex)) as Dx. destruct (IH x b0 y Ey n') as [E' Dy]; [lia|lia|]. split; [exact E'|lia].
        - now injection Ey as <-. }
      apply IHr; auto.
      + intros k0 x0 Hin. apply in_ins in Hin as [[-> ->]|Hin]; [exact Dy | eauto].
      + intros k0 x0 Hin. apply (Db k0 x0). now right. }
  rewrite tmerge_f_S in H |- *. destruct (inst_view a b) as [[[C ea] eb]|] eqn:V.
  - apply inst_view_some in V as [-> [-> HC]]. rewrite !HC in *.
    destruct (union_with (tmerge_f n) ea eb) as [em|] eqn:E; [|discriminate]. injection H as <-.
    destruct (Hu eb ea em (Nat.max (list_max (map (fun kv => tdepth (snd kv)) ea)) (list_max (map (fun kv => tdepth (snd kv)) eb))))
      as [E' D']; [lia | apply dbound_list_max; lia | apply dbound_list_max; lia | exact E |].
    rewrite E'. split; [reflexivity|]. rewrite HC. apply dbound_list_max in D'. lia.
  - destruct (tequiv a b); [|discriminate]. injection H as <-. split; [reflexivity | apply Nat.le_max_l].
Qed.

Theorem tmerge_complete n a b m : tmerge_f n a b = Some m -> tmerge a b = Some m.
Proof. intros H. unfold tmerge. apply (tmerge_f_lower n a b m H); lia. Qed.

Theorem tmerge_upper d a b m : wt d a -> wt d b -> tmerge a b = Some m ->
  wt d m /\ SubCM m a /\ SubCM m b /\ (forall z, SubCM a z -> SubCM m z) /\ (forall z, SubCM b z -> SubCM m z).
Proof.
  intros Wa Wb H. destruct (tmerge_f_upper _ d a b m Wa Wb H) as [Wm [Ma Mb]].
  split; auto. split; [apply Ma; eapply wt_sub_refl; eauto|]. split; [apply Mb; eapply wt_sub_refl; eauto|]. auto.
Qed.
Theorem tmerge_glb d a b m z : wt d a -> wt d b -> tmerge a b = Some m -> SubCM z a -> SubCM z b -> SubCM z m.
Proof. intros Wa Wb H. eapply tmerge_f_glb; eauto. Qed.
Theorem tmerge_absorb d a b : wt d a -> wt d b -> SubCM a b -> tmerge a b = Some a.
Proof. intros Wa Wb HS. eapply tmerge_complete. eapply (tmerge_f_absorb d); eauto. Qed.
Theorem tmerge_idem d a : wt d a -> tmerge a a = Some a.
Proof. intros W. eapply tmerge_absorb; eauto. eapply wt_sub_refl; eauto. Qed.
Theorem tmerge_inst_names d ea eb m : wt d (XInst ea) -> wt d (XInst eb) -> tmerge (XInst ea) (XInst eb) = Some m ->
  exists em, m = XInst em /\ map fst em = first_seen_union (map fst ea) (map fst eb) /\
    forall k, match assoc k ea, assoc k eb with
              | Some a, Some b => exists y, tmerge a b = Some y /\ assoc k em = Some y
              | Some a, None => assoc k em = Some a
              | None, Some b => assoc k em = Some b
              | None, None => assoc k em = None
              end.
Proof.
  intros Wa Wb H. destruct d as [|d]; [destruct Wa|]. apply wt_inst in Wb as [NDb Hb].
  unfold tmerge in H. cbn [tmerge_f] in H.
  destruct (union_with _ ea eb) as [em|] eqn:E; [|discriminate]. injection H as <-. exists em. split; auto.
  split; [eapply union_with_names; eauto|]. intros k. pose proof (union_with_child _ eb ea em NDb E k) as C.
  destruct (assoc k ea), (assoc k eb); auto. destruct C as [y [Ey Ay]]. exists y. split; auto. eapply tmerge_complete; eauto.
Qed.

(** two requirements with a common refinement can be merged (so: no merge = a genuine conflict) *)
Theorem tmerge_f_total : forall n d a b z, wt d a -> wt d b -> SubCM z a -> SubCM z b -> (d <= n)%nat ->
  exists m, tmerge_f n a b = Some m.
Proof.
  induction n as [|n IHn]; intros d a b z Wa Wb Za Zb L; [destruct d; [destruct Wa | lia]|].
  destruct d as [|d]; [destruct Wa|]. pose proof Wa as Wa0. pose proof Wb as Wb0. cbn [wt] in Wa, Wb.
  destruct Wa as [La|[ea [-> [NDa Ha]]]].
  - assert (z = a) as -> by (apply (leaf_sub_eq NoRes PageCM); auto using nores_eq).
    exists a. apply (tmerge_f_absorb (S n) (S d)); auto.
  - destruct Wb as [Lb|[eb [-> [NDb Hb]]]].
    + exfalso. assert (z = b) as -> by (apply (leaf_sub_eq NoRes PageCM); auto using nores_eq).
      apply (leaf_sub_eq NoRes) in Za; auto using nores_eq. subst b. exact Lb.
    + inversion Za as [| ez ? Hca | | | | | | | | |]; subst. inversion Zb as [| ? ? Hcb | | | | | | | | |]; subst.
      destruct (union_with_some (tmerge_f n) eb ea NDb) as [em Hem].
      { intros k x b Ex Hin. apply assoc_in in Ex. destruct (Hca k x Ex) as [c [Ec Sc]], (Hcb k b Hin) as [c' [Ec' Sc']].
        assert (c' = c) by congruence. subst c'. apply (IHn d x b c); eauto. lia. }
      exists (XInst em). cbn [tmerge_f]. now rewrite Hem.
Qed.
Theorem tmerge_total d a b z : wt d a -> wt d b -> SubCM z a -> SubCM z b -> exists m, tmerge a b = Some m.
Proof.
  intros Wa Wb Za Zb. destruct (tmerge_f_total d d a b z Wa Wb Za Zb (le_n _)) as [m H]. exists m. eapply tmerge_complete; eauto.
Qed.
