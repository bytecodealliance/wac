(** C06: the consistency invariant of the [CompositionGraph] model ([model/Graph.v]) and the list
    facts used throughout C06 ([set_nth], [filter] counts, the association maps, [swap_remove],
    [shift_remove]); [add_node] / [drop_node] are treated in GraphPrims.v / GraphUnreg.v.
    The invariant is stated on the components of the state, so that an operation which does not touch
    a component keeps the corresponding part by conversion. *)
From Coq Require Import List Arith Bool NArith Lia Permutation.
From WacV Require Import Graph ListFacts.
Import ListNotations.

Lemma nth_error_set_nth {A} (l : list A) n x m :
  nth_error (set_nth l n x) m = if m =? n then (if n <? length l then Some x else None) else nth_error l m.
Proof.
  revert n m. induction l as [|y l IH]; intros n m.
  - destruct n, m; cbn; auto; destruct (m =? n); auto.
  - destruct n, m; cbn; auto. rewrite IH. destruct (m =? n); auto.
Qed.

Lemma length_set_nth {A} (l : list A) n x : length (set_nth l n x) = length l.
Proof. revert n. induction l as [|y l IH]; intros [|n]; cbn; auto. Qed.

Lemma filter_length_split {A} (f g : A -> bool) l :
  length (filter f l) = length (filter (fun x => f x && g x) l) + length (filter (fun x => f x && negb (g x)) l).
Proof.
  induction l as [|x l IH]; cbn; auto.
  destruct (f x), (g x); cbn; lia.
Qed.

Lemma filter_filter {A} (f g : A -> bool) l : filter f (filter g l) = filter (fun x => g x && f x) l.
Proof.
  induction l as [|x l IH]; cbn; auto.
  destruct (g x); cbn; [destruct (f x)|]; rewrite IH; auto.
Qed.

Lemma filter_length_zero {A} (f : A -> bool) l : length (filter f l) = 0 <-> forall x, In x l -> f x = false.
Proof.
  induction l as [|x l IH]; cbn; [tauto|].
  destruct (f x) eqn:E; cbn.
  - split; [lia|]. intros H. specialize (H x (or_introl eq_refl)). congruence.
  - rewrite IH. split; intros H; [intros y [<-|Hy]; auto | intros y Hy; auto].
Qed.

Lemma filter_length_pos {A} (f : A -> bool) l x : In x l -> f x = true -> 1 <= length (filter f l).
Proof.
  intros Hin Hf. destruct (length (filter f l)) eqn:E; [|lia].
  apply filter_length_zero with (x := x) in E; auto. congruence.
Qed.

Lemma combine_seq_In {A} (l : list A) : forall a i x, In (i, x) (combine (seq a (length l)) l) <-> a <= i /\ nth_error l (i - a) = Some x.
Proof.
  induction l as [|y l IH]; intros a i x; cbn [length seq combine].
  - split; [intros []|]. intros [_ H]. destruct (i - a); discriminate.
  - cbn [In]. rewrite IH. split.
    + intros [[= <- <-]|[L H]]; [rewrite Nat.sub_diag; auto|]. split; [lia|].
      replace (i - a) with (S (i - S a)) by lia. exact H.
    + intros [L H]. destruct (Nat.eq_dec i a) as [->|Hne].
      * rewrite Nat.sub_diag in H. cbn in H. injection H as ->. now left.
      * right. split; [lia|]. replace (i - a) with (S (i - S a)) in H by lia. exact H.
Qed.

Lemma existsb_eqb_In (i : nat) l : existsb (Nat.eqb i) l = true <-> In i l.
Proof.
  rewrite existsb_exists. split.
  - intros [x [Hx E]]. apply Nat.eqb_eq in E. now subst.
  - intros H. exists i. split; auto. apply Nat.eqb_refl.
Qed.

Lemma existsb_eqb_notIn (i : nat) l : existsb (Nat.eqb i) l = false <-> ~ In i l.
Proof. rewrite <- existsb_eqb_In. destruct (existsb (Nat.eqb i) l); split; congruence. Qed.

Lemma NoDup_map_filter {A B} (g : A -> B) (f : A -> bool) l : NoDup (map g l) -> NoDup (map g (filter f l)).
Proof.
  induction l as [|x l IH]; cbn; intros ND; [constructor|].
  inversion ND as [|? ? Hn ND']; subst. destruct (f x); cbn; auto.
  constructor; auto. rewrite in_map_iff in *. intros [y [E Hy]]. apply Hn. exists y. split; auto.
  apply filter_In in Hy. tauto.
Qed.

Lemma alist_get_In {B} (l : list (name * B)) k v : alist_get N.eqb l k = Some v -> In (k, v) l.
Proof.
  induction l as [|[k' v'] l IH]; cbn; [discriminate|].
  destruct (N.eqb_spec k' k) as [->|Hne]; [intros [= ->]; auto | auto].
Qed.

Lemma In_alist_get {B} (l : list (name * B)) k v : NoDup (map fst l) -> In (k, v) l -> alist_get N.eqb l k = Some v.
Proof.
  induction l as [|[k' v'] l IH]; cbn; [tauto|]. intros ND [E|H]; inversion ND as [|? ? Hn ND']; subst.
  - injection E as -> ->. now rewrite N.eqb_refl.
  - destruct (N.eqb_spec k' k) as [->|_]; [|auto]. exfalso. apply Hn. apply (in_map fst) in H. exact H.
Qed.

Lemma alist_get_None {B} (l : list (name * B)) k : alist_get N.eqb l k = None <-> ~ In k (map fst l).
Proof.
  induction l as [|[k' v'] l IH]; cbn; [tauto|].
  destruct (N.eqb_spec k' k) as [->|Hne].
  - split; [discriminate | intros H; exfalso; apply H; auto].
  - rewrite IH. tauto.
Qed.

Lemma alist_get_nat_In {B} (l : list (nat * B)) k v : alist_get Nat.eqb l k = Some v -> In (k, v) l.
Proof.
  induction l as [|[k' v'] l IH]; cbn; [discriminate|].
  destruct (Nat.eqb_spec k' k) as [->|Hne]; [intros [= ->]; auto | auto].
Qed.

Lemma existsb_key_false {B} (l : list (name * B)) k :
  existsb (fun p => N.eqb (fst p) k) l = false <-> ~ In k (map fst l).
Proof.
  induction l as [|[k' v'] l IH]; cbn; [tauto|].
  destruct (N.eqb_spec k' k) as [->|Hne]; cbn.
  - split; [discriminate | intros H; exfalso; apply H; auto].
  - rewrite IH. tauto.
Qed.

Lemma find_index_split {B} (l : list (name * B)) k i j :
  find_index l k i = Some j ->
  exists a v b, l = a ++ (k, v) :: b /\ j = i + length a.
Proof.
  revert i. induction l as [|[k' v'] l IH]; cbn; intros i; [discriminate|].
  destruct (N.eqb_spec k' k) as [->|Hne].
  - intros [= <-]. exists [], v', l. cbn. split; auto; lia.
  - intros H. apply IH in H as [a [v [b [-> ->]]]]. exists ((k', v') :: a), v, b. cbn. split; auto; lia.
Qed.

Lemma find_index_None {B} (l : list (name * B)) k i : find_index l k i = None <-> ~ In k (map fst l).
Proof.
  revert i. induction l as [|[k' v'] l IH]; cbn; intros i; [tauto|].
  destruct (N.eqb_spec k' k) as [->|Hne].
  - split; [discriminate | intros H; exfalso; apply H; auto].
  - rewrite IH. tauto.
Qed.

Lemma set_nth_app_mid {A} (a : list A) x b y : set_nth (a ++ x :: b) (length a) y = a ++ y :: b.
Proof. induction a as [|z a IH]; cbn; auto. now rewrite IH. Qed.

Lemma removelast_app_single {A} (l : list A) x : removelast (l ++ [x]) = l.
Proof. rewrite removelast_app by discriminate. cbn. apply app_nil_r. Qed.

Lemma swap_remove_perm {B} (l : list (name * B)) k l' :
  swap_remove l k = Some l' -> exists v, Permutation l ((k, v) :: l').
Proof.
  unfold swap_remove. destruct (find_index l k 0) as [i|] eqn:F; [|discriminate].
  apply find_index_split in F as [a [v [b [-> ->]]]]. cbn [Nat.add].
  destruct (rev (a ++ (k, v) :: b)) as [|lastx r] eqn:R; [discriminate|].
  destruct (exists_last (l := (k, v) :: b)) as [b' [z Eb]]; [discriminate|].
  assert (z = lastx) as ->.
  { rewrite Eb in R. rewrite app_assoc, rev_app_distr in R. cbn in R. now injection R. }
  rewrite app_length. cbn [length].
  destruct (length a =? pred (length a + S (length b))) eqn:E.
  - apply Nat.eqb_eq in E. assert (b = []) by (destruct b; cbn in *; [auto|lia]). subst b.
    intros [= <-]. rewrite removelast_app_single. exists v. rewrite Permutation_app_comm. reflexivity.
  - apply Nat.eqb_neq in E. destruct b' as [|y b'].
    { cbn in Eb. injection Eb as E1 E2. subst b. cbn in E. lia. }
    cbn in Eb. injection Eb as E1 E2. subst y b. intros [= <-].
    rewrite set_nth_app_mid.
    replace (a ++ lastx :: b' ++ [lastx]) with ((a ++ lastx :: b') ++ [lastx]) by (now rewrite <- app_assoc).
    rewrite removelast_app_single. exists v.
    apply Permutation_sym. apply Permutation_cons_app.
    apply Permutation_app_head. apply Permutation_cons_append.
Qed.

Lemma swap_remove_Some {B} (l : list (name * B)) k : In k (map fst l) -> swap_remove l k <> None.
Proof.
  intros Hin. unfold swap_remove. destruct (find_index l k 0) as [i|] eqn:F.
  - destruct l as [|x l]; [destruct Hin|].
    destruct (rev (x :: l)) eqn:R.
    + apply (f_equal (@length _)) in R. rewrite rev_length in R. discriminate.
    + destruct (i =? _); discriminate.
  - apply find_index_None in F. contradiction.
Qed.

Lemma swap_remove_In {B} (l : list (name * B)) k l' x : swap_remove l k = Some l' -> In x l' -> In x l.
Proof.
  intros H Hin. apply swap_remove_perm in H as [v P]. eapply Permutation_in; [symmetry; exact P|]. now right.
Qed.

Lemma swap_remove_keep {B} (l : list (name * B)) k l' x :
  swap_remove l k = Some l' -> In x l -> fst x <> k -> In x l'.
Proof.
  intros H Hin Hne. apply swap_remove_perm in H as [v P].
  apply (Permutation_in _ P) in Hin as [E|Hin]; auto. subst x. cbn in Hne. congruence.
Qed.

Lemma swap_remove_NoDup {B} (l : list (name * B)) k l' :
  swap_remove l k = Some l' -> NoDup (map fst l) -> NoDup (map fst l') /\ ~ In k (map fst l').
Proof.
  intros H ND. apply swap_remove_perm in H as [v P].
  apply (Permutation_map fst) in P. apply (Permutation_NoDup P) in ND. cbn in ND.
  inversion ND; subst. auto.
Qed.

Lemma filter_keep_all {A} (f : A -> bool) l : (forall x, In x l -> f x = true) -> filter f l = l.
Proof.
  induction l as [|x l IH]; cbn; intros H; auto. rewrite (H x (or_introl eq_refl)). f_equal. apply IH. auto.
Qed.

Lemma shift_remove_filter {B} (l : list (name * B)) k :
  NoDup (map fst l) -> shift_remove l k = filter (fun p => negb (N.eqb (fst p) k)) l.
Proof.
  induction l as [|[k' v] l IH]; cbn; intros ND; auto. inversion ND as [|? ? Hn ND']; subst.
  destruct (N.eqb_spec k' k) as [->|Hne]; cbn.
  - symmetry. apply filter_keep_all. intros [k2 v2] Hin. cbn. apply negb_true_iff. apply N.eqb_neq.
    intros ->. apply Hn. apply (in_map fst) in Hin. exact Hin.
  - now rewrite IH.
Qed.

Lemma shift_remove_In {B} (l : list (name * B)) k x : In x (shift_remove l k) -> In x l.
Proof.
  induction l as [|[k' v] l IH]; cbn; auto. destruct (N.eqb k' k); [auto|]. intros [H|H]; auto.
Qed.

Lemma shift_remove_In_iff {B} (l : list (name * B)) k x :
  NoDup (map fst l) -> In x (shift_remove l k) <-> In x l /\ fst x <> k.
Proof.
  intros ND. rewrite shift_remove_filter by auto. rewrite filter_In, negb_true_iff, N.eqb_neq. reflexivity.
Qed.

Lemma shift_remove_NoDup {B} (l : list (name * B)) k :
  NoDup (map fst l) -> NoDup (map fst (shift_remove l k)) /\ ~ In k (map fst (shift_remove l k)).
Proof.
  intros ND. split.
  - rewrite shift_remove_filter by auto. now apply NoDup_map_filter.
  - intros H. apply in_map_iff in H as [x [E H]]. apply shift_remove_In_iff in H as [_ H]; auto.
Qed.

Lemma shift_remove_absent {B} (l : list (name * B)) k : ~ In k (map fst l) -> shift_remove l k = l.
Proof.
  induction l as [|[k' v] l IH]; cbn; auto. intros H. destruct (N.eqb_spec k' k) as [->|Hne]; [tauto|].
  rewrite IH; auto.
Qed.

Definition getn (ns : list (option node)) (n : nat) : option node :=
  match nth_error ns n with Some (Some nd) => Some nd | _ => None end.
Definition liveb (ns : list (option node)) (n : nat) : bool :=
  match getn ns n with Some _ => true | None => false end.

Lemma get_node_getn s n : get_node s n = getn (nodes s) n.
Proof. reflexivity. Qed.
Lemma live_liveb s n : live s n = liveb (nodes s) n.
Proof. reflexivity. Qed.

Lemma liveb_true ns n : liveb ns n = true <-> exists nd, getn ns n = Some nd.
Proof. unfold liveb. destruct (getn ns n); split; eauto; try discriminate. intros [? ?]; discriminate. Qed.
Lemma liveb_false ns n : liveb ns n = false <-> getn ns n = None.
Proof. unfold liveb. destruct (getn ns n); split; auto; discriminate. Qed.

Lemma getn_lt ns n nd : getn ns n = Some nd -> n < length ns.
Proof. unfold getn. intros H. apply nth_error_Some. destruct (nth_error ns n); congruence. Qed.

Lemma get_node_lt s n nd : get_node s n = Some nd -> n < length (nodes s).
Proof. apply getn_lt. Qed.
Lemma live_lt s n : live s n = true -> n < length (nodes s).
Proof. rewrite live_liveb, liveb_true. intros [nd H]. exact (getn_lt _ _ _ H). Qed.

Lemma getn_set_nth ns n x m :
  getn (set_nth ns n x) m = if m =? n then (if n <? length ns then x else None) else getn ns m.
Proof.
  unfold getn. rewrite nth_error_set_nth. destruct (m =? n); auto.
  destruct (n <? length ns); auto. destruct x; auto.
Qed.

Lemma getn_set_live ns n nd x m :
  getn ns n = Some nd -> getn (set_nth ns n x) m = if m =? n then x else getn ns m.
Proof.
  intros H. rewrite getn_set_nth. apply getn_lt in H. apply Nat.ltb_lt in H. now rewrite H.
Qed.

Lemma getn_set_none ns n m : getn (set_nth ns n None) m = if m =? n then None else getn ns m.
Proof. rewrite getn_set_nth. destruct (m =? n); auto. destruct (n <? length ns); auto. Qed.

Lemma getn_app_one ns x m : getn (ns ++ [x]) m = if m =? length ns then x else getn ns m.
Proof.
  unfold getn. destruct (Nat.eqb_spec m (length ns)) as [->|Hne].
  - rewrite nth_error_app2, Nat.sub_diag by lia. cbn. destruct x; auto.
  - destruct (Nat.lt_ge_cases m (length ns)).
    + now rewrite nth_error_app1.
    + rewrite nth_error_app2 by lia. destruct (m - length ns) as [|k] eqn:E; [lia|]. cbn.
      assert (nth_error ns m = None) as -> by (apply nth_error_None; lia). now destruct k.
Qed.

Lemma getn_ge ns n : length ns <= n -> getn ns n = None.
Proof. intros H. unfold getn. apply nth_error_None in H. now rewrite H. Qed.

Definition kclass (k k' : nkind) : Prop :=
  match k, k' with NInst _, NInst _ => True | _, _ => k = k' end.

Lemma kclass_refl k : kclass k k.
Proof. destruct k; cbn; auto. Qed.

Definition orel (P : node -> node -> Prop) (a b : option node) : Prop :=
  match a, b with Some x, Some y => P x y | None, None => True | _, _ => False end.
Definition dropped (d : nat -> bool) (P : node -> node -> Prop) (ns ns' : list (option node)) : Prop :=
  forall m, if d m then getn ns' m = None else orel P (getn ns m) (getn ns' m).
Notation nrel P := (dropped (fun _ => false) P).

Lemma orel_impl (P Q : node -> node -> Prop) a b : (forall x y, P x y -> Q x y) -> orel P a b -> orel Q a b.
Proof. destruct a, b; cbn; auto. Qed.
Lemma dropped_impl d (P Q : node -> node -> Prop) ns ns' :
  (forall x y, P x y -> Q x y) -> dropped d P ns ns' -> dropped d Q ns ns'.
Proof. intros H D m. specialize (D m). destruct (d m); auto. eapply orel_impl; eauto. Qed.

Lemma dropped_some d P ns ns' m nd' :
  dropped d P ns ns' -> getn ns' m = Some nd' -> d m = false /\ exists nd, getn ns m = Some nd /\ P nd nd'.
Proof.
  intros D H. specialize (D m). destruct (d m); [congruence|]. split; auto.
  rewrite H in D. destruct (getn ns m); cbn in D; [eauto|contradiction].
Qed.

Lemma dropped_keep d P ns ns' m nd :
  dropped d P ns ns' -> getn ns m = Some nd -> d m = false -> exists nd', getn ns' m = Some nd' /\ P nd nd'.
Proof.
  intros D H E. specialize (D m). rewrite E, H in D. destruct (getn ns' m); cbn in D; [eauto|contradiction].
Qed.

Definition is_arg (n i : nat) (e : edge) : bool :=
  (etgt e =? n) && match ek e with EArg j => j =? i | _ => false end.
Definition count_arg_l (es : list edge) (n i : nat) : nat := length (filter (is_arg n i) es).
Definition count_arg (s : gstate) (n i : nat) : nat :=
  length (filter (fun e => (etgt e =? n) && match ek e with EArg j => j =? i | _ => false end) (edges s)).

Lemma is_arg_true n i e : is_arg n i e = true <-> etgt e = n /\ ek e = EArg i.
Proof.
  unfold is_arg. rewrite andb_true_iff, Nat.eqb_eq. destruct (ek e) as [j|j|]; try (split; [intros [_ ?]; discriminate | intros [_ ?]; discriminate]).
  rewrite Nat.eqb_eq. split; intros [? H]; split; auto; congruence.
Qed.

Record FreeOK (ns : list (option node)) (fr : list nat) : Prop := {
  fo_dead : forall i, In i fr -> i < length ns /\ getn ns i = None;
  fo_nodup : NoDup fr }.

Record EdgeOK (ns : list (option node)) (es : list edge) : Prop := {
  eo_live : forall e, In e es -> liveb ns (esrc e) = true /\ liveb ns (etgt e) = true;
  eo_arg_inst : forall e i, In e es -> ek e = EArg i ->
                exists nd sat, getn ns (etgt e) = Some nd /\ nk nd = NInst sat;
  eo_inst_arg : forall e nd sat, In e es -> getn ns (etgt e) = Some nd -> nk nd = NInst sat ->
                exists i, ek e = EArg i;
  eo_sat : forall n nd sat, getn ns n = Some nd -> nk nd = NInst sat ->
           NoDup sat /\ forall i, count_arg_l es n i = if existsb (Nat.eqb i) sat then 1 else 0 }.

Record ExOK (ns : list (option node)) (ex : list (name * nat)) : Prop := {
  xo_live : forall nm n, In (nm, n) ex -> liveb ns n = true;
  xo_keys : NoDup (map fst ex);
  xo_node : forall n nd nm, getn ns n = Some nd -> nexport nd = Some nm -> In (nm, n) ex }.

Record ImOK (ns : list (option node)) (im : list (name * nat)) : Prop := {
  io_iff : forall nm n, In (nm, n) im <-> exists nd, getn ns n = Some nd /\ nk nd = NImport nm;
  io_keys : NoDup (map fst im) }.

Record DfOK (ns : list (option node)) (df : list (nat * nat)) : Prop := {
  do_def : forall t n, In (t, n) df -> exists nd, getn ns n = Some nd /\ nk nd = NDef;
  do_node : forall n nd, getn ns n = Some nd -> nk nd = NDef -> exists t, In (t, n) df }.

Definition get_pkg_l (pk : list pslot) (id : pkgid) : option nat :=
  match nth_error pk (fst id) with
  | Some sl => if ps_gen sl =? snd id then ps_pkg sl else None
  | None => None
  end.
Definition pkg_desc_l (u : universe) (pk : list pslot) (id : pkgid) : option pkgdesc :=
  match get_pkg_l pk id with Some p => nth_error (u_pkgs u) p | None => None end.

Lemma get_pkg_l_eq s id : get_pkg s id = get_pkg_l (pkgs s) id.
Proof. reflexivity. Qed.
Lemma pkg_desc_l_eq u s id : pkg_desc u s id = pkg_desc_l u (pkgs s) id.
Proof. reflexivity. Qed.

Record PkgOK (u : universe) (ns : list (option node)) (pk : list pslot) (fp : list nat) : Prop := {
  po_live : forall n nd id, getn ns n = Some nd -> npkg nd = Some id -> exists p, get_pkg_l pk id = Some p;
  po_inst : forall n nd sat, getn ns n = Some nd -> nk nd = NInst sat ->
            exists id pd, npkg nd = Some id /\ pkg_desc_l u pk id = Some pd;
  po_free : forall i, In i fp -> exists sl, nth_error pk i = Some sl /\ ps_pkg sl = None;
  po_free_nodup : NoDup fp }.

Record InvC (u : universe) (s : gstate) : Prop := {
  ic_free : FreeOK (nodes s) (free_nodes s);
  ic_edge : EdgeOK (nodes s) (edges s);
  ic_ex : ExOK (nodes s) (exports s);
  ic_im : ImOK (nodes s) (imports s);
  ic_df : DfOK (nodes s) (defined s);
  ic_pkg : PkgOK u (nodes s) (pkgs s) (free_pkgs s) }.

(** the invariant as one record over the state, the form quoted by [props/C06.v] *)
Record Inv (u : universe) (s : gstate) : Prop := {
  inv_free_dead : forall i, In i (free_nodes s) -> i < length (nodes s) /\ live s i = false;
  inv_free_nodup : NoDup (free_nodes s);
  inv_edges_live : forall e, In e (edges s) -> live s (esrc e) = true /\ live s (etgt e) = true;
  inv_args_to_inst : forall e i, In e (edges s) -> ek e = EArg i ->
                     exists nd sat, get_node s (etgt e) = Some nd /\ nk nd = NInst sat;
  inv_inst_in_edges_only_args : forall e nd sat, In e (edges s) -> get_node s (etgt e) = Some nd ->
                     nk nd = NInst sat -> exists i, ek e = EArg i;
  inv_sat_exact : forall n nd sat, get_node s n = Some nd -> nk nd = NInst sat ->
                  NoDup sat /\ forall i, count_arg s n i = if existsb (Nat.eqb i) sat then 1 else 0;
  inv_exports_live : forall nm n, In (nm, n) (exports s) -> live s n = true;
  inv_exports_keys : NoDup (map fst (exports s));
  inv_node_export : forall n nd nm, get_node s n = Some nd -> nexport nd = Some nm -> In (nm, n) (exports s);
  inv_imports : forall nm n, In (nm, n) (imports s) <-> exists nd, get_node s n = Some nd /\ nk nd = NImport nm;
  inv_imports_keys : NoDup (map fst (imports s));
  inv_defined : forall t n, In (t, n) (defined s) -> exists nd, get_node s n = Some nd /\ nk nd = NDef;
  inv_def_nodes : forall n nd, get_node s n = Some nd -> nk nd = NDef -> exists t, In (t, n) (defined s);
  inv_pkg_live : forall n nd id, get_node s n = Some nd -> npkg nd = Some id -> exists p, get_pkg s id = Some p;
  inv_inst_pkg : forall n nd sat, get_node s n = Some nd -> nk nd = NInst sat ->
                 exists id pd, npkg nd = Some id /\ pkg_desc u s id = Some pd;
  inv_free_pkgs : forall i, In i (free_pkgs s) -> exists sl, nth_error (pkgs s) i = Some sl /\ ps_pkg sl = None;
  inv_free_pkgs_nodup : NoDup (free_pkgs s) }.

Lemma Inv_iff u s : Inv u s <-> InvC u s.
Proof.
  split.
  - intros [A1 A2 B1 B2 B3 B4 C1 C2 C3 D1 D2 E1 E2 F1 F2 F3 F4].
    constructor; constructor; auto.
    intros i Hi. destruct (A1 i Hi) as [L D]. split; auto. now apply liveb_false.
  - intros [[A1 A2] [B1 B2 B3 B4] [C1 C2 C3] [D1 D2] [E1 E2] [F1 F2 F3 F4]].
    constructor; auto.
    intros i Hi. destruct (A1 i Hi) as [L D]. split; auto. now apply liveb_false.
Qed.

Lemma getn_nil n : getn [] n = None.
Proof. destruct n; reflexivity. Qed.

Lemma inv_empty u : Inv u empty_graph.
Proof.
  assert (G : forall n, get_node empty_graph n = None) by (intros n; apply getn_nil).
  constructor; cbn; try tauto; try (now constructor);
    try (intros *; rewrite G; discriminate).
  intros nm n. split; [tauto|]. intros [nd [H _]]. rewrite G in H. discriminate.
Qed.
