(** List facts of the standard-library kind that several areas need and the library lacks. *)
From Coq Require Import List Arith Bool.
Import ListNotations.

Lemma firstn_app_exact {A} (a b : list A) : firstn (length a) (a ++ b) = a.
Proof. induction a as [|x a IH]; cbn; [now destruct b|now rewrite IH]. Qed.

Lemma skipn_app_exact {A} (a b : list A) : skipn (length a) (a ++ b) = b.
Proof. induction a as [|x a IH]; cbn; auto. Qed.

Lemma nth_error_snoc {A} (l : list A) x : nth_error (l ++ [x]) (length l) = Some x.
Proof. rewrite nth_error_app2 by apply le_n. now rewrite Nat.sub_diag. Qed.

Lemma NoDup_app_one {A} (l : list A) a : NoDup l -> ~ In a l -> NoDup (l ++ [a]).
Proof.
  induction 1 as [|x l Hx ND IH]; cbn; intros Hn.
  - constructor; auto; constructor.
  - constructor; [|tauto]. rewrite in_app_iff. cbn. intuition congruence.
Qed.

Lemma NoDup_map_inj {A B} (f : A -> B) l x y : NoDup (map f l) -> In x l -> In y l -> f x = f y -> x = y.
Proof.
  induction l as [|z r IH]; cbn; [tauto|]. intros N. inversion N as [|? ? Nz Nr]; subst.
  intros [->|Ix] [->|Iy] E; auto.
  - exfalso. apply Nz. rewrite E. now apply in_map.
  - exfalso. apply Nz. rewrite <- E. now apply in_map.
Qed.

Lemma NoDup_keys_inj {A B} (l : list (A * B)) k v v' :
  NoDup (map fst l) -> In (k, v) l -> In (k, v') l -> v = v'.
Proof.
  intros ND H H'. assert (E : (k, v) = (k, v')) by (eapply (NoDup_map_inj fst); eauto). congruence.
Qed.

Lemma Forall2_impl {A B} (P Q : A -> B -> Prop) l l' :
  (forall a b, P a b -> Q a b) -> Forall2 P l l' -> Forall2 Q l l'.
Proof. intros H. induction 1; constructor; auto. Qed.

Lemma pair_eqb_eq {A B} (ea : A -> A -> bool) (eb : B -> B -> bool) :
  (forall x y, ea x y = true <-> x = y) -> (forall x y, eb x y = true <-> x = y) ->
  forall a b : A * B, ea (fst a) (fst b) && eb (snd a) (snd b) = true <-> a = b.
Proof.
  intros Ha Hb [a1 a2] [b1 b2]. cbn [fst snd]. rewrite andb_true_iff, Ha, Hb.
  split; [intros [-> ->]; reflexivity | intros E; now injection E].
Qed.
