(** C06: [remove_node]. Clearing satisfied indexes and purging a set of nodes (both shared with
    [unregister], [GraphUnreg.v]); what [remove_one], the body of [remove_node] after the recursive calls,
    does to a consistent state ([RemOne]); the recursion ([remove_node_rec_rel]). *)
From Coq Require Import List Arith Bool NArith Lia.
From WacV Require Import Graph GraphInv GraphPrims GraphSteps.
Import ListNotations.

Definition pair_is (m j : nat) (p : nat * nat) : bool := (fst p =? m) && (snd p =? j).
Definition keep_idx (l : list (nat * nat)) (m j : nat) : bool := negb (existsb (pair_is m j) l).

(** [cleared l m a b]: node [b] is node [a] (the node at slot [m]) after the pairs of [l] were cleared *)
Definition cleared (l : list (nat * nat)) (m : nat) (a b : node) : Prop :=
  nitem b = nitem a /\ npkg b = npkg a /\ nname b = nname a /\ nexport b = nexport a /\
  match nk a with NInst sat => nk b = NInst (filter (keep_idx l m) sat) | k => nk b = k end.

Lemma pair_is_true m j p : pair_is m j p = true <-> p = (m, j).
Proof.
  destruct p as [a b]. unfold pair_is. cbn. rewrite andb_true_iff, !Nat.eqb_eq. split; [intros [-> ->]|intros [= -> ->]]; auto.
Qed.

Lemma keep_idx_false l m j : keep_idx l m j = false <-> In (m, j) l.
Proof.
  unfold keep_idx. rewrite negb_false_iff, existsb_exists. split.
  - intros [p [Hp E]]. apply pair_is_true in E. now subst.
  - intros H. exists (m, j). split; auto. now apply pair_is_true.
Qed.

Lemma cleared_nil m a : cleared [] m a a.
Proof.
  repeat split. destruct (nk a) eqn:K; auto. f_equal. symmetry. apply filter_keep_all. reflexivity.
Qed.

Lemma cleared_kclass l m a b : cleared l m a b -> kclass (nk a) (nk b).
Proof. intros (_ & _ & _ & _ & H). destruct (nk a); rewrite H; cbn; auto. Qed.

Definition sat_has (ns : list (option node)) (t i : nat) : Prop :=
  exists nd sat, getn ns t = Some nd /\ nk nd = NInst sat /\ In i sat.

Lemma remove_satisfied_inl s t i nd sat :
  get_node s t = Some nd -> nk nd = NInst sat -> In i sat ->
  remove_satisfied s t i =
  inl (set_node s t (Some {| nk := NInst (filter (fun j => negb (j =? i)) sat); npkg := npkg nd;
                             nitem := nitem nd; nname := nname nd; nexport := nexport nd |})).
Proof.
  intros G K H. unfold remove_satisfied. rewrite G, K. apply existsb_eqb_In in H. now rewrite H.
Qed.

Lemma remove_satisfied_inv s t i s' :
  remove_satisfied s t i = inl s' ->
  exists nd sat, get_node s t = Some nd /\ nk nd = NInst sat /\
    s' = set_node s t (Some {| nk := NInst (filter (fun j => negb (j =? i)) sat); npkg := npkg nd;
                               nitem := nitem nd; nname := nname nd; nexport := nexport nd |}).
Proof.
  unfold remove_satisfied. destruct (get_node s t) as [nd|]; [|discriminate].
  destruct (nk nd) as [| |sat|] eqn:K; try discriminate. destruct (existsb _ sat); [|discriminate].
  intros [= <-]. eauto.
Qed.

Lemma remove_satisfied_all_spec l : forall s s',
  remove_satisfied_all s l = inl s' ->
  (forall m, orel (cleared l m) (getn (nodes s) m) (getn (nodes s') m)) /\
  length (nodes s') = length (nodes s) /\ free_nodes s' = free_nodes s /\ edges s' = edges s /\
  imports s' = imports s /\ exports s' = exports s /\ defined s' = defined s /\ pkgs s' = pkgs s /\
  free_pkgs s' = free_pkgs s.
Proof.
  induction l as [|[t i] r IH]; intros s s' H; cbn in H.
  - injection H as <-. split; [|repeat split; auto]. intros m. destruct (getn (nodes s) m); cbn; auto using cleared_nil.
  - destruct (remove_satisfied s t i) as [s1|] eqn:R; [|discriminate].
    apply remove_satisfied_inv in R as [nd [sat [G [K ->]]]]. rewrite get_node_getn in G.
    apply IH in H as (H & L & R1 & R2 & R3 & R4 & R5 & R6 & R7). cbn in *.
    split; [|rewrite L, length_set_nth; repeat split; auto].
    intros m. specialize (H m). erewrite getn_set_live in H by eauto.
    destruct (Nat.eqb_spec m t) as [Eq|Hne].
    + subst m. rewrite G. destruct (getn (nodes s') t) as [b|]; cbn in *; auto.
      destruct H as (H1 & H2 & H3 & H4 & H5). cbn in *. repeat split; auto. rewrite K, H5. f_equal.
      rewrite filter_filter. apply filter_ext. intros j. unfold keep_idx. cbn [existsb].
      rewrite negb_orb. f_equal. unfold pair_is. cbn [fst snd]. rewrite Nat.eqb_refl. cbn [andb].
      f_equal. apply Nat.eqb_sym.
    + destruct (getn (nodes s) m) as [a|], (getn (nodes s') m) as [b|]; cbn in *; auto.
      destruct H as (H1 & H2 & H3 & H4 & H5). repeat split; auto. destruct (nk a); auto. rewrite H5. f_equal.
      apply filter_ext. intros j. unfold keep_idx. cbn [existsb]. unfold pair_is at 2. cbn [fst snd].
      apply Nat.eqb_neq in Hne. rewrite Nat.eqb_sym in Hne. now rewrite Hne.
Qed.

Lemma remove_satisfied_all_ok l : forall s,
  NoDup l -> (forall p, In p l -> sat_has (nodes s) (fst p) (snd p)) ->
  exists s', remove_satisfied_all s l = inl s'.
Proof.
  induction l as [|[t i] r IH]; intros s ND H; cbn; [eauto|].
  destruct (H (t, i) (or_introl eq_refl)) as [nd [sat [G [K Hi]]]]. cbn in G.
  rewrite (remove_satisfied_inl s t i nd sat G K Hi). inversion ND as [|? ? Hn ND']; subst.
  apply IH; auto. intros [t' i'] Hp. destruct (H (t', i') (or_intror Hp)) as [nd' [sat' [G' [K' Hi']]]].
  cbn in *. unfold sat_has. erewrite getn_set_live by eauto. destruct (Nat.eqb_spec t' t) as [->|Hne].
  - eexists _, _. split; [reflexivity|]. cbn. split; [reflexivity|]. rewrite G in G'. injection G' as <-.
    rewrite K in K'. injection K' as <-. rewrite filter_In, negb_true_iff, Nat.eqb_neq. split; auto.
    intros ->. contradiction.
  - eauto.
Qed.

(** the (target, index) pairs of the argument edges selected by [q] *)
Definition arg_pairs (q : edge -> bool) (es : list edge) : list (nat * nat) :=
  flat_map (fun e => match ek e with EArg i => if q e then [(etgt e, i)] else [] | _ => [] end) es.

Lemma arg_targets_filter q es : arg_targets (filter q es) = arg_pairs q es.
Proof.
  unfold arg_targets, arg_pairs. induction es as [|x es IH]; cbn; auto.
  destruct (q x); cbn; rewrite IH; destruct (ek x); auto.
Qed.

Lemma arg_pairs_In q es t i :
  In (t, i) (arg_pairs q es) <-> exists e, In e es /\ q e = true /\ etgt e = t /\ ek e = EArg i.
Proof.
  unfold arg_pairs. rewrite in_flat_map. split.
  - intros [e [He H]]. destruct (ek e) as [j|j|] eqn:K; try destruct H. destruct (q e) eqn:Q; [|destruct H].
    destruct H as [[= <- <-]|[]]. eauto.
  - intros [e [He [Q [T K]]]]. exists e. split; auto. rewrite K, Q, T. now left.
Qed.

Lemma count_le_1 ns es t i : EdgeOK ns es -> count_arg_l es t i <= 1.
Proof.
  intros O. destruct (count_arg_l es t i) as [|c] eqn:C; [lia|].
  assert (Hex : exists e, In e es /\ is_arg t i e = true).
  { unfold count_arg_l in C. destruct (filter (is_arg t i) es) as [|e r] eqn:F; [discriminate|].
    exists e. apply filter_In. rewrite F. now left. }
  destruct Hex as [e [He Ha]]. apply is_arg_true in Ha as [Ht Hk].
  destruct (eo_arg_inst _ _ O e i He Hk) as [nd [sat [G K]]]. rewrite Ht in G.
  destruct (eo_sat _ _ O t nd sat G K) as [_ Cn]. rewrite <- C, Cn. destruct (existsb _ sat); lia.
Qed.

Lemma arg_pairs_NoDup q es : (forall t i, count_arg_l es t i <= 1) -> NoDup (arg_pairs q es).
Proof.
  induction es as [|x es IH]; intros H; cbn; [constructor|].
  assert (H' : forall t i, count_arg_l es t i <= 1).
  { intros t i. specialize (H t i). unfold count_arg_l in *. cbn in H. destruct (is_arg t i x); cbn in H; lia. }
  destruct (ek x) as [j|j|] eqn:K; cbn; auto. destruct (q x); cbn; auto. constructor; auto.
  intros Hin. apply arg_pairs_In in Hin as [e [He [_ [T Ke]]]].
  specialize (H (etgt x) j). unfold count_arg_l in H. cbn in H.
  assert (X : is_arg (etgt x) j x = true) by (apply is_arg_true; auto). rewrite X in H. cbn in H.
  assert (1 <= length (filter (is_arg (etgt x) j) es)).
  { apply (filter_length_pos _ _ e He). apply is_arg_true; auto. }
  lia.
Qed.

Lemma arg_pairs_sat_has ns es q p : EdgeOK ns es -> In p (arg_pairs q es) -> sat_has ns (fst p) (snd p).
Proof.
  intros O H. destruct p as [t i]. apply arg_pairs_In in H as [e [He [_ [T K]]]]. cbn.
  destruct (eo_arg_inst _ _ O e i He K) as [nd [sat [G Kn]]]. exists nd, sat. rewrite <- T. repeat split; auto.
  eapply arg_edge_sat; eauto.
Qed.

(** [Purged d l s s']: [s'] is [s] without the nodes selected by [d], their edges and their map entries, the
    satisfied indexes of [l] being cleared in the nodes that stay. *)
Record Purged (d : nat -> bool) (l : list (nat * nat)) (s s' : gstate) : Prop := {
  pu_nodes : forall m, if d m then getn (nodes s') m = None
                       else orel (cleared l m) (getn (nodes s) m) (getn (nodes s') m);
  pu_edges : edges s' = filter (fun e => negb (d (esrc e)) && negb (d (etgt e))) (edges s);
  pu_exports : forall x, In x (exports s') <-> In x (exports s) /\ d (snd x) = false;
  pu_imports : forall x, In x (imports s') <-> In x (imports s) /\ d (snd x) = false;
  pu_defined : forall x, In x (defined s') <-> In x (defined s) /\ d (snd x) = false;
  pu_export_keys : NoDup (map fst (exports s)) -> NoDup (map fst (exports s'));
  pu_import_keys : NoDup (map fst (imports s)) -> NoDup (map fst (imports s')) }.

Lemma Purged_live d l s s' : Purged d l s s' -> forall m, live s' m = if d m then false else live s m.
Proof.
  intros R m. pose proof (pu_nodes _ _ _ _ R m) as H. unfold live. rewrite !get_node_getn.
  destruct (d m); [now rewrite H|]. destruct (getn (nodes s) m), (getn (nodes s') m); cbn in H; try contradiction; reflexivity.
Qed.

Lemma Purged_inv u d q l s s' :
  InvC u s -> Purged d l s s' -> l = arg_pairs q (edges s) ->
  (forall e, In e (edges s) -> d (etgt e) = false -> q e = d (esrc e)) ->
  FreeOK (nodes s') (free_nodes s') -> pkgs s' = pkgs s -> free_pkgs s' = free_pkgs s -> InvC u s'.
Proof.
  intros HI R Hl Hq HF Ep Ef. pose proof HI as [F E X I D P].
  assert (Dr : forall Q : node -> node -> Prop, (forall m a b, cleared l m a b -> Q a b) -> dropped d Q (nodes s) (nodes s')).
  { intros Q HQ m. pose proof (pu_nodes _ _ _ _ R m) as H. destruct (d m); auto.
    destruct (getn (nodes s) m), (getn (nodes s') m); cbn in *; eauto. }
  constructor.
  - exact HF.
  - rewrite (pu_edges _ _ _ _ R). apply EdgeOK_purge with (ns := nodes s); auto.
    + apply Dr. intros m a b. apply cleared_kclass.
    + intros m nd nd' sat sat' G G' K K'. pose proof (pu_nodes _ _ _ _ R m) as H. destruct (d m) eqn:Dm; [congruence|].
      rewrite G, G' in H. destruct H as (_ & _ & _ & _ & H3). rewrite K, K' in H3.
      injection H3 as ->. exists (keep_idx l m). split; auto. intros i. rewrite keep_idx_false, Hl, arg_pairs_In.
      split; intros [e [He Re]]; exists e; split; auto.
      * destruct Re as (Q & T & Ke). rewrite Hq in Q by (auto; congruence). split; auto. apply is_arg_true; auto.
      * destruct Re as (Q & A). apply is_arg_true in A as [T Ke]. rewrite Hq by (auto; congruence). auto.
  - eapply ExOK_drop; eauto; [|apply (pu_exports _ _ _ _ R)|apply (pu_export_keys _ _ _ _ R), X].
    apply Dr. intros m a b C. symmetry. apply C.
  - eapply ImOK_drop; eauto; [|apply (pu_imports _ _ _ _ R)|apply (pu_import_keys _ _ _ _ R), I].
    apply Dr. intros m a b. apply cleared_kclass.
  - eapply DfOK_drop; eauto; [|apply (pu_defined _ _ _ _ R)]. apply Dr. intros m a b. apply cleared_kclass.
  - rewrite Ep, Ef. eapply PkgOK_drop; [|exact P]. apply Dr. intros m a b C. split; [symmetry; apply C|].
    eapply cleared_kclass; eauto.
Qed.

Definition gone (s : gstate) (n : nat) : Prop :=
  live s n = false /\ (forall e, In e (edges s) -> esrc e <> n /\ etgt e <> n) /\
  (forall nm, ~ In (nm, n) (exports s)) /\ (forall nm, ~ In (nm, n) (imports s)) /\
  (forall t, ~ In (t, n) (defined s)).

Lemma dead_gone u s n : InvC u s -> live s n = false -> gone s n.
Proof.
  intros HI L. destruct (maps_live u s HI) as (Mx & Mi & Md). split; [exact L|]. repeat split.
  - intros Eq. destruct (eo_live _ _ (ic_edge _ _ HI) e H) as [L1 _]. rewrite <- live_liveb, Eq in L1. congruence.
  - intros Eq. destruct (eo_live _ _ (ic_edge _ _ HI) e H) as [_ L2]. rewrite <- live_liveb, Eq in L2. congruence.
  - intros nm H. apply Mx in H. cbn in H. congruence.
  - intros nm H. apply Mi in H. cbn in H. congruence.
  - intros t H. apply Md in H. cbn in H. congruence.
Qed.

Record RemOne (s : gstate) (n : nat) (s' : gstate) : Prop := {
  ro_purged : exists l, Purged (fun m => m =? n) l s s';
  ro_length : length (nodes s') = length (nodes s);
  ro_pkgs : pkgs s' = pkgs s }.

Lemma RemOne_live s n s' : RemOne s n s' -> forall m, live s' m = if m =? n then false else live s m.
Proof. intros [[l R] _ _]. apply (Purged_live _ _ _ _ R). Qed.

Lemma ro_edges s n s' : RemOne s n s' -> edges s' = filter (fun e => negb (esrc e =? n) && negb (etgt e =? n)) (edges s).
Proof. intros [[l R] _ _]. apply (pu_edges _ _ _ _ R). Qed.

Lemma remove_one_live u s n nd0 :
  InvC u s -> get_node s n = Some nd0 -> exists s', remove_one s n = inl s' /\ InvC u s' /\ RemOne s n s'.
Proof.
  intros HI G0. pose proof HI as [F E X I D P]. rewrite get_node_getn in G0.
  unfold remove_one, outgoing. rewrite arg_targets_filter.
  set (q := fun e => esrc e =? n). set (l := arg_pairs q (edges s)).
  destruct (remove_satisfied_all_ok l s) as [s1 R].
  { apply arg_pairs_NoDup. intros t i. eapply count_le_1; eauto. }
  { intros p Hp. eapply arg_pairs_sat_has; eauto. }
  rewrite R. apply remove_satisfied_all_spec in R as (Hc & L & R1 & R2 & R3 & R4 & R5 & R6 & R7).
  pose proof (Hc n) as Cn. rewrite G0 in Cn. rewrite get_node_getn.
  destruct (getn (nodes s1) n) as [nd|] eqn:G1; [|destruct Cn]. cbn in Cn.
  assert (KC : kclass (nk nd0) (nk nd)) by (eapply cleared_kclass; eauto).
  destruct Cn as (_ & _ & _ & C4 & _).
  assert (Hdn : forall m, (m =? n) = false <-> m <> n) by (intros m; apply Nat.eqb_neq).
  cbn [drop_node imports exports defined]. rewrite R3, R4, R5, C4.
  destruct (imports_after_remove _ _ n nd0 nd I G0 KC) as (im & -> & Mi & Ni).
  destruct (exports_after_remove _ _ n nd0 X G0) as (ex & -> & Me & Ne).
  destruct (defined_after_remove (with_maps (drop_node s1 n) im (filter (fun p : name * nat => negb (snd p =? n)) ex))
              _ _ n nd0 nd D G0 KC) as (df & -> & Md).
  eexists. split; [reflexivity|].
  match goal with |- InvC u ?s2 /\ _ => assert (Pu : Purged (fun m => m =? n) l s s2) end.
  { constructor; cbn [with_maps drop_node nodes edges imports exports defined]; auto.
    - intros m. rewrite getn_set_none. destruct (m =? n); [reflexivity|apply Hc].
    - now rewrite R2.
    - intros x. now rewrite Me, Hdn.
    - intros x. now rewrite Mi, Hdn.
    - intros x. now rewrite Md, Hdn. }
  split; [|constructor; cbn [with_maps drop_node nodes pkgs]; eauto; now rewrite length_set_nth].
  apply (Purged_inv u _ q l s _ HI Pu eq_refl); cbn [with_maps drop_node nodes free_nodes pkgs free_pkgs]; auto.
  eapply FreeOK_drop; eauto. rewrite R1. eapply FreeOK_ext; eauto.
  intros m Hm. specialize (Hc m). rewrite Hm in Hc. destruct (getn (nodes s1) m); [destruct Hc|auto].
Qed.

Lemma remove_one_dead u s n : InvC u s -> get_node s n = None -> remove_one s n = inr PInvalidNodeId.
Proof.
  intros HI G. unfold remove_one.
  assert (O : outgoing s n = []).
  { unfold outgoing. destruct (filter _ (edges s)) as [|e r] eqn:Fl; auto. exfalso.
    assert (He : In e (filter (fun e => esrc e =? n) (edges s))) by (rewrite Fl; now left).
    apply filter_In in He as [He Hs]. apply Nat.eqb_eq in Hs.
    destruct (eo_live _ _ (ic_edge _ _ HI) e He) as [L _]. rewrite Hs in L. apply liveb_true in L as [x L].
    rewrite get_node_getn in G. congruence. }
  rewrite O. cbn. now rewrite G.
Qed.

Section GoList.
Variable rec : gstate -> nat -> gstate + psite.
Fixpoint go_list (s : gstate) (l : list nat) : gstate + psite :=
  match l with
  | [] => inl s
  | m :: r =>
      if live s m then match rec s m with inl s' => go_list s' r | inr p => inr p end
      else go_list s r
  end.
End GoList.

Lemma remove_node_rec_S f s n :
  remove_node_rec (S f) s n =
  match go_list (remove_node_rec f) s (dependants s n) with
  | inr p => inr p
  | inl s' => remove_one s' n
  end.
Proof. reflexivity. Qed.

Lemma dependants_In s n e :
  In e (edges s) -> esrc e = n -> (forall i, ek e <> EArg i) -> In (etgt e) (dependants s n).
Proof.
  intros He Es De. unfold dependants, outgoing. apply in_flat_map. exists e. split.
  - apply filter_In. split; auto. now apply Nat.eqb_eq.
  - destruct (ek e) as [j|j|] eqn:K; cbn; auto. exfalso. now apply (De j).
Qed.

(** The recursion, once. A successful call keeps the invariant, removes [n], creates nothing, and relates
    its start to its result by every relation [P] that is reflexive on consistent states, transitive, and
    holds across a single [remove_one] at a node that only argument edges leave (the targets of its alias
    and dependency edges went before it). A failed call is no bookkeeping panic. *)
Section RemoveRec.
Variables (u : universe) (P : gstate -> gstate -> Prop).
Hypothesis P_refl : forall s, InvC u s -> P s s.
Hypothesis P_trans : forall a b c, P a b -> P b c -> P a c.
Hypothesis P_one : forall s n s',
  InvC u s -> live s n = true -> (forall e, In e (edges s) -> esrc e = n -> exists i, ek e = EArg i) ->
  InvC u s' -> RemOne s n s' -> P s s'.

Definition removed_ok (s : gstate) (l : list nat) (r : gstate + psite) : Prop :=
  match r with
  | inl s' => InvC u s' /\ (forall m, In m l -> live s' m = false) /\ (forall m, live s' m = true -> live s m = true) /\
              (forall e, In e (edges s') -> In e (edges s)) /\ length (nodes s') = length (nodes s) /\ P s s'
  | inr p => bookkeeping p = false
  end.

Lemma remove_node_rec_rel fuel : forall s n, InvC u s -> removed_ok s [n] (remove_node_rec fuel s n).
Proof.
  induction fuel as [|f IH]; intros s n HI; [reflexivity|].
  rewrite remove_node_rec_S.
  assert (G : forall l s0, InvC u s0 -> removed_ok s0 l (go_list (remove_node_rec f) s0 l)).
  { induction l as [|m r IHl]; intros s0 H0; cbn [go_list].
    { split; [exact H0|]. split; [intros m []|]. repeat split; auto. }
    assert (Cont : forall s', removed_ok s0 [m] (inl s') -> removed_ok s0 (m :: r) (go_list (remove_node_rec f) s' r)).
    { intros s' (I1 & I2 & I3 & I4 & I5 & I6). specialize (IHl s' I1). destruct (go_list _ s' r) as [s''|p]; [|exact IHl].
      destruct IHl as (J1 & J2 & J3 & J4 & J5 & J6).
      split; [exact J1|]. split; [|split; [auto|split; [auto|split; [congruence|eapply P_trans; eauto]]]].
      intros x [<-|Hx]; [|auto]. destruct (live s'' m) eqn:Lx; auto. apply J3 in Lx. rewrite I2 in Lx by now left. discriminate. }
    destruct (live s0 m) eqn:Lm.
    - specialize (IH s0 m H0). destruct (remove_node_rec f s0 m) as [s'|p]; [now apply Cont|exact IH].
    - apply Cont. split; [exact H0|]. split; [intros x [<-|[]]; exact Lm|]. repeat split; auto. }
  specialize (G (dependants s n) s HI). destruct (go_list _ s (dependants s n)) as [s1|p]; [|exact G].
  destruct G as (I1 & I6 & I3 & I4 & I5 & I7). destruct (get_node s1 n) as [nd|] eqn:Gn.
  - destruct (remove_one_live u s1 n nd I1 Gn) as [s2 [-> [J1 J2]]]. pose proof (RemOne_live _ _ _ J2) as Lv.
    split; [exact J1|]. split; [intros x [<-|[]]; rewrite Lv; now rewrite Nat.eqb_refl|]. split; [|split; [|split]].
    + intros m Hm. apply I3. rewrite Lv in Hm. destruct (m =? n); [discriminate|exact Hm].
    + intros e He. apply I4. rewrite (ro_edges _ _ _ J2) in He. apply filter_In in He. tauto.
    + rewrite (ro_length _ _ _ J2). exact I5.
    + eapply P_trans; [exact I7|]. apply (P_one s1 n); auto; [unfold live; now rewrite Gn|].
      intros e He Es. destruct (ek e) as [i|i|] eqn:K; [|eauto|]; exfalso;
        (assert (Hd : live s1 (etgt e) = false) by (apply I6; apply dependants_In; [apply I4; exact He|exact Es|intros j; congruence]));
        destruct (eo_live _ _ (ic_edge _ _ I1) e He) as [_ Lt]; rewrite <- live_liveb in Lt; congruence.
  - rewrite (remove_one_dead u s1 n I1 Gn). reflexivity.
Qed.

Lemma remove_node_rel s n s' : InvC u s -> remove_node s n = (s', OUnit) -> removed_ok s [n] (inl s').
Proof.
  intros H R. unfold remove_node in R. pose proof (remove_node_rec_rel (S (length (nodes s))) s n H) as Ok.
  destruct (remove_node_rec _ s n); [|discriminate]. now injection R as <-.
Qed.
End RemoveRec.

Lemma remove_node_rec_ok u fuel s n :
  InvC u s -> removed_ok u (fun _ _ => True) s [n] (remove_node_rec fuel s n).
Proof. apply remove_node_rec_rel; auto. Qed.

Lemma remove_node_inv u s n : InvC u s -> InvC u (fst (remove_node s n)).
Proof.
  intros H. unfold remove_node. pose proof (remove_node_rec_ok u (S (length (nodes s))) s n H) as R.
  destruct (remove_node_rec _ s n); cbn; [apply R|auto].
Qed.

Lemma remove_node_ok u s n : InvC u s -> ok_outcome (snd (remove_node s n)).
Proof.
  intros H. unfold remove_node. pose proof (remove_node_rec_ok u (S (length (nodes s))) s n H) as R.
  destruct (remove_node_rec _ s n) as [s'|p0]; cbn; [ok_triv|]. intros p [= <-]. exact R.
Qed.

Lemma remove_node_gone u s n s' :
  InvC u s -> remove_node s n = (s', OUnit) ->
  InvC u s' /\ gone s' n /\ (forall m, live s' m = true -> live s m = true) /\
  (forall e, In e (edges s') -> In e (edges s)).
Proof.
  intros H R. edestruct (remove_node_rel u (fun _ _ => True)) as (R1 & R2 & R3 & R4 & _); eauto.
  split; [exact R1|split; [exact (dead_gone u s' n R1 (R2 n (or_introl eq_refl)))|split; auto]].
Qed.

Lemma remove_node_cases s n : fst (remove_node s n) = s \/ remove_node s n = (fst (remove_node s n), OUnit).
Proof. unfold remove_node. destruct (remove_node_rec _ s n); cbn; auto. Qed.
