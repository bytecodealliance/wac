(** C04: concrete witnesses (a tiny universe, programs parsed by the C12 parser model, evaluated with
    vm_compute): non-vacuity of the theorems and the two places where the reference AS WRITTEN is
    contradicted by the faithful resolver model. *)
From Coq Require Import List Arith Bool NArith String.
From WacV Require Import Str StrLit Token Lexer LexImpl Semver Names Ast Parser Graph Resolver LangSpec.
Import ListNotations.
Local Open Scope N_scope.

(** the name table: a name is its index here ([index_of] answers 999 for a string outside it) *)
Definition w_pool : list str := [L"f"; L"x:y/f"; L"baz"; L"out"; L"p"; L"a"; L"g"; L"foo:bar/baz"].

Fixpoint index_of (s : str) (l : list str) (i : N) : N :=
  match l with [] => 999 | x :: r => if str_eqb x s then i else index_of s r (i + 1) end.

Definition w_graph : universe := {|
  (* kind 0: a function; kind 1: an instance exporting [f] and [x:y/f] (both functions);
     kind 2: an instance exporting [g] *)
  u_inst_exports := fun k => if k =? 1 then Some [(0, 0); (1, 0)] else if k =? 2 then Some [(6, 0)] else None;
  (* package 0 (test:both): no imports, instance kind 1; package 1 (test:sink): imports [f], [x:y/f], kind 2 *)
  u_pkgs := [ {| pd_inst := 1; pd_imports := [] |}; {| pd_inst := 2; pd_imports := [(0, 0); (1, 0)] |} ];
  u_tys := [];
  u_lkinds := [0; 1; 2];
  u_sub := N.eqb;
  u_import_name_ok := fun _ => true;
  u_export_name_ok := fun _ => true |}.

Definition w_universe : runiverse := {|
  ru_graph := w_graph;
  ru_intern := fun s => index_of s w_pool 0;
  ru_text := fun n => nth (N.to_nat n) w_pool [];
  ru_pkg_find := fun nm v =>
    match v with
    | Some _ => None
    | None => if str_eqb nm (L"test:both") then Some 0%nat else if str_eqb nm (L"test:sink") then Some 1%nat else None
    end;
  ru_pkg_defs := fun _ => [];
  ru_proj_exports := fun _ => None;
  ru_promote := fun k => k;
  ru_kind_id := fun _ => None;
  ru_func_kind := fun s => match s with [] => Some 0 | _ => None end |}.

Definition parse (src : str) : option document :=
  match parse_document impl_flags impl_cfg src with POk d _ => Some d | _ => None end.

(** [p.f] on an instance that exports both [f] and [x:y/f] *)
Definition w_access : str :=
  L"package test:comp; let p = new test:both { }; let a = p.f; export a as ""out"";".

(** a spread export repeated *)
Definition w_spread2 : str :=
  L"package test:comp; let p = new test:both { }; export p...; export p...;".

(** inferred, named, spread and fill together *)
Definition w_args : str :=
  L"package test:comp; import f: func(); let p = new test:both { }; let s = new test:sink { f, ...p }; let t = new test:sink { ""x:y/f"": f, ... }; export s.g as ""out"";".

(** the resolver model: what the export [out] is an alias of *)
Definition exported_alias (u : runiverse) (src : str) : option (option (nat * name)) :=
  match parse src with
  | None => None
  | Some d =>
      match resolve u d with
      | inl st =>
          match exports (rs_g st) with
          | (_, n) :: _ => Some (get_alias_source u (rs_g st) n)
          | [] => Some None
          end
      | inr _ => None
      end
  end.

Definition resolve_error (u : runiverse) (src : str) : option fail :=
  match parse src with
  | None => None
  | Some d => match resolve u d with inl _ => None | inr f => Some f end
  end.

Definition denoted_exports (dv : deviations) (u : runiverse) (src : str) : option (list (str * sval) + illformed) :=
  match parse src with
  | None => None
  | Some d => Some (match denote dv u d with inl e => inl (se_exports e) | inr i => inr i end)
  end.

(** the arguments of every instantiation, in the model's graph *)
Definition model_args (u : runiverse) (src : str) : option (list (nat * list (name * nat))) :=
  match parse src with
  | None => None
  | Some d =>
      match resolve u d with
      | inl st => Some (flat_map (fun n => match get_args u (rs_g st) n with [] => [] | l => [(n, l)] end) (node_ids (rs_g st)))
      | inr _ => None
      end
  end.

Lemma w_access_model : exported_alias w_universe w_access = Some (Some (0%nat, 0)).
Proof. vm_compute. reflexivity. Qed.

Lemma w_access_doc :
  denoted_exports doc_flags w_universe w_access = Some (inl [(L"out", VAccess (VInst 0) (L"x:y/f"))]).
Proof. vm_compute. reflexivity. Qed.

Lemma w_access_known :
  denoted_exports impl_flags_c04 w_universe w_access = Some (inl [(L"out", VAccess (VInst 0) (L"f"))]).
Proof. vm_compute. reflexivity. Qed.

Lemma w_spread2_model : exists a, resolve_error w_universe w_spread2 = Some (FErr (ESpreadExportNoEffect a)).
Proof. eexists. vm_compute. reflexivity. Qed.

Lemma w_spread2_doc :
  denoted_exports doc_flags w_universe w_spread2
  = Some (inl [(L"f", VAccess (VInst 0) (L"f")); (L"x:y/f", VAccess (VInst 0) (L"x:y/f"))]).
Proof. vm_compute. reflexivity. Qed.

Lemma w_spread2_known : denoted_exports impl_flags_c04 w_universe w_spread2 = Some (inr IIneffectiveSpread).
Proof. vm_compute. reflexivity. Qed.

(** non-vacuity: a program using all four argument forms resolves; the first [new test:sink] gets [f]
    from the explicit import (node 0) and [x:y/f] from the spread (an alias, node 2, of instance node
    1); the second gets ["x:y/f"] by name and leaves [f] implicit *)
Lemma w_args_model : model_args w_universe w_args = Some [(3%nat, [(1, 2%nat); (0, 0%nat)]); (4%nat, [(1, 0%nat)])].
Proof. vm_compute. reflexivity. Qed.

Lemma w_args_spec :
  match parse w_args with
  | Some d => match denote impl_flags_c04 w_universe d with
              | inl e => Some (map (fun i => (si_pkg i, map (fun b => (fst b, binding_value (fst b) (snd b))) (si_bindings i))) (se_insts e))
              | inr _ => None end
  | None => None
  end
  = Some [ (0%nat, []);
           (1%nat, [(L"f", Some (VImport (L"f"))); (L"x:y/f", Some (VAccess (VInst 0) (L"x:y/f")))]);
           (1%nat, [(L"f", None); (L"x:y/f", Some (VImport (L"f")))]) ].
Proof. vm_compute. reflexivity. Qed.
