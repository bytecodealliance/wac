(** The value-level rules of the checker decide equality of the unfolded trees.
    Also: fuel monotonicity of [unfold_vt].  Defines [decides] (result is Ok and P, or Err and not P: never
    Panic/OutOfFuel) with its combinators, and the shapes all rules are instances of ([zip_rule_spec],
    [checked_zip_spec], [named_rule_spec], [opt_rule_spec]). *)
From WacV Require Import Str Types StrFacts Checker SubSpec CheckerEq SubSpecProofs.
Set Warnings "-unused-intro-pattern".

Definition ext_some {A B} (U U' : A -> option B) : Prop := forall x y, U x = Some y -> U' x = Some y.

Lemma all_some_map_ext {A B} (U U' : A -> option B) (l : list A) l' :
  ext_some U U' -> all_some (map U l) = Some l' -> all_some (map U' l) = Some l'.
Proof.
  intros He. revert l'. induction l as [|x l IH]; intros l'; cbn [map all_some]; [auto|].
  destruct (U x) as [y|] eqn:E; [|discriminate]. rewrite (He _ _ E).
  destruct (all_some (map U l)) as [r|]; [|discriminate]. intro H. now rewrite (IH _ eq_refl).
Qed.
Lemma omap_ext {A B} (U U' : A -> option B) o o' : ext_some U U' -> omap U o = Some o' -> omap U' o = Some o'.
Proof.
  intros He. destruct o as [x|]; cbn [omap]; [|auto].
  destruct (U x) as [y|] eqn:E; [|discriminate]. now rewrite (He _ _ E).
Qed.
Lemma omap_ext_some {A B} (U U' : A -> option B) : ext_some U U' -> ext_some (omap U) (omap U').
Proof. intros He o o'. now apply omap_ext. Qed.
Lemma map_snd_ext {K A B} (U U' : A -> option B) (l : list (K * A)) l' :
  ext_some U U' -> map_snd U l = Some l' -> map_snd U' l = Some l'.
Proof.
  intros He. unfold map_snd. apply all_some_map_ext. intros [k x] y. cbn [fst snd].
  destruct (U x) as [z|] eqn:E; [|discriminate]. now rewrite (He _ _ E).
Qed.

Lemma res_name_of_S f t : forall r n, res_name_of f t r = Some n -> res_name_of (S f) t r = Some n.
Proof.
  induction f as [|f IH]; intros r n; [discriminate|].
  cbn [res_name_of]. destruct (get_res t r) as [x|]; [|discriminate].
  destruct (res_source x) as [s|]; [|auto]. intro H. apply IH in H. exact H.
Qed.

Lemma option_map_ext {A B} (g : A -> B) (o o' : option A) x :
  (forall y, o = Some y -> o' = Some y) -> option_map g o = Some x -> option_map g o' = Some x.
Proof. destruct o as [y|]; [|discriminate]. intros H. now rewrite (H _ eq_refl). Qed.

Lemma option_map_some {A B} (g : A -> B) (o : option A) y : option_map g o = Some y -> exists x, o = Some x /\ y = g x.
Proof. destruct o as [x|]; [|discriminate]. intro H. injection H as <-. eauto. Qed.

Definition unfold_vt_body (U : valtype -> option vtree) (rn : id -> option str) (t : types) (v : valtype) : option vtree :=
  match v with
  | VPrim p => Some (VTPrim p)
  | VBorrow r => option_map VTBorrow (rn r)
  | VOwn r => option_map VTOwn (rn r)
  | VDefined d =>
    match get_def t d with
    | None => None
    | Some (DTuple l) => option_map VTTuple (all_some (map U l))
    | Some (DList x) => option_map VTList (U x)
    | Some (DFsl x n) => option_map (fun y => VTFsl y n) (U x)
    | Some (DOption x) => option_map VTOption (U x)
    | Some (DResult o e) =>
      match omap U o, omap U e with Some o', Some e' => Some (VTResult o' e') | _, _ => None end
    | Some (DVariant c) => option_map VTVariant (map_snd (omap U) c)
    | Some (DRecord fs) => option_map VTRecord (map_snd U fs)
    | Some (DFlags l) => Some (VTFlags l)
    | Some (DEnum l) => Some (VTEnum l)
    | Some (DAlias x) => U x
    | Some (DStream o) => option_map VTStream (omap U o)
    | Some (DFuture o) => option_map VTFuture (omap U o)
    end
  end.
Lemma unfold_vt_eq f t v :
  unfold_vt (S f) t v = unfold_vt_body (unfold_vt f t) (res_name_of (S f) t) t v.
Proof. reflexivity. Qed.

Lemma unfold_vt_body_ext2 U U' rn rn' t t' v tr :
  ext_some U U' -> ext_some rn rn' -> (forall d x, get_def t d = Some x -> get_def t' d = Some x) ->
  unfold_vt_body U rn t v = Some tr -> unfold_vt_body U' rn' t' v = Some tr.
Proof.
  intros He Hr Hg. unfold unfold_vt_body. destruct v as [p|r|r|d]; [auto | | |].
  - apply option_map_ext. intro y. apply Hr.
  - apply option_map_ext. intro y. apply Hr.
  - destruct (get_def t d) as [x|] eqn:E; [|discriminate]. rewrite (Hg _ _ E).
    destruct x; try (apply option_map_ext; intro y); auto.
    + now apply all_some_map_ext.
    + destruct (omap U ok) as [o'|] eqn:E1; [|discriminate].
      destruct (omap U err) as [e'|] eqn:E2; [|discriminate].
      now rewrite (omap_ext _ _ _ _ He E1), (omap_ext _ _ _ _ He E2).
    + apply map_snd_ext. now apply omap_ext_some.
    + now apply map_snd_ext.
    + now apply omap_ext.
    + now apply omap_ext.
Qed.
Lemma unfold_vt_body_ext U U' rn rn' t v tr :
  ext_some U U' -> ext_some rn rn' -> unfold_vt_body U rn t v = Some tr -> unfold_vt_body U' rn' t v = Some tr.
Proof. intros He Hr. apply unfold_vt_body_ext2; auto. Qed.

Lemma unfold_vt_S f t : forall v tr, unfold_vt f t v = Some tr -> unfold_vt (S f) t v = Some tr.
Proof.
  induction f as [|f IH]; intros v tr; [discriminate|].
  rewrite (unfold_vt_eq f), (unfold_vt_eq (S f)). apply unfold_vt_body_ext; [exact IH|].
  intros r n. apply res_name_of_S.
Qed.
Lemma unfold_vt_mono f f' t v tr : (f <= f')%nat -> unfold_vt f t v = Some tr -> unfold_vt f' t v = Some tr.
Proof. induction 1 as [|m Hle IH]; [auto|]. intro Hu. apply unfold_vt_S. auto. Qed.
Lemma res_name_of_mono f f' t r n : (f <= f')%nat -> res_name_of f t r = Some n -> res_name_of f' t r = Some n.
Proof. induction 1 as [|m Hle IH]; [auto|]. intro Hu. apply res_name_of_S. auto. Qed.

Definition decides (r : R unit) (P : Prop) : Prop := (r = Ok tt /\ P) \/ ((exists e, r = Err e) /\ ~ P).

Lemma decides_iff r (P Q : Prop) : (P <-> Q) -> decides r P -> decides r Q.
Proof. unfold decides. intros H [[? ?]|[? ?]]; [left | right]; tauto. Qed.
Lemma decides_ok (P : Prop) : P -> decides ok P.
Proof. left. split; [reflexivity | assumption]. Qed.
Lemma decides_err e (P : Prop) : ~ P -> decides (Err e) P.
Proof. right. split; [eauto | assumption]. Qed.
Lemma decides_bind r1 r2 (P1 P2 : Prop) : decides r1 P1 -> decides r2 P2 -> decides (_ <- r1 ;; r2) (P1 /\ P2).
Proof.
  intros [[-> H1]|[[e ->] H1]] H2; cbn [bind].
  - eapply decides_iff; [|exact H2]. tauto.
  - apply decides_err. tauto.
Qed.
Lemma decides_if (c : bool) e r (P Q : Prop) : (c = true -> ~ Q) -> (c = false -> decides r P) -> (c = false -> (P <-> Q)) ->
  decides (if c then Err e else r) Q.
Proof.
  destruct c; intros H1 H2 H3.
  - apply decides_err. auto.
  - eapply decides_iff; [apply H3 | apply H2]; reflexivity.
Qed.
Lemma decides_ok_iff r (P : Prop) : decides r P -> (r = Ok tt <-> P).
Proof. intros [[-> H]|[[e ->] H]]; split; intro H'; [assumption | reflexivity | discriminate H' | contradiction]. Qed.
Lemma decides_is_ok r (P : Prop) : decides r P -> (is_ok r = true <-> P).
Proof. intros [[-> H]|[[e ->] H]]; cbn [is_ok]; intuition discriminate. Qed.
Lemma decides_same r r' (P : Prop) : decides r P -> decides r' P -> is_ok r = is_ok r'.
Proof. intros D D'. apply decides_is_ok in D, D'. destruct (is_ok r), (is_ok r'); intuition congruence. Qed.

Lemma lookup_tag {A} tag (l : list A) i x : lookup tag l i = Some x -> id_tag i = tag.
Proof. unfold lookup. destruct (id_tag i =? tag) eqn:E; [|discriminate]. intros _. now apply N.eqb_eq. Qed.
Lemma lookup_same_tag {A B ta tb} {la : list A} {lb : list B} {i x y} :
  lookup ta la i = Some x -> lookup tb lb i = Some y -> ta = tb.
Proof. intros Ea Eb. apply lookup_tag in Ea, Eb. congruence. Qed.

Lemma all_some_length {A} (l : list (option A)) l' : all_some l = Some l' -> length l' = length l.
Proof.
  revert l'; induction l as [|[x|] l IH]; intros l'; cbn [all_some]; try discriminate.
  - intros H; injection H as <-; reflexivity.
  - destruct (all_some l) as [r|]; [|discriminate]. intros H; injection H as <-. cbn. f_equal. now apply IH.
Qed.
Lemma map_snd_length {K A B} (U : A -> option B) (l : list (K * A)) l' : map_snd U l = Some l' -> length l' = length l.
Proof. unfold map_snd. intro H. apply all_some_length in H. now rewrite map_length in H. Qed.


Lemma decides_map {A B} (C : A -> B) {r} {o o' : option A} {ta tb} :
  (forall x y, C x = C y -> x = y) -> option_map C o = Some ta -> option_map C o' = Some tb ->
  (forall x y, o = Some x -> o' = Some y -> decides r (x = y)) -> decides r (ta = tb).
Proof.
  intros Hinj Ha Hb H. destruct o as [x|]; [|discriminate]. destruct o' as [y|]; [|discriminate].
  injection Ha as <-. injection Hb as <-. eapply decides_iff; [|apply (H x y eq_refl eq_refl)].
  split; [congruence | apply Hinj].
Qed.

Lemma zip_rule_spec {A B} (V V' : A -> option B) (step : A -> A -> R unit) (loop : list A -> list A -> R unit) :
  (forall a b, loop a b = match a, b with x :: a', y :: b' => _ <- step x y ;; loop a' b' | _, _ => ok end) ->
  (forall x y tx ty, V x = Some tx -> V' y = Some ty -> decides (step x y) (tx = ty)) ->
  forall a b la lb, all_some (map V a) = Some la -> all_some (map V' b) = Some lb -> length a = length b ->
  decides (loop a b) (la = lb).
Proof.
  intros Hloop Hstep. induction a as [|x a IH]; intros [|y b] la lb Ha Hb Hl; try discriminate; rewrite Hloop.
  - injection Ha as <-. injection Hb as <-. now apply decides_ok.
  - cbn [map all_some] in Ha, Hb.
    destruct (V x) as [tx|] eqn:Ex; [|discriminate]. destruct (all_some (map V a)) as [la'|]; [|discriminate].
    destruct (V' y) as [ty|] eqn:Ey; [|discriminate]. destruct (all_some (map V' b)) as [lb'|] eqn:Eb; [|discriminate].
    injection Ha as <-. injection Hb as <-. injection Hl as Hl.
    eapply decides_iff; [|apply decides_bind; [apply (Hstep _ _ _ _ Ex Ey) | apply (IH b la' lb' eq_refl Eb Hl)]].
    split; [intros [-> ->]; reflexivity | intros H; now injection H].
Qed.
Lemma checked_zip_spec {A B} (V V' : A -> option B) step loop e :
  (forall a b, loop a b = match a, b with x :: a', y :: b' => _ <- step x y ;; loop a' b' | _, _ => ok end) ->
  (forall x y tx ty, V x = Some tx -> V' y = Some ty -> decides (step x y) (tx = ty)) ->
  forall a b la lb, all_some (map V a) = Some la -> all_some (map V' b) = Some lb ->
  decides (if negb (Nat.eqb (length a) (length b)) then Err e else loop a b) (la = lb).
Proof.
  intros Hloop Hstep a b la lb Ha Hb. destruct (Nat.eqb_spec (length a) (length b)) as [E|E]; cbn [negb].
  - now apply (zip_rule_spec V V' step).
  - apply decides_err. intros ->. apply E. apply all_some_length in Ha, Hb. rewrite map_length in Ha, Hb. congruence.
Qed.

(** The second and third premise are the function that [map_snd] maps with, at [x] and [y]. *)
Lemma named_rule_spec {A B} (U U' : A -> option B) (r : R unit) e (x y : str * A) tx ty :
  (forall tu tv, U (snd x) = Some tu -> U' (snd y) = Some tv -> decides r (tu = tv)) ->
  match U (snd x) with Some t => Some (fst x, t) | None => None end = Some tx ->
  match U' (snd y) with Some t => Some (fst y, t) | None => None end = Some ty ->
  decides (if negb (str_eqb (fst x) (fst y)) then Err e else r) (tx = ty).
Proof.
  intros H Hx Hy. destruct (U (snd x)) as [tu|]; [|discriminate]. destruct (U' (snd y)) as [tv|]; [|discriminate].
  injection Hx as <-. injection Hy as <-. apply (decides_if _ e r (tu = tv)).
  - intros E H'. injection H' as E' _. apply str_eqb_eq in E'. rewrite E' in E. discriminate.
  - intros _. now apply H.
  - intros E. apply negb_false_iff, str_eqb_eq in E. split; [congruence | intros H'; now injection H'].
Qed.

(** What [f] answers when one side is missing may depend on more than the two options (in [func] it is read off the two
    function types), so it is asked for the actual pair only. *)
Lemma opt_rule_spec {A B} (U U' : A -> option B) (rec : A -> A -> R unit) (f : option A -> option A -> R unit) :
  (forall u v tu tv, U u = Some tu -> U' v = Some tv -> decides (rec u v) (tu = tv)) ->
  f None None = ok -> (forall x y, f (Some x) (Some y) = rec x y) ->
  forall o p, (forall x, o = Some x -> p = None -> exists e, f o p = Err e) ->
              (forall y, o = None -> p = Some y -> exists e, f o p = Err e) ->
  forall o' p', omap U o = Some o' -> omap U' p = Some p' -> decides (f o p) (o' = p').
Proof.
  intros Hrec H00 H11 [u|] [v|] H10 H01 o' p'; cbn [omap]; intros Ho Hp.
  - destruct (U u) as [tu|] eqn:Eu; [|discriminate]. destruct (U' v) as [tv|] eqn:Ev; [|discriminate].
    injection Ho as <-. injection Hp as <-. rewrite H11.
    eapply decides_iff; [|apply (Hrec _ _ _ _ Eu Ev)]. split; [congruence | intros H; now injection H].
  - destruct (U u); [|discriminate]. injection Ho as <-. injection Hp as <-.
    destruct (H10 u eq_refl eq_refl) as [e ->]. apply decides_err; discriminate.
  - destruct (U' v); [|discriminate]. injection Ho as <-. injection Hp as <-.
    destruct (H01 v eq_refl eq_refl) as [e ->]. apply decides_err; discriminate.
  - injection Ho as <-. injection Hp as <-. rewrite H00. now apply decides_ok.
Qed.

(** the head constructor of a value tree as a number; [dhead] (below) numbers the [deftype] constructors alike,
    [DAlias] apart *)
Definition vhead (t : vtree) : N :=
  match t with
  | VTPrim _ => 0 | VTBorrow _ => 1 | VTOwn _ => 2 | VTTuple _ => 3 | VTList _ => 4 | VTFsl _ _ => 5 | VTOption _ => 6
  | VTResult _ _ => 7 | VTVariant _ => 8 | VTRecord _ => 9 | VTFlags _ => 10 | VTEnum _ => 11 | VTStream _ => 12
  | VTFuture _ => 13
  end.

Lemma mismatch_err {X} k (d : types -> X -> R desc) a at_ b bt :
  (exists D, d at_ a = Ok D) -> (exists D, d bt b = Ok D) -> exists e, mismatch k d a at_ b bt = (Err e : R unit).
Proof. intros [D E] [D' E']. unfold mismatch. destruct k; cbn [ef2]; rewrite E, E'; cbn [bind]; eauto. Qed.

Section Value.
  Variables at_ bt : types.
  Hypothesis same : t_tag at_ = t_tag bt -> at_ = bt.

  Definition nonalias (t : types) (v : valtype) : Prop :=
    match v with
    | VDefined d => exists x, get_def t d = Some x /\ forall y, x <> DAlias y
    | _ => True
    end.

  Lemma resolve_vt_spec t g : forall F v tr, (g <= F)%nat -> unfold_vt g t v = Some tr ->
    exists v', resolve_vt F t v = Ok v' /\ unfold_vt g t v' = Some tr /\ nonalias t v'.
  Proof.
    induction g as [|g IH]; intros F v tr HF Hu; [discriminate|].
    destruct F as [|F]; [lia|].
    destruct v as [p|r|r|d]; try (exists (VPrim p) + exists (VBorrow r) + exists (VOwn r); cbn [resolve_vt nonalias]; auto; fail).
    rewrite unfold_vt_eq in Hu. cbn [unfold_vt_body] in Hu. cbn [resolve_vt].
    destruct (get_def t d) as [x|] eqn:E; [|discriminate]. cbn [idx bind].
    destruct x; try (exists (VDefined d); split; [reflexivity|]; split;
                     [rewrite unfold_vt_eq; cbn [unfold_vt_body]; rewrite E; exact Hu
                     | cbn [nonalias]; eexists; split; [exact E | intros y; discriminate]]; fail).
    destruct (IH F v tr ltac:(lia) Hu) as [v' [H1 [H2 H3]]]. exists v'. split; [exact H1|]. split; [|exact H3].
    now apply unfold_vt_S.
  Qed.

  Lemma resolve_res_spec t g : forall F r n, (g <= F)%nat -> res_name_of g t r = Some n ->
    exists r' x, resolve_res F t r = Ok r' /\ get_res t r' = Some x /\ res_name x = n.
  Proof.
    induction g as [|g IH]; intros F r n HF Hu; [discriminate|].
    destruct F as [|F]; [lia|]. cbn [res_name_of] in Hu. cbn [resolve_res].
    destruct (get_res t r) as [x|] eqn:E; [|discriminate]. cbn [idx bind].
    destruct (res_source x) as [s|].
    - apply (IH F s n ltac:(lia) Hu).
    - exists r, x. injection Hu as <-. auto.
  Qed.

  Lemma resource_spec g F k a b na nb : (g <= F)%nat ->
    res_name_of g at_ a = Some na -> res_name_of g bt b = Some nb -> decides (resource F k at_ a bt b) (na = nb).
  Proof.
    intros HF Ha Hb. unfold resource. destruct (id_eqb a b) eqn:E.
    - apply ideqb_eq in E as <-. apply decides_ok.
      assert (Et : at_ = bt).
      { destruct g as [|g]; [discriminate|]. cbn [res_name_of] in Ha, Hb.
        destruct (get_res at_ a) eqn:E1; [|discriminate]. destruct (get_res bt a) eqn:E2; [|discriminate].
        exact (same (lookup_same_tag E1 E2)). }
      rewrite <- Et in Hb. congruence.
    - destruct (resolve_res_spec at_ g F a na HF Ha) as [ra [xa [H1 [H2 H3]]]].
      destruct (resolve_res_spec bt g F b nb HF Hb) as [rb [xb [H4 [H5 H6]]]].
      rewrite H1. cbn [bind]. rewrite H2. cbn [idx bind]. rewrite H4. cbn [bind]. rewrite H5. cbn [idx bind].
      subst. destruct (str_eqb (res_name xa) (res_name xb)) eqn:En.
      + apply decides_ok. now apply str_eqb_eq.
      + apply decides_err. now apply str_eqb_neq.
  Qed.

  Section Rules.
    Variable rec : valtype -> valtype -> R unit.
    Variable k : variance.
    Variables U U' : valtype -> option vtree.
    Hypothesis Hrec : forall u v tu tv, U u = Some tu -> U' v = Some tv -> decides (rec u v) (tu = tv).

    Lemma tuple_spec x y lx ly :
      all_some (map U x) = Some lx -> all_some (map U' y) = Some ly -> decides (tuple rec x y) (lx = ly).
    Proof. apply (checked_zip_spec U U' rec); [intros [|] [|]; reflexivity | exact Hrec]. Qed.

    Lemma record_spec x y lx ly :
      map_snd U x = Some lx -> map_snd U' y = Some ly -> decides (record rec x y) (lx = ly).
    Proof.
      apply (checked_zip_spec _ _ (fun a b => if negb (str_eqb (fst a) (fst b)) then Err ERecordName else rec (snd a) (snd b))).
      - intros [|[an u] a] [|[bn v] b]; try reflexivity. cbn [record_fields fst snd]. now destruct (negb _).
      - intros a b ta tb. apply named_rule_spec. apply Hrec.
    Qed.

    Lemma variant_payload_spec o p o' p' :
      omap U o = Some o' -> omap U' p = Some p' -> decides (variant_payload rec k o p) (o' = p').
    Proof. apply (opt_rule_spec U U' rec); auto; intros ? -> ->; destruct k; eexists; reflexivity. Qed.
    Lemma result_arm_spec okarm o p o' p' :
      omap U o = Some o' -> omap U' p = Some p' -> decides (result_arm rec k okarm o p) (o' = p').
    Proof. apply (opt_rule_spec U U' rec); auto; intros ? -> ->; destruct k; eexists; reflexivity. Qed.
    Lemma payload_spec o p o' p' :
      omap U o = Some o' -> omap U' p = Some p' -> decides (payload rec o p) (o' = p').
    Proof. apply (opt_rule_spec U U' rec); auto; intros ? -> ->; eexists; reflexivity. Qed.

    Lemma variant_spec x y lx ly :
      map_snd (omap U) x = Some lx -> map_snd (omap U') y = Some ly -> decides (variant rec k x y) (lx = ly).
    Proof.
      apply (checked_zip_spec _ _ (fun a b => if negb (str_eqb (fst a) (fst b)) then Err EVariantName
                                              else variant_payload rec k (snd a) (snd b))).
      - intros [|[an u] a] [|[bn v] b]; try reflexivity. cbn [variant_cases fst snd]. now destruct (negb _).
      - intros a b ta tb. apply named_rule_spec. apply variant_payload_spec.
    Qed.
  End Rules.

  Lemma names_differ_spec : forall a b, length a = length b -> (names_differ a b = false <-> a = b).
  Proof.
    induction a as [|x a IH]; intros [|y b] Hl; cbn [length] in Hl; try discriminate; cbn [names_differ].
    - tauto.
    - rewrite orb_false_iff, negb_false_iff, str_eqb_eq, IH by now injection Hl.
      split; [intros [-> ->]; reflexivity | intros H; injection H; auto].
  Qed.
  (** [enum_type] and [flags] differ in their two error classes only. *)
  Lemma names_rule_spec e1 e2 a b :
    decides (if negb (Nat.eqb (length a) (length b)) then Err e1 else if names_differ a b then Err e2 else ok) (a = b).
  Proof.
    destruct (Nat.eqb_spec (length a) (length b)) as [E|E]; cbn [negb]; [|apply decides_err; congruence].
    pose proof (names_differ_spec a b E) as H. destruct (names_differ a b).
    - apply decides_err. intro Eq. apply H in Eq. discriminate.
    - apply decides_ok. now apply H.
  Qed.

  Lemma primitive_spec k p q : decides (primitive k p q) (VTPrim p = VTPrim q).
  Proof.
    unfold primitive. destruct (prim_eqb p q) eqn:E.
    - apply primeqb_eq in E as ->. now apply decides_ok.
    - destruct k; cbn [ef]; apply decides_err; intro H; injection H as ->; rewrite primeqb_refl in E; discriminate.
  Qed.

  Definition dhead (d : deftype) : N :=
    match d with
    | DTuple _ => 3 | DList _ => 4 | DFsl _ _ => 5 | DOption _ => 6 | DResult _ _ => 7 | DVariant _ => 8 | DRecord _ => 9
    | DFlags _ => 10 | DEnum _ => 11 | DStream _ => 12 | DFuture _ => 13 | DAlias _ => 14
    end.

  (** inversion of [option_map]/[match] shaped equations down to the head constructor *)
  Ltac inv_some H :=
    repeat match type of H with
           | option_map _ ?o = Some _ => destruct o; cbn [option_map] in H; [|discriminate H]
           | match ?o with _ => _ end = Some _ => destruct o; [|discriminate H]
           end;
    try (injection H as <-).

  Lemma def_head {U rn t x d ta} : get_def t x = Some d -> (forall z, d <> DAlias z) ->
    unfold_vt_body U rn t (VDefined x) = Some ta -> vhead ta = dhead d.
  Proof.
    intros E Hn H. cbn [unfold_vt_body] in H. rewrite E in H.
    destruct d; try (destruct (Hn _ eq_refl)); inv_some H; reflexivity.
  Qed.
  Lemma mismatch_def k F t d t' d' : (forall z, d <> DAlias z) -> (forall z, d' <> DAlias z) ->
    exists e, mismatch k (desc_def F) d t d' t' = (Err e : R unit).
  Proof.
    assert (H : forall t d, (forall z, d <> DAlias z) -> exists D, desc_def F t d = Ok D).
    { intros t0 d0 H0. destruct d0; try (eexists; reflexivity). destruct (H0 _ eq_refl). }
    intros Hn Hn'. apply mismatch_err; now apply H.
  Qed.

  Lemma defined_type_spec rec k dfuel U U' rn rn' x y da db ta tb :
    (forall u v tu tv, U u = Some tu -> U' v = Some tv -> decides (rec u v) (tu = tv)) ->
    get_def at_ x = Some da -> get_def bt y = Some db -> (forall z, da <> DAlias z) -> (forall z, db <> DAlias z) ->
    unfold_vt_body U rn at_ (VDefined x) = Some ta -> unfold_vt_body U' rn' bt (VDefined y) = Some tb ->
    (id_eqb x y = true -> ta = tb) ->
    decides (defined_type rec k dfuel at_ x bt y) (ta = tb).
  Proof.
    intros Hrec Ex Ey Hna Hnb Hta Htb Hid. unfold defined_type.
    destruct (id_eqb x y); [apply decides_ok; auto|]. clear Hid.
    rewrite Ex, Ey. cbn [idx bind].
    pose proof (def_head Ex Hna Hta) as Ha. pose proof (def_head Ey Hnb Htb) as Hb.
    destruct (mismatch_def k dfuel at_ da bt db Hna Hnb) as [e He].
    cbn [unfold_vt_body] in Hta, Htb. rewrite Ex in Hta. rewrite Ey in Htb.
    destruct da; try (destruct (Hna _ eq_refl)); destruct db; try (destruct (Hnb _ eq_refl));
      try (rewrite He; apply decides_err; intro E; rewrite E, Hb in Ha; discriminate Ha); clear Ha Hb He.
    - apply (decides_map VTTuple ltac:(now injection 1) Hta Htb), (tuple_spec rec U U' Hrec).
    - apply (decides_map VTList ltac:(now injection 1) Hta Htb), Hrec.
    - destruct (N.eqb_spec n n0) as [<-|En]; cbn [negb].
      + apply (decides_map (fun t => VTFsl t n) ltac:(now injection 1) Hta Htb), Hrec.
      + apply decides_err. inv_some Hta. inv_some Htb. congruence.
    - apply (decides_map VTOption ltac:(now injection 1) Hta Htb), Hrec.
    - destruct (omap U ok) as [o1|] eqn:E1; [|discriminate]. destruct (omap U err) as [e1|] eqn:E2; [|discriminate].
      destruct (omap U' ok0) as [o2|] eqn:E3; [|discriminate]. destruct (omap U' err0) as [e2|] eqn:E4; [|discriminate].
      injection Hta as <-. injection Htb as <-.
      eapply decides_iff; [|apply decides_bind; [apply (result_arm_spec rec k U U' Hrec true _ _ _ _ E1 E3)
                                                | apply (result_arm_spec rec k U U' Hrec false _ _ _ _ E2 E4)]].
      split; [intros [-> ->]; reflexivity | intros H; injection H; auto].
    - apply (decides_map VTVariant ltac:(now injection 1) Hta Htb), (variant_spec rec k U U' Hrec).
    - apply (decides_map VTRecord ltac:(now injection 1) Hta Htb), (record_spec rec U U' Hrec).
    - injection Hta as <-. injection Htb as <-.
      eapply decides_iff; [|apply names_rule_spec]. split; [congruence | intros H; now injection H].
    - injection Hta as <-. injection Htb as <-.
      eapply decides_iff; [|apply names_rule_spec]. split; [congruence | intros H; now injection H].
    - apply (decides_map VTStream ltac:(now injection 1) Hta Htb), (payload_spec rec U U' Hrec).
    - apply (decides_map VTFuture ltac:(now injection 1) Hta Htb), (payload_spec rec U U' Hrec).
  Qed.

  Lemma desc_vt_nonalias t F v : nonalias t v -> exists D, desc_vt (S F) t v = Ok D.
  Proof.
    destruct v as [p|r|r|d]; cbn [desc_vt nonalias]; try (eexists; reflexivity).
    intros [x [E Hx]]. rewrite E. cbn [idx bind]. destruct x; try (eexists; reflexivity). exfalso. eapply Hx. reflexivity.
  Qed.

  Lemma body_head {U rn t v ta} : nonalias t v -> unfold_vt_body U rn t v = Some ta ->
    match v with VPrim _ => vhead ta = 0 | VBorrow _ => vhead ta = 1 | VOwn _ => vhead ta = 2
            | VDefined _ => (3 <= vhead ta <= 13)%N end.
  Proof.
    destruct v as [p|r|r|x]; intros Hn H; try (cbn [unfold_vt_body] in H; inv_some H; reflexivity).
    destruct Hn as [d [E Hd]]. rewrite (def_head E Hd H). destruct d; try (destruct (Hd _ eq_refl)); cbn [dhead]; lia.
  Qed.

  Lemma value_type_spec g : forall F k a b ta tb, (g <= F)%nat ->
    unfold_vt g at_ a = Some ta -> unfold_vt g bt b = Some tb -> decides (value_type F k at_ a bt b) (ta = tb).
  Proof.
    induction g as [|g IH]; intros F k a b ta tb HF Ha Hb; [discriminate|].
    destruct F as [|F]; [lia|].
    destruct (resolve_vt_spec at_ (S g) (S F) a ta HF Ha) as [a' [Ra [Ua Na]]].
    destruct (resolve_vt_spec bt (S g) (S F) b tb HF Hb) as [b' [Rb [Ub Nb]]].
    cbn [value_type]. rewrite Ra, Rb. cbn [bind].
    rewrite unfold_vt_eq in Ua, Ub.
    assert (Hmis : vhead ta <> vhead tb -> decides (mismatch k (desc_vt (S F)) a' at_ b' bt) (ta = tb)).
    { intros Hh. destruct (mismatch_err k (desc_vt (S F)) a' at_ b' bt) as [e ->]; [now apply desc_vt_nonalias ..|].
      apply decides_err; congruence. }
    pose proof (body_head Na Ua) as Ha'. pose proof (body_head Nb Ub) as Hb'.
    destruct a' as [p|r|r|x], b' as [q|s|s|y]; try (apply Hmis; lia); clear Hmis Ha' Hb'.
    - cbn [unfold_vt_body] in Ua, Ub. injection Ua as <-. injection Ub as <-. apply primitive_spec.
    - apply (decides_map VTBorrow ltac:(now injection 1) Ua Ub). intros; now apply (resource_spec (S g)).
    - apply (decides_map VTOwn ltac:(now injection 1) Ua Ub). intros; now apply (resource_spec (S g)).
    - destruct Na as [da [Ea Hna]]. destruct Nb as [db [Eb Hnb]].
      eapply (defined_type_spec _ k (S F) (unfold_vt g at_) (unfold_vt g bt) _ _ x y da db ta tb); try eassumption.
      + intros u v tu tv Hu Hv. apply (IH F k u v tu tv); [now apply le_S_n | assumption | assumption].
      + intro Hid. apply ideqb_eq in Hid. subst y.
        pose proof (same (lookup_same_tag Ea Eb)) as Et.
        rewrite <- Et in Ub. congruence.
  Qed.
End Value.
