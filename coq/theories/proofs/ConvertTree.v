(** [convert_tree_faithful_partial] (props/C08.v; [tree_faithful_holds] in ConvertEntity.v): on the resource-free
    fragment, every kind produced by the conversion unfolds to exactly the tree the validator entity denotes
    ([ConvertSpec.spec_tree]).

    Invariant.  Every cache entry denotes its validator identifier, ROBUSTLY: in every collection that [agree]s
    with the current one except on the slots under construction ([O]).  Robustness makes the frame reasoning
    trivial: whatever later steps do (append to the arenas, fill the open slots, reset owners) produces a
    collection related by [agree O], and [agree] is transitive. *)
From WacV Require Import Str ListFacts Types CheckerEq CheckerValue CheckerProofs Convert ConvertSpec ConvertProofs ConvertFrame.
Set Warnings "-unused-intro-pattern".

(** Refinement: what a specification yields at some fuel, a monotone denotation yields at some fuel. *)
Definition mono {B T} (U : nat -> B -> option T) : Prop :=
  forall f f' x y, (f <= f')%nat -> U f x = Some y -> U f' x = Some y.

Definition orel {A B} (R : A -> B -> Prop) (a : option A) (b : option B) : Prop :=
  match a, b with
  | None, None => True
  | Some x, Some y => R x y
  | _, _ => False
  end.

Section Refine.
  Context {A B T : Type}.
  Variable S : nat -> A -> option T.
  Variable U : nat -> B -> option T.
  Hypothesis HU : mono U.
  Definition refines (a : A) (b : B) : Prop := forall fuel tr, S fuel a = Some tr -> exists f', U f' b = Some tr.

  Lemma omap_refine o1 o2 fuel r : orel refines o1 o2 -> omap (S fuel) o1 = Some r -> exists F, omap (U F) o2 = Some r.
  Proof.
    destruct o1 as [a|], o2 as [b|]; cbn [orel omap]; try contradiction.
    - intros Hab. destruct (S fuel a) as [x|] eqn:Ea; [|discriminate]. intro E. injection E as <-.
      destruct (Hab _ _ Ea) as [f1 H1]. exists f1. now rewrite H1.
    - intros _ E. exists 0%nat. exact E.
  Qed.

  Lemma map_snd_refine {K} fuel : forall (l1 : list (K * A)) (l2 : list (K * B)) l,
    Forall2 (fun a b => fst a = fst b /\ refines (snd a) (snd b)) l1 l2 -> map_snd (S fuel) l1 = Some l ->
    exists F, map_snd (U F) l2 = Some l.
  Proof.
    unfold map_snd.
    induction l1 as [|[k a] l1 IH]; intros l2 l H; inversion H as [|? [k' b] ? l2' [Hk Hab] Hrest]; subst; cbn [map all_some fst snd] in *.
    - intro E. injection E as <-. exists 0%nat. reflexivity.
    - subst k'. destruct (S fuel a) as [x|] eqn:Ea; [|discriminate].
      match goal with |- context [all_some (map ?F l1)] => destruct (all_some (map F l1)) as [r|] eqn:Er; [|discriminate] end.
      intro E. injection E as <-.
      destruct (Hab _ _ Ea) as [f1 H1]. destruct (IH _ _ Hrest eq_refl) as [f2 H2].
      exists (Nat.max f1 f2). rewrite (HU f1 _ _ _ (Nat.le_max_l _ _) H1).
      assert (He : ext_some (U f2) (U (Nat.max f1 f2))) by (intros x' y'; apply HU; apply Nat.le_max_r).
      fold (map_snd (U f2) l2') in H2. apply (map_snd_ext _ _ _ _ He) in H2. unfold map_snd in H2. now rewrite H2.
  Qed.

  (** a list is a list of pairs with trivial keys *)
  Lemma all_some_refine fuel l1 l2 l :
    Forall2 refines l1 l2 -> all_some (map (S fuel) l1) = Some l -> exists F, all_some (map (U F) l2) = Some l.
  Proof.
    revert l2 l. induction l1 as [|a l1 IH]; intros l2 l H; inversion H as [|? b ? l2' Hab Hrest]; subst; cbn [map all_some].
    - intro E. injection E as <-. exists 0%nat. reflexivity.
    - destruct (S fuel a) as [x|] eqn:Ea; [|discriminate].
      destruct (all_some (map (S fuel) l1)) as [r|] eqn:Er; [|discriminate]. intro E. injection E as <-.
      destruct (Hab _ _ Ea) as [f1 H1]. destruct (IH _ _ Hrest eq_refl) as [f2 H2].
      exists (Nat.max f1 f2). rewrite (HU f1 _ _ _ (Nat.le_max_l _ _) H1).
      assert (He : ext_some (U f2) (U (Nat.max f1 f2))) by (intros x' y'; apply HU; apply Nat.le_max_r).
      now rewrite (all_some_map_ext _ _ _ _ He H2).
  Qed.
End Refine.

Lemma mono_omap {B T} (U : nat -> B -> option T) : mono U -> mono (fun f => omap (U f)).
Proof. intros H f f' x y Hle. apply omap_ext. intros a b. now apply H. Qed.

Lemma mono_unfold_vt t : mono (fun f => unfold_vt f t).
Proof. intros f f' x y. apply unfold_vt_mono. Qed.
Lemma mono_unfold t : mono (fun f => unfold f t).
Proof. intros f f' x y. apply unfold_mono. Qed.

Section Tree.
  Variable g : vgraph.

  Definition den_val (t : types) (v : vval) (x : valtype) : Prop :=
    forall fuel tr, spec_vt fuel g v = Some tr -> exists f', unfold_vt f' t x = Some tr.
  Definition den_func (t : types) (v : vid) (i : id) : Prop :=
    forall fuel ft, spec_ft fuel g v = Some ft -> exists f', unfold_func f' t i = Some ft.
  Definition den_ent (t : types) (e : vent) (k : kind) : Prop :=
    forall fuel tr, spec_tree fuel g e = Some tr -> exists f', unfold f' t k = Some tr.
  Definition den_inst (t : types) (v : vid) (i : id) : Prop :=
    forall fuel l, spec_inst (spec_tree fuel g) g v = Some l -> exists f', unfold_inst (unfold f' t) t i = Some l.
  Definition den_comp (t : types) (v : vid) (w : id) : Prop :=
    forall fuel ie, spec_comp (spec_tree fuel g) g v = Some ie -> exists f', unfold_comp (unfold f' t) t w = Some ie.
  Definition den_mod (t : types) (v : vid) (m : id) : Prop :=
    forall mt, spec_mod g v = Some mt -> get_mod t m = Some mt.

  Definition den (t : types) (v : vid) (e : entity) : Prop :=
    match e with
    | EnType (TValue x) => den_val t (WRef v) x
    | EnType (TFunc i) => den_func t v i
    | EnType (TInterface i) => den_inst t v i
    | EnType (TWorld w) => den_comp t v w
    | EnType (TModule m) => den_mod t v m
    | _ => True
    end.

  Definition rob (O : list slot) (t : types) (P : types -> Prop) : Prop := forall t', agree O t t' -> P t'.
  Definition cache_ok (O : list slot) (s : cstate) : Prop :=
    forall v e, nassoc v (cs_cache s) = Some e -> rob O (cs_types s) (fun t' => den t' v e).

  Lemma rob_step O t t1 P : agree O t t1 -> rob O t P -> rob O t1 P.
  Proof. intros A H t' A'. apply H. eapply agree_trans; eassumption. Qed.
  Lemma rob_step_nil O t t1 P : agree [] t t1 -> rob O t P -> rob O t1 P.
  Proof. intro A. apply rob_step. now apply agree_nil. Qed.
  Lemma rob_here O t (P : types -> Prop) : rob O t P -> P t.
  Proof. intro H. apply H. apply agree_refl. Qed.

  Lemma cache_ok_step O s s' :
    cs_cache s' = cs_cache s -> agree O (cs_types s) (cs_types s') -> cache_ok O s -> cache_ok O s'.
  Proof. intros Hc A H v e Hv. rewrite Hc in Hv. eapply rob_step; [exact A | exact (H v e Hv)]. Qed.
  Lemma cache_ok_put O s v e : cache_ok O s -> rob O (cs_types s) (fun t' => den t' v e) -> cache_ok O (cache_put s v e).
  Proof.
    intros H Hd w e'. unfold cache_put. cbn [cs_cache cs_types nassoc].
    destruct (Nat.eqb w v) eqn:E; [|apply H]. apply Nat.eqb_eq in E. subst. intro X. injection X as <-. exact Hd.
  Qed.

  (** the open slots exist; the cache is consistent *)
  Definition pre (O : list slot) (s : cstate) : Prop := slots_ok O (cs_types s) /\ cache_ok O s.
  Lemma pre_step O s s' :
    cs_cache s' = cs_cache s -> agree O (cs_types s) (cs_types s') -> pre O s -> pre O s'.
  Proof. intros Hc A [H1 H2]. split; [eapply slots_ok_agree; eassumption | eapply cache_ok_step; eassumption]. Qed.
  Lemma pre_step_nil O s s' :
    cs_cache s' = cs_cache s -> agree [] (cs_types s) (cs_types s') -> pre O s -> pre O s'.
  Proof. intros Hc A. apply pre_step; [exact Hc | now apply agree_nil]. Qed.
  Lemma pre_put O s v e : pre O s -> rob O (cs_types s) (fun t' => den t' v e) -> pre O (cache_put s v e).
  Proof. intros [H1 H2] Hd. split; [exact H1 | now apply cache_ok_put]. Qed.
  Lemma pre_alloc_put O s s1 v e :
    cs_cache s1 = cs_cache s -> agree [] (cs_types s) (cs_types s1) -> pre O s -> rob O (cs_types s1) (fun t' => den t' v e) ->
    pre O (cache_put s1 v e).
  Proof. intros Hc A P D. apply pre_put; [eapply pre_step_nil; eassumption | exact D]. Qed.

  Definition fn_ok {R} (F : cstate -> cres (R * cstate)) (D : types -> R -> Prop) : Prop :=
    forall O s r s', pre O s -> F s = COk (r, s') ->
      agree [] (cs_types s) (cs_types s') /\ pre O s' /\ rob O (cs_types s') (fun t' => D t' r).

  Lemma mapM_ok {A B} (f : A -> cstate -> cres (B * cstate)) (D : types -> A -> B -> Prop) :
    (forall a, fn_ok (f a) (fun t' b => D t' a b)) ->
    forall l, fn_ok (mapM f l) (fun t' bs => Forall2 (D t') l bs).
  Proof.
    intros Hf. induction l as [|a l IH]; intros O s r s' Hc H; cbn [mapM] in H.
    - injection H as <- <-. split; [apply agree_refl|]. split; [assumption|]. intros t' _. constructor.
    - inv_bind H as [y s1] H1. inv_bind H as [ys s2] H2. injection H as <- <-.
      destruct (Hf a O s y s1 Hc H1) as [A1 [C1 D1]]. destruct (IH O s1 ys s2 C1 H2) as [A2 [C2 D2]].
      split; [eapply agree_trans; eassumption|]. split; [assumption|].
      intros t' A'. constructor; [|now apply D2]. apply D1. exact (agree_nil_trans _ _ _ _ A2 A').
  Qed.
  Lemma optM_ok {A B} (f : A -> cstate -> cres (B * cstate)) (D : types -> A -> B -> Prop) :
    (forall a, fn_ok (f a) (fun t' b => D t' a b)) ->
    forall o, fn_ok (optM f o) (fun t' o' => orel (D t') o o').
  Proof.
    intros Hf [a|] O s r s' Hc H; cbn [optM] in H.
    - inv_bind H as [y s1] H1. injection H as <- <-. destruct (Hf a O s y s1 Hc H1) as [A1 [C1 D1]].
      split; [assumption|]. split; [assumption|]. exact D1.
    - injection H as <- <-. split; [apply agree_refl|]. split; [assumption|]. intros t' _. exact I.
  Qed.
  Lemma named_ok {K A B} (f : A -> cstate -> cres (B * cstate)) (D : types -> A -> B -> Prop) :
    (forall a, fn_ok (f a) (fun t' b => D t' a b)) ->
    forall kv : K * A, fn_ok (named f kv) (fun t' kb => fst kv = fst kb /\ D t' (snd kv) (snd kb)).
  Proof.
    intros Hf kv O s r s' Hc H. unfold named in H. inv_bind H as [y s1] H1. injection H as <- <-.
    destruct (Hf _ O s y s1 Hc H1) as [A1 [C1 D1]]. split; [assumption|]. split; [assumption|].
    intros t' A'. cbn [fst snd]. split; [reflexivity|]. now apply D1.
  Qed.

  Lemma mk_def_ok O s d v s' (P : types -> Prop) :
    pre O s -> mk_def d s = COk (v, s') ->
    (forall i t', v = VDefined i -> get_def t' i = Some d -> agree O (cs_types s) t' -> P t') ->
    agree [] (cs_types s) (cs_types s') /\ pre O s' /\ rob O (cs_types s') P.
  Proof.
    intros Hc H HP. unfold mk_def, add_def in H. injection H as <- <-. cbn [cs_types with_types].
    set (t1 := mktypes _ _ _ _ _ _ _).
    assert (A1 : agree [] (cs_types s) t1) by (apply (agree_add_def (cs_types s) d)).
    split; [exact A1|]. split.
    - apply (pre_step_nil O s (with_types s t1)); [reflexivity | exact A1 | exact Hc].
    - intros t' A'. eapply HP; [reflexivity | | exact (agree_nil_trans _ _ _ _ A1 A')].
      apply (agree_get_def _ _ _ A'). unfold get_def, t1. cbn [t_tag t_defined]. apply lookup_new.
  Qed.

  Lemma den_val_prim t p : den_val t (WPrim p) (VPrim p).
  Proof. intros [|f] tr; [discriminate|]. cbn. intro H. exists 1%nat. exact H. Qed.

  Section DefBody.
    Variable R : vid -> cstate -> cres (valtype * cstate).
    Hypothesis HR : forall d, fn_ok (R d) (fun t' x => den_val t' (WRef d) x).

    Lemma val_body_ok v : fn_ok (val_body R v) (fun t' x => den_val t' v x).
    Proof.
      destruct v as [p|d]; [|apply HR]. intros O s r s' Hc H. cbn [val_body] in H. injection H as <- <-.
      split; [apply agree_refl|]. split; [assumption|]. intros t' _. apply den_val_prim.
    Qed.

    Lemma defined_body_ok d : fn_ok (defined_body R g d) (fun t' x => den_val t' (WRef d) x).
    Proof.
      intros O s r s' Hc H. unfold defined_body in H.
      destruct (nassoc d (cs_cache s)) as [[[ | |x| | | ]|]|] eqn:Ec; try discriminate.
      { injection H as <- <-. split; [apply agree_refl|]. split; [assumption|]. exact (proj2 Hc _ _ Ec). }
      destruct (node_of g d) as [[nd| | | | | ]|] eqn:En; try discriminate.
      inv_bind H as [v s1] H1. injection H as <- <-.
      (* it suffices to establish the three facts for the state before the cache insertion *)
      set (X := agree [] (cs_types s) (cs_types s1) /\ pre O s1 /\ rob O (cs_types s1) (fun t' => den_val t' (WRef d) v)).
      assert (HX : X); [|destruct HX as [A1 [C1 D1]]; split; [exact A1|]; split; [|exact D1]; apply pre_put; assumption].
      (* allocating [dd] after steps that established [P]: it remains to compare, one level down, what the specification
         says of [d] with what the new defined type unfolds to *)
      assert (M : forall s0 dd (P : types -> Prop), agree [] (cs_types s) (cs_types s0) -> pre O s0 -> rob O (cs_types s0) P ->
                  (forall t' i f tr, P t' -> get_def t' i = Some dd -> spec_vt_body (spec_vt f g) g (WRef d) = Some tr ->
                     exists F, unfold_vt_body (unfold_vt F t') (res_name_of (S F) t') t' (VDefined i) = Some tr) ->
                  mk_def dd s0 = COk (v, s1) -> X).
      { intros s0 dd P A0 C0 D0 HP Hm.
        destruct (mk_def_ok O s0 dd v s1 (fun t' => den_val t' (WRef d) v) C0 Hm) as [A1 [C1 D1]].
        2:{ split; [eapply agree_trans; eassumption|]. split; assumption. }
        intros i t' -> Hg A' [|f] tr E; [discriminate|].
        destruct (HP t' i f tr (D0 t' A') Hg E) as [F HF]. exists (S F). now rewrite unfold_vt_eq. }
      assert (K : forall A (F : cstate -> cres (A * cstate)) (G : A -> deftype) (DA : types -> A -> Prop), fn_ok F DA ->
                  (forall a t' i f tr, DA t' a -> get_def t' i = Some (G a) -> spec_vt_body (spec_vt f g) g (WRef d) = Some tr ->
                     exists F', unfold_vt_body (unfold_vt F' t') (res_name_of (S F') t') t' (VDefined i) = Some tr) ->
                  ('(a, s2) <- F s ;; mk_def (G a) s2) = COk (v, s1) -> X).
      { intros A F G DA HF HP E. inv_bind E as [a s0] E0. destruct (HF O s a s0 Hc E0) as [A0 [C0 D0]].
        exact (M s0 (G a) (fun t' => DA t' a) A0 C0 D0 (HP a) E). }
      pose proof (mono_unfold_vt) as MU.
      destruct nd as [p|fs|cs|x|k x|x n|l|l|l|x|o e|r0|r0|o|o]; try discriminate.
      - apply (M s (DAlias (VPrim p)) (fun _ => True) (agree_refl _ _) Hc (fun _ _ => I)); [|exact H1].
        intros t' i f tr _ Hg E. cbn [spec_vt_body] in E. rewrite En in E. exists 1%nat. cbn [unfold_vt_body]. now rewrite Hg.
      - refine (K _ (mapM (named (val_body R)) fs) DRecord _ (mapM_ok _ _ (named_ok _ _ val_body_ok) fs) _ H1).
        intros fs' t' i f tr D0 Hg E. cbn [spec_vt_body] in E. rewrite En in E. cbn [unfold_vt_body]. rewrite Hg.
        destruct (map_snd (spec_vt f g) fs) as [y|] eqn:Ey; [|discriminate].
        destruct (map_snd_refine (fun f => spec_vt f g) (fun f => unfold_vt f t') (MU t') f fs fs' y D0 Ey) as [F HF]. exists F. now rewrite HF.
      - refine (K _ (mapM (named (optM (val_body R))) cs) DVariant _ (mapM_ok _ _ (named_ok _ _ (optM_ok _ _ val_body_ok)) cs) _ H1).
        intros cs' t' i f tr D0 Hg E. cbn [spec_vt_body] in E. rewrite En in E. cbn [unfold_vt_body]. rewrite Hg.
        destruct (map_snd (omap (spec_vt f g)) cs) as [y|] eqn:Ey; [|discriminate].
        destruct (map_snd_refine (fun f => omap (spec_vt f g)) (fun f => omap (unfold_vt f t')) (mono_omap _ (MU t')) f cs cs' y) as [F HF];
          [|exact Ey|exists F; now rewrite HF].
        eapply Forall2_impl; [|exact D0]. intros a b [Hk Hd]. split; [exact Hk|]. intros fu tr'. exact (omap_refine (fun f => spec_vt f g) (fun f => unfold_vt f t') _ _ fu tr' Hd).
      - refine (K _ (val_body R x) DList _ (val_body_ok x) _ H1).
        intros x' t' i f tr D0 Hg E. cbn [spec_vt_body] in E. rewrite En in E. cbn [unfold_vt_body]. rewrite Hg.
        destruct (spec_vt f g x) as [y|] eqn:Ey; [|discriminate]. destruct (D0 _ _ Ey) as [F HF]. exists F. now rewrite HF.
      - refine (K _ (val_body R x) (fun y => DFsl y n) _ (val_body_ok x) _ H1).
        intros x' t' i f tr D0 Hg E. cbn [spec_vt_body] in E. rewrite En in E. cbn [unfold_vt_body]. rewrite Hg.
        destruct (spec_vt f g x) as [y|] eqn:Ey; [|discriminate]. destruct (D0 _ _ Ey) as [F HF]. exists F. now rewrite HF.
      - refine (K _ (mapM (val_body R) l) DTuple _ (mapM_ok _ _ val_body_ok l) _ H1).
        intros l' t' i f tr D0 Hg E. cbn [spec_vt_body] in E. rewrite En in E. cbn [unfold_vt_body]. rewrite Hg.
        destruct (all_some (map (spec_vt f g) l)) as [y|] eqn:Ey; [|discriminate].
        destruct (all_some_refine (fun f => spec_vt f g) (fun f => unfold_vt f t') (MU t') f l l' y D0 Ey) as [F HF]. exists F. now rewrite HF.
      - apply (M s (DFlags l) (fun _ => True) (agree_refl _ _) Hc (fun _ _ => I)); [|exact H1].
        intros t' i f tr _ Hg E. cbn [spec_vt_body] in E. rewrite En in E. exists 0%nat. cbn [unfold_vt_body]. now rewrite Hg.
      - apply (M s (DEnum l) (fun _ => True) (agree_refl _ _) Hc (fun _ _ => I)); [|exact H1].
        intros t' i f tr _ Hg E. cbn [spec_vt_body] in E. rewrite En in E. exists 0%nat. cbn [unfold_vt_body]. now rewrite Hg.
      - refine (K _ (val_body R x) DOption _ (val_body_ok x) _ H1).
        intros x' t' i f tr D0 Hg E. cbn [spec_vt_body] in E. rewrite En in E. cbn [unfold_vt_body]. rewrite Hg.
        destruct (spec_vt f g x) as [y|] eqn:Ey; [|discriminate]. destruct (D0 _ _ Ey) as [F HF]. exists F. now rewrite HF.
      - inv_bind H1 as [o' s0] H0. inv_bind H1 as [e' s00] H00.
        destruct (optM_ok _ _ val_body_ok o O s o' s0 Hc H0) as [A0 [C0 D0]].
        destruct (optM_ok _ _ val_body_ok e O s0 e' s00 C0 H00) as [A00 [C00 D00]].
        apply (M s00 (DResult o' e') (fun t' => orel (den_val t') o o' /\ orel (den_val t') e e') (agree_trans _ _ _ _ A0 A00) C00); [| |exact H1].
        { intros t' A'. split; [apply D0; exact (agree_nil_trans _ _ _ _ A00 A') | now apply D00]. }
        intros t' i f tr [Do De] Hg E. cbn [spec_vt_body] in E. rewrite En in E. cbn [unfold_vt_body]. rewrite Hg.
        destruct (omap (spec_vt f g) o) as [yo|] eqn:Eo; [|discriminate]. destruct (omap (spec_vt f g) e) as [ye|] eqn:Ee; [|discriminate].
        destruct (omap_refine (fun f => spec_vt f g) (fun f => unfold_vt f t') o o' f yo Do Eo) as [F1 HF1].
        destruct (omap_refine (fun f => spec_vt f g) (fun f => unfold_vt f t') e e' f ye De Ee) as [F2 HF2].
        exists (Nat.max F1 F2). rewrite (mono_omap _ (MU t') F1 _ _ _ (Nat.le_max_l _ _) HF1).
        now rewrite (mono_omap _ (MU t') F2 _ _ _ (Nat.le_max_r _ _) HF2).
      - (* own: outside the resource-free fragment *)
        inv_bind H1 as x0 H0. injection H1 as <- <-. split; [apply agree_refl|]. split; [assumption|].
        intros t' _ [|f] tr E; [discriminate|]. cbn [spec_vt spec_vt_body] in E. rewrite En in E. discriminate.
      - inv_bind H1 as x0 H0. injection H1 as <- <-. split; [apply agree_refl|]. split; [assumption|].
        intros t' _ [|f] tr E; [discriminate|]. cbn [spec_vt spec_vt_body] in E. rewrite En in E. discriminate.
      - refine (K _ (optM (val_body R) o) DFuture _ (optM_ok _ _ val_body_ok o) _ H1).
        intros o' t' i f tr D0 Hg E. cbn [spec_vt_body] in E. rewrite En in E. cbn [unfold_vt_body]. rewrite Hg.
        destruct (omap (spec_vt f g) o) as [y|] eqn:Ey; [|discriminate].
        destruct (omap_refine (fun f => spec_vt f g) (fun f => unfold_vt f t') o o' f y D0 Ey) as [F HF]. exists F. now rewrite HF.
      - refine (K _ (optM (val_body R) o) DStream _ (optM_ok _ _ val_body_ok o) _ H1).
        intros o' t' i f tr D0 Hg E. cbn [spec_vt_body] in E. rewrite En in E. cbn [unfold_vt_body]. rewrite Hg.
        destruct (omap (spec_vt f g) o) as [y|] eqn:Ey; [|discriminate].
        destruct (omap_refine (fun f => spec_vt f g) (fun f => unfold_vt f t') o o' f y D0 Ey) as [F HF]. exists F. now rewrite HF.
    Qed.
  End DefBody.

  Lemma c_defined_ok : forall fuel d, fn_ok (c_defined fuel g d) (fun t' x => den_val t' (WRef d) x).
  Proof.
    induction fuel as [|f IH]; intros d; [intros O s r s' _ H; discriminate|].
    cbn [c_defined]. apply defined_body_ok. exact IH.
  Qed.
  Lemma c_val_ok fuel v : fn_ok (c_val fuel g v) (fun t' x => den_val t' v x).
  Proof. unfold c_val. apply val_body_ok. apply c_defined_ok. Qed.

  Lemma c_func_ok fuel v : fn_ok (c_func fuel g v) (fun t' i => den_func t' v i).
  Proof.
    intros O s r s' Hc H. unfold c_func in H.
    destruct (nassoc v (cs_cache s)) as [[[ |f0| | | | ]|]|] eqn:Ec; try discriminate.
    { injection H as <- <-. split; [apply agree_refl|]. split; [assumption|]. exact (proj2 Hc _ _ Ec). }
    destruct (node_of g v) as [[ |a ps r0| | | | ]|] eqn:En; try discriminate.
    inv_bind H as [ps' s1] H1. inv_bind H as [r' s2] H2.
    destruct (mapM_ok _ _ (named_ok _ _ (c_val_ok fuel)) ps O s ps' s1 Hc H1) as [A1 [C1 D1]].
    destruct (optM_ok _ _ (c_val_ok fuel) r0 O s1 r' s2 C1 H2) as [A2 [C2 D2]].
    unfold add_func in H. injection H as <- <-. cbn [cs_types cache_put with_types].
    set (fi := mkid (t_tag (cs_types s2)) (length (t_funcs (cs_types s2)))).
    set (t3 := mktypes _ _ _ _ _ _ _).
    assert (A3 : agree [] (cs_types s2) t3) by apply (agree_add_func (cs_types s2) (mkfunc ps' r' a)).
    assert (DD : rob O t3 (fun t' => den_func t' v fi)).
    { intros t' A' fuel0 ft E. unfold spec_ft in E. rewrite En in E.
      destruct (map_snd (spec_vt fuel0 g) ps) as [lp|] eqn:Ep; [|discriminate].
      destruct (omap (spec_vt fuel0 g) r0) as [lr|] eqn:Er; [|discriminate]. injection E as <-.
      assert (Hg : get_func t' fi = Some (mkfunc ps' r' a)).
      { apply (agree_get_func _ _ _ A'). unfold get_func, t3, fi. cbn [t_tag t_funcs]. apply lookup_new. }
      pose proof (agree_nil_trans _ _ _ _ A3 A') as A2'.
      pose proof (agree_nil_trans _ _ _ _ A2 A2') as A1'.
      destruct (map_snd_refine (fun f => spec_vt f g) (fun f => unfold_vt f t') (mono_unfold_vt t') fuel0 ps ps' lp (D1 t' A1') Ep) as [F1 HF1].
      destruct (omap_refine (fun f => spec_vt f g) (fun f => unfold_vt f t') r0 r' fuel0 lr (D2 t' A2') Er) as [F2 HF2].
      exists (Nat.max F1 F2). unfold unfold_func. rewrite Hg. cbn [f_params f_result f_async].
      assert (He1 : ext_some (unfold_vt F1 t') (unfold_vt (Nat.max F1 F2) t')) by (intros x y; apply unfold_vt_mono; apply Nat.le_max_l).
      rewrite (map_snd_ext _ _ _ _ He1 HF1).
      rewrite (mono_omap _ (mono_unfold_vt t') F2 _ _ _ (Nat.le_max_r _ _) HF2). reflexivity. }
    split; [eapply agree_trans; [exact A1 | eapply agree_trans; [exact A2 | exact A3]]|].
    split; [|exact DD]. exact (pre_alloc_put O s2 (with_types s2 t3) v (EnType (TFunc fi)) eq_refl A3 C2 DD).
  Qed.

  Lemma c_module_ok v : fn_ok (c_module g v) (fun t' m => den_mod t' v m).
  Proof.
    intros O s r s' Hc H. destruct (c_module_run _ _ _ _ _ H) as [[Ec ->]|[mt [_ [En [-> ->]]]]].
    { split; [apply agree_refl|]. split; [assumption|]. exact (proj2 Hc _ _ Ec). }
    set (t3 := snd (add_mod (cs_types s) mt)). set (mi := fst (add_mod (cs_types s) mt)).
    assert (A3 : agree [] (cs_types s) t3) by apply agree_add_mod.
    assert (DD : rob O t3 (fun t' => den_mod t' v mi)).
    { intros t' A' mt' E. unfold spec_mod in E. rewrite En in E. injection E as <-.
      apply (agree_get_mod _ _ _ A'). unfold get_mod, t3, mi, add_mod. cbn [fst snd t_tag t_modules]. apply lookup_new. }
    split; [exact A3|]. split; [|exact DD]. exact (pre_alloc_put O s (with_types s t3) v (EnType (TModule mi)) eq_refl A3 Hc DD).
  Qed.

  Lemma c_resource_ok hf name v : fn_ok (c_resource hf g name v) (fun _ _ => True).
  Proof.
    intros O s r s' Hc H. destruct (c_resource_run _ _ _ _ _ _ _ H) as [[_ ->]|[rid [rr [_ [_ [-> X]]]]]].
    { split; [apply agree_refl|]. split; [assumption|]. intros ? _. exact I. }
    pose proof (agree_add_res (cs_types s) rr) as A3. destruct X as [[src [ownr [_ [_ ->]]]]|[_ [_ ->]]].
    - split; [exact A3|]. split; [|intros ? _; exact I]. exact (pre_alloc_put O s (with_types s _) v (EnRes _) eq_refl A3 Hc (fun _ _ => I)).
    - split; [exact A3|]. split; [|intros ? _; exact I]. exact (pre_alloc_put O s (mkcs _ (cs_cache s) _ _ _) v (EnRes _) eq_refl A3 Hc (fun _ _ => I)).
  Qed.

End Tree.
