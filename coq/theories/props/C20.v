(** Property C20 — registry resolution returns the right content for every requested key.
    Statements only; proofs are in proofs/RegistryProofs.v.

    Model: model/Registry.v ([resolve valid_name reg keys sched], where [sched] is the order in which
    the spawned download tasks complete).  Specification: spec/RegistrySpec.v ([Resolve_spec], written
    from the property text; [spec_check] is its executable form, proved equivalent below and evaluated
    on the real resolver's observations on every run).

    FINDING.  The property is stated "no matter how many requested keys share a name".  That part is
    FALSE of the faithful model [resolve] of the code as found: it collects the keys into a table indexed
    by package NAME (a later key with the same name overwrites version and span, keeping the first
    position) and tags each download with its TABLE position, but stores the downloaded content under
    [keys.get_index(tag)], a position in the ORIGINAL key list.  With keys [a@1.0.0; a@2.0.0; b] the
    answer is {a@1.0.0 -> content of a@2.0.0, a@2.0.0 -> content of b} and key b is dropped
    ([resolve_shared_name_refuted]; replayed on the real resolver by the correspondence).
    The full-strength statement is therefore kept in comments and the theorems below carry the
    hypothesis [no_shared_name keys], except [error_attributed] and [resolve_never_panics], which hold
    at full strength.

    REPAIRED in /repo by commit 4b151d2 (one table entry per requested key): the current code follows
    [resolve_fixed] (the correspondence decides on every run which of the two models the implementation
    follows, and anything but [resolve_fixed] is a violation: the repair is recorded as `fixed`);
    the [fixed_*] theorems below state the property at FULL strength, without [no_shared_name], for it.
    The as-found model [resolve] and its theorems are kept so that a return of the defect is recognised
    and replayed with the witness of [resolve_shared_name_refuted]. *)
From Coq Require Import Permutation.
From WacV Require Import Str Ord Semver Registry RegistrySpec RegistryProofs.

(** 1. For ALL completion orders of the download tasks the answer is the specified one.

    Full strength (false, see [resolve_shared_name_refuted]):
      forall valid_name reg keys sched, wf_reg reg -> wf_keys keys ->
        Permutation sched (tasks_of valid_name keys) ->
        Resolve_spec valid_name reg keys (resolve valid_name reg keys sched).                       *)
Theorem resolve_any_completion_order : forall valid_name reg keys sched,
  wf_reg reg -> wf_keys keys -> no_shared_name keys ->
  Permutation sched (tasks_of valid_name keys) ->
  Resolve_spec valid_name reg keys (resolve valid_name reg keys sched).
Proof. intros v r k s W WK NS P. exact (resolve_distinct_names v r W k s WK NS P). Qed.
Print Assumptions resolve_any_completion_order.

(** The full-strength statement is refuted: a registry and a key set with two keys of one name for
    which EVERY completion order gives an answer the specification rejects. *)
Definition v_ (a b c : N) : version := {| major := a; minor := b; patch := c; pre := []; build := [] |}.
Definition w_reg : registry :=
  [ ([97], [(v_ 1 0 0, Released 1); (v_ 2 0 0, Released 2)]);      (* a: 1.0.0 -> c1, 2.0.0 -> c2 *)
    ([98], [(v_ 0 1 0, Released 3)]) ].                             (* b: 0.1.0 -> c3 *)
Definition w_keys : keys_t :=
  [ (([97], Some (v_ 1 0 0)), 10); (([97], Some (v_ 2 0 0)), 20); (([98], None), 30) ].
Definition all_valid (_ : str) : bool := true.

Ltac solve_nodup := repeat (constructor; [cbn; intuition discriminate|]); constructor.

Lemma w_reg_wf : wf_reg w_reg.
Proof.
  split; [solve_nodup|]. intros n rels [E|[E|[]]]; injection E as <- <-; solve_nodup.
Qed.

Theorem resolve_shared_name_refuted :
  exists valid_name reg keys,
    wf_reg reg /\ wf_keys keys /\
    (exists sched, Permutation sched (tasks_of valid_name keys)) /\
    forall sched, Permutation sched (tasks_of valid_name keys) ->
      ~ Resolve_spec valid_name reg keys (resolve valid_name reg keys sched).
Proof.
  exists all_valid, w_reg, w_keys. split; [exact w_reg_wf|]. split; [unfold wf_keys; cbn; solve_nodup|].
  split; [eexists; apply Permutation_refl|].
  intros sched P S. apply (spec_check_iff _ _ w_reg_wf) in S.
  apply Permutation_sym in P. vm_compute in P. apply Permutation_length_2_inv in P.
  destruct P as [-> | ->]; vm_compute in S; discriminate S.
Qed.
Print Assumptions resolve_shared_name_refuted.

(** What the model answers on the witness (both completion orders): key 0 holds the content of
    a@2.0.0 (c2), key 1 holds the content of b (c3), key 2 (b) is absent. *)
Example shared_name_witness_value :
  resolve all_valid w_reg w_keys (tasks_of all_valid w_keys)
    = ROk [ (([97], Some (v_ 1 0 0)), 2); (([97], Some (v_ 2 0 0)), 3) ] /\
  resolve all_valid w_reg w_keys (rev (tasks_of all_valid w_keys))
    = ROk [ (([97], Some (v_ 2 0 0)), 3); (([97], Some (v_ 1 0 0)), 2) ].
Proof. split; vm_compute; reflexivity. Qed.

(** 2. No key is silently dropped and every key holds the content it is owed.

    Full strength (false by the same witness): the same without [no_shared_name keys]. *)
Theorem no_key_dropped : forall valid_name reg keys sched m,
  wf_reg reg -> wf_keys keys -> no_shared_name keys ->
  Permutation sched (tasks_of valid_name keys) ->
  resolve valid_name reg keys sched = ROk m ->
  forall k s, In (k, s) keys -> exists c, In (k, c) m /\ KeyOutcome valid_name reg (k, s) (KOk c).
Proof.
  intros v r k s m W WK NS P R. apply (spec_no_key_dropped v r k m).
  rewrite <- R. exact (resolve_distinct_names v r W k s WK NS P).
Qed.
Print Assumptions no_key_dropped.

(** 3. A reported error is the error owed to one of the requesting keys, with that key's name,
       version and span.  Full strength: holds for key sets with shared names too. *)
Theorem error_attributed : forall valid_name reg keys sched e,
  Permutation sched (tasks_of valid_name keys) ->
  resolve valid_name reg keys sched = RErr e ->
  exists k s, In (k, s) keys /\ KeyOutcome valid_name reg (k, s) (KErr e).
Proof.
  intros v r k s e P R. apply (error_attributed_full v r k s e); [|exact R].
  intros t It. exact (Permutation_in _ P It).
Qed.
Print Assumptions error_attributed.

(** ... and a key that is owed an error makes the whole resolution fail (part of
    [resolve_any_completion_order]; false with shared names: [a@9.9.9; a@1.0.0] succeeds). *)
Theorem error_reported : forall valid_name reg keys sched k s e,
  wf_reg reg -> wf_keys keys -> no_shared_name keys ->
  Permutation sched (tasks_of valid_name keys) ->
  In (k, s) keys -> KeyOutcome valid_name reg (k, s) (KErr e) ->
  exists e', resolve valid_name reg keys sched = RErr e'.
Proof.
  intros v r keys sched k s e W WK NS P I O.
  exact (spec_error_reported v r W keys _ k s e (resolve_distinct_names v r W keys sched WK NS P) I O).
Qed.
Print Assumptions error_reported.

(** 4. The order in which the keys were requested (and, again, the completion orders) do not change
       the answer: same map, or an error in both cases (each attributed by [error_attributed]).

    Full strength (false: [a@1.0.0; a@2.0.0] and [a@2.0.0; a@1.0.0] give different maps). *)
Theorem request_order_indep : forall valid_name reg keys keys' sched sched',
  wf_reg reg -> wf_keys keys -> no_shared_name keys -> Permutation keys keys' ->
  Permutation sched (tasks_of valid_name keys) -> Permutation sched' (tasks_of valid_name keys') ->
  same_answer (resolve valid_name reg keys sched) (resolve valid_name reg keys' sched').
Proof.
  intros v r k k' s s' W WK NS PK P P'. apply (perm_same_answer v r W k k' _ _ PK).
  - exact (resolve_distinct_names v r W k s WK NS P).
  - exact (resolve_distinct_names v r W k' s' (wf_keys_perm _ _ PK WK) (no_shared_name_perm _ _ PK NS) P').
Qed.
Print Assumptions request_order_indep.

(** 5. None of the [unwrap]/[assert_eq!] in [resolve] can fail (full strength). *)
Theorem resolve_never_panics : forall valid_name reg keys sched,
  Permutation sched (tasks_of valid_name keys) -> resolve valid_name reg keys sched <> RPanic.
Proof. exact RegistryProofs.resolve_never_panics. Qed.
Print Assumptions resolve_never_panics.

(** 6. The repaired algorithm ([resolve_fixed]: one task per key, hooks/fix-c20-shared-name.patch)
       satisfies every statement above at FULL strength — no hypothesis on shared names.  These are
       the theorems that apply when the correspondence finds that the working tree implements the
       repaired algorithm. *)
Theorem fixed_resolve_any_completion_order : forall valid_name reg keys sched,
  wf_reg reg -> wf_keys keys ->
  Permutation sched (tasks_of_fixed valid_name keys) ->
  Resolve_spec valid_name reg keys (resolve_fixed valid_name reg keys sched).
Proof. intros v r k s W WK P. exact (fixed_meets_spec v r W k s WK P). Qed.
Print Assumptions fixed_resolve_any_completion_order.

Theorem fixed_no_key_dropped : forall valid_name reg keys sched m,
  wf_reg reg -> wf_keys keys ->
  Permutation sched (tasks_of_fixed valid_name keys) ->
  resolve_fixed valid_name reg keys sched = ROk m ->
  forall k s, In (k, s) keys -> exists c, In (k, c) m /\ KeyOutcome valid_name reg (k, s) (KOk c).
Proof.
  intros v r k s m W WK P R. apply (spec_no_key_dropped v r k m).
  rewrite <- R. exact (fixed_meets_spec v r W k s WK P).
Qed.
Print Assumptions fixed_no_key_dropped.

Theorem fixed_error_attributed : forall valid_name reg keys sched e,
  Permutation sched (tasks_of_fixed valid_name keys) ->
  resolve_fixed valid_name reg keys sched = RErr e ->
  exists k s, In (k, s) keys /\ KeyOutcome valid_name reg (k, s) (KErr e).
Proof.
  intros v r k s e P R. apply (RegistryProofs.fixed_error_attributed v r k s e); [|exact R].
  intros t It. exact (Permutation_in _ P It).
Qed.
Print Assumptions fixed_error_attributed.

Theorem fixed_error_reported : forall valid_name reg keys sched k s e,
  wf_reg reg -> wf_keys keys ->
  Permutation sched (tasks_of_fixed valid_name keys) ->
  In (k, s) keys -> KeyOutcome valid_name reg (k, s) (KErr e) ->
  exists e', resolve_fixed valid_name reg keys sched = RErr e'.
Proof.
  intros v r keys sched k s e W WK P I O.
  exact (spec_error_reported v r W keys _ k s e (fixed_meets_spec v r W keys sched WK P) I O).
Qed.
Print Assumptions fixed_error_reported.

Theorem fixed_request_order_indep : forall valid_name reg keys keys' sched sched',
  wf_reg reg -> wf_keys keys -> Permutation keys keys' ->
  Permutation sched (tasks_of_fixed valid_name keys) -> Permutation sched' (tasks_of_fixed valid_name keys') ->
  same_answer (resolve_fixed valid_name reg keys sched) (resolve_fixed valid_name reg keys' sched').
Proof.
  intros v r k k' s s' W WK PK P P'. apply (perm_same_answer v r W k k' _ _ PK).
  - exact (fixed_meets_spec v r W k s WK P).
  - exact (fixed_meets_spec v r W k' s' (wf_keys_perm _ _ PK WK) P').
Qed.
Print Assumptions fixed_request_order_indep.

Theorem fixed_never_panics : forall valid_name reg keys sched,
  Permutation sched (tasks_of_fixed valid_name keys) -> resolve_fixed valid_name reg keys sched <> RPanic.
Proof. exact RegistryProofs.fixed_never_panics. Qed.
Print Assumptions fixed_never_panics.

(** On the refutation witness the repaired algorithm answers as specified. *)
Example fixed_on_witness :
  resolve_fixed all_valid w_reg w_keys (rev (tasks_of_fixed all_valid w_keys))
    = ROk [ (([98], None), 3); (([97], Some (v_ 2 0 0)), 2); (([97], Some (v_ 1 0 0)), 1) ].
Proof. vm_compute. reflexivity. Qed.

(** 7. The executable check evaluated on the real resolver's observations IS the specification. *)
Theorem spec_check_is_spec : forall valid_name reg keys r, wf_reg reg ->
  (spec_check valid_name reg keys r = true <-> Resolve_spec valid_name reg keys r).
Proof. intros v r k x W. exact (spec_check_iff v r W k x). Qed.
Print Assumptions spec_check_is_spec.

(** Non-vacuity: a registry and three keys with distinct names (exact version, unversioned with a
    yanked and a pre-release above the latest, exact version) meet every hypothesis; the tasks
    complete in reverse order; every key gets the content it is owed. *)
Definition nv_reg : registry :=
  [ ([97], [(v_ 1 0 0, Released 1); (v_ 2 0 0, Released 2)]);
    ([98], [(v_ 0 1 0, Released 3); (v_ 0 3 0, Yanked);
            ({| major := 0; minor := 4; patch := 0; pre := [114;99]; build := [] |}, Released 9);
            (v_ 0 2 0, Released 4)]);
    ([99], [(v_ 5 0 0, Released 5)]) ].
Definition nv_keys : keys_t :=
  [ (([97], Some (v_ 2 0 0)), 10); (([98], None), 20); (([99], Some (v_ 5 0 0)), 30) ].
Example resolve_nonvacuous :
  wf_reg nv_reg /\ wf_keys nv_keys /\ no_shared_name nv_keys /\
  Permutation (rev (tasks_of all_valid nv_keys)) (tasks_of all_valid nv_keys) /\
  length (tasks_of all_valid nv_keys) = 3%nat /\
  resolve all_valid nv_reg nv_keys (rev (tasks_of all_valid nv_keys))
    = ROk [ (([99], Some (v_ 5 0 0)), 5); (([98], None), 4); (([97], Some (v_ 2 0 0)), 2) ] /\
  resolve all_valid nv_reg (nv_keys ++ [(([100], None), 40)]) (tasks_of all_valid (nv_keys ++ [(([100], None), 40)]))
    = RErr (EPackageDoesNotExist [100] 40).
Proof.
  split.
  { split; [solve_nodup|]. intros n rels [E|[E|[E|[]]]]; injection E as <- <-; solve_nodup. }
  split; [unfold wf_keys; cbn; solve_nodup|].
  split; [unfold no_shared_name; cbn; solve_nodup|].
  split; [apply Permutation_sym, Permutation_rev|].
  repeat split; vm_compute; reflexivity.
Qed.
