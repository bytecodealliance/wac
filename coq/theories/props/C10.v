(** Property C10 — plugging satisfies every matchable socket import and re-exports the socket.
    Statements only; proofs are in proofs/PlugProofs.v (general) and proofs/PlugWitness.v (witnesses).

    Model: model/Plug.v ([plug pu s plugs socket], the control flow of crates/wac-graph/src/plug.rs over
    the graph operations of model/Graph.v).  Specification: spec/PlugSpec.v, the property's sentence
    read IMPORT-first ([offer], [suppliers], [spec_plug]; [supplied_by], [stays_import], [reexported],
    [not_instantiated] say what the result graph's queries must answer).

    plug.rs works EXPORT-first (for every plug export: the import of exactly that name, else the first
    semver-compatible import; then one pair per socket import, exact name preferred -- repair 7db12e7).
    The two readings agree under ONE hypothesis, and only under it:

      [socket_tracks_distinct]  the socket imports no two names on one semver track.

    Before repair 7db12e7 a second hypothesis was needed (no plug exports two names on one track): a
    single plug exporting a:b/c@0.2.0 and a:b/c@0.2.1 into a socket importing a:b/c@0.2.0 collided with
    itself (ArgumentAlreadyPassed).  With the per-import dedupe ([plug_pairs]) the theorems do not
    need it; [pre_repair_pairs_collided] records the historical witness.

    FINDINGS (each [_refuted] theorem is a concrete case, replayed on the real [wac_graph::plug] by the
    correspondence, corpus/C10/cases.txt):
      - socket imports a:b/c@0.2.0 and a:b/c@0.2.1, the plug exports only a:b/c@0.2.1: the import
        a:b/c@0.2.0 stays unsatisfied although the plug exports a compatible item under a
        semver-compatible name ([plug_supplies_spec_socket_tracks_refuted]);
      - socket imports a:b/c@0.2.0 (incompatible type) and a:b/c@0.2.1 (compatible), the plug exports
        a:b/c@0.2.0: the exact-name import shadows the compatible neighbour, "no plugging happened"
        ([no_plug_iff_socket_tracks_refuted]);
      - two plugs each exporting exactly one of the socket's two same-track imports: wired by exact
        name although, read import-first, both plugs offer an item for each import
        ([ambiguous_plugs_fail_socket_tracks_refuted]; a divergence of the per-plug reading only).

    The remaining hypotheses are not about the readings: [plug_case] says the graph is blank (nothing
    built yet; packages registered), the package ids resolve, and the IndexMap key lists have no
    duplicates / the socket's export names are valid extern names (facts of the per-case universe,
    which is computed by the real implementation and validated by the correspondence). *)
From Coq Require Import List Arith NArith.
From WacV Require Import Str Names Graph Plug PlugSpec PlugProofs PlugWitness.
Import ListNotations.
Local Open Scope nat_scope.

Section C10.
  Variable pu : puniverse.
  Variable s : gstate.
  Variable plugs : list pkgid.
  Variable socket : pkgid.
  Variables imps sx : list item.
  Variable pls : list (list item).
  Let sup := suppliers (pu_name_text pu) (u_sub pu) pls.
  Let res := plug pu s plugs socket.

  (** 1. After a successful plug every socket import with a supplier is an argument of the socket
         instantiation, supplied by the alias of that plug's export; every other socket import is
         still an import of the result (and success means no import has two suppliers).

      Full strength (without the track hypothesis) is FALSE: see the refutations below. *)
  Theorem plug_supplies_spec :
    plug_case pu s plugs socket imps sx pls -> socket_tracks_distinct pu imps ->
    snd res = POk -> forall m t, In (m, t) imps ->
      match sup (m, t) with
      | [] => stays_import pu (fst res) 0 m t
      | [(k, e)] => exists p, nth_error plugs k = Some p /\ supplied_by pu (fst res) 0 m p e
      | _ => False
      end.
  Proof.
    intros C H1 E. pose proof (plug_master _ _ _ _ _ _ _ C H1) as M. unfold plug_result in M.
    fold res in M. rewrite E in M. apply M.
  Qed.

  (** 2. every socket export is exported under its own name *)
  Theorem plug_reexports_socket :
    plug_case pu s plugs socket imps sx pls -> socket_tracks_distinct pu imps ->
    snd res = POk -> forall x k, In (x, k) sx -> reexported pu (fst res) 0 x.
  Proof.
    intros C H1 E. pose proof (plug_master _ _ _ _ _ _ _ C H1) as M. unfold plug_result in M.
    fold res in M. rewrite E in M. apply M.
  Qed.

  (** 3. a plug that supplies nothing is not instantiated (no node of the result belongs to it) *)
  Theorem idle_plug_not_instantiated :
    plug_case pu s plugs socket imps sx pls -> socket_tracks_distinct pu imps ->
    snd res = POk -> forall p, p <> socket ->
      (forall k, nth_error plugs k = Some p -> forall i, In i imps -> forall e, ~ In (k, e) (sup i)) ->
      not_instantiated (fst res) p.
  Proof.
    intros C H1 E. pose proof (plug_master _ _ _ _ _ _ _ C H1) as M. unfold plug_result in M.
    fold res in M. rewrite E in M. apply M.
  Qed.

  (** 4. "no plugging happened" exactly when no socket import could be supplied *)
  Theorem no_plug_iff :
    plug_case pu s plugs socket imps sx pls -> socket_tracks_distinct pu imps ->
    (snd res = PNoPlugHappened <-> forall i, In i imps -> sup i = []).
  Proof.
    intros C H1. pose proof (plug_master _ _ _ _ _ _ _ C H1) as M. unfold plug_result in M.
    fold res sup in M. destruct (snd res).
    - destruct M as (_ & (i & Ii & NE) & _). split; [discriminate|]. intros A. destruct (NE (A i Ii)).
    - split; [intros _; exact M|reflexivity].
    - destruct M as (_ & i & Ii & L). split; [discriminate|]. intros A. rewrite (A i Ii) in L. inversion L.
    - destruct M.
  Qed.

  (** 5. two plugs offering for one import: the operation fails (ArgumentAlreadyPassed) ... *)
  Theorem ambiguous_plugs_fail :
    plug_case pu s plugs socket imps sx pls -> socket_tracks_distinct pu imps ->
    (exists i, In i imps /\ 2 <= length (sup i)) -> snd res = PGraphError ArgumentAlreadyPassed.
  Proof.
    intros C H1 (i & Ii & L). pose proof (plug_master _ _ _ _ _ _ _ C H1) as M. unfold plug_result in M.
    fold res sup in M. destruct (snd res).
    - destruct M as (LE & _). destruct (Nat.nle_succ_diag_l 1 (Nat.le_trans _ _ _ L (LE i Ii))).
    - rewrite (M i Ii) in L. inversion L.
    - destruct M as (-> & _). reflexivity.
    - destruct M.
  Qed.

  (** ... and that is the only way it fails; in particular it never panics *)
  Theorem plug_fails_only_when_ambiguous :
    plug_case pu s plugs socket imps sx pls -> socket_tracks_distinct pu imps ->
    forall e, snd res = PGraphError e -> e = ArgumentAlreadyPassed /\ exists i, In i imps /\ 2 <= length (sup i).
  Proof.
    intros C H1 e E. pose proof (plug_master _ _ _ _ _ _ _ C H1) as M. unfold plug_result in M.
    fold res in M. rewrite E in M. exact M.
  Qed.

  Theorem plug_never_panics :
    plug_case pu s plugs socket imps sx pls -> socket_tracks_distinct pu imps ->
    forall p, snd res <> PPanic p.
  Proof.
    intros C H1 p E. pose proof (plug_master _ _ _ _ _ _ _ C H1) as M. unfold plug_result in M.
    fold res in M. rewrite E in M. exact M.
  Qed.

  (** 6. the outcome class is the verdict of the executable specification (the one the driver prints
         and the check evaluates on the implementation's observation) *)
  Theorem plug_agrees_with_spec_verdict :
    plug_case pu s plugs socket imps sx pls -> socket_tracks_distinct pu imps ->
    match spec_plug (pu_name_text pu) (u_sub pu) imps pls with
    | VFail => snd res = PGraphError ArgumentAlreadyPassed
    | VNoPlug => snd res = PNoPlugHappened
    | VOk _ => snd res = POk
    end.
  Proof.
    intros C H1. unfold spec_plug. fold sup. set (sp := map (fun i => (fst i, sup i)) imps).
    destruct (existsb (fun x => Nat.leb 2 (length (snd x))) sp) eqn:E.
    - apply (ambiguous_plugs_fail C H1). apply existsb_exists in E. destruct E as (x & Ix & L).
      apply in_map_iff in Ix. destruct Ix as (i & <- & Ii). exists i. split; [exact Ii|apply Nat.leb_le; exact L].
    - destruct (forallb (fun x => match snd x with [] => true | _ => false end) sp) eqn:F.
      + apply (no_plug_iff C H1). intros i Ii. rewrite forallb_forall in F. specialize (F _ (in_map _ _ _ Ii)). cbn [snd] in F.
        destruct (sup i); [reflexivity|discriminate].
      + pose proof (plug_master _ _ _ _ _ _ _ C H1) as M. unfold plug_result in M. fold res sup in M. destruct (snd res).
        * reflexivity.
        * rewrite (proj2 (forallb_forall _ _)) in F; [discriminate|]. intros x Ix.
          apply in_map_iff in Ix. destruct Ix as (i & <- & Ii). cbn [snd]. rewrite (M i Ii). reflexivity.
        * destruct M as (_ & i & Ii & L). rewrite (proj2 (existsb_exists _ _)) in E; [discriminate|].
          exists (fst i, sup i). split; [apply (in_map (fun i => (fst i, sup i))); exact Ii|apply Nat.leb_le; exact L].
        * destruct M.
  Qed.
End C10.
Print Assumptions plug_supplies_spec.
Print Assumptions plug_reexports_socket.
Print Assumptions idle_plug_not_instantiated.
Print Assumptions no_plug_iff.
Print Assumptions ambiguous_plugs_fail.
Print Assumptions plug_fails_only_when_ambiguous.
Print Assumptions plug_never_panics.
Print Assumptions plug_agrees_with_spec_verdict.

(** 7. The matching logic by itself: under the socket hypothesis the pair that the (repaired) loop
       keeps for a socket import is exactly the import-first offer; no hypothesis on the plug. *)
Theorem kept_pair_is_the_offer : forall text sub imps exps e m t,
  NoDup (map fst imps) -> tracks_distinct text (map fst imps) -> In (m, t) imps ->
  (In (e, m) (plug_pairs text sub imps exps) <-> offer text sub exps (m, t) = Some e).
Proof. exact pair_iff_offer. Qed.
Print Assumptions kept_pair_is_the_offer.

(** one pair per socket import: a plug never collides with itself *)
Theorem kept_pairs_have_distinct_targets : forall text sub imps exps,
  NoDup (map snd (plug_pairs text sub imps exps)).
Proof. intros. exact (proj1 (unique_pairs_spec _)). Qed.
Print Assumptions kept_pairs_have_distinct_targets.

(** 8. Without [socket_tracks_distinct] clause 1 is false: a successful plug after which an import
       that has exactly one supplier is not an argument of the socket. *)
Theorem plug_supplies_spec_socket_tracks_refuted :
  exists pu s plugs socket imps sx pls,
    plug_case pu s plugs socket imps sx pls /\
    snd (plug pu s plugs socket) = POk /\
    exists m t k e, In (m, t) imps /\ suppliers (pu_name_text pu) (u_sub pu) pls (m, t) = [(k, e)] /\
                    forall a, ~ In (m, a) (get_args pu (fst (plug pu s plugs socket)) 0).
Proof.
  exists w1, (w_state w1), [w_p1], w_socket, [(0%N, 0%N); (1%N, 0%N)], [(2%N, 0%N)], [[(1%N, 0%N)]].
  split; [exact w1_case|]. destruct w1_diverges as (A & B & C). split; [exact A|].
  exists 0%N, 0%N, 0, 1%N. split; [left; reflexivity|]. split; [exact B|exact C].
Qed.
Print Assumptions plug_supplies_spec_socket_tracks_refuted.

(** Without it clause 4 is false as well: an exact-name import of incompatible type shadows the
    compatible import on the same track; "no plugging happened" although an import has a supplier. *)
Theorem no_plug_iff_socket_tracks_refuted :
  exists pu s plugs socket imps sx pls,
    plug_case pu s plugs socket imps sx pls /\
    snd (plug pu s plugs socket) = PNoPlugHappened /\
    exists i, In i imps /\ suppliers (pu_name_text pu) (u_sub pu) pls i <> [].
Proof.
  exists w2, (w_state w2), [w_p1], w_socket, [(0%N, 1%N); (1%N, 0%N)], [(2%N, 0%N)], [[(0%N, 0%N)]].
  split; [exact w2_case|]. destruct w2_diverges as (A & B). split; [exact A|].
  exists (1%N, 0%N). split; [right; left; reflexivity|]. rewrite B. discriminate.
Qed.
Print Assumptions no_plug_iff_socket_tracks_refuted.

(** ... and clause 5: both plugs offer for each import (read per plug), yet the plug succeeds. *)
Theorem ambiguous_plugs_fail_socket_tracks_refuted :
  exists pu s plugs socket imps sx pls,
    plug_case pu s plugs socket imps sx pls /\
    (exists i, In i imps /\ 2 <= length (suppliers (pu_name_text pu) (u_sub pu) pls i)) /\
    snd (plug pu s plugs socket) = POk.
Proof.
  exists w4, (w_state w4), [w_p1; w_p2], w_socket, [(0%N, 0%N); (1%N, 0%N)], [(2%N, 0%N)], [[(0%N, 0%N)]; [(1%N, 0%N)]].
  split; [exact w4_case|]. destruct w4_diverges as (A & B). split; [|exact A].
  exists (0%N, 0%N). split; [left; reflexivity|]. rewrite B. apply le_n.
Qed.
Print Assumptions ambiguous_plugs_fail_socket_tracks_refuted.

(** 9. HISTORICAL (the algorithm before repair 7db12e7, i.e. wiring the raw pairs): one plug exporting
       two versions of one interface produced two pairs for the one socket import -- the second
       [set_instantiation_argument] failed with ArgumentAlreadyPassed although only one plug offers.
       The repaired loop keeps the exact-name pair and the very same case now succeeds, in agreement
       with the import-first reading (one supplier).  Regression: corpus case `C 2 5`. *)
Example pre_repair_pairs_collided :
  plug_case w3 (w_state w3) [w_p1] w_socket [(0%N, 0%N)] [(2%N, 0%N)] [[(0%N, 0%N); (1%N, 0%N)]] /\
  plug_matches (pu_name_text w3) (u_sub w3) [(0%N, 0%N)] [(0%N, 0%N); (1%N, 0%N)] = [(0%N, 0%N); (1%N, 0%N)] /\
  plug_pairs (pu_name_text w3) (u_sub w3) [(0%N, 0%N)] [(0%N, 0%N); (1%N, 0%N)] = [(0%N, 0%N)] /\
  snd (plug w3 (w_state w3) [w_p1] w_socket) = POk /\
  suppliers (pu_name_text w3) (u_sub w3) [[(0%N, 0%N); (1%N, 0%N)]] (0%N, 0%N) = [(0, 0%N)].
Proof.
  split; [exact w3_case|]. destruct w3_raw_pairs_collide as (A & B). destruct w3_repaired as (C & D). auto.
Qed.

(** Non-vacuity: a case satisfying every hypothesis in which the plug succeeds through the semver
    fallback and a second, idle plug is present. *)
Example c10_nonvacuous :
  plug_case w0 (w_state w0) [w_p1; w_p2] w_socket [(0%N, 0%N)] [(2%N, 0%N)] [[(1%N, 0%N)]; []] /\
  socket_tracks_distinct w0 [(0%N, 0%N)] /\
  snd (plug w0 (w_state w0) [w_p1; w_p2] w_socket) = POk /\
  suppliers (pu_name_text w0) (u_sub w0) [[(1%N, 0%N)]; []] (0%N, 0%N) = [(0, 1%N)].
Proof.
  split; [exact w0_case|]. split; [exact w0_socket_tracks|]. exact w0_ok.
Qed.
