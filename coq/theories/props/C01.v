(** Property C01 — every encoded composition is a valid component; no late validation failures.
    PARTIAL: validity of a component is decided by the component-model validator, which is not modelled in Coq
    (wasmparser::Validator is the oracle of ./check C01, run on every real output). What is proved here is that the
    causes of a post-hoc failure that the models of the graph API ([model/Graph.v]) and of the structural encoder
    ([model/EncodeModel.v]) can express do not occur: dangling or ill-sorted indexes, missing / duplicated / extra
    instantiation arguments, arguments that were never type checked, stale or missing export names.
    Statements; a proof is [exact <lemma>] or one lemma applied to another. *)
From Coq Require Import List Arith Bool NArith Permutation.
From WacV Require Import Str Graph Wiring WiringSpec EncodeModel ValidSpec GraphInv WiringDecode WiringSim WiringCorrect
  ValidArgs ValidEncInv ValidComplete ValidFinal ValidNoPanic ValidWitness.
Import ListNotations.
Local Open Scope nat_scope.

(** 1. Every index in an instantiate / alias / export item of a log that decodes refers to an EARLIER item of the
       right sort (restated from C02), and every log the model encoder emits for a reachable graph decodes
       (clause 1 and 2 of [no_late_failure_partial] below). *)
Theorem structural_indices_in_scope : forall names l w pre it post,
  decode_wiring names l = Some w -> l = pre ++ it :: post ->
  match it with
  | IInstantiate c args => c < cnt SComponent pre /\ forall nm s i, In (nm, s, i) args -> i < cnt s pre
  | IInstanceFromExports ex => forall nm s i, In (nm, s, i) ex -> i < cnt s pre
  | IAliasExport i _ _ => i < cnt SInstance pre
  | IExport _ s i => i < cnt s pre
  | _ => True
  end.
Proof. intros names l w pre it post D. apply WiringDecode.in_scope_spec. exact (WiringDecode.decode_scoped names l w D). Qed.
Print Assumptions structural_indices_in_scope.

(** 2. History invariant: after ANY sequence of API operations (accepted or rejected, including removals and
       unregistrations) every explicit argument edge was accepted by the subtype oracle for the import it designates,
       and it designates an import of the package its target instantiates. *)
Theorem arguments_type_checked : forall u ops e i,
  In e (edges (run u ops)) -> ek e = EArg i ->
  exists sn tn imps nm k,
    get_node (run u ops) (esrc e) = Some sn /\ get_node (run u ops) (etgt e) = Some tn /\
    inst_imports u (run u ops) tn = Some imps /\ nth_error imps i = Some (nm, k) /\
    u_sub u (nitem sn) k = true.
Proof. exact reach_args_checked. Qed.
Print Assumptions arguments_type_checked.

Theorem arguments_type_checked_step : forall u s o, Inv u s -> ArgsChecked u s -> ArgsChecked u (fst (step u s o)).
Proof. exact step_args_checked. Qed.
Print Assumptions arguments_type_checked_step.

(** the executable form evaluated on every model graph by ./check C01 *)
Theorem args_checked_decides : forall u g, args_checked_b u g = true <-> ArgsChecked u g.
Proof. exact args_checked_b_spec. Qed.
Print Assumptions args_checked_decides.

(** 3. Each instantiation passes EXACTLY one argument per import of the instantiated package: the indexes satisfied by
       explicit argument edges and the indexes left to implicit imports are disjoint and together are all imports ... *)
Theorem instantiation_complete : forall u ops n nd sat imps,
  get_node (run u ops) n = Some nd -> nk nd = NInst sat -> inst_imports u (run u ops) nd = Some imps ->
  Permutation (explicit_idx (run u ops) n ++ implicit_idx sat (length imps)) (seq 0 (length imps)) /\
  (forall i, In i (explicit_idx (run u ops) n) -> ~ In i (implicit_idx sat (length imps))).
Proof. intros u ops n nd sat imps. apply (idx_complete_checked u (run u ops) n nd sat imps (GraphTheorems.reach_inv u ops) (reach_args_checked u ops)). Qed.
Print Assumptions instantiation_complete.

(** ... so the instantiate item the specification (and, by C02, the encoder) emits carries the import names of the
    package, each exactly once ([same_names]: equal multiplicities for every name) *)
Theorem instantiation_complete_names : forall e u ops dc ord n nd sat imps,
  get_node (run u ops) n = Some nd -> nk nd = NInst sat -> inst_imports u (run u ops) nd = Some imps ->
  exists args, spec_inst e u (run u ops) dc ord n = WInst (comp_prov e (run u ops) dc n) args /\
    same_names (map arg_name args) (map (fun x : name * kid => nstr e (fst x)) imps).
Proof. intros e u ops dc ord n nd sat imps. apply (spec_inst_complete_checked e u (run u ops) dc ord n nd sat imps (GraphTheorems.reach_inv u ops) (reach_args_checked u ops)). Qed.
Print Assumptions instantiation_complete_names.

Theorem same_names_decides : forall a b, same_namesb a b = true <-> same_names a b.
Proof. exact same_namesb_spec. Qed.
Print Assumptions same_names_decides.

(** for every topological emission order and every behaviour of the type encoder: the instantiate items of the model
    encoder's output are the specified ones and each passes exactly the imports of its component
    ([inst_complete_b] is the predicate ./check C01 evaluates on the decoded REAL logs) *)
Theorem encoded_instantiations_complete : forall e u g dc tau ord st names w,
  EncInv e u g -> Inv u g -> ArgsChecked u g -> PkgIdent e u ->
  topo_orderb g ord = true ->
  encode_with_order e u g dc tau ord = ROk (st, names) ->
  (forall p, In p (e_dedup st) -> fst p = snd p) ->
  decode_wiring names (e_log st) = Some w ->
  w_insts w = map (spec_inst e u g dc ord) (filter (is_inst g) ord) /\ inst_complete_b e u w = true.
Proof. exact ValidFinal.encoded_instantiations_complete. Qed.
Print Assumptions encoded_instantiations_complete.

(** 4. The side condition [EncInv] of C02 [wiring_correct] holds of every reachable graph, given how a universe is built
       ([UnivOK]). That no type definition is exported under a second name ([DefsSingle]) holds of every reachable graph
       since [export(definition, other_name)] renames the definition (repaired finding C02-def-extra-export-name;
       [defs_single_reachable], from the history invariant [GraphDefExport.DefExp]). [KindInv] is the other history
       invariant behind it. *)
Theorem kind_inv_reachable : forall u ops, KindInv u (run u ops).
Proof. exact reach_kind_inv. Qed.
Print Assumptions kind_inv_reachable.

Theorem defs_single_reachable : forall u ops, DefsSingle (run u ops).
Proof. exact reach_defs_single. Qed.
Print Assumptions defs_single_reachable.

Theorem enc_inv_reachable : forall e u ops,
  UnivOK e u -> EncInv e u (run u ops).
Proof. exact ValidEncInv.enc_inv_reachable. Qed.
Print Assumptions enc_inv_reachable.

(** 5. FULL statement (not provable here): "whenever [CompositionGraph::encode] returns bytes they are accepted by the
       component-model validator, and encode never returns ValidationFailure for a graph reachable through accepted
       operations". PROVED PART: for every reachable graph, every topological emission order, both dependency modes and
       every behaviour of the type encoder, if the model encoder succeeds then its log decodes (no dangling or
       ill-sorted index), every instantiate item passes exactly the imports of its component (no missing, duplicated or
       extra argument), every argument edge satisfies the subtype oracle, and the exported names are exactly the names
       of the graph's export map, all of which designate live nodes (no stale export name).
       MISSING: the type-level content of the output (TypeEncoder: type definitions, `use` aliases, dependency imports,
       component types, resources) and the validator's own rules — searched by ./check C01 against the reference
       validator, not proved; and that the model encoder never reaches one of its three INDEX-bookkeeping panics
       (node index missing / set twice, encoded import missing), which needs the topological-order argument
       (all other panics are excluded by [encoder_panics_classified] below). *)
Theorem no_late_failure_partial : forall e u ops dc tau ord st names,
  UnivOK e u -> PkgIdent e u ->
  topo_orderb (run u ops) ord = true ->
  encode_with_order e u (run u ops) dc tau ord = ROk (st, names) ->
  (forall p, In p (e_dedup st) -> fst p = snd p) ->
  exists w,
    decode_wiring names (e_log st) = Some w /\
    log_in_scope [] (e_log st) = true /\
    inst_complete_b e u w = true /\
    args_checked_b u (run u ops) = true /\
    (forall nm s, In (nm, s) (map export_sig (w_exports w)) <-> In (nm, s) (spec_export_names e (run u ops))) /\
    (forall nm n, In (nm, n) (exports (run u ops)) -> live (run u ops) n = true).
Proof. exact no_late_failure_reachable. Qed.
Print Assumptions no_late_failure_partial.

(** 6. The model encoder's graph-consistency panics (instantiation without package, unexpected edge into an
       instantiation, argument index that is no import, alias without source / of a non-instance / of a missing
       export, definition without name, dead or import node in the emission order) are unreachable for graphs built
       through the API: what remains are the three index-bookkeeping sites and [XBadNode] as the model's rendering of a
       failed merge of an EXPLICIT import (a documented error, ImportTypeMergeConflict, in the current code). *)
Theorem encoder_node_panics_classified : forall e u g dc tau st n s,
  Inv u g -> GraphAlias.AliasInv u g -> KindInv u g -> ArgsChecked u g ->
  live g n = true -> is_import g n = false ->
  enc_node e u g dc tau st n = RErr (EPanic s) -> bookkeeping_site s = true.
Proof. exact enc_node_panics_classified. Qed.
Print Assumptions encoder_node_panics_classified.

Theorem encoder_panics_classified : forall e u ops dc tau ord s,
  (forall n, In n ord -> live (run u ops) n = true) ->
  encode_with_order e u (run u ops) dc tau ord = RErr (EPanic s) ->
  bookkeeping_site s = true \/
  (s = XBadNode /\ exists a0 impl, resolve_implicit e u (run u ops) = ROk (a0, impl) /\
     resolve_explicit e (run u ops) a0 (filter (is_import (run u ops)) ord) = RErr (EPanic XBadNode)).
Proof. exact encode_panics_classified_reachable. Qed.
Print Assumptions encoder_panics_classified.

Theorem encoder_bad_node_is_import_merge : forall e u g dc tau ord,
  Inv u g -> GraphAlias.AliasInv u g -> KindInv u g -> ArgsChecked u g ->
  (forall n, In n ord -> live g n = true) ->
  encode_with_order e u g dc tau ord = RErr (EPanic XBadNode) ->
  exists a n nd nm, In n ord /\ get_node g n = Some nd /\ nk nd = NImport nm /\
    agg_add a (nstr e nm) (we_sort e (nitem nd)) (we_iid e (nitem nd)) = AggKindMismatch.
Proof. exact encode_bad_node_is_import_merge. Qed.
Print Assumptions encoder_bad_node_is_import_merge.

(** Non-vacuity: a concrete universe and history (incl. an instantiation that is removed again together with the
    argument it fed) satisfying every hypothesis of [no_late_failure_partial]; the model encoder succeeds in both
    dependency modes with two complete instantiate items and two exports. *)
Example no_late_failure_nonvacuous :
  UnivOK v_env v_universe /\ PkgIdent v_env v_universe /\ DefsSingle (run v_universe v_ops) /\
  v_run true = Some (2, 2, true, true) /\ v_run false = Some (2, 2, true, true) /\
  args_checked_b v_universe (run v_universe v_ops) = true.
Proof. exact (conj v_univ_ok (conj v_pkg_ident (conj v_defs_single v_encodes))). Qed.
