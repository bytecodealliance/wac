(** Property C14: no input crashes the front end; diagnostics point inside the source.
    Statements, assembled from the lemmas of [proofs/NoPanic*.v] (lexer, parser, depth) and [proofs/Graph*.v].

    The model is the one of C12 ([model/Lexer.v], [model/Parser.v], tied to [lexer.rs] / [ast*.rs] by the
    C12 correspondence and again by the C14 one): every [unwrap] / [assert!] / [unreachable!] of the
    lexer and parser is an explicit outcome there -- [LPanic] (the [unwrap] in [Lexer::comments]),
    [PPanic 0] (an [LPanic] item handed on by the parser),
    [PPanic 1] ([lexer.next().unwrap()] after a peek), [PPanic 2] ([assert!(!types.is_empty())]),
    [PPanic 3] (string [strip_prefix/strip_suffix .unwrap()]), [PPanic 4] ([s.find('/').unwrap()]),
    [PPanic 9] ([assert!(lexer.next().is_none())]), an empty attempt list in an [Expected*] error
    ([Lookahead::error]: [unreachable!] / [attempts[0].unwrap()]) -- and recursion is on explicit fuel
    ([LFuel], [PFuel]).

    What a model cannot exhibit -- exhaustion of the machine stack, allocation failure, non-termination
    inside wasmparser / wit-component / miette -- is NOT claimed here; it is the business of the
    supervised search harness ([harness/src/bin/c14.rs]). [depth_unbounded] is the model-level form of
    the stack-overflow finding. The resolver ([resolution.rs]), the package decoder ([package.rs]) and
    the encoder ([encoding.rs]) are not modelled for this property: their panics are found (and were
    found) by the search only; the graph layer is covered by the C06 theorems restated at the end. *)
From Coq Require Import String.
From WacV Require Import Str StrLit Token Lexer LexTables LexImpl Semver Ast Parser.
From WacV Require Import NoPanicLexer NoPanicSpans NoPanicParser NoPanicTop NoPanicPkgPath.
From WacV Require Import Graph GraphInv GraphSteps GraphTheorems GraphLive GraphRank.
From Coq Require Import Lia.
Local Open Scope nat_scope.

(** [lexer_total]: for EVERY source text the lexer (screening, token rules, comment and doc-comment
    scanners, with the fuel [length src + 2] it gives itself) returns a finite stream in which
      - every item is a token, a lexer error or the not-modelled marker -- never the panic item (the
        [unwrap] in [Lexer::comments] is unreachable), never the out-of-fuel item;
      - progress: every token consumes at least one byte;
      - every token's text is the slice of the source at its span; spans of tokens, of the doc comments
        attached to them and of the lexer error lie inside the source on character boundaries;
      - only the last item can be an error / the marker.
    ([item_wf] also records the shape facts used by the parser: a string token is quoted, a package
    path contains [/], package tokens are ASCII.) *)
Theorem lexer_total src :
  Forall (item_wf src) (lex impl_cfg src) /\
  (forall t, In (LTok t) (lex impl_cfg src) -> (1 <= slen (tsp t))%N /\ span_ok src (tsp t)) /\
  (forall pre it post, lex impl_cfg src = pre ++ it :: post -> post <> [] -> exists t, it = LTok t).
Proof.
  pose proof (lex_wf impl_cfg src impl_tables_sane) as Hwf. split; [exact Hwf|]. split.
  - intros t Hin. rewrite Forall_forall in Hwf. specialize (Hwf _ Hin). split.
    + pose proof (item_wf_progress _ _ Hwf). lia.
    + now apply item_wf_span.
  - intros pre it post. unfold lex. destruct (screen impl_cfg src) as [[x sp]|].
    + intros H Hp. destruct pre as [|y pre]; cbn in H; inversion H; [congruence|]. destruct pre; discriminate.
    + apply lex_loop_stops.
Qed.
Print Assumptions lexer_total.

(** A good span is in bounds: [off + len <= |src|] (in bytes). *)
Theorem span_ok_in_bounds src sp : span_ok src sp -> (off sp + slen sp <= byte_len src)%N.
Proof. apply NoPanicLexer.span_ok_in_bounds. Qed.
Print Assumptions span_ok_in_bounds.

(** [parse_never_panics]: for EVERY source text, [Document::parse] (the model, with the fuel
    [length tokens + 1] it gives itself) does not end in any of the panic outcomes and does not run out
    of fuel. The remaining outcomes are a tree, an error, or the not-modelled marker (reached only when
    the lexer met a lexeme of the class the C12 model excludes, see [parse_returns_partial]). *)
Theorem parse_never_panics src :
  match parse_document impl_flags impl_cfg src with PPanic _ | PFuel => False | _ => True end.
Proof. exact (parse_never_panics_lemma src). Qed.
Print Assumptions parse_never_panics.

(** The fuel bound in general form: for any environment under the implementation's flags, any
    well-formed stream [ts] and ANY fuel above [length ts] the document parser neither panics nor runs
    out of fuel (so [length tokens + k] suffices for every [k >= 1]). *)
Theorem parser_fuel_suffices src e um ts :
  dv e = impl_flags -> wf src um ts -> length ts < fuel e ->
  match parse_document_items e ts with PPanic _ | PFuel => False | _ => True end.
Proof.
  intros Hd Hwf Hf. pose proof (parse_document_items_good src e Hd um ts Hwf Hf) as H.
  destruct (parse_document_items e ts); cbn [NoPanicParser.outcome] in H; auto.
Qed.
Print Assumptions parser_fuel_suffices.

(** [parse_returns_partial]. FULL statement: for every text the result is [Ok tree] (all tokens
    consumed) or [Err e]. PROVED for every text on which the lexer does not report the not-modelled
    marker; MISSING: the lexemes [a:b:], [a:b-], [re-] (a package name or keyword prefix directly followed
    by a dangling separator), where the C12 model does not predict the automaton generated by logos and
    the parser model answers [PUnmodelled] (those inputs are exercised by the search harness only). *)
Theorem parse_returns_partial src :
  ~ has_unmodelled (lex impl_cfg src) ->
  (exists doc, parse_document impl_flags impl_cfg src = POk doc []) \/
  (exists x, parse_document impl_flags impl_cfg src = PErr x /\ perror_span x <> None).
Proof. exact (parse_total_lemma src). Qed.
Print Assumptions parse_returns_partial.

(** Every [Expected] / [ExpectedEither] / [ExpectedMultiple] error lists at least one token. *)
Theorem expected_tokens_nonempty src at_ found sp :
  parse_document impl_flags impl_cfg src = PErr (PE_Expected at_ found sp) -> at_ <> [].
Proof. exact (expected_nonempty_lemma src at_ found sp). Qed.
Print Assumptions expected_tokens_nonempty.

(** The one slice of the parser that [Parser.v] models as a total function rather than as a panic outcome,
    [&s[slash + 1..at]] in [PackagePath::parse]: on every package-path token the lexer can produce the first
    [/] exists and lies at least two characters before the first [@] (if any), so the slice bounds are
    ordered and the [find('/').unwrap()] succeeds. *)
Theorem package_path_slice_never_panics src t :
  In (LTok t) (lex impl_cfg src) -> tk t = TPackagePath ->
  exists slash, find_char c_slash (ttext t) = Some slash /\
    match find_char c_atsign (ttext t) with Some at_ => S (S slash) <= at_ | None => True end.
Proof. exact (package_path_slice_never_panics_lemma src t). Qed.
Print Assumptions package_path_slice_never_panics.

(** [spans_in_bounds] (property text, full strength): every span carried by a node of a returned tree
    (identifiers, strings, package names/paths, compound nodes, doc comments: [document_spans]) or by a
    returned error -- the errors reported at the end of the input ([found = None], the rule of
    [Lexer::span]) included -- has both ends on character boundaries of the source ([span_ok]), hence
    satisfies [off + len <= |src|] ([span_ok_in_bounds] above). Every error of the implementation's
    grammar carries a span. *)
Theorem spans_in_bounds src :
  match parse_document impl_flags impl_cfg src with
  | POk d _ => Forall (span_ok src) (document_spans d)
  | PErr x => exists sp, perror_span x = Some sp /\ span_ok src sp
  | _ => True
  end.
Proof. exact (spans_lemma src). Qed.
Print Assumptions spans_in_bounds.

(** The rule itself: [Lexer::span] applied to a span whose ends are character boundaries yields a span
    whose ends are character boundaries -- the whole character holding the byte before the span when the
    span touches the end of the source, the empty span (0,0) when the source is empty. *)
Theorem lexer_span_in_bounds src start stop :
  boundary src start -> boundary src stop -> (start <= stop)%N -> span_ok src (lexer_span src start stop).
Proof. exact (lexer_span_ok src start stop). Qed.
Print Assumptions lexer_span_in_bounds.

(** Regression of the former finding [end-of-input-span] (the byte-counting rule [start - 1], length 1):
    (1) on the empty source the error span is now (0,0) (was (0,1): outside the source); (2) on
    [package a:b // \u00e9] (17 bytes) it is now (15,2), the whole two-byte character (was (16,1): inside
    it). Both texts are fixed cases of [./check C14] and must pass there. *)
Theorem eof_span_witnesses_in_bounds :
  (exists x, parse_document impl_flags impl_cfg w_empty = PErr x /\
             perror_span x = Some {| off := 0; slen := 0 |} /\ span_ok w_empty {| off := 0; slen := 0 |}) /\
  (exists x, parse_document impl_flags impl_cfg w_midchar = PErr x /\
             perror_span x = Some {| off := 15; slen := 2 |} /\ span_ok w_midchar {| off := 15; slen := 2 |} /\
             (15 + 2 <= byte_len w_midchar)%N).
Proof. exact eof_witnesses_in_bounds. Qed.
Print Assumptions eof_span_witnesses_in_bounds.

(** [depth_unbounded]: the parser has no depth guard. For every [d] there is a source of at most [2d + 20]
    characters that is accepted and whose tree nests at least [d] expressions; each level is one
    activation of the mutually recursive [Expr::parse] / [PrimaryExpr::parse] / [NestedExpr::parse]
    ([parse_expr_f] consumes one unit of fuel per level). On the real code this is the stack overflow
    found by the search (known finding [deep-nesting-stack-overflow]). *)
Theorem depth_unbounded :
  forall d, exists src, length src <= 2 * d + 20 /\
                        rec_depth (parse_document impl_flags impl_cfg src) >= d.
Proof.
  intros d. exists (deep_src d). split; [rewrite deep_src_length; lia|].
  destruct (deep_parse d) as (doc & E & Hd). rewrite E, Hd. lia.
Qed.
Print Assumptions depth_unbounded.

(** [rec_depth] measures recursion: an expression of nesting depth [n] is never returned by the
    expression parser with fewer than [n] units of recursion fuel, i.e. with fewer than [n] nested
    activations of [Expr::parse]. *)
Theorem depth_is_recursion_depth e f ts x r :
  parse_expr_f f e ts = POk x r -> expr_depth x <= f.
Proof. exact (parse_expr_f_depth e f ts x r). Qed.
Print Assumptions depth_is_recursion_depth.

(** The composition-graph operations ([graph.rs], model [Graph.v]): under the invariant no operation
    reaches one of the bookkeeping panics ([assert!(inserted)], [assert!(removed)], "node should be an
    instantiation", "unexpected edge", dead node in a name map, missing export/import/definition), *)
Theorem graph_ops_no_bookkeeping_panic : forall u s o,
  Inv u s ->
  snd (step u s o) <> OPanic PSatInsert /\ snd (step u s o) <> OPanic PSatRemove /\
  snd (step u s o) <> OPanic PNotInstantiation /\ snd (step u s o) <> OPanic PUnexpectedEdge /\
  snd (step u s o) <> OPanic PDeadNodeInMap /\ snd (step u s o) <> OPanic PExportMissing /\
  snd (step u s o) <> OPanic PImportMissing /\ snd (step u s o) <> OPanic PDefinedMissing.
Proof. exact step_no_bookkeeping_panic. Qed.
Print Assumptions graph_ops_no_bookkeeping_panic.

(** and after ANY history of operations an operation on live identifiers does not panic at all. *)
Theorem graph_ops_no_panic_live : forall u ops o,
  UniverseWF u -> LiveOp u (run u ops) o -> forall p, snd (step u (run u ops) o) <> OPanic p.
Proof. exact step_no_panic_live. Qed.
Print Assumptions graph_ops_no_panic_live.

(** A document with doc comments, multi-byte text, versions, nested types and expressions is accepted
    and all its 31 spans satisfy the (executable form of the) span predicate; a truncated one is rejected
    with an in-source span. *)
Definition w_rich : str :=
  L"/// top" ++ [10%N] ++ L"package a:b@1.0.0 targets c:d/e; /* " ++ [233%N; 26085%N] ++
  L" */ import f: func(x: list<tuple<u8, option<string>>>) -> result<_, s32>; " ++
  L"/** doc */ let y = new g:h { f, ""k"": (f), ... }.z[""w""]; export y as ""q"";".

Example rich_document_spans :
  match parse_document impl_flags impl_cfg w_rich with
  | POk d [] => length (document_spans d) = 31 /\ forallb (span_okb w_rich) (document_spans d) = true
  | _ => False
  end.
Proof. vm_compute. split; reflexivity. Qed.

Example truncated_document_error :
  parse_document impl_flags impl_cfg (L"package a:b; let x = new c:d { a: ]") =
  PErr (PE_Expected [TNewKeyword; TOpenParen; TIdent] (Some TCloseBracket) {| off := 34; slen := 1 |}).
Proof. vm_compute. reflexivity. Qed.
