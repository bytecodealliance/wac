(** Property C09 — merged import requirements satisfy every contributor, order-independently.

    This file holds statements only; every proof is an immediate repackaging of lemmas of proofs/Aggregator*.v.
    Model: model/Aggregator.v ([aggregate], [aggregate_all], [imports], [canonical]); specification:
    spec/AggregatorSpec.v, spec/NamesSpec.v ([compat_spec_b], [higher]), spec/SubSpec.v ([SubCM], [sub_b]).

    A *history* is a list of contributions [(name, (types, kind))] aggregated in order into the empty aggregator
    with one shared checker: [aggregate_all ord cf fuel (agg0 tag) st0 l 0 = inl (a, s)] says that all of them
    succeeded and left the aggregator [a].  [ord] is the iteration order of the [interfaces] table.

    Overview (clauses of the property -> theorems):
      canonical name = highest contributed version, one per track, idempotent, redirects total, other tracks untouched
          canonical_is_highest_partial, redirects_total_partial, canonical_idempotent_partial, canonical_is_spec_partial,
          other_tracks_untouched_partial, canonical_order_indep_partial            (owner-free histories)
          canonical_is_highest_refuted                                             (general: owned resources)
      merged type satisfies every contributor
          merge_upper_bound_partial                                                (flat histories)
          merge_upper_bound_nested_partial, nested_history_invariant, tmerge_is_meet (nested anonymous instances, section 4)
          merge_upper_bound_refuted                                                (general: component requirements)
      instance requirements merge to the union / equal requirements merge to themselves / idempotence
          instance_merge_is_union_partial, aggregate_idempotent_partial, flat_history_invariant   (flat)
          instance_merge_is_union_nested_partial, aggregate_idempotent_nested_partial          (nested, section 4)
      order independence
          aggregate_order_indep_partial (flat, both orders succeed), canonical_order_indep_partial (owner-free)
          aggregate_order_indep_nested_partial                                     (nested, both orders succeed)
          aggregate_order_indep_refuted, aggregate_order_indep_map_refuted         (general)
      fails exactly on conflict
          fails_iff_conflict_partial ("conflict => failure", flat); fails_iff_conflict_refuted (general, other direction)
          fails_iff_conflict_nested_partial (nested); nested_interface_table_refuted (nested interfaces with an identifier)
      fuel: aggregate_fuel_monotone, nested_fuel_bound, nested_fuel_suffices (section 5)
    The model follows the repaired aggregator (repository commits 874f221 and 0bf540d: nested instance exports are merged
    recursively; an aliased primitive is not recorded as replacement of the primitive; and the repair of known finding
    nested-interface-with-two-parents: an interface without an identifier is copied once per mention instead of being
    shared through the remap table).  The witnesses that refuted the general statements before the repairs are kept as
    regression Examples ([repaired_witnesses], [repaired_shared_child]).
    Not proved: "failure only on conflict" and "success is order independent" for flat histories (need completeness of the
    checker at the given fuel and panic-freedom of the copy); anything about `use`d types and resources beyond the model
    itself (their behaviour is covered by the correspondence and the executable specification only). *)
From Coq Require Import Permutation.
From WacV Require Import Str Names NamesSpec Types Checker SubSpec Aggregator AggregatorSpec.
From WacV Require Import SubSpecProofs AggregatorFrame AggregatorNames AggregatorCanonical AggregatorRemap AggregatorFlat
     AggregatorHistory AggregatorWitness StrFacts.

Notation history_ok ord cf fuel tag l a s := (aggregate_all ord cf fuel (agg0 tag) st0 l 0 = inl (a, s)).
(** the concrete histories of the refutations run with the identity HashMap order, checker fuel 40, fuel 60 *)
Lemma run_is : forall l, run l = aggregate_all (fun x => x) 40 60 (agg0 0) st0 l 0.
Proof. reflexivity. Qed.
Notation owner_free_history l := (Forall (fun c : str * (types * kind) => owner_free (fst (snd c))) l).

(** * 1. Canonical names

    Full statement (for every history): after any sequence of successful aggregations every contributed name maps,
    through the redirects, to ONE canonical name per semver track; that name was contributed, is an import, and no
    contributed name of the track has a higher version; [canonical] is idempotent; names of other tracks are untouched.

    FALSE of the faithful model in general ([canonical_is_highest_refuted] below, replayed on the real aggregator:
    known finding owner-import-bypasses-canonical-name).  Proved for histories in which no contributor collection
    contains a resource alias with an owning interface ([owner_free]: [remap_resource] then never touches the imports). *)
Theorem canonical_is_highest_partial : forall ord cf fuel tag l a s,
  owner_free_history l -> history_ok ord cf fuel tag l a s ->
  forall n, In n (map fst l) ->
    In (Aggregator.canonical a n) (map fst l) /\
    compat_spec_b n (Aggregator.canonical a n) = true /\
    (forall m, In m (map fst l) -> compat_spec_b n m = true -> higher m (Aggregator.canonical a n) = false) /\
    (forall m, In m (map fst l) -> compat_spec_b n m = true -> Aggregator.canonical a m = Aggregator.canonical a n).
Proof. intros ord cf fuel tag l a s OF H. exact (history_canonical_is_highest ord cf fuel tag l a s OF H). Qed.
Print Assumptions canonical_is_highest_partial.

Theorem redirects_total_partial : forall ord cf fuel tag l a s,
  owner_free_history l -> history_ok ord cf fuel tag l a s ->
  (forall n, In n (map fst l) -> In (Aggregator.canonical a n) (map fst (imports a))) /\
  (forall k, In k (map fst (imports a)) -> In k (map fst l) /\ Aggregator.canonical a k = k) /\
  (forall k1 k2, In k1 (map fst (imports a)) -> In k2 (map fst (imports a)) -> compat_spec_b k1 k2 = true -> k1 = k2).
Proof.
  intros ord cf fuel tag l a s OF H. split; [|split].
  - exact (history_redirects_total ord cf fuel tag l a s OF H).
  - exact (history_imports_contributed ord cf fuel tag l a s OF H).
  - exact (history_one_import_per_track ord cf fuel tag l a s OF H).
Qed.
Print Assumptions redirects_total_partial.

Theorem canonical_idempotent_partial : forall ord cf fuel tag l a s,
  owner_free_history l -> history_ok ord cf fuel tag l a s ->
  forall n, Aggregator.canonical a (Aggregator.canonical a n) = Aggregator.canonical a n.
Proof. intros ord cf fuel tag l a s OF H. exact (history_canonical_idempotent ord cf fuel tag l a s OF H). Qed.
Print Assumptions canonical_idempotent_partial.

(** ... and it is the name the executable specification ([spec_canonical], evaluated by the check on the implementation's
    observations) computes from the list of contributed names *)
Theorem canonical_is_spec_partial : forall ord cf fuel tag l a s,
  owner_free_history l -> history_ok ord cf fuel tag l a s ->
  forall n, In n (map fst l) -> Aggregator.canonical a n = spec_canonical (map fst l) n.
Proof. intros ord cf fuel tag l a s OF H. exact (history_canonical_is_spec ord cf fuel tag l a s OF H). Qed.
Print Assumptions canonical_is_spec_partial.

(** two successful histories over the same contributed names (any order, any HashMap order, any fuel) give every name the
    same canonical name and import the same names *)
Theorem canonical_order_indep_partial : forall ord ord' cf fuel cf' fuel' tag tag' l l' a a' s s',
  owner_free_history l -> owner_free_history l' -> (forall n, In n (map fst l) <-> In n (map fst l')) ->
  history_ok ord cf fuel tag l a s -> history_ok ord' cf' fuel' tag' l' a' s' ->
  (forall n, In n (map fst l) -> Aggregator.canonical a n = Aggregator.canonical a' n) /\
  (forall k, In k (map fst (imports a)) -> In k (map fst (imports a'))).
Proof.
  intros ord ord' cf fuel cf' fuel' tag tag' l l' a a' s s' O O' P H H'. split.
  - exact (canonical_order_indep ord ord' cf fuel cf' fuel' tag tag' l l' a a' s s' O O' P H H').
  - exact (import_names_order_indep ord ord' cf fuel cf' fuel' tag tag' l l' a a' s s' O O' P H H').
Qed.
Print Assumptions canonical_order_indep_partial.

(** one more aggregation leaves the canonical name of every name of another track alone *)
Theorem other_tracks_untouched_partial : forall ord cf fuel tag l a s name t k a' s',
  owner_free_history l -> history_ok ord cf fuel tag l a s -> owner_free t ->
  aggregate ord cf fuel a s name t k = AOk (a', s') ->
  forall m, compat m name = false -> Aggregator.canonical a' m = Aggregator.canonical a m.
Proof.
  intros ord cf fuel tag l a s name t k a' s' OF H OFt E m C.
  exact (aggregate_other_tracks ord cf fuel a s name t k a' s' _ m OFt (history_inv ord cf fuel tag l a s OF H) E C).
Qed.
Print Assumptions other_tracks_untouched_partial.

(** with owned resources: two imports on one track after a successful history, and aggregating the same
    requirements once more changes the import list (refutes [redirects_total] and [aggregate_idempotent] in general) *)
Theorem canonical_is_highest_refuted :
  exists l a s k1 k2, run l = inl (a, s) /\
    In k1 (map fst (imports a)) /\ In k2 (map fst (imports a)) /\ str_eqb k1 k2 = false /\ compat_spec_b k1 k2 = true /\
    exists a2 s2, aggregate_all (fun x => x) 40 60 a s l 0 = inl (a2, s2) /\
                  list_eqb str_eqb (map fst (imports a2)) (map fst (imports a)) = false.
Proof. exists w_owner. exact owner_witness. Qed.
Print Assumptions canonical_is_highest_refuted.

(** * 2. The merged type satisfies every contributor

    Full statement: for every successful history and every contribution (n, (t, k)) of it,
      Sub (unfold (a_types a) (imports a (canonical a n))) (unfold t k).
    FALSE of the faithful model: component requirements with different imports are merged by uniting the imports, which no
    contributor's requirement is satisfied by (replayed on the real aggregator and SubtypeChecker on every run: known finding
    component-imports-united).  (Before repository commit 0bf540d nested instances refuted it as well; see
    [repaired_witnesses].) *)
Theorem merge_upper_bound_refuted :
  exists l a s tm, run l = inl (a, s) /\ merged_tree a [102;111;111] = Some tm /\
    forall c, In c l -> exists tr, req_tree c = Some tr /\ ~ SubCM tm tr.
Proof.
  destruct upper_bound_witness_component as [a [s [tm [H1 [H2 H3]]]]].
  exists w_comp, a, s, tm. refine (conj H1 (conj H2 _)). intros c Hc. destruct (H3 c Hc) as [tr [E X]]. exists tr.
  refine (conj E _). intro Y. apply sub_b_iff in Y. congruence.
Qed.
Print Assumptions merge_upper_bound_refuted.

(** Proved for FLAT histories.  Vocabulary (proofs/AggregatorRemap.v, AggregatorFlat.v, AggregatorHistory.v):
    - [Col] is the set of contributor collections; two members with one arena tag are the same collection, and no member
      has the aggregator's tag [tag0];
    - [UnfK t k tr] := exists g, unfold g t k = Some tr        (the kind denotes the tree, at some fuel);
    - [leafk k]: k is a function, a value, or a value type      (KFunc | KValue | KType (TValue _));
    - [flat_if t x]: interface x has no uses, pairwise different export names, and every export is a leaf kind that
      denotes a resource-free tree in t;
    - [flat_contrib Col (n, (t, k))]: Col t, t has no owned resource alias, k = KInstance i with [flat_if t (t[i])], and the
      interface has no identifier or the import name itself as identifier (what world imports look like);
    - [ord] only ever yields entries of the table it is given ([forall l x, In x (ord l) -> In x l]);
    - [ckey]: the contributed interface (with its arena tag): each interface is contributed once.
    No fuel hypothesis is needed: the theorem speaks about successful histories, and an accepting checker verdict is
    sound whatever the fuel (AggregatorChecker.v).  Not covered: components (refuted above), resources,
    `use`d types, interfaces whose identifier differs from the import name, one interface contributed twice.
    Nested instances: the recursive invariant is [NestInv], section 4 ([merge_upper_bound_nested_partial]). *)
Theorem merge_upper_bound_partial : forall ord cf fuel (Col : types -> Prop) tag0,
  (forall l x, In x (ord l) -> In x l) ->
  (forall t1 t2, Col t1 -> Col t2 -> t_tag t1 = t_tag t2 -> t1 = t2) -> (forall t, Col t -> t_tag t <> tag0) ->
  forall l a s, Forall (flat_contrib Col) l -> NoDup (map ckey l) -> history_ok ord cf fuel tag0 l a s ->
  forall c, In c l -> forall tr, UnfK (fst (snd c)) (snd (snd c)) tr ->
    exists merged tm, assoc (Aggregator.canonical a (fst c)) (imports a) = Some merged /\
                      UnfK (a_types a) merged tm /\ SubCM tm tr.
Proof. intros ord cf fuel Col tag0 Ho Hs Ht. exact (flat_upper_bound ord Ho cf fuel Col Hs tag0 Ht). Qed.
Print Assumptions merge_upper_bound_partial.

(** [instance_merge_is_union] (and, for a requirement whose exports are all present already, [aggregate_idempotent] /
    [equal_requirements_merge_to_self] in the form "nothing observable changes"): one successful aggregation of a flat
    requirement into the import that carries its name (exact, or the semver-compatible one) leaves that import an
    interface whose export names are the first-seen union; every export keeps its tree (see [flat_upper_bound]'s
    invariant [carried] / [grows] in AggregatorHistory.v).  For nested instances see
    [instance_merge_is_union_nested_partial] (section 4); for named interfaces shared between imports the statement is
    false ([nested_interface_table_refuted]). *)
Theorem instance_merge_is_union_partial : forall ord cf fuel (Col : types -> Prop) tag0,
  (forall t1 t2, Col t1 -> Col t2 -> t_tag t1 = t_tag t2 -> t1 = t2) -> (forall t, Col t -> t_tag t <> tag0) ->
  forall a s done c a' s' y oid exs,
  HInv Col tag0 a s done -> flat_contrib Col c ->
  (assoc (fst c) (a_imports a) = Some (KInstance y) \/
   (assoc (fst c) (a_imports a) = None /\ exists en, find_compat (fst c) (a_imports a) = Some (en, KInstance y))) ->
  get_if (a_types a) y = Some (mkif oid [] exs) ->
  aggregate ord cf fuel a s (fst c) (fst (snd c)) (snd (snd c)) = AOk (a', s') ->
  forall i x, snd (snd c) = KInstance i -> get_if (fst (snd c)) i = Some x ->
    exists exs', get_if (a_types a') y = Some (mkif oid [] exs') /\
                 map fst exs' = first_seen_union (map fst exs) (map fst (i_exports x)).
Proof.
  intros ord cf fuel Col tag0 Hs Ht a s done c a' s' y oid exs HI Hfc Hw Hy H i x Ek Hg.
  destruct (aggregate_merges ord cf fuel Col Hs tag0 Ht a s done c a' s' y oid exs HI Hfc Hw Hy H i x Ek Hg) as [exs' [Hy' [K _]]].
  eauto.
Qed.
Print Assumptions instance_merge_is_union_partial.

(** [aggregate_idempotent] / [equal_requirements_merge_to_self], flat form: aggregating a requirement all of whose exports
    the import already offers leaves the export names and the tree of every export as they were (if it succeeds; that it
    does succeed for equal requirements needs the completeness of the checker at the given fuel - not proved here).
    General [aggregate_idempotent]: refuted by [canonical_is_highest_refuted] (owned resources). *)
Theorem aggregate_idempotent_partial : forall ord cf fuel (Col : types -> Prop) tag0,
  (forall t1 t2, Col t1 -> Col t2 -> t_tag t1 = t_tag t2 -> t1 = t2) -> (forall t, Col t -> t_tag t <> tag0) ->
  forall a s done c a' s' y oid exs,
  HInv Col tag0 a s done -> flat_contrib Col c ->
  (assoc (fst c) (a_imports a) = Some (KInstance y) \/
   (assoc (fst c) (a_imports a) = None /\ exists en, find_compat (fst c) (a_imports a) = Some (en, KInstance y))) ->
  get_if (a_types a) y = Some (mkif oid [] exs) ->
  aggregate ord cf fuel a s (fst c) (fst (snd c)) (snd (snd c)) = AOk (a', s') ->
  forall i x, snd (snd c) = KInstance i -> get_if (fst (snd c)) i = Some x ->
    (forall en ek, In (en, ek) (i_exports x) -> In en (map fst exs)) ->
    exists exs', get_if (a_types a') y = Some (mkif oid [] exs') /\ map fst exs' = map fst exs /\
                 forall en k tr, assoc en exs = Some k -> UnfK (a_types a) k tr ->
                                 exists k', assoc en exs' = Some k' /\ UnfK (a_types a') k' tr.
Proof.
  intros ord cf fuel Col tag0 Hs Ht a s done c a' s' y oid exs HI Hfc Hw Hy H i x Ek Hg Hsub.
  destruct (aggregate_merges ord cf fuel Col Hs tag0 Ht a s done c a' s' y oid exs HI Hfc Hw Hy H i x Ek Hg) as [exs' [Hy' [K Old]]].
  exists exs'. split; [exact Hy'|]. split; [|exact Old].
  rewrite K. apply fsu_subset. intros k0 Hk0. apply in_map_iff in Hk0 as [[en ek] [<- Hin]]. now apply (Hsub en ek).
Qed.
Print Assumptions aggregate_idempotent_partial.

(** [HInv] is the invariant of flat histories: it holds initially and after every successful flat aggregation. *)
Theorem flat_history_invariant : forall ord cf fuel (Col : types -> Prop) tag0,
  (forall l x, In x (ord l) -> In x l) ->
  (forall t1 t2, Col t1 -> Col t2 -> t_tag t1 = t_tag t2 -> t1 = t2) -> (forall t, Col t -> t_tag t <> tag0) ->
  HInv Col tag0 (agg0 tag0) st0 [] /\
  forall a s done c a' s', HInv Col tag0 a s done -> flat_contrib Col c -> ~ In (ckey c) (map ckey done) ->
    aggregate ord cf fuel a s (fst c) (fst (snd c)) (snd (snd c)) = AOk (a', s') -> HInv Col tag0 a' s' (c :: done).
Proof.
  intros ord cf fuel Col tag0 Ho Hs Ht. split; [exact (HInv_nil Col tag0) | exact (HInv_step ord Ho cf fuel Col Hs tag0 Ht)].
Qed.
Print Assumptions flat_history_invariant.

(** * 3. Order independence and failure

    Full statements: for permutations of the contributor list success is the same and the name -> tree map is the
    same up to the order of imports and exports; aggregation fails exactly when two contributors require
    incompatible definitions of one item.  FALSE of the faithful model (known finding interface-id-under-two-import-names:
    an interface identifier contributed under two import names is unified with the first interface of that identifier, but
    only when the second name is new at that moment): *)
Theorem aggregate_order_indep_refuted :
  exists l l', Permutation l l' /\ (exists a s, run l = inl (a, s)) /\ (exists p e, run l' = inr (p, AErr e)).
Proof. exact order_witness. Qed.
Print Assumptions aggregate_order_indep_refuted.

(** Proved for flat multisets, under the hypothesis that BOTH orders succeed: the canonical names agree and the merged
    requirement of every contributed name is the same tree up to the order of its exports (each is a subtype of the
    other).  Missing for the full partial statement ("success is the same"): completeness of the checker at the given
    fuel and absence of panics in the copy, i.e. a sufficient-fuel / well-formedness development for the aggregator's
    own growing collection (the fuel a copied type needs is not bounded by the contributors' fuel: a remapped alias chain
    can be longer than the source's). *)
Theorem aggregate_order_indep_partial : forall ord cf fuel (Col : types -> Prop) tag0,
  (forall l x, In x (ord l) -> In x l) ->
  (forall t1 t2, Col t1 -> Col t2 -> t_tag t1 = t_tag t2 -> t1 = t2) -> (forall t, Col t -> t_tag t <> tag0) ->
  forall l l' a s a' s', Forall (flat_contrib Col) l -> NoDup (map ckey l) -> Permutation l l' ->
  history_ok ord cf fuel tag0 l a s -> history_ok ord cf fuel tag0 l' a' s' ->
  forall n, In n (map fst l) ->
    Aggregator.canonical a n = Aggregator.canonical a' n /\
    exists m m' tm tm', assoc (Aggregator.canonical a n) (imports a) = Some m /\
                        assoc (Aggregator.canonical a' n) (imports a') = Some m' /\
                        UnfK (a_types a) m tm /\ UnfK (a_types a') m' tm' /\ SubCM tm tm' /\ SubCM tm' tm.
Proof. intros ord cf fuel Col tag0 Ho Hs Ht. exact (flat_order_indep ord Ho cf fuel Col Hs tag0 Ht). Qed.
Print Assumptions aggregate_order_indep_partial.

(** [fails_iff_conflict], the direction "a conflict makes the aggregation fail", for flat histories: in a successful
    history two contributions of one track agree on the tree of every export they share ([exports_of c en tr]: contribution
    c requires an export en with tree tr).  The converse (failure only on conflict) is refuted in general below and is
    not proved for flat histories (it needs the completeness/totality development mentioned above). *)
Theorem fails_iff_conflict_partial : forall ord cf fuel (Col : types -> Prop) tag0,
  (forall l x, In x (ord l) -> In x l) ->
  (forall t1 t2, Col t1 -> Col t2 -> t_tag t1 = t_tag t2 -> t1 = t2) -> (forall t, Col t -> t_tag t <> tag0) ->
  forall l a s, Forall (flat_contrib Col) l -> NoDup (map ckey l) -> history_ok ord cf fuel tag0 l a s ->
  forall c1 c2, In c1 l -> In c2 l -> compat_spec_b (fst c1) (fst c2) = true ->
  forall en tr1 tr2, exports_of c1 en tr1 -> exports_of c2 en tr2 -> tr1 = tr2.
Proof.
  intros ord cf fuel Col tag0 Ho Hs Ht l a s HF ND H c1 c2 H1 H2.
  apply (HInv_no_conflict Col tag0 a s (rev l) c1 c2 (HInv_run ord Ho cf fuel Col Hs tag0 Ht l a s HF ND H)); now apply -> in_rev.
Qed.
Print Assumptions fails_iff_conflict_partial.

(** the merged map itself can depend on the order even when every order succeeds (one interface identifier under two
    import names) *)
Theorem aggregate_order_indep_map_refuted :
  exists l l' a s a' s' n t t', Permutation l l' /\ run l = inl (a, s) /\
    run l' = inl (a', s') /\ merged_tree a n = Some t /\ merged_tree a' n = Some t' /\ ~ SubCM t' t.
Proof.
  destruct shared_id_witness as [l [l' [a [s [a' [s' [n [t [t' [P [H1 [H2 [H3 [H4 H5]]]]]]]]]]]]]].
  exists l, l', a, s, a', s', n, t, t'. refine (conj P (conj H1 (conj H2 (conj H3 (conj H4 _))))).
  intro X. apply sub_b_iff in X. congruence.
Qed.
Print Assumptions aggregate_order_indep_map_refuted.

(** failure without a conflict: three contributions, the first alone on its name, the other two under one other name with
    a merge that satisfies both - and the aggregation fails (same witness, the failing order) *)
Theorem fails_iff_conflict_refuted :
  exists l p e tb tc tm, run l = inr (p, AErr e) /\ length l = 3%nat /\
    compat_spec_b (fst (nth 0 l dflt)) (fst (nth 1 l dflt)) = false /\ fst (nth 1 l dflt) = fst (nth 2 l dflt) /\
    req_tree (nth 1 l dflt) = Some tb /\ req_tree (nth 2 l dflt) = Some tc /\
    tmerge tb tc = Some tm /\ SubCM tm tb /\ SubCM tm tc.
Proof.
  destruct failure_witness_shared as [l [p [e [tb [tc [tm [H1 [H2 [_ [H4 [H5 [H6 [H7 [H8 [H9 H10]]]]]]]]]]]]]]].
  exists l, p, e, tb, tc, tm.
  refine (conj H1 (conj H2 (conj H5 (conj _ (conj H6 (conj H7 (conj H8 (conj _ _)))))))); [|now apply sub_b_iff|now apply sub_b_iff].
  now apply str_eqb_eq.
Qed.
Print Assumptions fails_iff_conflict_refuted.

(** Regression: the witnesses that refuted [merge_upper_bound], [aggregate_order_indep] and [fails_iff_conflict] before the
    repairs 0bf540d (nested instances) and 874f221 (alias of a primitive) now behave as the property demands: nested
    instances {a} + {a,b} and {a} + {b} merge to a type every contributor is satisfied by, a conflict below a nested
    instance fails in every order, and the aliased primitive no longer panics.  (The same case lines are replayed on the
    real aggregator from corpus/C09/cases.txt.) *)
Example repaired_witnesses :
  (exists a s tm, run w_nested = inl (a, s) /\ merged_tree a [102;111;111] = Some tm /\
                  forall c, In c w_nested -> exists tr, req_tree c = Some tr /\ sub_b tm tr = true) /\
  (exists a s tm, run w_disjoint = inl (a, s) /\ merged_tree a [102;111;111] = Some tm /\
                  forall c, In c w_disjoint -> exists tr, req_tree c = Some tr /\ sub_b tm tr = true) /\
  (exists a s tm, run w_panic = inl (a, s) /\ merged_tree a [102;111;111] = Some tm /\
                  forall c, In c w_panic -> exists tr, req_tree c = Some tr /\ sub_b tm tr = true) /\
  (exists p e, run w_order = inr (p, AErr e)).
Proof. exact (conj nested_now_united (conj disjoint_now_united (conj alias_primitive_no_panic (proj1 nested_conflict_fails)))). Qed.

(** Non-vacuity of the flat theorems: interfaces {f}, {g}, {f,h} identified by their import names, three versions of one
    track, merge to the union under the highest version. *)
Example flat_nonvacuous :
  Forall (flat_contrib flat_col) w_flat /\ NoDup (map ckey w_flat) /\
  (forall t1 t2, flat_col t1 -> flat_col t2 -> t_tag t1 = t_tag t2 -> t1 = t2) /\ (forall t, flat_col t -> t_tag t <> 0) /\
  exists a s, run w_flat = inl (a, s) /\ map fst (imports a) = [n_023] /\
              merged_tree a n_023 =
              Some (XInst [([102], XFunc (mkft [] None false)); ([103], XFunc (mkft [([120], VTPrim PU8)] None false));
                           ([104], XFunc (mkft [] (Some (VTPrim PString)) false))]).
Proof. exact (conj w_flat_flat (conj w_flat_distinct (conj flat_col_same (conj flat_col_tag flat_merged)))). Qed.

(** Non-vacuity of the partial theorems: three versions of one track arriving as 0.2.1, 0.2.0, 0.2.3. *)
Example canonical_nonvacuous :
  owner_free_history w_flat /\
  exists a s, run w_flat = inl (a, s) /\ map fst (imports a) = [n_023] /\
              map (Aggregator.canonical a) (map fst w_flat) = [n_023; n_023; n_023].
Proof.
  split; [exact w_flat_owner_free|]. destruct flat_run as [a [s [H1 [H2 [H3 _]]]]]. exists a, s. exact (conj H1 (conj H2 H3)).
Qed.

(** * 4. NESTED instance requirements (instance exports below instance exports; repository commit 0bf540d)

    Scope of this section ([nested_contrib Col c], proofs/AggregatorNestedDen.v, AggregatorNestedHistory.v): the contribution is
    [KInstance i] and [i] is the root of a nest of interfaces of its collection: no `use`s, pairwise different export
    names, every export is a leaf (function, value, value type with a resource-free tree) or again an instance whose
    interface is ANONYMOUS ([SIDen]); the root has no identifier or the import name as identifier; no owned resource
    aliases.  Nothing is assumed about SHARING: one anonymous interface may be mentioned under several exports of one
    contribution, by several contributions, under several import names, and one contribution may occur several times in
    a history.  The executable form of the hypothesis is [ncontrib_b]
    ([nested_contrib_decidable]).

    Invariant [NestInv Col tag0 a s done] (the tree-shaped generalisation of [HInv]):
      - the names bookkeeping [NInv] and the remap/memo invariant [MInv] as in [HInv];
      - OWNERSHIP: every import is the root of a TREE in the aggregator's collection ([IDen]: inside one tree no interface has
        two parents, [shaped] - the aggregator copies an anonymous interface once per mention) and the trees of different
        imports share no interface; hence a merge below one import, or below one export, leaves every other one alone
        ([MFrame]): nothing asked of one name leaks into another;
      - SEMANTICS: the tree of import [n] is the left-to-right [tmerge] (spec/AggregatorSpec.v: recursive first-seen union,
        equal leaves) of the trees of the contributions whose canonical name is [n], in arrival order ([MergedOf]).
    The link model -> specification is [ML_all] (proofs/AggregatorNestedMerge.v): a successful [merge_interface] of a
    nested requirement into a nested interface computes [union_with (tmerge_f n)]; no fuel hypothesis is needed (all
    statements are about successful aggregations; [deep_run] shows that fuel 60 suffices for a depth-3 history, and
    results other than out-of-fuel do not depend on the fuel).
    NOT covered: nested interfaces WITH an identifier (they are unified through the interface table: refuted below),
    `use`d types, resources, components. *)
From WacV Require Import AggregatorNestedSpec AggregatorNestedDen AggregatorNestedMerge AggregatorNestedHistory
     AggregatorNestedTheorems AggregatorNestedWitness.

(** [NestInv] holds initially and after every successful aggregation of a nested contribution. *)
Theorem nested_history_invariant : forall ord cf fuel (Col : types -> Prop) tag0,
  (forall l x, In x (ord l) -> In x l) ->
  (forall t1 t2, Col t1 -> Col t2 -> t_tag t1 = t_tag t2 -> t1 = t2) -> (forall t, Col t -> t_tag t <> tag0) ->
  NestInv Col tag0 (agg0 tag0) st0 [] /\
  forall a s done c a' s', NestInv Col tag0 a s done -> nested_contrib Col c ->
    aggregate ord cf fuel a s (fst c) (fst (snd c)) (snd (snd c)) = AOk (a', s') -> NestInv Col tag0 a' s' (c :: done).
Proof.
  intros ord cf fuel Col tag0 Ho Hs Ht. split; [exact (NestInv_nil Col tag0)|].
  intros a s done c a' s' HI [tr [ids Hc]]. exact (NestInv_step ord Ho cf fuel Col Hs tag0 Ht a s done c tr ids a' s' HI Hc).
Qed.
Print Assumptions nested_history_invariant.

(** [merge_upper_bound] for nested histories: merged <: required, in the declarative relation, for every contributor. *)
Theorem merge_upper_bound_nested_partial : forall ord cf fuel (Col : types -> Prop) tag0,
  (forall l x, In x (ord l) -> In x l) ->
  (forall t1 t2, Col t1 -> Col t2 -> t_tag t1 = t_tag t2 -> t1 = t2) -> (forall t, Col t -> t_tag t <> tag0) ->
  forall l a s, Forall (nested_contrib Col) l -> history_ok ord cf fuel tag0 l a s ->
  forall c, In c l -> forall tr, UnfK (fst (snd c)) (snd (snd c)) tr ->
    exists merged tm, assoc (Aggregator.canonical a (fst c)) (imports a) = Some merged /\
                      UnfK (a_types a) merged tm /\ SubCM tm tr.
Proof. intros ord cf fuel Col tag0 Ho Hs Ht. exact (nested_upper_bound ord Ho cf fuel Col Hs tag0 Ht). Qed.
Print Assumptions merge_upper_bound_nested_partial.

(** [instance_merge_is_union], recursively: one successful aggregation of a nested requirement (tree [tb]) into the import
    that carries its name (exact, or the semver-compatible one; tree [ta]) leaves that import with the specification's
    [tmerge ta tb]: the export names are the first-seen union, an export only one side has keeps its tree, an export both
    have is their [tmerge] - and so on below every nested instance.  In particular (known finding
    nested-interface-with-two-parents, repaired) an export that only the import has keeps its tree even when the interface
    behind it was, in its contributor's collection, the same interface as one that is merged now: what is asked of one
    export does not leak into another. *)
Theorem instance_merge_is_union_nested_partial : forall ord cf fuel (Col : types -> Prop) tag0,
  (forall t1 t2, Col t1 -> Col t2 -> t_tag t1 = t_tag t2 -> t1 = t2) -> (forall t, Col t -> t_tag t <> tag0) ->
  forall a s done c a' s' y,
  NestInv Col tag0 a s done -> nested_contrib Col c ->
  (assoc (fst c) (a_imports a) = Some (KInstance y) \/
   (assoc (fst c) (a_imports a) = None /\ exists en, find_compat (fst c) (a_imports a) = Some (en, KInstance y))) ->
  aggregate ord cf fuel a s (fst c) (fst (snd c)) (snd (snd c)) = AOk (a', s') ->
  forall ta tb, UnfK (a_types a) (KInstance y) ta -> UnfK (fst (snd c)) (snd (snd c)) tb ->
    exists ea eb em, ta = XInst ea /\ tb = XInst eb /\ UnfK (a_types a') (KInstance y) (XInst em) /\
      tmerge ta tb = Some (XInst em) /\
      map fst em = first_seen_union (map fst ea) (map fst eb) /\
      forall k, match assoc k ea, assoc k eb with
                | Some x, Some z => exists m, tmerge x z = Some m /\ assoc k em = Some m
                | Some x, None => assoc k em = Some x
                | None, Some z => assoc k em = Some z
                | None, None => assoc k em = None
                end.
Proof. intros ord cf fuel Col tag0 Hs Ht. exact (nested_merge_is_union ord cf fuel Col Hs tag0 Ht). Qed.
Print Assumptions instance_merge_is_union_nested_partial.

(** [aggregate_idempotent] / [equal_requirements_merge_to_self]: a requirement that the import already satisfies
    ([SubCM ta tb]; in particular the same requirement contributed again from another collection) leaves the import's
    whole tree as it was. *)
Theorem aggregate_idempotent_nested_partial : forall ord cf fuel (Col : types -> Prop) tag0,
  (forall t1 t2, Col t1 -> Col t2 -> t_tag t1 = t_tag t2 -> t1 = t2) -> (forall t, Col t -> t_tag t <> tag0) ->
  forall a s done c a' s' y,
  NestInv Col tag0 a s done -> nested_contrib Col c ->
  (assoc (fst c) (a_imports a) = Some (KInstance y) \/
   (assoc (fst c) (a_imports a) = None /\ exists en, find_compat (fst c) (a_imports a) = Some (en, KInstance y))) ->
  aggregate ord cf fuel a s (fst c) (fst (snd c)) (snd (snd c)) = AOk (a', s') ->
  forall ta tb, UnfK (a_types a) (KInstance y) ta -> UnfK (fst (snd c)) (snd (snd c)) tb -> SubCM ta tb ->
    UnfK (a_types a') (KInstance y) ta.
Proof. intros ord cf fuel Col tag0 Hs Ht. exact (nested_idempotent ord cf fuel Col Hs tag0 Ht). Qed.
Print Assumptions aggregate_idempotent_nested_partial.

(** [fails_iff_conflict], direction "a conflict makes the aggregation fail": if the specification has no merge of the
    import's tree and the requirement ([tmerge] = None: somewhere below, a same-named export is a leaf on one side and an
    instance on the other, or two different leaves) the aggregation does not succeed; and in a successful history any two
    contributions of one track are mergeable.  (The converse direction is refuted in section 3 for interfaces with
    identifiers; for nested contributions it needs the completeness/totality development mentioned in section 3.) *)
Theorem fails_iff_conflict_nested_partial : forall ord cf fuel (Col : types -> Prop) tag0,
  (forall l x, In x (ord l) -> In x l) ->
  (forall t1 t2, Col t1 -> Col t2 -> t_tag t1 = t_tag t2 -> t1 = t2) -> (forall t, Col t -> t_tag t <> tag0) ->
  (forall a s done c y,
    NestInv Col tag0 a s done -> nested_contrib Col c ->
    (assoc (fst c) (a_imports a) = Some (KInstance y) \/
     (assoc (fst c) (a_imports a) = None /\ exists en, find_compat (fst c) (a_imports a) = Some (en, KInstance y))) ->
    forall ta tb, UnfK (a_types a) (KInstance y) ta -> UnfK (fst (snd c)) (snd (snd c)) tb -> tmerge ta tb = None ->
      forall r, aggregate ord cf fuel a s (fst c) (fst (snd c)) (snd (snd c)) <> AOk r) /\
  (forall l a s, Forall (nested_contrib Col) l -> history_ok ord cf fuel tag0 l a s ->
    forall c1 c2, In c1 l -> In c2 l -> compat_spec_b (fst c1) (fst c2) = true ->
    forall tr1 tr2, UnfK (fst (snd c1)) (snd (snd c1)) tr1 -> UnfK (fst (snd c2)) (snd (snd c2)) tr2 ->
      exists tm, tmerge tr1 tr2 = Some tm).
Proof.
  intros ord cf fuel Col tag0 Ho Hs Ht. split.
  - exact (nested_conflict_fails ord cf fuel Col Hs tag0 Ht).
  - exact (nested_success_no_conflict ord Ho cf fuel Col Hs tag0 Ht).
Qed.
Print Assumptions fails_iff_conflict_nested_partial.

(** [aggregate_order_indep] for nested multisets, under the hypothesis that BOTH orders succeed (as in the flat case:
    "success is the same" needs the completeness/totality development): same canonical names, and the merged trees are
    mutual subtypes (equal up to the order of exports at every level). *)
Theorem aggregate_order_indep_nested_partial : forall ord cf fuel (Col : types -> Prop) tag0,
  (forall l x, In x (ord l) -> In x l) ->
  (forall t1 t2, Col t1 -> Col t2 -> t_tag t1 = t_tag t2 -> t1 = t2) -> (forall t, Col t -> t_tag t <> tag0) ->
  forall l l' a s a' s', Forall (nested_contrib Col) l -> Permutation l l' ->
  history_ok ord cf fuel tag0 l a s -> history_ok ord cf fuel tag0 l' a' s' ->
  forall n, In n (map fst l) ->
    Aggregator.canonical a n = Aggregator.canonical a' n /\
    exists m m' tm tm', assoc (Aggregator.canonical a n) (imports a) = Some m /\
                        assoc (Aggregator.canonical a' n) (imports a') = Some m' /\
                        UnfK (a_types a) m tm /\ UnfK (a_types a') m' tm' /\ SubCM tm tm' /\ SubCM tm' tm.
Proof. intros ord cf fuel Col tag0 Ho Hs Ht. exact (nested_order_indep ord Ho cf fuel Col Hs tag0 Ht). Qed.
Print Assumptions aggregate_order_indep_nested_partial.

(** the specification's merge on nested-flat trees ([wt d]): a lower bound of both arguments, the greatest one, absorbs
    what it already satisfies, and exists whenever the two have any common refinement *)
Theorem tmerge_is_meet : forall d a b,
  wt d a -> wt d b ->
  (forall m, tmerge a b = Some m -> wt d m /\ SubCM m a /\ SubCM m b /\ forall z, SubCM z a -> SubCM z b -> SubCM z m) /\
  (SubCM a b -> tmerge a b = Some a) /\
  (forall z, SubCM z a -> SubCM z b -> exists m, tmerge a b = Some m).
Proof.
  intros d a b Wa Wb. split; [|split].
  - intros m H. destruct (tmerge_upper d a b m Wa Wb H) as [Wm [Ma [Mb _]]]. split; auto. split; auto. split; auto.
    intros z. exact (tmerge_glb d a b m z Wa Wb H).
  - exact (tmerge_absorb d a b Wa Wb).
  - intros z. exact (tmerge_total d a b z Wa Wb).
Qed.
Print Assumptions tmerge_is_meet.

(** the hypothesis is decidable ([ncontrib_b G d c]: fuel [G] for the leaves, depth [d]; it does not look at how the
    interfaces are shared) *)
Theorem nested_contrib_decidable : forall (Col : types -> Prop) G d c,
  Col (fst (snd c)) -> owner_free (fst (snd c)) -> ncontrib_b G d c = true -> nested_contrib Col c.
Proof. exact ncontrib_b_sound. Qed.
Print Assumptions nested_contrib_decidable.

(** Regression (known finding nested-interface-with-two-parents, repaired; before the repair these two histories refuted
    [instance_merge_is_union] and [fails_iff_conflict] for nested requirements).
    (a) An interface with two parents INSIDE one contributor - foo: {n: I, m: I}, I = {f}, then foo: {n: {g}}: every mention of
    I is copied, the merge below [n] leaves [m] alone, the merged requirement IS the union [tmerge ta tb] =
    {n: {f, g}, m: {f}}.  Both contributions are nested contributions.
    (b) ... and with a third contribution {m: {g: func(x: u8)}}, which conflicts with nothing anybody required, the history
    succeeds in the order 1,2,3 as well as in the order 2,3,1, with the specification's merged tree.
    The theorems above apply to these histories ([w_dag3_nested]); the same case lines are replayed on the real aggregator
    from corpus/C09/cases.txt. *)
Example repaired_shared_child :
  (exists a s tm ta tb, run w_dag = inl (a, s) /\ merged_tree a [102;111;111] = Some tm /\
     req_tree (nth 0 w_dag dflt) = Some ta /\ req_tree (nth 1 w_dag dflt) = Some tb /\ tmerge ta tb = Some tm /\
     tm = XInst [([110], XInst [([102], XFunc (mkft [] None false)); ([103], XFunc (mkft [] None false))]);
                 ([109], XInst [([102], XFunc (mkft [] None false))])] /\
     SubCM tm ta /\ SubCM tm tb /\
     ncontrib_b 4 3 (nth 0 w_dag dflt) = true /\ ncontrib_b 4 3 (nth 1 w_dag dflt) = true) /\
  (exists l' a s a' s' ta tb tc tab tabc, Permutation w_dag3 l' /\ run w_dag3 = inl (a, s) /\ run l' = inl (a', s') /\
     req_tree (nth 0 w_dag3 dflt) = Some ta /\ req_tree (nth 1 w_dag3 dflt) = Some tb /\ req_tree (nth 2 w_dag3 dflt) = Some tc /\
     tmerge ta tb = Some tab /\ tmerge tab tc = Some tabc /\ merged_tree a [102;111;111] = Some tabc /\
     exists t', merged_tree a' [102;111;111] = Some t' /\ SubCM t' tabc /\ SubCM tabc t') /\
  Forall (nested_contrib dag_col) w_dag3 /\
  (forall t1 t2, dag_col t1 -> dag_col t2 -> t_tag t1 = t_tag t2 -> t1 = t2) /\ (forall t, dag_col t -> t_tag t <> 0).
Proof.
  split; [|split; [|exact (conj w_dag3_nested (conj dag_col_same dag_col_tag))]].
  - destruct shared_child_now_union as [a [s [tm [ta [tb [H1 [H2 [H3 [H4 [H5 [H6 [H7 [H8 [H9 H10]]]]]]]]]]]]]].
    exists a, s, tm, ta, tb. refine (conj H1 (conj H2 (conj H3 (conj H4 (conj H5 (conj H6 (conj _ (conj _ (conj H9 H10))))))))).
    + now apply sub_b_iff.
    + now apply sub_b_iff.
  - destruct shared_child_order_independent
      as [l' [a [s [a' [s' [ta [tb [tc [tab [tabc [P [H1 [H2 [H3 [H4 [H5 [H6 [H7 [H8 [t' [H9 [H10 H11]]]]]]]]]]]]]]]]]]]]]].
    exists l', a, s, a', s', ta, tb, tc, tab, tabc.
    refine (conj P (conj H1 (conj H2 (conj H3 (conj H4 (conj H5 (conj H6 (conj H7 (conj H8 _))))))))).
    exists t'. refine (conj H9 (conj _ _)); now apply sub_b_iff.
Qed.

(** Sharing through the interface table: a nested interface WITH an identifier is unified with the interface of that
    identifier already registered - foo: {n: d{f}}, bar: {n: d{g}} on different tracks: afterwards foo requires [g] below
    [n] (merged foo is not satisfied by foo's only contributor's own tree; the contributor is satisfied by merged).
    Known finding interface-id-under-two-import-names, nested form.  The theorems of this section exclude
    it by requiring the inner interfaces to be anonymous ([SIDen]). *)
Theorem nested_interface_table_refuted :
  exists l a s tm ta, run l = inl (a, s) /\ length l = 2%nat /\ compat_spec_b (fst (nth 0 l dflt)) (fst (nth 1 l dflt)) = false /\
    merged_tree a (fst (nth 0 l dflt)) = Some tm /\ req_tree (nth 0 l dflt) = Some ta /\ ~ SubCM ta tm /\ SubCM tm ta.
Proof.
  destruct table_shared_child_not_union as [l [a [s [tm [ta [H1 [H2 [H3 [H4 [H5 [H6 H7]]]]]]]]]]].
  exists l, a, s, tm, ta. refine (conj H1 (conj H2 (conj H3 (conj H4 (conj H5 (conj _ _)))))).
  - intro X. apply sub_b_iff in X. congruence.
  - now apply sub_b_iff.
Qed.
Print Assumptions nested_interface_table_refuted.

(** Non-vacuity of the nested theorems: three versions of one track, interfaces named by their import names, two levels
    of nesting, overlapping and disjoint nested exports; the merged tree equals the executable specification [spec_merge]. *)
Example nested_nonvacuous :
  Forall (nested_contrib deep_col) w_deep /\
  (forall t1 t2, deep_col t1 -> deep_col t2 -> t_tag t1 = t_tag t2 -> t1 = t2) /\ (forall t, deep_col t -> t_tag t <> 0) /\
  exists a s tm, run w_deep = inl (a, s) /\ map fst (imports a) = [n_023] /\ merged_tree a n_021 = Some tm /\
                 spec_merge (map (fun c => (fst c, match req_tree c with Some t => t | None => XInst [] end)) w_deep) = Some [(n_023, tm)].
Proof.
  refine (conj w_deep_nested (conj deep_col_same (conj deep_col_tag _))).
  eexists _, _, _. split; [vm_compute; reflexivity|]. split; [vm_compute; reflexivity|]. split; vm_compute; reflexivity.
Qed.

(** * 5. Fuel

    The recursion of the Rust code over nested instance exports ([merge_interface] <-> [remap_interface]) is on explicit fuel
    in the model.  (a) Fuel is only a bound: every outcome other than "out of fuel" - success with its final state, or the
    position and class of the first failure - is the same for every larger fuel.  (b) The fuel the NESTED recursion needs is
    bounded by the depth [d] of the contributor's requirement ([SDen]/[SIDen]: interfaces may be shared): with fuel >= 2*d + L + 2 a merge (2*d + L: a copy) can only run out
    of fuel because a LEAF (function, value, value type) of the contributor could not be copied with fuel >= L, or
    because the SubtypeChecker (its fuel [cf] is a separate parameter) answered OutOfFuel - in whatever state the
    aggregator is.  The leaf copies are bounded as well ([nested_fuel_suffices]); NOT proved: a bound for the checker's own
    fuel [cf] (the flat development has none either: the aggregator's growing collection would need a
    well-formedness/ranking invariant). *)
From WacV Require Import AggregatorFuelMono AggregatorNestedFuel AggregatorNestedLeafFuel.

Theorem aggregate_fuel_monotone : forall ord cf f f',
  (f <= f')%nat ->
  (forall a s name t k r, aggregate ord cf f a s name t k = r -> r <> AOof -> aggregate ord cf f' a s name t k = r) /\
  (forall l a s pos res, aggregate_all ord cf f a s l pos = res -> (forall p, res <> inr (p, AOof)) ->
                         aggregate_all ord cf f' a s l pos = res).
Proof.
  intros ord cf f f' Lf. split.
  - intros a s name t k r. exact (aggregate_fuel_mono ord cf f f' a s name t k r Lf).
  - exact (aggregate_all_fuel_mono ord cf f f' Lf).
Qed.
Print Assumptions aggregate_fuel_monotone.

Theorem nested_fuel_bound : forall ord cf t L d,
  (forall i oid e ids, SIDen d t i oid e ids -> forall F y c, (2 * d + L + 2 <= F)%nat ->
     merge_interface ord cf F y t i c = AOof -> LeafOof ord cf t L \/ ChkOof cf t) /\
  (forall k tr ids, SDen d t k tr ids -> forall F c, (2 * d + L <= F)%nat ->
     remap_item_kind ord cf F t k c = AOof -> LeafOof ord cf t L).
Proof.
  intros ord cf t L d. split.
  - intros i oid e ids. exact (nested_merge_fuel_bound ord cf t L d i oid e ids).
  - intros k tr ids. exact (nested_copy_fuel_bound ord cf t L d k tr ids).
Qed.
Print Assumptions nested_fuel_bound.

(** ... and the leaf clause is empty once [L >= 2*g + 2], [g] a fuel at which [unfold] computes the tree of every
    resource-free leaf kind of the contributor's collection: a nested requirement of depth [d] is copied with fuel
    2*d + 2*g + 2 whatever the state; it is merged with fuel 2*d + 2*g + 4 unless the checker runs out of ITS fuel. *)
Theorem nested_fuel_suffices : forall ord cf t g d,
  (forall k0 tr0, leaf_den t k0 tr0 -> unfold g t k0 = Some tr0) ->
  (forall k tr ids, SDen d t k tr ids -> forall F c, (2 * d + 2 * g + 2 <= F)%nat -> remap_item_kind ord cf F t k c <> AOof) /\
  (forall i oid e ids, SIDen d t i oid e ids -> forall F y c, (2 * d + 2 * g + 4 <= F)%nat ->
     merge_interface ord cf F y t i c = AOof -> ChkOof cf t).
Proof.
  intros ord cf t g d Hg. split.
  - intros k tr ids. exact (nested_copy_total ord cf t g d k tr ids Hg).
  - intros i oid e ids. exact (nested_merge_total ord cf t g d i oid e ids Hg).
Qed.
Print Assumptions nested_fuel_suffices.
