(** Property C05 -- WIT declarations in WAC mean what WIT means.
    This file holds only statements; every proof is [exact <lemma>] (or a short composition of lemmas).

    Vocabulary.
    - [Decls.v] is the model of the declaration half of the resolver (arena entries); [WitDenote.v] is the
      environment-passing denotation of the same syntax into arena-free trees, written from WIT.md.
    - [uv t v tr], [un t r n], [uf t f ft], [uk t k tr] (DeclsProofsA): the value type / resource / function /
      kind unfolds in the arenas [t] to the tree ([exists fuel, unfold... fuel t _ = Some _]).
    - [aext t t']: every arena of [t'] extends the one of [t] (identifiers keep their meaning).
    - [rel_item t x s]: the scope entry [x : ty] of the resolver and the environment entry [s : sem] of the
      denotation are the same kind of thing and [x] unfolds to [s] (for an interface / world: same id, exports
      and imports related pointwise).  [Renv t scope env], [Rexts t exports items]: pointwise, same names, same order.
    - [Rloc], [Rwst]: the state of an interface / world body against the denotation's body.
    - [Rpk t pkgs penv]: same own package name; the tables of external packages are related by [Renv].
    - [flat t]: no export of an interface or world of [t] is an interface type, a world type or a component.
      Everything the resolver builds from a flat collection is flat ([resolver_keeps_flat]); the empty collection
      is flat.  It is what makes multi-segment paths into the own package unable to name an interface or world.

    Every simulation theorem has the shape: the resolver step returns [DOk] (no error, no panic, no fuel
    exhaustion, nothing unmodelled) => the arenas are extended, the denotation is defined, and the results are
    related in the new arenas. *)
From Coq Require Import String.
From WacV Require Import Str StrLit Types Decls WitDenote
     DeclsProofsA DeclsProofsB DeclsProofsF DeclsProofsC DeclsProofsD DeclsProofsE DeclsProofsR.
From WacV Require Ast.

(** 1. value_types_denote: a type expression that resolves denotes the tree its value type unfolds to. *)
Theorem value_types_denote : forall x cur t e v t',
  Renv t cur e -> resolve_ty cur t x = DOk (v, t') ->
  aext t t' /\ exists tr, den_ty e x = Some tr /\ uv t' v tr.
Proof. exact resolve_ty_sim. Qed.
Print Assumptions value_types_denote.

(** 2. type_decls_denote: records, variants, enums, flags and aliases (of values, resources and functions). *)
Theorem type_decls_denote : forall cur t e d x t',
  Renv t cur e -> plain_decl cur t d = DOk (x, t') ->
  aext t t' /\ exists s, den_plain e d = Some s /\ rel_item t' x s.
Proof. exact @plain_decl_sim. Qed.
Print Assumptions type_decls_denote.

(** 3. func_types_denote: free functions, methods (implicit [self: borrow<r>]), statics, constructors
       (implicit result [own<r>]); [res = Some r] is the resource being declared, [rname] its name. *)
Theorem func_types_denote : forall cur t e ps rs k res rname i t',
  Renv t cur e -> (forall r, res = Some r -> un t r rname) ->
  func_type cur t ps rs k res = DOk (i, t') ->
  aext t t' /\ exists ft, den_func e (kmap k) rname ps rs = Some ft /\ uf t' i ft.
Proof. exact @func_type_sim. Qed.
Print Assumptions func_types_denote.

Theorem func_type_refs_denote : forall cur t e r f t',
  Renv t cur e -> func_type_ref cur t r = DOk (f, t') ->
  aext t t' /\ exists ft, den_func_ref e r = Some ft /\ uf t' f ft.
Proof. exact @func_type_ref_sim. Qed.
Print Assumptions func_type_refs_denote.

(** 4. borrow_in_result_rejected: a declared result type whose denotation contains a borrow is never accepted.
       (Which failure: see the second theorem -- once parameters and result type themselves resolve it is exactly
       [BorrowInResult], or [DFuel]; [DFuel] is excluded by the third theorem under the ranking invariant.) *)
Theorem borrow_in_result_rejected : forall cur t e ps y k res rname v,
  Renv t cur e -> (forall r, res = Some r -> un t r rname) -> den_ty e y = Some v -> has_borrow v = true ->
  forall r, func_type cur t ps (Ast.RLScalar y) k res <> DOk r.
Proof. exact borrow_rejected. Qed.
Print Assumptions borrow_in_result_rejected.

Theorem borrow_in_result_rejected_exact : forall cur t e ps y k res v params t1 vr t2,
  Renv t cur e -> den_ty e y = Some v -> has_borrow v = true -> (k = FMethod -> res <> None) ->
  params_go cur t (self_pre k res) ps = DOk (params, t1) -> resolve_ty cur t1 y = DOk (vr, t2) ->
  func_type cur t ps (Ast.RLScalar y) k res = DErr EBorrowInResult \/ func_type cur t ps (Ast.RLScalar y) k res = DFuel.
Proof. exact @borrow_rejected_exact. Qed.
Print Assumptions borrow_in_result_rejected_exact.

(** ... and exactly [BorrowInResult] when the defined arena is ranked by creation order ([def_ranked]: every defined
    type refers to older slots only -- true of the empty collection, [ranked_empty] in DeclsProofsR, and preserved by
    the resolver's [add_defined], see [value_types_keep_ranked]) and the value types in scope are in range ([scope_ok],
    true of the empty scope: [scope_ok_nil]). *)
Theorem borrow_in_result_rejected_ranked : forall cur t e ps y k res v params t1 vr t2,
  def_ranked t -> scope_ok t cur ->
  Renv t cur e -> den_ty e y = Some v -> has_borrow v = true -> (k = FMethod -> res <> None) ->
  params_go cur t (self_pre k res) ps = DOk (params, t1) -> resolve_ty cur t1 y = DOk (vr, t2) ->
  func_type cur t ps (Ast.RLScalar y) k res = DErr EBorrowInResult.
Proof. exact borrow_rejected_ranked. Qed.
Print Assumptions borrow_in_result_rejected_ranked.

Theorem contains_borrow_fuel_suffices : forall t v, def_ranked t -> vbounded t v -> cb_vt (cb_fuel t) t v <> None.
Proof. exact cb_fuel_suffices. Qed.
Print Assumptions contains_borrow_fuel_suffices.

Theorem value_types_keep_ranked : forall x cur t v t',
  def_ranked t -> scope_ok t cur -> resolve_ty cur t x = DOk (v, t') -> def_ranked t' /\ vbounded t' v.
Proof. exact resolve_ty_ranked. Qed.
Print Assumptions value_types_keep_ranked.

(** 5. method_names (arena level, no denotation): [resource r { ms }] adds the resource [r] (a fresh slot, no
       alias), binds and exports [r], then exports one function per member, in order, named [[constructor]r],
       [[method]r.m], [[static]r.m]; [member_fn_ok] says: a method's parameters are [self: borrow<r>] followed by
       the declared names, a static's and a constructor's are exactly the declared names (no [self]), and a
       constructor returns [own<r>]. *)
Theorem method_names : forall dup l i ms l',
  resource_decl dup l i ms = DOk l' ->
  let n := nm i in
  let r := mkid (t_tag (l_types l)) (length (t_resources (l_types l))) in
  frame (l_types l) (l_types l') /\
  get_res (l_types l') r = Some (mkres n None) /\
  l_cur l' = (n, TResource r) :: l_cur l /\ l_uses l' = l_uses l /\
  exists fs, l_exts l' = l_exts l ++ (n, KType (TResource r)) :: fs /\
             map fst fs = map (fun m => member_name n (member_key m) (member_kind m)) ms /\
             Forall2 (fun m kv => member_fn_ok (l_types l') r m (snd kv)) ms fs.
Proof. exact @resource_decl_spec. Qed.
Print Assumptions method_names.

(** resources and the other item declarations inside a body against [den_decl] *)
Theorem item_decls_denote : forall dup l b d l',
  Rloc l b -> item_type_decl dup l d = DOk l' ->
  aext (l_types l) (l_types l') /\ exists b', den_decl b d = Some b' /\ Rloc l' b'.
Proof. exact @item_type_decl_sim. Qed.
Print Assumptions item_decls_denote.

(** 6. use_spec (arena level): for every item the local name is bound to the SAME [ty] that the source interface
       exports under the original name (a resource or a value type), it is appended to the externs in order, the
       scope grows by exactly these bindings, the arenas do not change; the uses are inserted with [imap_set], which
       is an append under the invariant of resolver-built bodies (second theorem). *)
Theorem use_spec : forall iface x items l l',
  get_if (l_types l) iface = Some x -> use_items iface l items = DOk l' ->
  l_types l' = l_types l /\
  exists ys,
    Forall2 (fun it y => assoc (nm (Ast.ui_id it)) (i_exports x) = Some (KType y) /\ usable y /\
                         assoc (use_local it) (l_cur l') = Some y) items ys /\
    l_exts l' = l_exts l ++ map (fun p => (use_local (fst p), KType (snd p))) (combine items ys) /\
    l_cur l' = rev (map (fun p => (use_local (fst p), snd p)) (combine items ys)) ++ l_cur l /\
    l_uses l' = fold_left (fun u it => imap_set (use_local it) (use_rec iface it) u) items (l_uses l).
Proof. exact use_items_spec. Qed.
Print Assumptions use_spec.

Theorem use_spec_uses : forall iface items l l',
  (forall k, has k (l_uses l) = true -> has k (l_exts l) = true) ->
  use_items iface l items = DOk l' ->
  l_uses l' = l_uses l ++ map (fun it => (use_local it, use_rec iface it)) items /\
  (forall k, has k (l_uses l') = true -> has k (l_exts l') = true).
Proof. exact use_items_uses. Qed.
Print Assumptions use_spec_uses.

Theorem use_type_spec : forall root pkgs l u l',
  use_type root pkgs l u = DOk l' ->
  exists iface, use_source root pkgs (l_types l) (Ast.u_path u) = DOk iface /\ use_items iface l (Ast.u_items u) = DOk l'.
Proof. exact use_type_split. Qed.
Print Assumptions use_type_spec.

Theorem use_denotes : forall root pkgs genv penv l b u l',
  flat (l_types l) -> Renv (l_types l) root genv -> Rpk (l_types l) pkgs penv -> Rloc l b ->
  use_type root pkgs l u = DOk l' ->
  l_types l' = l_types l /\ exists b', den_use genv penv b u = Some b' /\ Rloc l' b'.
Proof. exact @use_type_sim. Qed.
Print Assumptions use_denotes.

(** package paths: a path that the resolver resolves to an interface or world type (or a component) denotes the
    related item *)
Theorem package_paths_denote : forall t root pkgs genv penv pp k,
  flat t -> Renv t root genv -> Rpk t pkgs penv -> path_item root pkgs t pp = DOk k -> leafk k = false ->
  exists x s, k = KType x /\ den_path genv penv pp = Some s /\ rel_item t x s.
Proof. exact @path_item_sim. Qed.
Print Assumptions package_paths_denote.

(** 7. interface_denotes *)
Theorem interface_denotes : forall root pkgs genv penv t idn items i t',
  flat t -> Renv t root genv -> Rpk t pkgs penv -> interface_body root pkgs t idn items = DOk (i, t') ->
  aext t t' /\ exists e, den_iface genv penv items = Some e /\ rel_item t' (TInterface i) (SIface idn e) /\
                         exists x, get_if t' i = Some x /\ i_id x = idn /\ Rexts t' (i_exports x) e.
Proof. exact @interface_body_sim. Qed.
Print Assumptions interface_denotes.

(** 8. include_with_spec: [include w with { a as b, .. }] against [den_include] -- a renaming applies on the import
       side and on the export side alike, interface ids are never renamed and merge, every [from] must be a plain
       name of the included world.  No side condition.  (Before commit 0d98072 of the repository the resolver used up
       a renaming at its first use and this statement was false; see the HISTORICAL example below.) *)
Theorem include_with_spec : forall root pkgs genv penv w wb r items w',
  flat (w_types w) -> Renv (w_types w) root genv -> Rpk (w_types w) pkgs penv -> Rwst w wb ->
  world_include root pkgs w r items = DOk w' ->
  w_types w' = w_types w /\ exists wb', den_include genv penv wb r items = Some wb' /\ Rwst w' wb'.
Proof. exact @world_include_sim. Qed.
Print Assumptions include_with_spec.

(** the witness of the defect repaired by 0d98072 (the included world imports [f] and exports [f]; [with { f as g }]):
    model and denotation agree, [g] on both sides *)
Example include_renames_both_sides :
  (exists w', world_include rb_root (mkpkgs [] []) rb_w0 (Ast.WRIdent (rb_ident (L"w"))) rb_items = DOk w' /\
              map fst (w_imp w') = [L"g"] /\ map fst (w_exp w') = [L"g"]) /\
  (exists wb', den_include rb_genv (mkpenv [] []) rb_wb0 (Ast.WRIdent (rb_ident (L"w"))) rb_items = Some wb' /\
               map fst (b_items (wb_imp wb')) = [L"g"] /\ map fst (wb_exp wb') = [L"g"]).
Proof. exact include_current_witness. Qed.

(** HISTORICAL (regression record, not an obligation): the algorithm of resolution.rs before commit 0d98072
    ([include_go_prefix], DeclsProofsD, with [remove_key_prefix]) on the same witness renamed only the
    import: the exports kept [f]. *)
Example include_with_renames_both_historical :
  exists imps repl1 exps repl2,
    include_go_prefix [] (ren_of rb_items) (w_imports rb_other) = DOk (imps, repl1) /\
    include_go_prefix [] repl1 (w_exports rb_other) = DOk (exps, repl2) /\
    map fst imps = [L"g"] /\ map fst exps = [L"f"].
Proof. exact include_prefix_witness. Qed.

(** 9. world_denotes *)
Theorem world_denotes : forall root pkgs genv penv t idn items i t',
  flat t -> Renv t root genv -> Rpk t pkgs penv ->
  world_body root pkgs t idn items = DOk (i, t') ->
  aext t t' /\ exists wi we, den_world genv penv items = Some (wi, we) /\ rel_item t' (TWorld i) (SWorld wi we).
Proof. exact @world_body_sim. Qed.
Print Assumptions world_denotes.

(** world items other than includes, and item paths *)
Theorem world_items_denote : forall root pkgs genv penv items w wb w',
  wflat w -> Renv (w_types w) root genv -> Rpk (w_types w) pkgs penv -> Rwst w wb ->
  world_items_go root pkgs w items = DOk w' ->
  aext (w_types w) (w_types w') /\ exists wb', den_world_items genv penv wb items = Some wb' /\ Rwst w' wb'.
Proof. exact world_items_go_sim. Qed.
Print Assumptions world_items_denote.

(** 10. decl_denotes: for every document made of type statements that the resolver accepts, the denotation is defined
        and every definition unfolds, in the final arenas, to the denoted tree, in order.  [flat t0] and
        [Renv t0 ext eext] are hypotheses about the oracle inputs (the descriptions of external packages present in
        the initial collection and their denotations), not a restriction of the documents in scope; both hold of the
        empty collection with no external packages ([decl_denotes_closed]). *)
Theorem decl_denotes : forall ext eext t0 d s,
  flat t0 -> Renv t0 ext eext -> resolve_document ext t0 d = DOk s ->
  aext t0 (r_types s) /\ exists defs, den_document eext d = Some defs /\ Rexts (r_types s) (r_defs s) defs.
Proof. exact @resolve_document_sim. Qed.
Print Assumptions decl_denotes.

(** the same with one common fuel: the unfolded definitions of the model ARE the denotation *)
Theorem decl_denotes_trees : forall ext eext t0 d s,
  flat t0 -> Renv t0 ext eext -> resolve_document ext t0 d = DOk s ->
  exists F defs, den_document eext d = Some defs /\ defs_trees F (resolve_document ext t0 d) = Some defs.
Proof. exact resolve_document_trees. Qed.
Print Assumptions decl_denotes_trees.

(** self-contained documents (no external packages, empty initial collection): no hypothesis at all *)
Theorem decl_denotes_closed : forall d s,
  resolve_document [] empty_types d = DOk s ->
  exists defs, den_document [] d = Some defs /\ Rexts (r_types s) (r_defs s) defs.
Proof.
  intros d s H. destruct (resolve_document_sim flat_empty (R2_nil _) H) as [_ R]. exact R.
Qed.
Print Assumptions decl_denotes_closed.

(** the invariant used above is an invariant *)
Theorem resolver_keeps_flat : forall pn pkgs l s s',
  flat (r_types s) -> statements_go pn pkgs s l = DOk s' -> flat (r_types s').
Proof. exact statements_go_flat. Qed.
Print Assumptions resolver_keeps_flat.

(** Non-vacuity: two hand-built documents (DeclsProofsE: [ex_doc1] = one interface with a record, a resource with
    constructor + method + static, one function; [ex_doc2] adds two worlds, a [use ... as], an interface import by
    name and an [include ... with]).  The resolver succeeds, the denotation is defined, and the unfolded definitions
    of the model ARE the denotation. *)
Example ex_doc1_agrees :
  defs_trees 6 (resolve_document [] empty_types ex_doc1) = den_document [] ex_doc1 /\ den_document [] ex_doc1 <> None.
Proof. split; [vm_compute; reflexivity | vm_compute; discriminate]. Qed.

Example ex_doc2_agrees :
  defs_trees 6 (resolve_document [] empty_types ex_doc2) = den_document [] ex_doc2 /\ den_document [] ex_doc2 <> None.
Proof. split; [vm_compute; reflexivity | vm_compute; discriminate]. Qed.

(** Every theorem the property names is stated above.  Not proved: that [def_ranked]/[scope_ok] are invariants of whole
    documents (only of [resolve_ty]/[params_go], which is what [borrow_in_result_rejected_ranked] needs); the converse
    direction (denotation defined => resolver succeeds) is not part of the property. *)
