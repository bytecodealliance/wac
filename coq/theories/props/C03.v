(** Property C03 — output imports/exports are exactly those implied; implicit imports are shared.
    Statements; every proof is [exact <lemma>] but one, which unpacks [WiringWitness.dedup_refutes].
    The comparison of the REAL import/export sections with [spec_imports] /
    [spec_export_names] / [spec_import_needs] (extracted) is done by ./check C03 on every run. *)
From Coq Require Import List.
From WacV Require Import Str Semver Names Graph Wiring WiringSpec EncodeModel WiringSim WiringCorrect AggProofs WiringWitness WiringImportsSpec.
From WacV Require ValidEncInv ValidFinal.
Import ListNotations.
Local Open Scope nat_scope.

(** the aggregator's name bookkeeping ([TypeAggregator::aggregate] / [canonical_import_name], name level):
    for EVERY order in which import requirements are aggregated, each requirement is answered by ONE
    entry (one import per semver track), named for the highest version among all aggregated names of
    the track, carrying the sort the requirement asked for *)
Theorem canonical_is_highest_on_track : forall L a nm s iid,
  agg_run agg_empty L = Some a -> In (nm, s, iid) L ->
  let c := canonical_name a nm in
  In c (map (fun x : str * sort * option str => fst (fst x)) L) /\ compat c nm = true /\
  (forall n s' i', In (n, s', i') L -> compat n nm = true -> higher c n = false) /\
  exists x, In x (a_imps a) /\ ae_name x = c /\ ae_sort x = s /\
            (forall y, In y (a_imps a) -> compat (ae_name y) nm = true -> y = x).
Proof. exact AggProofs.canonical_is_highest_on_track. Qed.
Print Assumptions canonical_is_highest_on_track.

(** the specification's canonical name does not depend on the order in which names are listed *)
Theorem canon_order_independent : forall names names' q,
  (forall x, In x names <-> In x names') -> canon_in names q = canon_in names' q.
Proof. exact AggProofs.canon_in_set. Qed.
Print Assumptions canon_order_independent.

(** the exported names and sorts of the model encoder's output are exactly the designated export names
    (every type definition is among them) with the sort of the designated node — for every emission
    order and every type-encoder behaviour; side conditions as for C02 [wiring_correct] plus two clauses
    of the C06 graph invariant (definitions are exported; exports designate live nodes) *)
Theorem exports_spec : forall e u g dc tau ord st names w,
  EncInv e u g -> topo_orderb g ord = true ->
  encode_with_order e u g dc tau ord = ROk (st, names) ->
  (forall p, In p (e_dedup st) -> fst p = snd p) ->
  decode_wiring names (e_log st) = Some w ->
  (forall n, In n ord -> is_def g n = true -> exists nm, In (nm, n) (exports g)) ->
  (forall nm n, In (nm, n) (exports g) -> live g n = true) ->
  forall nm s, In (nm, s) (map export_sig (w_exports w)) <-> In (nm, s) (spec_export_names e g).
Proof. exact WiringCorrect.exports_spec. Qed.
Print Assumptions exports_spec.

(** for EVERY graph built through the API the side conditions about the graph hold ([EncInv] incl. "a definition
    has one export name": [export(definition, other_name)] renames the definition, C01 [defs_single_reachable]):
    the exports of the output are exactly the export map of the graph, with no exception for definitions *)
Theorem exports_spec_reachable : forall e u ops dc tau ord st names w,
  ValidEncInv.UnivOK e u ->
  topo_orderb (run u ops) ord = true ->
  encode_with_order e u (run u ops) dc tau ord = ROk (st, names) ->
  (forall p, In p (e_dedup st) -> fst p = snd p) ->
  decode_wiring names (e_log st) = Some w ->
  forall nm s, In (nm, s) (map export_sig (w_exports w)) <-> In (nm, s) (spec_export_names e (run u ops)).
Proof. exact ValidFinal.exports_spec_reachable. Qed.
Print Assumptions exports_spec_reachable.

(** regression instance of the repaired defect ([define_type foo; export(foo, bar)], replayed on the real code on
    every run): the export map is [bar -> the definition] alone and the output exports exactly that *)
Theorem exports_spec_renamed_definition :
  exports (run w_universe ops_def_two_names) = [(6%N, 0)] /\
  exists w, encoded ops_def_two_names true = Some (w, w, []) /\ length (w_exports w) = 1.
Proof. exact def_renamed_instance. Qed.
Print Assumptions exports_spec_renamed_definition.

(** the import items the model encoder emits itself ([simports]: all [IImport] items; the type encoder's
    imports of [use]d interfaces are [IDepImport] items) are exactly [spec_imports]: the canonical name of every
    explicit import and of every unsatisfied argument, with its sort, plus (dependencies imported) one
    component import per instantiated package — for every emission order and every type-encoder behaviour.
    A requirement may instead be answered by an interface that is already imported under the same name
    (recorded in [e_dedup]); a requirement answered by a DIFFERENTLY named import is excluded by the side
    condition, and is a known finding of the real code. *)
Theorem imports_spec : forall e u g dc tau ord st names,
  EncInv e u g -> topo_orderb g ord = true ->
  encode_with_order e u g dc tau ord = ROk (st, names) ->
  (forall p, In p (e_dedup st) -> fst p = snd p) ->
  (forall nm s, In (nm, s) (simports (e_log st)) -> In (nm, s) (spec_imports e u g dc ord)) /\
  (forall nm s, In (nm, s) (spec_imports e u g dc ord) -> In (nm, s) (simports (e_log st)) \/ In (nm, nm) (e_dedup st)).
Proof. exact WiringImportsSpec.imports_spec_topo. Qed.
Print Assumptions imports_spec.

(** what [decode_imports] (run on the real logs by ./check C03) reports with flag [false] is [simports] *)
Theorem decode_imports_are_simports : forall l d d', decode_from d l = Some d' ->
  forall nm s, In (nm, s, false) (d_imports d') <-> In (nm, s, false) (d_imports d) \/ In (nm, s) (simports l).
Proof. exact WiringImportsSpec.decode_imports_simports. Qed.
Print Assumptions decode_imports_are_simports.

(** the side condition on [e_dedup] cannot be dropped: the witness of C02
    [wiring_correct_interface_id_dedup_refuted], here for the import list *)
Theorem imports_spec_interface_id_dedup_refuted :
  match encoded ops_dedup true with
  | Some (dec, spec, dd) => dd <> [] /\ dec <> spec
  | None => False
  end.
Proof. pose proof dedup_refutes as H. destruct (encoded ops_dedup true) as [[[dec spec] dd]|]; auto. destruct H as [-> H]. split; [discriminate | exact H]. Qed.
Print Assumptions imports_spec_interface_id_dedup_refuted.
