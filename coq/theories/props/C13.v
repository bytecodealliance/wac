(** Property C13: printing a parsed document and re-parsing it gives the same document; formatting is
    idempotent. Statements, assembled from the lemmas of [proofs/Printer*.v].

    Vocabulary ([spec/PrintSpec.v], [model/Printer.v]):
    - [print_pieces fx src d] / [print fx src d]: the model of [DocumentPrinter::document], as pieces
      (tokens, blanks, doc lines) / as text; [None] is the panic of a [source(span)] slice.
      [fx = repaired]: the printer with the three repairs of hooks/fix-c13-*.patch; [unrepaired]:
      the printer as it was.
    - [sn d]: [d] with every source position removed and every list of doc comments replaced by its
      non-empty trimmed lines ("identical up to source positions and doc-comment line splitting").
    - [items_of_pieces ps]: the token stream (kinds, texts, byte spans, doc comments) the pieces
      denote; [render_lex] is the statement that the lexer returns exactly it for [text_of ps].
    - [wf_document src d]: the leaves of [d] are what [src] has at their spans, and the lists the
      parser never leaves empty are not empty (what [Document::parse] guarantees of its own result). *)
From WacV Require Import Str Token Lexer LexTables LexImpl Semver Ast Parser Grammar ParserProofs.
From WacV Require Import Printer PrintSpec PrinterText PrinterProofs PrinterWf PrinterLex PrinterAll PrinterWitness.
From WacV Require Import PrinterScreen PrinterScan PrinterAdj PrinterFull PrinterColon.

(** [parse_wf]: the tree [Document::parse] (model) returns is well-formed with respect to its source:
    every identifier, string, package name and package path is the text at its span (so that the
    printer's [source(span)] copies are these texts), and no variant/record/flags/enum/tuple is empty. *)
Theorem parse_wf src d r : parse_document impl_flags impl_cfg src = POk d r -> wf_document src d.
Proof. exact (parse_wf_impl src d r). Qed.
Print Assumptions parse_wf.

(** [print_no_panic]: the (repaired) printer does not panic on a parsed document (every
    [source(span)] slice is inside the text and on character boundaries). *)
Theorem print_no_panic src d r :
  parse_document impl_flags impl_cfg src = POk d r -> exists ps, print_pieces repaired src d = Some ps.
Proof. intros H. apply print_no_panic_wf. exact (parse_wf_impl src d r H). Qed.
Print Assumptions print_no_panic.

(** [print_tokens_roundtrip] (all node classes: value types, function types, type declarations,
    resources, interfaces, worlds, expressions with all four argument forms, statements, package
    directive with target, documents). For every document the parser accepts, the printer writes
    pieces [ps] whose token stream is parsed by the C12 parser model (any environment with the
    implementation's flags and fuel above the number of tokens) to a tree [d'] with [sn d' = sn d];
    and (idempotence, token level) printing [d'] out of the printed text gives the same
    pieces again. *)
Theorem print_tokens_roundtrip src d r :
  parse_document impl_flags impl_cfg src = POk d r ->
  exists ps, print_pieces repaired src d = Some ps /\
    forall e, dv e = impl_flags -> (length (items_of_pieces ps) < fuel e)%nat ->
    exists d', parse_document_items e (items_of_pieces ps) = POk d' [] /\ sn d' = sn d /\
               print_pieces repaired (text_of ps) d' = Some ps.
Proof.
  intros H. pose proof (parse_wf_impl src d r H) as Hwf. destruct (print_no_panic_wf src d Hwf) as (ps & Hp).
  exists ps. split; [exact Hp|]. intros e He Hf. exact (print_tokens_roundtrip_parser src d ps e Hwf Hp He Hf).
Qed.
Print Assumptions print_tokens_roundtrip.

(** The same against the grammar of spec/Grammar.v: the printed tokens derive [d']. *)
Theorem print_tokens_derivable src d r :
  parse_document impl_flags impl_cfg src = POk d r ->
  exists ps d', print_pieces repaired src d = Some ps /\
                g_document impl_flags (items_of_pieces ps) [] d' /\ sn d' = sn d /\
                print_pieces repaired (text_of ps) d' = Some ps.
Proof.
  intros H. pose proof (parse_wf_impl src d r H) as Hwf. destruct (print_no_panic_wf src d Hwf) as (ps & Hp).
  destruct (print_tokens_roundtrip_derivation src d ps Hwf Hp) as (d' & H1 & H2 & H3). eauto 6.
Qed.
Print Assumptions print_tokens_derivable.

(** [print_screen]: the printed text contains no forbidden code point (it consists of ASCII literals,
    blanks, line feeds, slices of the screened source, and doc-comment lines whose characters are
    source characters). *)
Theorem print_screen src d r ps :
  parse_document impl_flags impl_cfg src = POk d r -> print_pieces repaired src d = Some ps ->
  screen impl_cfg (text_of ps) = None.
Proof. exact (PrinterScreen.print_screen src d r ps). Qed.
Print Assumptions print_screen.

(** [render_lex]: for every parsed [d] with printed pieces [ps], the lexer returns for the printed
    text exactly the tokens the printer meant -- kinds, texts, byte spans and attached doc comments as
    [items_of_pieces] computes them: the printer always separates two tokens that could fuse.
    Ingredients (all proved): the layout half (blanks, line feeds, doc lines, doc-comment attachment,
    byte offsets, fuel: [PrinterLex]); screening ([print_screen]); every keyword / identifier / package
    copy is followed by a blank, a line feed or a punctuation character that cannot continue it
    ([PrinterAdj.adj_document], for ALL trees); every source-copied text, having been cut by
    [scan_token] out of the source ([PrinterLexFacts.lex_facts]), is cut again with the same kind when
    such a character follows ([PrinterScan.rescan]: [%]-escapes,
    versions with pre-release/build parts, dangling-dash identifiers, a following [: ]); the printer's
    literals ([rescan_kw / rescan_sym]); and the lexer's keyword-before-colon artefact
    ([record: func()]): an identifier token spelled like a keyword is always directly followed by a
    colon token ([PrinterColon.lex_inv]), therefore sits in every derivation where the grammar has
    [id ':'], where the printer writes the colon directly after the copy ([PrinterColon.parsed_kwcb]). *)
Theorem render_lex src d r ps :
  parse_document impl_flags impl_cfg src = POk d r -> print_pieces repaired src d = Some ps ->
  lex impl_cfg (text_of ps) = items_of_pieces ps.
Proof. exact (render_lex_full src d r ps). Qed.
Print Assumptions render_lex.

(** [print_roundtrip]: round trip and idempotence at text level: for
    every document the parser (model) accepts, the (repaired) printer's text is accepted by
    [Document::parse] (model) with a tree equal to the original up to source positions and
    doc-comment line splitting, and printing that tree out of the printed text reproduces the text
    byte for byte. *)
Theorem print_roundtrip src d r :
  parse_document impl_flags impl_cfg src = POk d r ->
  RoundTrip repaired src d /\ Idempotent repaired src d.
Proof.
  intros H. destruct (print_no_panic_wf src d (parse_wf_impl src d r H)) as (ps & Hp).
  exact (print_roundtrip_full src d r ps H Hp).
Qed.
Print Assumptions print_roundtrip.

(** [nothing_dropped]: what [sn]-equality says construct by construct -- the package directive keeps
    its target and its version, the statements are as many and of the same normal form. *)
Theorem nothing_dropped d d' :
  sn d' = sn d ->
  option_map sn_package_path (pd_targets (doc_directive d')) = option_map sn_package_path (pd_targets (doc_directive d)) /\
  pn_version (pd_package (doc_directive d')) = pn_version (pd_package (doc_directive d)) /\
  pn_string (pd_package (doc_directive d')) = pn_string (pd_package (doc_directive d)) /\
  map sn_statement (doc_statements d') = map sn_statement (doc_statements d) /\
  doc_norm (doc_docs d') = doc_norm (doc_docs d).
Proof.
  intros H.
  pose proof (f_equal doc_docs H) as H1. pose proof (f_equal doc_directive H) as H2.
  pose proof (f_equal doc_statements H) as H3. cbn [sn doc_docs doc_directive doc_statements] in H1, H2, H3.
  pose proof (f_equal pd_package H2) as H4. pose proof (f_equal pd_targets H2) as H5.
  cbn [sn_directive pd_package pd_targets] in H4, H5.
  pose proof (f_equal pn_version H4) as H6. pose proof (f_equal pn_string H4) as H7.
  cbn [sn_package_name pn_version pn_string] in H6, H7.
  repeat split; try assumption.
  unfold sn_docs in H1. apply (f_equal (map fst)) in H1. rewrite !map_map in H1. cbn [fst] in H1.
  now rewrite !map_id in H1.
Qed.
Print Assumptions nothing_dropped.

(** The three defects (each replayed on the real code by the check; repairs: hooks/fix-c13-*.patch). *)

(** `package a:b targets c:d/e;` is printed without the keyword: the text does not parse. *)
Theorem print_targets_refuted :
  exists src d, parse_document impl_flags impl_cfg src = POk d [] /\ ~ RoundTrip unrepaired src d.
Proof. exists w_targets. exact targets_refuted. Qed.
Print Assumptions print_targets_refuted.

(** `new c:d { ..., a }`: the fill loses its comma and comes back as the spread `...a`. *)
Theorem print_fill_refuted :
  exists src d, parse_document impl_flags impl_cfg src = POk d [] /\ ~ RoundTrip unrepaired src d.
Proof. exists w_fill. exact fill_refuted. Qed.
Print Assumptions print_fill_refuted.

(** A block doc comment with an interior blank line: the second print drops a line. *)
Theorem print_idempotent_refuted :
  exists src d, parse_document impl_flags impl_cfg src = POk d [] /\ ~ Idempotent unrepaired src d.
Proof. exists w_doc_blank. exact doc_blank_refuted. Qed.
Print Assumptions print_idempotent_refuted.

(** Non-vacuity: a document with a target, versions, [%] escapes, string names, all four argument
    forms ([...] first and last), a static method, a constructor, a use rename and an include-with
    list satisfies both halves of the property under the repaired printer. *)
Example all_constructs :
  exists d, parse_document impl_flags impl_cfg w_all = POk d [] /\ RoundTrip repaired w_all d /\ Idempotent repaired w_all d.
Proof. exact all_constructs_roundtrip. Qed.
