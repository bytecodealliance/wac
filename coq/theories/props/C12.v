(** Property C12: the parser accepts exactly the documented grammar and builds the intended tree.
    Statements, assembled from the lemmas of [proofs/]. *)
From WacV Require Import Str Ord Token Lexer LexTables LexImpl LexSpec LexTablesProofs LexerProofs LexerSound.
From WacV Require Import Semver Ast Parser Grammar ParserComb ParserProofs ParserTop GrammarMono.
From Coq Require Import Lia.
Local Open Scope nat_scope.

(** The keyword table generated from [lexer.rs] is the documented one (as a set of rows). *)
Theorem keywords_eq_documented : sort_rows gen_keywords = sort_rows doc_keywords.
Proof. exact keywords_table_eq. Qed.
Print Assumptions keywords_eq_documented.

Theorem symbols_eq_documented : sort_rows gen_symbols = sort_rows doc_symbols.
Proof. exact symbols_table_eq. Qed.
Print Assumptions symbols_eq_documented.

(** The arms of [detect_invalid_input] are the documented classes (same arms, same code points). *)
Theorem forbidden_eq_documented : map norm_arm gen_screen_arms = map norm_arm doc_screen_arms.
Proof. exact screen_arms_eq. Qed.
Print Assumptions forbidden_eq_documented.

(** [screen_spec]: the screening reports the FIRST forbidden code point (bidirectional override,
    deprecated, control other than tab/LF/CR) with the byte offset of its first byte and its UTF-8
    length; it reports nothing iff the text contains none. *)
Theorem screen_spec src :
  (forall e sp, screen impl_cfg src = Some (e, sp) ->
     exists pre c post, src = pre ++ c :: post /\ forallb (fun x => negb (doc_forbidden x)) pre = true /\
                        doc_forbidden c = true /\ sp = {| off := byte_len pre; slen := utf8_len c |}) /\
  (screen impl_cfg src = None <-> forallb (fun x => negb (doc_forbidden x)) src = true).
Proof. split; [intros e sp; apply screen_spec_some|apply screen_spec_none]. Qed.
Print Assumptions screen_spec.

(** Any text containing a forbidden code point, wherever it occurs, is rejected by [Document::parse]
    (under any deviation flags) with a lexer error located at the first such code point. *)
Theorem rejects_forbidden_anywhere d src pre c post :
  src = pre ++ c :: post -> forallb (fun x => negb (doc_forbidden x)) pre = true -> doc_forbidden c = true ->
  exists e, parse_document d impl_cfg src = PErr (PE_Lexer e {| off := byte_len pre; slen := utf8_len c |}).
Proof.
  intros Hs Hp Hc. destruct (screen_rejects _ _ _ _ Hs Hp Hc) as (e & He). exists e.
  unfold parse_document, lex. unfold screen in *. cbn [arms cfg_with impl_cfg] in *. rewrite He. reflexivity.
Qed.
Print Assumptions rejects_forbidden_anywhere.

(** [lex_sound_partial]: the tiling half of [lex_sound] (below), for ANY configuration (no [tables_ok]
    needed): the source is [gap0 ++ text1 ++ gap1 ++ ...] where every gap is white space / line
    comments / nested block comments, every token's text is the slice at its span, its offset is the
    UTF-8 byte length of the character prefix before it (hence on a character boundary), its length
    the byte length of its text; the first error / unmodelled item is located after skippable
    material; all spans are inside the source. *)
Theorem lex_sound_partial cfg src :
  screen cfg src = None ->
  tiles 0 src (lex cfg src) /\
  Forall (fun it => match it with
                    | LTok t => (off (tsp t) + slen (tsp t) <= byte_len src)%N
                    | _ => True end) (lex cfg src).
Proof.
  intros Hs. unfold lex. rewrite Hs. split; [apply lex_loop_tiles|].
  eapply Forall_impl; [|apply (tiles_bounds 0%N src); apply lex_loop_tiles].
  intros [t| | | |]; auto. cbn. lia.
Qed.
Print Assumptions lex_sound_partial.

(** [g_document d ts [] doc] (spec/Grammar.v): under the deviation flags [d] the token stream [ts]
    derives, up to its end, a document with tree [doc] (tree-indexed derivation relation). In the
    comments below "G_doc" / "G_impl" abbreviate [g_document doc_flags] / [g_document impl_flags]. *)

(** [parse_sound]: whenever [Document::parse] (the model, for ANY flags [d] and lexer tables) accepts a
    source, its whole token stream is derived by the grammar under the same flags, and the tree
    returned is the tree the derivation dictates. *)
Theorem parse_sound d base src doc r :
  parse_document d base src = POk doc r -> r = [] /\ g_document d (lex (cfg_with d base) src) [] doc.
Proof. apply parse_document_sound. Qed.
Print Assumptions parse_sound.

(** [parse_complete]: conversely every derivation of the whole token stream is found by the parser,
    which returns exactly the derivation's tree; the fuel [length tokens + 1] that [parse_document]
    provides suffices (no [PFuel], no panic outcome). *)
Theorem parse_complete d base src doc :
  g_document d (lex (cfg_with d base) src) [] doc -> parse_document d base src = POk doc [].
Proof. apply parse_document_complete. Qed.
Print Assumptions parse_complete.

(** Accepted exactly when derivable, with the derivation's tree -- for the implementation ... *)
Theorem parse_exact_impl src doc :
  parse_document impl_flags impl_cfg src = POk doc [] <-> g_document impl_flags (lex impl_cfg src) [] doc.
Proof.
  split; [intros H; now apply parse_sound in H|apply (parse_complete impl_flags impl_cfg)].
Qed.
Print Assumptions parse_exact_impl.

(** ... and the same recogniser under [doc_flags] and the documented tables decides the documented
    language (this is the [G_doc] recogniser the correspondence runs). *)
Theorem parse_exact_doc src doc :
  parse_document doc_flags doc_cfg src = POk doc [] <-> g_document doc_flags (lex doc_cfg src) [] doc.
Proof.
  split; [intros H; now apply parse_sound in H|apply (parse_complete doc_flags doc_cfg)].
Qed.
Print Assumptions parse_exact_doc.

(** The tree of an accepted document is unique (the grammar is unambiguous on whole inputs). *)
Theorem derivation_tree_unique d base src doc1 doc2 :
  g_document d (lex (cfg_with d base) src) [] doc1 -> g_document d (lex (cfg_with d base) src) [] doc2 -> doc1 = doc2.
Proof. apply g_document_unique. Qed.
Print Assumptions derivation_tree_unique.

(** Where the fill [...] may stand under the documented flags (the one side condition of the grammar
    that is written as a boolean function, [args_ok], rather than as productions): exactly
    [arg (',' arg)* (',' '...')?] with at least one proper argument, and nothing after the [...]. *)
Theorem fill_placement_documented args tr :
  args_ok doc_flags args tr = true <->
  exists init, init <> [] /\ forallb (fun a => negb (is_fill a)) init = true /\
               (args = init \/ (exists sp, args = init ++ [AFill sp] /\ tr = false)).
Proof. apply args_ok_doc_spec. Qed.
Print Assumptions fill_placement_documented.

(** [impl_vs_doc_delta]: for each deviation flag a text accepted by one grammar and not the other
    (first ten: implementation accepts, LANGUAGE.md does not; last two: the reverse). The flag
    [pkg_separator_zone] has no witness here: the model does not predict those lexemes.
    The agreement outside the deviations is [impl_vs_doc_agree_outside_deviations] below. *)
Theorem impl_vs_doc_delta :
  map (fun s => (accepts_impl s, accepts_doc s))
      [w_arrow_empty_results; w_result_underscore_forms; w_uppercase_words; w_empty_new_args; w_fill_alone;
       w_fill_anywhere; w_empty_use_items; w_empty_include_with; w_dangling_dash; w_keyword_colon;
       w_named_results; w_borrow_any_type]
  = [(true, false); (true, false); (true, false); (true, false); (true, false);
     (true, false); (true, false); (true, false); (true, false); (true, false);
     (false, true); (false, true)].
Proof. exact delta_witnesses. Qed.
Print Assumptions impl_vs_doc_delta.

(** Non-vacuity: a document using packages with versions, a function type, a `new` expression with an
    inferred argument and a trailing fill, a postfix access and a renamed export is accepted by both
    grammars with the same tree; hence (by [parse_sound]) both derivation relations are inhabited. *)
Example both_grammars_inhabited :
  exists doc, g_document impl_flags (lex (cfg_with impl_flags impl_cfg) w_common) [] doc /\
              g_document doc_flags (lex (cfg_with doc_flags doc_cfg) w_common) [] doc.
Proof.
  destruct common_accepted as [Hok Heq].
  destruct (parse_document impl_flags impl_cfg w_common) as [doc r| | | |] eqn:E; try discriminate Hok.
  destruct r; try discriminate Hok. exists doc. split.
  - exact (proj2 (parse_sound _ _ _ _ _ E)).
  - symmetry in Heq. exact (proj2 (parse_sound _ _ _ _ _ Heq)).
Qed.

From WacV Require Import LexClasses LexerClassC LexerClassD LexerClassE LexerClassF LexerClassG.

(** The theorems below are stated for [cfg_with d base]: any deviation flags [d] over any tables
    [base] that are, as sets of rows, the documented tables ([tables_ok]) -- in particular the lexer of
    the implementation ([impl_cfg = cfg_with impl_flags impl_cfg]) and the documented lexer
    ([cfg_with doc_flags doc_cfg]). The class predicates ([token_class], [rule_class], [follow_ok],
    [unmodelled_at]) are the boolean predicates of spec/LexClasses.v, written from LANGUAGE.md. *)
Theorem lex_tables_ok : tables_ok impl_cfg /\ tables_ok doc_cfg /\ cfg_with impl_flags impl_cfg = impl_cfg.
Proof. split; [exact tables_ok_impl|split; [exact tables_ok_doc|reflexivity]]. Qed.
Print Assumptions lex_tables_ok.

(** [lex_token_classes]: the text of every token the lexer emits is in the class of its kind:
    Ident: [%]? word (- word)* with lower-case words (and upper-case words under [uppercase_words]),
    not a keyword (unless [keyword_colon]), or such an id followed by one [-] under [dangling_dash];
    keyword and punctuation tokens: exactly the one text of the documented table; String: a double
    quote, no double quote inside, a double quote; PackageName: id (: id)+ (@ version)?; PackagePath:
    id (: id)+ (/ id)+ (@ version)?, version being [0-9]+ (. [0-9a-zA-Z+-]+)* . *)
Theorem lex_token_classes d base src :
  tables_ok base ->
  Forall (fun it => match it with LTok t => token_class d (tk t) (ttext t) = true | _ => True end)
         (lex (cfg_with d base) src).
Proof. intros H. now apply lex_token_classes_proof. Qed.
Print Assumptions lex_token_classes.

(** [lex_no_fuel_item]: with the fuel [lex] gives itself the stream never contains the out-of-fuel
    item nor the panic item ([unwrap] in [Lexer::comments]); the unmodelled item [LUnmodelled] is
    emitted only under the flag [pkg_separator_zone] and only at a position of the source where the
    remaining input satisfies the decidable predicate [unmodelled_at] (a package name directly followed
    by a dangling [-]/[:], or a keyword prefix directly followed by a dangling [-]); a source outside
    the zone [unmodelled_zone] never yields it. *)
Theorem lex_no_fuel_item d base src :
  tables_ok base ->
  ~ In LFuel (lex (cfg_with d base) src) /\ ~ In LPanic (lex (cfg_with d base) src) /\
  (forall sp, In (LUnmodelled sp) (lex (cfg_with d base) src) ->
     pkg_separator_zone d = true /\
     exists pre s1, src = pre ++ s1 /\ sp = {| off := byte_len pre; slen := 0 |} /\ unmodelled_at d s1 = true) /\
  (unmodelled_zone d src = false -> forall sp, ~ In (LUnmodelled sp) (lex (cfg_with d base) src)).
Proof. intros H. now apply lex_no_fuel_item_proof. Qed.
Print Assumptions lex_no_fuel_item.

(** At a token start [scan_token] answers "unmodelled" only if the flag is set and the remaining
    input is in the zone (the converse: [unmodelled_zone_exact] below). *)
Theorem unmodelled_only_in_zone d base fuel s :
  tables_ok base -> length s < fuel -> scan_token (cfg_with d base) fuel s = ScanUnmodelled ->
  pkg_separator_zone d = true /\ unmodelled_at d s = true.
Proof. intros H. now apply scan_token_unmodelled. Qed.
Print Assumptions unmodelled_only_in_zone.

(** [lex_sound] (full): tiling + bounds ([lex_sound_partial]) AND class membership AND no fuel / panic
    item AND the unmodelled item only inside the zone. *)
Theorem lex_sound d base src :
  tables_ok base -> screen (cfg_with d base) src = None ->
  let items := lex (cfg_with d base) src in
  tiles 0 src items /\
  Forall (fun it => match it with
                    | LTok t => (off (tsp t) + slen (tsp t) <= byte_len src)%N /\ token_class d (tk t) (ttext t) = true
                    | LFuel | LPanic => False
                    | LUnmodelled sp => pkg_separator_zone d = true /\ unmodelled_zone d src = true
                    | LErr _ _ => True
                    end) items.
Proof.
  intros Ht Hs items. destruct (lex_sound_partial (cfg_with d base) src Hs) as [Htile Hb]. split; [exact Htile|].
  pose proof (lex_token_classes d base src Ht) as Hc. destruct (lex_no_fuel_item d base src Ht) as (Hf & Hp & Hu & Hz).
  apply Forall_forall. intros it Hin. rewrite Forall_forall in Hb, Hc. specialize (Hb _ Hin). specialize (Hc _ Hin).
  destruct it as [t|e sp|sp| |].
  - split; [exact Hb|exact Hc].
  - exact I.
  - split; [exact (proj1 (Hu _ Hin))|]. destruct (unmodelled_zone d src) eqn:E; [reflexivity|]. exfalso. exact (Hz eq_refl _ Hin).
  - exact (Hp Hin).
  - exact (Hf Hin).
Qed.
Print Assumptions lex_sound.

(** [lex_longest] (maximal munch), part 1 -- holds for ALL flags: for every token, at the remaining
    input [s1] where it was produced, no prefix of [s1] longer than the token's text is a lexeme of
    any token rule (Ident, String, PackageName, PackagePath, any keyword, any punctuation). *)
Theorem lex_longest d base src :
  tables_ok base ->
  Forall (fun it => match it with
                    | LTok t => exists pre s1, src = pre ++ s1 /\ off (tsp t) = byte_len pre /\
                                  ttext t = firstn (length (ttext t)) s1 /\
                                  forall m k', length (ttext t) < m <= length s1 -> rule_class d k' (firstn m s1) = false
                    | _ => True end) (lex (cfg_with d base) src).
Proof. intros H. now apply lex_longest_proof. Qed.
Print Assumptions lex_longest.

(** [lex_longest], part 2 -- without the two artefacts of the generated automaton the emitted text IS
    a lexeme of its own rule and an Ident token is never a keyword (keywords have priority): together
    with part 1, every token is the longest lexeme at its position, of the highest-priority rule. *)
Theorem lex_longest_munch d base src :
  tables_ok base -> dangling_dash d = false -> keyword_colon d = false ->
  Forall (fun it => match it with
                    | LTok t => rule_class d (tk t) (ttext t) = true /\ (tk t = TIdent -> is_keyword_text (ttext t) = false)
                    | _ => True end) (lex (cfg_with d base) src).
Proof. intros H. now apply lex_munch_proof. Qed.
Print Assumptions lex_longest_munch.

(** ... and with them it is false of the implementation's lexer. [dangling_dash]: the Ident token
    [foo-] is a lexeme of NO rule (the longest lexeme at that position is [foo]). *)
Theorem lex_longest_dash_refuted :
  exists src t, In (LTok t) (lex impl_cfg src) /\ tk t = TIdent /\
                forallb (fun k => negb (rule_class impl_flags k (ttext t))) all_tokens = true /\
                rule_class impl_flags TIdent (firstn 3 (ttext t)) = true.
Proof. exact dash_refuted. Qed.
Print Assumptions lex_longest_dash_refuted.

(** [keyword_colon]: the Ident token [record] (before a colon) is a keyword: priority is violated. *)
Theorem lex_priority_kwcolon_refuted :
  exists src t, In (LTok t) (lex impl_cfg src) /\ tk t = TIdent /\ rule_class impl_flags TRecordKeyword (ttext t) = true.
Proof. exact kwcolon_refuted. Qed.
Print Assumptions lex_priority_kwcolon_refuted.

(** [relex_stable]: if [scan_token] produced kind [k] and length [n] at some remaining input [s] (any
    position of any source), then on the token's text followed by ANY [rest] that satisfies the follow
    condition of the class ([follow_ok]: one or two characters of lookahead; no condition at all for
    strings) it produces the same kind and length. *)
Theorem relex_stable d base fuel s k n fuel' rest :
  tables_ok base -> length s < fuel -> scan_token (cfg_with d base) fuel s = ScanTok k n ->
  follow_ok d k (firstn n s) rest = true -> length (firstn n s ++ rest) < fuel' ->
  scan_token (cfg_with d base) fuel' (firstn n s ++ rest) = ScanTok k n.
Proof. intros H. now apply relex_stable_scan. Qed.
Print Assumptions relex_stable.

(** The same for [lex]: the text of a token of the stream, followed by such a [rest], lexes to that
    token first (at offset 0, without doc comments). *)
Theorem relex_stable_lex d base src t rest :
  tables_ok base -> In (LTok t) (lex (cfg_with d base) src) ->
  follow_ok d (tk t) (ttext t) rest = true -> at_token (ttext t ++ rest) = true ->
  screen (cfg_with d base) (ttext t ++ rest) = None ->
  exists tl, lex (cfg_with d base) (ttext t ++ rest) =
             LTok {| tk := tk t; tsp := {| off := 0; slen := byte_len (ttext t) |}; ttext := ttext t; tdocs := [] |} :: tl.
Proof. intros H. now apply relex_lex_proof. Qed.
Print Assumptions relex_stable_lex.

(** Every deviation flag only ADDS productions ([flags_le]: flag-wise implication on the nine flags
    that guard productions). *)
Theorem grammar_monotone d1 d2 ts r doc : flags_le d1 d2 -> g_document d1 ts r doc -> g_document d2 ts r doc.
Proof. intros H. now apply (g_document_mono d1 d2 H). Qed.
Print Assumptions grammar_monotone.

(** [impl_vs_doc_agree_outside_deviations]: a token stream that is derivable without using any
    deviation ([core_flags]: all flags off, the productions LANGUAGE.md and the parser share) is
    derivable in G_doc and in G_impl, each derives exactly one tree from it, and it is the same tree. *)
Theorem impl_vs_doc_agree_outside_deviations ts doc :
  g_document core_flags ts [] doc ->
  g_document doc_flags ts [] doc /\ g_document impl_flags ts [] doc /\
  (forall doc', g_document doc_flags ts [] doc' -> doc' = doc) /\
  (forall doc', g_document impl_flags ts [] doc' -> doc' = doc).
Proof. apply agree_outside_deviations. Qed.
Print Assumptions impl_vs_doc_agree_outside_deviations.

(** Non-vacuity of the lexer theorems: on the document [w_common] (and on texts from the known-findings
    witnesses) the lexer emits more than ten tokens, none of them an error, and for EVERY token the follow
    condition of [relex_stable] holds of the text that actually follows it in the source -- under the
    implementation's flags and under the documented ones. *)
Definition follow_all (d : deviations) (cfg : lexcfg) (src : str) : bool :=
  forallb (fun it => match it with
                     | LTok t => follow_ok d (tk t) (ttext t) (skipn (N.to_nat (off (tsp t) + slen (tsp t))) src)
                     | _ => false end) (lex cfg src).
Example relex_hypotheses_hold :
  follow_all impl_flags impl_cfg w_common = true /\ follow_all doc_flags (cfg_with doc_flags doc_cfg) w_common = true /\
  follow_all impl_flags impl_cfg w_dangling_dash = true /\ follow_all impl_flags impl_cfg w_keyword_colon = true /\
  follow_all impl_flags impl_cfg w_uppercase_words = true /\
  (10 <? length (lex impl_cfg w_common))%nat = true.
Proof. vm_compute. repeat split. Qed.

(** The zone is exact: at a position where a token starts, the lexer answers "unmodelled" if and only
    if the flag is set and the remaining input satisfies [unmodelled_at]. *)
Theorem unmodelled_zone_exact d base fuel s :
  tables_ok base -> length s < fuel ->
  (scan_token (cfg_with d base) fuel s = ScanUnmodelled <-> pkg_separator_zone d = true /\ unmodelled_at d s = true).
Proof. intros H. now apply scan_token_unmodelled_iff. Qed.
Print Assumptions unmodelled_zone_exact.

(* Stated, not proved: the SOURCE-level form of [impl_vs_doc_agree_outside_deviations] -- if every token of
   [lex (cfg_with impl_flags impl_cfg) src] is in its class under [core_flags] (no upper-case word, no dangling
   dash, no keyword used as identifier) and the stream contains no [LUnmodelled], then
   [lex (cfg_with doc_flags doc_cfg) src] is the same stream (hence, with the theorem above, both parsers
   return the same tree). The ingredients are here ([lex_longest] and [lex_token_classes] for both
   configurations give: same longest lexeme at every position); what is missing is the monotonicity of the
   classes in the lexical flags and the pairwise disjointness of the rule classes (to conclude "same kind"). *)
