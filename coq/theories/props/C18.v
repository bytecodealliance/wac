(** Property C18 -- file-system dependency lookup follows the documented layout and precedence.
    Statements only; every proof is an application of a lemma of [FsResolveProofs] or [FsResolveFixed].

    All theorems are about [resolve_one] (the model of [FileSystemPackageResolver::resolve] for one
    key) and quantify over EVERY file-system state (any function from paths to Absent/File/Dir),
    every key, every resolver configuration, both settings of the [wat] feature and every behaviour
    of the three library oracles (WAT assembly, WIT directory encoding, WIT file encoding).
    [key_wf] only says that the final path component (last name part / version text) is not empty.

    TWO models: [resolve_one] is fs.rs AS FOUND (sections 1-7 and the refutation below); [resolve_one_fixed] is
    fs.rs as it is NOW, after the repair d297b59 — the last part of this file proves the property for it at full
    strength ([fs_resolve_table]), and the correspondence of every run is against it. *)
From WacV Require Import Str FsResolve FsSpec FsResolveProofs.

Section C18.
  Variable wat_parse wit_dir_encode wit_file_encode : content -> option content.
  Notation resolve_one := (resolve_one wat_parse wit_dir_encode wit_file_encode).
  Notation spec := (spec wat_parse wit_dir_encode wit_file_encode).

  (** 1. The decision table.
      Full statement (the property as written):
        [forall wat fs cfg k, key_wf k -> resolve_one wat fs cfg k = spec wat fs cfg k].
      It is FALSE of the faithful model (see [fs_resolve_table_refuted] below).  What is proved is
      the table everywhere except in the one recorded situation [suffixed_dir_chosen] -- no explicit
      location applies, B is not a directory and the suffixed candidate the lookup settles on
      (B".wat", else B".wasm") is itself a directory -- and, for that situation, exactly what the
      code does instead ([fs_resolve_deviation_shape]). *)
  Theorem fs_resolve_table_partial : forall wat fs cfg k,
    key_wf k -> suffixed_dir_chosen wat fs cfg k = false ->
    resolve_one wat fs cfg k = spec wat fs cfg k.
  Proof. exact (table_partial wat_parse wit_dir_encode wit_file_encode). Qed.

  Theorem fs_resolve_deviation_shape : forall wat fs cfg k,
    key_wf k -> suffixed_dir_chosen wat fs cfg k = true ->
    exists p c, (p = suffixed cfg k s_wat \/ p = suffixed cfg k s_wasm) /\ fs p = Dir c /\
                resolve_one wat fs cfg k = wit_package wit_dir_encode p c.
  Proof. exact (deviation_shape wat_parse wit_dir_encode wit_file_encode). Qed.

  (** 2. The extension is appended: for a versioned reference whatever is loaded has a final
      component that starts with the WHOLE version text ("1.2.3", "1.2.3.wat" or "1.2.3.wasm"),
      and it sits at B, B".wat" or B".wasm". *)
  Theorem ext_appended_not_replaced : forall wat fs cfg k v src p b,
    k_version k = Some v -> v <> [] ->
    resolve_one wat fs cfg k = Loaded src p b ->
    last p [] = v \/ last p [] = v ++ ch_dot :: s_wat \/ last p [] = v ++ ch_dot :: s_wasm.
  Proof.
    intros wat fs cfg k v src p b Hv Hne. rewrite found_table by exact (versioned_wf k v Hv Hne).
    now apply table_last.
  Qed.

  Theorem loaded_from_documented_location : forall wat fs cfg k src p b,
    key_wf k -> applicable_override cfg k = None ->
    resolve_one wat fs cfg k = Loaded src p b ->
    p = base cfg k \/ p = suffixed cfg k s_wat \/ p = suffixed cfg k s_wasm.
  Proof. intros wat fs cfg k src p b Hwf Hov. rewrite found_table by exact Hwf. now apply table_location. Qed.

  (** 3. Text is preferred when enabled (whatever is at B".wasm"), the binary is used otherwise. *)
  Theorem wat_preferred_when_enabled : forall fs cfg k c,
    key_wf k -> applicable_override cfg k = None ->
    is_dir fs (base cfg k) = false -> fs (suffixed cfg k s_wat) = File c ->
    resolve_one true fs cfg k = assembled wat_parse (suffixed cfg k s_wat) c.
  Proof.
    intros fs cfg k c Hwf Hov Hb Hw. rewrite found_table, table_default by assumption.
    unfold exists_, at_candidate. now rewrite Hw.
  Qed.

  Theorem wasm_used_otherwise : forall wat fs cfg k c,
    key_wf k -> applicable_override cfg k = None ->
    is_dir fs (base cfg k) = false -> (wat = false \/ fs (suffixed cfg k s_wat) = Absent) ->
    fs (suffixed cfg k s_wasm) = File c ->
    resolve_one wat fs cfg k = Loaded SrcRaw (suffixed cfg k s_wasm) c.
  Proof.
    intros wat fs cfg k c Hwf Hov Hb Hw Hs. rewrite found_table, table_default by assumption.
    unfold exists_, at_candidate. destruct Hw as [-> | Hw]; [|rewrite Hw; destruct wat]; now rewrite Hs.
  Qed.

  (** 4. A directory at B is read as a WIT package, whatever else exists. *)
  Theorem directory_is_wit_package : forall wat fs cfg k c,
    applicable_override cfg k = None -> fs (base cfg k) = Dir c ->
    resolve_one wat fs cfg k = wit_package wit_dir_encode (base cfg k) c.
  Proof. exact (dir_is_package wat_parse wit_dir_encode wit_file_encode). Qed.

  (** 5. Explicit locations: ignored for versioned references ... *)
  Theorem override_unversioned_only : forall wat fs cfg k v,
    k_version k = Some v ->
    resolve_one wat fs cfg k = resolve_one wat fs (without_overrides cfg) k.
  Proof.
    intros wat fs cfg k v Hv. unfold FsResolve.resolve_one. rewrite !select_path_eq.
    unfold applicable_override. now rewrite Hv.
  Qed.

  (** ... used, and nothing else looked at, for unversioned ones ... *)
  Theorem override_used_when_unversioned : forall wat fs cfg k p c,
    applicable_override cfg k = Some p -> fs p = File c ->
    resolve_one wat fs cfg k = read_named_file wat_parse wit_file_encode wat p c.
  Proof. intros wat fs cfg k p c Hov Hp. rewrite (resolve_one_override _ _ _ wat fs cfg k p Hov). now rewrite Hp. Qed.

  (** ... and they must exist: no fall-back to the dependency directory, in either mode. *)
  Theorem override_must_exist : forall wat fs cfg k p,
    applicable_override cfg k = Some p -> (forall c, fs p <> File c) ->
    resolve_one wat fs cfg k = ErrResolution OverrideMissing.
  Proof.
    intros wat fs cfg k p Hov Hp. rewrite (resolve_one_override _ _ _ wat fs cfg k p Hov).
    destruct (fs p) as [|c|c] eqn:E; try reflexivity. now destruct (Hp c).
  Qed.

  (** 6. The bytes returned are the bytes of the file found, or the encoding/assembly of what was
      found, at the path reported. *)
  Theorem bytes_are_file_bytes : forall wat fs cfg k src p b,
    resolve_one wat fs cfg k = Loaded src p b ->
    bytes_come_from wat_parse wit_dir_encode wit_file_encode fs src p b.
  Proof.
    intros wat fs cfg k src p b. unfold FsResolve.resolve_one.
    destruct (select_path wat fs cfg k) as [q|]; [|discriminate]. rewrite load_eq. apply load_fixed_bytes.
  Qed.

  (** 7. Missing packages: nothing at any candidate gives "skipped" or "unknown package" by mode,
      and these two outcomes occur in no other situation. *)
  Theorem missing_mode : forall wat fs cfg k,
    key_wf k -> applicable_override cfg k = None ->
    fs (base cfg k) = Absent -> (wat = true -> fs (suffixed cfg k s_wat) = Absent) ->
    fs (suffixed cfg k s_wasm) = Absent ->
    resolve_one wat fs cfg k = if error_on_unknown cfg then ErrUnknown else Skipped.
  Proof.
    intros wat fs cfg k Hwf Hov Hb Hw Hs. rewrite found_table by exact Hwf.
    rewrite table_default; [|exact Hov|unfold is_dir; now rewrite Hb].
    unfold exists_, at_candidate. destruct wat; [rewrite (Hw eq_refl)|]; now rewrite Hs.
  Qed.

  Theorem not_found_only_when_missing : forall wat fs cfg k,
    key_wf k -> not_found (resolve_one wat fs cfg k) = true ->
    resolve_one wat fs cfg k = (if error_on_unknown cfg then ErrUnknown else Skipped) /\
    applicable_override cfg k = None /\ is_dir fs (base cfg k) = false /\
    (wat = true -> fs (suffixed cfg k s_wat) = Absent) /\ fs (suffixed cfg k s_wasm) = Absent.
  Proof. exact (not_found_only_when_missing wat_parse wit_dir_encode wit_file_encode). Qed.
End C18.

Print Assumptions fs_resolve_table_partial.
Print Assumptions fs_resolve_deviation_shape.
Print Assumptions ext_appended_not_replaced.
Print Assumptions loaded_from_documented_location.
Print Assumptions wat_preferred_when_enabled.
Print Assumptions wasm_used_otherwise.
Print Assumptions directory_is_wit_package.
Print Assumptions override_unversioned_only.
Print Assumptions override_used_when_unversioned.
Print Assumptions override_must_exist.
Print Assumptions bytes_are_file_bytes.
Print Assumptions missing_mode.
Print Assumptions not_found_only_when_missing.

Definition s_deps : str := [100; 101; 112; 115].                 (* deps *)
Definition s_foo : str := [102; 111; 111].                       (* foo *)
Definition s_bar : str := [98; 97; 114].                         (* bar *)
Definition s_foo_bar : str := s_foo ++ [ch_colon] ++ s_bar.      (* foo:bar *)
Definition s_123 : str := [49; 46; 50; 46; 51].                  (* 1.2.3 *)
Definition s_bar_wat : str := s_bar ++ [ch_dot] ++ s_wat.        (* bar.wat *)
Definition s_bar_wasm : str := s_bar ++ [ch_dot] ++ s_wasm.      (* bar.wasm *)
Definition s_123_wat : str := s_123 ++ [ch_dot] ++ s_wat.        (* 1.2.3.wat *)
Definition s_123_wasm : str := s_123 ++ [ch_dot] ++ s_wasm.      (* 1.2.3.wasm *)
Definition s_12_wasm : str := [49; 46; 50; 46; 119; 97; 115; 109]. (* 1.2.wasm *)
Definition cfg0 (m : bool) : config := {| root := [s_deps]; overrides := []; error_on_unknown := m |}.
(** oracles: assembling content c gives 1000 + c; encoding a WIT directory gives 2000 + c *)
Definition o_wat (c : content) : option content := Some (1000 + c).
Definition o_dir (c : content) : option content := Some (2000 + c).
Definition o_file (c : content) : option content := Some (3000 + c).

(** 1'. Refutation of the full table.  deps/foo/bar.wat is a DIRECTORY, deps/foo/bar.wasm is a
    component file.  The property says the ".wasm" file is used (there is no ".wat" file); the code
    loads the directory "bar.wat" as a WIT package.  Replayed on the real resolver by the
    correspondence (corpus/C18/cases.txt). *)
Theorem fs_resolve_table_refuted :
  exists wat fs cfg k,
    key_wf k /\
    spec o_wat o_dir o_file wat fs cfg k = Loaded SrcRaw [s_deps; s_foo; s_bar_wasm] 7 /\
    resolve_one o_wat o_dir o_file wat fs cfg k = Loaded SrcWitDir [s_deps; s_foo; s_bar_wat] 2005.
Proof.
  exists true,
    (fs_of_list [([s_deps; s_foo; s_bar_wat], Dir 5); ([s_deps; s_foo; s_bar_wasm], File 7)]),
    (cfg0 true), {| k_name := s_foo_bar; k_version := None |}.
  split; [vm_compute; discriminate | vm_compute; split; reflexivity].
Qed.
Print Assumptions fs_resolve_table_refuted.

(** Non-vacuity: a versioned reference with both "1.2.3.wat" and "1.2.3.wasm" present (and a decoy
    "1.2.wasm") loads the assembled text from "1.2.3.wat"; without the text file, the bytes of
    "1.2.3.wasm"; an explicit location is used for the unversioned reference only; a dangling
    explicit location is an error; nothing there is skipped or unknown by mode. *)
Definition fs1 : filesystem :=
  fs_of_list [([s_deps; s_foo; s_bar], Dir 1);
              ([s_deps; s_foo; s_bar; s_123_wat], File 2);
              ([s_deps; s_foo; s_bar; s_123_wasm], File 3);
              ([s_deps; s_foo; s_bar; s_12_wasm], File 4);
              ([s_foo; s_bar_wasm], File 9)].
Definition fs2 : filesystem :=
  fs_of_list [([s_deps; s_foo; s_bar; s_123_wasm], File 3); ([s_deps; s_foo; s_bar; s_12_wasm], File 4)].
Definition k_v : key := {| k_name := s_foo_bar; k_version := Some s_123 |}.
Definition k_u : key := {| k_name := s_foo_bar; k_version := None |}.
Definition cfg_ov (p : path) : config :=
  {| root := [s_deps]; overrides := [(s_foo_bar, p)]; error_on_unknown := true |}.

Example c18_nonvacuous :
  key_wf k_v /\ key_wf k_u /\
  suffixed_dir_chosen true fs1 (cfg0 true) k_v = false /\
  resolve_one o_wat o_dir o_file true fs1 (cfg0 true) k_v = Loaded SrcWat [s_deps; s_foo; s_bar; s_123_wat] 1002 /\
  resolve_one o_wat o_dir o_file false fs1 (cfg0 true) k_v = Loaded SrcRaw [s_deps; s_foo; s_bar; s_123_wasm] 3 /\
  resolve_one o_wat o_dir o_file true fs2 (cfg0 true) k_v = Loaded SrcRaw [s_deps; s_foo; s_bar; s_123_wasm] 3 /\
  resolve_one o_wat o_dir o_file true fs1 (cfg0 true) k_u = Loaded SrcWitDir [s_deps; s_foo; s_bar] 2001 /\
  resolve_one o_wat o_dir o_file true fs1 (cfg_ov [s_foo; s_bar_wasm]) k_u = Loaded SrcRaw [s_foo; s_bar_wasm] 9 /\
  resolve_one o_wat o_dir o_file true fs1 (cfg_ov [s_foo; s_bar_wasm]) k_v = Loaded SrcWat [s_deps; s_foo; s_bar; s_123_wat] 1002 /\
  resolve_one o_wat o_dir o_file true fs1 (cfg_ov [s_foo; s_bar_wat]) k_u = ErrResolution OverrideMissing /\
  resolve_one o_wat o_dir o_file true fs2 (cfg0 true) k_u = ErrUnknown /\
  resolve_one o_wat o_dir o_file true fs2 (cfg0 false) k_u = Skipped.
Proof. vm_compute. repeat split; discriminate. Qed.

(** * The repaired code (commit d297b59): the property at FULL strength.

    /repo's fs.rs now follows [resolve_one_fixed] (FsResolve.v): the correspondence of every run compares the real
    resolver with THIS model on every generated layout, and any difference is a violation.  For it the decision
    table holds for every well-formed key with no exception, and the clauses of the property sharpen accordingly
    (a directory at B".wat"/B".wasm" is not a package: it neither shadows the ".wasm" file nor counts as present).
    The as-found model [resolve_one] and its theorems above are kept so that a return of the defect is recognised
    ([fs_resolve_table_refuted]'s witness is a regression case of the check). *)
From WacV Require Import FsResolveFixed.

Section C18Fixed.
  Variable wat_parse wit_dir_encode wit_file_encode : content -> option content.
  Notation resolve_one := (resolve_one wat_parse wit_dir_encode wit_file_encode).
  Notation resolve_one_fixed := (resolve_one_fixed wat_parse wit_dir_encode wit_file_encode).
  Notation spec := (spec wat_parse wit_dir_encode wit_file_encode).

  (** 1. The decision table, as the property states it. *)
  Theorem fs_resolve_table : forall wat fs cfg k,
    key_wf k -> resolve_one_fixed wat fs cfg k = spec wat fs cfg k.
  Proof. exact (table_fixed wat_parse wit_dir_encode wit_file_encode). Qed.

  (** The repair changes nothing outside the recorded deviation. *)
  Theorem repair_is_conservative : forall wat fs cfg k,
    key_wf k -> suffixed_dir_chosen wat fs cfg k = false ->
    resolve_one_fixed wat fs cfg k = resolve_one wat fs cfg k.
  Proof. exact (fixed_eq_found wat_parse wit_dir_encode wit_file_encode). Qed.

  (** 2. Extension appended, never replaced; documented locations only. *)
  Theorem fixed_ext_appended_not_replaced : forall wat fs cfg k v src p b,
    k_version k = Some v -> v <> [] ->
    resolve_one_fixed wat fs cfg k = Loaded src p b ->
    last p [] = v \/ last p [] = v ++ ch_dot :: s_wat \/ last p [] = v ++ ch_dot :: s_wasm.
  Proof.
    intros wat fs cfg k v src p b Hv Hne. rewrite fixed_table by exact (versioned_wf k v Hv Hne).
    now apply table_last.
  Qed.

  Theorem fixed_loaded_from_documented_location : forall wat fs cfg k src p b,
    key_wf k -> applicable_override cfg k = None ->
    resolve_one_fixed wat fs cfg k = Loaded src p b ->
    p = base cfg k \/ p = suffixed cfg k s_wat \/ p = suffixed cfg k s_wasm.
  Proof. intros wat fs cfg k src p b Hwf Hov. rewrite fixed_table by exact Hwf. now apply table_location. Qed.

  (** 3. Text preferred when enabled; the binary otherwise — also when B".wat" is a directory. *)
  Theorem fixed_wat_preferred_when_enabled : forall fs cfg k c,
    key_wf k -> applicable_override cfg k = None ->
    is_dir fs (base cfg k) = false -> fs (suffixed cfg k s_wat) = File c ->
    resolve_one_fixed true fs cfg k = assembled wat_parse (suffixed cfg k s_wat) c.
  Proof.
    intros fs cfg k c Hwf Hov Hb Hw. rewrite fixed_table, table_default by assumption.
    unfold is_file, at_candidate. now rewrite Hw.
  Qed.

  Theorem fixed_wasm_used_otherwise : forall wat fs cfg k c,
    key_wf k -> applicable_override cfg k = None ->
    is_dir fs (base cfg k) = false -> (wat = false \/ is_file fs (suffixed cfg k s_wat) = false) ->
    fs (suffixed cfg k s_wasm) = File c ->
    resolve_one_fixed wat fs cfg k = Loaded SrcRaw (suffixed cfg k s_wasm) c.
  Proof.
    intros wat fs cfg k c Hwf Hov Hb Hw Hs. rewrite fixed_table, table_default by assumption.
    unfold at_candidate. destruct Hw as [-> | Hw]; [|rewrite Hw, andb_false_r]; now rewrite Hs.
  Qed.

  (** 4. A directory at B is a WIT package. *)
  Theorem fixed_directory_is_wit_package : forall wat fs cfg k c,
    applicable_override cfg k = None -> fs (base cfg k) = Dir c ->
    resolve_one_fixed wat fs cfg k = wit_package wit_dir_encode (base cfg k) c.
  Proof. exact (fixed_dir_is_package wat_parse wit_dir_encode wit_file_encode). Qed.

  (** 5. Explicit locations. *)
  Theorem fixed_override_unversioned_only : forall wat fs cfg k v,
    k_version k = Some v ->
    resolve_one_fixed wat fs cfg k = resolve_one_fixed wat fs (without_overrides cfg) k.
  Proof.
    intros wat fs cfg k v Hv. unfold FsResolve.resolve_one_fixed. rewrite !select_path_fixed_eq.
    unfold applicable_override. now rewrite Hv.
  Qed.

  Theorem fixed_override_used_when_unversioned : forall wat fs cfg k p c,
    applicable_override cfg k = Some p -> fs p = File c ->
    resolve_one_fixed wat fs cfg k = read_named_file wat_parse wit_file_encode wat p c.
  Proof. intros wat fs cfg k p c Hov Hp. rewrite (fixed_override _ _ _ wat fs cfg k p Hov). now rewrite Hp. Qed.

  Theorem fixed_override_must_exist : forall wat fs cfg k p,
    applicable_override cfg k = Some p -> (forall c, fs p <> File c) ->
    resolve_one_fixed wat fs cfg k = ErrResolution OverrideMissing.
  Proof.
    intros wat fs cfg k p Hov Hp. rewrite (fixed_override _ _ _ wat fs cfg k p Hov).
    destruct (fs p) as [|c|c] eqn:E; try reflexivity. now destruct (Hp c).
  Qed.

  (** 6. Bytes. *)
  Theorem fixed_bytes_are_file_bytes : forall wat fs cfg k src p b,
    resolve_one_fixed wat fs cfg k = Loaded src p b ->
    bytes_come_from wat_parse wit_dir_encode wit_file_encode fs src p b.
  Proof.
    intros wat fs cfg k src p b. unfold FsResolve.resolve_one_fixed.
    destruct (select_path_fixed wat fs cfg k) as [[q ip]|]; [|discriminate]. apply load_fixed_bytes.
  Qed.

  (** 7. Skipped / unknown exactly when nothing is there, by mode. *)
  Theorem fixed_missing_mode : forall wat fs cfg k,
    key_wf k -> nothing_there wat fs cfg k ->
    resolve_one_fixed wat fs cfg k = if error_on_unknown cfg then ErrUnknown else Skipped.
  Proof. exact (fixed_missing wat_parse wit_dir_encode wit_file_encode). Qed.

  Theorem fixed_not_found_exactly_when_missing : forall wat fs cfg k,
    key_wf k ->
    (not_found (resolve_one_fixed wat fs cfg k) = true <-> nothing_there wat fs cfg k).
  Proof. exact (fixed_not_found_iff wat_parse wit_dir_encode wit_file_encode). Qed.
End C18Fixed.

Print Assumptions fs_resolve_table.
Print Assumptions repair_is_conservative.
Print Assumptions fixed_ext_appended_not_replaced.
Print Assumptions fixed_loaded_from_documented_location.
Print Assumptions fixed_wat_preferred_when_enabled.
Print Assumptions fixed_wasm_used_otherwise.
Print Assumptions fixed_directory_is_wit_package.
Print Assumptions fixed_override_unversioned_only.
Print Assumptions fixed_override_used_when_unversioned.
Print Assumptions fixed_override_must_exist.
Print Assumptions fixed_bytes_are_file_bytes.
Print Assumptions fixed_missing_mode.
Print Assumptions fixed_not_found_exactly_when_missing.

(** * One call, several keys ([resolve_all]): every key is answered as if it were requested alone. *)
Section C18All.
  Variable wat_parse wit_dir_encode wit_file_encode : content -> option content.
  Notation resolve_one_fixed := (resolve_one_fixed wat_parse wit_dir_encode wit_file_encode).
  Notation resolve_all := (resolve_all wat_parse wit_dir_encode wit_file_encode).

  Theorem keys_resolved_independently : forall wat fs cfg ks,
    forallb (fun k => negb (is_failure (resolve_one_fixed wat fs cfg k))) ks = true ->
    resolve_all wat fs cfg ks = map (resolve_one_fixed wat fs cfg) ks.
  Proof. exact (resolve_all_independent wat_parse wit_dir_encode wit_file_encode). Qed.

  Theorem first_failing_key_ends_the_call : forall wat fs cfg pre k post,
    forallb (fun k => negb (is_failure (resolve_one_fixed wat fs cfg k))) pre = true ->
    is_failure (resolve_one_fixed wat fs cfg k) = true ->
    resolve_all wat fs cfg (pre ++ k :: post) =
    map (resolve_one_fixed wat fs cfg) pre ++ [resolve_one_fixed wat fs cfg k].
  Proof. exact (resolve_all_first_failure wat_parse wit_dir_encode wit_file_encode). Qed.

  Theorem answer_is_standalone_answer : forall wat fs cfg ks i o,
    nth_error (resolve_all wat fs cfg ks) i = Some o ->
    exists k, nth_error ks i = Some k /\ o = resolve_one_fixed wat fs cfg k.
  Proof. exact (resolve_all_nth wat_parse wit_dir_encode wit_file_encode). Qed.
End C18All.

Print Assumptions keys_resolved_independently.
Print Assumptions first_failing_key_ends_the_call.
Print Assumptions answer_is_standalone_answer.

(** On the witness of [fs_resolve_table_refuted] the repaired code answers as the table says, and the non-vacuity
    cases of [c18_nonvacuous] are answered identically. *)
Example c18_fixed_nonvacuous :
  resolve_one_fixed o_wat o_dir o_file true
    (fs_of_list [([s_deps; s_foo; s_bar_wat], Dir 5); ([s_deps; s_foo; s_bar_wasm], File 7)])
    (cfg0 true) k_u = Loaded SrcRaw [s_deps; s_foo; s_bar_wasm] 7 /\
  resolve_one_fixed o_wat o_dir o_file true
    (fs_of_list [([s_deps; s_foo; s_bar_wasm], Dir 5)]) (cfg0 true) k_u = ErrUnknown /\
  resolve_one_fixed o_wat o_dir o_file true fs1 (cfg0 true) k_v = Loaded SrcWat [s_deps; s_foo; s_bar; s_123_wat] 1002 /\
  resolve_one_fixed o_wat o_dir o_file false fs1 (cfg0 true) k_v = Loaded SrcRaw [s_deps; s_foo; s_bar; s_123_wasm] 3 /\
  resolve_one_fixed o_wat o_dir o_file true fs1 (cfg0 true) k_u = Loaded SrcWitDir [s_deps; s_foo; s_bar] 2001 /\
  resolve_one_fixed o_wat o_dir o_file true fs1 (cfg_ov [s_foo; s_bar_wasm]) k_u = Loaded SrcRaw [s_foo; s_bar_wasm] 9 /\
  resolve_one_fixed o_wat o_dir o_file true fs1 (cfg_ov [s_foo; s_bar_wat]) k_u = ErrResolution OverrideMissing /\
  resolve_one_fixed o_wat o_dir o_file true fs2 (cfg0 false) k_u = Skipped.
Proof. vm_compute. repeat split. Qed.
