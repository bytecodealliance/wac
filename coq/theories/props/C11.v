(** Property C11 — a [targets] verdict means the output really conforms to the world.
    This file holds only statements: every theorem is an application of a lemma of proofs/TargetsProofs.v or
    proofs/TargetsCheckerProofs.v; the two non-vacuity examples at the end are checked here.

    Models (model/Targets.v): [resolve_target] = [AstResolver::validate_target] (resolution.rs),
    [standalone_target] = [wac_types::validate_target] (targets.rs).  Specification (spec/TargetsSpec.v):
    [Conforms d w c] and the three failure classes, for a name-matching discipline [d] (Exact / Semver).
    [sub] is the subtype oracle (C07), [promote] is [ItemKind::promote]; both are arbitrary here.
    [wf_pair]: tables are consistent (one kind per name: unique [IndexMap] keys; an interface listed both
    explicitly and through [use] is the same interface). *)
From WacV Require Import Str Ord Semver Names NamesSpec Types SubSpec Targets TargetsSpec.
From WacV Require Import TargetsProofs TargetsChecker TargetsCheckerProofs Checker CheckerTheorems.

(** 1. The resolution-time verdict is the declarative conformance WITH EXACT NAMES, and each diagnostic
       is raised exactly when its failure class is the first failure in the order "imports of the
       composition, then exports of the world". *)
Theorem resolve_target_spec :
  forall K (promote : K -> K) (sub : K -> K -> bool) (w : tworld K) (c : comp K), wf_pair w c ->
    (resolve_target promote sub w c = ROk <-> Conforms promote sub Exact w c) /\
    (forall n, resolve_target promote sub w c = RErr (ImportNotInTarget n) <->
               diag_import_not_in_target promote sub Exact w c n) /\
    (forall n, resolve_target promote sub w c = RErr (TargetMismatch EImport n) <->
               diag_import_mismatch promote sub Exact w c n) /\
    (forall n, resolve_target promote sub w c = RErr (MissingTargetExport n) <->
               diag_missing_export promote sub Exact w c n) /\
    (forall n, resolve_target promote sub w c = RErr (TargetMismatch EExport n) <->
               diag_export_mismatch promote sub Exact w c n).
Proof.
  intros K promote sub w c WF. rewrite <- (spec_first_exact_is_model K promote sub w c WF).
  exact (spec_first_spec K promote sub w c WF Exact).
Qed.
Print Assumptions resolve_target_spec.

(** 2. The stand-alone check never panics (its two [unwrap]s are safe), its report consists of exactly
       the three failure classes under the SEMVER discipline (identical name, else the highest version
       on the name's track), and it answers Ok exactly on semver-conformance. *)
Theorem standalone_never_panics :
  forall K (promote : K -> K) (sub : K -> K -> bool) (w : tworld K) (c : comp K),
    standalone_target promote sub w c <> SPanic.
Proof. exact standalone_never_panics. Qed.
Print Assumptions standalone_never_panics.

Theorem standalone_target_spec :
  forall K (promote : K -> K) (sub : K -> K -> bool) (w : tworld K) (c : comp K), wf_pair w c ->
    exists r, standalone_target promote sub w c = SReport r /\
      (forall n, In n (r_not_in_target r) <-> in_not_in_target Semver w c n) /\
      (forall n, In n (r_missing r) <-> in_missing Semver w c n) /\
      (forall n, In n (map fst (r_mismatched r)) <-> in_mismatched promote sub Semver w c n) /\
      (report_ok r = true <-> Conforms promote sub Semver w c).
Proof. exact standalone_spec. Qed.
Print Assumptions standalone_target_spec.

(** 3. "The same verdict is reached by the stand-alone check": FALSE of the faithful models.
       Full statement:  forall w c, wf_pair w c -> agree (resolve_target w c) (standalone_target w c).
       Witness: the composition imports [x:y/z@0.2.0], the world imports [x:y/z@0.2.1] (same kind). *)
Theorem verdicts_agree_refuted :
  exists (w : tworld N) (c : comp N),
    wf_pair w c /\
    resolve_target (fun k => k) N.eqb w c <> ROk /\
    standalone_ok (fun k => k) N.eqb w c = true /\
    ~ agree (resolve_target (fun k => k) N.eqb w c) (standalone_target (fun k => k) N.eqb w c).
Proof.
  exists w_refute, c_refute. destruct refute_facts as [R S]. split; [exact refute_wf|].
  unfold standalone_ok. rewrite R, S. split; [discriminate|]. split; [reflexivity|]. cbn. tauto.
Qed.
Print Assumptions verdicts_agree_refuted.

(** ... and TRUE as soon as no two distinct names of the pair lie on one semver track. *)
Theorem verdicts_agree_when_exact_names :
  forall K (promote : K -> K) (sub : K -> K -> bool) (w : tworld K) (c : comp K),
    wf_pair w c -> exact_names w c ->
    agree (resolve_target promote sub w c) (standalone_target promote sub w c).
Proof. exact agree_when_exact. Qed.
Print Assumptions verdicts_agree_when_exact_names.

(** 3b. The resolution-time check as repaired by hooks/fix-c11-semver-targets.patch (model
        [resolve_target_sv]: the same semver-aware lookups as the stand-alone check): it never panics, it
        is the conformance under the SEMVER discipline with the diagnostics in scan order, and then the
        two verdicts agree on EVERY well-formed pair.  (./check selects the model variant that matches the
        source tree it is run against.) *)
Theorem resolve_target_sv_spec :
  forall K (promote : K -> K) (sub : K -> K -> bool) (w : tworld K) (c : comp K), wf_pair w c ->
    exists v, resolve_target_sv promote sub w c = Some v /\
      (v = ROk <-> Conforms promote sub Semver w c) /\
      (forall n, v = RErr (ImportNotInTarget n) <-> diag_import_not_in_target promote sub Semver w c n) /\
      (forall n, v = RErr (TargetMismatch EImport n) <-> diag_import_mismatch promote sub Semver w c n) /\
      (forall n, v = RErr (MissingTargetExport n) <-> diag_missing_export promote sub Semver w c n) /\
      (forall n, v = RErr (TargetMismatch EExport n) <-> diag_export_mismatch promote sub Semver w c n).
Proof.
  intros K promote sub w c WF. exists (spec_first promote sub Semver w c).
  split; [exact (spec_first_semver_is_model K promote sub w c WF) | exact (spec_first_spec K promote sub w c WF Semver)].
Qed.
Print Assumptions resolve_target_sv_spec.

Theorem verdicts_agree_after_repair :
  forall K (promote : K -> K) (sub : K -> K -> bool) (w : tworld K) (c : comp K), wf_pair w c ->
    exists v, resolve_target_sv promote sub w c = Some v /\ agree v (standalone_target promote sub w c).
Proof. intros K promote sub w c _. apply agree_sv. Qed.
Print Assumptions verdicts_agree_after_repair.

(** 4. Component-model subtyping.  Full statement of the property: for resource-free worlds the verdict
       coincides with the reference validator's subtyping between the output's component type and the
       world's.  Proved here: for ANY oracle deciding the declarative component-model relation [SubCM]
       (SubSpec.v; C07 relates the checker to it on the resource-free fragment), and a world whose items
       are not affected by [promote] (no type-level func/interface/world items: WIT worlds have none),
       the resolution-time verdict is Ok iff the component type (imports, exports) of the composition is
       a [SubCM]-subtype of the component type (imports incl. used interfaces, exports) of the world.
       Missing for the full statement: that the encoded output has exactly this component type (C03).
       4b below ([target_iff_cm_subtype], [target_iff_cm_subtype_exact_names]) has neither the oracle nor the
       promote-stability hypothesis; the oracle form here holds for any decision procedure of [SubCM] and for
       the unrepaired exact-name check. *)
Theorem target_iff_cm_subtype_partial :
  forall (sub : tree -> tree -> bool), (forall a b, sub a b = true <-> SubCM a b) ->
  forall (w : tworld tree) (c : comp tree), promote_stable w ->
    (resolve_target tree_promote sub w c = ROk <-> SubCM (comp_tree c) (world_tree w)).
Proof. exact target_iff_cm_subtype. Qed.
Print Assumptions target_iff_cm_subtype_partial.

(** 4b. The same WITHOUT an oracle: kinds are [Types.kind] of one collection [t], [promote] is
        [ItemKind::promote] ([kind_promote]), the subtype test is the checker model of property C07
        ([chk F t a b] = one check on a fresh checker), and the world/composition are denoted by their trees
        ([den] = [unfold]).  For resource-free pairs the repaired (semver-aware) resolution verdict is Ok exactly
        when the composition's component type is a component-model subtype of the world's with names matched
        up to the semver discipline ([TargetSub Semver]: every import of the composition is provided by the
        consulted import of the world at a [SubCM]-subtype, every export of the world by the consulted export of
        the composition; world items are [promote]d, so promote-stability is not assumed).
        Remaining hypotheses, all about the inputs: [wf_types t r] (well-formed acyclic collection, C07),
        [pages_ok t] (C07's scope for completeness: the known "memory-default-page-size" finding), [wf_pair]
        (one kind per name), [good_pair'] (no dangling identifier, fuel above the ranks: [fuel_suffices] shows
        that such fuel exists), [resfree_pair] (the property's resource-free fragment). *)
Theorem target_iff_cm_subtype :
  forall t r F, wf_types t r -> forall (w : tworld kind) (c : comp kind),
    pages_ok t -> wf_pair w c -> good_pair' t r F w c -> resfree_pair t F w c ->
    (resolve_target_sv kind_promote (chk F t) w c = Some ROk <->
     TargetSub Semver (comp_imports_tree t F c) (mapv (den t F) (c_exports c))
                      (mapv (den t F) (wtable w)) (mapv (den t F) (tw_exports w))).
Proof. exact target_iff_cm. Qed.
Print Assumptions target_iff_cm_subtype.

(** ... which, when no two distinct names of the pair share a semver track, is literally the component-model
    rule [SubCM (component type of the composition) (component type of the world)]. *)
Theorem target_iff_cm_subtype_exact_names :
  forall t r F, wf_types t r -> forall (w : tworld kind) (c : comp kind),
    pages_ok t -> wf_pair w c -> good_pair' t r F w c -> resfree_pair t F w c -> exact_names w c ->
    (resolve_target_sv kind_promote (chk F t) w c = Some ROk <->
     SubCM (XComp (comp_imports_tree t F c) (mapv (den t F) (c_exports c)))
           (XComp (mapv tree_promote (mapv (den t F) (wtable w))) (mapv tree_promote (mapv (den t F) (tw_exports w))))).
Proof. exact target_iff_SubCM_exact. Qed.
Print Assumptions target_iff_cm_subtype_exact_names.

(** On the current tree [pages_ok] holds for every collection (C07's generated flag [psl_default_normalised] is [true]
    since the repair 4ea555f), so the hypothesis disappears. *)
Theorem target_iff_cm_subtype_current :
  forall t r F, wf_types t r -> forall (w : tworld kind) (c : comp kind),
    wf_pair w c -> good_pair' t r F w c -> resfree_pair t F w c ->
    (resolve_target_sv kind_promote (chk F t) w c = Some ROk <->
     TargetSub Semver (comp_imports_tree t F c) (mapv (den t F) (c_exports c))
                      (mapv (den t F) (wtable w)) (mapv (den t F) (tw_exports w))).
Proof. intros t r F W w c. apply (target_iff_cm_subtype t r F W w c). left. reflexivity. Qed.
Print Assumptions target_iff_cm_subtype_current.

Theorem fuel_suffices :
  forall t r (w : tworld kind) (c : comp kind),
    (forall n k, In (n, k) (wtable w ++ tw_exports w ++ c_exports c) -> kind_ok t k) ->
    (forall i, In i (c_imports c) -> kind_ok t (ikind i)) ->
    exists F0, forall F, (F0 <= F)%nat -> good_pair' t r F w c.
Proof. exact good_pair_fuel. Qed.
Print Assumptions fuel_suffices.

(** 4c. Why one fresh check per query is the right oracle, and the panic sites.  [resolve_target_full] threads ONE
        checker through both loops as the code does (memo shared, [invert] before the imports loop, [revert]
        after it) and evaluates [state.import_spans[&n]] inside the error closures.  Under the resolver's
        bookkeeping invariant at this abstraction ([spans_cover]: every explicit import node listed by
        [CompositionGraph::imports()] has a span) it never panics -- neither at the span index sites, nor at
        [revert], nor at the [unwrap]s, nor inside the checker, nor by lack of fuel -- and returns the verdict of
        the abstract model run with the oracle [chk].  (That [spans_cover] holds needs the resolver model:
        imports are created only by [import_statement], which inserts the span; ./check ties this to the
        source text.) *)
Theorem resolve_target_full_never_panics :
  forall t r F, wf_types t r -> forall spans (w : tworld kind) (c : compn),
    wf_pair w (erase c) -> good_pair t r F w c -> spans_cover spans c ->
    exists v, resolve_target_sv kind_promote (chk F t) w (erase c) = Some v /\
              resolve_target_full F t spans w c = OVerdict v.
Proof. exact resolve_full_eq. Qed.
Print Assumptions resolve_target_full_never_panics.

(** 5. The executable specification printed by the driver: [conforms_b] decides the declarative conformance;
       [spec_first] raises each diagnostic exactly when its failure class is first; the set printers
       enumerate the three classes; and [spec_first] coincides with the models. *)
Theorem spec_first_characterised :
  forall K (promote : K -> K) (sub : K -> K -> bool) d (w : tworld K) (c : comp K), wf_pair w c ->
    (spec_first promote sub d w c = ROk <-> Conforms promote sub d w c) /\
    (forall n, spec_first promote sub d w c = RErr (ImportNotInTarget n) <-> diag_import_not_in_target promote sub d w c n) /\
    (forall n, spec_first promote sub d w c = RErr (TargetMismatch EImport n) <-> diag_import_mismatch promote sub d w c n) /\
    (forall n, spec_first promote sub d w c = RErr (MissingTargetExport n) <-> diag_missing_export promote sub d w c n) /\
    (forall n, spec_first promote sub d w c = RErr (TargetMismatch EExport n) <-> diag_export_mismatch promote sub d w c n).
Proof. intros K promote sub d w c WF. exact (spec_first_spec K promote sub w c WF d). Qed.
Print Assumptions spec_first_characterised.

Theorem spec_sets_characterised :
  forall K (promote : K -> K) (sub : K -> K -> bool) d (w : tworld K) (c : comp K), wf_pair w c ->
    (forall n, In n (spec_not_in_target promote sub d w c) <-> in_not_in_target d w c n) /\
    (forall n, In n (spec_missing promote sub d w c) <-> in_missing d w c n) /\
    (forall n, In n (spec_mismatched promote sub d w c) <-> in_mismatched promote sub d w c n).
Proof. intros K promote sub d w c WF. exact (spec_sets_spec K promote sub w c WF d). Qed.
Print Assumptions spec_sets_characterised.

Theorem spec_first_is_the_model :
  forall K (promote : K -> K) (sub : K -> K -> bool) (w : tworld K) (c : comp K), wf_pair w c ->
    spec_first promote sub Exact w c = resolve_target promote sub w c /\
    resolve_target_sv promote sub w c = Some (spec_first promote sub Semver w c).
Proof.
  intros K promote sub w c WF. split.
  - exact (spec_first_exact_is_model K promote sub w c WF).
  - exact (spec_first_semver_is_model K promote sub w c WF).
Qed.
Print Assumptions spec_first_is_the_model.

Theorem conforms_b_decides :
  forall K (promote : K -> K) (sub : K -> K -> bool) d (w : tworld K) (c : comp K),
    conforms_b promote sub d w c = true <-> Conforms promote sub d w c.
Proof. exact conforms_b_iff. Qed.
Print Assumptions conforms_b_decides.

(** Non-vacuity: a well-formed pair with a used interface, two versions of one interface on a track and
    a mismatching export; the executable checks [consistent_b] and [exact_names_b] (spec/TargetsSpec.v) of the
    hypotheses of the theorems above evaluate as stated, and so do the verdicts. *)
Definition n_f : str := [102].                                           (* f *)
Definition n_abt_010 : str := [97;58;98;47;116;64;48;46;49;46;48].       (* a:b/t@0.1.0 *)
Definition n_xyz_029 : str := [120;58;121;47;122;64;48;46;50;46;57].     (* x:y/z@0.2.9 *)
Definition w_demo : tworld N :=
  mktworld [(n_abt_010, 7)] [(n_abt_010, 7); (n_xyz_020, 1); (n_xyz_029, 2)] [(n_f, 3)].
Definition c_demo : comp N := mkcomp [(n_xyz_021, 2, false); (n_abt_010, 7, true)] [(n_f, 3)].
Definition c_demo_bad : comp N := mkcomp [(n_abt_010, 7, true)] [(n_f, 4)].
Example targets_nonvacuous :
  consistent_b N.eqb (wtable w_demo) = true /\ consistent_b N.eqb (c_exports c_demo) = true /\
  (* semver: x:y/z@0.2.1 is answered by the highest version on the track, 0.2.9 (kind 2) *)
  standalone_ok (fun k => k) N.eqb w_demo c_demo = true /\
  conforms_b (fun k => k) N.eqb Semver w_demo c_demo = true /\
  resolve_target (fun k => k) N.eqb w_demo c_demo = RErr (ImportNotInTarget n_xyz_021) /\
  resolve_target_sv (fun k => k) N.eqb w_demo c_demo = Some ROk /\
  exact_names_b w_demo c_demo = false /\
  (* exact names: both checks agree *)
  exact_names_b w_demo c_demo_bad = true /\
  resolve_target (fun k => k) N.eqb w_demo c_demo_bad = RErr (TargetMismatch EExport n_f) /\
  standalone_target (fun k => k) N.eqb w_demo c_demo_bad = SReport (mkreport [] [] [(n_f, EExport)]) /\
  conforms_b (fun k => k) N.eqb Exact w_demo c_demo_bad = false.
Proof. vm_compute. repeat split. Qed.

(** Non-vacuity of the oracle-free statements: one collection with an interface {f}, a world importing it as
    [x:y/z@0.2.1] and a composition importing [x:y/z@0.2.0] through an explicit import node that has a span.
    All hypotheses hold; the threaded model answers Ok; without the span it is the span-index panic. *)
Definition c11_t : types :=
  mktypes 1 [] [] [mkfunc [] None false] [mkif None [] [([102], KFunc (mkid 1 0))]] [] [].
Definition c11_rk : ranking := mkrank (fun _ => O) (fun _ => O) (fun _ => O) (fun _ => 1%nat) (fun _ => O).
Definition c11_w : tworld kind := mktworld [] [(n_xyz_021, KType (TInterface (mkid 1 0)))] [].
Definition c11_c : compn := mkcompn [(n_xyz_020, KInstance (mkid 1 0), Some 7%nat)] [].
Definition c11_bad : compn := mkcompn [(n_f, KFunc (mkid 1 0), Some 7%nat)] [].
Example c11_concrete_nonvacuous :
  wf_types c11_t c11_rk /\ pages_ok c11_t /\ wf_pair c11_w (erase c11_c) /\
  good_pair c11_t c11_rk 3 c11_w c11_c /\ good_pair' c11_t c11_rk 3 c11_w (erase c11_c) /\
  resfree_pair c11_t 3 c11_w (erase c11_c) /\ spans_cover [7%nat] c11_c /\
  resolve_target_full 3 c11_t [7%nat] c11_w c11_c = OVerdict ROk /\
  resolve_target_full 3 c11_t [7%nat] c11_w c11_bad = OVerdict (RErr (ImportNotInTarget n_f)) /\
  resolve_target_full 3 c11_t [] c11_w c11_bad = OPanic (PSpanIndex 7).
Proof.
  assert (Hnd : NoDup [[102]]) by (constructor; [intros [] | constructor]).
  split; [|split; [|split; [|split; [|split; [|split; [|split; [|split; [|split]]]]]]]].
  - split.
    + intros [|i] d H; discriminate H.
    + intros [|i] x H; discriminate H.
    + intros [|[|i]] f H; try discriminate H. injection H as <-. split; [constructor | intros v []].
    + intros [|[|i]] x H; try discriminate H; injection H as <-; (split; [assumption|]);
        intros k Hin; cbn in Hin; repeat destruct Hin as [<-|Hin]; try destruct Hin; cbn; repeat split; auto.
    + intros [|i] x H; discriminate H.
    + intros [|i] x H; discriminate H.
  - right. intros [|i] m H; discriminate H.
  - split; cbn; [apply consistent_single | apply consistent_nil].
  - split.
    + intros n k [H|[]]. injection H as _ <-. split; [split; cbn; auto | cbn; auto].
    + intros n k node [H|[]]. injection H as _ <- _. split; [split; cbn; auto | cbn; auto].
  - split.
    + intros n k [H|[]]. injection H as _ <-. split; [split; cbn; auto | cbn; auto].
    + intros i [<-|[]]. split; [split; cbn; auto | cbn; auto].
  - split.
    + intros n k [H|[]]. injection H as _ <-. vm_compute. reflexivity.
    + intros i [<-|[]]. vm_compute. reflexivity.
  - intros n k node [H|[]]. injection H as _ _ <-. now left.
  - vm_compute. reflexivity.
  - vm_compute. reflexivity.
  - vm_compute. reflexivity.
Qed.
