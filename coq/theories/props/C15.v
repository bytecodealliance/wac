(** Property C15 — semver-compatible name matching is the semver track relation; highest wins.
    This file holds only statements; every proof is [exact <lemma>], for the map after rewriting with
    [nm_get_spec]. *)
From Coq Require Import Permutation.
From WacV Require Import Str Ord Semver Names NamesSpec SemverProofs SemverText NamesProofs NameMapProofs.

(** 1. Two names are compatible exactly when identical, or same base before [@] and both release
       versions on one track (same major > 0; same 0.minor with minor > 0; never 0.0.x / pre-release;
       build metadata ignored because [track_of] does not look at it). *)
Theorem compat_iff : forall a b, compat a b = true <-> Compat_spec a b.
Proof. exact compat_iff. Qed.
Print Assumptions compat_iff.

Theorem compat_equivalence :
  (forall a, compat a a = true) /\ (forall a b, compat a b = compat b a) /\
  (forall a b c, compat a b = true -> compat b c = true -> compat a c = true).
Proof. exact (conj compat_refl (conj compat_sym compat_trans)). Qed.
Print Assumptions compat_equivalence.

(** 2. "Highest" is well defined: the version order is total, and distinct version texts denote
       distinct versions. *)
Theorem version_order_total : total_cmp cmp_version.
Proof. exact cmp_version_total. Qed.
Print Assumptions version_order_total.

Theorem version_text_injective : forall t1 t2 v,
  parse_version t1 = Some v -> parse_version t2 = Some v -> t1 = t2.
Proof. exact parse_version_inj. Qed.
Print Assumptions version_text_injective.

(** 3. The map: after any history of inserts, an exact match wins ... *)
Theorem nm_get_exact : forall (ops : list (str * N)) n x,
  In (n, x) (accepted ops) -> nm_get (nm_build ops) n = Some x.
Proof. intros ops n x H. rewrite nm_get_spec. exact (spec_get_exact ops n x H). Qed.
Print Assumptions nm_get_exact.

(** ... otherwise the entry with the highest version on the requested track ... *)
Theorem nm_get_highest : forall (ops : list (str * N)) q x,
  find_exact q (accepted ops) = None -> nm_get (nm_build ops) q = Some x ->
  exists n v, In (n, x) (accepted ops) /\ same_track n q = true /\ version_of n = Some v /\
    forall n' x' v', In (n', x') (accepted ops) -> same_track n' q = true -> version_of n' = Some v' ->
                     cmp_version v' v <> Gt.
Proof. intros ops q x H1 H2. rewrite nm_get_spec in H2. exact (spec_get_highest ops q x H1 H2). Qed.
Print Assumptions nm_get_highest.

(** ... and nothing is returned only when no entry is identical or on the track. *)
Theorem nm_get_none : forall (ops : list (str * N)) q,
  nm_get (nm_build ops) q = None ->
  forall n x, In (n, x) (accepted ops) -> n <> q /\ same_track n q = false.
Proof. intros ops q H. rewrite nm_get_spec in H. exact (spec_get_none ops q H). Qed.
Print Assumptions nm_get_none.

(** 4. Never an entry from another name or track. *)
Theorem never_other_track : forall (ops : list (str * N)) q x,
  nm_get (nm_build ops) q = Some x -> exists n, In (n, x) ops /\ compat n q = true.
Proof.
  intros ops q x H. rewrite nm_get_spec in H. exact (spec_get_sound ops q x H).
Qed.
Print Assumptions never_other_track.

(** 5. Insertion order is irrelevant. *)
Theorem nm_order_indep : forall (ops ops' : list (str * N)) q,
  Permutation ops ops' -> NoDup (map fst ops) ->
  nm_get (nm_build ops) q = nm_get (nm_build ops') q.
Proof. intros ops ops' q P ND. rewrite !nm_get_spec. exact (spec_get_order_indep ops ops' q P ND). Qed.
Print Assumptions nm_order_indep.

(** Non-vacuity: concrete names meet the hypotheses ("a:b/c@0.2.1+meta" style). *)
Definition s_ (l : list N) : str := l.
Definition n_abc_021m : str := [97;58;98;47;99;64;48;46;50;46;49;43;109].   (* a:b/c@0.2.1+m *)
Definition n_abc_020  : str := [97;58;98;47;99;64;48;46;50;46;48].         (* a:b/c@0.2.0 *)
Definition n_abc_029  : str := [97;58;98;47;99;64;48;46;50;46;57].         (* a:b/c@0.2.9 *)
Definition n_abc_030  : str := [97;58;98;47;99;64;48;46;51;46;48].         (* a:b/c@0.3.0 *)
Example compat_nonvacuous :
  compat n_abc_021m n_abc_020 = true /\ compat n_abc_020 n_abc_030 = false /\
  nm_get (nm_build [(n_abc_020, 0); (n_abc_021m, 1); (n_abc_030, 2)]) n_abc_029 = Some 1 /\
  nm_get (nm_build [(n_abc_021m, 1); (n_abc_030, 2); (n_abc_020, 0)]) n_abc_029 = Some 1 /\
  find_exact n_abc_029 (accepted [(n_abc_020, 0); (n_abc_021m, 1); (n_abc_030, 2)]) = None.
Proof. vm_compute. repeat split. Qed.
