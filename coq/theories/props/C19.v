(** Property C19 — the CLI does what the library does with the flags as documented.
    Statements only; every proof is an application of a lemma of proofs/CliProofs.v.

    Reading guide.  A "world" ([cworld], [pworld], [tworld], [aworld], model/CliWorlds.v) bundles
    ALL stage oracles of one subcommand: what the file system, the parser, the resolvers, the
    encoder, the printer, the registry and the terminal answer (value / error / panic).  Every
    theorem is quantified over every world and every flag record, i.e. over all flag combinations
    and all stage behaviours.  [cli_flags], [opts_of_flags], [plug_opts], the terminal guards,
    [plug_grouping], [targets_default_counts_all_exports] and [readme_examples] are GENERATED from
    the sources on every run (gen/CliTable.v). *)
From Coq Require Import Permutation.
From WacV Require Import Str Show CliTypes CliTable Semver Cli CliWorlds CliSpec CliProofs.

(** The generated flag table is the documented one. *)
Theorem flags_eq_documented : cli_flags = documented_flags.
Proof. vm_compute. reflexivity. Qed.
Print Assumptions flags_eq_documented.

(** Dependencies are embedded unless --import-dependencies; the output is validated unless
    --no-validate; `wac plug` always embeds and validates.  Stated against the GENERATED
    [opts_of_flags] / [plug_opts] / [encode_default]. *)
Theorem opts_of_flags_documented :
  (forall sw, opts_of_flags sw = documented_opts sw) /\
  (forall sw, plug_opts sw = documented_plug_opts) /\
  encode_default = documented_plug_opts.
Proof. exact (conj opts_of_flags_is_documented (conj plug_opts_is_documented eq_refl)). Qed.
Print Assumptions opts_of_flags_documented.

(** Binary output is refused exactly when no -t, no -o and stdout is a terminal; the check sits
    before the encoder in compose and after it in plug (as modelled). *)
Theorem terminal_guard_documented :
  (forall sw ho tty, compose_terminal_guard sw ho tty = refuses_terminal (sw_wat sw) ho tty) /\
  (forall sw ho tty, plug_terminal_guard sw ho tty = refuses_terminal (psw_wat sw) ho tty) /\
  compose_guard_before_encode = true /\ plug_guard_before_encode = false.
Proof.
  exact (conj compose_guard_is_documented (conj plug_guard_is_documented (conj eq_refl eq_refl))).
Qed.
Print Assumptions terminal_guard_documented.

(** `--dep PKG=PATH`: split at the first `=`, blanks around either side ignored; no `=` is a usage
    error; for a repeated package the last value wins; `wac resolve` parses it the same way. *)
Theorem dep_flag_documented :
  (forall s kv, parse_dep s = Some kv <-> dep_means s kv) /\
  (forall s, parse_dep s = None <-> ~ In 61 s) /\
  (forall raw deps, parse_deps raw = Some deps <-> deps_mean raw deps) /\
  (forall deps name, overrides_get deps name = override_of deps name) /\
  resolve_dep_parser_same_as_compose = true.
Proof.
  exact (conj parse_dep_means (conj parse_dep_none (conj parse_deps_mean (conj overrides_get_is_documented eq_refl)))).
Qed.
Print Assumptions dep_flag_documented.

Definition pipeline_in (w : cworld) : compose_flags -> str -> Prop :=
  pipeline_ok (cw_Doc w) (cw_Keys w) (cw_Pkgs w) (cw_Res w) (cw_Client w) (cw_read_file w) (cw_parse_doc w)
              (cw_registry_new w) (cw_discover w) (cw_fs_resolve w) (cw_keys_missing w) (cw_keys_is_empty w)
              (cw_registry_resolve w) (cw_pkgs_extend w) (cw_resolve_doc w) (cw_encode w).

(** Exit status 0 exactly when the documented library pipeline (with the documented options)
    produces a component and the sink accepts it. *)
Theorem exit_zero_iff_pipeline_ok : forall (w : cworld) (f : compose_flags),
  fs_lookup_only w ->
  (exit_code (compose_in w f) = 0 <->
   exists b, pipeline_in w f b /\
             sink_ok (cw_print_text w) (cw_write_ok w) (sw_wat (cf_sw f)) (cf_output f) (cw_tty w) b).
Proof.
  intros w f X. unfold compose_in, pipeline_in. now apply compose_exit_zero_iff_pipeline_ok.
Qed.
Print Assumptions exit_zero_iff_pipeline_ok.

(** Any failing run (error or panic, at any stage, of any subcommand) leaves stdout empty and
    writes no file; every run reports on stderr exactly when it fails. *)
Theorem no_output_on_failure :
  (forall w f, exit_code (compose_in w f) <> 0 -> o_stdout (compose_in w f) = [] /\ o_writes (compose_in w f) = []) /\
  (forall w f, exit_code (plug_in w f) <> 0 -> o_stdout (plug_in w f) = [] /\ o_writes (plug_in w f) = []) /\
  (forall w p, exit_code (parse_in w p) <> 0 -> o_stdout (parse_in w p) = [] /\ o_writes (parse_in w p) = []) /\
  (forall w f, o_stdout (targets_in w f) = [] /\ o_writes (targets_in w f) = []) /\
  (forall o, stderr_nonempty o = true <-> exit_code o <> 0).
Proof.
  split; [|split; [|split; [|split]]].
  - intros w f. apply compose_no_output_on_failure.
  - intros w f. apply plug_no_output_on_failure.
  - intros w p. apply parse_no_output_on_failure.
  - intros w f. apply targets_never_writes.
  - intros o. rewrite exit_zero_iff_success. unfold stderr_nonempty.
    destruct (o_status o); split; congruence.
Qed.
Print Assumptions no_output_on_failure.

(** `-o p` writes exactly the bytes otherwise sent to stdout (text on stdout is followed by one
    newline, see [o_equals_stdout_literal_refuted]); a failing run fails identically. *)
Theorem o_equals_stdout :
  (forall w f p,
     cw_write_ok w p = true -> refuses_terminal (sw_wat (cf_sw f)) false (cw_tty w) = false ->
     (exists out, compose_in w (with_output f (Some p)) = delivered (Some p) out (newline_after (sw_wat (cf_sw f))) /\
                  compose_in w (with_output f None) = delivered None out (newline_after (sw_wat (cf_sw f))))
     \/ (exit_code (compose_in w (with_output f (Some p))) <> 0 /\
         compose_in w (with_output f None) = compose_in w (with_output f (Some p)))) /\
  (forall w f p,
     pw_write_ok w p = true -> refuses_terminal (psw_wat (pf_sw f)) false (pw_tty w) = false ->
     (exists out, plug_in w (with_poutput f (Some p)) = delivered (Some p) out (newline_after (psw_wat (pf_sw f))) /\
                  plug_in w (with_poutput f None) = delivered None out (newline_after (psw_wat (pf_sw f))))
     \/ (exit_code (plug_in w (with_poutput f (Some p))) <> 0 /\
         plug_in w (with_poutput f None) = plug_in w (with_poutput f (Some p)))).
Proof.
  split.
  - intros w f p. apply compose_o_equals_stdout.
  - intros w f p. apply plug_o_equals_stdout.
Qed.
Print Assumptions o_equals_stdout.

(** The file named by `-o` holds EXACTLY the output afterwards, whatever it held before ([prev] is
    universally quantified: absent, shorter, longer -- no byte of the old content survives), and no
    other path changes; a failing run changes no file at all. *)
Theorem o_overwrites_previous_content :
  (forall w f p (prev : fs_state),
     cw_write_ok w p = true -> refuses_terminal (sw_wat (cf_sw f)) false (cw_tty w) = false ->
     (exists out, fs_after prev (compose_in w (with_output f (Some p))) p = Some out /\
                  (forall q, q <> p -> fs_after prev (compose_in w (with_output f (Some p))) q = prev q) /\
                  compose_in w (with_output f None) = delivered None out (newline_after (sw_wat (cf_sw f))))
     \/ (exit_code (compose_in w (with_output f (Some p))) <> 0 /\
         forall q, fs_after prev (compose_in w (with_output f (Some p))) q = prev q)) /\
  (forall w f p (prev : fs_state),
     pw_write_ok w p = true -> refuses_terminal (psw_wat (pf_sw f)) false (pw_tty w) = false ->
     (exists out, fs_after prev (plug_in w (with_poutput f (Some p))) p = Some out /\
                  (forall q, q <> p -> fs_after prev (plug_in w (with_poutput f (Some p))) q = prev q) /\
                  plug_in w (with_poutput f None) = delivered None out (newline_after (psw_wat (pf_sw f))))
     \/ (exit_code (plug_in w (with_poutput f (Some p))) <> 0 /\
         forall q, fs_after prev (plug_in w (with_poutput f (Some p))) q = prev q)).
Proof.
  split.
  - intros w f p prev Wk G. apply overwrites_from_equals.
    + apply (proj1 no_output_on_failure).
    + now apply (proj1 o_equals_stdout).
  - intros w f p prev Wk G. apply overwrites_from_equals.
    + apply (proj1 (proj2 no_output_on_failure)).
    + now apply (proj2 o_equals_stdout).
Qed.
Print Assumptions o_overwrites_previous_content.

(** Full statement of the property text: "-o writes exactly the bytes otherwise sent to stdout".
    False of the faithful model for -t: stdout carries one more byte (a newline). *)
Theorem o_equals_stdout_literal_refuted :
  exists (pt : str -> sres str) (wo : str -> bool) b p out,
    emit pt wo true (Some p) b = delivered (Some p) out [] /\
    o_stdout (emit pt wo true None b) <> out.
Proof.
  exists (fun _ => SOk [40]), (fun _ => true), [0], [111], [40]. split; [reflexivity|]. cbn. discriminate.
Qed.
Print Assumptions o_equals_stdout_literal_refuted.

(** `-t` prints the text form of exactly the component that the same invocation without `-t`
    emits (same encode call, same options); that the text assembles back to a valid component with
    the same interface and wiring is a fact about wasmprinter/wat checked by the correspondence. *)
Theorem t_prints_same_component :
  (forall w f,
     refuses_terminal false (is_some (cf_output f)) (cw_tty w) = false ->
     (forall p, cf_output f = Some p -> cw_write_ok w p = true) ->
     (exists b, compose_in w (with_wat f false) = delivered (cf_output f) b [] /\
                compose_in w (with_wat f true) = match cw_print_text w b with
                                                 | SOk t => delivered (cf_output f) t [10]
                                                 | SErr => fail StPrint
                                                 | SPanic => panic StPrint
                                                 end)
     \/ (exit_code (compose_in w (with_wat f false)) <> 0 /\
         compose_in w (with_wat f true) = compose_in w (with_wat f false))) /\
  (forall w f,
     refuses_terminal false (is_some (pf_output f)) (pw_tty w) = false ->
     (forall p, pf_output f = Some p -> pw_write_ok w p = true) ->
     (exists b, plug_in w (with_pwat f false) = delivered (pf_output f) b [] /\
                plug_in w (with_pwat f true) = match pw_print_text w b with
                                               | SOk t => delivered (pf_output f) t [10]
                                               | SErr => fail StPrint
                                               | SPanic => panic StPrint
                                               end)
     \/ (exit_code (plug_in w (with_pwat f false)) <> 0 /\
         plug_in w (with_pwat f true) = plug_in w (with_pwat f false))).
Proof.
  split.
  - intros w f. apply compose_t_prints_same_component.
  - intros w f. apply plug_t_prints_same_component.
Qed.
Print Assumptions t_prints_same_component.

Definition plug_pipeline_in (w : pworld) : plug_flags -> str -> Prop :=
  plug_pipeline_ok (pw_G w) (pw_Id w) (pw_is_pkg_name w) (pw_download w) (pw_read_bin w) (pw_g_new w)
                   (pw_add_bytes w) (pw_add_file w) (pw_do_plug w) (pw_encode_g w).

(** Full statement: "`wac plug` produces exactly the result of the library pipeline (socket as
    `socket`, plugs as `plug:<stem>` with an index on duplicates, registered in command-line order
    of first appearance)".  Provable only when the grouping container iterates in insertion order;
    with the [HashMap] found in plug.rs see [plug_registration_order_refuted]. *)
Theorem plug_exit_zero_iff_pipeline_ok_partial : forall (w : pworld) (f : plug_flags),
  plug_grouping = GroupInsertion \/ (forall l, pw_hash_order w l = l) ->
  (exit_code (plug_in w f) = 0 <->
   exists b, plug_pipeline_in w f b /\
             sink_ok (pw_print_text w) (pw_write_ok w) (psw_wat (pf_sw f)) (pf_output f) (pw_tty w) b).
Proof. intros w f. apply plug_exit_zero_iff_pipeline_ok. Qed.
Print Assumptions plug_exit_zero_iff_pipeline_ok_partial.

Theorem plug_registrations_documented_partial : forall hash_order ks,
  plug_grouping = GroupInsertion \/ (forall l, hash_order l = l) ->
  registrations hash_order ks = documented_registrations ks.
Proof. exact registrations_documented. Qed.
Print Assumptions plug_registrations_documented_partial.

(** Whatever the hash order: the same plugs under the same documented names, in some order. *)
Theorem plug_registrations_permutation : forall hash_order ks,
  (forall l, Permutation (hash_order l) l) ->
  Permutation (registrations hash_order ks) (documented_registrations ks).
Proof. exact registrations_permutation. Qed.
Print Assumptions plug_registrations_permutation.

(** With a [HashMap] the registration order is not a function of the command line: two admissible
    hash orders register the same two plugs in different orders. *)
Theorem plug_registration_order_refuted :
  plug_grouping = GroupHash ->
  exists ks h1 h2,
    (forall l, Permutation (h1 l) l) /\ (forall l, Permutation (h2 l) l) /\
    registrations h1 ks <> registrations h2 ks.
Proof.
  intros H.
  exists [([97], LocalPath [97;46;119]); ([98], LocalPath [98;46;119])], (fun l => l), (@rev str).
  split; [intros; reflexivity|]. split; [intros; symmetry; apply Permutation_rev|].
  rewrite !registrations_shape, H. discriminate.
Qed.
Print Assumptions plug_registration_order_refuted.

Theorem parse_prints_json : forall (w : aworld) path,
  exit_code (parse_in w path) = 0 <->
  exists src d js, aw_read_file w path = SOk src /\ aw_parse_doc w src = SOk d /\ aw_to_json w d = SOk js /\
                   parse_in w path = delivered None js [10].
Proof. intros w path. apply parse_exit_zero_iff. Qed.
Print Assumptions parse_prints_json.

Theorem targets_exit_zero_iff_conforms : forall (w : tworld) f,
  exit_code (targets_in w f) = 0 <->
  exists wb exports cb c wd,
    tw_wit_encode w (tf_wit f) = SOk wb /\ tw_wit_decode w wb = SOk exports /\
    tw_read_bin w (tf_component f) = SOk cb /\ tw_comp_decode w cb = SOk c /\
    select_world exports (tf_world f) = Some wd /\ tw_validate w wd c = SOk tt.
Proof. intros w f. apply targets_exit_zero_iff. Qed.
Print Assumptions targets_exit_zero_iff_conforms.

Theorem targets_named_world : forall W (exports : list (str * wit_export W)) n,
  NoDup (map fst exports) -> select_world exports (Some n) = documented_world exports (Some n).
Proof. intros W. exact targets_named_world_documented. Qed.
Print Assumptions targets_named_world.

(** Full statement: "if the wit package only has one world definition, --world does not need to
    be specified".  Provable only if the default looks at worlds only, or the package has nothing
    but worlds; see [targets_default_world_selection_refuted]. *)
Theorem targets_default_world_partial : forall W (exports : list (str * wit_export W)),
  targets_default_counts_all_exports = false \/ forallb (fun e => is_world_export (snd e)) exports = true ->
  select_world exports None = documented_world exports None.
Proof. intros W. exact targets_default_world_documented. Qed.
Print Assumptions targets_default_world_partial.

Theorem targets_default_world_selection_refuted :
  targets_default_counts_all_exports = true ->
  exists (exports : list (str * wit_export unit)),
    NoDup (map fst exports) /\ documented_world exports None = Some tt /\ select_world exports None = None.
Proof.
  intros H. exists [([97], EOther); ([119], EWorld tt)]. split.
  - repeat constructor; cbn; intuition discriminate.
  - unfold select_world, default_candidates. rewrite H. split; reflexivity.
Qed.
Print Assumptions targets_default_world_selection_refuted.

(** Every `wac ...` line of README.md is accepted by the generated flag table, except possibly the
    known `wac targets <component> <wit>` form ... *)
Theorem readme_examples_accepted_or_known :
  forallb (fun e => accepts cli_flags e || argv_eqb e readme_targets_example) readme_examples = true.
Proof. vm_compute. reflexivity. Qed.
Print Assumptions readme_examples_accepted_or_known.

(** ... which the flag table rejects: the WIT path is the value of `--wit`, not a positional. *)
Theorem readme_targets_example_refuted : accepts cli_flags readme_targets_example = false.
Proof. vm_compute. reflexivity. Qed.
Print Assumptions readme_targets_example_refuted.

(** Non-vacuity: a world in which the pipeline succeeds; a usage error, a failing resolve, the terminal refusal *)

Definition ok_case : ccase := mk_ccase 0 0 0 1 0 0 0 0 2 3 4 5 0 true false.
Definition sw_default : compose_sw := mk_sw false false false.
Definition flags1 (sw : compose_sw) (o : option str) : compose_flags :=
  mk_cf [100] [[97; 61; 98]] sw o None [120].

Example compose_nonvacuous :
  (* default flags: embedded + validated result (token 2) on stdout, no newline *)
  compose_in (world_of_ccase ok_case) (flags1 sw_default None) = delivered None [2] [] /\
  (* --import-dependencies --no-validate -t -o p: text (105) of token 5 in the file, stdout empty *)
  compose_in (world_of_ccase ok_case) (flags1 (mk_sw true true true) (Some [112])) = delivered (Some [112]) [105] [10] /\
  (* -t to stdout: text + newline *)
  compose_in (world_of_ccase ok_case) (flags1 (mk_sw false true false) None) = delivered None [102] [10] /\
  (* the hypotheses of the theorems are met by this world *)
  fs_lookup_only (world_of_ccase ok_case) /\
  (exists b, pipeline_in (world_of_ccase ok_case) (flags1 sw_default None) b) /\
  (* a malformed --dep is a usage error, a failing resolve exits 1 with nothing written *)
  exit_code (compose_in (world_of_ccase ok_case) (mk_cf [100] [[97]] sw_default None None [120])) = 2 /\
  compose_in (world_of_ccase (mk_ccase 0 0 0 1 0 0 0 1 2 3 4 5 0 true false)) (flags1 sw_default (Some [112])) = fail StResolve /\
  (* binary to a terminal is refused *)
  compose_in (world_of_ccase (mk_ccase 0 0 0 1 0 0 0 0 2 3 4 5 0 true true)) (flags1 sw_default None) = fail StTerminal.
Proof.
  repeat (split; [vm_compute; reflexivity|]).
  split.
  - assert (exit_code (compose_in (world_of_ccase ok_case) (flags1 sw_default None)) = 0) as E by (vm_compute; reflexivity).
    apply exit_zero_iff_pipeline_ok in E; [|intros dir ov ov' keys Hx; reflexivity].
    destruct E as [b [P _]]. now exists b.
  - repeat split; vm_compute; reflexivity.
Qed.

(** * Full statements on the current tree

    The three `_partial` theorems above carry a hypothesis about a GENERATED fact of the source (the grouping container
    of plug.rs, the default-world rule of targets.rs, the README lines). On the current tree (after the repairs 415d296,
    9a9d9f7, 9cbb1bc) the generated facts satisfy those hypotheses, so the property's full statements hold outright.
    A change that brings one of the defects back changes the generated table, and the proof below no longer checks. *)

Theorem plug_exit_zero_iff_pipeline_ok_full : forall (w : pworld) (f : plug_flags),
  exit_code (plug_in w f) = 0 <->
  exists b, plug_pipeline_in w f b /\
            sink_ok (pw_print_text w) (pw_write_ok w) (psw_wat (pf_sw f)) (pf_output f) (pw_tty w) b.
Proof. intros w f. apply plug_exit_zero_iff_pipeline_ok_partial. left. reflexivity. Qed.
Print Assumptions plug_exit_zero_iff_pipeline_ok_full.

Theorem plug_registrations_documented_full : forall hash_order ks,
  registrations hash_order ks = documented_registrations ks.
Proof. intros h ks. apply plug_registrations_documented_partial. left. reflexivity. Qed.
Print Assumptions plug_registrations_documented_full.

Theorem targets_default_world_full : forall W (exports : list (str * wit_export W)),
  select_world exports None = documented_world exports None.
Proof. intros W exports. apply targets_default_world_partial. left. reflexivity. Qed.
Print Assumptions targets_default_world_full.

Theorem readme_examples_accepted_full :
  forallb (fun e => accepts cli_flags e) readme_examples = true.
Proof. vm_compute. reflexivity. Qed.
Print Assumptions readme_examples_accepted_full.
