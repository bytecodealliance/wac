(** Property C16 — composition is reproducible: same inputs, same bytes.
    Statements; proofs are [exact <lemma>] except the closed witnesses and tables, which compute.

    Structure of the argument.
    (1) Tie to the sources: the translator lists every order-observing use of a hash-ordered container; the
        generated list is included in the hand-classified list, is fully typed, and is empty for the front end.
    (2) For each classified site the claim is proved on a model in which the iteration order is an explicit
        argument / oracle: order-irrelevant sites are independent of it, order-relevant ones are refuted by a
        witness (each is a reported finding, replayed on the real code by the check).
    (3) Whole graph-API histories: final state and all results are independent of every oracle. *)
From Coq Require Import List NArith String Permutation.
From WacV Require Import Graph HashSiteTypes HashSites Determinism DeterminismSpec DeterminismProofs DeterminismInv.
From WacV Require Import Wiring WiringSpec EncodeModel EncodeOrder EncodeOrderProofs ToposortOrder.
Import ListNotations.

(** * 1. the tie *)
Theorem sites_all_modelled : every_site_classified found_sites.
Proof. exact sites_all_modelled. Qed.
Print Assumptions sites_all_modelled.

Theorem sites_all_resolved : forall s, In s found_sites -> s_res s = RHash.
Proof. exact sites_all_resolved. Qed.
Print Assumptions sites_all_resolved.

(** the lexer, the AST, the parser and the printer were scanned and contain no hash-ordered container at all *)
Theorem frontend_has_no_hash_iteration :
  (forall f, In f frontend_files -> In f scanned_files /\ is_frontend_file f = true) /\
  (forall s, In s found_sites -> is_frontend_file (s_file s) = false) /\
  (forall b, In b hash_bindings -> is_frontend_file (b_file b) = false).
Proof. exact frontend_has_no_hash_iteration. Qed.
Print Assumptions frontend_has_no_hash_iteration.

(** exactly three functions of the hand classification are order-relevant — all three describe the code AS FOUND,
    each has a [_refuted] theorem below, and each was repaired in /repo: see sections 7 and 10 for the current tree *)
Theorem order_relevant_sites :
  order_relevant_functions =
  ["AstResolver::world_include"; "TypeAggregator::find_semver_compatible_interface"; "PlugCommand::exec"]%string.
Proof. reflexivity. Qed.
Print Assumptions order_relevant_sites.

(** * 2. graph API *)
(** site (a) of model/Determinism.v, [unregister_package]: the two [retain]s over HashMaps *)
Theorem unregister_retains_order_indep : forall o1 o2 k1 k2 s id,
    valid_oracle o1 -> valid_oracle o2 -> unregister_with o1 k1 s id = unregister_with o2 k2 s id.
Proof. exact unregister_retains_order_indep. Qed.
Print Assumptions unregister_retains_order_indep.

Theorem retain_order_indep : forall (keep : nat * nat -> bool) l1 l2,
    Permutation l1 l2 -> Permutation (retain_visit keep l1) (retain_visit keep l2).
Proof. exact (@retain_order_indep (nat * nat)). Qed.
Print Assumptions retain_order_indep.

(** site (b), [define_type] (code after 561c8ba): the sorted order is unique *)
Theorem define_type_order_indep : forall u s d1 d2 nm t,
    Permutation d1 d2 -> NoDup (map snd d1) -> define_type_with u s d1 nm t = define_type_with u s d2 nm t.
Proof. exact define_type_order_indep. Qed.
Print Assumptions define_type_order_indep.

(** ... and the hypothesis holds in every reachable state *)
Theorem defined_nodes_distinct : forall u ops o, valid_oracle o -> NoDup (map snd (defined (fst (run_with o u ops)))).
Proof. exact defined_nodes_distinct. Qed.
Print Assumptions defined_nodes_distinct.

(** the code before the fix: adjacency order (hence toposort, hence the bytes) followed the hash order *)
Theorem define_type_unsorted_refuted :
  exists u ops o1 o2, valid_oracle o1 /\ valid_oracle o2 /\
    edges (run_unsorted_from o1 u 0 empty_graph ops) <> edges (run_unsorted_from o2 u 0 empty_graph ops).
Proof. exact define_type_unsorted_refuted. Qed.
Print Assumptions define_type_unsorted_refuted.

(** site (d), every history: full state (nodes, free lists, adjacency order, maps, package slots) and all results *)
Theorem history_oracle_indep : forall u, reproducible (fun o ops => run_with o u ops).
Proof. intros u o1 o2 H1 H2 ops. exact (history_oracle_indep u ops o1 o2 H1 H2). Qed.
Print Assumptions history_oracle_indep.

(** * 3. encoder *)
(** site (c): the loop over the [explicit_imports] HashMap only fills [node_indexes] *)
Theorem encode_explicit_imports_order_indep : forall encoded canonical v1 v2 ni node,
    Permutation v1 v2 -> NoDup (map snd v1) ->
    ni_lookup (populate_node_indexes encoded canonical v1 ni) node =
    ni_lookup (populate_node_indexes encoded canonical v2 ni) node.
Proof. exact encode_explicit_imports_order_indep. Qed.
Print Assumptions encode_explicit_imports_order_indep.

(** * 4. type aggregator *)
Theorem redirect_update_order_indep : forall old new v1 v2 key,
    Permutation v1 v2 -> NoDup (map fst v1) ->
    alist_get N.eqb (redirect_visit old new v1) key = alist_get N.eqb (redirect_visit old new v2) key.
Proof. exact redirect_update_order_indep. Qed.
Print Assumptions redirect_update_order_indep.

(** Full statement wanted: [forall a, reachable a -> order_independent (find_track track key) (fun _ => True)] on
    [a_interfaces a].  Only the part under the side condition [track_consistent] holds; the side condition is
    NOT an invariant of [remap] ([remap_breaks_track_consistency]) and the full statement is false
    ([find_semver_compatible_interface_refuted]). *)
Theorem find_track_order_indep_partial : forall track key,
    order_independent (find_track track key) (track_consistent track).
Proof. intros track key l1 l2 Hc Hp. exact (find_track_order_indep track key l1 l2 Hc Hp). Qed.
Print Assumptions find_track_order_indep_partial.

Theorem remap_breaks_track_consistency :
  ~ track_consistent track_w (a_interfaces (fst (remap 5 src_w track_w (fun l => l) empty_agg 0))).
Proof. exact remap_breaks_track_consistency. Qed.
Print Assumptions remap_breaks_track_consistency.

Theorem find_semver_compatible_interface_refuted :
  exists src track o1 o2,
    (forall l, Permutation (o1 l) l) /\ (forall l, Permutation (o2 l) l) /\
    let a1 := fst (remap 5 src track o1 empty_agg 0) in
    let a2 := fst (remap 5 src track o2 empty_agg 0) in
    a1 = a2 /\ snd (remap 5 src track o1 a1 2) <> snd (remap 5 src track o2 a2 2).
Proof. exact find_semver_compatible_interface_refuted. Qed.
Print Assumptions find_semver_compatible_interface_refuted.

(** * 5. resolver diagnostics *)
Theorem world_include_missing_refuted : order_dependent missing_reported.
Proof. exact world_include_missing_refuted. Qed.
Print Assumptions world_include_missing_refuted.

(** the repair c407668 (first unused `with` item in source order) *)
Theorem world_include_missing_fixed_order_indep : forall with_items,
    order_independent (missing_reported_fixed with_items) (fun _ => True).
Proof. intros w r1 r2 _ Hp. exact (world_include_missing_fixed_order_indep w r1 r2 Hp). Qed.
Print Assumptions world_include_missing_fixed_order_indep.

(** * 6. `wac plug` as found (grouping in a HashMap; repaired by 415d296, see C19: CliTable.plug_grouping is now GroupInsertion) *)
Theorem plug_sequence_refuted : order_dependent plug_sequence.
Proof. exact plug_sequence_refuted. Qed.
Print Assumptions plug_sequence_refuted.

(** * non-vacuity: a reversing oracle is valid, and the history "three dependants, then their base type"
      produces three dependency edges out of the base type, in node order *)
Example rev_oracle_valid : valid_oracle rev_oracle.
Proof. split; intros; simpl; apply Permutation_sym, Permutation_rev. Qed.

Example base_after_dependants :
  let u := {| u_inst_exports := fun _ => None; u_pkgs := [];
              u_tys := [ {| td_res := false; td_kind := 0%N; td_deps := [] |};
                         {| td_res := false; td_kind := 1%N; td_deps := [0] |};
                         {| td_res := false; td_kind := 2%N; td_deps := [0] |};
                         {| td_res := false; td_kind := 3%N; td_deps := [0] |} ];
              u_lkinds := []; u_sub := fun _ _ => true; u_import_name_ok := fun _ => true; u_export_name_ok := fun _ => true |} in
  map (fun e => (esrc e, etgt e)) (edges (fst (run_with rev_oracle u [DefineType 1%N 1; DefineType 2%N 2; DefineType 3%N 3; DefineType 0%N 0])))
  = [(3, 2); (3, 1); (3, 0)].
Proof. vm_compute. reflexivity. Qed.

(** [resolve_imports] (fix 591363d): the `first` node reported by an ImportTypeMergeConflict for an explicit import is
    the minimum node index among the same-track entries of two HashMaps; it does not depend on their iteration order. *)
Theorem conflict_first_node_order_indep : forall compat v1 v1' v2 v2' dflt,
  Permutation v1 v1' -> Permutation v2 v2' ->
  conflict_first compat v1 v2 dflt = conflict_first compat v1' v2' dflt.
Proof. exact conflict_first_order_indep. Qed.
Print Assumptions conflict_first_node_order_indep.

(** * 7. the tree as it is now: every site the translator finds is order-irrelevant, and its reason is either a model
      function with an order-independence theorem (sections 2-4, 8) or the explicit by-inspection label DebugNotRendered *)
Theorem current_sites_order_irrelevant_and_justified :
  forall s, In s found_sites ->
    classes_of s <> [] /\ forall c, In c (classes_of s) -> class_is_relevant c = false /\ class_justified c = true.
Proof. exact current_sites_order_irrelevant_and_justified. Qed.
Print Assumptions current_sites_order_irrelevant_and_justified.

(** * 8. the encoder (structural model [EncodeModel] of C02/C03, here with oracles for every hash-ordered container
      that [CompositionGraphEncoder] consults: explicit_imports, instantiations, encoded, node_indexes, packages,
      implicit_args) *)
(** whatever the oracles do, the item log (definitions, imports, instantiations, aliases, exports, in order), the
    names section and the error are those of the structural encoder model *)
Theorem encode_oracle_model_agrees : forall e u g dc tau o,
    valid_eoracle o -> encode_o e u g dc tau o = summarize (encode_model e u g dc tau).
Proof. exact encode_o_canonical. Qed.
Print Assumptions encode_oracle_model_agrees.

(** ... hence the same for any two oracles, including the payload (first, second) of the merge-conflict error *)
Theorem encode_order_oracle_indep : forall e u g dc tau o1 o2,
    valid_eoracle o1 -> valid_eoracle o2 -> encode_obs e u g dc tau o1 = encode_obs e u g dc tau o2.
Proof. exact encode_order_oracle_indep. Qed.
Print Assumptions encode_order_oracle_indep.

(** a representation oracle that merely permutes maps with distinct keys (what a HashMap is) answers alike *)
Theorem permuted_maps_answer_alike : forall st st',
    e_log st = e_log st' -> e_reg st = e_reg st' -> e_dedup st = e_dedup st' -> e_impl st = e_impl st' ->
    Permutation (e_nidx st) (e_nidx st') -> NoDup (map fst (e_nidx st)) ->
    Permutation (e_pkgs st) (e_pkgs st') -> NoDup (map fst (e_pkgs st)) -> est_equiv st st'.
Proof. exact permuted_state_equiv. Qed.
Print Assumptions permuted_maps_answer_alike.

(** ... and the premise holds for the encoder's own maps: when the model encoder succeeds, [node_indexes] and
    [packages] end with pairwise distinct keys (they only ever grow at the front, so also at every earlier moment) *)
Theorem encoder_maps_have_distinct_keys : forall e u g dc tau st ns,
    encode_model e u g dc tau = ROk (st, ns) -> maps_distinct st.
Proof. exact encoder_maps_have_distinct_keys. Qed.
Print Assumptions encoder_maps_have_distinct_keys.

(** histories, then encoding *)
Theorem history_then_encode_oracle_indep : forall e u dc tau ops o1 o2 eo1 eo2,
    valid_oracle o1 -> valid_oracle o2 -> valid_eoracle eo1 -> valid_eoracle eo2 ->
    encode_obs e u (fst (run_with o1 u ops)) dc tau eo1 = encode_obs e u (fst (run_with o2 u ops)) dc tau eo2.
Proof. exact history_then_encode_oracle_indep. Qed.
Print Assumptions history_then_encode_oracle_indep.

(** * 9. what fixes the emission order ([toposort]) *)
(** The sentence "for nodes with no path between them the emission order is the node-index order" is FALSE
    (a dependant, an unrelated node, then the base type: the unrelated node 1 is emitted before node 0); the real
    encoder agrees (replayed by the check).  The property does not need it: the order is a function of the graph. *)
Theorem toposort_is_index_ordered_for_independent_nodes_refuted :
  exists g ord a b, toposort g = Some ord /\ In a (node_ids g) /\ In b (node_ids g) /\ a < b /\
                    ~ reach g a b /\ ~ reach g b a /\ before ord b a.
Proof. exact independent_nodes_index_order_refuted. Qed.
Print Assumptions toposort_is_index_ordered_for_independent_nodes_refuted.

(** what does hold: a node that no node of larger index reaches is emitted before every node of larger index *)
Theorem toposort_is_index_ordered_for_unreached_nodes : forall g ord a b,
    toposort g = Some ord -> In a (node_ids g) -> In b (node_ids g) -> a < b ->
    (forall c, In c (node_ids g) -> a < c -> ~ reach g c a) -> before ord a b.
Proof. exact toposort_unreached_before_larger. Qed.
Print Assumptions toposort_is_index_ordered_for_unreached_nodes.

(** many same-rank independent nodes: nodes without incoming edges come in index order *)
Theorem toposort_sources_in_index_order : forall g ord a b,
    toposort g = Some ord -> In a (node_ids g) -> In b (node_ids g) -> a < b ->
    (forall ed, In ed (edges g) -> etgt ed <> a) -> before ord a b.
Proof. exact sources_in_index_order. Qed.
Print Assumptions toposort_sources_in_index_order.

(** nothing defined after its dependants: the emission order is exactly the index order *)
Theorem toposort_forward_graph_in_index_order : forall g ord,
    toposort g = Some ord -> (forall ed, In ed (edges g) -> esrc ed < etgt ed) -> ord = node_ids g.
Proof. exact forward_graph_emitted_in_index_order. Qed.
Print Assumptions toposort_forward_graph_in_index_order.

(** non-vacuity of the encoder oracles: reversing every iteration is valid *)
Example rev_eoracle_valid :
  valid_eoracle {| eo_expl := @rev _; eo_expl_c := @rev _; eo_inst_c := @rev _; eo_encoded := fun l => l; eo_state := fun _ st => st |}.
Proof.
  repeat split; intros; cbn; try (apply Permutation_sym, Permutation_rev); reflexivity.
Qed.

(** * 10. On the current tree no order-observing site is order-relevant.
    [found_sites] is GENERATED from the sources on every run; the three order-relevant entries of the hand
    classification ([order_relevant_sites]) describe the code AS FOUND and were repaired (c407668 world_include,
    02411ca aggregator interface scan, 415d296 `wac plug` grouping): none of them occurs in the generated list any
    more, so every hash iteration that exists in the code today is classified order-irrelevant (with its theorem
    above, or its by-inspection label).  A change that brings one of them back regenerates the list and this
    proof no longer checks. *)
Definition class_of (s : site) : option class :=
  option_map snd (find (fun p => site_eqb s (fst p)) modelled).

Theorem no_found_site_is_order_relevant :
  forallb (fun s => match class_of s with Some c => negb (is_relevant c) | None => false end) found_sites = true.
Proof. vm_compute. reflexivity. Qed.
Print Assumptions no_found_site_is_order_relevant.
