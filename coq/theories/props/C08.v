(** C08 — Decoding a package preserves its component type; re-encoding stays satisfiable.

    PARTIAL by design (DESIGN.md §5 C08, §10).  wasmparser's validator and its type information are external Rust
    code; they enter as data (the abstract type graph [Convert.vgraph], produced per component by an independent
    walk over the validator's type information).  The theorems are about the wac conversion logic — the model
    [Convert.from_graph] of [Package::from_bytes] / [TypeConverter] (cache, [owners], [resource_map],
    [use_or_own], self-ownership reset, [find_definitions]) — against the specification [ConvertSpec], which is
    written over that graph and the arena-free tree denotation [Types.unfold].

    Statements only; proofs in proofs/Convert{Proofs,Frame,Tree,Entity,Cache,Uses,Ids,Panic}.v. *)
From WacV Require Import Str Types Convert ConvertSpec ConvertProofs ConvertFrame ConvertTree ConvertEntity ConvertCache ConvertUses ConvertIds ConvertPanic.

(** 1. The world lists exactly the component's imports and exports: same names, same order, item-wise the right
    kind; the instance type of the package is the export list.  (The hypotheses are the validator's guarantee that
    import names, and export names, are unique; without them [IndexMap] would collapse entries.) *)
Theorem convert_lists_exactly : forall hfuel fuel g t0 p t,
  NoDup (map fst (vg_imports g)) -> NoDup (map fst (vg_exports g)) ->
  from_graph hfuel fuel g t0 = COk (p, t) ->
  lists_exactly g t p.
Proof. exact lists_exactly_holds. Qed.
Print Assumptions convert_lists_exactly.

(** 2. Faithfulness on the resource-free fragment: every item of the world unfolds to EXACTLY the tree of the
    validator entity — function parameter names, order, result, async flag; every value-type constructor
    (primitive, record, variant, list, fixed-size list, tuple, flags, enum, option, result with each arm present
    or absent, future, stream); names and order of the items of nested instance and component types; core module
    types.  [spec_tree] is [None] below a resource ([own], [borrow], resource type items) and for [map] types, so
    nothing is claimed there: that is the [_partial].

    Full statement (not proved): the same with resources, each [own r] / [borrow r] denoting the resource of [r]
    up to the one-to-one renaming of [ConvertSpec.resources_agree] — see [resource_alias_spec] below. *)
Theorem convert_tree_faithful_partial : forall hfuel fuel g t0 p t,
  NoDup (map fst (vg_imports g)) -> NoDup (map fst (vg_exports g)) ->
  from_graph hfuel fuel g t0 = COk (p, t) ->
  exists w, get_world t (pk_ty p) = Some w /\
    Forall2 (fun a b => fst a = fst b /\ tree_faithful g t (snd a) (snd b)) (vg_imports g) (w_imports w) /\
    Forall2 (fun a b => fst a = fst b /\ tree_faithful g t (snd a) (snd b)) (vg_exports g) (w_exports w).
Proof. intros hfuel fuel g. exact (tree_faithful_holds g hfuel fuel). Qed.
Print Assumptions convert_tree_faithful_partial.

(** the boolean predicate that the correspondence driver evaluates on the REAL implementation's arenas implies
    the declarative statement of 1. *)
Theorem lists_exactly_b_implies : forall g t p, lists_exactly_b g t p = true -> lists_exactly g t p.
Proof. exact lists_exactly_b_sound. Qed.
Print Assumptions lists_exactly_b_implies.

(** 3. Cache consistency (model level).  Assume the validator's type graph is well founded ([ranked]: a rank that
    decreases along every reference — a type does not contain itself).  Then
    (a) every conversion step keeps the cache free of duplicate keys and retains every earlier entry unchanged
        ([later]): the cache is never overwritten;
    (b) whatever a conversion of a validator entity returned is exactly what ANY later conversion of the same entity
        returns, and that later conversion changes nothing: the same validator identifier always yields the same wac
        identifier (functions, defined types, instance types, component types, module types, resources).
    That distinct identifiers with equal trees yield tree-equal types is a corollary of 2. on the resource-free
    fragment (both unfold to the one tree).

    Not proved: the converse direction observed by the correspondence ([ids_one_to_one_b]: distinct validator
    identifiers get distinct wac identifiers) and the success of the joint traversal [walk_package]. *)
Theorem convert_cache_consistent : forall g rk, ranked g rk ->
  (forall hfuel fuel n e s k s',
     inv s -> c_entity hfuel fuel g n e s = COk (k, s') -> inv s' /\ later s s') /\
  (forall hfuel fuel fuel' n n' e s k s1 s2,
     c_entity (S hfuel) fuel g n e s = COk (k, s1) -> later s1 s2 ->
     c_entity (S hfuel) (S fuel') g n' e s2 = COk (k, s2)).
Proof.
  intros g rk HR. split.
  - intros hfuel fuel n e s k s'. exact (entity_later g rk HR hfuel fuel n e s k s').
  - intros hfuel fuel fuel' n n' e s k s1 s2. exact (entity_twice g hfuel fuel fuel' n n' e s k s1 s2).
Qed.
Print Assumptions convert_cache_consistent.

(** 3b. The other direction: two DISTINCT validator identifiers are never converted to the same [wac_types] slot
    (defined type, function type, interface, world, module type, resource -- an alias resource is a slot of its own).
    The handle value types [own r] / [borrow r] occupy no slot ([ent_slot = None]) and are the only shared values.
    [s] is the converter's final state ([conv_items] = the two loops of [from_bytes]). *)
Theorem convert_ids_injective : forall g hfuel fuel t0 imports exports s,
  conv_items hfuel fuel g t0 = COk (imports, exports, s) ->
  forall v1 v2 e1 e2 x, In (v1, e1) (cs_cache s) -> In (v2, e2) (cs_cache s) ->
    ent_slot e1 = Some x -> ent_slot e2 = Some x -> v1 = v2.
Proof. exact ids_injective. Qed.
Print Assumptions convert_ids_injective.

(** 4. Used-type provenance.  [cs_log s] is the ghost log of the converter: the type items (owner, name, referenced,
    created) in the order in which [use_or_own] met them.  The [uses] field of EVERY interface and world of the
    resulting collection is exactly what the first-owner rule [ConvertSpec.replay] computes from that ordered list, and
    the converter's [owners] table is the rule's origin table ([replay] spells out when an entry is created: the
    referenced type has an origin, through the validator's alias links or through a created identifier remembered
    earlier, and that origin is an interface other than the owner; original items, self-owned types and origins that are
    component types get no entry). *)
Theorem use_synthesis_spec : forall g hfuel fuel t0 imports exports s,
  uses_free t0 -> conv_items hfuel fuel g t0 = COk (imports, exports, s) ->
  exists st, replay hfuel g (map usite_of (cs_log s)) ust0 = Some st /\
             u_origins st = cs_owners s /\
             forall o x, slot_uses (cs_types s) o = Some x -> x = uses_for o (u_entries st).
Proof. intros g hfuel. exact (uses_replay g hfuel). Qed.
Print Assumptions use_synthesis_spec.

(** ... and every entry the rule produces is sound: it never points to the interface it is in, and it names an item
    (the original name, recorded only when it differs) that was ORIGINAL in the interface it points to: met when no
    identifier on the alias chain of its referenced type had an origin, i.e. the first owner. *)
Theorem use_entries_point_to_first_owner : forall fuel g sites st,
  replay fuel g sites ust0 = Some st ->
  forall o n i om, In (o, (n, (i, om))) (u_entries st) ->
    o <> OwIface i /\ original fuel g sites (OwIface i) (match om with Some x => x | None => n end).
Proof. exact replay_entries_sound. Qed.
Print Assumptions use_entries_point_to_first_owner.

(** 5. Resource identity and aliasing (as far as [resource_map] carries it): any two converted resources have alias
    roots, and the roots coincide iff the validator gives the two identifiers the same underlying resource
    ([AliasableResourceId::resource()]). *)
Theorem resource_alias_spec : forall g hfuel fuel t0 imports exports s,
  conv_items hfuel fuel g t0 = COk (imports, exports, s) ->
  forall v1 v2 r1 r2, In (v1, EnRes r1) (cs_cache s) -> In (v2, EnRes r2) (cs_cache s) ->
    exists rid1 rid2 root1 root2,
      rid_of_node g v1 = Some rid1 /\ rid_of_node g v2 = Some rid2 /\
      res_root 2 (cs_types s) r1 = Some root1 /\ res_root 2 (cs_types s) r2 = Some root2 /\
      (root1 = root2 <-> rid1 = rid2).
Proof. exact resources_identity. Qed.
Print Assumptions resource_alias_spec.

(** 6. Totality.
    (a) Fuel is an artefact: on a well-founded graph ([rk] decreases along every reference of a node, [pk] along every
        [peel_alias] link) with fuel above the ranks, the conversion never returns the out-of-fuel outcome. *)
Theorem conversion_never_out_of_fuel : forall g rk pk,
  ranked g rk -> (forall v p, peel_of g v = Some p -> (pk p < pk v)%nat) ->
  forall hfuel fuel t0,
    (forall v, (rk v < hfuel)%nat) -> (forall v, (pk v < hfuel)%nat) -> (forall v, (S (rk v) < fuel)%nat) ->
    conv_items hfuel fuel g t0 <> COutOfFuel.
Proof. exact conv_items_noof. Qed.
Print Assumptions conversion_never_out_of_fuel.

(** (b) Panics.  On a well-typed graph ([wt_graph_b]: every reference points to a node of the expected sort, item names
        are unique inside an instance type and inside the import / export list of a component type -- evaluated by the
        driver on every case) the conversion never indexes an arena out of range ([PBadIndex]), never finds an entry of
        the wrong kind in its cache ([PInvalidCached]) and never inserts an item twice ([PDupItem]); [mild] allows only
        [PDupOwner] and [PExpectedResource].

        PARTIAL.  Full statement: "... and returns a panic only in the situation of finding F1".  Missing:
        - [PExpectedResource] (a handle [own r] / [borrow r] met before the resource type item [r] was converted) is not
          excluded: it depends on the ORDER of the items, for which no graph predicate is given here; it was never
          observed (0 of > 46,000 generated components);
        - for [PDupOwner] the situation is characterised exactly on the run ([dup_owner_needs_shared_created] below) and
          by the decidable graph predicate [ConvertSpec.shares_created_b]; that the panic implies the graph predicate
          needs "every instance / component type node is converted at most once", which is not proved; the
          correspondence checks  panic <-> predicate  on every case (22 panics = 22 graphs with the predicate in 6,236). *)
Theorem conversion_panics_only_partial : forall g, wt_graph_b g = true ->
  forall hfuel fuel t0, mild (conv_items hfuel fuel g t0).
Proof. exact conv_items_mild. Qed.
Print Assumptions conversion_panics_only_partial.

(** (c) The dup-owner panic, exactly: [use_or_own] panics iff the referenced identifier has no origin on its alias chain
        while the created identifier already has one; and then (the [owners] table being the origin table of the type
        items met so far) an EARLIER type item has the same created identifier -- two type items sharing a created
        identifier is the situation of finding F1 (the validator's copies of an instance type). *)
Theorem dup_owner_needs_shared_created : forall hfuel g vn ow name rf cr s,
  log_ok g hfuel s -> use_or_own hfuel g vn ow name rf cr s = CPanic PDupOwner ->
  find_owner hfuel g (cs_owners s) rf = Some None /\ exists x, In x (cs_log s) /\ st_cr x = cr.
Proof. exact dup_owner_situation. Qed.
Print Assumptions dup_owner_needs_shared_created.

(** Not proved: that the joint traversal [walk_package] of the correspondence succeeds and visits the type items in
    the order of [cs_log] (the observational forms [ids_one_to_one_b], [resources_agree_b], [expected_uses] /
    [uses_agree_b] are evaluated on every implementation observation);
    reencode_satisfiable: not stated in Coq (TypeEncoder is not modelled); tested against the reference validator
    for every generated component, see tools/props/c08.py. *)

(** Non-vacuity: a component importing [f: func(x: record { a: u8, b: option<string> }) -> result<_, u32>] under an
    interface name and re-exporting a type; the model converts it, the world has one import and one export, and
    the imported instance unfolds to the expected tree. *)
Definition n_r : str := [114].   Definition n_f : str := [102].   Definition n_a : str := [97].
Definition n_b : str := [98].   Definition n_x : str := [120].   Definition n_t : str := [116].
Definition n_abc : str := [97; 58; 98; 47; 99].                        (* "a:b/c" *)
Definition ex_empty : types := mktypes 1 [] [] [] [] [] [].
Definition ex_graph : vgraph :=
  (mkvg [ (NInst [(n_r, EType 1 2); (n_f, EFunc 4)], None);                          (* 0: instance { r, f } *)
          (NDef (WDRecord [(n_a, WPrim PU8); (n_b, WRef 3)]), None);                   (* 1: record *)
          (NDef (WDRecord [(n_a, WPrim PU8); (n_b, WRef 3)]), Some 1);                 (* 2: its exported copy *)
          (NDef (WDOption (WPrim PString)), None);                                      (* 3 *)
          (NFunc false [(n_x, WRef 2)] (Some (WRef 5)), None);                          (* 4 *)
          (NDef (WDResult None (Some (WPrim PU32))), None) ]                            (* 5 *)
        [(n_abc, EInstance 0)] [(n_t, EType 2 2)] [n_abc])%nat.

Definition ex_expected (r : cres (package * types)) : Prop :=
  match r with
  | COk (p, t) =>
    match get_world t (pk_ty p) with
    | Some w =>
      map fst (w_imports w) = [n_abc] /\ map fst (w_exports w) = [n_t] /\
      option_map (unfold 20 t) (option_map snd (hd_error (w_imports w))) =
      Some (spec_tree 20 ex_graph (EInstance 0%nat)) /\
      spec_tree 20 ex_graph (EInstance 0%nat) =
      Some (XInst [(n_r, XTValue (VTRecord [(n_a, VTPrim PU8); (n_b, VTOption (VTPrim PString))]));
                   (n_f, XFunc (mkft [(n_x, VTRecord [(n_a, VTPrim PU8); (n_b, VTOption (VTPrim PString))])]
                                     (Some (VTResult None (Some (VTPrim PU32)))) false))])
    | None => False
    end
  | _ => False
  end.
Example convert_nonvacuous : ex_expected (from_graph 20 20 ex_graph ex_empty).
Proof. vm_compute. repeat split. Qed.
